(* C02 on the faithful model - the semantic invariant: a fixed assignment m that satisfies the clause database and every
   literal asserted at level 0 keeps doing so through propagate (MI m); through the main loop, m either has been recorded as a
   solution (Found) or still has MI (LM).  It is the engine of the soundness of INFEASIBLE and of the completeness of an
   exhausted enumeration. *)
From Coq Require Import List ZArith Bool Lia.
Import ListNotations.
From SV Require Import C01.SatSpec C01.Machine C01.DeepCdcl C01.DeepBase C01.DeepTrail C01.DeepTrailProp C01.DeepAnalyze
  C01.DeepWatch C01.DeepReason C01.DeepReasonProp C01.DeepReduce C01.DeepRun C01.DeepSteps C01.DeepAlgo C01.DeepResult
  C01.RupProofs C01.SatLemmas C01.Deep2Total.
Close Scope Z_scope.
Open Scope nat_scope.

Section Sem.
Variable m : asg.

(* MI m s (m is still in play): m satisfies every clause of the database (mi_db) and falsifies every literal that is false at
   level 0 (mi_l0) *)
Definition mi_db (s : st) : Prop := forall c, In c (db s) -> clause_true m c = true.
Definition mi_l0 (s : st) : Prop :=
  forall l, l <> 0%Z -> lit_value s l = Some false -> level_of s (lvar l) = 0 -> lit_true m l = false.
Definition MI (s : st) : Prop := mi_db s /\ mi_l0 s.

Lemma MI_frame : forall s s', (forall l, lit_value s' l = lit_value s l) -> (forall v, level_of s' v = level_of s v) ->
  (forall c', In c' (db s') -> exists c, In c (db s) /\ same_mem c c') -> MI s -> MI s'.
Proof.
  intros s s' Hv Hl Hdb [H1 H2]. split.
  - intros c' Hc'. destruct (Hdb c' Hc') as [c [Hc Hm]]. eapply clause_true_same_mem; [exact Hm | apply H1; exact Hc].
  - intros l Hnz Hf H0. rewrite Hv in Hf. rewrite Hl in H0. apply H2; assumption.
Qed.

Lemma same_mem_refl : forall c, same_mem c c.
Proof. intros c l. tauto. Qed.

Lemma MI_same_db : forall s s', (forall l, lit_value s' l = lit_value s l) -> (forall v, level_of s' v = level_of s v) ->
  db s' = db s -> MI s -> MI s'.
Proof.
  intros s s' Hv Hl Ed H. apply (MI_frame s); auto. intros c' Hc'. rewrite Ed in Hc'. exists c'. split; [exact Hc' | apply same_mem_refl].
Qed.

Lemma MI_asg_frame : forall s s', asg_eq s s' -> (forall c', In c' (db s') -> exists c, In c (db s) /\ same_mem c c') -> MI s -> MI s'.
Proof.
  intros s s' EA Hdb H.
  apply (MI_frame s); [intros l; apply asg_eq_lit_value; exact EA | intros v; apply asg_eq_level_of; exact EA | exact Hdb | exact H].
Qed.

Lemma MI_asg_db : forall s s', asg_eq s s' -> db s' = db s -> MI s -> MI s'.
Proof.
  intros s s' EA Ed H.
  apply (MI_same_db s); [intros l; apply asg_eq_lit_value; exact EA | intros v; apply asg_eq_level_of; exact EA | exact Ed | exact H].
Qed.

Lemma db_set_clause_mem : forall s ci c c', same_mem c (get_clause s ci) -> In c' (db (set_clause s ci c)) ->
  exists c0, In c0 (db s) /\ same_mem c0 c'.
Proof.
  intros s ci c c' Hm Hc'. destruct (in_db_get_clause _ _ Hc') as [r [Hr E]]. rewrite n_clauses_set_clause in Hr.
  destruct (Nat.eq_dec r ci) as [Q|Q].
  - subst r. destruct (Nat.lt_ge_cases ci (n_clauses s)) as [L|L]; [|lia].
    rewrite get_clause_set_clause_eq in E by exact L. subst c'. exists (get_clause s ci). split; [apply get_clause_in_db; exact L|].
    intros l. symmetry. apply Hm.
  - rewrite get_clause_set_clause_neq in E by exact Q. subst c'. exists (get_clause s r). split; [apply get_clause_in_db; exact Hr | apply same_mem_refl].
Qed.

Lemma MI_set_clause : forall s ci c, same_mem c (get_clause s ci) -> MI s -> MI (set_clause s ci c).
Proof.
  intros s ci c Hm H. apply (MI_asg_frame s); [apply set_clause_asg | intros c' Hc'; exact (db_set_clause_mem s ci c c' Hm Hc') | exact H].
Qed.

Lemma db_set_watch_list : forall s l ws, db (set_watch_list s l ws) = db s.
Proof. intros. unfold db, set_watch_list. destruct (lpos l); reflexivity. Qed.

Lemma MI_set_watch_list : forall s l ws, MI s -> MI (set_watch_list s l ws).
Proof. intros. apply (MI_asg_db s); [apply set_watch_list_asg | apply db_set_watch_list | assumption]. Qed.

Lemma MI_add_watch : forall l i s, MI s -> MI (add_watch l i s).
Proof. intros. unfold add_watch. apply MI_set_watch_list. assumption. Qed.

Lemma MI_bump : forall s, MI s -> MI (bump_confl s).
Proof. intros. apply (MI_asg_db s); [apply bump_confl_asg | reflexivity | assumption]. Qed.

Lemma MI_set_head : forall s h, MI s -> MI (set_head s h).
Proof. intros s h H. apply (MI_same_db s); auto. Qed.

Lemma MI_push_lim : forall s, MI s -> MI (push_lim s).
Proof. intros s H. apply (MI_same_db s); auto. Qed.

Lemma MI_unassign_to : forall s k, trail_inv s -> MI s -> MI (unassign_to k s).
Proof.
  intros s k HT [H1 H2]. destruct (unassign_to_spec s k HT) as [popped (_ & EL & _ & _ & _ & Hpop & Hkeep & _)]. split.
  - intros c Hc. apply H1. unfold db in *. destruct (unassign_to_db_eq k s) as (E1 & E2 & _). rewrite E1, E2 in Hc. exact Hc.
  - intros l Hnz Hf H0. unfold level_of in H0. rewrite EL in H0. apply H2; auto.
    unfold lit_value in *. destruct (in_dec Nat.eq_dec (lvar l) popped) as [I|I]; [rewrite (Hpop _ I) in Hf; discriminate | rewrite (Hkeep _ I) in Hf; exact Hf].
Qed.

Lemma MI_assign_lit : forall s a r, trail_inv s -> val_of s (lvar a) = None -> lvar a < length (s_vals s) -> a <> 0%Z ->
  (cur_level s = 0 -> lit_true m a = true) -> MI s -> MI (assign_lit a r s).
Proof.
  intros s a r HT Hn Hr Ha0 Hob [H1 H2]. unfold assign_lit. split; [exact H1|].
  intros l Hnz Hf H0. rewrite level_of_assign in H0 by (rewrite (ti_len_levels s HT); exact Hr).
  destruct (Nat.eqb_spec (lvar a) (lvar l)) as [E|E].
  - rewrite lit_value_assign_same in Hf by auto. injection Hf as Hf.
    assert (l = (- a)%Z) as El.
    { assert (lpos l = negb (lpos a)) as Q by (destruct (lpos a), (lpos l); simpl in *; congruence).
      apply slot_eq; [|rewrite lvar_opp; symmetry; exact E]. rewrite Q. unfold lpos. destruct (Z.ltb_spec 0 a); destruct (Z.ltb_spec 0 (- a)); simpl; try reflexivity; lia. }
    subst l. rewrite lit_true_opp by exact Ha0. rewrite (Hob H0). reflexivity.
  - rewrite lit_value_assign_other in Hf by (intros C; apply E; symmetry; exact C). apply H2; assumption.
Qed.

Lemma MI_assign_high : forall s v b r, trail_inv s -> v < length (s_vals s) -> cur_level s <> 0 -> MI s -> MI (assign v b r s).
Proof.
  intros s v b r HT Hr Hc [H1 H2]. split; [exact H1|]. intros l Hnz Hf H0.
  rewrite level_of_assign in H0 by (rewrite (ti_len_levels s HT); exact Hr).
  destruct (Nat.eqb_spec v (lvar l)) as [E|E]; [contradiction|].
  rewrite lit_value_assign_other in Hf by (intros C; apply E; symmetry; exact C). apply H2; assumption.
Qed.

Lemma MI_false0 : forall s l, trail_inv s -> MI s -> cur_level s = 0 -> l <> 0%Z -> lit_value s l = Some false -> lit_true m l = false.
Proof.
  intros s l HT [_ H2] Hc0 Hnz Hf. apply H2; [exact Hnz | exact Hf|].
  assert (In (lvar l) (s_trail s)) as Hin by (apply (ti_assigned s HT); eapply lit_value_assigned; exact Hf).
  pose proof (level_le_cur s (lvar l) HT Hin). lia.
Qed.

Lemma MI_conflict0 : forall s ci, BI s -> MI s -> cur_level s = 0 -> ci < n_clauses s ->
  (forall l, In l (get_clause s ci) -> lit_value s l = Some false) -> False.
Proof.
  intros s ci HB HM Hc0 Hci Hall. pose proof (proj1 HM _ (get_clause_in_db s ci Hci)) as Q.
  apply existsb_exists in Q. destruct Q as [l [Hl Ht]].
  rewrite (MI_false0 s l (proj1 (bi_ti s HB)) HM Hc0 (bi_nz s HB ci l Hl) (Hall l Hl)) in Ht. discriminate.
Qed.

Lemma MI_unit : forall s ci a r, BI s -> MI s -> ci < n_clauses s -> In a (get_clause s ci) -> val_of s (lvar a) = None ->
  (forall l, In l (get_clause s ci) -> l = a \/ lit_value s l = Some false) -> MI (assign_lit a r s).
Proof.
  intros s ci a r HB HM Hci Ha Hn Hall. pose proof (proj1 (bi_ti s HB)) as HT. apply MI_assign_lit; auto.
  - pose proof (get_clause_in s ci (proj2 (bi_ti s HB))) as Q. unfold clause_in in Q. rewrite Forall_forall in Q. exact (Q a Ha).
  - exact (bi_nz s HB ci a Ha).
  - (* at level 0 the clause is true under m and its other literals are false under m *)
    intros Hc0. pose proof (proj1 HM _ (get_clause_in_db s ci Hci)) as Q. apply existsb_exists in Q. destruct Q as [l [Hl Ht]].
    destruct (Hall l Hl) as [E|Hf]; [subst l; exact Ht|].
    rewrite (MI_false0 s l HT HM Hc0 (bi_nz s HB ci l Hl) Hf) in Ht. discriminate.
Qed.

Lemma wnorm_MI : forall fl i s s1 ci a r, wnorm fl i s s1 ci a r -> MI s -> MI s1.
Proof.
  intros fl i s s1 ci a r (_ & _ & _ & _ & [E|E] & _) H; subst s1; [exact H|].
  apply MI_set_clause; [|exact H]. intros l. apply In_swap01.
Qed.

Lemma wcase_MI : forall fl i s w, WI fl s -> MI s -> wcase fl i s w ->
  match w with WDone => True | WNext s' => MI s' | WStay s' => MI s' | WConf s' _ => MI s' end.
Proof.
  intros fl i s w HW HM C.
  destruct C as [Hd | s1 ci a r Hn Ht | s1 ci a r j Hn Ht Hj Hnf | s1 ci a r Hn Hall Ha | s1 ci a r Hn Hall Ha].
  - exact I.
  - eapply wnorm_MI; eauto.
  - pose proof (wnorm_MI _ _ _ _ _ _ _ Hn HM) as H1. destruct Hn as (_ & _ & _ & Hc & _ & _).
    apply MI_add_watch, MI_set_watch_list, MI_set_clause; [|exact H1]. rewrite Hc. intros l. apply (In_swap1k a fl r j l Hj).
  - apply MI_bump. eapply wnorm_MI; eauto.
  - pose proof (wnorm_MI _ _ _ _ _ _ _ Hn HM) as H1. destruct (wnorm_WI _ _ _ _ _ _ _ HW Hn) as [(HB1 & Hf1 & _) _].
    pose proof (wnorm_ci _ _ _ _ _ _ _ Hn) as Hci1. destruct Hn as (_ & _ & _ & Hc & _ & _).
    assert (In a (get_clause s1 ci)) as Hin by (rewrite Hc; left; reflexivity).
    assert (val_of s1 (lvar a) = None) as Hna by (unfold lit_value in Ha; destruct (val_of s1 (lvar a)); [discriminate|reflexivity]).
    apply (MI_unit s1 ci a (Some ci) HB1 H1 Hci1 Hin Hna).
    rewrite Hc. intros l [Q|[Q|Q]]; [left; symmetry; exact Q | subst l; right; exact Hf1 | right; apply Hall; exact Q].
Qed.

Lemma prop_watch_MI : forall fuel fl i s s' r, WI fl s -> MI s -> prop_watch fuel fl i s = Some (s', r) -> MI s'.
Proof.
  intros fuel fl i s s' r HW HM E.
  assert (WI fl s' /\ MI s') as [_ Q]; [|exact Q].
  apply (prop_watch_inv (fun x => WI fl x /\ MI x) fl) with (fuel := fuel) (i := i) (s := s) (r := r); [| split; assumption | exact E].
  intros i0 s0 [H0 M0]. pose proof (watch_step_wcase fl i0 s0 (bi_wle s0 (proj1 H0))) as C.
  pose proof (wcase_WI fl i0 s0 _ H0 C) as HW'. pose proof (wcase_MI fl i0 s0 _ H0 M0 C) as HM'.
  destruct (watch_step fl i0 s0) as [|s1|s1|s1 ci]; simpl; [exact Logic.I | split; assumption | split; assumption | split; [exact (proj1 HW') | exact HM']].
Qed.

Lemma prop_bin_MI : forall fl imps s s' r, WI fl s -> MI s -> (forall p, In p imps -> In p (implications s fl)) ->
  prop_bin imps s = (s', r) -> MI s'.
Proof.
  intros fl. induction imps as [|[implied ci] imps IH]; intros s s' r HW HM Hsub E; simpl in E.
  - injection E as E1 E2. subst. exact HM.
  - assert (forall p, In p imps -> In p (implications s fl)) as Hsub' by (intros p Hp; apply Hsub; right; exact Hp).
    destruct (val_of s (lvar implied)) as [b|] eqn:EV.
    + destruct (Bool.eqb b (lpos implied)); [exact (IH s s' r HW HM Hsub' E)|]. injection E as E1 E2. subst. apply MI_bump. exact HM.
    + (* the clause is {fl, implied} and fl is false *)
      pose proof HW as (HB & Hf & _). destruct (bi_big s HB fl implied ci (Hsub _ (or_introl eq_refl))) as [Hci Hc].
      assert (In implied (get_clause s ci)) as Himpl by (destruct Hc as [Q|Q]; rewrite Q; simpl; auto).
      assert (forall l, In l (get_clause s ci) -> l = implied \/ lit_value s l = Some false) as Hall.
      { intros l Hin. destruct Hc as [Q|Q]; rewrite Q in Hin; simpl in Hin; destruct Hin as [Q1|[Q1|[]]]; subst l; auto. }
      apply (IH _ s' r (WI_imply fl s implied ci HW Hci Himpl EV Hall) (MI_unit s ci implied _ HB HM Hci Himpl EV Hall)); [|exact E].
      intros p Hp. unfold assign_lit. rewrite (db_eq_implications _ _ _ (assign_db_eq _ _ _ s)). exact (Hsub' p Hp).
Qed.

Lemma head_step_MI : forall inner s s' r, BI s -> MI s -> s_head s < length (s_trail s) -> head_step inner s = Some (s', r) -> MI s'.
Proof.
  intros inner s s' r H HM Hlt E. unfold head_step in E. pose proof (head_step_WI s H Hlt) as HW.
  set (s1 := set_head s (S (s_head s))) in *. set (fl := false_lit_of s1 (trail_at s (s_head s))) in *.
  assert (MI s1) as HM1 by (apply MI_set_head; exact HM).
  destruct (prop_bin (implications s1 fl) s1) as [s2 [ci|]] eqn:EB;
    pose proof (prop_bin_MI fl _ s1 s2 _ HW HM1 (fun p Hp => Hp) EB) as HM2.
  - injection E as E1 E2. subst s' r. exact HM2.
  - destruct (prop_bin_WI fl _ s1 s2 None HW (fun p Hp => Hp) EB) as [HW2 _]. exact (prop_watch_MI _ _ _ _ _ _ HW2 HM2 E).
Qed.

Lemma prop_loop_MI : forall fuel inner s s' c, BI s -> MI s -> prop_loop fuel inner s = Some (s', c) -> MI s'.
Proof.
  induction fuel as [|f IH]; intros inner s s' c H HM E; simpl in E; [discriminate|].
  destruct (Nat.ltb_spec (s_head s) (length (s_trail s))) as [L|L].
  - destruct (head_step inner s) as [[s1 [ci|]]|] eqn:EH; [| |discriminate].
    + injection E as E1 E2. subst. exact (head_step_MI inner s s' (Some ci) H HM L EH).
    + destruct (head_step_BI _ _ _ _ H L EH) as [H1 _]. eapply IH; [exact H1 | exact (head_step_MI inner s s1 None H HM L EH) | exact E].
  - injection E as E1 E2. subst. exact HM.
Qed.

Lemma prop_assums_MI : forall A s s' r, assum_ok (nv s) A -> agrees m A -> BI s -> MI s -> cur_level s = 0 ->
  prop_assums A s = (s', r) -> MI s' /\ (r = true -> False).
Proof.
  induction A as [|l A IH]; intros s s' r HA Hag H HM Hc E; simpl in E.
  - injection E as E1 E2. subst. split; [exact HM | discriminate].
  - inversion HA as [|? ? [Hl0 Hl] HA']; subst.
    assert (agrees m A) as Hag' by (intros a Ha; apply Hag; right; exact Ha).
    assert (lit_true m l = true) as Hlt by (apply Hag; left; reflexivity).
    destruct (val_of s (lvar l)) as [b|] eqn:EV.
    + destruct (Bool.eqb b (lpos l)) eqn:EB; [eapply IH; eauto|].
      injection E as E1 E2. subst. split; [apply MI_bump; exact HM|]. intros _.
      (* the assumption is false at level 0: impossible under m *)
      assert (lit_value s l = Some false) as Hf by (unfold lit_value; rewrite EV, EB; reflexivity).
      rewrite (MI_false0 s l (proj1 (bi_ti s H)) HM Hc Hl0 Hf) in Hlt. discriminate.
    + assert (BI (assign_lit l None s)) as H1.
      { unfold assign_lit. apply BI_assign; auto. apply lvar_nonzero; exact Hl0. discriminate. }
      apply (IH (assign_lit l None s) s' r); auto.
      * unfold assign_lit. rewrite nv_assign. exact HA'.
      * apply MI_assign_lit; auto. exact (proj1 (bi_ti s H)).
Qed.

Theorem propagate_MI : forall fuel A s s' c, assum_ok (nv s) A -> agrees m A -> BI s -> MI s ->
  propagate fuel A s = Some (s', c) ->
  MI s' /\ c <> CAssum /\ (forall ci, c = CAt ci -> cur_level s' = 0 -> False).
Proof.
  intros fuel A s s' c HA Hag H HM E.
  destruct (propagate_BI fuel A s s' c HA H E) as (HB' & Hconf & _ & _).
  assert (MI s' /\ c <> CAssum) as [HM' Hna].
  { unfold propagate in E. destruct (Nat.eqb_spec (cur_level s) 0) as [Hc|Hc].
    - destruct (prop_assums A s) as [s1 [|]] eqn:EA; destruct (prop_assums_MI _ _ _ _ HA Hag H HM Hc EA) as [HM1 Hno]; [exfalso; auto|].
      destruct (prop_assums_BI _ _ _ _ HA H Hc EA) as (H1 & _ & _).
      split; [exact (prop_loop_MI _ _ _ _ _ H1 HM1 E)|]. destruct (prop_loop_BI _ _ _ _ _ H1 E) as (_ & _ & _ & Q). exact Q.
    - split; [exact (prop_loop_MI _ _ _ _ _ H HM E)|]. destruct (prop_loop_BI _ _ _ _ _ H E) as (_ & _ & _ & Q). exact Q. }
  split; [exact HM'|]. split; [exact Hna|].
  intros ci Ec Hc0. destruct (Hconf ci Ec) as (Hci & Hfalse & _). exact (MI_conflict0 s' ci HB' HM' Hc0 Hci Hfalse).
Qed.

End Sem.

Definition same_on (n : nat) (m : asg) (sol : model) : Prop := forall v, 1 <= v <= n -> m (zvar v) = asg_of sol (zvar v).
Definition Found (m : asg) (n : nat) (sols : list model) : Prop := exists sol, In sol sols /\ same_on n m sol.

Lemma Found_cons : forall m n sol sols, Found m n sols -> Found m n (sol :: sols).
Proof. intros m n sol sols [x [Q1 Q2]]. exists x. split; [right; exact Q1 | exact Q2]. Qed.

Lemma db_append : forall c k s c', In c' (db (append_learned c k s)) -> In c' (db s) \/ c' = c.
Proof.
  intros c k s c' H. unfold db, append_learned in *. simpl in H. rewrite app_assoc in H. apply in_app_or in H.
  destruct H as [H|[H|[]]]; [left; exact H | right; symmetry; exact H].
Qed.

Lemma MI_append : forall m c k s, clause_true m c = true -> MI m s -> MI m (append_learned c k s).
Proof.
  intros m c k s Hc [H1 H2]. split; [|exact H2]. intros c' Hc'. destruct (db_append _ _ _ _ Hc') as [Q|Q]; [apply H1; exact Q | subst; exact Hc].
Qed.

Lemma db_attach : forall c i s, db (attach c i s) = db s.
Proof. intros. unfold db. rewrite orig_attach. rewrite (proj1 (learned_attach c i s)). reflexivity. Qed.

Lemma MI_attach : forall m c i s, MI m s -> MI m (attach c i s).
Proof. intros. apply (MI_asg_db m s); [apply attach_asg | apply db_attach | assumption]. Qed.

Lemma MI_reduce_db : forall m s, MI m s -> MI m (reduce_db s).
Proof.
  intros m s H. apply (MI_asg_frame m s); [apply reduce_db_asg | | exact H].
  intros c' Hc'. exists c'. split; [|apply same_mem_refl]. unfold db in *. rewrite orig_reduce_db in Hc'.
    apply in_app_or in Hc'. apply in_or_app. destruct Hc' as [Q|Q]; [left; exact Q|right].
    unfold reduce_db in Q. destruct (length (s_learned s) <? reduce_threshold); [exact Q|].
    rewrite (proj1 (learned_attach_all _ _ _)) in Q. simpl in Q. apply kept_in_learned. exact Q.
Qed.

Lemma MI_set_last : forall m s c b L, s_learned s = L ++ [b] -> same_mem c b -> MI m s -> MI m (set_last_learned s c).
Proof.
  intros m s c b L EL Hm H. apply (MI_asg_frame m s); [apply set_last_learned_asg | | exact H].
  intros c' Hc'. unfold db, set_last_learned in *. simpl in Hc'. rewrite EL, removelast_app_one in Hc'. rewrite EL.
    apply in_app_or in Hc'. destruct Hc' as [Q|Q]; [exists c'; split; [apply in_or_app; left; exact Q | apply same_mem_refl]|].
    apply in_app_or in Q. destruct Q as [Q|[Q|[]]].
  - exists c'. split; [apply in_or_app; right; apply in_or_app; left; exact Q | apply same_mem_refl].
  - subst c'. exists b. split; [apply in_or_app; right; apply in_or_app; right; left; reflexivity|]. intros l. symmetry. apply Hm.
Qed.

Lemma learn_MI : forall m s ci lc bt lbd, BI s -> MI m s -> conflict_ok s ci -> analyze s ci = Some (lc, bt, lbd) ->
  MI m (learn_st s lc bt lbd).
Proof.
  intros m s ci lc bt lbd H HM Hconf E. unfold learn_st.
  destruct (learn_mid s ci lc bt lbd H Hconf E) as (u & ll' & Ell & _ & H2 & _ & N2 & Hg2 & Hun & Hll2 & _).
  set (s1 := unassign_to bt s) in *. set (s2 := attach lc (n_clauses s1) (append_learned lc lbd s1)) in *.
  destruct (BI_analyze_hyps s H) as (HT & Hnz & HR & HD).
  assert (clause_true m lc = true) as Hmlc.
  { destruct Hconf as (Hci & Hfalse & _).
    apply (analyze_entailed s ci lc bt lbd HT Hnz HR HD (get_clause_in_db s ci Hci) Hfalse E). exact (proj1 HM). }
  assert (MI m s2) as HM2 by (unfold s2; apply MI_attach, MI_append; [exact Hmlc | apply MI_unassign_to; assumption]).
  (* the learned clause is unit after the backjump *)
  rewrite Ell. apply (MI_unit m s2 (n_clauses s1) _ (Some (n_clauses s1)) H2 HM2).
  - rewrite N2. apply Nat.lt_succ_diag_r.
  - rewrite Hg2, Ell. left. reflexivity.
  - rewrite lvar_false_lit_of. exact Hun.
  - rewrite Hg2, Ell. intros l [Q|Q]; [left; symmetry; exact Q | right; exact (Hll2 l Q)].
Qed.

Lemma asg_of_solution : forall s n v, 1 <= v <= n -> val_of s v <> None ->
  asg_of (solution_of s n) (zvar v) = match val_of s v with Some true => true | _ => false end.
Proof.
  intros s n v Hv Ha. unfold asg_of. destruct (mem (zvar v) (solution_of s n)) eqn:E.
  - apply mem_In in E. apply In_solution_pos in E. destruct E as [_ E]. rewrite E. reflexivity.
  - destruct (val_of s v) as [[|]|] eqn:EV; [|reflexivity|congruence]. exfalso.
    assert (In (zvar v) (solution_of s n)) as Q by (apply In_solution_pos; auto). apply mem_In in Q. congruence.
Qed.

Lemma same_or_blocked : forall m s n, all_assigned s n = true ->
  same_on n m (solution_of s n) \/ clause_true m (blocking_of s n) = true.
Proof.
  intros m s n Hall.
  destruct (forallb (fun v => Bool.eqb (m (zvar v)) (asg_of (solution_of s n) (zvar v))) (seq 1 n)) eqn:E.
  - left. intros v Hv. rewrite forallb_forall in E. apply eqb_prop. apply E. apply in_seq. lia.
  - right. destruct (forallb_false_ex _ _ E) as [v [Hv Hd]].
    pose proof Hv as Hv'. apply in_seq in Hv'.
    assert (val_of s v <> None) as Ha by (apply (all_assigned_val s n); [exact Hall | lia]).
    rewrite asg_of_solution in Hd by (auto; lia).
    apply existsb_exists. unfold blocking_of.
    destruct (val_of s v) as [[|]|] eqn:EV; [| |congruence].
    + exists (- zvar v)%Z. split; [apply in_flat_map; exists v; split; [exact Hv | rewrite EV; left; reflexivity]|].
      unfold lit_true. destruct (Z.ltb_spec 0 (- zvar v)) as [L|L]; [unfold zvar in L; lia|]. rewrite Z.opp_involutive.
      destruct (m (zvar v)); [discriminate | reflexivity].
    + exists (zvar v). split; [apply in_flat_map; exists v; split; [exact Hv | rewrite EV; left; reflexivity]|].
      unfold lit_true. destruct (Z.ltb_spec 0 (zvar v)) as [L|L]; [|unfold zvar in L; lia].
      destruct (m (zvar v)); [reflexivity | discriminate].
Qed.

(* bm_*: recording a model when m satisfies its blocking clause; s0, s1, s2 are the states of DeepRun's Section Block
   (clause appended, back at level 0, clause sorted) *)
Section BlockM.
Variable m : asg.
Variable s : st.
Variable n : nat.
Hypothesis HB : BI s.
Hypothesis Hnv : nv s = S n.
Hypothesis HM : MI m s.
Hypothesis Hblk : clause_true m (blocking_of s n) = true.

Let blocking := blocking_of s n.
Let cidx := n_clauses s.
Let s0 := append_learned blocking 0 s.
Let s1 := unassign_to 0 s0.
Let sorted := sort_blocking s1 blocking.
Let s2 := set_last_learned s1 sorted.

Lemma bm_sorted_mem : same_mem sorted blocking.
Proof.
  intros l. unfold sorted, sort_blocking. rewrite in_app_iff, !filter_In.
  destruct (is_false (lit_value s1 l)); simpl; intuition congruence.
Qed.

Lemma bm_s2 : MI m s2.
Proof.
  unfold s2. apply (MI_set_last m s1 sorted blocking (s_learned s)); [exact (blk_learned1 s n HB Hnv) | exact bm_sorted_mem|].
  unfold s1. apply MI_unassign_to; [exact (proj1 (bi_ti _ (blk_s0 s n HB Hnv)))|]. unfold s0. apply MI_append; assumption.
Qed.

Lemma bm_G2 : BI s2 /\ cur_level s2 = 0 /\ nv s2 = nv s. Proof. exact (blk_s2 s n HB Hnv). Qed.
Lemma bm_get2 : forall r, get_clause s2 r = if r =? cidx then sorted else get_clause s1 r. Proof. exact (blk_get2 s n HB Hnv). Qed.
Lemma bm_n2 : n_clauses s2 = S cidx. Proof. exact (proj1 (blk_nclauses2 s n HB Hnv)). Qed.
Lemma bm_open : blk_open s n = length (filter (fun l => negb (is_false (lit_value s2 l))) sorted). Proof. reflexivity. Qed.

(* every literal of the blocking clause false at level 0: impossible under m *)
Lemma bm_open0 : blk_open s n = 0 -> False.
Proof.
  intros Ho. destruct bm_G2 as (H2 & Hc2 & _). apply (MI_conflict0 m s2 cidx H2 bm_s2 Hc2); [rewrite bm_n2; lia|].
  rewrite bm_get2, Nat.eqb_refl. intros l Hl. rewrite bm_open in Ho.
  destruct (is_false (lit_value s2 l)) eqn:E; [destruct (lit_value s2 l) as [[|]|]; simpl in E; congruence|]. exfalso.
  assert (In l (filter (fun l => negb (is_false (lit_value s2 l))) sorted)) as Q by (apply filter_In; split; [exact Hl | rewrite E; reflexivity]).
  destruct (filter (fun l => negb (is_false (lit_value s2 l))) sorted); [contradiction | discriminate].
Qed.

Lemma bm_s3 : blk_open s n <> 0 -> MI m (blk_s3 s n).
Proof.
  intros Ho. assert (blk_s3 s n = if blk_open s n =? 1 then assign_lit (nth 0 sorted 0%Z) (Some cidx) s2 else s2) as E3 by reflexivity.
  rewrite E3. destruct (Nat.eqb_spec (blk_open s n) 1) as [Ho1|Ho1]; [|exact bm_s2].
  destruct bm_G2 as (H2 & _ & _). destruct (blk_first_open s n Ho) as [Hx1 Hx2]. fold blocking s0 s1 sorted s2 in Hx1, Hx2.
  set (x := nth 0 sorted 0%Z) in *.
  assert (In x sorted) as Hxs by (apply bm_sorted_mem; exact Hx1).
  assert (forall l, In l sorted -> l = x \/ lit_value s2 l = Some false) as Hothers.
  { intros l Hl. destruct (is_false (lit_value s2 l)) eqn:E; [right; destruct (lit_value s2 l) as [[|]|]; simpl in E; congruence|]. left.
    rewrite bm_open in Ho1.
    assert (In l (filter (fun l => negb (is_false (lit_value s2 l))) sorted)) as Q1 by (apply filter_In; split; [exact Hl | rewrite E; reflexivity]).
    assert (In x (filter (fun l => negb (is_false (lit_value s2 l))) sorted)) as Q2 by (apply filter_In; split; [exact Hxs | rewrite Hx2; reflexivity]).
    destruct (filter (fun l => negb (is_false (lit_value s2 l))) sorted) as [|y [|z r]]; simpl in Ho1; try lia.
    destruct Q1 as [Q1|[]]. destruct Q2 as [Q2|[]]. congruence. }
  assert (val_of s2 (lvar x) = None) as Hvx by (apply (blk_not_true s n HB Hnv); assumption).
  assert (get_clause s2 cidx = sorted) as Q by (rewrite bm_get2, Nat.eqb_refl; reflexivity).
  (* the blocking clause is unit at level 0 *)
  apply (MI_unit m s2 cidx x (Some cidx) H2 bm_s2); rewrite ?Q; [rewrite bm_n2; apply Nat.lt_succ_diag_r | exact Hxs | exact Hvx | exact Hothers].
Qed.

Lemma bm_s4 : blk_open s n <> 0 -> MI m (blk_s4 s n).
Proof.
  intros Ho. assert (blk_s4 s n = if 2 <=? length sorted then add_watch (nth 1 sorted 0%Z) cidx (add_watch (nth 0 sorted 0%Z) cidx (blk_s3 s n)) else blk_s3 s n) as E4 by reflexivity.
  rewrite E4. destruct (2 <=? length sorted); [apply MI_add_watch, MI_add_watch|]; apply bm_s3; exact Ho.
Qed.

End BlockM.

(* MIok: MI for the loop state, and the pending conflict is neither an assumption conflict nor at level 0 *)
Definition MIok (m : asg) (L : loop) : Prop :=
  MI m (l_st L) /\ l_conflict L <> CAssum /\ (forall ci, l_conflict L = CAt ci -> cur_level (l_st L) <> 0).
Definition LM (m : asg) (P : params) (L : loop) : Prop := Found m (p_nvars P) (l_sols L) \/ MIok m L.

Lemma MIok_after_propagate : forall m fuel A s L', assum_ok (nv s) A -> agrees m A -> BI s -> MI m s ->
  propagate fuel A s = Some (l_st L', l_conflict L') -> MIok m L'.
Proof.
  intros m fuel A s L' HA Hag H HM E. destruct (propagate_MI m fuel A s _ _ HA Hag H HM E) as (Q1 & Q2 & Q3).
  split; [exact Q1|]. split; [exact Q2|]. intros ci Ec Hc0. exact (Q3 ci Ec Hc0).
Qed.

Lemma step_prop_LM : forall m P L x, LI P L -> MI m (l_st L) -> step_prop P L x ->
  MI m x \/ (kind_of P L = KBlock /\ same_on (p_nvars P) m (solution_of (l_st L) (p_nvars P))).
Proof.
  intros m P L x HL HM Hp. pose proof HL as [HB Hnv HA Hdec Hconf].
  destruct Hp as [EC EAll Hlim Ho | v orc EC _ _ Hv Hvn | ci lc bt lbd lv EC Hd EA _ _ _ | ci lc bt lbd EC Hd EA _].
  - destruct (same_or_blocked m (l_st L) (p_nvars P) EAll) as [Hsame|Hblk].
    + right. split; [unfold kind_of; rewrite EC, EAll; reflexivity | exact Hsame].
    + left. exact (bm_s4 m (l_st L) (p_nvars P) HB Hnv HM Hblk Ho).
  - left. rewrite EC in Hconf.
    apply MI_assign_high; [exact (proj1 (bi_ti _ (BI_push_lim _ HB Hconf))) | | | apply MI_push_lim; exact HM].
    + change (v < nv (l_st L)). rewrite Hnv. lia.
    + unfold cur_level. simpl. rewrite app_length. simpl. lia.
  - left. pose proof (LI_conflict_ok P L ci HL EC Hd) as Hcf. destruct (learn_BI (l_st L) ci lc bt lbd HB Hcf EA) as (H3 & _ & _).
    apply MI_reduce_db, MI_unassign_to; [exact (proj1 (bi_ti _ H3)) | exact (learn_MI m (l_st L) ci lc bt lbd HB HM Hcf EA)].
  - left. exact (learn_MI m (l_st L) ci lc bt lbd HB HM (LI_conflict_ok P L ci HL EC Hd) EA).
Qed.

Theorem main_step_LM : forall m fuel P L L', LI P L -> agrees m (p_assum P) -> LM m P L -> main_step fuel P L = Cont L' -> LM m P L'.
Proof.
  intros m fuel P L L' HL Hag HLM E.
  destruct (main_step_cont_view fuel P L L' E) as [EC EAll Hlim Ho Est Es Elu | x Hp EP Es Elu Hmc].
  - left. rewrite Es. destruct HLM as [HF|(HM & _)]; [apply Found_cons; exact HF|].
    destruct (same_or_blocked m (l_st L) (p_nvars P) EAll) as [Hsame|Hblk].
    + exists (solution_of (l_st L) (p_nvars P)). split; [left; reflexivity | exact Hsame].
    + exfalso. exact (bm_open0 m (l_st L) (p_nvars P) (li_bi _ _ HL) (li_nv _ _ HL) HM Hblk Ho).
  - destruct HLM as [HF|(HM & _)].
    + left. rewrite Es. destruct (kind_of P L); [apply Found_cons| |]; exact HF.
    + destruct (step_prop_LM m P L x HL HM Hp) as [Mx|[Ek Hsame]].
      * right. destruct (step_prop_BI P L x HL Hp) as [HBx Hnx].
        apply (MIok_after_propagate m fuel (p_assum P) x L'); [rewrite Hnx; exact (li_assum _ _ HL) | exact Hag | exact HBx | exact Mx | exact EP].
      * left. rewrite Es, Ek. exists (solution_of (l_st L) (p_nvars P)). split; [left; reflexivity | exact Hsame].
Qed.

(* what the returned Result says about m: INFEASIBLE is impossible; an enumeration that stopped below solution_limit contains m;
   OPTIMAL comes with a model *)
Definition RV (m : asg) (n : nat) (limit : Z) (r : dres) : Prop :=
  (d_status r = INFEASIBLE -> False)
  /\ (d_status r = OPTIMAL -> forall ms, d_solutions r = Some ms -> (Z.of_nat (length ms) < limit)%Z -> Found m n ms)
  /\ (d_status r = OPTIMAL -> d_solution r <> None).

Lemma finish_exhausted_RV : forall m n limit L evs r, Found m n (l_sols L) -> finish_exhausted L = Done evs r -> RV m n limit r.
Proof.
  intros m n limit L evs r [sol [Hin Hs]] E. unfold finish_exhausted, finish in E.
  destruct (l_sols L) as [|x l] eqn:El; [contradiction|]. rewrite <- El in *.
  destruct (rev (l_sols L)) as [|first rest] eqn:Er.
  - exfalso. assert (In sol (rev (l_sols L))) as Q by (apply in_rev in Hin; exact Hin). rewrite Er in Q. contradiction.
  - injection E as E1 E2. subst r. split; simpl; [discriminate|]. split; [|discriminate]. intros _ ms Q _. injection Q as Q. subst ms.
    exists sol. split; [rewrite <- Er; apply in_rev in Hin; exact Hin | exact Hs].
Qed.

Lemma finish_maxiter_RV : forall m n limit L evs r, finish L MAX_ITER = Done evs r -> RV m n limit r.
Proof.
  intros m n limit L evs r E. unfold finish in E. destruct (rev (l_sols L)); injection E as E1 E2; subst r; split; simpl; [discriminate | split; discriminate | discriminate | split; discriminate].
Qed.

Theorem main_step_stop_RV : forall m fuel P L evs r, LI P L -> LM m P L -> main_step fuel P L = Stop (Done evs r) ->
  RV m (p_nvars P) (p_limit P) r.
Proof.
  intros m fuel P L evs r HL HLM E. pose proof (main_step_stop fuel P L _ E) as V. remember (Done evs r) as o eqn:Eo.
  destruct V as [sol _ _ _ Hlim | Hc Hl0 | L2 _ | e0 evs0 _ | evs0 _ | x evs0 _ _]; try discriminate.
  - (* solution_limit reached: nothing is claimed about a list that long *)
    injection Eo as _ Er. subst r. split; cbn [d_status d_solutions d_solution]; [discriminate|]. split; [|discriminate].
    intros _ ms Q Hlt. destruct (p_limit P =? 1)%Z; [discriminate|]. injection Q as Q. subst ms.
    simpl in Hlt. rewrite app_length, rev_length in Hlt. simpl in Hlt. lia.
  - (* conflict at level 0 or assumption conflict: m must have been recorded *)
    destruct HLM as [HF|(_ & Hna & Hnl)]; [exact (finish_exhausted_RV m _ _ L evs r HF Eo)|].
    exfalso. destruct (l_conflict L) as [| |ci] eqn:EC; [apply Hc; reflexivity | apply Hna; reflexivity|].
    pose proof (Hnl ci eq_refl) as Hlev. rewrite <- (li_dec _ _ HL) in Hlev. destruct (Hl0 ci eq_refl) as [Q|Q]; [exact (Hlev Q)|].
    apply (analyze_not_none (l_st L) ci (li_bi _ _ HL) (LI_conflict_ok P L ci HL EC Hlev)); [rewrite <- (li_dec _ _ HL); exact Hlev | exact Q].
  - exact (finish_maxiter_RV m _ _ L2 evs r Eo).
Qed.

Theorem main_loop_RV : forall m inner P fuel L evs r, LI P L -> agrees m (p_assum P) -> LM m P L ->
  main_loop fuel inner P L = Done evs r -> RV m (p_nvars P) (p_limit P) r.
Proof.
  intros m inner P. induction fuel as [|f IH]; intros L evs r H1 Hag H2 E; simpl in E; [discriminate|].
  destruct (main_step inner P L) as [L'|o] eqn:ES.
  - apply (IH L' evs r); [eapply main_step_LI; eauto | exact Hag | eapply main_step_LM; eauto | exact E].
  - subst o. eapply main_step_stop_RV; eauto.
Qed.
