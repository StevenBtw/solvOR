(* C01 deep model - everything before `while True:` establishes the loop invariant LI (DeepRun.v), for every valid
   input; with reach_LI of DeepRun.v: LI holds in every loop state of every run (run_LI, run_learned_entailed). *)
From Coq Require Import List ZArith Bool Arith Lia.
Import ListNotations.
From SV Require Import C01.SatSpec C01.Machine C01.DeepCdcl C01.DeepBase C01.DeepTrail C01.DeepTrailProp C01.DeepAnalyze
  C01.DeepWatch C01.DeepReason C01.DeepReasonProp C01.DeepRunOps C01.DeepReduce C01.DeepRun.
Close Scope Z_scope.
Open Scope nat_scope.

(* max_var is a fold of a fold of steps that never decrease the accumulator *)
Lemma fold_left_ge : forall {X} (g : Z -> X -> Z), (forall a x, (a <= g a x)%Z) ->
  forall l a, (a <= fold_left g l a)%Z.
Proof. intros X g Hg. induction l as [|x l IH]; intros a; simpl; [lia|]. pose proof (IH (g a x)). pose proof (Hg a x). lia. Qed.

Lemma fold_left_ge_in : forall {X} (g : Z -> X -> Z) (b : Z) (x : X), (forall a x, (a <= g a x)%Z) -> (forall a, (b <= g a x)%Z) ->
  forall l a, In x l -> (b <= fold_left g l a)%Z.
Proof.
  intros X g b x Hg Hx. induction l as [|y l IH]; intros a H; simpl; [contradiction|]. destruct H as [E|H]; [|apply IH; exact H].
  subst y. pose proof (fold_left_ge g Hg l (g a x)). pose proof (Hx a). lia.
Qed.

Lemma max_var_bound : forall (f : cnf) c l, In c f -> In l c -> (Z.abs l <= max_var f)%Z.
Proof.
  intros f c l Hc Hl. unfold max_var.
  assert (forall a x, (a <= Z.max a (Z.abs x))%Z) as Hin by (intros; lia).
  apply (fold_left_ge_in _ _ c); [intros a d; apply fold_left_ge; exact Hin | | exact Hc].
  intros a. apply (fold_left_ge_in _ _ l); [exact Hin | intros; lia | exact Hl].
Qed.

Lemma lvar_le_nvars : forall (f : cnf) c l, In c f -> In l c -> lvar l <= n_vars_of f.
Proof.
  intros f c l Hc Hl. pose proof (max_var_bound f c l Hc Hl) as Q. unfold lvar, n_vars_of. lia.
Qed.

Lemma val_of_init : forall cls n v, val_of (init_state cls n) v = None.
Proof. intros. apply (nth_repeat (@None bool)). Qed.

Lemma watch_list_init : forall cls n l, watch_list (init_state cls n) l = [].
Proof. intros cls n l. unfold watch_list, init_state. cbn [s_wpos s_wneg]. destruct (lpos l); apply nth_repeat. Qed.

Lemma implications_init : forall cls n l, implications (init_state cls n) l = [].
Proof. intros cls n l. unfold implications, init_state. cbn [s_bpos s_bneg]. destruct (lpos l); apply nth_repeat. Qed.

Lemma n_clauses_init : forall cls n, n_clauses (init_state cls n) = length cls.
Proof. intros. unfold n_clauses, init_state. cbn [s_orig s_learned]. simpl. apply Nat.add_0_r. Qed.

Lemma get_clause_init : forall cls n ci, get_clause (init_state cls n) ci = nth ci cls [].
Proof.
  intros cls n ci. unfold get_clause, init_state. cbn [s_orig s_learned].
  destruct (Nat.ltb_spec ci (length cls)) as [Q|Q]; [reflexivity|]. rewrite (nth_overflow cls) by exact Q. destruct (ci - length cls); reflexivity.
Qed.

Lemma init_state_BI : forall cls n,
  (forall c l, In c cls -> In l c -> l <> 0%Z /\ lvar l <= n) -> BI (init_state cls n).
Proof.
  intros cls n Hin. pose proof (val_of_init cls n) as Hv. pose proof (watch_list_init cls n) as Hw.
  pose proof (implications_init cls n) as Hi.
  constructor.
  - split.
    + constructor; simpl.
      * constructor.
      * intros v. rewrite Hv. split; [congruence | contradiction].
      * lia.
      * intros i j _ Hj. simpl in Hj. lia.
      * intros l [].
      * intros tr1 v tr2 E. destruct tr1; discriminate.
      * rewrite !repeat_length. reflexivity.
      * rewrite !repeat_length. reflexivity.
    + constructor; unfold nv, init_state; cbn [s_vals s_orig s_learned s_bpos s_bneg]; rewrite ?repeat_length.
      * lia.
      * apply Forall_forall. intros c Hc. apply Forall_forall. intros l Hl. unfold lit_in. pose proof (proj2 (Hin c l Hc Hl)). lia.
      * constructor.
      * apply Forall_forall. intros x Hx. apply repeat_spec in Hx. subst x. constructor.
      * apply Forall_forall. intros x Hx. apply repeat_spec in Hx. subst x. constructor.
  - apply nz_of_db. intros c Q l Hl. unfold db in Q. simpl in Q. rewrite app_nil_r in Q. exact (proj1 (Hin _ l Q Hl)).
  - apply Hv.
  - intros l ci. rewrite Hw. rewrite cnt_nil. lia.
  - intros fl implied ci H. rewrite Hi in H. contradiction.
  - intros tr1 v tr2 r E. destruct tr1; discriminate.
  - intros tr1 v tr2 E. destruct tr1; discriminate.
  - constructor; simpl; [intros l [] | intros tr1 v tr2 E; destruct tr1; discriminate].
Qed.

Definition lvl0 (s : st) : Prop := cur_level s = 0.

Lemma attach_unit : forall l idx s, attach [l] idx s = s.
Proof. reflexivity. Qed.

(* a unit clause is not attached, so the state attach_orig builds is the one of attach_all; the unit clauses it collects
   do not depend on the state: G stands for the clause stored under an index *)
Lemma attach_orig_attach_all : forall cs idx units s, fst (attach_orig cs idx units s) = attach_all cs idx s.
Proof.
  induction cs as [|c cs IH]; intros idx units s; simpl; [reflexivity|]. destruct c as [|l [|b r]]; apply IH.
Qed.

Lemma attach_orig_collects : forall (G : nat -> clause) cs idx units s l i,
  (forall k, k < length cs -> G (idx + k) = nth k cs []) ->
  In (l, i) (snd (attach_orig cs idx units s)) -> In (l, i) units \/ G i = [l].
Proof.
  intros G. induction cs as [|c cs IH]; intros idx units s l i HG Hin; simpl in Hin; [left; exact Hin|].
  assert (G idx = c) as Hc by (rewrite <- (Nat.add_0_r idx); apply (HG 0); simpl; lia).
  assert (forall k, k < length cs -> G (S idx + k) = nth k cs []) as HG'.
  { intros k Hk. rewrite Nat.add_succ_comm. apply (HG (S k)). simpl. lia. }
  destruct c as [|x [|b r]]; try exact (IH _ _ _ _ _ HG' Hin).
  destruct (IH _ _ _ _ _ HG' Hin) as [Q|Q]; [|right; exact Q].
  apply in_app_or in Q. destruct Q as [Q|[Q|[]]]; [left; exact Q|]. injection Q as Q1 Q2. subst. right. exact Hc.
Qed.

Lemma attach_all_clauses : forall cs idx s,
  n_clauses (attach_all cs idx s) = n_clauses s /\ forall r, get_clause (attach_all cs idx s) r = get_clause s r.
Proof.
  induction cs as [|c cs IH]; intros idx s; simpl; [auto|].
  destruct (IH (S idx) (attach c idx s)) as [E1 E2]. destruct (attach_frame c idx s) as (En & Eg & _).
  split; [congruence|]. intros r. rewrite E2. apply Eg.
Qed.

Lemma attach_orig_spec : forall cs idx units s s' units',
  BI s -> idx + length cs <= n_clauses s ->
  (forall k, k < length cs -> get_clause s (idx + k) = nth k cs []) ->
  (forall l cj, idx <= cj -> cnt (watch_list s l) cj = 0) ->
  attach_orig cs idx units s = (s', units') ->
  BI s' /\ asg_eq s s' /\ (forall r, get_clause s' r = get_clause s r) /\ n_clauses s' = n_clauses s
  /\ (forall l i, In (l, i) units' -> In (l, i) units \/ get_clause s i = [l]).
Proof.
  intros cs idx units s s' units' H Hlen Hget Hfresh E.
  pose proof (attach_orig_attach_all cs idx units s) as E1. pose proof (attach_orig_collects (get_clause s) cs idx units s) as E2.
  rewrite E in E1, E2. simpl in E1, E2. subst s'. destruct (attach_all_clauses cs idx s) as [En Eg].
  split; [apply BI_attach_all; assumption|]. split; [apply attach_all_asg|]. split; [exact Eg|]. split; [exact En|].
  intros l i Hl. exact (E2 l i Hget Hl).
Qed.

Lemma find_pure_range : forall cls n v b, In (v, b) (find_pure_literals cls n) -> 1 <= v <= n.
Proof.
  intros cls n v b H. unfold find_pure_literals in H. apply in_flat_map in H. destruct H as [w [Hw H]]. apply in_seq in Hw.
  destruct ((0 <? count_occ_lit cls (zvar w)) && (count_occ_lit cls (- zvar w) =? 0)).
  - destruct H as [H|[]]. injection H as H1 H2. subst. lia.
  - destruct ((0 <? count_occ_lit cls (- zvar w)) && (count_occ_lit cls (zvar w) =? 0)); [|contradiction].
    destruct H as [H|[]]. injection H as H1 H2. subst. lia.
Qed.

Lemma assign_pures_BI : forall A pl s n, BI s -> lvl0 s -> nv s = S n -> (forall v b, In (v, b) pl -> 1 <= v <= n) ->
  BI (assign_pures A pl s) /\ lvl0 (assign_pures A pl s) /\ nv (assign_pures A pl s) = S n /\ db_eq s (assign_pures A pl s).
Proof.
  intros A pl. induction pl as [|[v b] pl IH]; intros s n H H0 Hn Hpl; simpl.
  - split; [exact H|]. split; [exact H0|]. split; [exact Hn | apply db_eq_refl].
  - assert (forall w c, In (w, c) pl -> 1 <= w <= n) as Hpl' by (intros w c Hw; apply (Hpl w c); right; exact Hw).
    destruct (is_none (val_of s v) && negb (existsb (fun a => lvar a =? v) A)) eqn:E; [|apply IH; assumption].
    apply andb_prop in E. destruct E as [E _]. destruct (Hpl v b (or_introl eq_refl)) as [Hv1 Hv2].
    (* assign does not touch the database, so db_eq from the assigned state is db_eq from s *)
    apply (IH (assign v b None s) n); [|exact H0 | rewrite nv_assign; exact Hn | exact Hpl'].
    apply BI_assign; [exact H | destruct (val_of s v); [discriminate | reflexivity] | unfold nv in Hn; lia | lia | discriminate|].
    intros _. left. exact H0.
Qed.

Lemma assign_units_BI : forall ul s s' n, BI s -> lvl0 s -> nv s = S n ->
  (forall l i, In (l, i) ul -> get_clause s i = [l]) -> assign_units ul s = (s', false) ->
  BI s' /\ lvl0 s' /\ nv s' = S n.
Proof.
  induction ul as [|[l i] ul IH]; intros s s' n H H0 Hn Hul E; simpl in E.
  - injection E as E. subst. auto.
  - assert (forall l0 i0, In (l0, i0) ul -> get_clause s i0 = [l0]) as Hul' by (intros l0 i0 Q; apply Hul; right; exact Q).
    destruct (val_of s (lvar l)) as [b|] eqn:EV; [destruct (Bool.eqb b (lpos l)); [eauto | discriminate]|].
    assert (In l (get_clause s i)) as Hl by (rewrite (Hul l i (or_introl eq_refl)); left; reflexivity).
    assert (lvar l < nv s) as Hr.
    { pose proof (get_clause_in s i (proj2 (bi_ti s H))) as Q. unfold clause_in in Q. rewrite Forall_forall in Q. exact (Q l Hl). }
    (* at level 0 no reason is required of the clause *)
    apply (IH (assign_lit l (Some i) s) s' n); [|exact H0 | unfold assign_lit; rewrite nv_assign; exact Hn | exact Hul' | exact E].
    apply BI_assign; [exact H | exact EV | exact Hr | apply lvar_nonzero; exact (bi_nz s H i l Hl) | | discriminate].
    intros r _ Hlv. unfold lvl0 in H0. lia.
Qed.

Lemma valid_input_facts : forall cls A, valid_input cls A = true ->
  (forall c l, In c cls -> In l c -> l <> 0%Z /\ lvar l <= n_vars_of cls)
  /\ assum_ok (S (n_vars_of cls)) A.
Proof.
  intros cls A H. unfold valid_input in H. apply andb_prop in H. destruct H as [H H3]. apply andb_prop in H. destruct H as [H1 H2].
  rewrite forallb_forall in H1, H2. split.
  - intros c l Hc Hl. pose proof (H1 c Hc) as Q. rewrite forallb_forall in Q. pose proof (Q l Hl) as Q1.
    apply negb_true_iff in Q1. apply Z.eqb_neq in Q1. split; [exact Q1 | eapply lvar_le_nvars; eauto].
  - apply Forall_forall. intros l Hl. pose proof (H2 l Hl) as Q. apply andb_prop in Q. destruct Q as [Q1 Q2].
    apply negb_true_iff in Q1. apply Z.eqb_neq in Q1. apply Z.leb_le in Q2. split; [exact Q1|].
    unfold lit_in, lvar, n_vars_of. lia.
Qed.

Lemma init_prefix : forall cls A limit s0 units, valid_input cls A = true ->
  attach_orig cls 0 [] (init_state cls (n_vars_of cls)) = (s0, units) ->
  let n := n_vars_of cls in
  let s1 := if (limit <=? 1)%Z then assign_pures A (find_pure_literals cls n) s0 else s0 in
  s0 = attach_all cls 0 (init_state cls n) /\ BI s0 /\ lvl0 s0 /\ nv s0 = S n /\ n_clauses s0 = length cls
  /\ BI s1 /\ lvl0 s1 /\ nv s1 = S n /\ db_eq s0 s1
  /\ (forall l i, In (l, i) units -> get_clause s1 i = [l] /\ i < n_clauses s1).
Proof.
  intros cls A limit s0 units Hvalid EO n s1. destruct (valid_input_facts cls A Hvalid) as [Hcls HA].
  pose proof (init_state_BI cls n Hcls) as HB0. pose proof (n_clauses_init cls n) as Nc.
  destruct (attach_orig_spec cls 0 [] (init_state cls n) s0 units HB0) as (H0 & EA0 & Eg0 & En0 & Hu0); auto.
  { rewrite Nc. apply Nat.le_refl. }
  { intros k _. apply get_clause_init. }
  { intros l cj _. rewrite watch_list_init. reflexivity. }
  assert (lvl0 s0) as Lv0 by (unfold lvl0; rewrite (asg_eq_cur_level _ _ EA0); reflexivity).
  assert (nv s0 = S n) as N0 by (unfold nv; destruct EA0 as (Q & _); rewrite Q; unfold init_state; cbn [s_vals]; apply repeat_length).
  assert (BI s1 /\ lvl0 s1 /\ nv s1 = S n /\ db_eq s0 s1) as (H1 & L1 & N1 & D1).
  { unfold s1. destruct (limit <=? 1)%Z; [|split; [exact H0 | split; [exact Lv0 | split; [exact N0 | apply db_eq_refl]]]].
    apply assign_pures_BI; auto. intros v b Hv. eapply find_pure_range; eauto. }
  split; [exact (eq_trans (eq_sym (f_equal fst EO)) (attach_orig_attach_all cls 0 [] _))|].
  split; [exact H0|]. split; [exact Lv0|]. split; [exact N0|]. split; [rewrite En0; exact Nc|].
  split; [exact H1|]. split; [exact L1|]. split; [exact N1|]. split; [exact D1|].
  intros l i Hl. rewrite (db_eq_get_clause _ _ _ D1), (db_eq_n_clauses _ _ D1), Eg0, En0. destruct (Hu0 l i Hl) as [[]|Q]. split; [exact Q|].
  destruct (Nat.lt_ge_cases i (n_clauses (init_state cls n))) as [L|L]; [exact L|]. rewrite get_clause_overflow in Q by exact L. discriminate.
Qed.

Lemma init_path_LI : forall fuel cls A mc mr limit lf s0 units s2 s3 c, valid_input cls A = true ->
  attach_orig cls 0 [] (init_state cls (n_vars_of cls)) = (s0, units) ->
  assign_units units (if (limit <=? 1)%Z then assign_pures A (find_pure_literals cls (n_vars_of cls)) s0 else s0) = (s2, false) ->
  propagate fuel A s2 = Some (s3, c) ->
  forall csr li nx dc rs sols evs orc, LI (mkParams A mc mr limit lf (n_vars_of cls)) (mkLoop s3 c 0 csr li nx dc rs sols evs orc).
Proof.
  intros fuel cls A mc mr limit lf s0 units s2 s3 c Hvalid EO EU EP.
  destruct (init_prefix cls A limit s0 units Hvalid EO) as (_ & _ & _ & _ & _ & H1 & L1 & N1 & _ & Hu).
  destruct (assign_units_BI units _ s2 _ H1 L1 N1 (fun l i Hl => proj1 (Hu l i Hl)) EU) as (H2 & L2 & N2).
  destruct (valid_input_facts cls A Hvalid) as [_ HA]. intros.
  apply (LI_after_propagate fuel _ s2); [exact H2 | exact N2 | exact HA | symmetry; exact L2 | exact EP].
Qed.

(* stated on the result of init_loop, so that its early returns are closed by computation *)
Lemma init_loop_LI : forall fuel cls A mc mr limit lf orc, valid_input cls A = true ->
  match init_loop fuel cls A mc mr limit lf orc with ILoop P L0 => LI P L0 | IDone _ => True end.
Proof.
  intros fuel cls A mc mr limit lf orc Hvalid. unfold init_loop. destruct cls as [|c0 cls0]; [exact I|].
  destruct (n_vars_of (c0 :: cls0) =? 0); [exact I|]. destruct (existsb is_nilb (c0 :: cls0)); [exact I|].
  destruct (attach_orig (c0 :: cls0) 0 [] _) as [s0 units] eqn:EO. destruct (assign_units units _) as [s2 [|]] eqn:EU; [exact I|].
  destruct (propagate fuel A s2) as [[s3 c]|] eqn:EP; [|exact I].
  pose proof (init_path_LI fuel _ A mc mr limit lf _ _ _ _ _ Hvalid EO EU EP) as HLI.
  destruct c as [| |ci]; try exact I; (destruct (luby_val 1) as [lv|]; [|exact I]); apply HLI.
Qed.

Theorem init_LI : forall fuel cls A mc mr limit lf orc P L0, valid_input cls A = true ->
  init_loop fuel cls A mc mr limit lf orc = ILoop P L0 -> LI P L0.
Proof.
  intros fuel cls A mc mr limit lf orc P L0 Hvalid E.
  pose proof (init_loop_LI fuel cls A mc mr limit lf orc Hvalid) as Q. rewrite E in Q. exact Q.
Qed.

Theorem run_LI : forall fuel cls A mc mr limit lf orc P L0 L, valid_input cls A = true ->
  init_loop fuel cls A mc mr limit lf orc = ILoop P L0 -> reach fuel P L0 L -> LI P L.
Proof. intros. eapply reach_LI; [eapply init_LI; eauto | eauto]. Qed.

Theorem run_learned_entailed : forall fuel cls A mc mr limit lf orc P L0 L ci lc bt lbd, valid_input cls A = true ->
  init_loop fuel cls A mc mr limit lf orc = ILoop P L0 -> reach fuel P L0 L ->
  l_conflict L = CAt ci -> l_dec_level L <> 0 -> analyze (l_st L) ci = Some (lc, bt, lbd) -> entails (db (l_st L)) lc.
Proof. intros. eapply learned_entailed_run; eauto. eapply run_LI; eauto. Qed.
