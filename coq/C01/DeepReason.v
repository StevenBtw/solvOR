(* C01 deep model - invariant (b) and its companions, operation by operation.
     reason_inv     : the reason clause of an implied variable of level >= 1 is a clause of the database; its literals are
                      the variable's true literal or false literals assigned earlier
     decision_first : (defined in DeepAnalyze.v) a reasonless variable of level >= 1 is the first of its level on the trail
     head_inv       : every decision mark is <= prop_head; every unprocessed trail entry lies on the current level
     BI             : TI (= (T) + db_range) + no literal 0 (nz) + variable 0 unassigned + watch_le + big_ok + the three above *)
From Coq Require Import List ZArith Bool Arith Lia Permutation.
Import ListNotations.
From SV Require Import C01.SatSpec C01.Machine C01.DeepCdcl C01.DeepBase C01.DeepTrail C01.DeepTrailProp C01.DeepAnalyze C01.DeepWatch.
Close Scope Z_scope.
Open Scope nat_scope.

Definition reason_inv (s : st) : Prop :=
  forall tr1 v tr2 r, s_trail s = tr1 ++ v :: tr2 -> 1 <= level_of s v -> reason_of s v = Some r ->
    r < n_clauses s
    /\ forall l, In l (get_clause s r) ->
         (lvar l = v /\ lit_value s l = Some true) \/ (lit_value s l = Some false /\ In (lvar l) tr2).

Record head_inv (s : st) : Prop := mkHI {
  hi_lim : forall l, In l (s_lim s) -> l <= s_head s;
  hi_level : forall tr1 v tr2, s_trail s = tr1 ++ v :: tr2 -> s_head s <= length tr2 -> level_of s v = cur_level s
}.

(* no literal 0 anywhere in the database *)
Definition nz (s : st) : Prop := forall ci l, In l (get_clause s ci) -> l <> 0%Z.

Record BI (s : st) : Prop := mkBI {
  bi_ti : TI s;
  bi_nz : nz s;
  bi_v0 : val_of s 0 = None;
  bi_wle : watch_le s;
  bi_big : big_ok s;
  bi_reason : reason_inv s;
  bi_dec : decision_first s;
  bi_head : head_inv s
}.

Lemma get_clause_in_db : forall s ci, ci < n_clauses s -> In (get_clause s ci) (db s).
Proof.
  intros s ci H. unfold n_clauses in H. unfold get_clause, db. apply in_or_app.
  destruct (Nat.ltb_spec ci (length (s_orig s))) as [L|L].
  - left. apply nth_In. exact L.
  - right. apply nth_In. lia.
Qed.

Lemma in_db_get_clause : forall s c, In c (db s) -> exists ci, ci < n_clauses s /\ get_clause s ci = c.
Proof.
  intros s c H. unfold db in H. apply in_app_or in H. unfold get_clause, n_clauses. destruct H as [H|H].
  - destruct (In_nth (s_orig s) c ([] : clause) H) as [i [Hi E]]. exists i. split; [lia|].
    destruct (Nat.ltb_spec i (length (s_orig s))); [exact E | lia].
  - destruct (In_nth (s_learned s) c ([] : clause) H) as [i [Hi E]]. exists (length (s_orig s) + i). split; [lia|].
    destruct (Nat.ltb_spec (length (s_orig s) + i) (length (s_orig s))); [lia|].
    replace (length (s_orig s) + i - length (s_orig s)) with i by lia. exact E.
Qed.

Lemma nz_db_nonzero : forall s, nz s -> db_nonzero s.
Proof. intros s H c Hc l Hl. destruct (in_db_get_clause s c Hc) as [ci [_ E]]. subst c. exact (H ci l Hl). Qed.

Lemma reason_inv_ok : forall s, reason_inv s -> reason_ok s.
Proof.
  intros s H tr1 v tr2 r E Hl Hr. destruct (H tr1 v tr2 r E Hl Hr) as [Q1 Q2]. split; [apply get_clause_in_db; exact Q1 | exact Q2].
Qed.

(* reason_inv reads vals, levels, reasons, the trail and the clauses; a clause may lose literals *)
Lemma reason_inv_fields : forall s s', s_vals s' = s_vals s -> s_levels s' = s_levels s -> s_reasons s' = s_reasons s ->
  s_trail s' = s_trail s -> n_clauses s' = n_clauses s -> (forall r l, In l (get_clause s' r) -> In l (get_clause s r)) ->
  reason_inv s -> reason_inv s'.
Proof.
  intros s s' E1 E2 E3 E4 En Eg H tr1 v tr2 r Htr Hl Hr.
  unfold level_of in Hl. rewrite E2 in Hl. unfold reason_of in Hr. rewrite E3 in Hr. rewrite E4 in Htr.
  destruct (H tr1 v tr2 r Htr Hl Hr) as [Q1 Q2]. rewrite En. split; [exact Q1|].
  intros l Hin. unfold lit_value, val_of. rewrite E1. exact (Q2 l (Eg r l Hin)).
Qed.

Lemma reason_inv_levels_frame : forall s s', s_vals s' = s_vals s -> s_levels s' = s_levels s -> s_reasons s' = s_reasons s ->
  s_trail s' = s_trail s -> n_clauses s' = n_clauses s -> (forall r, get_clause s' r = get_clause s r) ->
  reason_inv s -> reason_inv s'.
Proof.
  intros s s' E1 E2 E3 E4 En Eg. apply reason_inv_fields; try assumption. intros r l Hin. rewrite <- Eg. exact Hin.
Qed.

Lemma decision_first_levels_frame : forall s s', s_levels s' = s_levels s -> s_reasons s' = s_reasons s ->
  s_trail s' = s_trail s -> decision_first s -> decision_first s'.
Proof.
  intros s s' E2 E3 E4 H tr1 v tr2 Htr Hl Hr w Hw. unfold level_of in *. rewrite E2 in *. unfold reason_of in Hr. rewrite E3 in Hr.
  rewrite E4 in Htr. exact (H tr1 v tr2 Htr Hl Hr w Hw).
Qed.

Lemma head_inv_asg_eq : forall s s', asg_eq s s' -> head_inv s -> head_inv s'.
Proof.
  intros s s' E [H1 H2]. pose proof E as (_ & _ & _ & E4 & E5 & E6 & _). constructor.
  - rewrite E5, E6. exact H1.
  - intros tr1 v tr2 Htr Hh. rewrite (asg_eq_level_of _ _ _ E), (asg_eq_cur_level _ _ E). rewrite E4 in Htr. rewrite E6 in Hh. eauto.
Qed.

Lemma lit_value_assign_other : forall s v b r l, lvar l <> v -> lit_value (assign v b r s) l = lit_value s l.
Proof.
  intros s v b r l H. unfold lit_value, val_of, assign. simpl. rewrite nth_upd_neq by (intros C; apply H; symmetry; exact C). reflexivity.
Qed.

Lemma lit_value_assign_same : forall s v b r l, v < length (s_vals s) -> lvar l = v -> lit_value (assign v b r s) l = Some (Bool.eqb b (lpos l)).
Proof.
  intros s v b r l Hv H. unfold lit_value. rewrite val_of_assign by exact Hv. rewrite H, Nat.eqb_refl. reflexivity.
Qed.

Lemma reason_of_assign : forall s v b r w, v < length (s_reasons s) ->
  reason_of (assign v b r s) w = if v =? w then r else reason_of s w.
Proof.
  intros s v b r w Hv. unfold reason_of, assign. simpl. destruct (Nat.eqb_spec v w) as [E|E].
  - subst w. apply nth_upd_eq. exact Hv.
  - apply nth_upd_neq. exact E.
Qed.

Lemma reason_inv_assign : forall s v b r0, trail_inv s -> reason_inv s -> val_of s v = None -> v < length (s_vals s) ->
  (forall r, r0 = Some r -> 1 <= cur_level s -> r < n_clauses s
     /\ forall l, In l (get_clause s r) -> (lvar l = v /\ lpos l = b) \/ lit_value s l = Some false) ->
  reason_inv (assign v b r0 s).
Proof.
  intros s v b r0 HT H Hn Hv Hob tr1 w tr2 r Htr Hl Hr.
  assert (forall l o, lit_value s l = Some o -> lit_value (assign v b r0 s) l = Some o) as Hkeep.
  { intros l o Q. rewrite lit_value_assign_other; [exact Q|]. intros C. apply lit_value_assigned in Q. rewrite C in Q. congruence. }
  rewrite reason_of_assign in Hr by (rewrite (ti_len_reasons s HT); exact Hv).
  rewrite level_of_assign in Hl by (rewrite (ti_len_levels s HT); exact Hv).
  change (n_clauses (assign v b r0 s)) with (n_clauses s). change (get_clause (assign v b r0 s) r) with (get_clause s r).
  destruct (assign_trail_cases s v b r0 tr1 w tr2 HT Hn Htr) as [[Ew Etr]|[Ew [tr1' Etr]]].
  - (* the new entry: its reason is as required, its other literals were false before *)
    subst w tr2. rewrite Nat.eqb_refl in Hr, Hl. destruct (Hob r Hr Hl) as [Q1 Q2].
    split; [exact Q1|]. intros l Hin. destruct (Q2 l Hin) as [[Qa Qb]|Qf].
    + left. split; [exact Qa|]. rewrite lit_value_assign_same by assumption. rewrite Qb. destruct b; reflexivity.
    + right. split; [apply Hkeep; exact Qf|]. apply (ti_assigned s HT). eapply lit_value_assigned. exact Qf.
  - destruct (Nat.eqb_spec v w) as [C|C]; [congruence|].
    destruct (H tr1' w tr2 r Etr Hl Hr) as [Q1 Q2]. split; [exact Q1|].
    intros l Hin. destruct (Q2 l Hin) as [[Qa Qb]|[Qa Qb]]; [left | right]; split; auto.
Qed.

Lemma decision_first_assign : forall s v b r0, trail_inv s -> decision_first s -> val_of s v = None -> v < length (s_vals s) ->
  (r0 = None -> cur_level s = 0 \/ forall w, In w (s_trail s) -> level_of s w < cur_level s) ->
  decision_first (assign v b r0 s).
Proof.
  intros s v b r0 HT H Hn Hv Hob tr1 w tr2 Htr Hl Hr u Hu.
  assert (~ In v (s_trail s)) as Hnotin by (intros C; apply (ti_assigned s HT) in C; congruence).
  rewrite reason_of_assign in Hr by (rewrite (ti_len_reasons s HT); exact Hv).
  rewrite !level_of_assign in * by (rewrite (ti_len_levels s HT); exact Hv).
  destruct (assign_trail_cases s v b r0 tr1 w tr2 HT Hn Htr) as [[Ew Etr]|[Ew [tr1' Etr]]].
  - subst w tr2. rewrite Nat.eqb_refl in *.
    destruct (Nat.eqb_spec v u) as [C|C]; [subst u; contradiction|].
    destruct (Hob Hr) as [Q|Q]; [lia|]. pose proof (Q u Hu). lia.
  - assert (In u (s_trail s)) as Hu' by (rewrite Etr; apply in_or_app; right; right; exact Hu).
    destruct (Nat.eqb_spec v w) as [C|C]; [congruence|].
    destruct (Nat.eqb_spec v u) as [C2|C2]; [subst u; contradiction|].
    exact (H tr1' w tr2 Etr Hl Hr u Hu).
Qed.

Lemma head_inv_assign : forall s v b r0, trail_inv s -> head_inv s -> val_of s v = None -> v < length (s_vals s) ->
  head_inv (assign v b r0 s).
Proof.
  intros s v b r0 HT [H1 H2] Hn Hv. constructor; simpl; [exact H1|].
  intros tr1 w tr2 Htr Hh. rewrite level_of_assign by (rewrite (ti_len_levels s HT); exact Hv).
  change (cur_level (assign v b r0 s)) with (cur_level s).
  destruct (assign_trail_cases s v b r0 tr1 w tr2 HT Hn Htr) as [[Ew Etr]|[Ew [tr1' Etr]]].
  - subst w. rewrite Nat.eqb_refl. reflexivity.
  - destruct (Nat.eqb_spec v w) as [C|C]; [congruence|]. eauto.
Qed.

Lemma reason_inv_unassign_to : forall s level, trail_inv s -> reason_inv s -> reason_inv (unassign_to level s).
Proof.
  intros s level HT H. destruct (unassign_to_spec s level HT) as [popped (E & EL & ER & _ & _ & Hin & Hout & _)].
  pose proof (ti_nodup s HT) as ND. rewrite E in ND.
  intros tr1 v tr2 r Htr Hl Hr.
  unfold level_of in Hl. rewrite EL in Hl. unfold reason_of in Hr. rewrite ER in Hr.
  assert (s_trail s = (popped ++ tr1) ++ v :: tr2) as Htr' by (rewrite E, Htr, app_assoc; reflexivity).
  destruct (H _ v tr2 r Htr' Hl Hr) as [Q1 Q2].
  rewrite (db_eq_n_clauses _ _ (unassign_to_db_eq level s)). rewrite (db_eq_get_clause _ _ _ (unassign_to_db_eq level s)).
  split; [exact Q1|]. intros l Hlin.
  assert (forall u, In u (s_trail (unassign_to level s)) -> val_of (unassign_to level s) u = val_of s u) as Hkeep.
  { intros u Hu. apply Hout. intros C. exact (NoDup_app_disjoint _ _ _ ND C Hu). }
  destruct (Q2 l Hlin) as [[Qa Qb]|[Qa Qb]]; [left | right]; (split; [|assumption]) || (split; [assumption|]).
  - unfold lit_value. rewrite Hkeep; [exact Qb|]. rewrite Qa, Htr. apply in_or_app. right. left. reflexivity.
  - unfold lit_value. rewrite Hkeep; [exact Qa|]. rewrite Htr. apply in_or_app. right. right. exact Qb.
Qed.

Lemma decision_first_unassign_to : forall s level, trail_inv s -> decision_first s -> decision_first (unassign_to level s).
Proof.
  intros s level HT H. destruct (unassign_to_spec s level HT) as [popped (E & EL & ER & _)].
  intros tr1 v tr2 Htr Hl Hr w Hw. unfold level_of in *. rewrite EL in *. unfold reason_of in Hr. rewrite ER in Hr.
  assert (s_trail s = (popped ++ tr1) ++ v :: tr2) as Htr' by (rewrite E, Htr, app_assoc; reflexivity).
  exact (H _ v tr2 Htr' Hl Hr w Hw).
Qed.

Lemma head_inv_unassign_to : forall s level, trail_inv s -> head_inv s -> head_inv (unassign_to level s).
Proof.
  intros s level HT [H1 H2].
  destruct (unassign_to_spec s level HT) as [popped (E & EL & ER & ELim & EH & _ & _ & Hlt & Hge)].
  destruct (Nat.lt_ge_cases level (length (s_lim s))) as [L|L].
  - (* the trail is cut at a decision mark, which is <= prop_head: everything left is processed *)
    pose proof (Hlt L) as Hlen.
    assert (nth level (s_lim s) 0 <= s_head s) as Q by (apply H1; apply nth_In; exact L).
    constructor.
    + intros l Hl. rewrite ELim in Hl. rewrite EH, Hlen. rewrite Nat.min_r by exact Q.
      destruct (In_nth _ _ 0 Hl) as [j [Hj Hx]]. rewrite firstn_length in Hj. apply Nat.min_glb_lt_iff in Hj.
      rewrite nth_firstn' in Hx by apply Hj. subst l. apply (ti_sorted s HT); [apply Nat.lt_le_incl, Hj | exact L].
    + intros tr1 v tr2 Htr Hh. exfalso. pose proof (app_cons_length_lt _ _ _ _ Htr) as Q2.
      rewrite EH, Hlen, Nat.min_r in Hh by exact Q. rewrite Hlen in Q2. exact (Nat.lt_irrefl _ (Nat.lt_le_trans _ _ _ Q2 Hh)).
  - pose proof (Hge L) as Hp. subst popped. simpl in E.
    constructor.
    + intros l Hl. rewrite ELim in Hl. rewrite firstn_all2 in Hl by exact L. rewrite EH, <- E.
      rewrite Nat.min_l by exact (ti_head s HT). apply H1. exact Hl.
    + intros tr1 v tr2 Htr Hh. unfold level_of, cur_level. rewrite EL, ELim. rewrite firstn_all2 by exact L.
      rewrite EH, <- E in Hh. rewrite Nat.min_l in Hh by exact (ti_head s HT). rewrite <- E in Htr. exact (H2 tr1 v tr2 Htr Hh).
Qed.

Lemma head_inv_push_lim : forall s, head_inv s -> s_head s = length (s_trail s) -> head_inv (push_lim s).
Proof.
  intros s [H1 H2] Hh. constructor; simpl.
  - intros l Hl. apply in_app_or in Hl. destruct Hl as [Hl|[Hl|[]]]; [apply H1; exact Hl | rewrite <- Hl, Hh; apply Nat.le_refl].
  - intros tr1 v tr2 Htr Hle. exfalso. pose proof (app_cons_length_lt _ _ _ _ Htr) as Q. rewrite <- Hh in Q.
    exact (Nat.lt_irrefl _ (Nat.lt_le_trans _ _ _ Q Hle)).
Qed.

Lemma head_inv_set_head : forall s, head_inv s -> head_inv (set_head s (S (s_head s))).
Proof.
  intros s [H1 H2]. constructor; simpl.
  - intros l Hl. apply Nat.le_le_succ_r, H1, Hl.
  - intros tr1 v tr2 Htr Hle. apply (H2 tr1 v tr2 Htr). apply Nat.lt_le_incl, Hle.
Qed.

Lemma In_swap01 : forall c l, In l (swap01 c) <-> In l c.
Proof. intros c l. unfold swap01. destruct c as [|a [|b r]]; simpl; tauto. Qed.

Lemma upd_perm : forall (rest : list Z) j b, j < length rest -> Permutation (nth j rest 0%Z :: upd rest j b) (b :: rest).
Proof.
  intros rest j b H. destruct (nth_split rest 0%Z H) as (r1 & r2 & E & L). set (x := nth j rest 0%Z) in *.
  rewrite E. rewrite <- L. rewrite upd_app_mid.
  apply Permutation_trans with (r1 ++ x :: b :: r2); [apply Permutation_middle|].
  apply Permutation_sym. apply Permutation_trans with (r1 ++ b :: x :: r2); [apply Permutation_middle|].
  apply Permutation_app_head. apply perm_swap.
Qed.

Lemma In_swap1k : forall a b rest j l, j < length rest ->
  (In l (a :: nth j rest 0%Z :: upd rest j b) <-> In l (a :: b :: rest)).
Proof.
  intros a b rest j l H. pose proof (upd_perm rest j b H) as P. simpl. split; intros [Q|Q]; auto; right.
  - exact (Permutation_in _ P Q).
  - exact (Permutation_in _ (Permutation_sym P) Q).
Qed.
