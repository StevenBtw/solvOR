(* C01 / C02 - theorems about every accepted trace of the guarded machine. *)
From Coq Require Import List ZArith Bool.
Import ListNotations.
From SV Require Import C01.SatSpec C01.RupProofs C01.Machine C01.SatLemmas C01.MachineInv.
Open Scope Z_scope.

Theorem models_thm : forall chk N A limit evs s, run chk N A limit evs = Some s ->
  forall m, In m (sols s) -> models (asg_of m) N /\ agrees (asg_of m) A.
Proof.
  intros chk N A limit evs s Hrun m Hin.
  destruct (inv_sols chk N A s (run_Inv chk N A limit evs s Hrun) m Hin) as [_ [_ [H1 H2]]]. split; assumption.
Qed.

Lemma distinct_NoDup : forall ss, distinct ss -> NoDup ss.
Proof.
  induction ss as [|m r IH]; intros H; [constructor|].
  destruct H as [Hd Hr]. constructor; [|apply IH; exact Hr].
  intros Hin. exact (differ_neq m m (Hd m Hin) eq_refl).
Qed.

Lemma differ_var : forall m m', differ m m' -> exists v, asg_of m v <> asg_of m' v.
Proof.
  intros m m' [l [_ [H1 H2]]]. exists (Z.abs l). intros Heq. unfold lit_true in H1, H2.
  destruct (Z.ltb_spec 0 l) as [L|L]; [rewrite (Z.abs_eq l (Z.lt_le_incl _ _ L)) in Heq | rewrite (Z.abs_neq l L) in Heq];
    rewrite Heq in H2; congruence.
Qed.

Lemma distinct_pairwise : forall ss, distinct ss -> forall m m', In m ss -> In m' ss -> m <> m' ->
  exists v, asg_of m v <> asg_of m' v.
Proof.
  induction ss as [|m0 r IH]; intros H m m' Hm Hm' Hne; [destruct Hm|].
  destruct H as [Hd Hr]. destruct Hm as [Hm | Hm]; destruct Hm' as [Hm' | Hm'].
  - subst. congruence.
  - subst m0. apply differ_var. apply Hd. exact Hm'.
  - subst m0. destruct (differ_var m' m (Hd m Hm)) as [v Hv]. exists v. congruence.
  - apply (IH Hr); assumption.
Qed.

Theorem distinct_thm : forall chk N A limit evs s, run chk N A limit evs = Some s ->
  NoDup (sols s)
  /\ forall m m', In m (sols s) -> In m' (sols s) -> m <> m' -> exists v, asg_of m v <> asg_of m' v.
Proof.
  intros chk N A limit evs s Hrun. pose proof (inv_distinct chk N A s (run_Inv chk N A limit evs s Hrun)) as Hd.
  split; [apply distinct_NoDup; exact Hd | apply distinct_pairwise; exact Hd].
Qed.

Lemma last_In : forall {X} (l : list X) d, In (last l d) (d :: l).
Proof.
  intros X l. induction l as [|x l IH]; intros d; [left; reflexivity|].
  destruct l as [|y l'].
  - right. left. reflexivity.
  - right. change (last (x :: y :: l') d) with (last (y :: l') d).
    specialize (IH x).
    assert (forall d1 d2, last (y :: l') d1 = last (y :: l') d2) as Hind.
    { clear. revert y. induction l' as [|z l'' IHl]; intros y d1 d2; [reflexivity|].
      change (last (z :: l'') d1 = last (z :: l'') d2). apply IHl. }
    rewrite (Hind d x). exact IH.
Qed.

(* the Result handed back is a function of the accepted trace: which model, objective, solutions *)
Definition trace_result (ss : list model) (r : result) : Prop :=
  (forall m, r_solution r = Some m -> In m ss /\ r_objective r = Z.of_nat (length m))
  /\ (r_solution r = None -> ss = [] /\ r_objective r = 0 /\ r_solutions r = None)
  /\ (forall l, r_solutions r = Some l -> l = rev ss /\ r_solution r <> None).

Lemma with_solutions_trace : forall st m all ss, In m ss -> (forall l, all = Some l -> l = rev ss) ->
  trace_result ss (with_solutions st m all).
Proof.
  intros st m all ss Hin Hall. split; [|split]; simpl.
  - intros m' Q. injection Q as Q. subst m'. split; [exact Hin | reflexivity].
  - discriminate.
  - intros l Q. split; [exact (Hall l Q) | discriminate].
Qed.

Lemma no_solution_trace : forall st, trace_result [] (mkResult st None 0 None).
Proof. intros st. split; [|split]; simpl; [discriminate | auto | discriminate]. Qed.

Theorem result_is_trace_thm : forall chk N A limit evs s r, run chk N A limit evs = Some s ->
  result_of limit s = Some r ->
  (forall m, r_solution r = Some m -> In m (sols s) /\ r_objective r = Z.of_nat (length m))
  /\ (r_solution r = None -> sols s = [] /\ r_objective r = 0 /\ r_solutions r = None)
  /\ (forall l, r_solutions r = Some l -> l = rev (sols s) /\ r_solution r <> None).
Proof.
  intros chk N A limit evs s r Hrun Hres. change (trace_result (sols s) r).
  pose proof (inv_verdict chk N A s (run_Inv chk N A limit evs s Hrun)) as Hv.
  unfold result_of in Hres. destruct (verdict s) as [rt|]; [|discriminate].
  injection Hres as Hr. subst r.
  (* the invariant excludes a limit or exhaustion verdict without a model, and an INFEASIBLE verdict with one *)
  destruct rt; destruct (sols s) as [|m0 rest] eqn:Es;
    try (exfalso; apply Hv; reflexivity); try (exfalso; apply (proj1 Hv); reflexivity); try (exfalso; generalize (proj2 Hv); discriminate);
    try apply no_solution_trace.
  - apply with_solutions_trace; [left; reflexivity|]. intros l Q. destruct (limit =? 1); [discriminate | congruence].
  - apply with_solutions_trace; [apply last_In | congruence].
  - apply with_solutions_trace; [apply last_In | congruence].
Qed.

Theorem result_sound_thm : forall chk N A limit evs s r, run chk N A limit evs = Some s ->
  result_of limit s = Some r ->
  (forall m, r_solution r = Some m -> models (asg_of m) N /\ agrees (asg_of m) A)
  /\ (forall l, r_solutions r = Some l ->
        NoDup l /\ forall m, In m l -> models (asg_of m) N /\ agrees (asg_of m) A).
Proof.
  intros chk N A limit evs s r Hrun Hres.
  destruct (result_is_trace_thm chk N A limit evs s r Hrun Hres) as [H1 [_ H3]].
  split.
  - intros m Hm. destruct (H1 m Hm) as [Hin _]. exact (models_thm chk N A limit evs s Hrun m Hin).
  - intros l Hl. destruct (H3 l Hl) as [Heq _]. subst l. split.
    + apply NoDup_rev. exact (proj1 (distinct_thm chk N A limit evs s Hrun)).
    + intros m Hin. apply in_rev in Hin. exact (models_thm chk N A limit evs s Hrun m Hin).
Qed.

Theorem learned_entailed_sofar_thm : forall N A limit evs s, run true N A limit evs = Some s ->
  db_entailed (base N A (pures s)) (db s).
Proof.
  intros N A limit evs s Hrun. exact (inv_db true N A s (run_Inv true N A limit evs s Hrun) eq_refl).
Qed.

Theorem unsat_sound_thm : forall N A limit evs s, run true N A limit evs = Some s ->
  verdict s = Some RInfeasible -> unsat_under N A.
Proof.
  intros N A limit evs s Hrun Hv.
  pose proof (inv_verdict true N A s (run_Inv true N A limit evs s Hrun)) as H. rewrite Hv in H. exact (proj1 H eq_refl).
Qed.

Theorem unsat_result_thm : forall N A limit evs s r, run true N A limit evs = Some s ->
  result_of limit s = Some r -> r_status r = INFEASIBLE -> unsat_under N A /\ r_solution r = None.
Proof.
  intros N A limit evs s r Hrun Hres Hst.
  unfold result_of in Hres. destruct (verdict s) as [rt|] eqn:Ev; [|discriminate].
  injection Hres as Hr.
  destruct rt; destruct (sols s) as [|m0 rest]; subst r; simpl in Hst; try discriminate;
    (split; [exact (unsat_sound_thm N A limit evs s Hrun Ev) | reflexivity]).
Qed.

Theorem no_false_model_thm : forall chk N A limit evs s, run chk N A limit evs = Some s ->
  unsat_under N A ->
  sols s = [] /\ forall r, result_of limit s = Some r -> r_solution r = None /\ r_solutions r = None.
Proof.
  intros chk N A limit evs s Hrun Hunsat.
  assert (sols s = []) as Hs.
  { destruct (sols s) as [|m rest] eqn:Es; [reflexivity|]. exfalso. apply Hunsat.
    exists (asg_of m). apply (models_thm chk N A limit evs s Hrun). rewrite Es. left. reflexivity. }
  split; [exact Hs|]. intros r Hres. unfold result_of in Hres. rewrite Hs in Hres.
  destruct (verdict s) as [rt|]; [|discriminate]. injection Hres as Hr. subst r.
  destruct rt; split; reflexivity.
Qed.

(* enumeration finished by the "level-0 conflict / no open literal in a blocking clause" route:
   every model of N /\ A extends one of the recorded models (the machine accepts a blocking clause only
   when no pure literal was asserted, as in the code: pure literals are off when enumerating) *)
Theorem enum_complete_thm : forall N A limit evs s, run true N A limit evs = Some s ->
  verdict s = Some RExhausted ->
  forall a, models a N -> agrees a A ->
  exists m, In m (sols s) /\ forall l, In l m -> lit_true a l = true.
Proof.
  intros N A limit evs s Hrun Hv a HN HA.
  pose proof (run_Inv true N A limit evs s Hrun) as HI.
  pose proof (inv_verdict true N A s HI) as H. rewrite Hv in H. destruct H as [Hne [Hnp Hno]]. specialize (Hno eq_refl).
  pose proof (inv_enum_nopure true N A s HI Hnp Hne) as Hp.
  destruct (existsb (fun m => forallb (lit_true a) m) (sols s)) eqn:Eex.
  - apply existsb_exists in Eex. destruct Eex as [m [Hin Hall]]. exists m. split; [exact Hin|].
    rewrite forallb_forall in Hall. exact Hall.
  - exfalso. apply (Hno a). apply premises_models.
    + exact (inv_db true N A s HI eq_refl).
    + rewrite Hp. unfold base. apply models_app. split; [apply models_units; exact HA|].
      apply models_app. split; [apply models_nil | exact HN].
    + intros c Hc. destruct (inv_block_from true N A s HI c Hc) as [m [Hin Heq]]. subst c.
      assert (forallb (lit_true a) m = false) as Hf.
      { destruct (forallb (lit_true a) m) eqn:E; [|reflexivity].
        assert (existsb (fun m => forallb (lit_true a) m) (sols s) = true) as Hex
          by (apply existsb_exists; exists m; split; assumption).
        congruence. }
      destruct (forallb_false_ex _ _ Hf) as [l [Hl Hlf]].
      destruct (inv_sols true N A s HI m Hin) as [_ [Hcons _]].
      unfold clause_true. apply existsb_exists. exists (- l). split; [apply in_map; exact Hl|].
      rewrite (lit_true_opp a l (consistent_nonzero m l Hcons Hl)). rewrite Hlf. reflexivity.
Qed.

Lemma model_ok_sound : forall N A m, model_ok N A m = true -> models (asg_of m) N /\ agrees (asg_of m) A.
Proof.
  intros N A m H. unfold model_ok in H.
  apply andb_prop in H. destruct H as [H HA]. apply andb_prop in H. destruct H as [_ HN].
  split; [apply models_b_sound | apply agrees_b_sound]; assumption.
Qed.

Lemma nodup_b_sound : forall l, nodup_b l = true -> NoDup l.
Proof.
  induction l as [|m r IH]; intros H; [constructor|]. simpl in H.
  apply andb_prop in H. destruct H as [H1 H2]. apply negb_true_iff in H1.
  constructor; [|apply IH; exact H2].
  intros Hin. assert (existsb (zlist_eqb m) r = true) as Hex.
  { apply existsb_exists. exists m. split; [exact Hin | apply zlist_eqb_refl]. }
  congruence.
Qed.

Theorem spec_check_sound : forall N A r, spec_check N A r = true ->
  (forall m, r_solution r = Some m -> models (asg_of m) N /\ agrees (asg_of m) A)
  /\ (forall l, r_solutions r = Some l ->
        NoDup l /\ forall m, In m l -> models (asg_of m) N /\ agrees (asg_of m) A).
Proof.
  intros N A r H. unfold spec_check in H. apply andb_prop in H. destruct H as [H1 H2]. split.
  - intros m Hm. rewrite Hm in H1. apply model_ok_sound. exact H1.
  - intros l Hl. rewrite Hl in H2. apply andb_prop in H2. destruct H2 as [Hall Hnd]. split.
    + apply nodup_b_sound. exact Hnd.
    + intros m Hin. rewrite forallb_forall in Hall. apply model_ok_sound. apply Hall. exact Hin.
Qed.
