(* C01 deep model - array lengths and coverage (W "at least") through the elementary operations: assignments and backjumps,
   the swaps and watch moves of the watch loop, attaching a clause. *)
From Coq Require Import List ZArith Lia.
Import ListNotations.
From SV Require Import C01.SatSpec C01.DeepCdcl C01.DeepBase C01.DeepTrail C01.DeepTrailProp C01.DeepWatch C01.DeepRunOps
  C01.DeepReduce C01.DeepRun C01.DeepSteps C01.DeepJ.
Close Scope Z_scope.
Open Scope nat_scope.

Definition bslot_len (s : st) (l : Z) : nat := if lpos l then length (s_bneg s) else length (s_bpos s).

Lemma slot_len_nv : forall s l, arr_len s -> slot_len s l = nv s.
Proof. intros s l (A1 & A2 & _). unfold slot_len. destruct (lpos l); assumption. Qed.

Lemma bslot_len_nv : forall s l, arr_len s -> bslot_len s l = nv s.
Proof. intros s l (_ & _ & A3 & A4). unfold bslot_len. destruct (lpos l); assumption. Qed.

Lemma slot_len_set_watch_list : forall s l ws l', slot_len (set_watch_list s l ws) l' = slot_len s l'.
Proof. intros. unfold slot_len, set_watch_list. destruct (lpos l); destruct (lpos l'); simpl; rewrite ?upd_length; reflexivity. Qed.

Lemma slot_len_set_clause : forall s ci c l, slot_len (set_clause s ci c) l = slot_len s l.
Proof. intros. unfold slot_len, set_clause. destruct (ci <? length (s_orig s)); reflexivity. Qed.

Lemma bslot_len_big_add1 : forall a b idx s l, bslot_len (big_add1 a b idx s) l = bslot_len s l.
Proof. intros. unfold bslot_len, big_add1. destruct (lpos a); destruct (lpos l); simpl; rewrite ?upd_length; reflexivity. Qed.

Lemma arr_len_db_eq : forall s s', db_eq s s' -> nv s' = nv s -> arr_len s -> arr_len s'.
Proof. intros s s' (_ & _ & E3 & E4 & E5 & E6) En (A1 & A2 & A3 & A4). unfold arr_len. rewrite E3, E4, E5, E6, En. auto. Qed.

Lemma arr_len_assign : forall s v b r, arr_len s -> arr_len (assign v b r s).
Proof. intros s v b r H. apply (arr_len_db_eq s); [apply assign_db_eq | apply nv_assign | exact H]. Qed.

Lemma arr_len_unassign_to : forall s level, arr_len s -> arr_len (unassign_to level s).
Proof. intros s level H. apply (arr_len_db_eq s); [apply unassign_to_db_eq | unfold nv; apply unassign_to_nvals | exact H]. Qed.

Lemma arr_len_set_clause : forall s ci c, arr_len s -> arr_len (set_clause s ci c).
Proof. intros s ci c H. unfold arr_len, nv, set_clause in *. destruct (ci <? length (s_orig s)); exact H. Qed.

Lemma arr_len_set_watch_list : forall s l ws, arr_len s -> arr_len (set_watch_list s l ws).
Proof. intros s l ws H. unfold arr_len, nv, set_watch_list in *. destruct (lpos l); simpl; rewrite ?upd_length; exact H. Qed.

Lemma arr_len_add_watch : forall l i s, arr_len s -> arr_len (add_watch l i s).
Proof. intros. unfold add_watch. apply arr_len_set_watch_list. assumption. Qed.

Lemma arr_len_big_add1 : forall a b idx s, arr_len s -> arr_len (big_add1 a b idx s).
Proof. intros a b idx s H. unfold arr_len, nv, big_add1 in *. destruct (lpos a); simpl; rewrite ?upd_length; exact H. Qed.

Lemma arr_len_attach : forall c idx s, arr_len s -> arr_len (attach c idx s).
Proof.
  intros c idx s H. destruct (attach_cases c idx s) as [E|[(a & b & Ec & E)|(a & b & r & Ec & _ & E)]]; rewrite E; auto.
  - unfold big_add. apply arr_len_big_add1, arr_len_big_add1. exact H.
  - apply arr_len_add_watch, arr_len_add_watch. exact H.
Qed.

Definition units_kept (s s' : st) : Prop :=
  forall l, lit_value s l = Some true -> level_of s (lvar l) = 0 -> lit_value s' l = Some true /\ level_of s' (lvar l) = 0.

Lemma units_kept_refl : forall s, units_kept s s.
Proof. intros s l H1 H2. split; assumption. Qed.

Lemma units_kept_asg_eq : forall s s', asg_eq s s' -> units_kept s s'.
Proof. intros s s' EA l. rewrite (asg_eq_lit_value _ _ _ EA), (asg_eq_level_of _ _ _ EA). auto. Qed.

Lemma units_kept_esteps : forall s s', esteps s s' -> units_kept s s'.
Proof. intros s s' R l H1 H2. exact (true0_esteps l s s' R (conj H1 H2)). Qed.

Lemma units_kept_assign : forall s v b r, val_of s v = None -> units_kept s (assign v b r s).
Proof. intros s v b r Hn. exact (units_kept_esteps _ _ (steps_one (es_prop _ _ (ps_assign s v b r Hn)))). Qed.

Lemma units_kept_unassign_to : forall s level, trail_inv s -> units_kept s (unassign_to level s).
Proof. intros s level HT. exact (units_kept_esteps _ _ (steps_one (es_unassign s level HT))). Qed.

Lemma covered_mono_long : forall s s' ci, get_clause s' ci = get_clause s ci -> 2 <= length (get_clause s ci) ->
  (forall l, cnt (watch_list s l) ci <= cnt (watch_list s' l) ci) ->
  (forall fl b, In (b, ci) (implications s fl) -> In (b, ci) (implications s' fl)) ->
  covered s ci -> covered s' ci.
Proof.
  intros s s' ci Eg Hlen Hw Hi Q. unfold covered in *. rewrite Eg.
  destruct (get_clause s ci) as [|a [|b r]]; simpl in Hlen; try lia.
  destruct Q as [Q|[Q1 [Q2 Q3]]]; [left | right].
  - intros l. pose proof (Q l). pose proof (Hw l). lia.
  - split; [exact Q1|]. split; apply Hi; assumption.
Qed.

Lemma covered_mono : forall s s' ci, get_clause s' ci = get_clause s ci ->
  (forall l, cnt (watch_list s l) ci <= cnt (watch_list s' l) ci) ->
  (forall fl b, In (b, ci) (implications s fl) -> In (b, ci) (implications s' fl)) ->
  units_kept s s' -> covered s ci -> covered s' ci.
Proof.
  intros s s' ci Eg Hw Hi Hu Q. destruct (get_clause s ci) as [|a [|b r]] eqn:Ec.
  - unfold covered in Q. rewrite Ec in Q. contradiction.
  - unfold covered in *. rewrite Eg, Ec in *. apply Hu; tauto.
  - apply (covered_mono_long s); [congruence | rewrite Ec; simpl; lia | assumption..].
Qed.

Lemma cov_all_db_eq : forall s s', db_eq s s' -> units_kept s s' -> cov_all s -> cov_all s'.
Proof.
  intros s s' E Hu H ci Hci. rewrite (db_eq_n_clauses _ _ E) in Hci. apply (covered_mono s); [apply db_eq_get_clause; exact E | | | exact Hu | exact (H ci Hci)].
  - intros l. rewrite (db_eq_watch_list _ _ _ E). apply Nat.le_refl.
  - intros fl b Hb. rewrite (db_eq_implications _ _ _ E). exact Hb.
Qed.

Lemma cov_all_assign : forall s v b r, val_of s v = None -> cov_all s -> cov_all (assign v b r s).
Proof. intros s v b r Hn. apply cov_all_db_eq; [apply assign_db_eq | apply units_kept_assign; exact Hn]. Qed.

Lemma cov_all_unassign_to : forall s level, trail_inv s -> cov_all s -> cov_all (unassign_to level s).
Proof. intros s level HT. apply cov_all_db_eq; [apply unassign_to_db_eq | apply units_kept_unassign_to; exact HT]. Qed.

Lemma cov_all_swap01 : forall s ci, cov_all s -> ci < n_clauses s -> cov_all (set_clause s ci (swap01 (get_clause s ci))).
Proof.
  intros s ci H Hci cj Hcj. rewrite n_clauses_set_clause in Hcj. pose proof (H cj Hcj) as Q.
  pose proof (set_clause_asg s ci (swap01 (get_clause s ci))) as EA.
  destruct (Nat.eq_dec cj ci) as [E|E].
  - subst cj. unfold covered in *. rewrite get_clause_set_clause_eq by exact Hci.
    destruct (get_clause s ci) as [|a [|b r]]; simpl swap01 in *; cbv iota; [exact Q | rewrite (asg_eq_lit_value _ _ _ EA), (asg_eq_level_of _ _ _ EA); exact Q|].
    destruct Q as [Q|[Q1 [Q2 Q3]]]; [left | right].
    + intros l. rewrite watch_list_set_clause. pose proof (Q l) as Q'. unfold pos01 in *. lia.
    + split; [exact Q1|]. split; rewrite implications_set_clause; assumption.
  - apply (covered_mono s); [apply get_clause_set_clause_neq; exact E | | | apply units_kept_asg_eq; exact EA | exact Q].
    + intros l. rewrite watch_list_set_clause. apply Nat.le_refl.
    + intros fl b Hb. rewrite implications_set_clause. exact Hb.
Qed.

Lemma watch_list_out_of_range : forall s l, slot_len s l <= lvar l -> watch_list s l = [].
Proof. intros s l H. unfold watch_list, slot_len in *. destruct (lpos l); apply nth_overflow; exact H. Qed.

Lemma watch_nonempty_in_range : forall s l, watch_list s l <> [] -> lvar l < slot_len s l.
Proof.
  intros s l H. destruct (Nat.lt_ge_cases (lvar l) (slot_len s l)) as [Q|Q]; [exact Q|]. elim H. apply watch_list_out_of_range. exact Q.
Qed.

Lemma cnt_add_watch_mono : forall l' idx s l cj, cnt (watch_list s l) cj <= cnt (watch_list (add_watch l' idx s) l) cj.
Proof.
  intros l' idx s l cj. unfold add_watch. destruct (Z.eq_dec l l') as [E|E].
  - subst l'. rewrite watch_list_set_same. destruct (Nat.ltb_spec (lvar l) (slot_len s l)) as [Q|Q].
    + rewrite cnt_app. lia.
    + rewrite (watch_list_out_of_range s l Q). rewrite cnt_nil. lia.
  - rewrite watch_list_set_other by exact E. lia.
Qed.

Lemma cnt_add_watch_self : forall l' idx s l, lvar l' < slot_len s l' ->
  cnt (watch_list s l) idx + (if (l' =? l)%Z then 1 else 0) <= cnt (watch_list (add_watch l' idx s) l) idx.
Proof.
  intros l' idx s l Hr. unfold add_watch. destruct (Z.eqb_spec l' l) as [E|E].
  - subst l'. rewrite watch_list_set_same. destruct (Nat.ltb_spec (lvar l) (slot_len s l)); [|lia].
    rewrite cnt_app, cnt_one. destruct (Nat.eq_dec idx idx); [lia | congruence].
  - rewrite watch_list_set_other by congruence. lia.
Qed.

(* add_watch(c[0], idx); add_watch(c[1], idx) makes the clause watched *)
Lemma wcov_add_watch2 : forall s idx a b r, lvar a < slot_len s a -> lvar b < slot_len s b ->
  wcov (add_watch b idx (add_watch a idx s)) idx (a :: b :: r).
Proof.
  intros s idx a b r Ra Rb l.
  assert (lvar b < slot_len (add_watch a idx s) b) as Rb' by (unfold add_watch; rewrite slot_len_set_watch_list; exact Rb).
  pose proof (cnt_add_watch_self b idx (add_watch a idx s) l Rb'). pose proof (cnt_add_watch_self a idx s l Ra).
  unfold pos01. lia.
Qed.

(* watches[i] = watches[-1]; watches.pop(), by index *)
Lemma length_removelast : forall {A} (l : list A), length (removelast l) = length l - 1.
Proof.
  intros A l. destruct (list_last_case l) as [E|(l' & z & E)]; subst; [reflexivity|].
  rewrite removelast_app_one, app_length. simpl. lia.
Qed.

Lemma nth_removelast : forall {A} (l : list A) j d, j < length l - 1 -> nth j (removelast l) d = nth j l d.
Proof.
  intros A l j d H. destruct (list_last_case l) as [E|(l' & z & E)]; subst; [simpl in H; lia|].
  rewrite removelast_app_one. rewrite app_length in H. simpl in H. rewrite app_nth1 by lia. reflexivity.
Qed.

Lemma last_nth : forall (l : list nat) d, last l d = nth (length l - 1) l d.
Proof.
  intros l d. destruct (list_last_case l) as [E|(l' & z & E)]; subst; [reflexivity|].
  rewrite last_app_one, app_length. simpl. rewrite app_nth2 by lia. replace (length l' + 1 - 1 - length l') with 0 by lia. reflexivity.
Qed.

Lemma length_remove_swap_last : forall ws i, length (remove_swap_last ws i) = length ws - 1.
Proof. intros. unfold remove_swap_last. rewrite length_removelast, upd_length. reflexivity. Qed.

Lemma nth_remove_swap_last : forall ws i j, i < length ws -> j < length ws - 1 ->
  nth j (remove_swap_last ws i) 0 = if i =? j then nth (length ws - 1) ws 0 else nth j ws 0.
Proof.
  intros ws i j Hi Hj. unfold remove_swap_last. rewrite nth_removelast by (rewrite upd_length; exact Hj).
  destruct (Nat.eqb_spec i j) as [E|E].
  - subst j. rewrite nth_upd_eq by exact Hi. apply last_nth.
  - apply nth_upd_neq. exact E.
Qed.

Section Move.
Variables (s : st) (fl x : Z) (i ci : nat) (c : clause).
Hypothesis Hi : i < length (watch_list s fl).
Hypothesis Eci : ci = nth i (watch_list s fl) 0.
Hypothesis Hx : x <> fl.

Let moved := add_watch x ci (set_watch_list (set_clause s ci c) fl (remove_swap_last (watch_list s fl) i)).

Lemma watch_list_moved_fl : watch_list moved fl = remove_swap_last (watch_list s fl) i.
Proof using Hi Eci Hx.
  unfold moved, add_watch. rewrite watch_list_set_other by (intros Q; apply Hx; symmetry; exact Q). rewrite watch_list_set_same.
  assert (lvar fl < slot_len (set_clause s ci c) fl) as Q.
  { rewrite slot_len_set_clause. apply watch_nonempty_in_range. intros Q. rewrite Q in Hi. simpl in Hi. lia. }
  destruct (Nat.ltb_spec (lvar fl) (slot_len (set_clause s ci c) fl)); [reflexivity | lia].
Qed.

(* the list of fl loses one entry ci, the list of x gains one; the entries of other clauses stay *)
Lemma cnt_moved_self : forall l, lvar x < slot_len s x ->
  cnt (watch_list s l) ci + (if (x =? l)%Z then 1 else 0) <= cnt (watch_list moved l) ci + (if (fl =? l)%Z then 1 else 0).
Proof using Hi Eci Hx.
  intros l Hxr. destruct (Z.eqb_spec fl l) as [E|E].
  - subst l. rewrite watch_list_moved_fl. pose proof (cnt_remove_swap_last (watch_list s fl) i ci Hi) as Q. rewrite <- Eci in Q.
    destruct (Nat.eq_dec ci ci); [|congruence]. destruct (Z.eqb_spec x fl); [congruence | lia].
  - assert (lvar x < slot_len (set_watch_list (set_clause s ci c) fl (remove_swap_last (watch_list s fl) i)) x) as Hxr'
      by (rewrite slot_len_set_watch_list, slot_len_set_clause; exact Hxr).
    pose proof (cnt_add_watch_self x ci _ l Hxr') as Q. fold moved in Q.
    rewrite watch_list_set_other, watch_list_set_clause in Q by congruence. lia.
Qed.

Lemma cnt_moved_other : forall l cj, cj <> ci -> cnt (watch_list s l) cj <= cnt (watch_list moved l) cj.
Proof using Hi Eci Hx.
  intros l cj Hne. destruct (Z.eq_dec l fl) as [E|E].
  - subst l. rewrite watch_list_moved_fl. pose proof (cnt_remove_swap_last (watch_list s fl) i cj Hi) as Q. rewrite <- Eci in Q.
    destruct (Nat.eq_dec ci cj); [congruence | lia].
  - pose proof (cnt_add_watch_mono x ci (set_watch_list (set_clause s ci c) fl (remove_swap_last (watch_list s fl) i)) l cj) as Q.
    fold moved in Q. rewrite watch_list_set_other, watch_list_set_clause in Q by exact E. exact Q.
Qed.

Lemma moved_frame : n_clauses moved = n_clauses s /\ (forall cj, get_clause moved cj = get_clause (set_clause s ci c) cj)
  /\ asg_eq s moved /\ (forall l, implications moved l = implications s l).
Proof using.
  unfold moved, add_watch. split; [rewrite !n_clauses_set_watch_list; apply n_clauses_set_clause|].
  split; [intros cj; rewrite !get_clause_set_watch_list; reflexivity|]. split.
  - eapply asg_eq_trans; [apply set_clause_asg|]. eapply asg_eq_trans; apply set_watch_list_asg.
  - intros l. rewrite !implications_set_watch_list. apply implications_set_clause.
Qed.

(* the clause is a :: fl :: rest with x taken from rest; only positions 0 and 1 of the new clause matter *)
Lemma cov_all_move : forall a rest rest', cov_all s -> watch_le s -> get_clause s ci = a :: fl :: rest -> rest <> [] ->
  c = a :: x :: rest' -> lvar x < slot_len s x -> cov_all moved.
Proof using Hi Eci Hx.
  intros a rest rest' H HW Hc Hrest Ec Hxr. destruct moved_frame as (N & G & EA & I).
  assert (ci < n_clauses s) as Hci by (destruct (watch_le_member s fl ci HW) as [Q _]; [rewrite Eci; apply nth_In; exact Hi | exact Q]).
  intros cj Hcj. rewrite N in Hcj. pose proof (H cj Hcj) as Q. destruct (Nat.eq_dec cj ci) as [E|E].
  - subst cj. unfold covered in *. rewrite G, get_clause_set_clause_eq, Ec by exact Hci. rewrite Hc in Q.
    destruct Q as [Q|[Q1 _]]; [|contradiction]. left. intros l. pose proof (Q l). pose proof (cnt_moved_self l Hxr).
    unfold pos01 in *. lia.
  - apply (covered_mono s); [rewrite G; apply get_clause_set_clause_neq; exact E | | | apply units_kept_asg_eq; exact EA | exact Q].
    + intros l. apply cnt_moved_other. exact E.
    + intros l b Hb. rewrite I. exact Hb.
Qed.
End Move.

Lemma In_nth_upd_app_mono : forall {X} (L : list (list X)) i j e x, In x (nth j L []) -> In x (nth j (upd L i (nth i L [] ++ e)) []).
Proof.
  intros X L i j e x H. destruct (Nat.eq_dec i j) as [E|E]; [|rewrite nth_upd_neq by exact E; exact H].
  subst j. destruct (Nat.lt_ge_cases i (length L)) as [Q|Q]; [|rewrite nth_overflow in H by exact Q; contradiction].
  rewrite nth_upd_eq by exact Q. apply in_or_app. left. exact H.
Qed.

Lemma implications_big_add1_mono : forall a b idx s fl p, In p (implications s fl) -> In p (implications (big_add1 a b idx s) fl).
Proof.
  intros a b idx s fl p H. unfold implications, big_add1 in *.
  destruct (lpos a); destruct (lpos fl); simpl; auto; apply In_nth_upd_app_mono; exact H.
Qed.

Lemma implications_big_add1_new : forall a b idx s, lvar a < bslot_len s a -> In (b, idx) (implications (big_add1 a b idx s) a).
Proof.
  intros a b idx s H. unfold implications, big_add1, bslot_len in *. destruct (lpos a) eqn:Ea; simpl; rewrite ?Ea;
    rewrite nth_upd_eq by exact H; apply in_or_app; right; left; reflexivity.
Qed.

Lemma attach_mono : forall c idx s,
  (forall l cj, cnt (watch_list s l) cj <= cnt (watch_list (attach c idx s) l) cj)
  /\ (forall fl p, In p (implications s fl) -> In p (implications (attach c idx s) fl))
  /\ asg_eq s (attach c idx s).
Proof.
  intros c idx s. split; [|split; [|apply attach_asg]].
  - intros l cj. destruct (attach_cases c idx s) as [E|[(a & b & Ec & E)|(a & b & r & Ec & _ & E)]]; rewrite E; [lia | |].
    + unfold big_add. rewrite !watch_list_big_add1. lia.
    + pose proof (cnt_add_watch_mono b idx (add_watch a idx s) l cj). pose proof (cnt_add_watch_mono a idx s l cj). lia.
  - intros fl p Hp. destruct (attach_cases c idx s) as [E|[(a & b & Ec & E)|(a & b & r & Ec & _ & E)]]; rewrite E; [exact Hp | |].
    + unfold big_add. apply implications_big_add1_mono, implications_big_add1_mono. exact Hp.
    + unfold add_watch. rewrite !implications_set_watch_list. exact Hp.
Qed.

Lemma covered_attach : forall c idx s, arr_len s -> clause_in (nv s) c -> 2 <= length c -> get_clause s idx = c ->
  covered (attach c idx s) idx.
Proof.
  intros c idx s HA Hin Hlen Hc. destruct (attach_frame c idx s) as (_ & Eg & _). unfold covered. rewrite Eg, Hc.
  destruct c as [|a [|b r]]; simpl in Hlen; try lia.
  inversion Hin as [|? ? Ha Hin']; subst. inversion Hin' as [|? ? Hb _]; subst. unfold lit_in in *.
  destruct r as [|x r].
  - right. split; [reflexivity|]. simpl attach. unfold big_add, bcov. split.
    + apply implications_big_add1_mono. apply implications_big_add1_new. rewrite bslot_len_nv by exact HA. exact Ha.
    + apply implications_big_add1_new. rewrite bslot_len_big_add1, bslot_len_nv by exact HA. exact Hb.
  - left. simpl attach. apply wcov_add_watch2; rewrite slot_len_nv by exact HA; assumption.
Qed.
