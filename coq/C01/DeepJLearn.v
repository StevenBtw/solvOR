(* C01 deep model - coverage (W) and J through the conflict branch of the main loop: backjump, learned clause, its assertion; and through
   the restart: reduce_db() rebuilds watch / implication lists that cover every kept clause, J is untouched. *)
From Coq Require Import List ZArith Lia.
Import ListNotations.
From SV Require Import C01.SatSpec C01.DeepCdcl C01.DeepBase C01.DeepTrail C01.DeepTrailProp C01.DeepAnalyze C01.DeepWatch
  C01.DeepReason C01.DeepReasonProp C01.DeepRunOps C01.DeepReduce C01.DeepRun C01.DeepSteps C01.DeepJ C01.DeepJOps.
Close Scope Z_scope.
Open Scope nat_scope.

Lemma analyze_bt_unit : forall s ci l bt lbd, analyze s ci = Some ([l], bt, lbd) -> bt = 0.
Proof.
  intros s ci l bt lbd E. destruct (analyze_some _ _ _ _ _ E) as (_ & _ & _ & Ebt). rewrite Ebt. simpl.
  destruct (negb (is_none (val_of s (lvar l)))); simpl; [|reflexivity].
  unfold list_max_nat at 2. simpl. rewrite Nat.ltb_irrefl. reflexivity.
Qed.

Lemma arr_len_append : forall c k s, arr_len s -> arr_len (append_learned c k s).
Proof. intros c k s H. exact H. Qed.

Lemma learn_PJ : forall s ci lc bt lbd, BI s -> arr_len s /\ cov_all s /\ JC s -> conflict_ok s ci ->
  analyze s ci = Some (lc, bt, lbd) ->
  arr_len (learn_st s lc bt lbd) /\ cov_all (learn_st s lc bt lbd) /\ J (learn_st s lc bt lbd).
Proof.
  intros s ci lc bt lbd H (HA & HC & HJ) Hc E. pose proof (proj1 (bi_ti s H)) as HT.
  destruct (learn_mid s ci lc bt lbd H Hc E) as (u & ll' & Ell & Hbt & H2 & EA & Hn2c & Hg2 & Hun & _ & _ & Hur & Hn2 & Hc2).
  unfold learn_st. set (s1 := unassign_to bt s) in *. set (cidx := n_clauses s1) in *.
  set (s2' := append_learned lc lbd s1) in *. set (s2 := attach lc cidx s2') in *.
  assert (arr_len s1) as HA1 by (apply arr_len_unassign_to; exact HA).
  assert (cov_all s1) as HC1 by (apply cov_all_unassign_to; assumption).
  assert (J s1) as HJ1 by (apply JC_unassign_to; auto; exact (bi_head s H)).
  destruct (attach_frame lc cidx s2') as (_ & Eg & _). destruct (attach_mono lc cidx s2') as (Mw & Mi & _).
  assert (get_clause s2' cidx = lc) as Hg2' by (rewrite <- Eg; exact Hg2).
  assert (forall r, r < cidx -> get_clause s2 r = get_clause s1 r) as Hold.
  { intros r Hr. unfold s2. rewrite Eg. apply get_clause_append_old. exact Hr. }
  assert (clause_in (nv s2') lc) as Hin.
  { pose proof (get_clause_in s2 cidx (proj2 (bi_ti s2 H2))) as Q. rewrite Hg2, Hn2 in Q.
    change (nv s2') with (nv s1). replace (nv s1) with (nv s) by (symmetry; apply unassign_to_nvals). exact Q. }
  pose proof (proj1 (bi_ti s2 H2)) as HT2. fold (nv s2) in Hur. rewrite <- Hn2 in Hur.
  assert (arr_len s2) as HA2 by (unfold s2; apply arr_len_attach; exact HA1).
  rewrite Ell. unfold assign_lit. rewrite lvar_false_lit_of.
  set (s3' := assign u (lpos (false_lit_of s u)) (Some cidx) s2).
  assert (units_kept s2 s3') as U23 by (apply units_kept_assign; exact Hun).
  split; [unfold s3'; apply arr_len_assign; exact HA2|]. split.
  - intros cj Hcj. change (n_clauses s3') with (n_clauses s2) in Hcj. rewrite Hn2c in Hcj.
    assert (covered s2 cj -> covered s3' cj) as Hstep.
    { apply covered_mono; [reflexivity | intros l; apply Nat.le_refl | intros fl b Hb; exact Hb | exact U23]. }
    destruct (Nat.eq_dec cj cidx) as [Q|Q].
    + subst cj. destruct ll' as [|l1 ll''].
      * unfold covered. change (get_clause s3' cidx) with (get_clause s2 cidx). rewrite Hg2, Ell.
        pose proof (true0_assign_lit s2 (false_lit_of s u) (Some cidx) HT2) as Q. unfold assign_lit in Q. rewrite lvar_false_lit_of in Q.
        rewrite Ell in E. rewrite (analyze_bt_unit _ _ _ _ _ E) in Hc2. exact (Q Hc2 Hur).
      * apply Hstep. unfold s2. apply covered_attach; [exact HA1 | exact Hin | rewrite Ell; simpl; lia | exact Hg2'].
    + assert (cj < cidx) as Hlt by lia. apply Hstep. apply (covered_mono s1).
      * apply Hold. exact Hlt.
      * intros l. exact (Mw l cj).
      * intros fl b Hb. apply Mi. exact Hb.
      * apply units_kept_asg_eq. exact EA.
      * apply HC1. exact Hlt.
  - apply (Jx_assign s2 _ _ _ _ HT2 Hun Hur). intros cj a b r Q1 Q2 Q3 Q4. rewrite Hn2c in Q1.
    destruct (Nat.eq_dec cj cidx) as [Q|Q].
    + subst cj. rewrite Hg2, Ell in Q2. injection Q2 as E1 E2. subst a. destruct Q3 as [Q3 _].
      apply lit_value_assigned in Q3. rewrite lvar_false_lit_of, Hun in Q3. contradiction.
    + rewrite Hold in Q2 by lia. apply (fp_asg_eq _ _ _ EA) in Q3. apply (fp_asg_eq _ _ _ EA) in Q4.
      exact (HJ1 cj a b r ltac:(unfold cidx in *; lia) Q2 Q3 Q4).
Qed.

Lemma attach_all_frame : forall cs idx s,
  n_clauses (attach_all cs idx s) = n_clauses s /\ (forall r, get_clause (attach_all cs idx s) r = get_clause s r)
  /\ asg_eq s (attach_all cs idx s)
  /\ (forall l cj, cnt (watch_list s l) cj <= cnt (watch_list (attach_all cs idx s) l) cj)
  /\ (forall fl p, In p (implications s fl) -> In p (implications (attach_all cs idx s) fl))
  /\ (arr_len s -> arr_len (attach_all cs idx s)).
Proof.
  induction cs as [|c cs IH]; intros idx s; simpl.
  - split; [reflexivity|]. split; [reflexivity|]. split; [apply asg_eq_refl|]. split; [intros; lia|]. split; auto.
  - destruct (attach_frame c idx s) as (En & Eg & _). destruct (attach_mono c idx s) as (Mw & Mi & EA).
    destruct (IH (S idx) (attach c idx s)) as (Q1 & Q2 & Q3 & Q4 & Q5 & Q6).
    split; [congruence|]. split; [intros r; rewrite Q2; apply Eg|]. split; [eapply asg_eq_trans; eauto|].
    split; [intros l cj; pose proof (Mw l cj); pose proof (Q4 l cj); lia|]. split; [intros fl p Hp; apply Q5, Mi; exact Hp|].
    intros HA. apply Q6. apply arr_len_attach. exact HA.
Qed.

Lemma covered_attach_all : forall cs idx s k, arr_len s -> k < length cs -> 2 <= length (nth k cs []) ->
  clause_in (nv s) (nth k cs []) -> (forall j, j < length cs -> get_clause s (idx + j) = nth j cs []) ->
  covered (attach_all cs idx s) (idx + k).
Proof.
  induction cs as [|c cs IH]; intros idx s k HA Hk Hlen Hin Hget; simpl in Hk; [lia|].
  simpl attach_all. destruct (attach_frame c idx s) as (En & Eg & _). destruct (attach_all_frame cs (S idx) (attach c idx s)) as (Q1 & Q2 & Q3 & Q4 & Q5 & Q6).
  destruct k as [|k].
  - simpl in Hlen, Hin. rewrite Nat.add_0_r.
    assert (get_clause s idx = c) as Hc by (rewrite <- (Nat.add_0_r idx) at 1; apply (Hget 0); simpl; lia).
    apply (covered_mono (attach c idx s)); [apply Q2 | intros l; apply Q4 | intros fl b Hb; apply Q5; exact Hb | apply units_kept_asg_eq; exact Q3|].
    apply covered_attach; auto.
  - replace (idx + S k) with (S idx + k) by lia. simpl in Hlen, Hin. apply IH; auto.
    + apply arr_len_attach. exact HA.
    + lia.
    + unfold nv in *. destruct (attach_asg c idx s) as (Qv & _). rewrite Qv. exact Hin.
    + intros j Hj. rewrite Eg. replace (S idx + j) with (idx + S j) by lia. apply (Hget (S j)). simpl. lia.
Qed.

Lemma cnt_filter_keep : forall (f : nat -> bool) ws x, f x = true -> cnt (filter f ws) x = cnt ws x.
Proof.
  intros f ws x Hf. induction ws as [|y ws IH]; simpl; [reflexivity|]. unfold cnt in *. destruct (f y) eqn:E; simpl.
  - destruct (Nat.eq_dec y x); rewrite IH; reflexivity.
  - destruct (Nat.eq_dec y x); [subst; congruence | exact IH].
Qed.

Lemma length_filter_tail : forall {X} (f : X -> bool) L, length (filter_tail f L) = length L.
Proof. intros X f [|h t]; simpl; [reflexivity|]. rewrite map_length. reflexivity. Qed.

(* the state reduce_db() builds before it attaches the kept learned clauses again: the lists keep the entries of the
   original clauses only *)
Definition rebuilt (s : st) (kept : list (nat * clause)) : st :=
  mkSt (s_vals s) (s_levels s) (s_reasons s) (s_trail s) (s_lim s) (s_head s) (s_phase s) (s_props s) (s_confl s)
       (s_orig s) (map snd kept) (map fst kept)
       (filter_tail (fun c => c <? length (s_orig s)) (s_wpos s)) (filter_tail (fun c => c <? length (s_orig s)) (s_wneg s))
       (map (filter (fun p : Z * nat => snd p <? length (s_orig s))) (s_bpos s))
       (map (filter (fun p : Z * nat => snd p <? length (s_orig s))) (s_bneg s)).

Lemma reduce_db_rebuilt : forall s, reduce_db s = s \/
  exists kept, (forall c, In c (map snd kept) -> In c (s_learned s))
               /\ reduce_db s = attach_all (map snd kept) (length (s_orig s)) (rebuilt s kept).
Proof.
  intros s. unfold reduce_db. destruct (length (s_learned s) <? reduce_threshold); [left; reflexivity | right].
  eexists. split; [|reflexivity]. intros c Hc. apply kept_in_learned. exact Hc.
Qed.

Section Rebuilt.
Variables (s : st) (kept : list (nat * clause)).
Let no := length (s_orig s).

Lemma rebuilt_asg : asg_eq s (rebuilt s kept).
Proof. repeat split. Qed.

Lemma arr_len_rebuilt : arr_len s -> arr_len (rebuilt s kept).
Proof. intros (A1 & A2 & A3 & A4). unfold arr_len, nv, rebuilt; simpl. rewrite !length_filter_tail, !map_length. auto. Qed.

Lemma get_clause_rebuilt : forall r, get_clause (rebuilt s kept) r = if r <? no then get_clause s r else nth (r - no) (map snd kept) [].
Proof. intros r. unfold get_clause, rebuilt. simpl. fold no. destruct (r <? no); reflexivity. Qed.

Lemma cnt_watch_rebuilt : forall l r, r < no -> cnt (watch_list (rebuilt s kept) l) r = cnt (watch_list s l) r.
Proof.
  intros l r Hr. unfold watch_list, rebuilt. simpl. fold no.
  destruct (lpos l); rewrite nth_filter_tail; (destruct (lvar l =? 0) eqn:E0; [apply Nat.eqb_eq in E0; rewrite E0; reflexivity|]);
    apply cnt_filter_keep; apply Nat.ltb_lt; exact Hr.
Qed.

Lemma implications_rebuilt : forall fl b r, r < no -> In (b, r) (implications s fl) -> In (b, r) (implications (rebuilt s kept) fl).
Proof.
  intros fl b r Hr Hp. unfold implications, rebuilt in *. simpl. fold no.
  destruct (lpos fl); rewrite nth_map_filter; apply filter_In; (split; [exact Hp|]); apply Nat.ltb_lt; exact Hr.
Qed.

Lemma rebuilt_clause_old : (forall c, In c (map snd kept) -> In c (s_learned s)) ->
  forall r, r < n_clauses (rebuilt s kept) -> exists r', r' < n_clauses s /\ get_clause s r' = get_clause (rebuilt s kept) r.
Proof.
  intros Hk r Hr. apply in_db_get_clause. pose proof (get_clause_in_db _ r Hr) as Q. unfold db in *.
  apply in_app_or in Q. apply in_or_app. destruct Q as [Q|Q]; [left; exact Q | right; apply Hk; exact Q].
Qed.
End Rebuilt.

Theorem reduce_db_PJ : forall s, BI s -> arr_len s /\ cov_all s /\ J s -> cur_level s = 0 ->
  arr_len (reduce_db s) /\ cov_all (reduce_db s) /\ J (reduce_db s).
Proof.
  intros s H (HA & HC & HJ) Hc0. destruct (reduce_db_rebuilt s) as [E|(kept & Hk & E)]; rewrite E; [auto|].
  set (no := length (s_orig s)).
  pose proof (rebuilt_asg s kept) as EA. pose proof (arr_len_rebuilt s kept HA) as HA1.
  destruct (attach_all_frame (map snd kept) no (rebuilt s kept)) as (Q1 & Q2 & Q3 & Q4 & Q5 & Q6).
  split; [exact (Q6 HA1)|]. split.
  - intros cj Hcj. rewrite Q1 in Hcj.
    destruct (rebuilt_clause_old s kept Hk cj Hcj) as (r' & Hr' & Er').
    pose proof (get_clause_rebuilt s kept cj) as Eg1. cbv zeta in Eg1. fold no in Eg1.
    destruct (Nat.ltb_spec cj no) as [L|L].
    + (* an original clause: its entries are kept, then attach_all only adds *)
      assert (cj < n_clauses s) as L2 by (unfold n_clauses; fold no; lia).
      apply (covered_mono (rebuilt s kept)); [apply Q2 | intros l; apply Q4 | intros fl b Hb; apply Q5; exact Hb | apply units_kept_asg_eq; exact Q3|].
      apply (covered_mono s); [exact Eg1 | | | apply units_kept_asg_eq; exact EA | exact (HC cj L2)].
      * intros l. rewrite (cnt_watch_rebuilt s kept l cj L). apply Nat.le_refl.
      * intros fl b. apply implications_rebuilt. exact L.
    + pose proof (HC r' Hr') as Qc. unfold covered in Qc. rewrite Er' in Qc.
      destruct (get_clause (rebuilt s kept) cj) as [|a [|b r]] eqn:Ec; [contradiction | |].
      * unfold covered. rewrite Q2, Ec. rewrite (asg_eq_lit_value _ _ _ Q3), (asg_eq_level_of _ _ _ Q3).
        rewrite (asg_eq_lit_value _ _ _ EA), (asg_eq_level_of _ _ _ EA). exact Qc.
      * assert (cj - no < length (map snd kept)) as Hk2.
        { unfold n_clauses, rebuilt in Hcj. simpl in Hcj. fold no in Hcj. lia. }
        replace cj with (no + (cj - no)) by lia. apply (covered_attach_all (map snd kept) no (rebuilt s kept) (cj - no) HA1 Hk2).
        -- assert (2 <= length (a :: b :: r)) as Q by (simpl; lia). rewrite Eg1 in Q. exact Q.
        -- pose proof (get_clause_in s r' (proj2 (bi_ti s H))) as Q. rewrite Er', Eg1 in Q. exact Q.
        -- intros j Hj. rewrite (get_clause_rebuilt s kept). cbv zeta. fold no. destruct (Nat.ltb_spec (no + j) no); [lia|].
           replace (no + j - no) with j by lia. reflexivity.
  - (* J: every clause of the new database is a clause of the old one *)
    intros cj a b r H1 H2 H3 H4. rewrite Q1 in H1. rewrite Q2 in H2.
    apply (fp_asg_eq _ _ _ Q3) in H3. apply (fp_asg_eq _ _ _ Q3) in H4.
    apply (fp_asg_eq _ _ _ EA) in H3. apply (fp_asg_eq _ _ _ EA) in H4.
    destruct (rebuilt_clause_old s kept Hk cj H1) as (r' & Hr' & Er'). rewrite H2 in Er'.
    exact (HJ r' a b r Hr' Er' H3 H4).
Qed.

Lemma restart_PJ : forall s, BI s -> arr_len s /\ cov_all s /\ J s ->
  arr_len (reduce_db (unassign_to 0 s)) /\ cov_all (reduce_db (unassign_to 0 s)) /\ J (reduce_db (unassign_to 0 s)).
Proof.
  intros s H (HA & HC & HJ). pose proof (proj1 (bi_ti s H)) as HT.
  apply reduce_db_PJ; [apply BI_unassign_to; exact H | | apply cur_level_unassign_to; lia].
  split; [apply arr_len_unassign_to; exact HA|]. split; [apply cov_all_unassign_to; assumption|].
  apply J_unassign_to; [exact HT | exact (bi_head s H) | exact HJ].
Qed.
