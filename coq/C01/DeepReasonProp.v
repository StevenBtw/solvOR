(* C01 deep model - invariant (b): propagate preserves the bundle BI, and a conflict it reports is a falsified clause of
   the database with a literal of the current level. *)
From Coq Require Import List ZArith Bool Arith Lia.
Import ListNotations.
From SV Require Import C01.SatSpec C01.Machine C01.DeepCdcl C01.DeepBase C01.DeepTrail C01.DeepTrailProp C01.DeepAnalyze
  C01.DeepWatch C01.DeepReason.
Close Scope Z_scope.
Open Scope nat_scope.

Lemma BI_frame : forall s s', BI s -> asg_eq s s' -> n_clauses s' = n_clauses s ->
  (forall r l, In l (get_clause s' r) -> In l (get_clause s r)) -> TI s' -> watch_le s' -> big_ok s' -> BI s'.
Proof.
  intros s s' H E En Eg HT HW HB. destruct H as [H1 H2 H3 H4 H5 H6 H7 H8]. pose proof E as (E1 & E2 & E3 & E4 & _).
  constructor; auto. (* bi_ti, bi_wle, bi_big are HT, HW, HB *)
  - intros ci l Hl. apply (H2 ci). apply Eg. exact Hl.
  - rewrite (asg_eq_val_of _ _ _ E). exact H3.
  - exact (reason_inv_fields s s' E1 E2 E3 E4 En Eg H6).
  - exact (decision_first_levels_frame s s' E2 E3 E4 H7).
  - eapply head_inv_asg_eq; eauto.
Qed.

Lemma BI_bump_confl : forall s, BI s -> BI (bump_confl s).
Proof.
  intros s H. apply (BI_frame s); auto. (* BI s, and the same clauses, by auto *)
  - apply bump_confl_asg.
  - apply TI_bump_confl. exact (bi_ti s H).
  - eapply watch_le_db_eq; [apply bump_confl_db_eq | exact (bi_wle s H)].
  - eapply big_ok_db_eq; [apply bump_confl_db_eq | exact (bi_big s H)].
Qed.

Lemma BI_assign : forall s v b r0, BI s -> val_of s v = None -> v < length (s_vals s) -> v <> 0 ->
  (forall r, r0 = Some r -> 1 <= cur_level s -> r < n_clauses s
     /\ forall l, In l (get_clause s r) -> (lvar l = v /\ lpos l = b) \/ lit_value s l = Some false) ->
  (r0 = None -> cur_level s = 0 \/ forall w, In w (s_trail s) -> level_of s w < cur_level s) ->
  BI (assign v b r0 s).
Proof.
  intros s v b r0 H Hn Hv Hv0 Hr Hd. pose proof (bi_ti s H) as [HT HD]. constructor.
  - split; [apply assign_trail_inv; assumption | apply db_range_assign; assumption].
  - exact (bi_nz s H).
  - rewrite val_of_assign by exact Hv. destruct (Nat.eqb_spec v 0); [contradiction | exact (bi_v0 s H)].
  - eapply watch_le_db_eq; [apply assign_db_eq | exact (bi_wle s H)].
  - eapply big_ok_db_eq; [apply assign_db_eq | exact (bi_big s H)].
  - apply reason_inv_assign; auto. exact (bi_reason s H).
  - apply decision_first_assign; auto. exact (bi_dec s H).
  - apply head_inv_assign; auto. exact (bi_head s H).
Qed.

(* the watch loop at entry i after the optional swap: s1 is s or s with clause ci swapped, and clause ci reads a :: fl :: r *)
Definition wnorm (fl : Z) (i : nat) (s s1 : st) (ci : nat) (a : Z) (r : list Z) : Prop :=
  i < length (watch_list s fl) /\ ci = nth i (watch_list s fl) 0 /\ ci < n_clauses s
  /\ get_clause s1 ci = a :: fl :: r
  /\ (s1 = s \/ s1 = set_clause s ci (swap01 (get_clause s ci)))
  /\ watch_list s1 fl = watch_list s fl.

Inductive wcase (fl : Z) (i : nat) (s : st) : wstep -> Prop :=
| wc_done : length (watch_list s fl) <= i -> wcase fl i s WDone
| wc_sat : forall s1 ci a r, wnorm fl i s s1 ci a r -> is_true (lit_value s1 a) = true -> wcase fl i s (WNext s1)
| wc_move : forall s1 ci a r j, wnorm fl i s s1 ci a r -> is_true (lit_value s1 a) = false ->
    j < length r -> is_false (lit_value s1 (nth j r 0%Z)) = false ->
    wcase fl i s (WStay (add_watch (nth j r 0%Z) ci
                           (set_watch_list (set_clause s1 ci (a :: nth j r 0%Z :: upd r j fl)) fl
                                           (remove_swap_last (watch_list s1 fl) i))))
| wc_conf : forall s1 ci a r, wnorm fl i s s1 ci a r -> (forall l, In l r -> lit_value s1 l = Some false) ->
    lit_value s1 a = Some false -> wcase fl i s (WConf (bump_confl s1) ci)
| wc_unit : forall s1 ci a r, wnorm fl i s s1 ci a r -> (forall l, In l r -> lit_value s1 l = Some false) ->
    lit_value s1 a = None -> wcase fl i s (WNext (assign_lit a (Some ci) s1)).

(* the rest of watch_step once the false literal stands at position 1: s1 and a :: fl :: r are the state and the
   clause after the optional swap *)
Lemma wcase_norm : forall fl i s s1 ci a r, wnorm fl i s s1 ci a r ->
  wcase fl i s
    (if is_true (lit_value s1 a) then WNext s1
     else match find_nonfalse s1 r 2 with
          | Some k =>
              WStay (add_watch (nth 1 (swap1k (a :: fl :: r) k) 0%Z) ci
                       (set_watch_list (set_clause s1 ci (swap1k (a :: fl :: r) k)) fl
                                       (remove_swap_last (watch_list s fl) i)))
          | None => if is_false (lit_value s1 a) then WConf (bump_confl s1) ci else WNext (assign_lit a (Some ci) s1)
          end).
Proof.
  intros fl i s s1 ci a r Hn.
  destruct (is_true (lit_value s1 a)) eqn:E1; [eapply wc_sat; eauto|].
  destruct (find_nonfalse s1 r 2) as [k|] eqn:EF.
  - destruct (find_nonfalse_spec _ _ _ _ EF) as (K1 & K2 & K3).
    replace k with (S (S (k - 2))) by lia. rewrite swap1k_shape.
    change (nth 1 (a :: nth (k - 2) r 0%Z :: upd r (k - 2) fl) 0%Z) with (nth (k - 2) r 0%Z).
    replace (watch_list s fl) with (watch_list s1 fl) by apply Hn. eapply wc_move; eauto.
  - pose proof (find_nonfalse_none _ _ _ EF) as Hall.
    assert (forall l, In l r -> lit_value s1 l = Some false) as Hall' by (intros l Hl; apply is_false_some, Hall, Hl).
    destruct (is_false (lit_value s1 a)) eqn:E2.
    + eapply wc_conf; eauto. apply is_false_some. exact E2.
    + eapply wc_unit; eauto. apply not_true_false_none; assumption.
Qed.

Lemma watch_step_wcase : forall fl i s, watch_le s -> wcase fl i s (watch_step fl i s).
Proof.
  intros fl i s HW. destruct (Nat.lt_ge_cases i (length (watch_list s fl))) as [Hi|Hi].
  2:{ unfold watch_step. rewrite (proj2 (Nat.ltb_ge _ _) Hi). apply wc_done. exact Hi. }
  set (ci := nth i (watch_list s fl) 0).
  destruct (watch_le_member s fl ci HW (nth_In _ _ Hi)) as [Hci (a & b & r & Hc & Hab)].
  unfold watch_step. fold ci. rewrite (proj2 (Nat.ltb_lt _ _) Hi), Hc. simpl length. simpl Nat.eqb. change (nth 0 (a :: b :: r) 0%Z) with a.
  destruct (Z.eqb_spec a fl) as [Ea|Ea].
  - (* clause[0] == false_lit: swap *)
    subst a. apply (wcase_norm fl i s (set_clause s ci (b :: fl :: r)) ci b r). unfold wnorm. repeat split; auto.
    + apply get_clause_set_clause_eq. exact Hci.
    + right. rewrite Hc. reflexivity.
    + apply watch_list_set_clause.
  - destruct Hab as [Q|Q]; [contradiction|]. subst b. apply (wcase_norm fl i s s ci a r). unfold wnorm. repeat split; auto.
Qed.

(* fl is the literal being processed: false, of the current level *)
Definition WI (fl : Z) (s : st) : Prop := BI s /\ lit_value s fl = Some false /\ level_of s (lvar fl) = cur_level s.

Definition conflict_ok (s : st) (ci : nat) : Prop :=
  ci < n_clauses s /\ (forall l, In l (get_clause s ci) -> lit_value s l = Some false)
  /\ exists l, In l (get_clause s ci) /\ level_of s (lvar l) = cur_level s.

Lemma WI_asg_eq : forall fl s s', asg_eq s s' -> BI s' -> lit_value s fl = Some false -> level_of s (lvar fl) = cur_level s -> WI fl s'.
Proof.
  intros fl s s' E HB H1 H2. split; [exact HB|]. split.
  - rewrite (asg_eq_lit_value _ _ _ E). exact H1.
  - rewrite (asg_eq_level_of _ _ _ E), (asg_eq_cur_level _ _ E). exact H2.
Qed.

Lemma wnorm_WI : forall fl i s s1 ci a r, WI fl s -> wnorm fl i s s1 ci a r -> WI fl s1 /\ asg_eq s s1.
Proof.
  intros fl i s s1 ci a r (HB & Hf & Hl) (Hi & Eci & Hci & Hc & [E|E] & Hw).
  - subst s1. split; [split; auto | apply asg_eq_refl].
  - assert (asg_eq s s1) as EA by (subst s1; apply set_clause_asg). split; [|exact EA].
    apply (WI_asg_eq fl s); auto. apply (BI_frame s); auto. (* left: n_clauses, the literals of the clauses, TI, watch_le, big_ok *)
    + subst s1. apply n_clauses_set_clause.
    + intros r0 l Hin. subst s1. destruct (Nat.eq_dec r0 ci) as [Q|Q].
      * subst r0. rewrite get_clause_set_clause_eq in Hin by exact Hci. apply In_swap01. exact Hin.
      * rewrite get_clause_set_clause_neq in Hin by exact Q. exact Hin.
    + subst s1. apply TI_set_clause; [exact (bi_ti s HB)|]. apply swap01_in. apply get_clause_in. exact (proj2 (bi_ti s HB)).
    + subst s1. apply watch_le_swap01; [exact (bi_wle s HB) | exact Hci].
    + subst s1. apply big_ok_swap01; [exact (bi_big s HB) | exact Hci].
Qed.

Lemma wnorm_ci : forall fl i s s1 ci a r, wnorm fl i s s1 ci a r -> ci < n_clauses s1.
Proof. intros fl i s s1 ci a r (_ & _ & Hci & _ & [E|E] & _); subst s1; [|rewrite n_clauses_set_clause]; exact Hci. Qed.

Lemma WI_imply : forall fl s a ci, WI fl s -> ci < n_clauses s -> In a (get_clause s ci) -> val_of s (lvar a) = None ->
  (forall l, In l (get_clause s ci) -> l = a \/ lit_value s l = Some false) ->
  WI fl (assign_lit a (Some ci) s).
Proof.
  intros fl s a ci (HB & Hf & Hl) Hci Hin Hna Hall.
  assert (lvar a < length (s_vals s)) as Hra.
  { pose proof (get_clause_in s ci (proj2 (bi_ti s HB))) as Q. unfold clause_in in Q. rewrite Forall_forall in Q. exact (Q a Hin). }
  assert (lvar a <> lvar fl) as Hne by (intros Q; apply lit_value_assigned in Hf; rewrite <- Q in Hf; contradiction).
  unfold assign_lit. split; [|split].
  - apply BI_assign; auto.
    + apply lvar_nonzero. exact (bi_nz s HB ci a Hin).
    + intros r0 Hr0 _. injection Hr0 as Hr0. subst r0. split; [exact Hci|].
      intros l Hl0. destruct (Hall l Hl0) as [Q|Q]; [subst l; left; split; reflexivity | right; exact Q].
    + discriminate.
  - rewrite lit_value_assign_other by (intros Q; apply Hne; symmetry; exact Q). exact Hf.
  - rewrite level_of_assign by (rewrite (ti_len_levels s (proj1 (bi_ti s HB))); exact Hra).
    destruct (Nat.eqb_spec (lvar a) (lvar fl)); [contradiction | exact Hl].
Qed.

Lemma WI_conflict : forall fl s ci, WI fl s -> ci < n_clauses s -> In fl (get_clause s ci) ->
  (forall l, In l (get_clause s ci) -> lit_value s l = Some false) ->
  WI fl (bump_confl s) /\ conflict_ok (bump_confl s) ci.
Proof.
  intros fl s ci (HB & Hf & Hl) Hci Hin Hall. split.
  - apply (WI_asg_eq fl s); auto; [apply bump_confl_asg | apply BI_bump_confl; exact HB].
  - split; [exact Hci|]. split; [exact Hall|]. exists fl. split; [exact Hin | exact Hl].
Qed.

Lemma wcase_WI : forall fl i s w, WI fl s -> wcase fl i s w ->
  match w with
  | WDone => True
  | WNext s' => WI fl s'
  | WStay s' => WI fl s'
  | WConf s' ci => WI fl s' /\ conflict_ok s' ci
  end.
Proof.
  intros fl i s w H C. destruct C as [Hd | s1 ci a r Hn Ht | s1 ci a r j Hn Ht Hj Hnf | s1 ci a r Hn Hall Ha | s1 ci a r Hn Hall Ha].
  1: exact I.
  1: exact (proj1 (wnorm_WI _ _ _ _ _ _ _ H Hn)).
  (* the other cases start from the swapped state s1, where WI holds again *)
  all: destruct (wnorm_WI _ _ _ _ _ _ _ H Hn) as [HW1 EA]; pose proof (wnorm_ci _ _ _ _ _ _ _ Hn) as Hci1;
    destruct Hn as (Hi & Eci & Hci & Hc & _ & Hw).
  - (* the watch moves to position k = j + 2 *)
    destruct HW1 as (HB & Hf & Hl).
    set (x := nth j r 0%Z) in *. set (c2 := a :: x :: upd r j fl).
    assert (x <> fl) as Hx by (intros Q; rewrite Q, Hf in Hnf; discriminate).
    set (s4 := add_watch x ci (set_watch_list (set_clause s1 ci c2) fl (remove_swap_last (watch_list s1 fl) i))).
    assert (asg_eq s1 s4) as E4.
    { unfold s4. eapply asg_eq_trans; [apply set_clause_asg|]. eapply asg_eq_trans; [apply set_watch_list_asg | apply add_watch_asg]. }
    apply (WI_asg_eq fl s1); auto. apply (BI_frame s1); auto. (* left: n_clauses, the literals of the clauses, TI, watch_le, big_ok *)
    + unfold s4, add_watch. rewrite !n_clauses_set_watch_list, n_clauses_set_clause. reflexivity.
    + intros r0 l Hin. unfold s4, add_watch in Hin. rewrite !get_clause_set_watch_list in Hin.
      destruct (Nat.eq_dec r0 ci) as [Q|Q].
      * subst r0. rewrite get_clause_set_clause_eq in Hin by exact Hci1. rewrite Hc. apply (In_swap1k a fl r j l Hj). exact Hin.
      * rewrite get_clause_set_clause_neq in Hin by exact Q. exact Hin.
    + unfold s4. apply TI_add_watch, TI_set_watch_list, TI_set_clause; [exact (bi_ti s1 HB)|].
      apply (incl_Forall (l1 := get_clause s1 ci)); [|apply get_clause_in; exact (proj2 (bi_ti s1 HB))].
      rewrite Hc. intros l0. apply In_swap1k. exact Hj.
    + unfold s4, c2, x. rewrite Eci, <- Hw. apply watch_le_move; auto.
      * exact (bi_wle s1 HB).
      * rewrite Hw. exact Hi.
      * rewrite Hw, <- Eci. exact Hc.
    + unfold s4. apply big_ok_add_watch, big_ok_set_watch_list, big_ok_set_long; [exact (bi_big s1 HB)|].
      rewrite Hc. simpl. apply le_n_S, le_n_S. exact (Nat.le_lt_trans _ _ _ (Nat.le_0_l j) Hj).
  - apply WI_conflict; [exact HW1 | exact Hci1 | rewrite Hc; right; left; reflexivity|]. rewrite Hc.
    intros l [Q|[Q|Q]]; [subst l; exact Ha | subst l; exact (proj1 (proj2 HW1)) | apply Hall; exact Q].
  - (* unit: clause[0] is implied *)
    apply WI_imply; [exact HW1 | exact Hci1 | rewrite Hc; left; reflexivity | |].
    + unfold lit_value in Ha. destruct (val_of s1 (lvar a)); [discriminate|reflexivity].
    + rewrite Hc. intros l [Q|[Q|Q]]; [left; auto | subst l; right; exact (proj1 (proj2 HW1)) | right; apply Hall; exact Q].
Qed.

Lemma prop_watch_WI : forall fuel fl i s s' r, WI fl s -> prop_watch fuel fl i s = Some (s', r) ->
  WI fl s' /\ (forall ci, r = Some ci -> conflict_ok s' ci).
Proof.
  intros fuel fl i s s' r. apply prop_watch_inv_conflict. intros i0 s0 H0.
  apply (wcase_WI fl i0 s0); [exact H0|]. apply watch_step_wcase. exact (bi_wle s0 (proj1 H0)).
Qed.

Lemma prop_bin_WI : forall fl imps s s' r, WI fl s -> (forall p, In p imps -> In p (implications s fl)) ->
  prop_bin imps s = (s', r) -> WI fl s' /\ (forall ci, r = Some ci -> conflict_ok s' ci).
Proof.
  intros fl. induction imps as [|[implied ci] imps IH]; intros s s' r H Hsub E; simpl in E.
  - injection E as E1 E2. subst. split; [exact H | discriminate].
  - (* clause ci is {fl, implied} *)
    pose proof H as (HB & Hf & Hl).
    destruct (bi_big s HB fl implied ci (Hsub _ (or_introl eq_refl))) as [Hci Hc].
    assert (forall l, In l (get_clause s ci) -> l = fl \/ l = implied) as Hmem.
    { intros l Hin. destruct Hc as [Q|Q]; rewrite Q in Hin; simpl in Hin; destruct Hin as [Q1|[Q1|[]]]; auto. }
    assert (In implied (get_clause s ci)) as Himp by (destruct Hc as [Q|Q]; rewrite Q; simpl; auto).
    assert (In fl (get_clause s ci)) as Hfl by (destruct Hc as [Q|Q]; rewrite Q; simpl; auto).
    destruct (val_of s (lvar implied)) as [b|] eqn:EV.
    + destruct (Bool.eqb b (lpos implied)) eqn:EB.
      * apply (IH s s' r); [exact H | intros p Hp; apply Hsub; right; exact Hp | exact E].
      * injection E as E1 E2. subst s' r.
        destruct (WI_conflict fl s ci H Hci Hfl) as [HW1 HC].
        { intros l Hin. destruct (Hmem l Hin) as [Q|Q]; subst l; [exact Hf|]. unfold lit_value. rewrite EV, EB. reflexivity. }
        split; [exact HW1|]. intros ci0 Q. injection Q as Q. subst ci0. exact HC.
    + apply (IH (assign_lit implied (Some ci) s) s' r); [| |exact E].
      * apply WI_imply; auto. intros l Hin. destruct (Hmem l Hin) as [Q|Q]; subst l; [right; exact Hf | left; reflexivity].
      * intros p Hp. unfold assign_lit. rewrite (db_eq_implications _ _ _ (assign_db_eq _ _ _ s)). apply Hsub. right. exact Hp.
Qed.

Lemma trail_at_split : forall s, s_head s < length (s_trail s) ->
  exists tr1 tr2, s_trail s = tr1 ++ trail_at s (s_head s) :: tr2 /\ length tr2 = s_head s.
Proof.
  intros s H. unfold trail_at. set (n := length (s_trail s) - 1 - s_head s).
  assert (n < length (s_trail s)) as Hn by (unfold n; lia).
  destruct (nth_split (s_trail s) 0 Hn) as (l1 & l2 & E & L). exists l1, l2. split; [exact E|].
  assert (length (s_trail s) = length l1 + S (length l2)) as Q by (rewrite E at 1; rewrite app_length; reflexivity).
  unfold n in L. lia.
Qed.

Lemma BI_set_head : forall s, BI s -> s_head s < length (s_trail s) -> BI (set_head s (S (s_head s))).
Proof.
  intros s H Hlt. constructor.
  - apply TI_set_head; [exact (bi_ti s H) | exact Hlt].
  - exact (bi_nz s H).
  - exact (bi_v0 s H).
  - eapply watch_le_db_eq; [apply set_head_db_eq | exact (bi_wle s H)].
  - eapply big_ok_db_eq; [apply set_head_db_eq | exact (bi_big s H)].
  - apply (reason_inv_levels_frame s); auto. exact (bi_reason s H).
  - apply (decision_first_levels_frame s); auto. exact (bi_dec s H).
  - apply head_inv_set_head. exact (bi_head s H).
Qed.

Lemma head_step_WI : forall s, BI s -> s_head s < length (s_trail s) ->
  WI (false_lit_of (set_head s (S (s_head s))) (trail_at s (s_head s))) (set_head s (S (s_head s))).
Proof.
  intros s H Hlt. destruct (trail_at_split s Hlt) as (tr1 & tr2 & Etr & Ltr). set (v0 := trail_at s (s_head s)) in *.
  set (s1 := set_head s (S (s_head s))).
  assert (In v0 (s_trail s)) as Hv0 by (rewrite Etr; apply in_or_app; right; left; reflexivity).
  assert (val_of s1 v0 <> None) as Hass by (apply (ti_assigned s (proj1 (bi_ti s H))); exact Hv0).
  assert (v0 <> 0) as Hnz by (intros Q; rewrite Q in Hass; apply Hass; exact (bi_v0 s H)).
  split; [apply BI_set_head; assumption|]. split.
  - apply false_lit_of_false; assumption.
  - rewrite lvar_false_lit_of. change (level_of s1 v0) with (level_of s v0). change (cur_level s1) with (cur_level s).
    apply (hi_level s (bi_head s H) tr1 v0 tr2 Etr). rewrite Ltr. apply Nat.le_refl.
Qed.

Lemma head_step_BI : forall inner s s' r, BI s -> s_head s < length (s_trail s) -> head_step inner s = Some (s', r) ->
  BI s' /\ (forall ci, r = Some ci -> conflict_ok s' ci).
Proof.
  intros inner s s' r H Hlt E. unfold head_step in E. pose proof (head_step_WI s H Hlt) as HW.
  set (s1 := set_head s (S (s_head s))) in *. set (fl := false_lit_of s1 (trail_at s (s_head s))) in *.
  destruct (prop_bin (implications s1 fl) s1) as [s2 [ci|]] eqn:EB.
  - injection E as E1 E2. subst s' r. destruct (prop_bin_WI fl _ s1 s2 (Some ci) HW (fun p Hp => Hp) EB) as [HW2 HC]. split; [exact (proj1 HW2) | exact HC].
  - destruct (prop_bin_WI fl _ s1 s2 None HW (fun p Hp => Hp) EB) as [HW2 _].
    destruct (prop_watch_WI inner fl 0 s2 s' r HW2 E) as [HW3 HC]. split; [exact (proj1 HW3) | exact HC].
Qed.

Lemma prop_loop_BI : forall fuel inner s s' c, BI s -> prop_loop fuel inner s = Some (s', c) ->
  BI s' /\ (forall ci, c = CAt ci -> conflict_ok s' ci) /\ (c = CNone -> s_head s' = length (s_trail s')) /\ c <> CAssum.
Proof.
  induction fuel as [|f IH]; intros inner s s' c H E; simpl in E; [discriminate|].
  destruct (Nat.ltb_spec (s_head s) (length (s_trail s))) as [L|L].
  - destruct (head_step inner s) as [[s1 [ci|]]|] eqn:EH; [| |discriminate].
    + injection E as E1 E2. subst s' c. destruct (head_step_BI _ _ _ _ H L EH) as [H1 HC].
      split; [exact H1|]. split; [|split; discriminate]. intros ci0 Q. injection Q as Q. subst ci0. apply HC. reflexivity.
    + destruct (head_step_BI _ _ _ _ H L EH) as [H1 _]. eapply IH; eauto.
  - injection E as E1 E2. subst s' c. split; [exact H|]. split; [discriminate|]. split; [|discriminate].
    intros _. apply Nat.le_antisymm; [exact (ti_head s (proj1 (bi_ti s H))) | exact L].
Qed.

Definition assum_ok (n : nat) (A : list Z) : Prop := Forall (fun l => l <> 0%Z /\ lit_in n l) A.

Lemma prop_assums_BI : forall A s s' r, assum_ok (nv s) A -> BI s -> cur_level s = 0 -> prop_assums A s = (s', r) ->
  BI s' /\ cur_level s' = 0 /\ nv s' = nv s.
Proof.
  intros A s s' r HA H Hc E. unfold assum_ok in HA. rewrite Forall_forall in HA.
  apply (prop_assums_inv (fun x => BI x /\ cur_level x = 0 /\ nv x = nv s) A) with (A0 := A) (s := s) (r := r); auto.
  - intros x (Hx & Hcx & Hn). split; [apply BI_bump_confl; exact Hx | auto].
  - intros x l (Hx & Hcx & Hn) Hl EV. destruct (HA l Hl) as [Hl0 Hli]. rewrite <- Hn in Hli.
    unfold assign_lit. rewrite nv_assign. split; [|auto].
    apply BI_assign; auto; [apply lvar_nonzero; exact Hl0 | discriminate].
Qed.

Theorem propagate_BI : forall fuel A s s' c, assum_ok (nv s) A -> BI s -> propagate fuel A s = Some (s', c) ->
  BI s' /\ (forall ci, c = CAt ci -> conflict_ok s' ci) /\ (c = CNone -> s_head s' = length (s_trail s'))
  /\ (c = CAssum -> cur_level s' = 0).
Proof.
  intros fuel A s s' c HA H E. unfold propagate in E.
  assert (forall s0, BI s0 -> prop_loop fuel fuel s0 = Some (s', c) ->
            BI s' /\ (forall ci, c = CAt ci -> conflict_ok s' ci) /\ (c = CNone -> s_head s' = length (s_trail s'))
            /\ (c = CAssum -> cur_level s' = 0)) as Hloop.
  { intros s0 H0 E0. destruct (prop_loop_BI _ _ _ _ _ H0 E0) as (Q1 & Q2 & Q3 & Q4).
    split; [exact Q1|]. split; [exact Q2|]. split; [exact Q3|]. intros Q. contradiction. }
  destruct (Nat.eqb_spec (cur_level s) 0) as [Hc|Hc].
  - destruct (prop_assums A s) as [s1 [|]] eqn:EA; destruct (prop_assums_BI _ _ _ _ HA H Hc EA) as (H1 & Hc1 & _); [|exact (Hloop s1 H1 E)].
    injection E as E1 E2. subst s' c. split; [exact H1|]. split; [discriminate|]. split; [discriminate|]. intros _. exact Hc1.
  - exact (Hloop s H E).
Qed.

Lemma BI_analyze_hyps : forall s, BI s -> trail_inv s /\ db_nonzero s /\ reason_ok s /\ decision_first s.
Proof.
  intros s H. split; [exact (proj1 (bi_ti s H))|]. split; [apply nz_db_nonzero; exact (bi_nz s H)|].
  split; [apply reason_inv_ok; exact (bi_reason s H) | exact (bi_dec s H)].
Qed.
