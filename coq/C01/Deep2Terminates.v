(* C02 on the faithful model - termination: with fuel >= term_fuel (explicit in n_vars, number of clauses, max_conflicts,
   solution_limit) solve_sat never returns the out-of-fuel error (nor the Luby one). *)
From Coq Require Import List ZArith Bool Lia.
Import ListNotations.
From SV Require Import C01.SatSpec C01.LubyProofs C01.DeepCdcl C01.DeepTrailProp C01.DeepWatch C01.DeepReasonProp
  C01.DeepRun C01.DeepInit C01.Deep2Total C01.Deep2Rank.
Close Scope Z_scope.
Open Scope nat_scope.

Lemma luby_val_some : forall i, (1 <= i)%Z -> luby_val i <> None.
Proof. intros i Hi. unfold luby_val. destruct (luby_spec i Hi) as [v [Q _]]. rewrite Q. discriminate. Qed.

Lemma mu_d_le : forall P L, LI P L -> LT L -> mu_d P L <= p_nvars P.
Proof.
  intros P L [HB Hnv _ _ _] [HLV _ _]. unfold mu_d. pose proof (trail_len_le _ _ HB Hnv). pose proof (LV_bound _ HLV).
  destruct (l_conflict L); [apply unassigned_le | lia | lia].
Qed.

Lemma rank_decreases : forall P L L', LI P L' -> LT L' -> lexlt P L' L -> rank P L' < rank P L.
Proof.
  intros P L L' H1 H2 Hlex. unfold rank. apply rank4_lt; [unfold mu_b; lia | unfold mu_f; destruct (l_conflict L'); lia | apply mu_d_le; assumption | exact Hlex].
Qed.

(* the largest rank: every component at its bound *)
Definition term_rank (n : nat) (mc limit : Z) : nat :=
  ((Z.to_nat limit * S (Z.to_nat mc) + Z.to_nat mc) * 2 + 1) * S n + n.

Lemma rank_le_bound : forall P L, LI P L -> LT L -> rank P L <= term_rank (p_nvars P) (p_max_conflicts P) (p_limit P).
Proof.
  intros P L H1 H2. unfold term_rank. apply rank4_le; [apply Nat.le_refl | unfold mu_b, Mof; lia | unfold mu_f; destruct (l_conflict L); lia
    | apply mu_d_le; assumption | unfold mu_a, Limof; lia].
Qed.

Definition fuel_err (e : derr) : Prop := e = EFuel \/ e = ELuby.

Lemma finish_not_err : forall L st e evs, finish L st <> Err e evs.
Proof. intros L st e evs. unfold finish. destruct (rev (l_sols L)); discriminate. Qed.

(* an iteration stops with an error only when the oracle fails: propagate gets a state with at most one clause more *)
Theorem main_step_no_fuel : forall inner P L e evs, LI P L -> LT L ->
  2 * S (n_clauses (l_st L)) < inner -> p_nvars P < inner ->
  main_step inner P L = Stop (Err e evs) -> ~ fuel_err e.
Proof.
  intros inner P L e evs HL [HLV Hcf Hlu] Hin Hn E.
  pose proof (main_step_stop inner P L _ E) as V. remember (Err e evs) as o eqn:Eo.
  destruct V as [sol _ _ _ _ | Hc Hl0 | L2 _ | e0 evs0 He | evs0 ELu | x evs0 Hp EP].
  - discriminate.
  - exfalso. unfold finish_exhausted in Eo. destruct (l_sols L); exact (finish_not_err _ _ _ _ Eo).
  - exfalso. exact (finish_not_err _ _ _ _ Eo).
  - injection Eo as Ee _. subst e0. destruct He as [He|[v He]]; subst e; intros [Q|Q]; discriminate.
  - exfalso. apply (luby_val_some (l_luby_idx L + 1)); [lia | exact ELu].
  - exfalso. destruct (step_prop_BI P L x HL Hp) as [HBx Hnx]. destruct (step_prop_measure P L x HL HLV Hp) as (_ & _ & Nx & _).
    destruct (propagate_total (p_nvars P) inner (p_assum P) x HBx) as [res Q];
      [rewrite Hnx; exact (li_assum _ _ HL) | exact Hnx | exact (Nat.le_lt_trans _ _ _ (Nat.mul_le_mono_l _ _ 2 Nx) Hin) | exact Hn|].
    rewrite Q in EP. discriminate.
Qed.

Theorem main_loop_no_fuel : forall inner P k L e evs, LI P L -> LT L -> rank P L < k ->
  2 * (n_clauses (l_st L) + rank P L + 2) < inner -> p_nvars P < inner ->
  main_loop k inner P L = Err e evs -> ~ fuel_err e.
Proof.
  intros inner P. induction k as [|k IH]; intros L e evs H1 H2 Hr Hin Hn E; [lia|]. simpl in E.
  destruct (main_step inner P L) as [L'|o] eqn:ES.
  - destruct (main_step_lex inner P L L' H1 H2 ES) as (H2' & Hlex & Hncl). pose proof (main_step_LI inner P L L' H1 ES) as H1'.
    pose proof (rank_decreases P L L' H1' H2' Hlex) as Hrk.
    apply (IH L' e evs H1' H2'); [lia | lia | exact Hn | exact E].
  - subst o. apply (main_step_no_fuel inner P L e evs H1 H2); [lia | exact Hn | exact ES].
Qed.

Lemma assign_pures_confl : forall A pl s, s_confl (assign_pures A pl s) = s_confl s.
Proof.
  intros A pl. induction pl as [|[v b] pl IH]; intros s; simpl; [reflexivity|].
  destruct (is_none (val_of s v) && negb (existsb (fun a => lvar a =? v) A)); [|apply IH]. rewrite IH. reflexivity.
Qed.

Lemma assign_units_counters : forall ul s s' r, assign_units ul s = (s', r) -> s_confl s' = s_confl s /\ n_clauses s' = n_clauses s.
Proof.
  induction ul as [|[l i] ul IH]; intros s s' r E; simpl in E.
  - injection E as E1 E2. subst. auto.
  - destruct (val_of s (lvar l)) as [b|].
    + destruct (Bool.eqb b (lpos l)); [eapply IH; eauto | injection E as E1 E2; subst; auto].
    + destruct (IH _ _ _ E) as [Q1 Q2]. auto.
Qed.

Definition init_term (cls : cnf) (mc limit : Z) (ir : init_res) : Prop :=
  match ir with
  | IDone (Err e _) => ~ fuel_err e
  | IDone (Done _ _) => True
  | ILoop P L0 => LT L0 /\ n_clauses (l_st L0) = length cls /\ p_nvars P = n_vars_of cls /\ p_max_conflicts P = mc /\ p_limit P = limit
  end.

Theorem init_loop_term : forall fuel cls A mc mr limit lf orc, valid_input cls A = true ->
  2 * length cls < fuel -> n_vars_of cls < fuel -> init_term cls mc limit (init_loop fuel cls A mc mr limit lf orc).
Proof.
  intros fuel cls A mc mr limit lf orc Hvalid Hf1 Hf2. destruct (valid_input_facts cls A Hvalid) as [_ HA].
  unfold init_loop. destruct cls as [|c0 cls0]; [exact Logic.I|]. set (cls := c0 :: cls0) in *.
  destruct (n_vars_of cls =? 0); [exact Logic.I|]. destruct (existsb is_nilb cls); [exact Logic.I|].
  destruct (attach_orig cls 0 [] (init_state cls (n_vars_of cls))) as [s0 units] eqn:EO.
  destruct (init_prefix cls A limit s0 units Hvalid EO) as (Es0 & _ & _ & _ & Nc0 & H1 & L1 & N1 & D1 & Hun1).
  set (n := n_vars_of cls) in *. set (s1 := if (limit <=? 1)%Z then assign_pures A (find_pure_literals cls n) s0 else s0) in *.
  assert (s_confl s1 = 0%Z) as C1.
  { assert (s_confl s0 = 0%Z) as C0 by (rewrite Es0, confl_attach_all; reflexivity).
    unfold s1. destruct (limit <=? 1)%Z; [rewrite assign_pures_confl|]; exact C0. }
  destruct (assign_units units s1) as [s2 [|]] eqn:EU; [exact Logic.I|].
  destruct (assign_units_BI units s1 s2 n H1 L1 N1 (fun l i Q => proj1 (Hun1 l i Q)) EU) as (H2 & L2 & N2).
  destruct (assign_units_counters _ _ _ _ EU) as [C2 Nc2]. rewrite (db_eq_n_clauses _ _ D1), Nc0 in Nc2.
  assert (assum_ok (nv s2) A) as HA2 by (rewrite N2; exact HA).
  destruct (propagate_total n fuel A s2 H2 HA2 N2) as [[s3 c] EP]; [rewrite Nc2; exact Hf1 | exact Hf2|].
  rewrite EP.
  assert (cur_level s3 = 0) as L3 by (unfold cur_level; rewrite (propagate_lim _ _ _ _ _ EP); exact L2).
  destruct (propagate_frame _ _ _ _ _ EP) as [EX Ec].
  destruct (luby_val 1) as [lv|] eqn:ELu; [|exfalso; apply (luby_val_some 1); [lia | exact ELu]].
  destruct c as [| |ci]; try exact Logic.I; simpl;
    (split; [constructor; cbn [l_st l_luby_idx]; [apply LV_zero; exact L3 | rewrite Ec, C2, C1; lia | lia] |
      split; [rewrite (ex_n _ _ EX), Nc2; reflexivity | auto]]).
Qed.

(* fuel that always suffices: F(n_vars, n_clauses, max_conflicts, solution_limit) - max_restarts and luby_factor do not enter *)
Definition term_fuel (cls : cnf) (mc limit : Z) : nat :=
  2 * (length cls + term_rank (n_vars_of cls) mc limit + 3) + n_vars_of cls + 1.

Theorem solve_sat_terminates : forall fuel cls A mc mr limit lf orc e evs, valid_input cls A = true ->
  term_fuel cls mc limit <= fuel -> solve_sat fuel cls A mc mr limit lf orc = Err e evs -> ~ fuel_err e.
Proof.
  intros fuel cls A mc mr limit lf orc e evs Hv Hf E. unfold term_fuel in Hf. unfold solve_sat in E.
  pose proof (init_loop_term fuel cls A mc mr limit lf orc Hv ltac:(lia) ltac:(lia)) as HI.
  destruct (init_loop fuel cls A mc mr limit lf orc) as [o|P L0] eqn:EI.
  - subst o. exact HI.
  - destruct HI as (HT & Hn & En & Emc & Elim). pose proof (init_LI _ _ _ _ _ _ _ _ _ _ Hv EI) as HL.
    pose proof (rank_le_bound P L0 HL HT) as Hr. rewrite En, Emc, Elim in Hr.
    apply (main_loop_no_fuel fuel P fuel L0 e evs HL HT); [lia | rewrite Hn; lia | rewrite En; lia | exact E].
Qed.

