(* C01 deep model - invariant (T) through propagate: propagate preserves it (together with the range invariant of the
   clause database: every literal stored in a clause / implication list indexes into the arrays).
   The walk through propagate is done once, for an arbitrary invariant of its elementary steps (PropagateInv). *)
From Coq Require Import List ZArith Bool Arith.
Import ListNotations.
From SV Require Import C01.SatSpec C01.Machine C01.DeepCdcl C01.DeepBase C01.DeepTrail.
Close Scope Z_scope.
Open Scope nat_scope.

(* the length of the arrays indexed by variable (n_vars + 1 in a run) *)
Definition nv (s : st) : nat := length (s_vals s).
Definition lit_in (n : nat) (l : Z) : Prop := lvar l < n.
Definition clause_in (n : nat) (c : clause) : Prop := Forall (lit_in n) c.
Definition imps_in (n : nat) (l : list (Z * nat)) : Prop := Forall (fun p => lit_in n (fst p)) l.

Record db_range (s : st) : Prop := mkDR {
  dr_pos : 0 < nv s;
  dr_orig : Forall (clause_in (nv s)) (s_orig s);
  dr_learned : Forall (clause_in (nv s)) (s_learned s);
  dr_bpos : Forall (imps_in (nv s)) (s_bpos s);
  dr_bneg : Forall (imps_in (nv s)) (s_bneg s)
}.

(* the bundle preserved by every operation of the solver *)
Definition TI (s : st) : Prop := trail_inv s /\ db_range s.

Lemma get_clause_in : forall s ci, db_range s -> clause_in (nv s) (get_clause s ci).
Proof.
  intros s ci H. unfold get_clause. destruct (ci <? length (s_orig s)).
  - apply Forall_nth_default; [exact (dr_orig s H) | constructor].
  - apply Forall_nth_default; [exact (dr_learned s H) | constructor].
Qed.

Lemma implications_in : forall s fl, db_range s -> imps_in (nv s) (implications s fl).
Proof.
  intros s fl H. unfold implications. destruct (lpos fl).
  - apply Forall_nth_default; [exact (dr_bneg s H) | constructor].
  - apply Forall_nth_default; [exact (dr_bpos s H) | constructor].
Qed.

Lemma clause_in_nth : forall n c k, 0 < n -> clause_in n c -> lit_in n (nth k c 0%Z).
Proof. intros n c k Hn H. apply Forall_nth_default; [exact H | exact Hn]. Qed.

Lemma swap01_in : forall n c, clause_in n c -> clause_in n (swap01 c).
Proof.
  intros n c H. unfold swap01. destruct c as [|a [|b r]]; auto.
  inversion H as [|? ? Ha Hr]; subst. inversion Hr as [|? ? Hb Hr']; subst. repeat constructor; assumption.
Qed.

Lemma swap1k_in : forall n c k, 0 < n -> clause_in n c -> clause_in n (swap1k c k).
Proof.
  intros n c k Hn H. unfold swap1k. apply Forall_upd; [apply Forall_upd; [exact H|] |]; apply clause_in_nth; assumption.
Qed.

Lemma db_range_set_watch_list : forall s l ws, db_range s -> db_range (set_watch_list s l ws).
Proof. intros s l ws H. destruct H. unfold set_watch_list. destruct (lpos l); constructor; unfold nv in *; simpl; auto. Qed.

Lemma db_range_add_watch : forall l i s, db_range s -> db_range (add_watch l i s).
Proof. intros l i s H. unfold add_watch. apply db_range_set_watch_list. exact H. Qed.

Lemma db_range_assign : forall s v b r, db_range s -> db_range (assign v b r s).
Proof. intros s v b r H. destruct H. constructor; unfold nv in *; simpl; rewrite ?upd_length; auto. Qed.

Lemma nv_assign : forall s v b r, nv (assign v b r s) = nv s.
Proof. intros. unfold nv. simpl. apply upd_length. Qed.

Lemma TI_set_clause : forall s ci c, TI s -> clause_in (nv s) c -> TI (set_clause s ci c).
Proof.
  intros s ci c [HT HD] Hc. split; [eapply trail_inv_asg_eq; [apply set_clause_asg | exact HT]|].
  destruct HD. unfold set_clause. destruct (ci <? length (s_orig s)); constructor; unfold nv in *; simpl; auto; apply Forall_upd; assumption.
Qed.

Lemma TI_set_watch_list : forall s l ws, TI s -> TI (set_watch_list s l ws).
Proof.
  intros s l ws [HT HD]. split; [eapply trail_inv_asg_eq; [apply set_watch_list_asg | exact HT] | apply db_range_set_watch_list; assumption].
Qed.

Lemma TI_add_watch : forall l i s, TI s -> TI (add_watch l i s).
Proof. intros l i s H. unfold add_watch. apply TI_set_watch_list. exact H. Qed.

Lemma TI_bump_confl : forall s, TI s -> TI (bump_confl s).
Proof.
  intros s [HT HD]. split; [eapply trail_inv_asg_eq; [apply bump_confl_asg | exact HT]|].
  destruct HD. constructor; unfold nv in *; simpl; auto.
Qed.

Lemma TI_assign_lit : forall s l r, TI s -> lit_in (nv s) l -> val_of s (lvar l) = None -> TI (assign_lit l r s).
Proof.
  intros s l r [HT HD] Hl Hn. unfold assign_lit. split; [apply assign_trail_inv; assumption | apply db_range_assign; assumption].
Qed.

Lemma nv_set_clause : forall s ci c, nv (set_clause s ci c) = nv s.
Proof. intros. unfold set_clause, nv. destruct (ci <? length (s_orig s)); reflexivity. Qed.

Lemma nv_set_watch_list : forall s l ws, nv (set_watch_list s l ws) = nv s.
Proof. intros. unfold set_watch_list, nv. destruct (lpos l); reflexivity. Qed.

Lemma lit_value_none : forall s l, is_true (lit_value s l) = false -> is_false (lit_value s l) = false ->
  val_of s (lvar l) = None.
Proof.
  intros s l H1 H2. pose proof (not_true_false_none _ H1 H2) as Q. unfold lit_value in Q.
  destruct (val_of s (lvar l)); [discriminate | reflexivity].
Qed.

Definition wstep_post (I : st -> Prop) (w : wstep) : Prop :=
  match w with WDone => True | WNext s' => I s' | WStay s' => I s' | WConf s' _ => I s' end.

Lemma prop_watch_inv_conflict : forall (I : st -> Prop) (C : st -> nat -> Prop) fl,
  (forall i s, I s -> match watch_step fl i s with
                      | WDone => True | WNext s' => I s' | WStay s' => I s' | WConf s' ci => I s' /\ C s' ci end) ->
  forall fuel i s s' r, I s -> prop_watch fuel fl i s = Some (s', r) -> I s' /\ (forall ci, r = Some ci -> C s' ci).
Proof.
  intros I C fl Hstep. induction fuel as [|f IH]; intros i s s' r HI E; simpl in E; [discriminate|].
  pose proof (Hstep i s HI) as Hp. destruct (watch_step fl i s) as [|s1|s1|s1 ci].
  - injection E as E1 E2. subst. split; [exact HI | discriminate].
  - eapply IH; eauto.
  - eapply IH; eauto.
  - injection E as E1 E2. subst. destruct Hp as [Hp1 Hp2]. split; [exact Hp1|]. intros ci0 Q. injection Q as Q. subst ci0. exact Hp2.
Qed.

Lemma prop_watch_inv : forall (I : st -> Prop) fl,
  (forall i s, I s -> wstep_post I (watch_step fl i s)) ->
  forall fuel i s s' r, I s -> prop_watch fuel fl i s = Some (s', r) -> I s'.
Proof.
  intros I fl Hstep fuel i s s' r HI E. apply (prop_watch_inv_conflict I (fun _ _ => True) fl) with (fuel := fuel) (i := i) (s := s) (r := r); auto.
  intros i0 s0 H0. pose proof (Hstep i0 s0 H0) as Q. destruct (watch_step fl i0 s0); simpl in Q; auto.
Qed.

(* propagate changes the state by bump_confl, by advancing prop_head, by assigning an unassigned literal taken from
   the assumptions or from an implication list, and by watch_step: what these keep, propagate keeps. *)
Section PropagateInv.
Variable I : st -> Prop.
Variable A : list Z.
Hypothesis I_bump : forall s, I s -> I (bump_confl s).
Hypothesis I_head : forall s, I s -> s_head s < length (s_trail s) -> I (set_head s (S (s_head s))).
Hypothesis I_assum : forall s l, I s -> In l A -> val_of s (lvar l) = None -> I (assign_lit l None s).
Hypothesis I_bin : forall s0 fl s l ci, I s0 -> I s -> In (l, ci) (implications s0 fl) -> val_of s (lvar l) = None ->
  I (assign_lit l (Some ci) s).
Hypothesis I_watch : forall fl i s, I s -> wstep_post I (watch_step fl i s).

Lemma prop_assums_inv : forall A0 s s' r, (forall l, In l A0 -> In l A) -> I s -> prop_assums A0 s = (s', r) -> I s'.
Proof.
  induction A0 as [|l A0 IH]; intros s s' r HA H E; simpl in E.
  - injection E as E1 E2. subst. exact H.
  - assert (forall x, In x A0 -> In x A) as HA' by (intros x Hx; apply HA; right; exact Hx).
    destruct (val_of s (lvar l)) as [b|] eqn:EV.
    + destruct (Bool.eqb b (lpos l)); [eapply IH; eauto|]. injection E as E1 E2. subst. apply I_bump. exact H.
    + eapply IH; [exact HA'| |exact E]. apply I_assum; [exact H | apply HA; left; reflexivity | exact EV].
Qed.

Lemma prop_bin_inv : forall s0 fl imps s s' r, I s0 -> (forall p, In p imps -> In p (implications s0 fl)) -> I s ->
  prop_bin imps s = (s', r) -> I s'.
Proof.
  intros s0 fl imps. induction imps as [|[l ci] imps IH]; intros s s' r H0 Hsub H E; simpl in E.
  - injection E as E1 E2. subst. exact H.
  - assert (forall p, In p imps -> In p (implications s0 fl)) as Hsub' by (intros p Hp; apply Hsub; right; exact Hp).
    destruct (val_of s (lvar l)) as [b|] eqn:EV.
    + destruct (Bool.eqb b (lpos l)); [eapply IH; eauto|]. injection E as E1 E2. subst. apply I_bump. exact H.
    + eapply IH; [exact H0 | exact Hsub' | | exact E]. apply (I_bin s0 fl); [exact H0 | exact H | apply Hsub; left; reflexivity | exact EV].
Qed.

Lemma head_step_inv : forall inner s s' r, I (set_head s (S (s_head s))) -> head_step inner s = Some (s', r) -> I s'.
Proof.
  intros inner s s' r H1 E. unfold head_step in E.
  destruct (prop_bin _ (set_head s (S (s_head s)))) as [s2 [ci|]] eqn:EB;
    apply (prop_bin_inv _ _ _ _ _ _ H1 (fun p Hp => Hp) H1) in EB.
  - injection E as E1 E2. subst. exact EB.
  - exact (prop_watch_inv I _ (I_watch _) _ _ _ _ _ EB E).
Qed.

Lemma prop_loop_inv : forall fuel inner s s' c, I s -> prop_loop fuel inner s = Some (s', c) -> I s'.
Proof.
  induction fuel as [|f IH]; intros inner s s' c H E; simpl in E; [discriminate|].
  destruct (Nat.ltb_spec (s_head s) (length (s_trail s))) as [L|L].
  - destruct (head_step inner s) as [[s1 [ci|]]|] eqn:EH; [| |discriminate]; apply (head_step_inv _ _ _ _ (I_head s H L)) in EH.
    + injection E as E1 E2. subst. exact EH.
    + eapply IH; eauto.
  - injection E as E1 E2. subst. exact H.
Qed.

Lemma propagate_inv : forall fuel s s' c, I s -> propagate fuel A s = Some (s', c) -> I s'.
Proof.
  intros fuel s s' c H E. unfold propagate in E. destruct (cur_level s =? 0); [|eapply prop_loop_inv; eauto].
  destruct (prop_assums A s) as [s1 [|]] eqn:EA; apply (prop_assums_inv _ _ _ _ (fun l Hl => Hl) H) in EA.
  - injection E as E1 E2. subst. exact EA.
  - eapply prop_loop_inv; eauto.
Qed.
End PropagateInv.

Lemma nv_bump_confl : forall s, nv (bump_confl s) = nv s.
Proof. reflexivity. Qed.

Lemma nv_add_watch : forall l i s, nv (add_watch l i s) = nv s.
Proof. intros. unfold add_watch. apply nv_set_watch_list. Qed.

Lemma watch_step_TI : forall fl i s, TI s -> wstep_post (fun s' => TI s' /\ nv s' = nv s) (watch_step fl i s).
Proof.
  intros fl i s H. unfold watch_step.
  destruct (i <? length (watch_list s fl)); [|exact Logic.I].
  set (ci := nth i (watch_list s fl) 0). set (c := get_clause s ci).
  destruct (length c =? 1); [simpl; split; [apply TI_bump_confl; exact H | reflexivity]|].
  assert (clause_in (nv s) c) as Hc by (apply get_clause_in; exact (proj2 H)).
  assert (0 < nv s) as Hpos by exact (dr_pos s (proj2 H)).
  set (c1 := if (nth 0 c 0 =? fl)%Z then swap01 c else c).
  set (s1 := if (nth 0 c 0 =? fl)%Z then set_clause s ci c1 else s).
  assert (clause_in (nv s) c1) as Hc1 by (unfold c1; destruct (nth 0 c 0 =? fl)%Z; [apply swap01_in|]; exact Hc).
  assert (TI s1 /\ nv s1 = nv s) as [H1 Hn1].
  { unfold s1. destruct (nth 0 c 0 =? fl)%Z; [split; [apply TI_set_clause; assumption | apply nv_set_clause] | split; [exact H | reflexivity]]. }
  destruct (is_true (lit_value s1 (nth 0 c1 0%Z))) eqn:E1; [simpl; split; assumption|].
  destruct (find_nonfalse s1 (skipn 2 c1) 2) as [k|].
  - simpl. split; [|rewrite nv_add_watch, nv_set_watch_list, nv_set_clause; exact Hn1].
    apply TI_add_watch. apply TI_set_watch_list. apply TI_set_clause; [exact H1|].
    rewrite Hn1. apply swap1k_in; assumption.
  - destruct (is_false (lit_value s1 (nth 0 c1 0%Z))) eqn:E2; simpl; [split; [apply TI_bump_confl; exact H1 | exact Hn1]|].
    split; [|unfold assign_lit; rewrite nv_assign; exact Hn1].
    apply TI_assign_lit; [exact H1 | rewrite Hn1; apply clause_in_nth; assumption | apply lit_value_none; assumption].
Qed.

Lemma TI_set_head : forall s h, TI s -> h <= length (s_trail s) -> TI (set_head s h).
Proof.
  intros s h [HT HD] Hh. split; [apply set_head_trail_inv; assumption|]. destruct HD. constructor; unfold nv in *; simpl; auto.
Qed.

(* the literals propagate assigns index into the arrays, whose length n stays *)
Theorem propagate_TI : forall fuel A s s' c, Forall (lit_in (nv s)) A -> TI s -> propagate fuel A s = Some (s', c) -> TI s'.
Proof.
  intros fuel A s s' c HA H E.
  assert (forall x l r, TI x /\ nv x = nv s -> lit_in (nv s) l -> val_of x (lvar l) = None ->
            TI (assign_lit l r x) /\ nv (assign_lit l r x) = nv s) as Hassign.
  { intros x l r [Hx Hn] Hl Hv. split; [apply TI_assign_lit; [exact Hx | rewrite Hn; exact Hl | exact Hv]|].
    unfold assign_lit. rewrite nv_assign. exact Hn. }
  apply (propagate_inv (fun x => TI x /\ nv x = nv s) A) with (fuel := fuel) (s := s) (c := c); auto.
  - intros x [Hx Hn]. split; [apply TI_bump_confl; exact Hx | exact Hn].
  - intros x [Hx Hn] L. split; [apply TI_set_head; [exact Hx | exact L] | exact Hn].
  - intros x l Hx Hl. apply Hassign; [exact Hx|]. rewrite Forall_forall in HA. exact (HA l Hl).
  - intros x0 fl x l ci [Hx0 Hn0] Hx Hl. apply Hassign; [exact Hx|].
    pose proof (implications_in x0 fl (proj2 Hx0)) as Q. unfold imps_in in Q. rewrite Forall_forall, Hn0 in Q. exact (Q _ Hl).
  - intros fl i x [Hx Hn]. pose proof (watch_step_TI fl i x Hx) as Q. rewrite Hn in Q. exact Q.
Qed.
