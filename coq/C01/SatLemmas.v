(* C01 / C02 - elementary lemmas about the CNF semantics, reported models and pure literals. *)
From Coq Require Import List ZArith Bool.
Import ListNotations.
From SV Require Import C01.SatSpec C01.RupProofs C01.Machine.
Open Scope Z_scope.

Lemma zlist_eqb_eq : forall a b, zlist_eqb a b = true -> a = b.
Proof.
  induction a as [|x xs IH]; intros [|y ys] H; simpl in H; try discriminate; [reflexivity|].
  apply andb_prop in H. destruct H as [H1 H2]. apply Z.eqb_eq in H1. apply IH in H2. subst. reflexivity.
Qed.

Lemma zlist_eqb_refl : forall a, zlist_eqb a a = true.
Proof.
  induction a as [|x xs IH]; simpl; [reflexivity|]. rewrite Z.eqb_refl, IH. reflexivity.
Qed.

Lemma models_b_sound : forall m F, models_b m F = true -> models m F.
Proof.
  intros m F H c Hin. unfold models_b in H. rewrite forallb_forall in H. apply H. exact Hin.
Qed.

Lemma agrees_b_sound : forall m A, agrees_b m A = true -> agrees m A.
Proof.
  intros m A H l Hin. unfold agrees_b in H. rewrite forallb_forall in H. apply H. exact Hin.
Qed.

Lemma models_app : forall m F G, models m (F ++ G) <-> models m F /\ models m G.
Proof.
  intros m F G. unfold models. split.
  - intros H. split; intros c Hin; apply H; apply in_or_app; [left | right]; exact Hin.
  - intros [H1 H2] c Hin. apply in_app_or in Hin. destruct Hin; [apply H1 | apply H2]; assumption.
Qed.

Lemma models_units : forall m L, models m (units L) <-> agrees m L.
Proof.
  intros m L. unfold models, agrees, units. split.
  - intros H l Hin. specialize (H [l]). simpl in H. rewrite orb_false_r in H.
    apply H. apply in_map_iff. exists l. split; [reflexivity | exact Hin].
  - intros H c Hin. apply in_map_iff in Hin. destruct Hin as [l [Heq Hl]]. subst c.
    simpl. rewrite orb_false_r. apply H. exact Hl.
Qed.

Lemma models_nil : forall m, models m [].
Proof. intros m c []. Qed.

Lemma models_cons : forall m c F, models m (c :: F) <-> clause_true m c = true /\ models m F.
Proof.
  intros m c F. unfold models. split.
  - intros H. split; [apply H; left; reflexivity | intros c' Hin; apply H; right; exact Hin].
  - intros [H1 H2] c' [Heq | Hin]; [subst; exact H1 | apply H2; exact Hin].
Qed.

Lemma forallb_false_ex : forall {X} (f : X -> bool) l, forallb f l = false -> exists x, In x l /\ f x = false.
Proof.
  intros X f l. induction l as [|x l IH]; intros H; [discriminate|]. simpl in H.
  destruct (f x) eqn:E.
  - destruct (IH H) as [y [Hy Hf]]. exists y. split; [right; exact Hy | exact Hf].
  - exists x. split; [left; reflexivity | exact E].
Qed.

Lemma consistent_lit : forall m l, consistent_b m = true -> In l m -> lit_true (asg_of m) l = true.
Proof.
  intros m l H Hin. unfold consistent_b in H. rewrite forallb_forall in H. apply H. exact Hin.
Qed.

Lemma consistent_nonzero : forall m l, consistent_b m = true -> In l m -> l <> 0.
Proof.
  intros m l H Hin Hz. subst l. pose proof (consistent_lit m 0 H Hin) as Ht.
  unfold lit_true, asg_of in Ht. simpl in Ht.
  apply mem_In in Hin. rewrite Hin in Ht. discriminate.
Qed.

(* a model that satisfies the blocking clause of m' differs from m' on some variable *)
Definition differ (m m' : model) : Prop :=
  exists l, In l m' /\ lit_true (asg_of m') l = true /\ lit_true (asg_of m) l = false.

Lemma blocking_differ : forall m m', consistent_b m' = true ->
  clause_true (asg_of m) (map Z.opp m') = true -> differ m m'.
Proof.
  intros m m' Hc H. unfold clause_true in H. apply existsb_exists in H.
  destruct H as [l' [Hin Hl']]. apply in_map_iff in Hin. destruct Hin as [l [Heq Hl]]. subst l'.
  exists l. split; [exact Hl|]. split; [apply consistent_lit; assumption|].
  rewrite (lit_true_opp (asg_of m) l (consistent_nonzero m' l Hc Hl)) in Hl'.
  apply negb_true_iff in Hl'. exact Hl'.
Qed.

Lemma differ_neq : forall m m', differ m m' -> m <> m'.
Proof.
  intros m m' [l [_ [H1 H2]]] Heq. subst m'. congruence.
Qed.

(* conversely: an assignment that falsifies the blocking clause of m' makes every literal of m' true *)
Lemma blocking_false_agrees : forall (a : asg) m', consistent_b m' = true ->
  clause_true a (map Z.opp m') = false -> forall l, In l m' -> lit_true a l = true.
Proof.
  intros a m' Hc H l Hl.
  pose proof (clause_true_false_all a (map Z.opp m') H (- l)) as Hf.
  assert (In (- l) (map Z.opp m')) as Hin by (apply in_map; exact Hl).
  specialize (Hf Hin).
  rewrite (lit_true_opp a l (consistent_nonzero m' l Hc Hl)) in Hf.
  apply negb_false_iff in Hf. exact Hf.
Qed.

Definition force (P : list lit) (m : asg) : asg :=
  fun v => if mem v P then true else if mem (- v) P then false else m v.

Lemma force_untouched : forall P m l, mem l P = false -> mem (- l) P = false ->
  lit_true (force P m) l = lit_true m l.
Proof.
  intros P m l H1 H2. unfold lit_true, force.
  destruct (0 <? l).
  - rewrite H1, H2. reflexivity.
  - rewrite H2, Z.opp_involutive, H1. reflexivity.
Qed.

Lemma force_pure : forall P m p, In p P -> p <> 0 -> mem (- p) P = false ->
  lit_true (force P m) p = true.
Proof.
  intros P m p Hin Hnz Hno. apply mem_In in Hin. unfold lit_true, force.
  destruct (0 <? p) eqn:E.
  - rewrite Hin. reflexivity.
  - rewrite Hno, Z.opp_involutive, Hin. reflexivity.
Qed.

Lemma pure_okb_spec : forall N A P, pure_okb N A P = true -> forall p, In p P ->
  p <> 0 /\ occurs (- p) N = false /\ mem (- p) P = false
  /\ (forall a, In a A -> Z.abs a <> Z.abs p).
Proof.
  intros N A P H p Hin. unfold pure_okb in H. rewrite forallb_forall in H. specialize (H p Hin).
  apply andb_prop in H. destruct H as [H H4]. apply andb_prop in H. destruct H as [H H3].
  apply andb_prop in H. destruct H as [H1 H2].
  apply negb_true_iff in H1, H2, H3, H4. apply Z.eqb_neq in H1.
  repeat split; try assumption.
  intros a Ha Heq.
  assert (existsb (fun a => Z.abs a =? Z.abs p) A = true) as Hex.
  { apply existsb_exists. exists a. split; [exact Ha | apply Z.eqb_eq; exact Heq]. }
  congruence.
Qed.

Lemma occurs_false : forall l N c, occurs l N = false -> In c N -> ~ In l c.
Proof.
  intros l N c H Hc Hl. unfold occurs in H.
  assert (existsb (mem l) N = true) as Hex.
  { apply existsb_exists. exists c. split; [exact Hc | apply mem_In; exact Hl]. }
  congruence.
Qed.

(* pure_ok: forcing literals that are pure in N and whose variables are not assumed keeps a model of
   N /\ A a model of N /\ A, and makes the forced literals true *)
Theorem pure_ok : forall N A P m, pure_okb N A P = true -> models m N -> agrees m A ->
  models (force P m) N /\ agrees (force P m) A /\ agrees (force P m) P.
Proof.
  intros N A P m HP HN HA. pose proof (pure_okb_spec N A P HP) as Hspec. split; [|split].
  - intros c Hc. specialize (HN c Hc). unfold clause_true in *.
    apply existsb_exists in HN. destruct HN as [l [Hl Ht]]. apply existsb_exists. exists l. split; [exact Hl|].
    destruct (mem l P) eqn:E1.
    + apply mem_In in E1. destruct (Hspec l E1) as [Hnz [_ [Hno _]]]. apply force_pure; assumption.
    + destruct (mem (- l) P) eqn:E2.
      * exfalso. apply mem_In in E2. destruct (Hspec (- l) E2) as [_ [Hocc _]].
        rewrite Z.opp_involutive in Hocc. exact (occurs_false l N c Hocc Hc Hl).
      * rewrite force_untouched; assumption.
  - intros a Ha. specialize (HA a Ha).
    destruct (mem a P) eqn:E1.
    + exfalso. apply mem_In in E1. destruct (Hspec a E1) as [_ [_ [_ Habs]]]. exact (Habs a Ha eq_refl).
    + destruct (mem (- a) P) eqn:E2.
      * exfalso. apply mem_In in E2. destruct (Hspec (- a) E2) as [_ [_ [_ Habs]]].
        apply (Habs a Ha). rewrite Z.abs_opp. reflexivity.
      * rewrite force_untouched; assumption.
  - intros p Hp. destruct (Hspec p Hp) as [Hnz [_ [Hno _]]]. apply force_pure; assumption.
Qed.
