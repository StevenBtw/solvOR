(* C01 deep model - the loop invariant LE (the input clauses keep their literals, the assumptions are true at level 0),
   established by the set-up (init_LE) and kept by an iteration (main_step_LE); run_all: LI, LJ and LE hold in every state
   of every run; algo_models: when the main loop records a solution (no conflict pending, every variable assigned) it
   satisfies every input clause, every clause of the database (learned and blocking clauses) and every assumption. *)
From Coq Require Import List ZArith Bool Lia.
Import ListNotations.
From SV Require Import C01.SatSpec C01.DeepCdcl C01.DeepBase C01.DeepTrail C01.DeepTrailProp C01.DeepAnalyze C01.DeepWatch
  C01.DeepReason C01.DeepReasonProp C01.DeepRun C01.DeepInit C01.DeepJ C01.DeepJRun C01.DeepSteps C01.RupProofs.
Close Scope Z_scope.
Open Scope nat_scope.

(* the input clauses keep their literals: only the order inside a clause changes *)
Definition orig_ok (cls : cnf) (s : st) : Prop :=
  length (s_orig s) = length cls /\ forall i, same_mem (nth i (s_orig s) []) (nth i cls []).

Definition assums_true0 (A : list Z) (s : st) : Prop := forall a, In a A -> true0 a s.

Lemma orig_ok_estep : forall cls s s', estep s s' -> orig_ok cls s -> orig_ok cls s'.
Proof.
  intros cls s s' E [H1 H2].
  destruct E as [? ? [s v b r _ | s ci c Hm | s s' EA Eo _ _ | s h] | s c k | s c b L _ _ | s | s k _ | s]; try (split; assumption).
  - unfold orig_ok, set_clause. destruct (Nat.ltb_spec ci (length (s_orig s))) as [L|L]; simpl; [|split; assumption].
    split; [rewrite upd_length; exact H1|]. intros i. destruct (Nat.eq_dec ci i) as [Q|Q].
    + subst i. rewrite nth_upd_eq by exact L. intros l. rewrite (Hm l). unfold get_clause.
      destruct (Nat.ltb_spec ci (length (s_orig s))); [|lia]. apply H2.
    + rewrite nth_upd_neq by exact Q. apply H2.
  - unfold orig_ok. rewrite Eo. split; assumption.
  - unfold orig_ok. rewrite orig_reduce_db. split; assumption.
  - destruct (unassign_to_db_eq k s) as (Q & _). unfold orig_ok. rewrite Q. split; assumption.
Qed.

Lemma orig_ok_esteps : forall cls s s', esteps s s' -> orig_ok cls s -> orig_ok cls s'.
Proof. intros cls. apply steps_pres. apply orig_ok_estep. Qed.

Lemma assums_true0_esteps : forall A s s', esteps s s' -> assums_true0 A s -> assums_true0 A s'.
Proof. intros A s s' R H a Ha. apply (steps_pres estep (true0 a) (true0_estep a) s s' R). apply H. exact Ha. Qed.

(* LE: the loop invariant behind C01_algorithm - the input clauses are still there up to the order of their literals, and the assumptions
   are true at level 0 unless the assumption conflict has been reported *)
Record LE (cls : cnf) (P : params) (L : loop) : Prop := mkLE {
  le_orig : orig_ok cls (l_st L);
  le_asm : l_conflict L = CAssum \/ assums_true0 (p_assum P) (l_st L)
}.

Theorem main_step_LE : forall cls fuel P L L', LI P L -> LE cls P L -> main_step fuel P L = Cont L' -> LE cls P L'.
Proof.
  intros cls fuel P L L' HL [H1 H2] E. pose proof (main_step_esteps fuel P L L' HL E) as R. constructor.
  - eapply orig_ok_esteps; eauto.
  - right. destruct H2 as [H2|H2]; [|eapply assums_true0_esteps; eauto].
    destruct (main_step_cont fuel P L L' E); congruence.
Qed.

Lemma prop_assums_true : forall A s s', assum_ok (nv s) A -> BI s -> cur_level s = 0 -> prop_assums A s = (s', false) ->
  assums_true0 A s' /\ (forall x, true0 x s -> true0 x s').
Proof.
  induction A as [|l A IH]; intros s s' HA H Hc E; simpl in E.
  - injection E as E. subst. split; [intros a [] | auto].
  - inversion HA as [|? ? [Hl0 Hl] HA']; subst. pose proof (proj1 (bi_ti s H)) as HT.
    destruct (val_of s (lvar l)) as [b|] eqn:EV.
    + destruct (Bool.eqb b (lpos l)) eqn:EB; [|discriminate].
      destruct (IH s s' HA' H Hc E) as [Q1 Q2]. split; [|exact Q2].
      intros a [Q|Q]; [|apply Q1; exact Q]. subst a. apply Q2. apply (true0_lvl0 s l HT Hc).
      unfold lit_value. rewrite EV, EB. reflexivity.
    + assert (BI (assign_lit l None s)) as H1.
      { unfold assign_lit. apply BI_assign; [exact H | exact EV | exact Hl | apply lvar_nonzero; exact Hl0 | discriminate | intros _; left; exact Hc]. }
      destruct (IH (assign_lit l None s) s') as [Q1 Q2]; auto.
      { unfold assign_lit. rewrite nv_assign. exact HA'. }
      assert (forall x, true0 x s -> true0 x (assign_lit l None s)) as Hk.
      { intros x. apply true0_estep. apply es_prop, ps_assign. exact EV. }
      split; [|intros x Hx; apply Q2, Hk; exact Hx].
      intros a [Q|Q]; [|apply Q1; exact Q]. subst a. apply Q2. exact (true0_assign_lit s l None HT Hc Hl).
Qed.

Theorem init_LE : forall fuel cls A mc mr limit lf orc P L0, valid_input cls A = true ->
  init_loop fuel cls A mc mr limit lf orc = ILoop P L0 ->
  LE cls P L0 /\ p_assum P = A /\ p_nvars P = n_vars_of cls /\ esteps (init_state cls (n_vars_of cls)) (l_st L0) /\ l_sols L0 = [].
Proof.
  intros fuel cls A mc mr limit lf orc P L0 Hvalid E. destruct (valid_input_facts cls A Hvalid) as [Hcls HA].
  pose proof (init_loop_cases fuel cls A mc mr limit lf orc) as C. rewrite E in C.
  destruct C as [s0 units s2 s3 c lv evs _ Enil EO EU EP _ _]. set (n := n_vars_of cls) in *.
  destruct (init_PJ cls n A _ s0 units s2 Hcls Enil EO EU) as ((H2 & _) & N2 & L2).
  assert (esteps (init_state cls n) s2) as R2.
  { assert (s0 = attach_all cls 0 (init_state cls n)) as Es0 by (rewrite <- attach_orig_attach_all with (units := []); rewrite EO; reflexivity).
    apply (steps_trans (b := s0)); [rewrite Es0; apply steps_one, es_attach_all|].
    refine (steps_trans _ (assign_units_esteps units _ s2 EU)). destruct (limit <=? 1)%Z; [apply assign_pures_esteps | apply steps_refl]. }
  pose proof (steps_trans R2 (propagate_esteps fuel A s2 s3 c EP)) as R3.
  split; [|split; [reflexivity | split; [reflexivity | split; [exact R3 | reflexivity]]]]. constructor.
  - apply (orig_ok_esteps cls (init_state cls n) _ R3). split; [reflexivity | intros i l; tauto].
  - cbn [l_conflict l_st p_assum]. unfold propagate in EP. unfold lvl0 in L2. rewrite L2 in EP. simpl in EP.
    destruct (prop_assums A s2) as [s2' [|]] eqn:EPA.
    + injection EP as E1 E2. left. symmetry. exact E2.
    + right. assert (assum_ok (nv s2) A) as HA2 by (rewrite N2; exact HA).
      exact (assums_true0_esteps A _ _ (steps_mono es_prop (prop_loop_psteps _ _ _ _ _ EP)) (proj1 (prop_assums_true A s2 s2' HA2 H2 L2 EPA))).
Qed.

Lemma all_assigned_val : forall s n v, all_assigned s n = true -> 1 <= v <= n -> val_of s v <> None.
Proof.
  intros s n v H Hv. unfold all_assigned in H. rewrite forallb_forall in H.
  assert (In v (seq 1 n)) as Hin by (apply in_seq; lia). pose proof (H v Hin) as Q. destruct (val_of s v); [congruence | discriminate].
Qed.

Lemma lit_value_total : forall s l, val_of s (lvar l) <> None -> lit_value s l = Some true \/ lit_value s l = Some false.
Proof.
  intros s l H. unfold lit_value. destruct (val_of s (lvar l)) as [b|]; [|congruence]. destruct (Bool.eqb b (lpos l)); auto.
Qed.

Lemma all_true_lit : forall s n, BI s -> nv s = S n -> all_assigned s n = true -> s_head s = length (s_trail s) ->
  cov_all s -> J s -> forall ci, ci < n_clauses s -> exists l, In l (get_clause s ci) /\ lit_value s l = Some true.
Proof.
  intros s n H Hn Hall Hh HC HJ ci Hci. pose proof (HC ci Hci) as Q. unfold covered in Q.
  pose proof (proj1 (bi_ti s H)) as HT.
  assert (forall l, In l (get_clause s ci) -> val_of s (lvar l) <> None) as Hass.
  { intros l Hl. apply (all_assigned_val s n); [exact Hall|].
    pose proof (get_clause_in s ci (proj2 (bi_ti s H))) as R. unfold clause_in in R. rewrite Forall_forall in R.
    pose proof (R l Hl) as R1. unfold lit_in in R1. pose proof (lvar_nonzero l (bi_nz s H ci l Hl)). lia. }
  assert (forall l, In l (get_clause s ci) -> lit_value s l = Some false -> fp s l) as Hfp.
  { intros l Hl Hf. split; [exact Hf|]. assert (In (lvar l) (s_trail s)) as Hin by (apply (ti_assigned s HT); apply Hass; exact Hl).
    destruct (in_split _ _ Hin) as (tr1 & tr2 & E). exists tr1, tr2. split; [exact E|]. rewrite Hh, E, app_length. simpl. lia. }
  destruct (get_clause s ci) as [|a [|b r]] eqn:Ec; [contradiction | exists a; split; [left; reflexivity | exact (proj1 Q)]|].
  destruct (lit_value_total s a (Hass a (or_introl eq_refl))) as [Ta|Fa]; [exists a; split; [left; reflexivity | exact Ta]|].
  destruct (lit_value_total s b (Hass b (or_intror (or_introl eq_refl)))) as [Tb|Fb]; [exists b; split; [right; left; reflexivity | exact Tb]|].
  exfalso. exact (HJ ci a b r Hci Ec (Hfp a (or_introl eq_refl) Fa) (Hfp b (or_intror (or_introl eq_refl)) Fb)).
Qed.

Lemma In_solution_pos : forall s n v, In (zvar v) (solution_of s n) <-> (1 <= v <= n /\ val_of s v = Some true).
Proof.
  intros s n v. unfold solution_of. rewrite in_flat_map. split.
  - intros [w [Hw Hin]]. apply in_seq in Hw. destruct (val_of s w) as [[|]|] eqn:E; simpl in Hin; [| |contradiction]; destruct Hin as [Q|[]].
    + unfold zvar in Q. apply Nat2Z.inj in Q. subst w. split; [lia | exact E].
    + exfalso. unfold zvar in Q. lia.
  - intros [Hv E]. exists v. split; [apply in_seq; lia|]. rewrite E. left. reflexivity.
Qed.

Lemma sol_lit_true : forall s n l, l <> 0%Z -> lvar l <= n -> lit_value s l = Some true ->
  lit_true (asg_of (solution_of s n)) l = true.
Proof.
  intros s n l Hnz Hr Ht. unfold lit_true, asg_of. unfold lit_value in Ht.
  destruct (val_of s (lvar l)) as [b|] eqn:EV; [|discriminate]. injection Ht as Ht. unfold lpos in Ht.
  assert (1 <= lvar l) as H1 by (pose proof (lvar_nonzero l Hnz); lia).
  destruct (Z.ltb_spec 0 l) as [L|L].
  - destruct b; simpl in Ht; [|discriminate]. apply mem_In. rewrite <- (zvar_lvar_pos l L). apply In_solution_pos. split; [lia | exact EV].
  - destruct b; simpl in Ht; [discriminate|]. apply negb_true_iff.
    destruct (mem (- l) (solution_of s n)) eqn:Em; [|reflexivity]. exfalso. apply mem_In in Em.
    rewrite <- (zvar_lvar_neg l ltac:(lia)) in Em. apply In_solution_pos in Em. destruct Em as [_ Q]. congruence.
Qed.

Theorem algo_models : forall cls P L, LI P L -> LJ L -> LE cls P L -> l_conflict L = CNone ->
  all_assigned (l_st L) (p_nvars P) = true ->
  let m := solution_of (l_st L) (p_nvars P) in
  models (asg_of m) cls /\ agrees (asg_of m) (p_assum P) /\ models (asg_of m) (db (l_st L)).
Proof.
  intros cls P L [HB Hnv HA Hdec Hconf] HLJ [HO HAs] EC Hall m. unfold LJ in HLJ. rewrite EC in *.
  destruct HLJ as (HAr & HC & HJ). destruct HAs as [Q|HAs]; [discriminate|].
  set (s := l_st L) in *. set (n := p_nvars P) in *.
  pose proof (all_true_lit s n HB Hnv Hall Hconf HC HJ) as Htrue.
  assert (forall ci l, In l (get_clause s ci) -> lit_value s l = Some true -> lit_true (asg_of m) l = true) as Hlt.
  { intros ci l Hl Ht. apply sol_lit_true; [exact (bi_nz s HB ci l Hl) | | exact Ht].
    pose proof (get_clause_in s ci (proj2 (bi_ti s HB))) as R. unfold clause_in in R. rewrite Forall_forall in R.
    pose proof (R l Hl) as R1. unfold lit_in in R1. lia. }
  assert (models (asg_of m) (db s)) as Mdb.
  { intros c Hc. destruct (in_db_get_clause s c Hc) as [ci [Hci E]]. destruct (Htrue ci Hci) as [l [Hl Ht]].
    apply existsb_exists. exists l. split; [rewrite <- E; exact Hl | apply (Hlt ci l Hl Ht)]. }
  split; [|split; [|exact Mdb]].
  - intros c Hc. destruct (In_nth cls c ([] : clause) Hc) as [i [Hi E]]. destruct HO as [O1 O2].
    assert (i < n_clauses s) as Hci by (unfold n_clauses; rewrite O1; lia).
    destruct (Htrue i Hci) as [l [Hl Ht]]. apply existsb_exists. exists l. split; [|apply (Hlt i l Hl Ht)].
    rewrite <- E. apply (O2 i l). unfold get_clause in Hl. destruct (Nat.ltb_spec i (length (s_orig s))) as [Q|Q]; [exact Hl | lia].
  - intros a Ha. destruct (HAs a Ha) as [Ht _]. unfold assum_ok in HA. rewrite Forall_forall in HA. destruct (HA a Ha) as [Ha0 Har].
    apply sol_lit_true; [exact Ha0 | unfold lit_in in Har; lia | exact Ht].
Qed.

Theorem run_all : forall fuel cls A mc mr limit lf orc P L0 L, valid_input cls A = true ->
  init_loop fuel cls A mc mr limit lf orc = ILoop P L0 -> reach fuel P L0 L -> LI P L /\ LJ L /\ LE cls P L.
Proof.
  intros fuel cls A mc mr limit lf orc P L0 L Hv Hi R. induction R as [|L1 L2 R IH E].
  - split; [eapply init_LI; eauto|]. split; [eapply init_LJ; eauto | exact (proj1 (init_LE _ _ _ _ _ _ _ _ _ _ Hv Hi))].
  - destruct IH as (IH1 & IH2 & IH3). split; [eapply main_step_LI; eauto|]. split; [eapply main_step_LJ; eauto | eapply main_step_LE; eauto].
Qed.
