(* C01 deep model - the bundle BI (DeepReason.v) through the operations shared by the branches of the main loop: the backjump
   (unassign_to: which trail entries stay), learned.append, a pair of watches or a pair of implications for a new clause, and
   attach of an appended clause.  (reduce_db is in DeepReduce.v; blocking clause, decision and restart in DeepRun.v.) *)
From Coq Require Import List ZArith Lia.
Import ListNotations.
From SV Require Import C01.DeepCdcl C01.DeepBase C01.DeepTrail C01.DeepTrailProp C01.DeepAnalyze C01.DeepWatch C01.DeepReason
  C01.DeepReasonProp.
Close Scope Z_scope.
Open Scope nat_scope.

Lemma lvl_at_le_length : forall lim p, lvl_at lim p <= length lim.
Proof. intros. unfold lvl_at. apply filter_length_le'. Qed.

Lemma app_eq_In : forall (p q a : list nat) w b, p ++ q = a ++ w :: b ->
  (length b < length q -> In w q) /\ (length q <= length b -> In w p).
Proof.
  induction p as [|x p IH]; intros q a w b E; simpl in E.
  - split; [intros _; rewrite E; apply in_elt | intros H]. exfalso. apply (f_equal (@length nat)) in E. rewrite app_length in E. simpl in E. lia.
  - destruct a as [|y a]; simpl in E; injection E as E1 E2.
    + subst x. split; [intros H | intros _; left; reflexivity]. exfalso. subst b. rewrite app_length in H. lia.
    + destruct (IH q a w b E2) as [Q1 Q2]. split; [exact Q1 | intros H; right; exact (Q2 H)].
Qed.

Lemma val_of_unassign_to : forall s level w, trail_inv s ->
  val_of (unassign_to level s) w = None \/ val_of (unassign_to level s) w = val_of s w.
Proof.
  intros s level w HT. destruct (unassign_to_spec s level HT) as [popped (_ & _ & _ & _ & _ & Hpop & Hkeep & _)].
  destruct (in_dec Nat.eq_dec w popped) as [Ip|Ip]; [left; apply Hpop; exact Ip | right; apply Hkeep; exact Ip].
Qed.

(* the level of a trail entry is the number of trail_lim marks at or below its position; unassign_to(level) keeps the
   positions below trail_lim[level] *)
Lemma unassign_to_stays_or_goes : forall s level w, trail_inv s -> In w (s_trail s) -> level < cur_level s ->
  (level_of s w <= level -> In w (s_trail (unassign_to level s)) /\ val_of (unassign_to level s) w = val_of s w)
  /\ (level < level_of s w -> val_of (unassign_to level s) w = None).
Proof.
  intros s level w HT Hin Hlv. unfold cur_level in Hlv.
  destruct (unassign_to_spec s level HT) as [popped (E & _ & _ & _ & _ & Hpop & _ & Hlen & _)].
  pose proof (Hlen Hlv) as Ht. destruct (in_split _ _ Hin) as (tr1 & tr2 & Etr).
  pose proof (ti_levels s HT tr1 w tr2 Etr) as Hlw. rewrite Etr in E. symmetry in E. destruct (app_eq_In _ _ _ _ _ E) as [Qin Qpop].
  destruct (Nat.lt_ge_cases (length tr2) (length (s_trail (unassign_to level s)))) as [L|L].
  - (* below: at most `level` marks are at or below its position; it stays *)
    assert (level_of s w <= level) as B.
    { rewrite Ht in L. rewrite Hlw, <- (lvl_at_firstn (s_lim s) level (length tr2) (ti_sorted s HT) Hlv L).
      pose proof (lvl_at_le_length (firstn level (s_lim s)) (length tr2)) as Q. rewrite firstn_length in Q. lia. }
    split; [intros _ | lia]. pose proof (Qin L) as Iw. split; [exact Iw|].
    destruct (val_of_unassign_to s level w HT) as [Q|Q]; [|exact Q].
    exfalso. exact (proj2 (ti_assigned _ (unassign_to_trail_inv s level HT) w) Iw Q).
  - (* at or above: the first level+1 marks are at or below its position; it goes *)
    assert (level < level_of s w) as B.
    { rewrite Ht in L. rewrite Hlw, <- (firstn_skipn (S level) (s_lim s)), lvl_at_app, (lvl_at_all (firstn (S level) (s_lim s))).
      - rewrite firstn_length. lia.
      - intros l Hl. destruct (In_nth _ _ 0 Hl) as [j [Hj Hx]]. rewrite firstn_length in Hj. rewrite nth_firstn' in Hx by lia. subst l.
        pose proof (ti_sorted s HT j level). lia. }
    split; [lia | intros _; apply Hpop; exact (Qpop L)].
Qed.

Lemma db_range_db_eq : forall s s', db_eq s s' -> nv s' = nv s -> db_range s -> db_range s'.
Proof.
  intros s s' (E1 & E2 & E3 & E4 & E5 & E6) En [H1 H2 H3 H4 H5]. constructor; rewrite ?En, ?E1, ?E2, ?E5, ?E6; assumption.
Qed.

Lemma nz_db_eq : forall s s', db_eq s s' -> nz s -> nz s'.
Proof. intros s s' E H ci l Hl. rewrite (db_eq_get_clause _ _ _ E) in Hl. exact (H ci l Hl). Qed.

Lemma BI_db_eq : forall s s', BI s -> db_eq s s' -> nv s' = nv s -> trail_inv s' -> val_of s' 0 = None ->
  reason_inv s' -> decision_first s' -> head_inv s' -> BI s'.
Proof.
  intros s s' H E En HT Hv0 HR HD HH. constructor; auto.
  - split; [exact HT | exact (db_range_db_eq s s' E En (proj2 (bi_ti s H)))].
  - exact (nz_db_eq s s' E (bi_nz s H)).
  - exact (watch_le_db_eq s s' E (bi_wle s H)).
  - exact (big_ok_db_eq s s' E (bi_big s H)).
Qed.

Lemma BI_unassign_to : forall s level, BI s -> BI (unassign_to level s).
Proof.
  intros s level H. pose proof (proj1 (bi_ti s H)) as HT. apply (BI_db_eq s _ H).
  - apply unassign_to_db_eq.
  - apply unassign_to_nvals.
  - apply unassign_to_trail_inv; exact HT.
  - destruct (val_of_unassign_to s level 0 HT) as [Q|Q]; [exact Q | rewrite Q; exact (bi_v0 s H)].
  - apply reason_inv_unassign_to; [exact HT | exact (bi_reason s H)].
  - apply decision_first_unassign_to; [exact HT | exact (bi_dec s H)].
  - apply head_inv_unassign_to; [exact HT | exact (bi_head s H)].
Qed.

Lemma n_clauses_append : forall c k s, n_clauses (append_learned c k s) = S (n_clauses s).
Proof. intros. unfold n_clauses, append_learned. simpl. rewrite app_length. simpl. lia. Qed.

Lemma get_clause_append_old : forall c k s r, r < n_clauses s -> get_clause (append_learned c k s) r = get_clause s r.
Proof.
  intros c k s r H. unfold n_clauses in H. unfold get_clause, append_learned. simpl.
  destruct (Nat.ltb_spec r (length (s_orig s))) as [L|L]; [reflexivity|]. apply app_nth1. lia.
Qed.

Lemma get_clause_append_new : forall c k s, get_clause (append_learned c k s) (n_clauses s) = c.
Proof.
  intros c k s. unfold n_clauses, get_clause, append_learned. simpl.
  destruct (Nat.ltb_spec (length (s_orig s) + length (s_learned s)) (length (s_orig s))) as [L|L]; [lia|].
  rewrite app_nth2 by lia. replace (length (s_orig s) + length (s_learned s) - length (s_orig s) - length (s_learned s)) with 0 by lia.
  reflexivity.
Qed.

Lemma get_clause_overflow : forall s r, n_clauses s <= r -> get_clause s r = [].
Proof.
  intros s r H. unfold n_clauses in H. unfold get_clause. destruct (Nat.ltb_spec r (length (s_orig s))); [lia|]. apply nth_overflow. lia.
Qed.

Lemma get_clause_append_cases : forall c k s r l, In l (get_clause (append_learned c k s) r) -> In l (get_clause s r) \/ (r = n_clauses s /\ In l c).
Proof.
  intros c k s r l H. destruct (Nat.lt_trichotomy r (n_clauses s)) as [L|[L|L]].
  - left. rewrite get_clause_append_old in H by exact L. exact H.
  - right. subst r. rewrite get_clause_append_new in H. auto.
  - rewrite get_clause_overflow in H; [contradiction|]. rewrite n_clauses_append. lia.
Qed.

Lemma BI_append_learned : forall c k s, BI s -> clause_in (nv s) c -> (forall l, In l c -> l <> 0%Z) -> BI (append_learned c k s).
Proof.
  intros c k s H Hc Hnz. pose proof (bi_ti s H) as [HT HD].
  assert (asg_eq s (append_learned c k s)) as EA by apply append_learned_asg. constructor.
  - split; [eapply trail_inv_asg_eq; eauto|]. destruct HD as [D1 D2 D3 D4 D5]. constructor; auto.
    unfold append_learned; simpl. apply Forall_app. split; [exact D3 | constructor; [exact Hc | constructor]].
  - intros ci l Hl. destruct (get_clause_append_cases _ _ _ _ _ Hl) as [Q|[_ Q]]; [exact (bi_nz s H ci l Q) | exact (Hnz l Q)].
  - exact (bi_v0 s H).
  - intros l ci. change (watch_list (append_learned c k s) l) with (watch_list s l). rewrite n_clauses_append.
    pose proof (bi_wle s H l ci) as Q. destruct (Nat.ltb_spec ci (n_clauses s)) as [L|L].
    + destruct (Nat.ltb_spec ci (S (n_clauses s))); [|lia]. rewrite get_clause_append_old by exact L. exact Q.
    + lia.
  - intros fl implied ci Hin. change (implications (append_learned c k s) fl) with (implications s fl) in Hin.
    destruct (bi_big s H fl implied ci Hin) as [Q1 Q2]. rewrite n_clauses_append. split; [lia|].
    rewrite get_clause_append_old by exact Q1. exact Q2.
  - intros tr1 v tr2 r Htr Hl Hr. destruct (bi_reason s H tr1 v tr2 r Htr Hl Hr) as [Q1 Q2]. rewrite n_clauses_append. split; [lia|].
    rewrite get_clause_append_old by exact Q1. exact Q2.
  - exact (bi_dec s H).
  - eapply head_inv_asg_eq; [exact EA | exact (bi_head s H)].
Qed.

Lemma cnt_add_watch_le : forall l' idx s l cj,
  cnt (watch_list (add_watch l' idx s) l) cj
  <= cnt (watch_list s l) cj + (if Z.eq_dec l l' then if Nat.eq_dec idx cj then 1 else 0 else 0).
Proof.
  intros l' idx s l cj. unfold add_watch. destruct (Z.eq_dec l l') as [E|E].
  - subst l'. rewrite watch_list_set_same. destruct (lvar l <? slot_len s l); [|rewrite cnt_nil; lia].
    rewrite cnt_app, cnt_one. lia.
  - rewrite watch_list_set_other by exact E. lia.
Qed.

Lemma BI_dbframe : forall s s', BI s -> asg_eq s s' -> n_clauses s' = n_clauses s ->
  (forall r, get_clause s' r = get_clause s r) -> db_range s' -> watch_le s' -> big_ok s' -> BI s'.
Proof.
  intros s s' H EA En Eg HD HW HB. apply (BI_frame s); auto.
  - intros r l Hl. rewrite Eg in Hl. exact Hl.
  - split; [eapply trail_inv_asg_eq; eauto; exact (proj1 (bi_ti s H)) | exact HD].
Qed.

Lemma eq_dec_eqb : forall (x y : Z) (n m : nat), (if Z.eq_dec x y then n else m) = if (y =? x)%Z then n else m.
Proof. intros. destruct (Z.eq_dec x y), (Z.eqb_spec y x); congruence. Qed.

Lemma BI_add_watch2 : forall s idx a b r, BI s -> idx < n_clauses s -> get_clause s idx = a :: b :: r ->
  (forall l, cnt (watch_list s l) idx = 0) -> BI (add_watch b idx (add_watch a idx s)).
Proof.
  intros s idx a b r H Hidx Hc Hfresh. set (s2 := add_watch b idx (add_watch a idx s)).
  assert (asg_eq s s2) as EA by (unfold s2; eapply asg_eq_trans; apply add_watch_asg).
  apply (BI_dbframe s _ H EA).
  - unfold s2, add_watch. rewrite !n_clauses_set_watch_list. reflexivity.
  - intros r0. unfold s2, add_watch. rewrite !get_clause_set_watch_list. reflexivity.
  - unfold s2. apply db_range_add_watch, db_range_add_watch. exact (proj2 (bi_ti s H)).
  - intros l cj. unfold s2.
    assert (n_clauses (add_watch b idx (add_watch a idx s)) = n_clauses s) as En by (unfold add_watch; rewrite !n_clauses_set_watch_list; reflexivity).
    assert (get_clause (add_watch b idx (add_watch a idx s)) cj = get_clause s cj) as Eg by (unfold add_watch; rewrite !get_clause_set_watch_list; reflexivity).
    rewrite En, Eg. pose proof (cnt_add_watch_le b idx (add_watch a idx s) l cj) as Q1. pose proof (cnt_add_watch_le a idx s l cj) as Q2.
    pose proof (bi_wle s H l cj) as Q3. destruct (Nat.eq_dec idx cj) as [E|E].
    + (* the two new entries are what pos01 counts; lia takes the conditionals as they stand *)
      subst cj. rewrite Hfresh in Q2. destruct (Nat.ltb_spec idx (n_clauses s)); [|lia]. rewrite Hc. unfold pos01.
      rewrite eq_dec_eqb in Q1, Q2. lia.
    + destruct (Z.eq_dec l b); destruct (Z.eq_dec l a); lia.
  - unfold s2. apply big_ok_add_watch, big_ok_add_watch. exact (bi_big s H).
Qed.

Lemma In_nth_upd_app : forall {X} (L : list (list X)) i j e x,
  In x (nth j (upd L i (nth i L [] ++ [e])) []) -> In x (nth j L []) \/ (i = j /\ x = e).
Proof.
  intros X L i j e x H. destruct (Nat.eq_dec i j) as [E|E].
  - subst j. destruct (Nat.lt_ge_cases i (length L)) as [Q|Q].
    + rewrite nth_upd_eq in H by exact Q. apply in_app_or in H. destruct H as [H|[H|[]]]; auto.
    + rewrite nth_overflow in H by (rewrite upd_length; exact Q). contradiction.
  - rewrite nth_upd_neq in H by exact E. auto.
Qed.

Lemma implications_big_add1 : forall a b idx s fl p, In p (implications (big_add1 a b idx s) fl) ->
  In p (implications s fl) \/ (fl = a /\ p = (b, idx)).
Proof.
  intros a b idx s fl p H. unfold implications, big_add1 in *. destruct (lpos a) eqn:Ea; destruct (lpos fl) eqn:Ef; simpl in H; auto.
  - destruct (In_nth_upd_app _ _ _ _ _ H) as [Q|[Q1 Q2]]; [left; exact Q | right; split; [apply slot_eq; congruence | exact Q2]].
  - destruct (In_nth_upd_app _ _ _ _ _ H) as [Q|[Q1 Q2]]; [left; exact Q | right; split; [apply slot_eq; congruence | exact Q2]].
Qed.

Lemma get_clause_big_add1 : forall a b idx s r, get_clause (big_add1 a b idx s) r = get_clause s r.
Proof. intros. unfold big_add1, get_clause. destruct (lpos a); reflexivity. Qed.
Lemma n_clauses_big_add1 : forall a b idx s, n_clauses (big_add1 a b idx s) = n_clauses s.
Proof. intros. unfold big_add1, n_clauses. destruct (lpos a); reflexivity. Qed.
Lemma watch_list_big_add1 : forall a b idx s l, watch_list (big_add1 a b idx s) l = watch_list s l.
Proof. intros. unfold big_add1, watch_list. destruct (lpos a); reflexivity. Qed.
Lemma nv_big_add1 : forall a b idx s, nv (big_add1 a b idx s) = nv s.
Proof. intros. unfold big_add1, nv. destruct (lpos a); reflexivity. Qed.

Lemma db_range_big_add1 : forall a b idx s, db_range s -> lit_in (nv s) b -> db_range (big_add1 a b idx s).
Proof.
  intros a b idx s [D1 D2 D3 D4 D5] Hb. unfold big_add1. destruct (lpos a); constructor; unfold nv in *; simpl; auto;
    (apply Forall_upd; [assumption|]; apply Forall_app; split; [apply Forall_nth_default; [assumption | constructor] | constructor; [exact Hb | constructor]]).
Qed.

Lemma BI_big_add : forall s idx a b, BI s -> idx < n_clauses s -> get_clause s idx = [a; b] -> BI (big_add a b idx s).
Proof.
  intros s idx a b H Hidx Hc. unfold big_add. set (s1 := big_add1 a b idx s). set (s2 := big_add1 b a idx s1).
  assert (asg_eq s s2) as EA by (unfold s2, s1; eapply asg_eq_trans; apply big_add1_asg).
  assert (clause_in (nv s) [a; b]) as Hin by (rewrite <- Hc; apply get_clause_in; exact (proj2 (bi_ti s H))).
  inversion Hin as [|? ? Ha Hin']; subst. inversion Hin' as [|? ? Hb _]; subst.
  apply (BI_dbframe s _ H EA).
  - unfold s2, s1. rewrite !n_clauses_big_add1. reflexivity.
  - intros r. unfold s2, s1. rewrite !get_clause_big_add1. reflexivity.
  - unfold s2. apply db_range_big_add1; [unfold s1; apply db_range_big_add1; [exact (proj2 (bi_ti s H)) | exact Hb]|].
    unfold s1. rewrite nv_big_add1. exact Ha.
  - intros l cj. unfold s2, s1. rewrite !watch_list_big_add1, !n_clauses_big_add1, !get_clause_big_add1. exact (bi_wle s H l cj).
  - intros fl implied ci Hi. unfold s2, s1 in *. rewrite !n_clauses_big_add1, !get_clause_big_add1.
    destruct (implications_big_add1 _ _ _ _ _ _ Hi) as [Q|[Q1 Q2]].
    + destruct (implications_big_add1 _ _ _ _ _ _ Q) as [Q'|[Q1 Q2]].
      * exact (bi_big s H fl implied ci Q').
      * injection Q2 as Q2 Q3. subst. split; [exact Hidx | left; exact Hc].
    + injection Q2 as Q2 Q3. subst. split; [exact Hidx | right; exact Hc].
Qed.

(* learned.append(c); attach *)
Lemma BI_append_attach : forall c k s, BI s -> clause_in (nv s) c -> (forall l, In l c -> l <> 0%Z) ->
  BI (attach c (n_clauses s) (append_learned c k s)).
Proof.
  intros c k s H Hc Hnz. pose proof (BI_append_learned c k s H Hc Hnz) as H1.
  assert (n_clauses s < n_clauses (append_learned c k s)) as Hidx by (rewrite n_clauses_append; lia).
  pose proof (get_clause_append_new c k s) as Hg.
  unfold attach. destruct c as [|a [|b [|x r]]]; try exact H1.
  - apply BI_big_add; assumption.
  - apply (BI_add_watch2 _ _ a b (x :: r)); auto.
    intros l. change (watch_list (append_learned (a :: b :: x :: r) k s) l) with (watch_list s l).
    pose proof (bi_wle s H l (n_clauses s)) as Q. destruct (Nat.ltb_spec (n_clauses s) (n_clauses s)); lia.
Qed.
