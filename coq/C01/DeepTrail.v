(* C01 deep model - invariant (T): vals / trail / trail_lim / levels / prop_head are consistent.
   The invariant trail_inv and its preservation by assign, unassign_to, a decision (push_lim + assign), set_head and by
   every operation that leaves the assignment part alone (asg_eq). *)
From Coq Require Import List Arith Lia.
Import ListNotations.
From SV Require Import C01.SatSpec C01.Machine C01.DeepCdcl C01.DeepBase.
Close Scope Z_scope.
Open Scope nat_scope.

(* level of the trail entry at Python position pos: number of decision marks at or below it *)
Definition lvl_at (lim : list nat) (pos : nat) : nat := length (filter (fun l => l <=? pos) lim).

Definition lim_sorted (lim : list nat) : Prop :=
  forall i j, i <= j -> j < length lim -> nth i lim 0 <= nth j lim 0.

Record trail_inv (s : st) : Prop := mkTI {
  ti_nodup : NoDup (s_trail s);                                         (* every variable at most once on the trail *)
  ti_assigned : forall v, val_of s v <> None <-> In v (s_trail s);       (* assigned iff on the trail *)
  ti_head : s_head s <= length (s_trail s);
  ti_sorted : lim_sorted (s_lim s);
  ti_lim_le : forall l, In l (s_lim s) -> l <= length (s_trail s);
  ti_levels : forall tr1 v tr2, s_trail s = tr1 ++ v :: tr2 -> level_of s v = lvl_at (s_lim s) (length tr2);
  ti_len_levels : length (s_levels s) = length (s_vals s);
  ti_len_reasons : length (s_reasons s) = length (s_vals s)
}.

Lemma trail_inv_asg_eq : forall s s', asg_eq s s' -> trail_inv s -> trail_inv s'.
Proof.
  intros s s' E H. pose proof E as (E1 & E2 & E3 & E4 & E5 & E6 & E7). destruct H.
  constructor; unfold val_of, level_of in *; rewrite ?E1, ?E2, ?E3, ?E4, ?E5, ?E6; auto.
Qed.

Lemma trail_var_in_range : forall s v, trail_inv s -> In v (s_trail s) -> v < length (s_vals s).
Proof. intros s v H Hin. apply val_of_range. apply (ti_assigned s H). exact Hin. Qed.

Lemma lvl_at_all : forall lim pos, (forall l, In l lim -> l <= pos) -> lvl_at lim pos = length lim.
Proof.
  induction lim as [|x r IH]; intros pos H; unfold lvl_at in *; simpl; [reflexivity|].
  assert (x <= pos) as Hx by (apply H; left; reflexivity).
  apply Nat.leb_le in Hx. rewrite Hx. simpl. f_equal. apply IH. intros l Hl. apply H. right. exact Hl.
Qed.

Lemma lvl_at_app : forall a b pos, lvl_at (a ++ b) pos = lvl_at a pos + lvl_at b pos.
Proof. intros a b pos. unfold lvl_at. rewrite filter_app, app_length. reflexivity. Qed.

Lemma lvl_at_none : forall lim pos, (forall l, In l lim -> pos < l) -> lvl_at lim pos = 0.
Proof.
  induction lim as [|x r IH]; intros pos H; unfold lvl_at in *; simpl; [reflexivity|].
  assert (pos < x) as Hx by (apply H; left; reflexivity).
  destruct (Nat.leb_spec x pos); [lia|]. apply IH. intros l Hl. apply H. right. exact Hl.
Qed.

Lemma lvl_at_firstn : forall lim k pos, lim_sorted lim -> k < length lim -> pos < nth k lim 0 ->
  lvl_at (firstn k lim) pos = lvl_at lim pos.
Proof.
  intros lim k pos Hs Hk Hpos. rewrite <- (firstn_skipn k lim) at 2. rewrite lvl_at_app.
  rewrite (lvl_at_none (skipn k lim)); [lia|].
  intros l Hl. destruct (In_nth _ _ 0 Hl) as [j [Hj Hx]]. rewrite skipn_length in Hj. rewrite nth_skipn in Hx. subst l.
  apply (Nat.lt_le_trans _ _ _ Hpos). apply Hs; lia.
Qed.

Lemma lim_sorted_firstn : forall lim k, lim_sorted lim -> lim_sorted (firstn k lim).
Proof.
  intros lim k Hs i j Hij Hj. rewrite firstn_length in Hj.
  rewrite !nth_firstn' by lia. apply Hs; lia.
Qed.

Lemma lim_sorted_snoc : forall lim x, lim_sorted lim -> (forall l, In l lim -> l <= x) -> lim_sorted (lim ++ [x]).
Proof.
  intros lim x Hs Hle i j Hij Hj. rewrite app_length in Hj. simpl in Hj.
  destruct (Nat.lt_ge_cases j (length lim)) as [L|L].
  - rewrite !app_nth1 by lia. apply Hs; lia.
  - assert (j = length lim) by lia. subst j.
    pose proof (nth_middle lim [] x 0) as Q.
    destruct (Nat.lt_ge_cases i (length lim)) as [L2|L2].
    + rewrite Q. rewrite app_nth1 by lia. apply Hle. apply nth_In. exact L2.
    + assert (i = length lim) by lia. subst i. lia.
Qed.

Lemma val_of_assign : forall s v b r w, v < length (s_vals s) ->
  val_of (assign v b r s) w = if v =? w then Some b else val_of s w.
Proof.
  intros s v b r w Hv. unfold val_of, assign. simpl.
  destruct (Nat.eqb_spec v w) as [E|E].
  - subst w. apply nth_upd_eq. exact Hv.
  - apply nth_upd_neq. exact E.
Qed.

Lemma level_of_assign : forall s v b r w, v < length (s_levels s) ->
  level_of (assign v b r s) w = if v =? w then cur_level s else level_of s w.
Proof.
  intros s v b r w Hv. unfold level_of, assign. simpl.
  destruct (Nat.eqb_spec v w) as [E|E].
  - subst w. apply nth_upd_eq. exact Hv.
  - apply nth_upd_neq. exact E.
Qed.

Lemma assign_trail_cases : forall s v b r tr1 w tr2, trail_inv s -> val_of s v = None ->
  s_trail (assign v b r s) = tr1 ++ w :: tr2 ->
  (w = v /\ tr2 = s_trail s) \/ (w <> v /\ exists tr1', s_trail s = tr1' ++ w :: tr2).
Proof.
  intros s v b r tr1 w tr2 H Hnone E. simpl in E. destruct tr1 as [|x tr1']; simpl in E; injection E as E1 E2; [left; auto|].
  right. split; [|exists tr1'; exact E2]. intros C. subst w.
  apply (ti_assigned s H v); [|exact Hnone]. rewrite E2. apply in_or_app. right. left. reflexivity.
Qed.

Lemma assign_trail_inv : forall s v b r, trail_inv s -> val_of s v = None -> v < length (s_vals s) ->
  trail_inv (assign v b r s).
Proof.
  intros s v b r H Hnone Hv.
  constructor.
  - simpl. constructor; [|exact (ti_nodup s H)]. intros Hin. apply (ti_assigned s H) in Hin. congruence.
  - intros w. rewrite val_of_assign by exact Hv. simpl.
    destruct (Nat.eqb_spec v w) as [E|E].
    + split; [intros _; left; exact E | intros _; discriminate].
    + rewrite (ti_assigned s H w). split; [intros Hin; right; exact Hin | intros [Hc|Hin]; [congruence | exact Hin]].
  - simpl. apply Nat.le_le_succ_r. exact (ti_head s H).
  - simpl. exact (ti_sorted s H).
  - simpl. intros l Hl. apply Nat.le_le_succ_r. exact (ti_lim_le s H l Hl).
  - intros tr1 w tr2 Heq.
    rewrite level_of_assign by (rewrite (ti_len_levels s H); exact Hv).
    change (s_lim (assign v b r s)) with (s_lim s).
    destruct (assign_trail_cases s v b r tr1 w tr2 H Hnone Heq) as [[Ew Etr]|[Ew [tr1' Etr]]].
    + subst w tr2. rewrite Nat.eqb_refl. unfold cur_level. symmetry. apply lvl_at_all. exact (ti_lim_le s H).
    + destruct (Nat.eqb_spec v w) as [E|E]; [congruence|]. exact (ti_levels s H tr1' w tr2 Etr).
  - simpl. rewrite !upd_length. exact (ti_len_levels s H).
  - simpl. rewrite !upd_length. exact (ti_len_reasons s H).
Qed.

Lemma unwind_spec : forall k vals phase tr vals' phase' tr',
  unwind k vals phase tr = (vals', phase', tr') ->
  exists popped, tr = popped ++ tr' /\ length popped = Nat.min k (length tr) /\ length vals' = length vals
    /\ (forall v, In v popped -> nth v vals' None = None)
    /\ (forall v, ~ In v popped -> nth v vals' None = nth v vals None).
Proof.
  induction k as [|k IH]; intros vals phase tr vals' phase' tr' H.
  - simpl in H. injection H as H1 H2 H3. subst. exists []. simpl. repeat split; auto. intros v [].
  - destruct tr as [|x tr0].
    + simpl in H. injection H as H1 H2 H3. subst. exists []. simpl. repeat split; auto. intros v [].
    + simpl in H. apply IH in H. destruct H as [popped (E & L & LV & Hin & Hout)].
      rewrite upd_length in LV. exists (x :: popped). simpl. split; [rewrite E; reflexivity|]. split; [rewrite L; reflexivity|].
      split; [exact LV|]. split.
      * intros v [Hv|Hv]; [|apply Hin; exact Hv].
        subst v. destruct (in_dec Nat.eq_dec x popped) as [I|I]; [apply Hin; exact I|].
        rewrite (Hout x I). rewrite nth_upd_default. rewrite Nat.eqb_refl. reflexivity.
      * intros v Hv. assert (x <> v /\ ~ In v popped) as [Hx Hp] by (split; intros C; apply Hv; [left|right]; auto).
        rewrite (Hout v Hp). apply nth_upd_neq. exact Hx.
Qed.

Lemma unassign_to_spec : forall s level, trail_inv s ->
  exists popped,
    s_trail s = popped ++ s_trail (unassign_to level s)
    /\ s_levels (unassign_to level s) = s_levels s /\ s_reasons (unassign_to level s) = s_reasons s
    /\ s_lim (unassign_to level s) = firstn level (s_lim s)
    /\ s_head (unassign_to level s) = Nat.min (s_head s) (length (s_trail (unassign_to level s)))
    /\ (forall v, In v popped -> val_of (unassign_to level s) v = None)
    /\ (forall v, ~ In v popped -> val_of (unassign_to level s) v = val_of s v)
    /\ (level < length (s_lim s) -> length (s_trail (unassign_to level s)) = nth level (s_lim s) 0)
    /\ (length (s_lim s) <= level -> popped = []).
Proof.
  intros s level HT. unfold unassign_to.
  destruct (unwind _ (s_vals s) (s_phase s) (s_trail s)) as [[vals' phase'] tr'] eqn:EU.
  apply unwind_spec in EU. destruct EU as [popped (E & L & _ & Hin & Hout)].
  rewrite Nat.min_l in L by apply Nat.le_sub_l. exists popped. unfold val_of. simpl. repeat split; auto; intros Q.
  - rewrite (proj2 (Nat.ltb_lt _ _) Q) in L.
    assert (nth level (s_lim s) 0 <= length (s_trail s)) as Hle by (apply (ti_lim_le s HT), nth_In, Q).
    assert (length (s_trail s) = length popped + length tr') as Q0 by (rewrite E; apply app_length).
    clear - L Hle Q0. lia.
  - rewrite (proj2 (Nat.ltb_ge _ _) Q), Nat.sub_diag in L. apply length_zero_iff_nil. exact L.
Qed.

Lemma unassign_to_nvals : forall s level, length (s_vals (unassign_to level s)) = length (s_vals s).
Proof.
  intros s level. unfold unassign_to.
  destruct (unwind _ (s_vals s) (s_phase s) (s_trail s)) as [[vals' phase'] tr'] eqn:EU.
  apply unwind_spec in EU. destruct EU as [popped (_ & _ & LV & _)]. exact LV.
Qed.

Lemma unassign_to_trail_inv : forall s level, trail_inv s -> trail_inv (unassign_to level s).
Proof.
  intros s level H. destruct (unassign_to_spec s level H) as [popped (E & EL & ER & ELim & EH & Hin & Hout & Hlt & Hge)].
  pose proof (ti_nodup s H) as ND. rewrite E in ND.
  constructor.
  - exact (NoDup_app_l _ _ ND).
  - intros v. destruct (in_dec Nat.eq_dec v popped) as [I|I].
    + rewrite (Hin v I). split; [congruence|]. intros Q. exfalso. exact (NoDup_app_disjoint _ _ _ ND I Q).
    + rewrite (Hout v I), (ti_assigned s H v), E.
      split; [intros Q; apply in_app_or in Q; destruct Q; [contradiction|assumption] | intros Q; apply in_or_app; right; exact Q].
  - rewrite EH. apply Nat.le_min_r.
  - rewrite ELim. apply lim_sorted_firstn. exact (ti_sorted s H).
  - rewrite ELim. intros l Hl. destruct (Nat.lt_ge_cases level (length (s_lim s))) as [Q|Q].
    + rewrite (Hlt Q). destruct (In_nth _ _ 0 Hl) as [j [Hj Hx]]. rewrite firstn_length in Hj. apply Nat.min_glb_lt_iff in Hj.
      rewrite nth_firstn' in Hx by apply Hj. subst l. apply (ti_sorted s H); [apply Nat.lt_le_incl, Hj | exact Q].
    + rewrite firstn_all2 in Hl by exact Q. rewrite (Hge Q) in E. simpl in E. rewrite <- E. exact (ti_lim_le s H l Hl).
  - intros tr1 v tr2 Heq. unfold level_of. rewrite EL, ELim. fold (level_of s v).
    rewrite (ti_levels s H (popped ++ tr1) v tr2) by (rewrite E, Heq, app_assoc; reflexivity).
    destruct (Nat.lt_ge_cases level (length (s_lim s))) as [Q|Q]; [|rewrite firstn_all2 by exact Q; reflexivity].
    symmetry. apply lvl_at_firstn; [exact (ti_sorted s H) | exact Q|]. rewrite <- (Hlt Q). exact (app_cons_length_lt _ _ _ _ Heq).
  - rewrite EL, unassign_to_nvals. exact (ti_len_levels s H).
  - rewrite ER, unassign_to_nvals. exact (ti_len_reasons s H).
Qed.

Lemma level_le_cur : forall s v, trail_inv s -> In v (s_trail s) -> level_of s v <= cur_level s.
Proof.
  intros s v HT Hin. destruct (in_split _ _ Hin) as [tr1 [tr2 E]]. rewrite (ti_levels s HT tr1 v tr2 E).
  unfold lvl_at, cur_level. apply filter_length_le'.
Qed.

(* a decision: trail_lim.append(len(trail)), then assign *)
Lemma push_lim_trail_inv : forall s, trail_inv s -> trail_inv (push_lim s).
Proof.
  intros s H. constructor; simpl; try (destruct H; assumption). (* left: the fields that mention trail_lim *)
  - apply lim_sorted_snoc; [exact (ti_sorted s H) | exact (ti_lim_le s H)].
  - intros l Hl. apply in_app_or in Hl. destruct Hl as [Hl|[Hl|[]]]; [exact (ti_lim_le s H l Hl) | rewrite <- Hl; apply Nat.le_refl].
  - intros tr1 v tr2 Heq. unfold level_of. simpl. fold (level_of s v).
    rewrite (ti_levels s H tr1 v tr2 Heq). rewrite lvl_at_app.
    unfold lvl_at at 3. simpl. rewrite (proj2 (Nat.leb_gt _ _) (app_cons_length_lt _ _ _ _ Heq)). symmetry. apply Nat.add_0_r.
Qed.

Lemma decide_trail_inv : forall s v b, trail_inv s -> val_of s v = None -> v < length (s_vals s) ->
  trail_inv (assign v b None (push_lim s)).
Proof.
  intros s v b H Hn Hv. apply assign_trail_inv; [apply push_lim_trail_inv; exact H | exact Hn | exact Hv].
Qed.

Lemma set_head_trail_inv : forall s h, trail_inv s -> h <= length (s_trail s) -> trail_inv (set_head s h).
Proof. intros s h H Hh. destruct H. constructor; simpl; auto. Qed.
