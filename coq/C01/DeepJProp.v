(* C01 deep model - propagate preserves coverage (W) and J; when it reports a conflict, what is left of J is JC. *)
From Coq Require Import List ZArith Lia.
Import ListNotations.
From SV Require Import C01.DeepCdcl C01.DeepBase C01.DeepTrail C01.DeepTrailProp C01.DeepAnalyze C01.DeepWatch C01.DeepReason
  C01.DeepReasonProp C01.DeepJ C01.DeepJOps.
Close Scope Z_scope.
Open Scope nat_scope.

Lemma arr_len_bump : forall s, arr_len s -> arr_len (bump_confl s).
Proof. intros s H. exact H. Qed.

Lemma BI_lit_in : forall s ci l, BI s -> In l (get_clause s ci) -> lvar l < nv s.
Proof.
  intros s ci l H Hl. pose proof (get_clause_in s ci (proj2 (bi_ti s H))) as Q. unfold clause_in in Q. rewrite Forall_forall in Q. exact (Q l Hl).
Qed.

(* W (arr_len, cov_all) and Jx through an assignment *)
Lemma WJ_assign : forall s v b r (X : nat -> Z -> Z -> Prop), trail_inv s -> val_of s v = None -> v < length (s_vals s) ->
  arr_len s /\ cov_all s /\ Jx s X -> arr_len (assign v b r s) /\ cov_all (assign v b r s) /\ Jx (assign v b r s) X.
Proof.
  intros s v b r X HT Hn Hv (HA & HC & HJ).
  split; [apply arr_len_assign; exact HA|]. split; [apply cov_all_assign | apply Jx_assign]; assumption.
Qed.

(* a clause that violates J is still ahead in the watch list of fl / has fl on position 0 or 1 *)
Definition JW (fl : Z) (i : nat) (s : st) : Prop :=
  Jx s (fun ci _ _ => exists j, i <= j < length (watch_list s fl) /\ nth j (watch_list s fl) 0 = ci).
Definition JF (fl : Z) (s : st) : Prop := Jx s (fun _ a b => a = fl \/ b = fl).

(* the invariants of the watch loop for the false literal fl: JWI at index i of its watch list (J up to the clauses still ahead),
   DI when the list is done (J holds again), CI when a conflict is reported (JC) *)
Definition JWI (fl : Z) (i : nat) (s : st) : Prop := WI fl s /\ arr_len s /\ cov_all s /\ JW fl i s.
Definition CI (fl : Z) (s : st) : Prop := WI fl s /\ arr_len s /\ cov_all s /\ JC s.
Definition DI (fl : Z) (s : st) : Prop := WI fl s /\ arr_len s /\ cov_all s /\ J s.

Lemma JF_JC : forall fl s, level_of s (lvar fl) = cur_level s -> JF fl s -> JC s.
Proof. intros fl s Hl H. eapply Jx_weaken; [|exact H]. intros ci a b [Q|Q]; subst; [left | right]; exact Hl. Qed.

Lemma JW_JF : forall fl i s, watch_le s -> JW fl i s -> JF fl s.
Proof.
  intros fl i s HW HJ cj a b r H1 H2 H3 H4. destruct (HJ cj a b r H1 H2 H3 H4) as [j [Q1 Q2]].
  assert (In cj (watch_list s fl)) as Hin by (rewrite <- Q2; apply nth_In; lia).
  destruct (watch_le_member s fl cj HW Hin) as [_ (a2 & b2 & r2 & Hg & Hab)]. rewrite Hg in H2. injection H2 as E1 E2 E3. subst. exact Hab.
Qed.

Lemma JW_done : forall fl i s, length (watch_list s fl) <= i -> JW fl i s -> J s.
Proof. intros fl i s Hd HJ cj a b r H1 H2 H3 H4. destruct (HJ cj a b r H1 H2 H3 H4) as [j [Q _]]. lia. Qed.

(* the clause at index i does not violate J when its first literal is not false *)
Lemma JW_next : forall fl i s a r, get_clause s (nth i (watch_list s fl) 0) = a :: fl :: r -> lit_value s a <> Some false ->
  JW fl i s -> JW fl (S i) s.
Proof.
  intros fl i s a r Hc Ha HJ cj a' b' r' H1 H2 H3 H4. destruct (HJ cj a' b' r' H1 H2 H3 H4) as [j [Q1 Q2]]. exists j. split; [|exact Q2].
  destruct (Nat.eq_dec j i) as [E|E]; [|lia]. exfalso. subst j. rewrite Q2, H2 in Hc. injection Hc as E1 E2 E3. subst a'. exact (Ha (proj1 H3)).
Qed.

Lemma swap01_two : forall c a b r, swap01 c = a :: b :: r -> c = b :: a :: r.
Proof. intros [|x [|y t]] a b r H; simpl in H; try discriminate. injection H as E1 E2 E3. subst. reflexivity. Qed.

Lemma wnorm_JW : forall fl i s s1 ci a r, wnorm fl i s s1 ci a r -> arr_len s -> cov_all s -> JW fl i s ->
  arr_len s1 /\ cov_all s1 /\ JW fl i s1.
Proof.
  intros fl i s s1 ci a r (Hi & Eci & Hci & Hc & [E|E] & Hw) HA HC HJ; [subst s1; auto|].
  split; [subst s1; apply arr_len_set_clause; exact HA|]. split; [subst s1; apply cov_all_swap01; assumption|].
  assert (asg_eq s s1) as EA by (subst s1; apply set_clause_asg).
  intros cj a' b' r' Hcj Hg Ha Hb. rewrite Hw.
  assert (n_clauses s1 = n_clauses s) as En by (subst s1; apply n_clauses_set_clause). rewrite En in Hcj.
  apply (fp_asg_eq _ _ _ EA) in Ha. apply (fp_asg_eq _ _ _ EA) in Hb.
  destruct (Nat.eq_dec cj ci) as [Q|Q].
  - subst cj. rewrite E in Hg. rewrite get_clause_set_clause_eq in Hg by exact Hci. apply swap01_two in Hg.
    exact (HJ ci b' a' r' Hcj Hg Hb Ha).
  - rewrite E in Hg. rewrite get_clause_set_clause_neq in Hg by exact Q. exact (HJ cj a' b' r' Hcj Hg Ha Hb).
Qed.

(* the watch of clause ci moves to x, which is not false: the clause no longer violates J, and the last entry of the
   list of fl takes its place at index i *)
Lemma JW_move : forall s fl x i ci c a rest', i < length (watch_list s fl) -> ci = nth i (watch_list s fl) 0 -> x <> fl ->
  ci < n_clauses s -> c = a :: x :: rest' -> is_false (lit_value s x) = false -> JW fl i s ->
  JW fl i (add_watch x ci (set_watch_list (set_clause s ci c) fl (remove_swap_last (watch_list s fl) i))).
Proof.
  intros s fl x i ci c a rest' Hi Eci Hx Hci Ec Hnf HJ cj a' b' r' H1 H2 H3 H4.
  destruct (moved_frame s fl x i ci c) as (N & G & EA & _). rewrite N in H1. rewrite G in H2.
  apply (fp_asg_eq _ _ _ EA) in H3. apply (fp_asg_eq _ _ _ EA) in H4.
  rewrite (watch_list_moved_fl s fl x i ci c Hi Eci Hx), length_remove_swap_last.
  destruct (Nat.eq_dec cj ci) as [Q|Q].
  - exfalso. subst cj c. rewrite get_clause_set_clause_eq in H2 by exact Hci. injection H2 as E1 E2 E3. subst b'.
    rewrite (proj1 H4) in Hnf. discriminate.
  - rewrite get_clause_set_clause_neq in H2 by exact Q. destruct (HJ cj a' b' r' H1 H2 H3 H4) as [j [Q1 Q2]].
    assert (j <> i) as Hj by (intros C; subst j; congruence).
    destruct (Nat.eq_dec j (length (watch_list s fl) - 1)) as [Q3|Q3].
    + exists i. split; [lia|]. rewrite nth_remove_swap_last by lia. rewrite Nat.eqb_refl, <- Q3. exact Q2.
    + exists j. split; [lia|]. rewrite nth_remove_swap_last by lia. destruct (Nat.eqb_spec i j); [lia | exact Q2].
Qed.

Lemma watch_step_JWI : forall fl i s, JWI fl i s ->
  match watch_step fl i s with
  | WDone => DI fl s
  | WNext s' => JWI fl (S i) s'
  | WStay s' => JWI fl i s'
  | WConf s' _ => CI fl s'
  end.
Proof.
  intros fl i s (HW & HA & HC & HJ).
  pose proof (watch_step_wcase fl i s (bi_wle s (proj1 HW))) as C. pose proof (wcase_WI fl i s _ HW C) as HWI.
  destruct C as [Hd | s1 ci a r Hn Ht | s1 ci a r j Hn Ht Hj Hnf | s1 ci a r Hn Hall Ha | s1 ci a r Hn Hall Ha];
    [exact (conj HW (conj HA (conj HC (JW_done fl i s Hd HJ))))|..];
    destruct (wnorm_WI _ _ _ _ _ _ _ HW Hn) as [(HB1 & Hf1 & Hl1) _];
    destruct (wnorm_JW _ _ _ _ _ _ _ Hn HA HC HJ) as (HA1 & HC1 & HJ1); destruct Hn as (Hi & Eci & _ & Hc & _ & Hw);
    rewrite <- Hw in Hi, Eci; rewrite Eci in Hc.
  - split; [exact HWI|]. split; [exact HA1|]. split; [exact HC1|]. apply (JW_next fl i s1 a r Hc); [|exact HJ1].
    intros Q. rewrite Q in Ht. discriminate.
  - assert (nth j r 0%Z <> fl) as Hx by (intros Q; rewrite Q, Hf1 in Hnf; discriminate).
    assert (ci < n_clauses s1) as Hci1.
    { destruct (watch_le_member s1 fl ci (bi_wle s1 HB1)) as [Q _]; [rewrite Eci; apply nth_In; exact Hi | exact Q]. }
    assert (lvar (nth j r 0%Z) < slot_len s1 (nth j r 0%Z)) as Hxr.
    { rewrite slot_len_nv by exact HA1. apply (BI_lit_in s1 ci); [exact HB1|]. rewrite Eci, Hc. right. right. apply nth_In. exact Hj. }
    rewrite <- Eci in Hc. split; [exact HWI|]. split; [|split].
    + apply arr_len_add_watch, arr_len_set_watch_list, arr_len_set_clause. exact HA1.
    + apply (cov_all_move s1 fl _ i ci _ Hi Eci Hx a r (upd r j fl)); auto; [exact (bi_wle s1 HB1) | intros Q; rewrite Q in Hj; inversion Hj].
    + apply (JW_move s1 fl _ i ci _ a (upd r j fl)); auto.
  - split; [exact (proj1 HWI)|]. change (arr_len s1 /\ cov_all s1 /\ JC s1).   (* bump_confl only counts *)
    split; [exact HA1|]. split; [exact HC1|].
    apply (JF_JC fl); [exact Hl1|]. exact (JW_JF fl i s1 (bi_wle s1 HB1) HJ1).
  - split; [exact HWI|]. unfold assign_lit. apply (WJ_assign s1 _ _ _ (fun cj _ _ => exists j, S i <= j < length (watch_list s1 fl) /\ nth j (watch_list s1 fl) 0 = cj)).
    + exact (proj1 (bi_ti s1 HB1)).
    + unfold lit_value in Ha. destruct (val_of s1 (lvar a)); [discriminate | reflexivity].
    + apply (BI_lit_in s1 ci); [exact HB1|]. rewrite Eci, Hc. left. reflexivity.
    + split; [exact HA1|]. split; [exact HC1|]. apply (JW_next fl i s1 a r Hc); [|exact HJ1]. rewrite Ha. discriminate.
Qed.

(* the watch loop with an invariant indexed by the position, and separate conclusions for `list done` (D) and `conflict` (C) *)
Lemma prop_watch_inv3 : forall (I : nat -> st -> Prop) (C D : st -> Prop) fl,
  (forall i s, I i s -> match watch_step fl i s with
                        | WDone => D s | WNext s' => I (S i) s' | WStay s' => I i s' | WConf s' _ => C s' end) ->
  forall fuel i s s' r, I i s -> prop_watch fuel fl i s = Some (s', r) -> match r with None => D s' | Some _ => C s' end.
Proof.
  intros I C D fl Hstep. induction fuel as [|f IH]; intros i s s' r HI E; simpl in E; [discriminate|].
  pose proof (Hstep i s HI) as Hp. destruct (watch_step fl i s) as [|s1|s1|s1 ci].
  - injection E as E1 E2. subst. exact Hp.
  - eapply IH; eauto.
  - eapply IH; eauto.
  - injection E as E1 E2. subst. exact Hp.
Qed.

Lemma prop_watch_JWI : forall fuel fl i s s' r, JWI fl i s -> prop_watch fuel fl i s = Some (s', r) ->
  match r with None => DI fl s' | Some _ => CI fl s' end.
Proof. intros fuel fl i s s' r. apply (prop_watch_inv3 (JWI fl) (CI fl) (DI fl) fl). apply watch_step_JWI. Qed.

Lemma prop_bin_J : forall fl imps done s s' r, WI fl s -> arr_len s -> cov_all s -> JF fl s ->
  implications s fl = done ++ imps -> (forall p, In p done -> lit_value s (fst p) = Some true) ->
  prop_bin imps s = (s', r) ->
  match r with
  | Some _ => CI fl s'
  | None => WI fl s' /\ arr_len s' /\ cov_all s' /\ JF fl s'
            /\ (forall p, In p (implications s' fl) -> lit_value s' (fst p) = Some true)
  end.
Proof.
  intros fl. induction imps as [|[implied ci] imps IH]; intros done s s' r HW HA HC HJ Himp Hdone E.
  - simpl in E. injection E as E1 E2. subst. split; [exact HW|]. split; [exact HA|]. split; [exact HC|]. split; [exact HJ|].
    intros p Hp. apply Hdone. rewrite Himp, app_nil_r in Hp. exact Hp.
  - assert (forall p, In p [(implied, ci)] -> In p (implications s fl)) as Hsub1.
    { intros p [Q|[]]. subst p. rewrite Himp. apply in_or_app. right. left. reflexivity. }
    pose proof HW as (HB & Hf & Hl). rewrite (app_assoc done [(implied, ci)] imps : done ++ (implied, ci) :: imps = _) in Himp.
    simpl in E. destruct (val_of s (lvar implied)) as [b|] eqn:EV.
    + destruct (Bool.eqb b (lpos implied)) eqn:EB.
      * apply (IH (done ++ [(implied, ci)]) s s' r); auto.
        intros p Hp. apply in_app_or in Hp. destruct Hp as [Hp|[Hp|[]]]; [apply Hdone; exact Hp|]. subst p. simpl.
        unfold lit_value. rewrite EV, EB. reflexivity.
      * injection E as E1 E2. subst s' r.
        destruct (prop_bin_WI fl [(implied, ci)] s (bump_confl s) (Some ci) HW Hsub1) as [HW1 _].
        { simpl. rewrite EV, EB. reflexivity. }
        split; [exact HW1|]. change (arr_len s /\ cov_all s /\ JC s).   (* bump_confl only counts *)
        split; [exact HA|]. split; [exact HC | exact (JF_JC fl s Hl HJ)].
    + destruct (prop_bin_WI fl [(implied, ci)] s (assign_lit implied (Some ci) s) None HW Hsub1) as [HW1 _].
      { simpl. rewrite EV. reflexivity. }
      pose proof (proj1 (bi_ti s HB)) as HT.
      destruct (bi_big s HB fl implied ci (Hsub1 _ (or_introl eq_refl))) as [Hci Hc].
      assert (lvar implied < length (s_vals s)) as Hra by (apply (BI_lit_in s ci); [exact HB | destruct Hc as [Q|Q]; rewrite Q; simpl; auto]).
      destruct (WJ_assign s (lvar implied) (lpos implied) (Some ci) _ HT EV Hra (conj HA (conj HC HJ))) as (HA1 & HC1 & HJ1).
      apply (IH (done ++ [(implied, ci)]) (assign_lit implied (Some ci) s) s' r); auto.
      intros p Hp. unfold assign_lit. apply in_app_or in Hp. destruct Hp as [Hp|[Hp|[]]].
      * pose proof (Hdone p Hp) as Q. rewrite lit_value_assign_other; [exact Q|].
        intros C. apply lit_value_assigned in Q. rewrite C in Q. contradiction.
      * subst p. simpl. rewrite lit_value_assign_same by auto. destruct (lpos implied); reflexivity.
Qed.

(* after the implication list: a clause that still violates J is watched on fl *)
Lemma JF_to_JW : forall fl s, cov_all s -> JF fl s ->
  (forall p, In p (implications s fl) -> lit_value s (fst p) = Some true) -> JW fl 0 s.
Proof.
  intros fl s HC HJ Htrue cj a b r H1 H2 H3 H4.
  pose proof (HC cj H1) as Q. unfold covered in Q. rewrite H2 in Q.
  assert (pos01 (a :: b :: r) fl <> 0) as Hpos.
  { unfold pos01. destruct (HJ cj a b r H1 H2 H3 H4); subst; rewrite Z.eqb_refl; lia. }
  destruct Q as [Q|[_ [Q2 Q3]]].
  - pose proof (Q fl) as Q'.
    assert (In cj (watch_list s fl)) as Hin by (apply (count_occ_In Nat.eq_dec); unfold cnt in Q'; lia).
    destruct (In_nth _ _ 0 Hin) as [j [Hj Ej]]. exists j. split; [lia | exact Ej].
  - (* a binary clause in the list of fl: its other literal is true *)
    exfalso. destruct (HJ cj a b r H1 H2 H3 H4); subst.
    + pose proof (Htrue _ Q2) as T. simpl in T. rewrite (proj1 H4) in T. discriminate.
    + pose proof (Htrue _ Q3) as T. simpl in T. rewrite (proj1 H3) in T. discriminate.
Qed.

(* PJ: the bundle BI with W (arr_len, cov_all) and J, as it holds between two trail entries; PC: the same with JC for J, as it
   holds when propagate reports a conflict *)
Definition PJ (s : st) : Prop := BI s /\ arr_len s /\ cov_all s /\ J s.
Definition PC (s : st) : Prop := BI s /\ arr_len s /\ cov_all s /\ JC s.

Lemma head_step_PJ : forall inner s s' r, PJ s -> s_head s < length (s_trail s) -> head_step inner s = Some (s', r) ->
  match r with None => PJ s' | Some _ => PC s' end.
Proof.
  intros inner s s' r (H & HA & HC & HJ) Hlt E. unfold head_step in E.
  destruct (trail_at_split s Hlt) as (tr1 & tr2 & Etr & Ltr). set (v0 := trail_at s (s_head s)) in *.
  set (s1 := set_head s (S (s_head s))) in *.
  assert (BI s1) as H1 by (apply BI_set_head; assumption).
  pose proof (proj1 (bi_ti s H)) as HT.
  assert (In v0 (s_trail s)) as Hv0 by (rewrite Etr; apply in_or_app; right; left; reflexivity).
  assert (val_of s1 v0 <> None) as Hass by (apply (ti_assigned s HT); exact Hv0).
  assert (v0 <> 0) as Hnz by (intros Q; rewrite Q in Hass; apply Hass; exact (bi_v0 s H)).
  set (fl := false_lit_of s1 v0) in *.
  assert (WI fl s1) as HW.
  { split; [exact H1|]. split.
    - apply false_lit_of_false; assumption.
    - unfold fl. rewrite lvar_false_lit_of. change (level_of s1 v0) with (level_of s v0). change (cur_level s1) with (cur_level s).
      apply (hi_level s (bi_head s H) tr1 v0 tr2 Etr). lia. }
  assert (cov_all s1) as HC1 by (apply (cov_all_db_eq s); [apply set_head_db_eq | exact (units_kept_refl s) | exact HC]).
  assert (JF fl s1) as HJ1.
  { intros cj a b r0 Q1 Q2 Q3 Q4. change (get_clause s1 cj) with (get_clause s cj) in Q2.
    assert (a <> 0%Z) as Ha0 by (apply (bi_nz s H cj); rewrite Q2; left; reflexivity).
    assert (b <> 0%Z) as Hb0 by (apply (bi_nz s H cj); rewrite Q2; right; left; reflexivity).
    destruct (fp_set_head s a Ha0 Q3) as [Fa|Fa]; [|left; exact Fa].
    destruct (fp_set_head s b Hb0 Q4) as [Fb|Fb]; [|right; exact Fb].
    exfalso. exact (HJ cj a b r0 Q1 Q2 Fa Fb). }
  destruct (prop_bin (implications s1 fl) s1) as [s2 [ci|]] eqn:EB;
    pose proof (prop_bin_J fl _ [] s1 s2 _ HW HA HC1 HJ1 eq_refl (fun p (F : In p []) => match F with end) EB) as Q.
  - injection E as E1 E2. subst s' r. destruct Q as (Q1 & Q). exact (conj (proj1 Q1) Q).
  - destruct Q as (Q1 & Q2 & Q3 & Q4 & Q5).
    pose proof (prop_watch_JWI inner fl 0 s2 s' r (conj Q1 (conj Q2 (conj Q3 (JF_to_JW fl s2 Q3 Q4 Q5)))) E) as Q7.
    destruct r as [ci|]; destruct Q7 as (R1 & R); exact (conj (proj1 R1) R).
Qed.

Lemma prop_loop_PJ : forall fuel inner s s' c, PJ s -> prop_loop fuel inner s = Some (s', c) ->
  match c with CNone => PJ s' | CAt _ => PC s' | CAssum => False end.
Proof.
  induction fuel as [|f IH]; intros inner s s' c H E; simpl in E; [discriminate|].
  destruct (Nat.ltb_spec (s_head s) (length (s_trail s))) as [L|L].
  - destruct (head_step inner s) as [[s1 [ci|]]|] eqn:EH; [| |discriminate].
    + injection E as E1 E2. subst s' c. exact (head_step_PJ _ _ _ _ H L EH).
    + pose proof (head_step_PJ _ _ _ _ H L EH) as H1. simpl in H1. eapply IH; eauto.
  - injection E as E1 E2. subst s' c. exact H.
Qed.

Lemma prop_assums_PJ : forall A s s' r, assum_ok (nv s) A -> PJ s -> cur_level s = 0 -> prop_assums A s = (s', r) -> PJ s'.
Proof.
  induction A as [|l A IH]; intros s s' r HA H Hc E; simpl in E.
  - injection E as E1 E2. subst. exact H.
  - inversion HA as [|? ? [Hl0 Hl] HA']; subst. destruct H as (HB & HW).
    destruct (val_of s (lvar l)) as [b|] eqn:EV.
    + destruct (Bool.eqb b (lpos l)).
      * apply (IH s s' r HA'); [exact (conj HB HW) | exact Hc | exact E].
      * injection E as E1 E2. subst. exact (conj (BI_bump_confl s HB) HW).   (* bump_confl only counts *)
    + apply (IH (assign_lit l None s) s' r); auto; unfold assign_lit.
      * rewrite nv_assign. exact HA'.
      * split; [apply BI_assign; [exact HB | exact EV | exact Hl | apply lvar_nonzero; exact Hl0 | discriminate | intros _; left; exact Hc]|].
        apply WJ_assign; [exact (proj1 (bi_ti s HB)) | exact EV | exact Hl | exact HW].
Qed.

Theorem propagate_PJ : forall fuel A s s' c, assum_ok (nv s) A -> PJ s -> propagate fuel A s = Some (s', c) ->
  match c with CNone => PJ s' | CAt _ => PC s' | CAssum => True end.
Proof.
  intros fuel A s s' c HA H E. unfold propagate in E.
  destruct (Nat.eqb_spec (cur_level s) 0) as [Hc|Hc].
  - destruct (prop_assums A s) as [s1 [|]] eqn:EA.
    + injection E as E1 E2. subst. exact Logic.I.
    + pose proof (prop_assums_PJ _ _ _ _ HA H Hc EA) as H1. pose proof (prop_loop_PJ _ _ _ _ _ H1 E) as Q. destruct c; auto.
  - pose proof (prop_loop_PJ _ _ _ _ _ H E) as Q. destruct c; auto.
Qed.
