(* C02 on the faithful model - a measure that strictly decreases at every iteration of `while True:`:
     rank = lexicographic (solution_limit - #solutions, max_conflicts - conflicts, conflict pending?, level | #unassigned)
   flattened with the bounds  conflicts-part <= max_conflicts, level <= n_vars, #unassigned <= n_vars. *)
From Coq Require Import List ZArith Bool Lia.
Import ListNotations.
From SV Require Import C01.DeepCdcl C01.DeepBase C01.DeepTrail C01.DeepTrailProp C01.DeepAnalyze C01.DeepWatch
  C01.DeepReason C01.DeepReasonProp C01.DeepRunOps C01.DeepReduce C01.DeepRun C01.DeepJRun C01.Deep2Total.
Close Scope Z_scope.
Open Scope nat_scope.

(* LV (levels have variables): every decision level 1..cur_level has a trail variable of that level; so cur_level <= n_vars *)
Definition LV (s : st) : Prop := forall j, 1 <= j <= cur_level s -> exists v, In v (s_trail s) /\ level_of s v = j.

Lemma LV_zero : forall s, cur_level s = 0 -> LV s.
Proof. intros s H j Hj. lia. Qed.

Lemma LV_bound : forall s, LV s -> cur_level s <= length (s_trail s).
Proof.
  intros s H. rewrite <- (seq_length (cur_level s) 1). rewrite <- (map_length (level_of s) (s_trail s)).
  apply NoDup_incl_length; [apply seq_NoDup|]. intros j Hj. apply in_seq in Hj. destruct (H j ltac:(lia)) as [v [Hv Hl]].
  apply in_map_iff. exists v. auto.
Qed.

Lemma LV_ext : forall s s', trail_inv s -> ext s s' -> LV s -> LV s'.
Proof.
  intros s s' HT [_ [e Et] El Ev Elv] H j Hj. unfold cur_level in Hj. rewrite El in Hj. destruct (H j Hj) as [v [Hv Hl]].
  exists v. split; [rewrite Et; apply in_or_app; right; exact Hv|]. rewrite Elv; [exact Hl|]. apply (ti_assigned s HT). exact Hv.
Qed.

Lemma LV_asg_eq : forall s s', asg_eq s s' -> LV s -> LV s'.
Proof.
  intros s s' EA H j Hj. rewrite (asg_eq_cur_level _ _ EA) in Hj. destruct (H j Hj) as [v [Hv Hl]]. exists v.
  destruct EA as (_ & E2 & _ & E4 & _). rewrite E4. split; [exact Hv|]. unfold level_of. rewrite E2. exact Hl.
Qed.

Lemma LV_unassign_to : forall s k, trail_inv s -> LV s -> LV (unassign_to k s).
Proof.
  intros s k HT H. destruct (Nat.lt_ge_cases k (cur_level s)) as [L|L].
  - intros j Hj. rewrite cur_level_unassign_to in Hj by lia. destruct (H j ltac:(lia)) as [v [Hv Hl]].
    destruct (proj1 (unassign_to_stays_or_goes s k v HT Hv L) ltac:(lia)) as [Q _]. exists v. split; [exact Q|].
    destruct (unassign_to_spec s k HT) as [popped (_ & EL & _)]. unfold level_of. rewrite EL. exact Hl.
  - destruct (unassign_to_spec s k HT) as [popped (Etr & EL & _ & ELim & _ & _ & _ & _ & Hge)]. unfold cur_level in L.
    rewrite (Hge L) in Etr. simpl in Etr. intros j Hj. unfold cur_level in Hj. rewrite ELim, firstn_all2 in Hj by lia.
    destruct (H j Hj) as [v [Hv Hl]]. exists v. rewrite <- Etr. split; [exact Hv|]. unfold level_of. rewrite EL. exact Hl.
Qed.

Lemma LV_assign : forall s v b r, trail_inv s -> val_of s v = None -> LV s -> LV (assign v b r s).
Proof. intros s v b r HT Hn H. apply (LV_ext s); [exact HT | apply ext_assign; exact Hn | exact H]. Qed.

Lemma LV_decide : forall s v b, trail_inv s -> val_of s v = None -> v < length (s_vals s) -> LV s -> LV (assign v b None (push_lim s)).
Proof.
  intros s v b HT Hn Hr H j Hj.
  assert (cur_level (assign v b None (push_lim s)) = S (cur_level s)) as Hc by (unfold cur_level; simpl; rewrite app_length; simpl; lia).
  rewrite Hc in Hj. destruct (Nat.eq_dec j (S (cur_level s))) as [E|E].
  - exists v. split; [left; reflexivity|]. rewrite level_of_assign by (simpl; rewrite (ti_len_levels s HT); exact Hr).
    rewrite Nat.eqb_refl. subst j. unfold cur_level. simpl. rewrite app_length. simpl. lia.
  - destruct (H j ltac:(lia)) as [w [Hw Hl]]. exists w. split; [right; exact Hw|].
    unfold level_of, assign. simpl. rewrite nth_upd_neq; [exact Hl|]. intros C. subst w. apply (ti_assigned s HT) in Hw. contradiction.
Qed.

Lemma length_ins_sorted : forall {X} (key : X -> nat * nat) x l, length (ins_sorted key x l) = S (length l).
Proof. intros X key x l. induction l as [|y l IH]; simpl; [reflexivity|]. destruct (key_le (key y) (key x)); simpl; rewrite ?IH; reflexivity. Qed.

Lemma length_fold_ins : forall {X} (key : X -> nat * nat) l acc,
  length (fold_left (fun a x => ins_sorted key x a) l acc) = length acc + length l.
Proof. intros X key l. induction l as [|x l IH]; intros acc; simpl; [lia|]. rewrite IH, length_ins_sorted. lia. Qed.

Lemma length_keep_loop : forall half l i, length (keep_loop half i l) <= length l.
Proof. intros half l. induction l as [|[k c] l IH]; intros i; simpl; [lia|]. destruct ((i <? half) || (k <=? 3)); simpl; pose proof (IH (S i)); lia. Qed.

Lemma n_clauses_attach_all : forall cs i s, n_clauses (attach_all cs i s) = n_clauses s.
Proof. induction cs as [|c cs IH]; intros i s; simpl; [reflexivity|]. rewrite IH. exact (proj1 (attach_frame c i s)). Qed.

Lemma n_clauses_reduce_db : forall s, n_clauses (reduce_db s) <= n_clauses s.
Proof.
  intros s. unfold reduce_db. destruct (length (s_learned s) <? reduce_threshold); [lia|]. rewrite n_clauses_attach_all.
  unfold n_clauses. simpl. rewrite map_length. apply Nat.add_le_mono_l.
  eapply Nat.le_trans; [apply length_keep_loop|]. unfold stable_sort. rewrite length_fold_ins. simpl. rewrite combine_length. apply Nat.le_min_r.
Qed.

Definition unassigned (n : nat) (s : st) : nat := length (filter (fun v => is_none (val_of s v)) (seq 1 n)).

Lemma unassigned_le : forall n s, unassigned n s <= n.
Proof. intros n s. unfold unassigned. rewrite <- (seq_length n 1) at 2. apply filter_length_le'. Qed.

Lemma filter_length_mono : forall {X} (f g : X -> bool) l, (forall x, In x l -> g x = true -> f x = true) ->
  length (filter g l) <= length (filter f l).
Proof.
  intros X f g l. induction l as [|x l IH]; intros H; simpl; [lia|].
  assert (length (filter g l) <= length (filter f l)) as Q by (apply IH; intros y Hy; apply H; right; exact Hy).
  destruct (g x) eqn:Eg; [rewrite (H x (or_introl eq_refl) Eg); simpl; lia | destruct (f x); simpl; lia].
Qed.

Lemma filter_length_strict : forall {X} (f g : X -> bool) l x, (forall y, In y l -> g y = true -> f y = true) ->
  In x l -> f x = true -> g x = false -> length (filter g l) < length (filter f l).
Proof.
  intros X f g l. induction l as [|y l IH]; intros x H Hin Hf Hg; [contradiction|]. simpl.
  assert (length (filter g l) <= length (filter f l)) as Q by (apply filter_length_mono; intros z Hz; apply H; right; exact Hz).
  destruct Hin as [E|Hin].
  - subst y. rewrite Hf, Hg. simpl. lia.
  - pose proof (IH x (fun z Hz => H z (or_intror Hz)) Hin Hf Hg) as Q2.
    destruct (g y) eqn:Eg; [rewrite (H y (or_introl eq_refl) Eg); simpl; lia | destruct (f y); simpl; lia].
Qed.

Lemma unassigned_ext : forall n s s', ext s s' -> unassigned n s' <= unassigned n s.
Proof.
  intros n s s' E. unfold unassigned. apply filter_length_mono. intros v _ Hv.
  destruct (val_of s v) as [b|] eqn:Q; [|reflexivity]. rewrite (ex_val s s' E v) in Hv by congruence. rewrite Q in Hv. discriminate.
Qed.

Lemma unassigned_decide : forall n s v b, 1 <= v <= n -> val_of s v = None -> v < length (s_vals s) ->
  unassigned n (assign v b None (push_lim s)) < unassigned n s.
Proof.
  intros n s v b Hv Hn Hr. unfold unassigned. apply (filter_length_strict _ _ _ v).
  - intros w _ Hw. rewrite val_of_assign in Hw by exact Hr. destruct (v =? w); [discriminate | exact Hw].
  - apply in_seq. lia.
  - rewrite Hn. reflexivity.
  - rewrite val_of_assign by exact Hr. rewrite Nat.eqb_refl. reflexivity.
Qed.

(* the components of the measure: M = max_conflicts, Lim = solution_limit as numbers; mu_a = models still to find,
   mu_b = conflict budget left, mu_f = a conflict is pending, mu_d = the level (conflict pending) or the unassigned variables;
   rank4 flattens them, injectively while b <= M, f <= 1, d <= n *)
Definition Mof (P : params) : nat := Z.to_nat (p_max_conflicts P).
Definition Limof (P : params) : nat := Z.to_nat (p_limit P).
Definition mu_a (P : params) (L : loop) : nat := Limof P - length (l_sols L).
Definition mu_b (P : params) (L : loop) : nat := Mof P - Z.to_nat (s_confl (l_st L)).
Definition mu_f (L : loop) : nat := match l_conflict L with CNone => 0 | _ => 1 end.
Definition mu_d (P : params) (L : loop) : nat :=
  match l_conflict L with CNone => unassigned (p_nvars P) (l_st L) | _ => cur_level (l_st L) end.

Definition rank4 (M n a b f d : nat) : nat := ((a * S M + b) * 2 + f) * S n + d.
Definition rank (P : params) (L : loop) : nat := rank4 (Mof P) (p_nvars P) (mu_a P L) (mu_b P L) (mu_f L) (mu_d P L).

Lemma rank4_lt : forall M n a b f d a' b' f' d', b' <= M -> f' <= 1 -> d' <= n ->
  (a' < a \/ (a' = a /\ (b' < b \/ (b' = b /\ (f' < f \/ (f' = f /\ d' < d)))))) ->
  rank4 M n a' b' f' d' < rank4 M n a b f d.
Proof. intros M n a b f d a' b' f' d' Hb Hf Hd H. unfold rank4. nia. Qed.

Lemma rank4_le : forall M n a b f d, a <= 0 + a -> b <= M -> f <= 1 -> d <= n -> forall A, a <= A ->
  rank4 M n a b f d <= ((A * S M + M) * 2 + 1) * S n + n.
Proof. intros. unfold rank4. nia. Qed.

(* how the first two components move *)
Lemma sols_drop : forall (lim : Z) n, (Z.of_nat (S n) < lim)%Z -> Z.to_nat lim - S n < Z.to_nat lim - n.
Proof. intros. lia. Qed.

Lemma budget_drop : forall M c : Z, (0 <= c)%Z -> (c + 1 < M)%Z -> Z.to_nat M - Z.to_nat (c + 1) < Z.to_nat M - Z.to_nat c.
Proof. intros. lia. Qed.

Lemma learn_facts : forall s ci lc bt lbd, BI s -> LV s -> conflict_ok s ci -> analyze s ci = Some (lc, bt, lbd) ->
  bt < cur_level s /\ LV (learn_st s lc bt lbd) /\ s_confl (learn_st s lc bt lbd) = s_confl s
  /\ n_clauses (learn_st s lc bt lbd) = S (n_clauses s).
Proof.
  intros s ci lc bt lbd H HLV Hconf E. unfold learn_st.
  destruct (learn_mid s ci lc bt lbd H Hconf E) as (u & ll' & Ell & Hbt & H2 & EA & N2 & _ & Hun & _ & _ & _ & _ & Hc2).
  set (s1 := unassign_to bt s) in *. set (s2 := attach lc (n_clauses s1) (append_learned lc lbd s1)) in *.
  pose proof (proj1 (bi_ti s H)) as HT. split; [exact Hbt|].
  assert (LV s2) as HLV2 by (apply (LV_asg_eq s1); [exact EA | apply LV_unassign_to; assumption]).
  assert (s_confl s2 = s_confl s) as Cf2 by (unfold s2; rewrite confl_attach; simpl; apply confl_unassign_to).
  rewrite Ell. split; [|split; [exact Cf2 | exact (eq_trans N2 (f_equal S (db_eq_n_clauses _ _ (unassign_to_db_eq bt s))))]].
  (* the asserted variable was unassigned: the witnesses of the levels up to bt are other variables *)
  intros j Hj. change (cur_level (assign_lit (false_lit_of s u) (Some (n_clauses s1)) s2)) with (cur_level s2) in Hj.
  destruct (HLV2 j Hj) as [w [Hw Hl]]. exists w. split; [right; exact Hw|].
  unfold assign_lit, level_of, assign. simpl. rewrite lvar_false_lit_of. rewrite nth_upd_neq; [exact Hl|].
  intros C. subst w. apply (ti_assigned s2 (proj1 (bi_ti s2 H2))) in Hw. contradiction.
Qed.

Lemma blk_closed_facts : forall s n, BI s -> nv s = S n ->
  cur_level (blk_closed s n) = 0 /\ s_confl (blk_closed s n) = s_confl s /\ n_clauses (blk_closed s n) = S (n_clauses s).
Proof.
  intros s n HB Hnv. split; [exact (proj1 (proj2 (blk_s2 s n HB Hnv)))|].
  split; [unfold blk_closed; simpl; rewrite confl_unassign_to; reflexivity | exact (proj1 (blk_nclauses2 s n HB Hnv))].
Qed.

Lemma confl_blk_s4 : forall s n, s_confl (blk_s4 s n) = s_confl s.
Proof.
  intros s n. unfold blk_s4, blk_s3.
  destruct (2 <=? _); rewrite ?confl_add_watch; destruct (blk_open s n =? 1); simpl; rewrite ?confl_unassign_to; reflexivity.
Qed.

(* the state x on which an iteration calls propagate: same conflict count, at most one clause more, and below the old state in
   the last component of the measure (nothing to say after a recorded model: the first component decreases) *)
Lemma step_prop_measure : forall P L x, LI P L -> LV (l_st L) -> step_prop P L x ->
  LV x /\ s_confl x = s_confl (l_st L) /\ n_clauses x <= S (n_clauses (l_st L))
  /\ match kind_of P L with
     | KBlock => (Z.of_nat (S (length (l_sols L))) < p_limit P)%Z
     | KDecide => l_conflict L = CNone /\ unassigned (p_nvars P) x < unassigned (p_nvars P) (l_st L)
     | KConflict => (exists ci, l_conflict L = CAt ci) /\ cur_level x < cur_level (l_st L)
     end.
Proof.
  intros P L x HL HLV Hp. pose proof HL as [HB Hnv HA Hdec Hconf]. pose proof (proj1 (bi_ti _ HB)) as HT. unfold kind_of.
  destruct Hp as [EC EAll Hlim Ho | v orc EC EAll _ Hv Hvn | ci lc bt lbd lv EC Hd EA _ _ _ | ci lc bt lbd EC Hd EA _];
    rewrite EC, ?EAll.
  - destruct (blk_s4_BI (l_st L) (p_nvars P) HB Hnv Ho) as (_ & Hc4 & _).
    split; [apply LV_zero; exact Hc4|]. split; [apply confl_blk_s4|].
    split; [rewrite (bj_n4 (l_st L) (p_nvars P) HB Hnv Ho); apply Nat.le_refl | exact Hlim].
  - assert (v < nv (l_st L)) as Hvr by (rewrite Hnv; lia).
    split; [apply LV_decide; assumption|]. split; [reflexivity|]. split; [apply Nat.le_succ_diag_r|].
    split; [reflexivity | apply unassigned_decide; assumption].
  - destruct (learn_facts (l_st L) ci lc bt lbd HB HLV (LI_conflict_ok P L ci HL EC Hd) EA) as (Hbt & _ & Cf3 & N3).
    assert (cur_level (reduce_db (unassign_to 0 (learn_st (l_st L) lc bt lbd))) = 0) as Hc5.
    { rewrite (asg_eq_cur_level _ _ (reduce_db_asg _)). apply cur_level_unassign_to. lia. }
    split; [apply LV_zero; exact Hc5|]. split; [rewrite confl_reduce_db, confl_unassign_to; exact Cf3|].
    split; [|split; [exists ci; reflexivity | rewrite Hc5; lia]].
    eapply Nat.le_trans; [apply n_clauses_reduce_db|]. rewrite (db_eq_n_clauses _ _ (unassign_to_db_eq 0 _)), N3. apply Nat.le_refl.
  - pose proof (LI_conflict_ok P L ci HL EC Hd) as Hcf.
    destruct (learn_facts (l_st L) ci lc bt lbd HB HLV Hcf EA) as (Hbt & LV3 & Cf3 & N3).
    destruct (learn_BI (l_st L) ci lc bt lbd HB Hcf EA) as (_ & Hc3 & _). change (cur_level (learn_st (l_st L) lc bt lbd) = bt) in Hc3.
    split; [exact LV3|]. split; [exact Cf3|]. split; [rewrite N3; apply Nat.le_refl|].
    split; [exists ci; reflexivity | rewrite Hc3; exact Hbt].
Qed.

(* LT (what the termination argument needs of the loop variables besides LI): LV, conflicts >= 0, luby_idx >= 1 *)
Record LT (L : loop) : Prop := mkLT {
  lt_lv : LV (l_st L);
  lt_confl : (0 <= s_confl (l_st L))%Z;
  lt_luby : (1 <= l_luby_idx L)%Z
}.

Definition lexlt (P : params) (L' L : loop) : Prop :=
  mu_a P L' < mu_a P L
  \/ (mu_a P L' = mu_a P L /\ (mu_b P L' < mu_b P L
      \/ (mu_b P L' = mu_b P L /\ (mu_f L' < mu_f L \/ (mu_f L' = mu_f L /\ mu_d P L' < mu_d P L))))).

Lemma after_propagate_LT : forall fuel A x s' c n, BI x -> LV x -> (0 <= s_confl x)%Z -> propagate fuel A x = Some (s', c) ->
  LV s' /\ (0 <= s_confl s')%Z /\ s_confl s' = (s_confl x + match c with CNone => 0 | _ => 1 end)%Z
  /\ n_clauses s' = n_clauses x /\ cur_level s' = cur_level x /\ unassigned n s' <= unassigned n x.
Proof.
  intros fuel A x s' c n H HLV Hc E. destruct (propagate_frame _ _ _ _ _ E) as [EX Ec].
  split; [apply (LV_ext x); [exact (proj1 (bi_ti x H)) | exact EX | exact HLV]|].
  split; [rewrite Ec; destruct c; lia|]. split; [exact Ec|]. split; [exact (ex_n _ _ EX)|].
  split; [unfold cur_level; rewrite (ex_lim _ _ EX); reflexivity | apply unassigned_ext; exact EX].
Qed.

(* after a conflict: either the conflict budget shrinks, or (budget already used up, or no new conflict) the pending flag
   falls, or the level has fallen *)
Lemma conflict_step_lex : forall P L L', l_sols L' = l_sols L -> (exists ci, l_conflict L = CAt ci) ->
  s_confl (l_st L') = (s_confl (l_st L) + match l_conflict L' with CNone => 0 | _ => 1 end)%Z ->
  cur_level (l_st L') < cur_level (l_st L) -> lexlt P L' L.
Proof.
  intros P L L' Es [ci EC] Q3 Q5. right. split; [unfold mu_a; rewrite Es; reflexivity|].
  destruct (Nat.eq_dec (mu_b P L') (mu_b P L)) as [Q|Q].
  - right. split; [exact Q|]. unfold mu_f, mu_d. rewrite EC.
    destruct (l_conflict L'); [left; lia | right; split; [reflexivity | exact Q5] ..].
  - left. unfold mu_b in *. rewrite Q3 in *. destruct (l_conflict L'); lia.
Qed.

Theorem main_step_lex : forall fuel P L L', LI P L -> LT L -> main_step fuel P L = Cont L' ->
  LT L' /\ lexlt P L' L /\ n_clauses (l_st L') <= S (n_clauses (l_st L)).
Proof.
  intros fuel P L L' HL [HLV Hcf Hlu] E.
  destruct (main_step_cont_view fuel P L L' E) as [EC EAll Hlim Ho Est Esols Elu | x Hp EP Esols Elu Hmc].
  - (* the blocking clause is closed at once: one model more *)
    destruct (blk_closed_facts (l_st L) (p_nvars P) (li_bi _ _ HL) (li_nv _ _ HL)) as (Hc2 & Cf2 & N2).
    split; [constructor; rewrite ?Est, ?Elu; [apply LV_zero; exact Hc2 | rewrite Cf2; exact Hcf | exact Hlu]|].
    split; [left; unfold mu_a, Limof; rewrite Esols; exact (sols_drop _ _ Hlim) | rewrite Est, N2; apply Nat.le_refl].
  - destruct (step_prop_BI P L x HL Hp) as [HBx _].
    destruct (step_prop_measure P L x HL HLV Hp) as (LVx & Cfx & Nx & Hk).
    destruct (after_propagate_LT fuel _ x _ _ (p_nvars P) HBx LVx ltac:(rewrite Cfx; exact Hcf) EP) as (Q1 & Q2 & Q3 & Q4 & Q5 & Q6).
    rewrite Cfx in Q3.
    split; [constructor; [exact Q1 | exact Q2 | exact (Z.le_trans _ _ _ Hlu Elu)]|]. split; [|rewrite Q4; exact Nx].
    destruct (kind_of P L).
    + left. unfold mu_a, Limof. rewrite Esols. exact (sols_drop _ _ Hk).
    + (* a decision: a new conflict eats into the budget (it is tested here), otherwise fewer variables are unassigned *)
      destruct Hk as [EC Hun]. right. split; [unfold mu_a; rewrite Esols; reflexivity|].
      unfold mu_b, mu_f, mu_d, Mof. rewrite EC. specialize (Hmc eq_refl). rewrite Q3 in *. destruct (l_conflict L') as [| |cj].
      * right. split; [rewrite Z.add_0_r; reflexivity|]. right. split; [reflexivity | exact (Nat.le_lt_trans _ _ _ Q6 Hun)].
      * left. exact (budget_drop _ _ Hcf Hmc).
      * left. exact (budget_drop _ _ Hcf Hmc).
    + apply conflict_step_lex; [exact Esols | exact (proj1 Hk) | exact Q3 | rewrite Q5; exact (proj2 Hk)].
Qed.
