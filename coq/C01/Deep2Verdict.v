(* C02 on the faithful model - what the Result says about one model m of clauses + assumptions (solve_sat_RV): the pure
   literals the code asserts are pure, the set-up before the loop keeps MI, then main_loop_RV of Deep2Sem.v.  The verdict
   theorems of Props/C02_deep.v are its corollaries; the longest (verdict_complete) is proved here. *)
From Coq Require Import List ZArith Bool Lia.
Import ListNotations.
From SV Require Import C01.SatSpec C01.Machine C01.DeepCdcl C01.DeepBase C01.DeepTrailProp C01.DeepAnalyze C01.DeepReason
  C01.DeepReasonProp C01.DeepRun C01.DeepInit C01.DeepSteps C01.DeepResult C01.RupProofs C01.SatLemmas
  C01.Deep2Sem.
Close Scope Z_scope.
Open Scope nat_scope.

Definition plit (v : nat) (b : bool) : Z := if b then zvar v else (- zvar v)%Z.

(* the pure literals the code may assert: pure in the clauses, variable not assumed *)
Definition pure_lits (cls : cnf) (A : list Z) : list Z :=
  map (fun p => plit (fst p) (snd p))
      (filter (fun p : nat * bool => negb (existsb (fun a => lvar a =? fst p) A)) (find_pure_literals cls (n_vars_of cls))).

Lemma lvar_plit : forall v b, lvar (plit v b) = v.
Proof. intros v [|]; unfold plit; rewrite ?lvar_opp; apply lvar_zvar. Qed.

Lemma lpos_plit : forall v b, 1 <= v -> lpos (plit v b) = b.
Proof. intros v [|] H; unfold plit; [apply lpos_zvar; exact H | apply lpos_opp_zvar]. Qed.

Lemma plit_nonzero : forall v b, 1 <= v -> plit v b <> 0%Z.
Proof. intros v [|] H; unfold plit, zvar; lia. Qed.

Lemma fold_count_ge : forall {X} (f : nat -> X -> nat) l a, (forall b y, b <= f b y) -> a <= fold_left f l a.
Proof. intros X f l. induction l as [|y l IH]; intros a Hf; simpl; [lia|]. pose proof (Hf a y). pose proof (IH (f a y) Hf). lia. Qed.

Lemma fold_count_in : forall {X} (f : nat -> X -> nat) l x a, (forall b y, b <= f b y) -> (forall b, b < f b x) -> In x l ->
  a < fold_left f l a.
Proof.
  intros X f l x. induction l as [|y l IH]; intros a Hf Hx H; simpl; [contradiction|]. destruct H as [E|H].
  - subst y. pose proof (Hx a). pose proof (fold_count_ge f l (f a x) Hf). lia.
  - pose proof (Hf a y). pose proof (IH (f a y) Hf Hx H). lia.
Qed.

(* count_occ_lit is such a fold over the clauses, of such a fold over the literals of a clause *)
Lemma count_occ_lit_pos : forall cls c l, In c cls -> In l c -> 0 < count_occ_lit cls l.
Proof.
  intros cls c l Hc Hl. unfold count_occ_lit.
  assert (forall b (y : Z), b <= (if (y =? l)%Z then S b else b)) as Hstep by (intros b y; destruct (y =? l)%Z; lia).
  apply (fold_count_in _ cls c).
  - intros b d. apply fold_count_ge. exact Hstep.
  - intros b. apply (fold_count_in _ c l); [exact Hstep | intros b'; rewrite Z.eqb_refl; lia | exact Hl].
  - exact Hc.
Qed.

Lemma count0_not_occurs : forall cls l, count_occ_lit cls l = 0 -> occurs l cls = false.
Proof.
  intros cls l H. unfold occurs. destruct (existsb (mem l) cls) eqn:E; [|reflexivity]. exfalso.
  apply existsb_exists in E. destruct E as [c [Hc Hm]]. apply mem_In in Hm. pose proof (count_occ_lit_pos cls c l Hc Hm). lia.
Qed.

Lemma find_pure_spec : forall cls n v b, In (v, b) (find_pure_literals cls n) ->
  1 <= v <= n /\ count_occ_lit cls (- plit v b)%Z = 0 /\ 0 < count_occ_lit cls (plit v b).
Proof.
  intros cls n v b H. unfold find_pure_literals in H. apply in_flat_map in H. destruct H as [w [Hw H]]. apply in_seq in Hw.
  destruct ((0 <? count_occ_lit cls (zvar w)) && (count_occ_lit cls (- zvar w) =? 0)) eqn:E1.
  - destruct H as [H|[]]. injection H as H1 H2. subst. apply andb_prop in E1. destruct E1 as [Q1 Q2].
    apply Nat.ltb_lt in Q1. apply Nat.eqb_eq in Q2. unfold plit. split; [lia | split; assumption].
  - destruct ((0 <? count_occ_lit cls (- zvar w)) && (count_occ_lit cls (zvar w) =? 0)) eqn:E2; [|contradiction].
    destruct H as [H|[]]. injection H as H1 H2. subst. apply andb_prop in E2. destruct E2 as [Q1 Q2].
    apply Nat.ltb_lt in Q1. apply Nat.eqb_eq in Q2. unfold plit. rewrite Z.opp_involutive. split; [lia | split; assumption].
Qed.

Lemma pure_lits_ok : forall cls A, pure_okb cls A (pure_lits cls A) = true.
Proof.
  intros cls A. unfold pure_okb. apply forallb_forall. intros p Hp. unfold pure_lits in Hp. apply in_map_iff in Hp.
  destruct Hp as [[v b] [Ep Hf]]. simpl in Ep. apply filter_In in Hf. destruct Hf as [Hf Hna]. simpl in Hna.
  destruct (find_pure_spec _ _ _ _ Hf) as (Hv & Hneg & Hpos). subst p.
  apply andb_true_intro. split; [apply andb_true_intro; split; [apply andb_true_intro; split|]|].
  - apply negb_true_iff. apply Z.eqb_neq. apply plit_nonzero. lia.
  - apply negb_true_iff. apply count0_not_occurs. exact Hneg.
  - apply negb_true_iff. destruct (mem (- plit v b) (pure_lits cls A)) eqn:E; [|reflexivity]. exfalso. apply mem_In in E.
    unfold pure_lits in E. apply in_map_iff in E. destruct E as [[v' b'] [E Hf']]. simpl in E. apply filter_In in Hf'. destruct Hf' as [Hf' _].
    (* a pure literal occurs, the negation of a pure literal does not *)
    destruct (find_pure_spec _ _ _ _ Hf') as (_ & _ & Hpos'). rewrite E in Hpos'. lia.
  - apply negb_true_iff. apply negb_true_iff in Hna. destruct (existsb (fun a => (Z.abs a =? Z.abs (plit v b))%Z) A) eqn:E; [|reflexivity]. exfalso.
    apply existsb_exists in E. destruct E as [a [Ha Q]]. apply Z.eqb_eq in Q.
    assert (existsb (fun a0 => lvar a0 =? v) A = true) as Q2; [|congruence].
    apply existsb_exists. exists a. split; [exact Ha|]. apply Nat.eqb_eq. rewrite <- (lvar_plit v b). unfold lvar. lia.
Qed.

Lemma assign_as_lit : forall v b r s, 1 <= v -> assign v b r s = assign_lit (plit v b) r s.
Proof. intros v b r s H. unfold assign_lit. rewrite lvar_plit, lpos_plit by exact H. reflexivity. Qed.

Lemma assign_pures_MI : forall m A pl s n, BI s -> lvl0 s -> nv s = S n -> MI m s ->
  (forall v b, In (v, b) pl -> 1 <= v <= n /\ (existsb (fun a => lvar a =? v) A = false -> lit_true m (plit v b) = true)) ->
  MI m (assign_pures A pl s).
Proof.
  intros m A pl. induction pl as [|[v b] pl IH]; intros s n H H0 Hn HM Hpl; simpl; [exact HM|].
  destruct (is_none (val_of s v) && negb (existsb (fun a => lvar a =? v) A)) eqn:E.
  - apply andb_prop in E. destruct E as [E1 E2]. apply negb_true_iff in E2. destruct (Hpl v b (or_introl eq_refl)) as [[Hv1 Hv2] Ht].
    assert (val_of s v = None) as Hvn by (destruct (val_of s v); [discriminate | reflexivity]).
    assert (v < length (s_vals s)) as Hvr by (unfold nv in Hn; lia).
    assert (BI (assign v b None s)) as HBa.
    { apply (BI_assign s v b None H Hvn Hvr); [lia | discriminate | intros _; left; exact H0]. }
    apply (IH (assign v b None s) n HBa H0); [rewrite nv_assign; exact Hn | | intros w c Hw; apply (Hpl w c); right; exact Hw].
    rewrite assign_as_lit by exact Hv1. apply MI_assign_lit; auto.
    + exact (proj1 (bi_ti s H)).
    + rewrite lvar_plit. exact Hvn.
    + rewrite lvar_plit. exact Hvr.
    + apply plit_nonzero. exact Hv1.
  - apply (IH s n H H0 Hn HM). intros w c Hw. apply (Hpl w c). right. exact Hw.
Qed.

Lemma assign_units_MI : forall m ul s s' r n, BI s -> lvl0 s -> nv s = S n -> MI m s ->
  (forall l i, In (l, i) ul -> get_clause s i = [l] /\ i < n_clauses s) -> assign_units ul s = (s', r) ->
  r = false /\ MI m s'.
Proof.
  intros m. induction ul as [|[l i] ul IH]; intros s s' r n H H0 Hn HM Hul E; simpl in E.
  - injection E as E1 E2. subst. auto.
  - destruct (Hul l i (or_introl eq_refl)) as [Hc Hci].
    assert (In l (get_clause s i)) as Hl by (rewrite Hc; left; reflexivity).
    assert (In (get_clause s i) (db s)) as Hdb by (apply get_clause_in_db; exact Hci).
    assert (lit_true m l = true) as Hlt.
    { pose proof (proj1 HM _ Hdb) as Q. rewrite Hc in Q. simpl in Q. rewrite orb_false_r in Q. exact Q. }
    assert (l <> 0%Z) as Hl0 by exact (bi_nz s H i l Hl).
    pose proof (proj1 (bi_ti s H)) as HT.
    destruct (val_of s (lvar l)) as [b|] eqn:EV.
    + destruct (Bool.eqb b (lpos l)) eqn:EB.
      * apply (IH s s' r n H H0 Hn HM); [intros l0 i0 Q; apply Hul; right; exact Q | exact E].
      * exfalso. assert (lit_value s l = Some false) as Hf by (unfold lit_value; rewrite EV, EB; reflexivity).
        rewrite (MI_false0 m s l HT HM H0 Hl0 Hf) in Hlt. discriminate.
    + assert (lvar l < nv s) as Hr.
      { pose proof (get_clause_in s i (proj2 (bi_ti s H))) as Q. unfold clause_in in Q. rewrite Forall_forall in Q. exact (Q l Hl). }
      assert (BI (assign_lit l (Some i) s)) as HBa.
      { unfold assign_lit. apply (BI_assign s (lvar l) (lpos l) (Some i) H EV Hr).
        - apply lvar_nonzero. exact Hl0.
        - intros r0 _ Hlv. unfold lvl0 in H0. lia.
        - discriminate. }
      apply (IH (assign_lit l (Some i) s) s' r n HBa H0); [unfold assign_lit; rewrite nv_assign; exact Hn | | | exact E].
      * apply MI_assign_lit; auto.
      * intros l0 i0 Q. change (get_clause (assign_lit l (Some i) s) i0) with (get_clause s i0).
        change (n_clauses (assign_lit l (Some i) s)) with (n_clauses s). apply Hul. right. exact Q.
Qed.

Lemma MI_init : forall m cls n, models m cls -> MI m (init_state cls n).
Proof.
  intros m cls n Hm. split.
  - intros c Hc. unfold db, init_state in Hc. simpl in Hc. rewrite app_nil_r in Hc. apply Hm. exact Hc.
  - intros l _ Hf _. exfalso. unfold lit_value, val_of, init_state in Hf. cbn [s_vals] in Hf. rewrite nth_repeat in Hf. discriminate.
Qed.

Lemma db_attach_all : forall cs i s, db (attach_all cs i s) = db s.
Proof. intros. unfold db. rewrite orig_attach_all. rewrite (proj1 (learned_attach_all cs i s)). reflexivity. Qed.

Definition init_sem (m : asg) (cls : cnf) (A : list Z) (limit : Z) (ir : init_res) : Prop :=
  match ir with
  | IDone (Done evs r) => RV m (n_vars_of cls) limit r
  | IDone (Err _ _) => True
  | ILoop P L0 => LM m P L0 /\ p_assum P = A /\ p_limit P = limit /\ p_nvars P = n_vars_of cls
  end.

Theorem init_loop_sem : forall m fuel cls A mc mr limit lf orc, valid_input cls A = true ->
  models m cls -> agrees m A -> ((limit <= 1)%Z -> agrees m (pure_lits cls A)) ->
  init_sem m cls A limit (init_loop fuel cls A mc mr limit lf orc).
Proof.
  intros m fuel cls A mc mr limit lf orc Hvalid Hm Hag Hpure. destruct (valid_input_facts cls A Hvalid) as [_ HA].
  assert (n_vars_of cls <> 0) as Hn0.
  { unfold valid_input in Hvalid. apply andb_prop in Hvalid. destruct Hvalid as [_ Hv]. apply Z.ltb_lt in Hv. unfold n_vars_of. lia. }
  unfold init_loop. destruct cls as [|c0 cls0]; [exfalso; apply Hn0; reflexivity|]. set (cls := c0 :: cls0) in *. set (n := n_vars_of cls) in *.
  destruct (Nat.eqb_spec n 0); [contradiction|].
  destruct (existsb is_nilb cls) eqn:Enil.
  { (* an empty clause: m cannot satisfy it *)
    simpl. split; [intros _|split; simpl; discriminate].
    apply existsb_exists in Enil. destruct Enil as [c [Hc Hnil]]. destruct c; [|discriminate]. pose proof (Hm [] Hc) as Q. discriminate. }
  destruct (attach_orig cls 0 [] (init_state cls n)) as [s0 units] eqn:EO.
  destruct (init_prefix cls A limit s0 units Hvalid EO) as (Es0 & H0 & Lv0 & N0 & _ & H1 & L1 & N1 & _ & Hun1).
  fold n in Es0, N0, H1, L1, N1, Hun1. set (s1 := if (limit <=? 1)%Z then assign_pures A (find_pure_literals cls n) s0 else s0) in *.
  assert (MI m s0) as M0.
  { rewrite Es0. apply (MI_asg_db m (init_state cls n)); [apply attach_all_asg | apply db_attach_all | apply MI_init; exact Hm]. }
  assert (MI m s1) as M1.
  { unfold s1. destruct (Z.leb_spec limit 1) as [Hl|Hl]; [|exact M0].
    apply (assign_pures_MI m A _ s0 n H0 Lv0 N0 M0). intros v b Hv. split; [eapply find_pure_range; eauto|]. intros Hna.
    apply (Hpure Hl). unfold pure_lits. apply in_map_iff. exists (v, b). split; [reflexivity|]. apply filter_In. split; [exact Hv|]. simpl. rewrite Hna. reflexivity. }
  destruct (assign_units units s1) as [s2 r2] eqn:EU.
  destruct (assign_units_MI m units s1 s2 r2 n H1 L1 N1 M1 Hun1 EU) as [Er2 M2]. subst r2.
  destruct (assign_units_BI units s1 s2 n H1 L1 N1 (fun l i Q => proj1 (Hun1 l i Q)) EU) as (H2 & L2 & N2).
  assert (assum_ok (nv s2) A) as HA2 by (rewrite N2; exact HA).
  destruct (propagate fuel A s2) as [[s3 c]|] eqn:EP; [|exact Logic.I].
  destruct (propagate_MI m fuel A s2 s3 c HA2 Hag H2 M2 EP) as (M3 & Hna & Hn0c).
  assert (cur_level s3 = 0) as L3 by (unfold cur_level; rewrite (propagate_lim _ _ _ _ _ EP); exact L2).
  destruct c as [| |ci]; [| congruence | exfalso; exact (Hn0c ci eq_refl L3)].
  destruct (luby_val 1) as [lv|]; [|exact Logic.I]. simpl. split; [|auto].
  right. unfold MIok. simpl. split; [exact M3|]. split; [discriminate | intros ci Q; discriminate].
Qed.

Lemma solve_sat_RV : forall m fuel cls A mc mr limit lf orc evs r, valid_input cls A = true ->
  models m cls -> agrees m A -> ((limit <= 1)%Z -> agrees m (pure_lits cls A)) ->
  solve_sat fuel cls A mc mr limit lf orc = Done evs r -> RV m (n_vars_of cls) limit r.
Proof.
  intros m fuel cls A mc mr limit lf orc evs r Hv Hm Hag Hp E. unfold solve_sat in E.
  pose proof (init_loop_sem m fuel cls A mc mr limit lf orc Hv Hm Hag Hp) as HS.
  destruct (init_loop fuel cls A mc mr limit lf orc) as [o|P L0] eqn:EI.
  - subst o. exact HS.
  - destruct HS as (HLM & EA & El & En). rewrite <- En, <- El.
    apply (main_loop_RV m fuel P fuel L0 evs r (init_LI _ _ _ _ _ _ _ _ _ _ Hv EI)); [rewrite EA; exact Hag | exact HLM | exact E].
Qed.

Theorem verdict_complete : forall fuel cls A mc mr limit lf orc evs r, valid_input cls A = true ->
  solve_sat fuel cls A mc mr limit lf orc = Done evs r -> (exists m, models m cls /\ agrees m A) -> d_status r <> MAX_ITER ->
  d_status r = OPTIMAL /\ exists m, d_solution r = Some m /\ models (asg_of m) cls /\ agrees (asg_of m) A.
Proof.
  intros fuel cls A mc mr limit lf orc evs r Hv E [m0 [Hm Hag]] Hmi.
  destruct (pure_ok cls A (pure_lits cls A) m0 (pure_lits_ok cls A) Hm Hag) as (Q1 & Q2 & Q3).
  destruct (solve_sat_RV (force (pure_lits cls A) m0) fuel cls A mc mr limit lf orc evs r Hv Q1 Q2 (fun _ => Q3) E) as (R1 & _ & R3).
  assert (d_status r = OPTIMAL) as Hst by (destruct (d_status r); [reflexivity | exfalso; apply R1; reflexivity | congruence]).
  split; [exact Hst|]. destruct (d_solution r) as [m|] eqn:Es; [|exfalso; exact (R3 Hst eq_refl)].
  exists m. split; [reflexivity|]. exact (proj1 (solve_sat_sound _ _ _ _ _ _ _ _ _ _ Hv E) m Es).
Qed.
