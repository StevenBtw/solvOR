(* C01 / C02 - invariant of the guarded machine, preserved by every accepted event. *)
From Coq Require Import List ZArith Bool.
Import ListNotations.
From SV Require Import C01.SatSpec C01.RupProofs C01.Machine C01.SatLemmas.
Open Scope Z_scope.

(* every accepted non-blocking clause is entailed by N, the assumption units, the pure units and
   the blocking clauses accepted BEFORE it (d is newest first, so d' is "so far") *)
Fixpoint db_entailed (B : cnf) (d : list (clause * bool)) : Prop :=
  match d with
  | [] => True
  | (c, b) :: d' => (b = false -> entails (B ++ blockings d') c) /\ db_entailed B d'
  end.

Fixpoint distinct (ss : list model) : Prop :=
  match ss with
  | [] => True
  | m :: r => (forall m', In m' r -> differ m m') /\ distinct r
  end.

Definition sol_ok (N : cnf) (A : list lit) (m : model) : Prop :=
  wf_model (max_var N) m = true /\ consistent_b m = true /\ models (asg_of m) N /\ agrees (asg_of m) A.

Record Inv (chk : bool) (N : cnf) (A : list lit) (s : state) : Prop := mkInv {
  inv_sols : forall m, In m (sols s) -> sol_ok N A m;
  inv_distinct : distinct (sols s);
  inv_db : chk = true -> db_entailed (base N A (pures s)) (db s);
  inv_pure : pure_okb N A (pures s) = true;
  inv_block_from : forall c, In c (blockings (db s)) -> exists m, In m (sols s) /\ c = map Z.opp m;
  inv_block_all : forall m, In m (if pending s then tl (sols s) else sols s) ->
                  In (map Z.opp m) (blockings (db s));
  inv_pending : pending s = true -> sols s <> [];
  inv_enum_nopure : pending s = false -> sols s <> [] -> pures s = [];
  inv_verdict : match verdict s with
                | Some RInfeasible => (chk = true -> unsat_under N A) /\ sols s = []
                | Some RExhausted => sols s <> [] /\ pending s = false
                                     /\ (chk = true -> forall m, ~ models m (premises N A s))
                | Some RLimit => sols s <> []
                | _ => True
                end
}.

Lemma blockings_cons_false : forall c d, blockings ((c, false) :: d) = blockings d.
Proof. reflexivity. Qed.
Lemma blockings_cons_true : forall c d, blockings ((c, true) :: d) = c :: blockings d.
Proof. reflexivity. Qed.

Lemma db_models : forall B d m, db_entailed B d -> models m B -> models m (blockings d) ->
  models m (map fst d).
Proof.
  intros B d m. induction d as [|[c b] d IH]; intros Hd HB Hbl; [apply models_nil|].
  simpl in Hd. destruct Hd as [Hc Hd]. simpl. apply models_cons.
  destruct b.
  - rewrite blockings_cons_true in Hbl. apply models_cons in Hbl. destruct Hbl as [Hcb Hbl].
    split; [exact Hcb | apply IH; assumption].
  - rewrite blockings_cons_false in Hbl. split; [|apply IH; assumption].
    apply (Hc eq_refl). apply models_app. split; assumption.
Qed.

Lemma entails_mono : forall F G c, (forall x, In x F -> In x G) -> entails F c -> entails G c.
Proof.
  intros F G c Hinc H m Hm. apply H. intros x Hx. apply Hm. apply Hinc. exact Hx.
Qed.

Lemma db_entailed_In : forall B d c, db_entailed B d -> In (c, false) d -> entails (B ++ blockings d) c.
Proof.
  intros B d c. induction d as [|[c0 b0] d IH]; intros Hd Hin; [destruct Hin|].
  simpl in Hd. destruct Hd as [Hc Hd].
  assert (forall x, In x (B ++ blockings d) -> In x (B ++ blockings ((c0, b0) :: d))) as Hinc.
  { intros x Hx. apply in_app_or in Hx. apply in_or_app. destruct Hx as [Hx | Hx]; [left; exact Hx|].
    right. destruct b0; [rewrite blockings_cons_true; right; exact Hx | exact Hx]. }
  destruct Hin as [Heq | Hin].
  - injection Heq as H1 H2. subst c0 b0. apply (entails_mono _ _ _ Hinc). apply Hc. reflexivity.
  - apply (entails_mono _ _ _ Hinc). apply IH; assumption.
Qed.

Lemma models_base : forall m N A P,
  models m (base N A P) <-> models m (units A) /\ models m (units P) /\ models m N.
Proof. intros m N A P. unfold base. rewrite !models_app. reflexivity. Qed.

Lemma premises_models : forall N A s m, db_entailed (base N A (pures s)) (db s) ->
  models m (base N A (pures s)) -> models m (blockings (db s)) -> models m (premises N A s).
Proof.
  intros N A s m Hd HB Hbl. pose proof (db_models _ _ m Hd HB Hbl) as HD.
  apply models_base in HB. destruct HB as [HA [HP HN]].
  unfold premises. rewrite !models_app. repeat split; assumption.
Qed.

(* a model of N under A becomes, with the pure literals forced, a model of the premises
   as long as no blocking clause has been added *)
Lemma refuted_unsat : forall N A s, pure_okb N A (pures s) = true ->
  db_entailed (base N A (pures s)) (db s) -> blockings (db s) = [] ->
  Rup.rup (premises N A s) [] = true -> unsat_under N A.
Proof.
  intros N A s Hpure Hd Hb0 Hrup [m [HmN HmA]].
  destruct (pure_ok N A (pures s) m Hpure HmN HmA) as [HfN [HfA HfP]].
  apply (rup_empty_unsat _ Hrup (force (pures s) m)).
  apply premises_models; [exact Hd | | rewrite Hb0; apply models_nil].
  apply models_base. repeat split; [apply models_units; exact HfA | apply models_units; exact HfP | exact HfN].
Qed.

Lemma init_Inv : forall chk N A, Inv chk N A init_state.
Proof.
  intros chk N A. constructor; simpl; try tauto; try (intros ? []); try discriminate.
Qed.

Lemma guard_some : forall {X} (g : bool) (x y : X), (if g then Some x else None) = Some y -> g = true /\ x = y.
Proof. intros X [|] x y H; [injection H as H; auto | discriminate]. Qed.

Lemma is_nil_true : forall {X} (l : list X), is_nil l = true -> l = [].
Proof. intros X [|x l] H; [reflexivity | discriminate]. Qed.

Lemma step_Inv : forall chk N A limit s e s', Inv chk N A s -> step chk N A limit s e = Some s' -> Inv chk N A s'.
Proof.
  intros chk N A limit s e s' HI Hstep. unfold step in Hstep.
  destruct (verdict s) eqn:Ev; [discriminate|].
  destruct HI as [Hsols Hdist Hdb Hpure Hbf Hba Hpend Hnopure Hverd].
  destruct e as [n pu un asm | c b | m | st].
  - (* EInit *)
    destruct (guard_some _ _ _ Hstep) as [Eg <-]. apply andb_prop in Eg. destruct Eg as [_ Hpu].
    constructor; simpl; try exact Hpu; try tauto; try (intros ? []); try discriminate.
  - destruct b.
    + (* blocking clause *)
      destruct (pending s) eqn:Ep; [|discriminate].
      destruct (sols s) as [|m rest] eqn:Es; [discriminate|].
      destruct (guard_some _ _ _ Hstep) as [Eg <-].
      rewrite !andb_true_iff in Eg. destruct Eg as [[Hc _] Hp0]. apply zlist_eqb_eq in Hc. subst c.
      apply is_nil_true in Hp0.
      (* left: inv_db, inv_block_from, inv_block_all, inv_enum_nopure *)
      constructor; simpl; try assumption; try discriminate; try exact I.
      * intros Hchk. split; [discriminate | exact (Hdb Hchk)].
      * intros c [Heq | Hin].
        -- exists m. split; [left; reflexivity | symmetry; exact Heq].
        -- destruct (Hbf c Hin) as [m0 [H1 H2]]. exists m0. split; assumption.
      * intros m0 [Heq | Hin]; [left; subst; reflexivity | right; apply Hba; exact Hin].
      * intros _ _. exact Hp0.
    + (* learned clause *)
      destruct (guard_some _ _ _ Hstep) as [Eg <-].
      rewrite !andb_true_iff in Eg. destruct Eg as [[_ Hnp] Hrup].
      apply negb_true_iff in Hnp. rewrite Hnp in Hba.
      (* left: inv_db (the new clause passed the RUP check against the premises), inv_enum_nopure *)
      constructor; simpl; try assumption; try discriminate; try exact I.
      * intros Hchk. rewrite Hchk in Hrup. split; [|exact (Hdb Hchk)]. intros _ m Hm.
        apply (rup_sound _ _ Hrup). apply models_app in Hm. destruct Hm as [HB Hbl].
        apply premises_models; [exact (Hdb Hchk) | assumption | assumption].
      * intros _. exact (Hnopure Hnp).
  - (* ESolution *)
    destruct (guard_some _ _ _ Hstep) as [Eg <-].
    rewrite !andb_true_iff in Eg. destruct Eg as [[[[[[_ Hnp] Hwf] Hcons] HN] HA] Hblk].
    apply negb_true_iff in Hnp. rewrite Hnp in Hba.
    (* left: inv_sols, inv_distinct (the new model satisfies the blocking clauses of the earlier ones), inv_block_from *)
    constructor; simpl; try assumption; try discriminate; try exact I.
    + intros m0 [Heq | Hin]; [|apply Hsols; exact Hin].
      subst m0. repeat split; try assumption; [apply models_b_sound | apply agrees_b_sound]; assumption.
    + split; [|exact Hdist]. intros m' Hin.
      apply blocking_differ; [exact (proj1 (proj2 (Hsols m' Hin)))|].
      apply (models_b_sound _ _ Hblk). apply Hba. exact Hin.
    + intros c Hin. destruct (Hbf c Hin) as [m0 [H1 H2]]. exists m0. split; [right; exact H1 | exact H2].
  - (* EVerdict *)
    destruct st.
    + (* OPTIMAL *)
      destruct (pending s) eqn:Ep.
      * destruct (guard_some _ _ _ Hstep) as [Eg <-].
        (* left: inv_verdict *)
        constructor; simpl; try assumption; try (rewrite Ep; assumption).
        exact (Hpend eq_refl).
      * destruct (guard_some _ _ _ Hstep) as [Eg <-].
        rewrite !andb_true_iff in Eg. destruct Eg as [[_ Hnn] Hrup].
        (* left: inv_verdict *)
        constructor; simpl; try assumption.
        split; [|split; [reflexivity|]].
        -- destruct (sols s); [discriminate | discriminate].
        -- intros Hchk m Hm. rewrite Hchk in Hrup. exact (rup_empty_unsat _ Hrup m Hm).
    + (* INFEASIBLE *)
      destruct (guard_some _ _ _ Hstep) as [Eg <-].
      rewrite !andb_true_iff in Eg. destruct Eg as [[Hnp Hs0] Hrup].
      apply negb_true_iff in Hnp. rewrite Hnp in Hba. apply is_nil_true in Hs0.
      (* left: inv_enum_nopure, inv_verdict *)
      constructor; simpl; try assumption; try discriminate.
      * intros _ Hne. exact (Hnopure Hnp Hne).
      * split; [|exact Hs0].
        intros Hchk. rewrite Hchk in Hrup. apply (refuted_unsat N A s Hpure (Hdb Hchk)); [|exact Hrup].
        destruct (blockings (db s)) as [|c0 r] eqn:Eb; [reflexivity|].
        destruct (Hbf c0 (or_introl eq_refl)) as [m0 [Hin _]]. rewrite Hs0 in Hin. destruct Hin.
    + (* MAX_ITER *)
      injection Hstep as Hs'. subst s'.
      constructor; simpl; try assumption. exact I.
Qed.

Lemma run_from_Inv : forall chk N A limit evs s s', Inv chk N A s -> run_from chk N A limit s evs = Some s' -> Inv chk N A s'.
Proof.
  intros chk N A limit evs. induction evs as [|e evs IH]; intros s s' HI Hrun; simpl in Hrun.
  - injection Hrun as Heq. subst. exact HI.
  - destruct (step chk N A limit s e) as [s1|] eqn:Es; [|discriminate].
    apply (IH s1 s'); [|exact Hrun]. exact (step_Inv chk N A limit s e s1 HI Es).
Qed.

Theorem run_Inv : forall chk N A limit evs s, run chk N A limit evs = Some s -> Inv chk N A s.
Proof.
  intros chk N A limit evs s H. exact (run_from_Inv chk N A limit evs init_state s (init_Inv chk N A) H).
Qed.
