(* C01 deep model - reduce_db() (called right after unassign_to(0)) preserves the bundle BI. *)
From Coq Require Import List ZArith Bool Arith Lia.
Import ListNotations.
From SV Require Import C01.SatSpec C01.Machine C01.DeepCdcl C01.DeepBase C01.DeepTrail C01.DeepTrailProp C01.DeepAnalyze
  C01.DeepWatch C01.DeepReason C01.DeepReasonProp C01.DeepRunOps.
Close Scope Z_scope.
Open Scope nat_scope.

Lemma In_ins_sorted : forall {X} (key : X -> nat * nat) x l y, In y (ins_sorted key x l) -> y = x \/ In y l.
Proof.
  intros X key x l. induction l as [|z l IH]; intros y H; simpl in H.
  - destruct H as [H|[]]; auto.
  - destruct (key_le (key z) (key x)).
    + destruct H as [H|H]; [right; left; exact H|]. destruct (IH y H); auto. right. right. assumption.
    + destruct H as [H|H]; auto.
Qed.

Lemma In_fold_ins : forall {X} (key : X -> nat * nat) l acc y,
  In y (fold_left (fun a x => ins_sorted key x a) l acc) -> In y acc \/ In y l.
Proof.
  intros X key l. induction l as [|x l IH]; intros acc y H; simpl in H; [auto|].
  destruct (IH _ _ H) as [Q|Q]; [|right; right; exact Q].
  destruct (In_ins_sorted key x acc y Q) as [Q1|Q1]; [right; left; auto | left; exact Q1].
Qed.

Lemma In_stable_sort : forall {X} (key : X -> nat * nat) l y, In y (stable_sort key l) -> In y l.
Proof. intros X key l y H. unfold stable_sort in H. destruct (In_fold_ins key l [] y H) as [[]|Q]. exact Q. Qed.

Lemma In_keep_loop : forall half l i p, In p (keep_loop half i l) -> In p l.
Proof.
  intros half l. induction l as [|[lbd c] l IH]; intros i p H; simpl in H; [contradiction|].
  destruct ((i <? half) || (lbd <=? 3)); [destruct H as [H|H]; [left; exact H | right; eapply IH; eauto] | right; eapply IH; eauto].
Qed.

Lemma kept_in_learned : forall s c,
  In c (map snd (keep_loop (Nat.div2 (length (stable_sort (fun p : nat * clause => (fst p, length (snd p))) (combine (s_lbd s) (s_learned s)))))
                           0 (stable_sort (fun p : nat * clause => (fst p, length (snd p))) (combine (s_lbd s) (s_learned s))))) ->
  In c (s_learned s).
Proof.
  intros s c H. apply in_map_iff in H. destruct H as [[lbd c'] [E H]]. simpl in E. subst c'.
  apply In_keep_loop in H. apply In_stable_sort in H. eapply in_combine_r. exact H.
Qed.

Lemma get_clause_in_or_nil : forall s r, get_clause s r = [] \/ In (get_clause s r) (db s).
Proof.
  intros s r. destruct (Nat.lt_ge_cases r (n_clauses s)) as [L|L]; [right; apply get_clause_in_db; exact L | left; apply get_clause_overflow; exact L].
Qed.

Lemma nz_of_db : forall s, (forall c, In c (db s) -> forall l, In l c -> l <> 0%Z) -> nz s.
Proof.
  intros s H ci l Hl. destruct (get_clause_in_or_nil s ci) as [Q|Q]; [rewrite Q in Hl; contradiction | exact (H _ Q l Hl)].
Qed.

Lemma watch_zero_slot_empty : forall s l ci, nz s -> watch_le s -> lvar l = 0 -> cnt (watch_list s l) ci = 0.
Proof.
  intros s l ci Hnz HW Hl. assert (l = 0%Z) as El by (unfold lvar in Hl; lia). subst l.
  pose proof (HW 0%Z ci) as Q. destruct (ci <? n_clauses s); [|lia].
  unfold pos01 in Q. destruct (get_clause s ci) as [|a [|b r]] eqn:Ec; try lia.
  assert (a <> 0%Z) by (apply (Hnz ci); rewrite Ec; left; reflexivity).
  assert (b <> 0%Z) by (apply (Hnz ci); rewrite Ec; right; left; reflexivity).
  destruct (Z.eqb_spec a 0); destruct (Z.eqb_spec b 0); try contradiction; lia.
Qed.

Lemma cnt_filter_le : forall f ws x, cnt (filter f ws) x <= cnt ws x.
Proof.
  intros f ws x. induction ws as [|y ws IH]; simpl; [lia|]. unfold cnt in *. destruct (f y); simpl; destruct (Nat.eq_dec y x); lia.
Qed.

Lemma cnt_filter_out : forall f ws x, f x = false -> cnt (filter f ws) x = 0.
Proof.
  intros f ws x Hf. induction ws as [|y ws IH]; simpl; [reflexivity|]. destruct (f y) eqn:E; [|exact IH].
  unfold cnt in *. simpl. destruct (Nat.eq_dec y x); [subst; congruence | exact IH].
Qed.

Lemma nth_filter_tail : forall {X} (f : X -> bool) L j, nth j (filter_tail f L) [] = if j =? 0 then nth 0 L [] else filter f (nth j L []).
Proof.
  intros X f L j. destruct L as [|h t]; simpl.
  - destruct j; reflexivity.
  - destruct j as [|j]; simpl; [reflexivity|].
    destruct (Nat.lt_ge_cases j (length t)) as [Q|Q].
    + rewrite (nth_indep _ [] (filter f []) ) by (rewrite map_length; exact Q). rewrite map_nth. reflexivity.
    + rewrite !nth_overflow; [reflexivity | exact Q | rewrite map_length; exact Q].
Qed.

Lemma nth_map_filter : forall {X} (f : X -> bool) (L : list (list X)) j, nth j (map (filter f) L) [] = filter f (nth j L []).
Proof. intros X f L j. change (@nil X) with (filter f []) at 1. apply map_nth. Qed.

Lemma attach_cases : forall c idx s, attach c idx s = s \/ (exists a b, c = [a; b] /\ attach c idx s = big_add a b idx s)
  \/ (exists a b r, c = a :: b :: r /\ r <> [] /\ attach c idx s = add_watch b idx (add_watch a idx s)).
Proof.
  intros c idx s. unfold attach. destruct c as [|a [|b [|x r]]]; auto.
  - right. left. exists a, b. auto.
  - right. right. exists a, b, (x :: r). split; [reflexivity|]. split; [discriminate|reflexivity].
Qed.

Lemma attach_frame : forall c idx s, n_clauses (attach c idx s) = n_clauses s /\ (forall r, get_clause (attach c idx s) r = get_clause s r)
  /\ (forall l cj, cj <> idx -> cnt (watch_list (attach c idx s) l) cj <= cnt (watch_list s l) cj).
Proof.
  intros c idx s. destruct (attach_cases c idx s) as [E|[(a & b & Ec & E)|(a & b & r & Ec & _ & E)]]; rewrite E.
  - split; [reflexivity|]. split; [reflexivity | intros; apply Nat.le_refl].
  - unfold big_add. rewrite !n_clauses_big_add1. split; [reflexivity|]. split.
    + intros r. rewrite !get_clause_big_add1. reflexivity.
    + intros l cj _. rewrite !watch_list_big_add1. apply Nat.le_refl.
  - split; [unfold add_watch; rewrite !n_clauses_set_watch_list; reflexivity|]. split.
    + intros r0. unfold add_watch. rewrite !get_clause_set_watch_list. reflexivity.
    + intros l cj Hne. pose proof (cnt_add_watch_le b idx (add_watch a idx s) l cj) as Q1. pose proof (cnt_add_watch_le a idx s l cj) as Q2.
      destruct (Nat.eq_dec idx cj); [congruence|]. destruct (Z.eq_dec l b); destruct (Z.eq_dec l a); lia.
Qed.

Lemma BI_attach_fresh : forall c idx s, BI s -> idx < n_clauses s -> get_clause s idx = c ->
  (forall l, cnt (watch_list s l) idx = 0) -> BI (attach c idx s).
Proof.
  intros c idx s H Hidx Hc Hfresh. destruct (attach_cases c idx s) as [E|[(a & b & Ec & E)|(a & b & r & Ec & _ & E)]]; rewrite E.
  - exact H.
  - apply BI_big_add; auto. rewrite Hc. exact Ec.
  - apply (BI_add_watch2 s idx a b r); auto. rewrite Hc. exact Ec.
Qed.

Lemma BI_attach_all : forall cs idx s, BI s -> idx + length cs <= n_clauses s ->
  (forall k, k < length cs -> get_clause s (idx + k) = nth k cs []) ->
  (forall l cj, idx <= cj -> cnt (watch_list s l) cj = 0) -> BI (attach_all cs idx s).
Proof.
  induction cs as [|c cs IH]; intros idx s H Hlen Hget Hfresh; simpl; [exact H|].
  simpl in Hlen. destruct (attach_frame c idx s) as (En & Eg & Ew).
  apply IH.
  - apply BI_attach_fresh; auto.
    + eapply Nat.lt_le_trans; [|exact Hlen]. apply Nat.lt_add_pos_r, Nat.lt_0_succ.
    + rewrite <- (Nat.add_0_r idx) at 1. apply (Hget 0), Nat.lt_0_succ.
  - rewrite En, Nat.add_succ_comm. exact Hlen.
  - intros k Hk. rewrite Eg, Nat.add_succ_comm. apply (Hget (S k)). apply -> Nat.succ_lt_mono. exact Hk.
  - intros l cj Hcj. apply Nat.le_0_r. rewrite <- (Hfresh l cj (Nat.lt_le_incl _ _ Hcj)). apply Ew.
    intros C. subst cj. exact (Nat.lt_irrefl _ Hcj).
Qed.

(* reduce_db before the kept clauses are attached again: `kept` stands in the place of the learned clauses, the indices of learned
   clauses leave the watch lists (of the variables >= 1) and the implication lists *)
Definition shrink (s : st) (kept : list (nat * clause)) : st :=
  mkSt (s_vals s) (s_levels s) (s_reasons s) (s_trail s) (s_lim s) (s_head s) (s_phase s) (s_props s) (s_confl s)
       (s_orig s) (map snd kept) (map fst kept)
       (filter_tail (fun c => c <? length (s_orig s)) (s_wpos s)) (filter_tail (fun c => c <? length (s_orig s)) (s_wneg s))
       (map (filter (fun p : Z * nat => snd p <? length (s_orig s))) (s_bpos s))
       (map (filter (fun p : Z * nat => snd p <? length (s_orig s))) (s_bneg s)).

Lemma shrink_asg : forall s kept, asg_eq s (shrink s kept).
Proof. intros. repeat split. Qed.

Lemma db_shrink : forall s kept, db (shrink s kept) = s_orig s ++ map snd kept.
Proof. reflexivity. Qed.

Lemma get_clause_shrink_orig : forall s kept r, r < length (s_orig s) -> get_clause (shrink s kept) r = get_clause s r.
Proof. intros s kept r Hr. unfold get_clause. simpl. apply Nat.ltb_lt in Hr. rewrite Hr. reflexivity. Qed.

Lemma get_clause_shrink_kept : forall s kept k, get_clause (shrink s kept) (length (s_orig s) + k) = nth k (map snd kept) [].
Proof.
  intros s kept k. unfold get_clause. simpl. rewrite (proj2 (Nat.ltb_ge _ _) (Nat.le_add_r _ _)), Nat.add_comm, Nat.add_sub. reflexivity.
Qed.

Lemma watch_list_shrink : forall s kept l, watch_list (shrink s kept) l
  = if lvar l =? 0 then watch_list s l else filter (fun c => c <? length (s_orig s)) (watch_list s l).
Proof.
  intros s kept l. unfold watch_list, shrink. cbn [s_wpos s_wneg].
  destruct (lpos l); rewrite nth_filter_tail; destruct (Nat.eqb_spec (lvar l) 0) as [E|E]; try rewrite E; reflexivity.
Qed.

Lemma implications_shrink : forall s kept fl, implications (shrink s kept) fl
  = filter (fun p => snd p <? length (s_orig s)) (implications s fl).
Proof. intros s kept fl. unfold implications, shrink. cbn [s_bpos s_bneg]. destruct (lpos fl); apply nth_map_filter. Qed.

(* at level 0 no variable has a reason that counts, so dropping learned clauses is harmless *)
Lemma BI_shrink : forall s kept, BI s -> cur_level s = 0 -> (forall c, In c (map snd kept) -> In c (s_learned s)) ->
  BI (shrink s kept) /\ forall l cj, length (s_orig s) <= cj -> cnt (watch_list (shrink s kept) l) cj = 0.
Proof.
  intros s kept H Hc0 Hk. pose proof (bi_ti s H) as [HT HD].
  assert (forall l cj, cnt (watch_list (shrink s kept) l) cj <= cnt (watch_list s l) cj
                       /\ (length (s_orig s) <= cj -> cnt (watch_list (shrink s kept) l) cj = 0)) as Hw.
  { intros l cj. rewrite watch_list_shrink. destruct (Nat.eqb_spec (lvar l) 0) as [E0|E0].
    - split; [apply Nat.le_refl|]. intros _. apply watch_zero_slot_empty; [exact (bi_nz s H) | exact (bi_wle s H) | exact E0].
    - split; [apply cnt_filter_le|]. intros Hge. apply cnt_filter_out. apply Nat.ltb_ge. exact Hge. }
  assert (forall c, In c (db (shrink s kept)) -> In c (db s)) as Hdb.
  { intros c Hc. rewrite db_shrink in Hc. unfold db. apply in_app_or in Hc. apply in_or_app. destruct Hc; [left | right]; auto. }
  split; [|intros l cj; apply Hw]. constructor.
  - split; [exact (trail_inv_asg_eq s _ (shrink_asg s kept) HT)|]. destruct HD as [D1 D2 D3 D4 D5]. constructor; unfold nv in *; simpl; auto.
    + apply Forall_forall. intros c Hc. rewrite Forall_forall in D3. apply D3. apply Hk. exact Hc.
    + apply Forall_map. eapply Forall_impl; [|exact D4]. intros y Hy. exact (incl_Forall (incl_filter _ y) Hy).
    + apply Forall_map. eapply Forall_impl; [|exact D5]. intros y Hy. exact (incl_Forall (incl_filter _ y) Hy).
  - apply nz_of_db. intros c Hc. exact (nz_db_nonzero s (bi_nz s H) c (Hdb c Hc)).
  - exact (bi_v0 s H).
  - intros l cj. destruct (Hw l cj) as [Q1 Q2]. destruct (Nat.lt_ge_cases cj (length (s_orig s))) as [L|L]; [|rewrite (Q2 L); apply Nat.le_0_l].
    pose proof (bi_wle s H l cj) as Q3. rewrite get_clause_shrink_orig by exact L. unfold n_clauses in *. simpl.
    rewrite (proj2 (Nat.ltb_lt _ _) (Nat.lt_lt_add_r _ _ _ L)) in Q3. rewrite (proj2 (Nat.ltb_lt _ _) (Nat.lt_lt_add_r _ _ _ L)).
    exact (Nat.le_trans _ _ _ Q1 Q3).
  - intros fl implied ci Hin. rewrite implications_shrink in Hin. apply filter_In in Hin. destruct Hin as [Q1 Q2].
    simpl in Q2. apply Nat.ltb_lt in Q2. destruct (bi_big s H fl implied ci Q1) as [_ Q3].
    rewrite get_clause_shrink_orig by exact Q2. split; [exact (Nat.lt_lt_add_r _ _ _ Q2) | exact Q3].
  - intros tr1 v tr2 r Htr Hl Hr. exfalso.
    assert (In v (s_trail s)) as Hv by (simpl in Htr; rewrite Htr; apply in_or_app; right; left; reflexivity).
    pose proof (level_le_cur s v HT Hv) as Q. rewrite Hc0 in Q. exact (Nat.nle_succ_0 _ (Nat.le_trans _ _ _ Hl Q)).
  - exact (bi_dec s H).
  - exact (head_inv_asg_eq s _ (shrink_asg s kept) (bi_head s H)).
Qed.

Theorem reduce_db_BI : forall s, BI s -> cur_level s = 0 -> BI (reduce_db s).
Proof.
  intros s H Hc0. unfold reduce_db. destruct (length (s_learned s) <? reduce_threshold); [exact H|].
  set (kept := keep_loop _ 0 _). change (BI (attach_all (map snd kept) (length (s_orig s)) (shrink s kept))).
  destruct (BI_shrink s kept H Hc0 (kept_in_learned s)) as [H1 Hfresh].
  apply BI_attach_all; [exact H1 | unfold n_clauses; apply Nat.le_refl | intros k _; apply get_clause_shrink_kept | exact Hfresh].
Qed.
