(* C01 deep model - coverage (W) and J through the recording of a model (Section BlockJ) and a decision; the loop
   invariant LJ: W and J hold whenever the main loop is about to pick a variable, W and JC after a reported conflict; it is
   kept by an iteration (main_step_LJ) and established by the set-up (init_PJ, init_LJ, with what the assignment loops of the
   set-up do to the unit clauses).  The induction over a run is DeepAlgo.run_all. *)
From Coq Require Import List ZArith Bool Lia.
Import ListNotations.
From SV Require Import C01.SatSpec C01.DeepCdcl C01.DeepBase C01.DeepTrail C01.DeepTrailProp C01.DeepAnalyze C01.DeepWatch
  C01.DeepReason C01.DeepReasonProp C01.DeepRunOps C01.DeepRun C01.DeepSteps C01.DeepJ C01.DeepJOps C01.DeepJProp
  C01.DeepJLearn C01.DeepInit.
Close Scope Z_scope.
Open Scope nat_scope.

Section BlockJ.
Variable s : st.
Variable n : nat.
Hypothesis HB : BI s.
Hypothesis Hnv : nv s = S n.
Hypothesis Hopen : blk_open s n <> 0.

Let blocking := blocking_of s n.
Let cidx := n_clauses s.
Let s0 := append_learned blocking 0 s.
Let s1 := unassign_to 0 s0.
Let sorted := sort_blocking s1 blocking.
Let s2 := set_last_learned s1 sorted.
Let s3 := blk_s3 s n.
Let s4 := blk_s4 s n.
Let x := nth 0 sorted 0%Z.

Lemma bj_s3_eq : s3 = if blk_open s n =? 1 then assign_lit x (Some cidx) s2 else s2.
Proof using. reflexivity. Qed.
Lemma bj_s4_eq : s4 = if 2 <=? length sorted then add_watch (nth 1 sorted 0%Z) cidx (add_watch x cidx s3) else s3.
Proof using. reflexivity. Qed.

Lemma bj_trail2 : trail_inv s2 /\ cur_level s2 = 0 /\ nv s2 = nv s.
Proof using HB Hnv. pose proof (blk_s2 s n HB Hnv : BI s2 /\ cur_level s2 = 0 /\ nv s2 = nv s) as (H2 & Q). exact (conj (proj1 (bi_ti s2 H2)) Q). Qed.

Lemma bj_first : 1 <= lvar x <= n /\ lvar x < length (s_vals s2) /\ val_of s2 (lvar x) = None.
Proof using HB Hnv Hopen.
  pose proof (blk_first_open s n Hopen : In x blocking /\ is_false (lit_value s2 x) = false) as [Hx1 Hx2].
  destruct (block_lits s n _ Hx1) as (_ & Hxr & _). split; [exact Hxr|].
  split; [|apply (blk_not_true s n HB Hnv); assumption].
  destruct bj_trail2 as (_ & _ & Hn2). fold (nv s2). rewrite Hn2, Hnv. lia.
Qed.

Lemma bj_fp3 : forall l, fp s4 l -> fp s3 l.
Proof using.
  intros l H. eapply fp_asg_eq; [|exact H]. rewrite bj_s4_eq.
  destruct (2 <=? length sorted); [eapply asg_eq_trans; apply add_watch_asg | apply asg_eq_refl].
Qed.

Lemma bj_fp : forall l, fp s4 l -> fp s l.
Proof using HB Hnv Hopen.
  intros l H4. pose proof (bj_fp3 l H4) as H3.
  assert (fp s2 l) as H2.
  { rewrite bj_s3_eq in H3. destruct (blk_open s n =? 1); [|exact H3].
    destruct bj_first as (_ & Hr & Hn). exact (fp_assign_inv s2 _ _ _ _ (proj1 bj_trail2) Hn Hr H3). }
  assert (fp s1 l) as H1 by (eapply fp_asg_eq; [apply set_last_learned_asg | exact H2]).
  pose proof (blk_s0 s n HB Hnv : BI s0) as H0. apply (fp_unassign_to s0 0 l (proj1 (bi_ti s0 H0)) (bi_head s0 H0)) in H1.
  eapply fp_asg_eq; [apply append_learned_asg | exact H1].
Qed.

Lemma bj_get4 : forall r, get_clause s4 r = if r =? cidx then sorted else get_clause s1 r.
Proof using HB Hnv.
  intros r. rewrite <- (blk_get2 s n HB Hnv r : get_clause s2 r = if r =? cidx then sorted else get_clause s1 r).
  assert (get_clause s3 r = get_clause s2 r) as G3 by (rewrite bj_s3_eq; destruct (blk_open s n =? 1); reflexivity).
  rewrite <- G3, bj_s4_eq. destruct (2 <=? length sorted); [|reflexivity].
  unfold add_watch. rewrite !get_clause_set_watch_list. reflexivity.
Qed.

Lemma bj_old_clause : forall r, r < cidx -> get_clause s1 r = get_clause s r.
Proof using.
  intros r Hr. unfold s1. rewrite (db_eq_get_clause _ _ _ (unassign_to_db_eq 0 s0)). apply get_clause_append_old. exact Hr.
Qed.

Lemma bj_n4 : n_clauses s4 = S cidx.
Proof using HB Hnv Hopen.
  assert (n_clauses s3 = S cidx) as Q3.
  { pose proof (blk_s3_BI s n HB Hnv Hopen : _ /\ _ /\ _ /\ db_eq s2 s3) as (_ & _ & _ & Hdb). rewrite (db_eq_n_clauses _ _ Hdb).
    exact (proj1 (blk_nclauses2 s n HB Hnv)). }
  rewrite bj_s4_eq. destruct (2 <=? length sorted); [|exact Q3].
  unfold add_watch. rewrite !n_clauses_set_watch_list. exact Q3.
Qed.

(* x is never false and processed: it is unassigned, or has just been asserted *)
Lemma bj_first_not_fp : ~ fp s3 x.
Proof using HB Hnv Hopen.
  intros [Q _]. destruct bj_first as (_ & Hr & Hn). rewrite bj_s3_eq in Q. destruct (blk_open s n =? 1).
  - unfold assign_lit in Q. rewrite lit_value_assign_same in Q by auto. destruct (lpos x); discriminate.
  - apply lit_value_assigned in Q. contradiction.
Qed.

Lemma bj_J : J s -> J s4.
Proof using HB Hnv Hopen.
  intros HJ cj a b r H1 H2 H3 H4. rewrite bj_n4 in H1. rewrite bj_get4 in H2.
  destruct (Nat.eqb_spec cj cidx) as [E|E].
  - apply bj_first_not_fp. unfold x. rewrite H2. simpl. apply bj_fp3. exact H3.
  - rewrite bj_old_clause in H2 by lia. exact (HJ cj a b r ltac:(unfold cidx in *; lia) H2 (bj_fp a H3) (bj_fp b H4)).
Qed.

Lemma bj_arr3 : arr_len s -> arr_len s3.
Proof using.
  intros HA. assert (arr_len s2) as A2 by (apply (arr_len_unassign_to s0); exact HA).
  rewrite bj_s3_eq. destruct (blk_open s n =? 1); [unfold assign_lit; apply arr_len_assign|]; exact A2.
Qed.

Lemma bj_arr : arr_len s -> arr_len s4.
Proof using.
  intros HA. rewrite bj_s4_eq. destruct (2 <=? length sorted); [apply arr_len_add_watch, arr_len_add_watch|]; apply bj_arr3; exact HA.
Qed.

Lemma bj_units : units_kept s s4.
Proof using HB Hnv Hopen.
  apply units_kept_esteps. exact (steps_trans (steps_one (es_append s blocking 0)) (blk_s4_esteps s n HB Hnv Hopen)).
Qed.

(* the lists are those of s until the two watches are added *)
Lemma bj_watch3 : forall l, watch_list s3 l = watch_list s l.
Proof using.
  intros l. transitivity (watch_list s1 l); [rewrite bj_s3_eq; destruct (blk_open s n =? 1); reflexivity|].
  unfold s1. rewrite (db_eq_watch_list _ _ l (unassign_to_db_eq 0 s0)). reflexivity.
Qed.

Lemma bj_impl4 : forall fl, implications s4 fl = implications s fl.
Proof using.
  intros fl. transitivity (implications s1 fl); [|unfold s1; rewrite (db_eq_implications _ _ fl (unassign_to_db_eq 0 s0)); reflexivity].
  transitivity (implications s3 fl); [|rewrite bj_s3_eq; destruct (blk_open s n =? 1); reflexivity].
  rewrite bj_s4_eq. destruct (2 <=? length sorted); [|reflexivity]. unfold add_watch. rewrite !implications_set_watch_list. reflexivity.
Qed.

Lemma bj_cov_new : arr_len s -> covered s4 cidx.
Proof using HB Hnv Hopen.
  intros HA. unfold covered. rewrite bj_get4, Nat.eqb_refl. rewrite bj_s4_eq.
  pose proof (blk_first_open s n Hopen : In x blocking /\ is_false (lit_value s2 x) = false) as [Hx1 Hx2].
  destruct bj_first as (_ & Hr & Hn).
  destruct (Nat.leb_spec 2 (length sorted)) as [L|L].
  - destruct (two_shape sorted L) as (a & b & r & Es). unfold x. rewrite Es. simpl nth. left.
    assert (forall y, In y sorted -> lvar y < slot_len s3 y) as Hrange.
    { intros y Hy. apply (blk_sorted_sub s n) in Hy. destruct (block_lits s n y Hy) as (_ & Q & _).
      pose proof (blk_s3_BI s n HB Hnv Hopen : _ /\ _ /\ nv s3 = nv s /\ _) as (_ & _ & N3 & _).
      rewrite (slot_len_nv _ _ (bj_arr3 HA)), N3, Hnv. lia. }
    apply wcov_add_watch2; apply Hrange; rewrite Es; simpl; auto.
  - assert (sorted = [x]) as Es.
    { unfold x. destruct sorted as [|a [|b r]]; [|reflexivity | simpl in L; lia].
      simpl in Hx1. destruct (block_lits s n _ Hx1) as (Q & _). contradiction. }
    assert (blk_open s n = 1) as Ho1.
    { change (length (filter (fun l => negb (is_false (lit_value s2 l))) sorted) = 1). rewrite Es. simpl. rewrite Hx2. reflexivity. }
    rewrite Es, bj_s3_eq, Ho1. exact (true0_assign_lit s2 x (Some cidx) (proj1 bj_trail2) (proj1 (proj2 bj_trail2)) Hr).
Qed.

Lemma block_PJ : arr_len s /\ cov_all s /\ J s -> arr_len s4 /\ cov_all s4 /\ J s4.
Proof using HB Hnv Hopen.
  intros (HA & HC & HJ). split; [exact (bj_arr HA)|]. split; [|exact (bj_J HJ)].
  intros cj Hcj. rewrite bj_n4 in Hcj. destruct (Nat.eq_dec cj cidx) as [E|E]; [subst cj; exact (bj_cov_new HA)|].
  assert (cj < cidx) as Hlt by lia. apply (covered_mono s).
  - rewrite bj_get4. destruct (Nat.eqb_spec cj cidx); [lia|]. apply bj_old_clause. exact Hlt.
  - intros l. rewrite <- (bj_watch3 l), bj_s4_eq. destruct (2 <=? length sorted); [|lia].
    pose proof (cnt_add_watch_mono (nth 1 sorted 0%Z) cidx (add_watch x cidx s3) l cj).
    pose proof (cnt_add_watch_mono x cidx s3 l cj). lia.
  - intros fl b Hb. rewrite bj_impl4. exact Hb.
  - exact bj_units.
  - apply HC. exact Hlt.
Qed.

End BlockJ.

Lemma decide_PJ : forall s v b, BI s -> arr_len s /\ cov_all s /\ J s -> s_head s = length (s_trail s) ->
  v < nv s -> val_of s v = None ->
  arr_len (assign v b None (push_lim s)) /\ cov_all (assign v b None (push_lim s)) /\ J (assign v b None (push_lim s)).
Proof.
  intros s v b H (HA & HC & HJ) Hh Hv Hn. pose proof (BI_push_lim s H Hh) as H1.
  apply WJ_assign; [exact (proj1 (bi_ti _ H1)) | exact Hn | exact Hv|]. split; [exact HA|]. split.
  - apply (cov_all_db_eq s); [apply push_lim_db_eq | exact (units_kept_refl s) | exact HC].
  - revert HJ. apply Jx_mono; [reflexivity | reflexivity | apply fp_push_lim].
Qed.

Definition LJ (L : loop) : Prop :=
  match l_conflict L with
  | CNone => arr_len (l_st L) /\ cov_all (l_st L) /\ J (l_st L)
  | CAt _ => cur_level (l_st L) = 0 \/ (arr_len (l_st L) /\ cov_all (l_st L) /\ JC (l_st L))
  | CAssum => True
  end.

Lemma LJ_after_propagate : forall fuel A s L', assum_ok (nv s) A -> PJ s ->
  propagate fuel A s = Some (l_st L', l_conflict L') -> LJ L'.
Proof.
  intros fuel A s L' HA H E. pose proof (propagate_PJ fuel A s _ _ HA H E) as Q. unfold LJ.
  destruct (l_conflict L') as [| |ci]; [exact (proj2 Q) | exact Logic.I | right; exact (proj2 Q)].
Qed.

Theorem main_step_LJ : forall fuel P L L', LI P L -> LJ L -> main_step fuel P L = Cont L' -> LJ L'.
Proof.
  intros fuel P L L' [HB Hnv HA Hdec Hconf] HLJ E. unfold LJ in HLJ.
  assert (forall s, nv s = nv (l_st L) -> assum_ok (nv s) (p_assum P)) as HA0 by (intros s0 Q; rewrite Q, Hnv; exact HA).
  destruct (main_step_cont fuel P L L' E) as [EC _ _ Ho | s5 c EC _ _ Ho EP | v orc s2 c EC _ _ Hv Hvn EP _
                                               | ci lc bt lbd lv s5 c EC Hd EA _ _ _ EP | ci lc bt lbd s5 c EC Hd EA _ EP];
    rewrite EC in Hconf, HLJ.
  - left. exact (proj1 (proj2 (blk_s2 (l_st L) (p_nvars P) HB Hnv))).
  - destruct (blk_s4_BI (l_st L) (p_nvars P) HB Hnv Ho) as (H4 & _ & Hn4).
    eapply LJ_after_propagate; [exact (HA0 _ Hn4) | exact (conj H4 (block_PJ _ _ HB Hnv Ho HLJ)) | exact EP].
  - assert (v < nv (l_st L)) as Hvr by (rewrite Hnv; lia).
    destruct (decide_BI (l_st L) v (nth v (s_phase (l_st L)) true) HB Hconf (proj1 Hv) Hvr Hvn) as (H1 & _ & Hn1).
    eapply LJ_after_propagate; [exact (HA0 _ Hn1) | exact (conj H1 (decide_PJ _ _ _ HB HLJ Hconf Hvr Hvn)) | exact EP].
  - destruct Hconf as [Hconf|Hconf]; [lia|]. destruct HLJ as [HLJ|HLJ]; [lia|].
    destruct (learn_BI (l_st L) ci lc bt lbd HB Hconf EA) as (H3 & _ & Hn3).
    destruct (restart_BI _ H3) as (H4 & _ & Hn4).
    eapply LJ_after_propagate; [apply HA0; rewrite Hn4; exact Hn3 | exact (conj H4 (restart_PJ _ H3 (learn_PJ _ _ _ _ _ HB HLJ Hconf EA))) | exact EP].
  - destruct Hconf as [Hconf|Hconf]; [lia|]. destruct HLJ as [HLJ|HLJ]; [lia|].
    destruct (learn_BI (l_st L) ci lc bt lbd HB Hconf EA) as (H3 & _ & Hn3).
    eapply LJ_after_propagate; [exact (HA0 _ Hn3) | exact (conj H3 (learn_PJ _ _ _ _ _ HB HLJ Hconf EA)) | exact EP].
Qed.

Lemma attach_orig_units : forall cs idx u s,
  (forall p, In p u -> In p (snd (attach_orig cs idx u s)))
  /\ (forall k l, k < length cs -> nth k cs [] = [l] -> In (l, idx + k) (snd (attach_orig cs idx u s))).
Proof.
  induction cs as [|c cs IH]; intros idx u s; simpl; [split; [auto | intros; lia]|].
  assert (forall u' s', (forall p, In p u -> In p u') ->
            (forall p, In p u -> In p (snd (attach_orig cs (S idx) u' s')))) as Hmono.
  { intros u' s' Hsub p Hp. apply (proj1 (IH (S idx) u' s')). apply Hsub. exact Hp. }
  destruct c as [|l [|b r]].
  - split; [apply Hmono; auto|]. intros [|k] l0 Hk Hn; [discriminate|].
    replace (idx + S k) with (S idx + k) by lia. apply (proj2 (IH (S idx) u (attach [] idx s))); [lia | exact Hn].
  - split; [apply Hmono; intros p Hp; apply in_or_app; left; exact Hp|]. intros [|k] l0 Hk Hn.
    + injection Hn as Hn. subst l0. rewrite Nat.add_0_r. apply (proj1 (IH (S idx) (u ++ [(l, idx)]) s)). apply in_or_app. right. left. reflexivity.
    + replace (idx + S k) with (S idx + k) by lia. apply (proj2 (IH (S idx) (u ++ [(l, idx)]) s)); [lia | exact Hn].
  - split; [apply Hmono; auto|]. intros [|k] l0 Hk Hn; [discriminate|].
    replace (idx + S k) with (S idx + k) by lia. apply (proj2 (IH (S idx) u (attach (l :: b :: r) idx s))); [lia | exact Hn].
Qed.

Lemma assign_pures_frame : forall A pl s, s_head (assign_pures A pl s) = s_head s /\ (arr_len s -> arr_len (assign_pures A pl s)).
Proof.
  intros A pl. induction pl as [|[v b] pl IH]; intros s; simpl; [auto|].
  destruct (is_none (val_of s v) && negb (existsb (fun a => lvar a =? v) A)); [|apply IH].
  destruct (IH (assign v b None s)) as [Q1 Q2]. split; [exact Q1|]. intros HA. apply Q2. apply arr_len_assign. exact HA.
Qed.

Lemma assign_units_true : forall ul s s' n, BI s -> lvl0 s -> nv s = S n ->
  (forall l i, In (l, i) ul -> get_clause s i = [l]) -> assign_units ul s = (s', false) ->
  s_head s' = s_head s /\ (arr_len s -> arr_len s') /\ db_eq s s'
  /\ (forall l i, In (l, i) ul -> lit_value s' l = Some true /\ level_of s' (lvar l) = 0).
Proof.
  induction ul as [|[l i] ul IH]; intros s s' n H H0 Hn Hul E; simpl in E.
  - injection E as E. subst. split; [reflexivity|]. split; [auto|]. split; [apply db_eq_refl | intros l i []].
  - pose proof (proj1 (bi_ti s H)) as HT.
    destruct (val_of s (lvar l)) as [b|] eqn:EV.
    + destruct (Bool.eqb b (lpos l)) eqn:EB; [|discriminate].
      destruct (IH s s' n H H0 Hn (fun l0 i0 Q => Hul l0 i0 (or_intror Q)) E) as (Q1 & Q2 & Q3 & Q5).
      split; [exact Q1|]. split; [exact Q2|]. split; [exact Q3|].
      intros l0 i0 [Q|Q]; [|exact (Q5 l0 i0 Q)]. injection Q as E1 E2. subst l0 i0.
      apply (units_kept_esteps s s' (assign_units_esteps ul s s' E)); apply (true0_lvl0 s l HT H0); unfold lit_value; rewrite EV, EB; reflexivity.
    + assert (In l (get_clause s i)) as Hl by (rewrite (Hul l i (or_introl eq_refl)); left; reflexivity).
      pose proof (BI_lit_in s i l H Hl) as Hr.
      assert (BI (assign_lit l (Some i) s)) as HBa.
      { unfold assign_lit. apply (BI_assign s (lvar l) (lpos l) (Some i) H EV Hr).
        - apply lvar_nonzero. exact (bi_nz s H i l Hl).
        - intros r _ Hlv. unfold lvl0 in H0. lia.
        - discriminate. }
      assert (nv (assign_lit l (Some i) s) = S n) as HNa by (unfold assign_lit; rewrite nv_assign; exact Hn).
      destruct (IH (assign_lit l (Some i) s) s' n HBa H0 HNa) as (Q1 & Q2 & Q3 & Q5); [|exact E|].
      { intros l0 i0 Q. change (get_clause (assign_lit l (Some i) s) i0) with (get_clause s i0). apply Hul. right. exact Q. }
      split; [exact Q1|]. split; [intros HA; apply Q2; unfold assign_lit; apply arr_len_assign; exact HA|].
      split; [destruct Q3 as (E1 & E2 & E3 & E4 & E5 & E6); repeat split; assumption|].
      intros l0 i0 [Q|Q]; [|exact (Q5 l0 i0 Q)]. injection Q as E1 E2. subst l0 i0.
      apply (units_kept_esteps _ s' (assign_units_esteps ul _ s' E)); apply (true0_assign_lit s l (Some i) HT H0 Hr).
Qed.

Lemma J_head0 : forall s, s_head s = 0 -> J s.
Proof. intros s H cj a b r _ _ [_ (tr1 & tr2 & _ & L)] _. lia. Qed.

Lemma arr_len_init : forall cls n, arr_len (init_state cls n).
Proof. intros cls n. unfold arr_len, nv, init_state. simpl. rewrite !repeat_length. auto. Qed.

(* the state handed to the first propagate(): input clauses attached, pure literals (if asked for) and unit clauses assigned *)
Lemma init_PJ : forall cls n A (pure : bool) s0 units s2,
  (forall c l, In c cls -> In l c -> l <> 0%Z /\ lvar l <= n) -> existsb is_nilb cls = false ->
  attach_orig cls 0 [] (init_state cls n) = (s0, units) ->
  assign_units units (if pure then assign_pures A (find_pure_literals cls n) s0 else s0) = (s2, false) ->
  PJ s2 /\ nv s2 = S n /\ lvl0 s2.
Proof.
  intros cls n A pure s0 units s2 Hcls Enil EO EU. set (si := init_state cls n) in *.
  assert (s0 = attach_all cls 0 si) as Es0 by (rewrite <- attach_orig_attach_all with (units := []); rewrite EO; reflexivity).
  assert (forall k, k < length cls -> get_clause si (0 + k) = nth k cls []) as Gi by (intros k _; apply get_clause_init).
  destruct (attach_orig_spec cls 0 [] si s0 units (init_state_BI cls n Hcls)) as (H0 & EA0 & Eg0 & En0 & Hu0); auto.
  { unfold si. rewrite n_clauses_init. apply Nat.le_refl. }
  { intros l cj _. unfold watch_list, si, init_state. cbn [s_wpos s_wneg]. destruct (lpos l); rewrite nth_repeat; reflexivity. }
  destruct (attach_all_frame cls 0 si) as (_ & _ & _ & _ & _ & F6). rewrite <- Es0 in F6.
  assert (lvl0 s0) as Lv0 by (unfold lvl0; rewrite (asg_eq_cur_level _ _ EA0); reflexivity).
  assert (nv s0 = S n) as N0 by (unfold nv; destruct EA0 as (Q & _); rewrite Q; apply repeat_length).
  assert (s_head s0 = 0) as Hh0 by (destruct EA0 as (_ & _ & _ & _ & _ & Q & _); exact Q).
  assert (forall ci, get_clause s0 ci = nth ci cls []) as G0 by (intros ci; rewrite Eg0; apply get_clause_init).
  assert (forall ci, ci < length cls -> 2 <= length (nth ci cls []) -> covered s0 ci) as Cov0.
  { intros ci Hci Hlen. rewrite Es0. apply (covered_attach_all cls 0 si ci); auto; [apply arr_len_init|].
    apply Forall_forall. intros l Hl. unfold lit_in, nv, si, init_state. cbn [s_vals]. rewrite repeat_length.
    pose proof (proj2 (Hcls (nth ci cls []) l (nth_In _ _ Hci) Hl)). lia. }
  set (s1 := if pure then assign_pures A (find_pure_literals cls n) s0 else s0) in *.
  assert (BI s1 /\ lvl0 s1 /\ nv s1 = S n /\ db_eq s0 s1) as (H1 & L1 & N1 & D1).
  { unfold s1. destruct pure; [|split; [exact H0 | split; [exact Lv0 | split; [exact N0 | apply db_eq_refl]]]].
    apply assign_pures_BI; auto. intros v b Hv. eapply find_pure_range; eauto. }
  assert (s_head s1 = 0 /\ arr_len s1) as [Hh1 A1].
  { pose proof (F6 (arr_len_init cls n)) as A0. unfold s1. destruct pure; [|auto].
    destruct (assign_pures_frame A (find_pure_literals cls n) s0) as [Q1 Q2]. split; [congruence | auto]. }
  assert (forall l i, In (l, i) units -> get_clause s1 i = [l]) as Hun1.
  { intros l i Hl. rewrite (db_eq_get_clause _ _ _ D1), Eg0. destruct (Hu0 l i Hl) as [[]|Q]. exact Q. }
  destruct (assign_units_BI units s1 s2 n H1 L1 N1 Hun1 EU) as (H2 & L2 & N2).
  destruct (assign_units_true units s1 s2 n H1 L1 N1 Hun1 EU) as (Hh2 & A2 & D2 & T2).
  assert (db_eq s0 s2) as D02.
  { destruct D1 as (E1 & E2 & E3 & E4 & E5 & E6). destruct D2 as (G1 & G2 & G3 & G4 & G5 & G6). repeat split; congruence. }
  split; [|exact (conj N2 L2)]. split; [exact H2|]. split; [exact (A2 A1)|]. split; [|apply J_head0; congruence].
  intros ci Hci. rewrite (db_eq_n_clauses _ _ D02), En0 in Hci. unfold si in Hci. rewrite n_clauses_init in Hci.
  destruct (nth ci cls []) as [|a [|b r]] eqn:Ec.
  - exfalso. assert (existsb is_nilb cls = true) as Q; [|congruence].
    apply existsb_exists. exists (nth ci cls []). split; [apply nth_In; exact Hci | rewrite Ec; reflexivity].
  - unfold covered. rewrite (db_eq_get_clause _ _ _ D02), G0, Ec. apply (T2 a ci).
    replace units with (snd (attach_orig cls 0 [] si)) by (rewrite EO; reflexivity).
    exact (proj2 (attach_orig_units cls 0 [] si) ci a Hci Ec).
  - apply (covered_mono_long s0); [apply db_eq_get_clause; exact D02 | rewrite G0, Ec; simpl; lia | | | apply Cov0; [exact Hci | rewrite Ec; simpl; lia]].
    + intros l. rewrite (db_eq_watch_list _ _ _ D02). apply Nat.le_refl.
    + intros fl b0 Hb. rewrite (db_eq_implications _ _ _ D02). exact Hb.
Qed.

Theorem init_LJ : forall fuel cls A mc mr limit lf orc P L0, valid_input cls A = true ->
  init_loop fuel cls A mc mr limit lf orc = ILoop P L0 -> LJ L0.
Proof.
  intros fuel cls A mc mr limit lf orc P L0 Hvalid E. destruct (valid_input_facts cls A Hvalid) as [Hcls HA].
  pose proof (init_loop_cases fuel cls A mc mr limit lf orc) as C. rewrite E in C.
  destruct C as [s0 units s2 s3 c lv evs _ Enil EO EU EP _ _].
  destruct (init_PJ cls _ A _ s0 units s2 Hcls Enil EO EU) as (H2 & N2 & _).
  apply (LJ_after_propagate fuel A s2); [rewrite N2; exact HA | exact H2 | exact EP].
Qed.
