(* C02 on the faithful model - what the termination argument and the semantic argument share.  propagate() only extends the
   state (ext) and counts exactly one conflict when it reports one; it never runs out of fuel above n_vars + 1 and
   2 * (number of clauses) + 1: the head loop takes every trail entry once, the watch loop of a literal makes at most (length of
   its watch list - i) + 1 steps, and a watch list holds a clause at most twice.  The state an iteration of `while True:` hands
   to propagate() (step_prop of DeepRun.v) has BI. *)
From Coq Require Import List ZArith Lia.
Import ListNotations.
From SV Require Import C01.DeepCdcl C01.DeepBase C01.DeepTrail C01.DeepTrailProp C01.DeepAnalyze C01.DeepWatch C01.DeepReason C01.DeepReasonProp C01.DeepReduce C01.DeepRun C01.DeepJOps.
Close Scope Z_scope.
Open Scope nat_scope.

(* ext s s': s' extends s - same number of clauses and trail_lim, a longer trail, assigned variables keep value and level *)
Record ext (s s' : st) : Prop := mkExt {
  ex_n : n_clauses s' = n_clauses s;
  ex_trail : exists e, s_trail s' = e ++ s_trail s;
  ex_lim : s_lim s' = s_lim s;
  ex_val : forall v, val_of s v <> None -> val_of s' v = val_of s v;
  ex_level : forall v, val_of s v <> None -> level_of s' v = level_of s v
}.

Lemma ext_refl : forall s, ext s s.
Proof. intros s. constructor; auto. exists []. reflexivity. Qed.

Lemma ext_trans : forall a b c, ext a b -> ext b c -> ext a c.
Proof.
  intros a b c [A1 [e1 A2] A3 A4 A5] [B1 [e2 B2] B3 B4 B5]. constructor; try congruence.
  - exists (e2 ++ e1). rewrite B2, A2, app_assoc. reflexivity.
  - intros v Hv. rewrite B4; [apply A4; exact Hv | rewrite A4; exact Hv].
  - intros v Hv. rewrite B5; [apply A5; exact Hv | rewrite A4; exact Hv].
Qed.

Lemma ext_assign : forall s v b r, val_of s v = None -> ext s (assign v b r s).
Proof.
  intros s v b r Hn. constructor; auto.
  - exists [v]. reflexivity.
  - intros w Hw. unfold val_of, assign. simpl. apply nth_upd_neq. intros C. subst w. contradiction.
  - intros w Hw. unfold level_of, assign. simpl. apply nth_upd_neq. intros C. subst w. contradiction.
Qed.

Lemma ext_asg_eq : forall s s', asg_eq s s' -> n_clauses s' = n_clauses s -> ext s s'.
Proof.
  intros s s' (E1 & E2 & _ & E4 & E5 & _) En. constructor; auto.
  - exists []. exact E4.
  - intros v _. unfold val_of. rewrite E1. reflexivity.
  - intros v _. unfold level_of. rewrite E2. reflexivity.
Qed.

(* every elementary step of propagate (pstep, DeepRun.v) extends the state, hence so do propagate and each of its loops *)
Lemma pstep_ext : forall s s', pstep s s' -> ext s s'.
Proof.
  intros s s' [s1 v b r Hn | s1 ci c _ | s1 s2 EA Eo El _ | s1 h].
  - apply ext_assign. exact Hn.
  - apply ext_asg_eq; [apply set_clause_asg | apply n_clauses_set_clause].
  - apply ext_asg_eq; [exact EA | unfold n_clauses; rewrite Eo, El; reflexivity].
  - constructor; auto. exists []. reflexivity.
Qed.

Lemma psteps_ext : forall s s', steps pstep s s' -> ext s s'.
Proof.
  intros s s' R. apply (steps_pres pstep (ext s)) with (s := s); [|exact R | apply ext_refl].
  intros a b Hab Ha. exact (ext_trans _ _ _ Ha (pstep_ext _ _ Hab)).
Qed.

Lemma confl_set_clause : forall s ci c, s_confl (set_clause s ci c) = s_confl s.
Proof. intros. unfold set_clause. destruct (ci <? length (s_orig s)); reflexivity. Qed.
Lemma confl_set_watch_list : forall s l ws, s_confl (set_watch_list s l ws) = s_confl s.
Proof. intros. unfold set_watch_list. destruct (lpos l); reflexivity. Qed.
Lemma confl_add_watch : forall l i s, s_confl (add_watch l i s) = s_confl s.
Proof. intros. unfold add_watch. apply confl_set_watch_list. Qed.
Lemma confl_big_add1 : forall a b i s, s_confl (big_add1 a b i s) = s_confl s.
Proof. intros. unfold big_add1. destruct (lpos a); reflexivity. Qed.
Lemma confl_attach : forall c i s, s_confl (attach c i s) = s_confl s.
Proof.
  intros c i s. destruct (attach_cases c i s) as [E|[(a & b & Ec & E)|(a & b & r & Ec & _ & E)]]; rewrite E; [reflexivity | |].
  - unfold big_add. rewrite !confl_big_add1. reflexivity.
  - rewrite !confl_add_watch. reflexivity.
Qed.
Lemma confl_attach_all : forall cs i s, s_confl (attach_all cs i s) = s_confl s.
Proof. induction cs as [|c cs IH]; intros i s; simpl; [reflexivity|]. rewrite IH. apply confl_attach. Qed.
Lemma confl_reduce_db : forall s, s_confl (reduce_db s) = s_confl s.
Proof. intros s. unfold reduce_db. destruct (length (s_learned s) <? reduce_threshold); [reflexivity|]. rewrite confl_attach_all. reflexivity. Qed.
Lemma confl_unassign_to : forall k s, s_confl (unassign_to k s) = s_confl s.
Proof. intros k s. unfold unassign_to. destruct (unwind _ (s_vals s) (s_phase s) (s_trail s)) as [[a b] c]. reflexivity. Qed.

(* fr k s s': from s to s' prop_head stays and the conflict counter grows by k *)
Definition fr (k : Z) (s s' : st) : Prop := s_head s' = s_head s /\ s_confl s' = (s_confl s + k)%Z.

Lemma fr_refl : forall s, fr 0 s s.
Proof. intros s. split; [reflexivity | lia]. Qed.

Lemma fr_trans : forall j k a b c, fr j a b -> fr k b c -> fr (j + k) a c.
Proof. intros j k a b c (A2 & A3) (B2 & B3). split; [congruence | lia]. Qed.

Lemma fr_asg_eq : forall s s', asg_eq s s' -> s_confl s' = s_confl s -> fr 0 s s'.
Proof. intros s s' (_ & _ & _ & _ & _ & E6 & _) Ec. split; [exact E6 | lia]. Qed.

Lemma fr_set_clause : forall s ci c, fr 0 s (set_clause s ci c).
Proof. intros. apply fr_asg_eq; [apply set_clause_asg | apply confl_set_clause]. Qed.
Lemma fr_set_watch_list : forall s l ws, fr 0 s (set_watch_list s l ws).
Proof. intros. apply fr_asg_eq; [apply set_watch_list_asg | apply confl_set_watch_list]. Qed.
Lemma fr_add_watch : forall l i s, fr 0 s (add_watch l i s).
Proof. intros. apply fr_set_watch_list. Qed.
Lemma fr_bump : forall s, fr 1 s (bump_confl s).
Proof. intros. split; reflexivity. Qed.
Lemma fr_assign : forall s v b r, fr 0 s (assign v b r s).
Proof. intros. split; [reflexivity | simpl; lia]. Qed.

(* in the chains below the first step counts no conflict, and 0 + k computes to k *)
Lemma prop_bin_frame : forall imps s s' r, prop_bin imps s = (s', r) -> fr (match r with Some _ => 1 | None => 0 end) s s'.
Proof.
  induction imps as [|[l ci] imps IH]; intros s s' r E; simpl in E.
  - injection E as E1 E2. subst. apply fr_refl.
  - destruct (val_of s (lvar l)) as [b|].
    + destruct (Bool.eqb b (lpos l)); [apply IH; exact E|]. injection E as E1 E2. subst. apply fr_bump.
    + exact (fr_trans 0 _ _ _ _ (fr_assign s _ _ _) (IH _ _ _ E)).
Qed.

Lemma prop_assums_frame : forall A s s' r, prop_assums A s = (s', r) -> fr (if r then 1 else 0) s s'.
Proof.
  induction A as [|l A IH]; intros s s' r E; simpl in E.
  - injection E as E1 E2. subst. apply fr_refl.
  - destruct (val_of s (lvar l)) as [b|].
    + destruct (Bool.eqb b (lpos l)); [apply IH; exact E|]. injection E as E1 E2. subst. apply fr_bump.
    + exact (fr_trans 0 _ _ _ _ (fr_assign s _ _ _) (IH _ _ _ E)).
Qed.

(* what one watch_step does to prop_head and the counter *)
Definition wpost (s : st) (w : wstep) : Prop :=
  match w with
  | WDone => True
  | WNext s' | WStay s' => fr 0 s s'
  | WConf s' _ => fr 1 s s'
  end.

Lemma watch_step_frame : forall fl i s, wpost s (watch_step fl i s).
Proof.
  intros fl i s. unfold watch_step.
  destruct (i <? length (watch_list s fl)); [|exact Logic.I].
  destruct (length (get_clause s (nth i (watch_list s fl) 0)) =? 1); [apply fr_bump|].
  set (ci := nth i (watch_list s fl) 0). set (c := get_clause s ci).
  set (c1 := if (nth 0 c 0 =? fl)%Z then swap01 c else c).
  set (s1 := if (nth 0 c 0 =? fl)%Z then set_clause s ci c1 else s).
  assert (fr 0 s s1) as X by (unfold s1; destruct (nth 0 c 0 =? fl)%Z; [apply fr_set_clause | apply fr_refl]).
  destruct (is_true (lit_value s1 (nth 0 c1 0%Z))); [exact X|].
  destruct (find_nonfalse s1 (skipn 2 c1) 2) as [k|].
  - apply (fr_trans 0 0 _ _ _ X). eapply (fr_trans 0 0); [apply fr_set_clause|].
    eapply (fr_trans 0 0); [apply fr_set_watch_list | apply fr_add_watch].
  - destruct (is_false (lit_value s1 (nth 0 c1 0%Z))); [exact (fr_trans 0 1 _ _ _ X (fr_bump s1)) | exact (fr_trans 0 0 _ _ _ X (fr_assign s1 _ _ _))].
Qed.

Lemma prop_watch_frame : forall fuel fl i s s' r, prop_watch fuel fl i s = Some (s', r) ->
  fr (match r with Some _ => 1 | None => 0 end) s s'.
Proof.
  induction fuel as [|f IH]; intros fl i s s' r E; simpl in E; [discriminate|].
  pose proof (watch_step_frame fl i s) as Hp. destruct (watch_step fl i s) as [|s1|s1|s1 ci]; simpl in Hp.
  - injection E as E1 E2. subst. apply fr_refl.
  - exact (fr_trans 0 _ _ _ _ Hp (IH _ _ _ _ _ E)).
  - exact (fr_trans 0 _ _ _ _ Hp (IH _ _ _ _ _ E)).
  - injection E as E1 E2. subst. exact Hp.
Qed.

Lemma head_step_frame : forall inner s s' r, head_step inner s = Some (s', r) ->
  s_head s' = S (s_head s) /\ s_confl s' = (s_confl s + match r with Some _ => 1 | None => 0 end)%Z.
Proof.
  intros inner s s' r E. unfold head_step in E. change (fr (match r with Some _ => 1 | None => 0 end) (set_head s (S (s_head s))) s').
  destruct (prop_bin _ (set_head s (S (s_head s)))) as [s2 [ci|]] eqn:EB; pose proof (prop_bin_frame _ _ _ _ EB) as Q.
  - injection E as E1 E2. subst. exact Q.
  - exact (fr_trans 0 _ _ _ _ Q (prop_watch_frame _ _ _ _ _ _ E)).
Qed.

Lemma prop_loop_frame : forall fuel inner s s' c, prop_loop fuel inner s = Some (s', c) ->
  s_confl s' = (s_confl s + match c with CNone => 0 | _ => 1 end)%Z.
Proof.
  induction fuel as [|f IH]; intros inner s s' c E; simpl in E; [discriminate|].
  destruct (s_head s <? length (s_trail s)); [|injection E as E1 E2; subst; lia].
  destruct (head_step inner s) as [[s1 [ci|]]|] eqn:EH; [| |discriminate]; destruct (head_step_frame _ _ _ _ EH) as [_ Q].
  - injection E as E1 E2. subst. exact Q.
  - rewrite (IH _ _ _ _ E), Q. lia.
Qed.

Theorem propagate_frame : forall fuel A s s' c, propagate fuel A s = Some (s', c) ->
  ext s s' /\ s_confl s' = (s_confl s + match c with CNone => 0 | _ => 1 end)%Z.
Proof.
  intros fuel A s s' c E. split; [exact (psteps_ext _ _ (propagate_psteps _ _ _ _ _ E))|].
  unfold propagate in E. destruct (cur_level s =? 0); [|exact (prop_loop_frame _ _ _ _ _ E)].
  destruct (prop_assums A s) as [s1 [|]] eqn:EA; destruct (prop_assums_frame _ _ _ _ EA) as [_ Q].
  - injection E as E1 E2. subst. exact Q.
  - rewrite (prop_loop_frame _ _ _ _ _ E), Q. lia.
Qed.

Lemma trail_len_le : forall s n, BI s -> nv s = S n -> length (s_trail s) <= n.
Proof.
  intros s n H Hn. pose proof (proj1 (bi_ti s H)) as HT.
  rewrite <- (seq_length n 1). apply NoDup_incl_length; [exact (ti_nodup s HT)|].
  intros v Hv. apply in_seq. pose proof (trail_var_in_range s v HT Hv) as Q. fold (nv s) in Q.
  assert (v <> 0) by (intros C; subst v; apply (ti_assigned s HT) in Hv; apply Hv; exact (bi_v0 s H)). lia.
Qed.

Lemma cnt_filter_ne : forall ws x y, x <> y -> cnt (filter (fun z => negb (z =? x)) ws) y = cnt ws y.
Proof.
  intros ws x y H. induction ws as [|z ws IH]; simpl; [reflexivity|]. unfold cnt in *.
  destruct (Nat.eqb_spec z x) as [E|E]; simpl.
  - subst z. destruct (Nat.eq_dec x y); [contradiction | exact IH].
  - destruct (Nat.eq_dec z y); rewrite IH; reflexivity.
Qed.

Lemma length_cnt_split : forall ws x, length ws = cnt ws x + length (filter (fun z => negb (z =? x)) ws).
Proof.
  intros ws x. induction ws as [|z ws IH]; simpl; [reflexivity|]. unfold cnt in *. simpl.
  destruct (Nat.eqb_spec z x) as [E|E]; simpl.
  - subst z. destruct (Nat.eq_dec x x); [lia | congruence].
  - destruct (Nat.eq_dec z x); [contradiction | lia].
Qed.

Lemma length_le_counts : forall N ws, (forall ci, cnt ws ci <= if ci <? N then 2 else 0) -> length ws <= 2 * N.
Proof.
  induction N as [|N IH]; intros ws H.
  - destruct ws as [|x ws]; [simpl; lia|]. pose proof (H x) as Q. unfold cnt in Q. simpl in Q. destruct (Nat.eq_dec x x); [lia | congruence].
  - rewrite (length_cnt_split ws N). pose proof (H N) as QN. destruct (Nat.ltb_spec N (S N)); [|lia].
    assert (length (filter (fun z => negb (z =? N)) ws) <= 2 * N); [|lia]. apply IH. intros ci.
    destruct (Nat.eq_dec N ci) as [E|E].
    + subst ci. destruct (Nat.ltb_spec N N); [lia|].
      assert (cnt (filter (fun z => negb (z =? N)) ws) N = 0); [|lia]. apply cnt_filter_out. rewrite Nat.eqb_refl. reflexivity.
    + rewrite cnt_filter_ne by exact E. pose proof (H ci) as Q. destruct (Nat.ltb_spec ci (S N)); destruct (Nat.ltb_spec ci N); lia.
Qed.

Lemma pos01_le2 : forall c l, pos01 c l <= 2.
Proof. intros c l. unfold pos01. destruct c as [|a [|b r]]; try lia. destruct (a =? l)%Z; destruct (b =? l)%Z; lia. Qed.

Lemma watch_list_len : forall s l, watch_le s -> length (watch_list s l) <= 2 * n_clauses s.
Proof.
  intros s l H. apply length_le_counts. intros ci. pose proof (H l ci) as Q. pose proof (pos01_le2 (get_clause s ci) l).
  destruct (ci <? n_clauses s); lia.
Qed.

Lemma prop_watch_total : forall fuel fl i s, WI fl s -> length (watch_list s fl) - i < fuel ->
  exists res, prop_watch fuel fl i s = Some res.
Proof.
  induction fuel as [|f IH]; intros fl i s HW Hf; [lia|]. simpl.
  pose proof (watch_step_wcase fl i s (bi_wle s (proj1 HW))) as C. pose proof (wcase_WI fl i s _ HW C) as HW'.
  destruct C as [Hd | s1 ci a r Hn Ht | s1 ci a r j Hn Ht Hj Hnf | s1 ci a r Hn Hall Ha | s1 ci a r Hn Hall Ha].
  - eexists. reflexivity.
  - destruct Hn as (Hi & _ & _ & _ & _ & Hw). apply IH; [exact HW'|]. rewrite Hw. lia.
  - destruct (wnorm_WI _ _ _ _ _ _ _ HW Hn) as [(HB1 & Hf1 & _) _]. destruct Hn as (Hi & Eci & Hci & Hc & _ & Hw).
    apply IH; [exact HW'|].
    assert (nth j r 0%Z <> fl) as Hx by (intros Q; rewrite Q, Hf1 in Hnf; discriminate).
    assert (watch_list (add_watch (nth j r 0%Z) ci (set_watch_list (set_clause s1 ci (a :: nth j r 0%Z :: upd r j fl)) fl (remove_swap_last (watch_list s1 fl) i))) fl
            = remove_swap_last (watch_list s1 fl) i) as W4.
    { unfold add_watch. rewrite watch_list_set_other by (intros Q; apply Hx; symmetry; exact Q). rewrite watch_list_set_same.
      assert (slot_len (set_clause s1 ci (a :: nth j r 0%Z :: upd r j fl)) fl = slot_len s1 fl) as Q0 by (unfold slot_len, set_clause; destruct (ci <? length (s_orig s1)); reflexivity).
      rewrite Q0. assert (lvar fl < slot_len s1 fl) as Q1.
      { apply watch_nonempty_in_range. rewrite Hw. intros Q2. rewrite Q2 in Hi. simpl in Hi. lia. }
      destruct (Nat.ltb_spec (lvar fl) (slot_len s1 fl)); [reflexivity | lia]. }
    rewrite W4, length_remove_swap_last, Hw. lia.
  - eexists. reflexivity.
  - destruct Hn as (Hi & _ & _ & _ & _ & Hw). apply IH; [exact HW'|].
    change (watch_list (assign_lit a (Some ci) s1) fl) with (watch_list s1 fl). rewrite Hw. lia.
Qed.

Lemma head_step_total : forall inner s, BI s -> s_head s < length (s_trail s) -> 2 * n_clauses s < inner ->
  exists res, head_step inner s = Some res.
Proof.
  intros inner s H Hlt Hin. unfold head_step. pose proof (head_step_WI s H Hlt) as HW.
  set (s1 := set_head s (S (s_head s))) in *. set (fl := false_lit_of s1 (trail_at s (s_head s))) in *.
  destruct (prop_bin (implications s1 fl) s1) as [s2 [ci|]] eqn:EB; [eexists; reflexivity|].
  destruct (prop_bin_WI fl _ s1 s2 None HW (fun p Hp => Hp) EB) as [HW2 _].
  apply prop_watch_total; [exact HW2|]. pose proof (ex_n _ _ (psteps_ext _ _ (prop_bin_psteps _ _ _ _ EB))) as En.
  pose proof (watch_list_len s2 fl (bi_wle s2 (proj1 HW2))) as Q. rewrite En in Q. change (n_clauses s1) with (n_clauses s) in Q. lia.
Qed.

Lemma prop_loop_total : forall n inner fuel s, BI s -> nv s = S n -> 2 * n_clauses s < inner -> n - s_head s < fuel ->
  exists res, prop_loop fuel inner s = Some res.
Proof.
  intros n inner. induction fuel as [|f IH]; intros s H Hn Hin Hf; [lia|]. simpl.
  destruct (Nat.ltb_spec (s_head s) (length (s_trail s))) as [L|L]; [|eexists; reflexivity].
  destruct (head_step_total inner s H L Hin) as [[s1 r] EH]. rewrite EH.
  destruct r as [ci|]; [eexists; reflexivity|].
  destruct (head_step_BI _ _ _ _ H L EH) as [H1 _]. destruct (head_step_frame _ _ _ _ EH) as [Eh _].
  pose proof (ex_n _ _ (psteps_ext _ _ (head_step_psteps _ _ _ _ EH))) as En.
  apply IH; [exact H1 | rewrite (head_step_nv _ _ _ _ EH); exact Hn | rewrite En; exact Hin|].
  pose proof (trail_len_le s n H Hn). lia.
Qed.

Theorem propagate_total : forall n fuel A s, BI s -> assum_ok (nv s) A -> nv s = S n ->
  2 * n_clauses s < fuel -> n < fuel -> exists res, propagate fuel A s = Some res.
Proof.
  intros n fuel A s H HA Hn Hc Hf. unfold propagate. destruct (Nat.eqb_spec (cur_level s) 0) as [Hl|Hl].
  - destruct (prop_assums A s) as [s1 [|]] eqn:EA; [eexists; reflexivity|].
    destruct (prop_assums_BI _ _ _ _ HA H Hl EA) as (H1 & _ & Hn1). pose proof (ex_n _ _ (psteps_ext _ _ (prop_assums_psteps _ _ _ _ EA))) as En.
    apply (prop_loop_total n); [exact H1 | congruence | rewrite En; exact Hc | lia].
  - apply (prop_loop_total n); [exact H | exact Hn | exact Hc | lia].
Qed.

Lemma analyze_not_none : forall s ci, BI s -> conflict_ok s ci -> cur_level s <> 0 -> analyze s ci <> None.
Proof.
  intros s ci H (Hci & Hfalse & Hlev) Hc. destruct (BI_analyze_hyps s H) as (HT & Hnz & HR & HD).
  destruct (analyze_lits_spec s ci HT Hnz HR HD ltac:(lia) (get_clause_in_db s ci Hci) Hfalse) as [_ Hshape].
  destruct (Hshape Hlev) as (u & ll' & Ell & _). unfold analyze. destruct (Nat.eqb_spec (cur_level s) 0); [contradiction|].
  fold (analyze_lits s ci). rewrite Ell. discriminate.
Qed.

(* the state after a model was recorded and every literal of its blocking clause is false at level 0 *)
Definition blk_closed (s : st) (n : nat) : st :=
  let s1 := unassign_to 0 (append_learned (blocking_of s n) 0 s) in
  set_last_learned s1 (sort_blocking s1 (blocking_of s n)).

Lemma LI_conflict_ok : forall P L ci, LI P L -> l_conflict L = CAt ci -> l_dec_level L <> 0 -> conflict_ok (l_st L) ci.
Proof. intros P L ci [_ _ _ Hdec Hconf] EC Hd. rewrite EC in Hconf. destruct Hconf as [Q|Q]; [congruence | exact Q]. Qed.

Lemma step_prop_BI : forall P L x, LI P L -> step_prop P L x -> BI x /\ nv x = S (p_nvars P).
Proof.
  intros P L x HL Hp. pose proof HL as [HB Hnv HA Hdec Hconf].
  destruct Hp as [EC EAll Hlim Ho | v orc EC _ _ Hv Hvn | ci lc bt lbd lv EC Hd EA _ _ _ | ci lc bt lbd EC Hd EA _].
  - destruct (blk_s4_BI (l_st L) (p_nvars P) HB Hnv Ho) as (H4 & _ & Hn4). split; [exact H4 | congruence].
  - rewrite EC in Hconf.
    destruct (decide_BI (l_st L) v (nth v (s_phase (l_st L)) true) HB Hconf (proj1 Hv) ltac:(rewrite Hnv; lia) Hvn) as (H1 & _ & Hn1).
    split; [exact H1 | congruence].
  - destruct (learn_BI (l_st L) ci lc bt lbd HB (LI_conflict_ok P L ci HL EC Hd) EA) as (H3 & _ & Hn3).
    destruct (restart_BI _ H3) as (H4 & _ & Hn4). split; [exact H4 | exact (eq_trans Hn4 (eq_trans Hn3 Hnv))].
  - destruct (learn_BI (l_st L) ci lc bt lbd HB (LI_conflict_ok P L ci HL EC Hd) EA) as (H3 & _ & Hn3).
    split; [exact H3 | exact (eq_trans Hn3 Hnv)].
Qed.

(* which of the three kinds of iteration is due is read off the loop variables *)
Inductive kind := KBlock | KDecide | KConflict.
Definition kind_of (P : params) (L : loop) : kind :=
  match l_conflict L with
  | CNone => if all_assigned (l_st L) (p_nvars P) then KBlock else KDecide
  | _ => KConflict
  end.

(* an iteration that goes on (step_cont, DeepRun.v), with what the arguments below use of the new loop variables *)
Inductive cont_view (fuel : nat) (P : params) (L L' : loop) : Prop :=
| cv_closed : l_conflict L = CNone -> all_assigned (l_st L) (p_nvars P) = true ->
    (Z.of_nat (S (length (l_sols L))) < p_limit P)%Z -> blk_open (l_st L) (p_nvars P) = 0 ->
    l_st L' = blk_closed (l_st L) (p_nvars P) -> l_sols L' = solution_of (l_st L) (p_nvars P) :: l_sols L ->
    l_luby_idx L' = l_luby_idx L -> cont_view fuel P L L'
| cv_prop : forall x, step_prop P L x -> propagate fuel (p_assum P) x = Some (l_st L', l_conflict L') ->
    l_sols L' = match kind_of P L with KBlock => solution_of (l_st L) (p_nvars P) :: l_sols L | _ => l_sols L end ->
    (l_luby_idx L <= l_luby_idx L')%Z ->
    (* max_conflicts is tested after a decision only *)
    (kind_of P L = KDecide -> (s_confl (l_st L') < p_max_conflicts P)%Z) -> cont_view fuel P L L'.

Lemma main_step_cont_view : forall fuel P L L', main_step fuel P L = Cont L' -> cont_view fuel P L L'.
Proof.
  intros fuel P L L' E.
  destruct (main_step_cont fuel P L L' E) as [EC EAll Hlim Ho | s5 c EC EAll Hlim Ho EP | v orc s2 c EC EAll EO Hv Hvn EP Hmc
                                               | ci lc bt lbd lv s5 c EC Hd EA Hnx Hmr Elv EP | ci lc bt lbd s5 c EC Hd EA Hnx EP].
  - apply cv_closed; auto.
  - apply (cv_prop fuel P L _ _ (sp_block P L EC EAll Hlim Ho)); unfold kind_of; rewrite ?EC, ?EAll;
      [exact EP | reflexivity | apply Z.le_refl | discriminate].
  - apply (cv_prop fuel P L _ _ (sp_decide P L v orc EC EAll EO Hv Hvn)); unfold kind_of; rewrite ?EC, ?EAll;
      [exact EP | reflexivity | apply Z.le_refl | intros _; exact Hmc].
  - apply (cv_prop fuel P L _ _ (sp_restart P L ci lc bt lbd lv EC Hd EA Hnx Hmr Elv)); unfold kind_of; rewrite ?EC;
      [exact EP | reflexivity | simpl; lia | discriminate].
  - apply (cv_prop fuel P L _ _ (sp_learn P L ci lc bt lbd EC Hd EA Hnx)); unfold kind_of; rewrite ?EC;
      [exact EP | reflexivity | apply Z.le_refl | discriminate].
Qed.
