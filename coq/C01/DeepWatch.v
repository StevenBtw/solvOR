(* C01 deep model - the watch structure, "at most" half of invariant (W):
     watch_le : clause ci occurs in the watch list of literal l at most as often as l stands on positions 0 / 1 of ci
                (in particular: a watched clause has length >= 2, is a clause of the database, and is watched on a literal
                of its first two positions)
     big_ok   : an entry (implied, ci) of the implication list of literal fl is the binary clause {fl, implied} of the database
   and their preservation by what the watch loop does to a clause (swap01, moving a watch) and by every operation
   that leaves clauses and lists alone (db_eq).  Also: what get_clause, watch_list, implications read after set_clause
   and set_watch_list; counting in watch lists (cnt); what find_nonfalse returns. *)
From Coq Require Import List ZArith Arith Lia.
Import ListNotations.
From SV Require Import C01.SatSpec C01.Machine C01.DeepCdcl C01.DeepBase.
Close Scope Z_scope.
Open Scope nat_scope.

Definition db_eq (s s' : st) : Prop :=
  s_orig s' = s_orig s /\ s_learned s' = s_learned s /\ s_wpos s' = s_wpos s /\ s_wneg s' = s_wneg s
  /\ s_bpos s' = s_bpos s /\ s_bneg s' = s_bneg s.

Lemma db_eq_refl : forall s, db_eq s s.
Proof. intros s. repeat split. Qed.

Lemma assign_db_eq : forall v b r s, db_eq s (assign v b r s).
Proof. intros. repeat split. Qed.
Lemma bump_confl_db_eq : forall s, db_eq s (bump_confl s).
Proof. intros. repeat split. Qed.
Lemma set_head_db_eq : forall s h, db_eq s (set_head s h).
Proof. intros. repeat split. Qed.
Lemma push_lim_db_eq : forall s, db_eq s (push_lim s).
Proof. intros. repeat split. Qed.
Lemma unassign_to_db_eq : forall k s, db_eq s (unassign_to k s).
Proof.
  intros k s. unfold unassign_to. destruct (unwind _ (s_vals s) (s_phase s) (s_trail s)) as [[a b] c]. repeat split.
Qed.

Lemma db_eq_get_clause : forall s s' ci, db_eq s s' -> get_clause s' ci = get_clause s ci.
Proof. intros s s' ci (H1 & H2 & _). unfold get_clause. rewrite H1, H2. reflexivity. Qed.

Lemma db_eq_n_clauses : forall s s', db_eq s s' -> n_clauses s' = n_clauses s.
Proof. intros s s' (H1 & H2 & _). unfold n_clauses. rewrite H1, H2. reflexivity. Qed.

Lemma db_eq_watch_list : forall s s' l, db_eq s s' -> watch_list s' l = watch_list s l.
Proof. intros s s' l (_ & _ & H3 & H4 & _). unfold watch_list. rewrite H3, H4. reflexivity. Qed.

Lemma db_eq_implications : forall s s' l, db_eq s s' -> implications s' l = implications s l.
Proof. intros s s' l (_ & _ & _ & _ & H5 & H6). unfold implications. rewrite H5, H6. reflexivity. Qed.

Lemma n_clauses_set_clause : forall s ci c, n_clauses (set_clause s ci c) = n_clauses s.
Proof. intros. unfold set_clause, n_clauses. destruct (ci <? length (s_orig s)); simpl; rewrite upd_length; reflexivity. Qed.

Lemma get_clause_set_clause_eq : forall s ci c, ci < n_clauses s -> get_clause (set_clause s ci c) ci = c.
Proof.
  intros s ci c H. unfold n_clauses in H. unfold set_clause, get_clause.
  destruct (Nat.ltb_spec ci (length (s_orig s))) as [L|L]; simpl; rewrite ?upd_length.
  - destruct (Nat.ltb_spec ci (length (s_orig s))); [|lia]. apply nth_upd_eq. exact L.
  - destruct (Nat.ltb_spec ci (length (s_orig s))); [lia|]. apply nth_upd_eq. lia.
Qed.

Lemma get_clause_set_clause_neq : forall s ci c r, r <> ci -> get_clause (set_clause s ci c) r = get_clause s r.
Proof.
  intros s ci c r H. unfold set_clause, get_clause.
  destruct (Nat.ltb_spec ci (length (s_orig s))) as [L|L]; simpl; rewrite ?upd_length.
  - destruct (r <? length (s_orig s)); [|reflexivity]. apply nth_upd_neq. lia.
  - destruct (Nat.ltb_spec r (length (s_orig s))) as [L2|L2]; [reflexivity|]. apply nth_upd_neq. lia.
Qed.

Lemma watch_list_set_clause : forall s ci c l, watch_list (set_clause s ci c) l = watch_list s l.
Proof. intros. unfold set_clause, watch_list. destruct (ci <? length (s_orig s)); reflexivity. Qed.

Lemma implications_set_clause : forall s ci c l, implications (set_clause s ci c) l = implications s l.
Proof. intros. unfold set_clause, implications. destruct (ci <? length (s_orig s)); reflexivity. Qed.

Lemma slot_eq : forall l l', lpos l = lpos l' -> lvar l = lvar l' -> l = l'.
Proof.
  intros l l' H1 H2. unfold lpos, lvar in *. assert (Z.abs l = Z.abs l') as Q.
  { rewrite <- !Zabs2Nat.id_abs. rewrite H2. reflexivity. }
  destruct (Z.ltb_spec 0 l); destruct (Z.ltb_spec 0 l'); try discriminate; lia.
Qed.

Definition slot_len (s : st) (l : Z) : nat := if lpos l then length (s_wpos s) else length (s_wneg s).

Lemma watch_list_set_same : forall s l ws, watch_list (set_watch_list s l ws) l = if lvar l <? slot_len s l then ws else [].
Proof.
  intros s l ws. unfold watch_list, set_watch_list, slot_len. destruct (lpos l) eqn:E; simpl.
  - destruct (Nat.ltb_spec (lvar l) (length (s_wpos s))) as [L|L]; [apply nth_upd_eq; exact L | apply nth_overflow; rewrite upd_length; exact L].
  - destruct (Nat.ltb_spec (lvar l) (length (s_wneg s))) as [L|L]; [apply nth_upd_eq; exact L | apply nth_overflow; rewrite upd_length; exact L].
Qed.

Lemma watch_list_set_other : forall s l ws l', l' <> l -> watch_list (set_watch_list s l ws) l' = watch_list s l'.
Proof.
  intros s l ws l' H. unfold watch_list, set_watch_list. destruct (lpos l) eqn:E; destruct (lpos l') eqn:E'; simpl; try reflexivity;
    apply nth_upd_neq; intros Q; apply H; apply slot_eq; congruence.
Qed.

Lemma n_clauses_set_watch_list : forall s l ws, n_clauses (set_watch_list s l ws) = n_clauses s.
Proof. intros. unfold set_watch_list, n_clauses. destruct (lpos l); reflexivity. Qed.

Lemma get_clause_set_watch_list : forall s l ws ci, get_clause (set_watch_list s l ws) ci = get_clause s ci.
Proof. intros. unfold set_watch_list, get_clause. destruct (lpos l); reflexivity. Qed.

Lemma implications_set_watch_list : forall s l ws fl, implications (set_watch_list s l ws) fl = implications s fl.
Proof. intros. unfold set_watch_list, implications. destruct (lpos l); reflexivity. Qed.

Definition cnt (ws : list nat) (ci : nat) : nat := count_occ Nat.eq_dec ws ci.

Definition pos01 (c : clause) (l : Z) : nat :=
  match c with
  | a :: b :: _ => (if (a =? l)%Z then 1 else 0) + (if (b =? l)%Z then 1 else 0)
  | _ => 0
  end.

Definition watch_le (s : st) : Prop :=
  forall l ci, cnt (watch_list s l) ci <= (if ci <? n_clauses s then pos01 (get_clause s ci) l else 0).

Definition big_ok (s : st) : Prop :=
  forall fl implied ci, In (implied, ci) (implications s fl) ->
    ci < n_clauses s /\ (get_clause s ci = [fl; implied] \/ get_clause s ci = [implied; fl]).

Lemma watch_le_db_eq : forall s s', db_eq s s' -> watch_le s -> watch_le s'.
Proof.
  intros s s' E H l ci. rewrite (db_eq_watch_list _ _ _ E), (db_eq_n_clauses _ _ E), (db_eq_get_clause _ _ _ E). apply H.
Qed.

Lemma big_ok_db_eq : forall s s', db_eq s s' -> big_ok s -> big_ok s'.
Proof.
  intros s s' E H fl implied ci Hin. rewrite (db_eq_implications _ _ _ E) in Hin.
  rewrite (db_eq_n_clauses _ _ E), (db_eq_get_clause _ _ _ E). apply H. exact Hin.
Qed.

Lemma cnt_app : forall a b x, cnt (a ++ b) x = cnt a x + cnt b x.
Proof. intros. unfold cnt. apply count_occ_app. Qed.

Lemma cnt_nil : forall x, cnt [] x = 0.
Proof. reflexivity. Qed.

Lemma cnt_one : forall x y, cnt [x] y = if Nat.eq_dec x y then 1 else 0.
Proof. intros. unfold cnt. simpl. destruct (Nat.eq_dec x y); reflexivity. Qed.

Lemma cnt_pos_In : forall ws x, In x ws -> 1 <= cnt ws x.
Proof. intros ws x H. unfold cnt. apply (count_occ_In Nat.eq_dec) in H. lia. Qed.

Lemma watch_le_member : forall s l ci, watch_le s -> In ci (watch_list s l) ->
  ci < n_clauses s /\ exists a b r, get_clause s ci = a :: b :: r /\ (a = l \/ b = l).
Proof.
  intros s l ci H Hin. pose proof (H l ci) as Q. pose proof (cnt_pos_In _ _ Hin) as Q1.
  destruct (Nat.ltb_spec ci (n_clauses s)) as [L|L]; [|lia]. split; [exact L|].
  unfold pos01 in Q. destruct (get_clause s ci) as [|a [|b r]]; try lia. exists a, b, r. split; [reflexivity|].
  destruct (Z.eqb_spec a l); [left; assumption|]. destruct (Z.eqb_spec b l); [right; assumption|]. lia.
Qed.

Lemma pos01_swap01 : forall c l, pos01 (swap01 c) l = pos01 c l.
Proof. intros c l. unfold pos01, swap01. destruct c as [|a [|b r]]; auto. lia. Qed.

Lemma removelast_app_one : forall {A} (l : list A) x, removelast (l ++ [x]) = l.
Proof. intros. apply removelast_last. Qed.

Lemma last_app_one : forall {A} (l : list A) x d, last (l ++ [x]) d = x.
Proof. intros. apply last_last. Qed.

Lemma upd_app_mid : forall {A} (a : list A) x b y, upd (a ++ x :: b) (length a) y = a ++ y :: b.
Proof. induction a as [|h a IH]; intros; simpl; [reflexivity|]. rewrite IH. reflexivity. Qed.

Lemma list_last_case : forall {A} (l : list A), l = [] \/ exists l' z, l = l' ++ [z].
Proof.
  intros A l. destruct l as [|h t]; [left; reflexivity|]. right.
  exists (removelast (h :: t)), (last (h :: t) h). apply app_removelast_last. discriminate.
Qed.

Lemma cnt_remove_swap_last : forall ws i x, i < length ws ->
  cnt ws x = (if Nat.eq_dec (nth i ws 0) x then 1 else 0) + cnt (remove_swap_last ws i) x.
Proof.
  intros ws i x H. destruct (nth_split ws 0 H) as (a & b & E & La). unfold remove_swap_last.
  set (y := nth i ws 0) in *. rewrite E, <- La. change (a ++ y :: b) with (a ++ [y] ++ b).
  destruct (list_last_case b) as [Eb|(b' & z & Eb)]; subst b.
  - rewrite app_nil_r, last_app_one, upd_app_mid, removelast_app_one, cnt_app, cnt_one. apply Nat.add_comm.
  - rewrite !app_assoc, last_app_one, <- !app_assoc. simpl. rewrite upd_app_mid.
    change (a ++ z :: b' ++ [z]) with (a ++ (z :: b') ++ [z]). rewrite app_assoc, removelast_app_one.
    change (z :: b') with ([z] ++ b'). change (y :: b' ++ [z]) with ([y] ++ b' ++ [z]). rewrite !cnt_app, !cnt_one. lia.
Qed.

Lemma watch_le_swap01 : forall s ci, watch_le s -> ci < n_clauses s ->
  watch_le (set_clause s ci (swap01 (get_clause s ci))).
Proof.
  intros s ci H Hci l cj. rewrite watch_list_set_clause, n_clauses_set_clause.
  destruct (Nat.eq_dec cj ci) as [E|E].
  - subst cj. rewrite get_clause_set_clause_eq by exact Hci. rewrite pos01_swap01. apply H.
  - rewrite get_clause_set_clause_neq by exact E. apply H.
Qed.

Lemma swap1k_shape : forall a b rest j, swap1k (a :: b :: rest) (S (S j)) = a :: nth j rest 0%Z :: upd rest j b.
Proof. intros. unfold swap1k. simpl. reflexivity. Qed.

Lemma cnt_set_watch_list_le : forall s l ws l' cj,
  cnt (watch_list (set_watch_list s l ws) l') cj <= if Z.eq_dec l' l then cnt ws cj else cnt (watch_list s l') cj.
Proof.
  intros s l ws l' cj. destruct (Z.eq_dec l' l) as [E|E].
  - subst l'. rewrite watch_list_set_same. destruct (lvar l <? slot_len s l); [apply Nat.le_refl | apply Nat.le_0_l].
  - rewrite watch_list_set_other by exact E. apply Nat.le_refl.
Qed.

(* the watch of clause ci on fl (position 1) is moved to its literal x at position k >= 2: the list of fl loses one
   occurrence of ci, the list of x gains one, and so do the positions 0 / 1 of the clause *)
Lemma watch_le_move : forall s fl i a rest j,
  watch_le s -> i < length (watch_list s fl) ->
  get_clause s (nth i (watch_list s fl) 0) = a :: fl :: rest -> j < length rest -> nth j rest 0%Z <> fl ->
  watch_le (add_watch (nth j rest 0%Z) (nth i (watch_list s fl) 0)
             (set_watch_list (set_clause s (nth i (watch_list s fl) 0) (a :: nth j rest 0%Z :: upd rest j fl))
                             fl (remove_swap_last (watch_list s fl) i))).
Proof.
  intros s fl i a rest j H Hi Hc Hj Hx. set (ws := watch_list s fl) in *. set (ci := nth i ws 0) in *.
  set (x := nth j rest 0%Z) in *. set (s2 := set_clause s ci (a :: x :: upd rest j fl)).
  destruct (watch_le_member s fl ci H (nth_In _ _ Hi)) as [Hci _].
  intros l cj. unfold add_watch. rewrite !n_clauses_set_watch_list, !get_clause_set_watch_list.
  set (new := cnt (watch_list _ l) cj). set (d := if Nat.eq_dec ci cj then 1 else 0).
  assert (new + (if Z.eq_dec l fl then d else 0) <= cnt (watch_list s l) cj + (if Z.eq_dec l x then d else 0)) as Hnew.
  { unfold new. eapply Nat.le_trans; [apply Nat.add_le_mono_r; apply cnt_set_watch_list_le|]. destruct (Z.eq_dec l x) as [E|E].
    - subst l. destruct (Z.eq_dec x fl); [contradiction|].
      rewrite cnt_app, cnt_one, watch_list_set_other by exact Hx. unfold s2. rewrite watch_list_set_clause. fold d. clear. lia.
    - eapply Nat.le_trans; [apply Nat.add_le_mono_r; apply cnt_set_watch_list_le|]. destruct (Z.eq_dec l fl) as [E2|E2].
      + subst l. fold ws. rewrite (cnt_remove_swap_last ws i cj Hi). fold ci d. clear. lia.
      + unfold s2. rewrite watch_list_set_clause. clear. lia. }
  clearbody new. subst s2. rewrite n_clauses_set_clause.
  pose proof (H l cj) as Hl. unfold d in Hnew. clear d. destruct (Nat.eq_dec ci cj) as [E|E].
  - (* the moved clause itself *)
    subst cj. rewrite get_clause_set_clause_eq by exact Hci. rewrite Hc in Hl.
    destruct (Nat.ltb_spec ci (n_clauses s)); [|lia]. unfold pos01 in *. clear - Hnew Hl Hx.
    destruct (Z.eq_dec l fl) as [E1|E1]; [|destruct (Z.eq_dec l x) as [E2|E2]].
    + subst l. destruct (Z.eq_dec fl x); [congruence|]. rewrite Z.eqb_refl in Hl. destruct (Z.eqb_spec x fl); [contradiction|]. lia.
    + subst l. rewrite Z.eqb_refl. destruct (Z.eqb_spec fl x); [congruence|]. lia.
    + destruct (Z.eqb_spec fl l); [congruence|]. destruct (Z.eqb_spec x l); [congruence|]. lia.
  - rewrite get_clause_set_clause_neq by (intros C; apply E; symmetry; exact C).
    clear - Hnew Hl. destruct (Z.eq_dec l fl); destruct (Z.eq_dec l x); lia.
Qed.

Lemma big_ok_swap01 : forall s ci, big_ok s -> ci < n_clauses s -> big_ok (set_clause s ci (swap01 (get_clause s ci))).
Proof.
  intros s ci H Hci fl implied cj Hin. rewrite implications_set_clause in Hin. rewrite n_clauses_set_clause.
  destruct (H fl implied cj Hin) as [Q1 Q2]. split; [exact Q1|].
  destruct (Nat.eq_dec cj ci) as [E|E].
  - subst cj. rewrite get_clause_set_clause_eq by exact Hci. destruct Q2 as [Q2|Q2]; rewrite Q2; simpl; auto.
  - rewrite get_clause_set_clause_neq by exact E. exact Q2.
Qed.

Lemma big_ok_set_long : forall s ci c, big_ok s -> 3 <= length (get_clause s ci) -> big_ok (set_clause s ci c).
Proof.
  intros s ci c H Hlen fl implied cj Hin. rewrite implications_set_clause in Hin. rewrite n_clauses_set_clause.
  destruct (H fl implied cj Hin) as [Q1 Q2]. split; [exact Q1|].
  destruct (Nat.eq_dec cj ci) as [E|E].
  - subst cj. exfalso. destruct Q2 as [Q2|Q2]; rewrite Q2 in Hlen; simpl in Hlen; lia.
  - rewrite get_clause_set_clause_neq by exact E. exact Q2.
Qed.

Lemma big_ok_set_watch_list : forall s l ws, big_ok s -> big_ok (set_watch_list s l ws).
Proof.
  intros s l ws H fl implied cj Hin. rewrite implications_set_watch_list in Hin.
  rewrite n_clauses_set_watch_list, get_clause_set_watch_list. apply H. exact Hin.
Qed.

Lemma big_ok_add_watch : forall l i s, big_ok s -> big_ok (add_watch l i s).
Proof. intros. unfold add_watch. apply big_ok_set_watch_list. assumption. Qed.

Lemma find_nonfalse_spec : forall s rest k0 k, find_nonfalse s rest k0 = Some k ->
  k0 <= k /\ k - k0 < length rest /\ is_false (lit_value s (nth (k - k0) rest 0%Z)) = false.
Proof.
  intros s rest. induction rest as [|l rest IH]; intros k0 k H; simpl in H; [discriminate|].
  destruct (is_false (lit_value s l)) eqn:E.
  - apply IH in H. destruct H as (H1 & H2 & H3). split; [lia|]. split; [simpl; lia|].
    replace (k - k0) with (S (k - S k0)) by lia. simpl. exact H3.
  - injection H as H. subst k. rewrite Nat.sub_diag. simpl. split; [lia|]. split; [lia|exact E].
Qed.

Lemma find_nonfalse_none : forall s rest k0, find_nonfalse s rest k0 = None -> forall l, In l rest -> is_false (lit_value s l) = true.
Proof.
  intros s rest. induction rest as [|x rest IH]; intros k0 H l Hl; simpl in *; [contradiction|].
  destruct (is_false (lit_value s x)) eqn:E; [|discriminate]. destruct Hl as [Q|Hl]; [subst; exact E | eapply IH; eauto].
Qed.
