(* C02 - budget counters are monotone; MAX_ITER is accepted only when a budget is met. *)
From Coq Require Import List ZArith Bool Lia.
Import ListNotations.
From SV Require Import C01.Machine C01.Budget.
Open Scope Z_scope.

Definition b_le (b b' : bstate) : Prop :=
  b_learns b <= b_learns b' /\ b_restarts b <= b_restarts b' /\ b_idx b <= b_idx b'.

(* hit means: at a restart point with the restart budget used up *)
Definition b_inv (mr : Z) (b : bstate) : Prop :=
  b_hit b = true -> mr <= b_restarts b /\ b_next b <= b_csr b.

(* an accepted event leaves the counters alone unless it is an analysed conflict, which lands in one of three states *)
Lemma b_step_cases : forall lf mc mr b e b', b_step lf mc mr b e = Some b' ->
  b' = b
  \/ (b_next b <= b_csr b + 1 /\ mr <= b_restarts b
      /\ b' = mkB (b_learns b + 1) (b_csr b + 1) (b_idx b) (b_next b) (b_restarts b) true)
  \/ (exists v, b' = mkB (b_learns b + 1) 0 (b_idx b + 1) (lf * v) (b_restarts b + 1) false)
  \/ b' = mkB (b_learns b + 1) (b_csr b + 1) (b_idx b) (b_next b) (b_restarts b) false.
Proof.
  intros lf mc mr b e b' H.
  assert ((if b_hit b then None else Some b) = Some b' -> b' = b) as Hsame by (destruct (b_hit b); congruence).
  destruct e as [n pu un asm | c [|] | m | [| |]]; simpl in H; try (left; exact (Hsame H)).
  - destruct (b_hit b); [discriminate|]. right.
    destruct (Z.leb_spec (b_next b) (b_csr b + 1)) as [E1|E1]; [|right; right; congruence].
    destruct (Z.leb_spec mr (b_restarts b)) as [E2|E2]; [left; split; [exact E1 | split; [exact E2 | congruence]]|].
    destruct (luby_val (b_idx b + 1)) as [v|]; [right; left; exists v; congruence | discriminate].
  - left. destruct (b_hit b || (mc <=? b_learns b + 1)); congruence.
Qed.

Lemma b_step_le : forall lf mc mr b e b', b_step lf mc mr b e = Some b' -> b_le b b'.
Proof.
  intros lf mc mr b e b' H. unfold b_le.
  destruct (b_step_cases _ _ _ _ _ _ H) as [E|[(_ & _ & E)|[[v E]|E]]]; subst b'; simpl; lia.
Qed.

Lemma b_step_inv : forall lf mc mr b e b', b_inv mr b -> b_step lf mc mr b e = Some b' -> b_inv mr b'.
Proof.
  intros lf mc mr b e b' HI H. unfold b_inv.
  destruct (b_step_cases _ _ _ _ _ _ H) as [E|[(E1 & E2 & E)|[[v E]|E]]]; subst b'; simpl;
    [exact HI | intros _; lia | discriminate | discriminate].
Qed.

Lemma b_le_refl : forall b, b_le b b.
Proof. intros b. unfold b_le. lia. Qed.

Lemma b_le_trans : forall a b c, b_le a b -> b_le b c -> b_le a c.
Proof. unfold b_le. intros a b c H1 H2. lia. Qed.

Lemma b_run_from_le : forall lf mc mr evs b b', b_run_from lf mc mr b evs = Some b' -> b_le b b'.
Proof.
  intros lf mc mr evs. induction evs as [|e evs IH]; intros b b' H; simpl in H.
  - injection H as H. subst. apply b_le_refl.
  - destruct (b_step lf mc mr b e) as [b1|] eqn:Es; [|discriminate].
    apply (b_le_trans _ b1); [exact (b_step_le _ _ _ _ _ _ Es) | apply IH; exact H].
Qed.

Theorem budget_monotone : forall lf mc mr evs1 evs2 b0 b1 b2,
  b_run_from lf mc mr b0 evs1 = Some b1 -> b_run_from lf mc mr b1 evs2 = Some b2 ->
  b_run_from lf mc mr b0 (evs1 ++ evs2) = Some b2 /\ b_le b0 b1 /\ b_le b1 b2.
Proof.
  intros lf mc mr evs1 evs2 b0 b1 b2 H1 H2. split; [|split; eapply b_run_from_le; eauto].
  revert b0 H1. induction evs1 as [|e evs1 IH]; intros b0 H1; simpl in *; [congruence|].
  destruct (b_step lf mc mr b0 e) as [b'|]; [apply IH; exact H1 | discriminate].
Qed.

Lemma b_run_from_inv : forall lf mc mr evs b b', b_inv mr b -> b_run_from lf mc mr b evs = Some b' -> b_inv mr b'.
Proof.
  intros lf mc mr evs. induction evs as [|e evs IH]; intros b b' HI H; simpl in H.
  - injection H as H. subst. exact HI.
  - destruct (b_step lf mc mr b e) as [b1|] eqn:Es; [|discriminate].
    apply (IH b1 b'); [exact (b_step_inv _ _ _ _ _ _ HI Es) | exact H].
Qed.

Lemma b_run_from_app : forall lf mc mr evs1 evs2 b0 b2, b_run_from lf mc mr b0 (evs1 ++ evs2) = Some b2 ->
  exists b1, b_run_from lf mc mr b0 evs1 = Some b1 /\ b_run_from lf mc mr b1 evs2 = Some b2.
Proof.
  intros lf mc mr evs1. induction evs1 as [|e evs1 IH]; intros evs2 b0 b2 H; simpl in *; [exists b0; auto|].
  destruct (b_step lf mc mr b0 e) as [b'|]; [apply IH; exact H | discriminate].
Qed.

(* a MAX_ITER verdict is accepted only when max_conflicts <= L + 1 (L analysed conflicts so far), or the
   run is at a restart point (conflicts_since_restart >= next_restart) with restarts >= max_restarts *)
Theorem budget_partial : forall lf mc mr evs b,
  b_run lf mc mr (evs ++ [EVerdict MAX_ITER]) = Some b ->
  mc <= b_learns b + 1 \/ (mr <= b_restarts b /\ b_next b <= b_csr b).
Proof.
  intros lf mc mr evs b H. unfold b_run in H. destruct (b_init lf) as [b0|] eqn:E0; [|discriminate].
  assert (b_inv mr b0) as HI0.
  { unfold b_init in E0. destruct (luby_val 1); [|discriminate]. injection E0 as E0. subst b0.
    unfold b_inv. simpl. discriminate. }
  destruct (b_run_from_app _ _ _ _ _ _ _ H) as [b1 [R1 R2]]. pose proof (b_run_from_inv _ _ _ _ _ _ HI0 R1) as HI1.
  simpl in R2. destruct (b_hit b1 || (mc <=? b_learns b1 + 1)) eqn:E; [|discriminate]. injection R2 as R2. subst b.
  apply orb_prop in E. destruct E as [E | E]; [right; exact (HI1 E) | left; apply Z.leb_le; exact E].
Qed.
