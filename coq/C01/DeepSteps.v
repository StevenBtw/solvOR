(* C01 deep model - every run is a sequence of elementary steps (estep): those of propagate (pstep, DeepRun.v) and those
   of the main loop.  An invariant preserved by each elementary step is preserved by every iteration of the main loop.
   Used for: literals true at level 0 stay so (true0: the assumptions in DeepAlgo.v, the unit clauses in DeepJOps.v), the
   input clauses keep their literals (DeepAlgo.v), blocking clauses stay in the database (DeepResult.v). *)
From Coq Require Import List ZArith Bool Lia.
Import ListNotations.
From SV Require Import C01.DeepCdcl C01.DeepBase C01.DeepTrail C01.DeepTrailProp C01.DeepAnalyze C01.DeepReason
  C01.DeepReasonProp C01.DeepRunOps C01.DeepReduce C01.DeepRun.
Close Scope Z_scope.
Open Scope nat_scope.

Inductive estep : st -> st -> Prop :=
| es_prop : forall s s', pstep s s' -> estep s s'
| es_append : forall s c k, estep s (append_learned c k s)
| es_set_last : forall s c b L, s_learned s = L ++ [b] -> same_mem c b -> estep s (set_last_learned s c)
| es_reduce : forall s, estep s (reduce_db s)
| es_unassign : forall s k, trail_inv s -> estep s (unassign_to k s)
| es_push_lim : forall s, estep s (push_lim s).

Notation esteps := (steps estep).

Theorem propagate_esteps : forall fuel A s s' c, propagate fuel A s = Some (s', c) -> esteps s s'.
Proof. intros fuel A s s' c E. exact (steps_mono es_prop (propagate_psteps fuel A s s' c E)). Qed.

Definition true0 (a : Z) (s : st) : Prop := lit_value s a = Some true /\ level_of s (lvar a) = 0.

Lemma true0_lvl0 : forall s l, trail_inv s -> cur_level s = 0 -> lit_value s l = Some true -> true0 l s.
Proof.
  intros s l HT Hc Ht. split; [exact Ht|].
  assert (In (lvar l) (s_trail s)) as Hin by (apply (ti_assigned s HT); eapply lit_value_assigned; exact Ht).
  pose proof (level_le_cur s (lvar l) HT Hin). lia.
Qed.

Lemma true0_assign_lit : forall s l r, trail_inv s -> cur_level s = 0 -> lvar l < nv s -> true0 l (assign_lit l r s).
Proof.
  intros s l r HT Hc Hl. unfold assign_lit. split.
  - rewrite lit_value_assign_same by auto. destruct (lpos l); reflexivity.
  - rewrite level_of_assign by (rewrite (ti_len_levels s HT); exact Hl). rewrite Nat.eqb_refl. exact Hc.
Qed.

Lemma true0_asg_eq : forall a s s', asg_eq s s' -> true0 a s -> true0 a s'.
Proof. intros a s s' EA [H1 H2]. split; [rewrite (asg_eq_lit_value _ _ _ EA) | rewrite (asg_eq_level_of _ _ _ EA)]; assumption. Qed.

Lemma true0_estep : forall a s s', estep s s' -> true0 a s -> true0 a s'.
Proof.
  intros a s s' E H. pose proof H as [H1 H2].
  destruct E as [? ? [s v b r Hv | s ci c Hm | s s' EA Eo _ _ | s h] | s c k | s c b L _ _ | s | s k HT | s].
  - (* a literal that is true is not the one being assigned *)
    assert (lvar a <> v) as Hne by (intros C; subst v; exact (lit_value_assigned _ _ _ H1 Hv)).
    split; [rewrite lit_value_assign_other by exact Hne; exact H1|].
    unfold level_of, assign. simpl. rewrite nth_upd_neq by (intros C; apply Hne; symmetry; exact C). exact H2.
  - exact (true0_asg_eq a _ _ (set_clause_asg s ci c) H).
  - exact (true0_asg_eq a _ _ EA H).
  - exact H.
  - exact (true0_asg_eq a _ _ (append_learned_asg c k s) H).
  - exact (true0_asg_eq a _ _ (set_last_learned_asg s c) H).
  - exact (true0_asg_eq a _ _ (reduce_db_asg s) H).
  - (* level 0 survives every backjump *)
    destruct (unassign_to_spec s k HT) as [popped (_ & EL & _ & _ & _ & _ & Hkeep & _ & Hge)].
    split; [|unfold level_of; rewrite EL; exact H2].
    assert (In (lvar a) (s_trail s)) as Hin by (apply (ti_assigned s HT); eapply lit_value_assigned; exact H1).
    destruct (Nat.lt_ge_cases k (cur_level s)) as [L|L].
    + destruct (proj1 (unassign_to_stays_or_goes s k (lvar a) HT Hin L) ltac:(lia)) as [_ Q]. unfold lit_value in *. rewrite Q. exact H1.
    + unfold cur_level in L. rewrite (Hge L) in Hkeep. unfold lit_value in *. rewrite Hkeep by (intros []). exact H1.
  - exact H.
Qed.

Lemma true0_esteps : forall a s s', esteps s s' -> true0 a s -> true0 a s'.
Proof. intros a. apply steps_pres. apply true0_estep. Qed.

Lemma orig_big_add1 : forall a b i s, s_orig (big_add1 a b i s) = s_orig s.
Proof. intros. unfold big_add1. destruct (lpos a); reflexivity. Qed.

Lemma orig_attach : forall c i s, s_orig (attach c i s) = s_orig s.
Proof.
  intros c i s. destruct (attach_cases c i s) as [E|[(a & b & Ec & E)|(a & b & r & Ec & _ & E)]]; rewrite E; [reflexivity | |].
  - unfold big_add. rewrite !orig_big_add1. reflexivity.
  - unfold add_watch. rewrite !orig_set_watch_list. reflexivity.
Qed.

Lemma learned_big_add1 : forall a b i s, s_learned (big_add1 a b i s) = s_learned s /\ s_lbd (big_add1 a b i s) = s_lbd s.
Proof. intros. unfold big_add1. destruct (lpos a); split; reflexivity. Qed.

Lemma learned_attach : forall c i s, s_learned (attach c i s) = s_learned s /\ s_lbd (attach c i s) = s_lbd s.
Proof.
  intros c i s. destruct (attach_cases c i s) as [E|[(a & b & Ec & E)|(a & b & r & Ec & _ & E)]]; rewrite E; [split; reflexivity | |].
  - unfold big_add. split; [rewrite !(proj1 (learned_big_add1 _ _ _ _)) | rewrite !(proj2 (learned_big_add1 _ _ _ _))]; reflexivity.
  - unfold add_watch. split; [rewrite !(proj1 (learned_set_watch_list _ _ _)) | rewrite !(proj2 (learned_set_watch_list _ _ _))]; reflexivity.
Qed.

Lemma es_attach : forall c i s, estep s (attach c i s).
Proof. intros. apply es_prop, ps_db; [apply attach_asg | apply orig_attach | apply learned_attach | apply learned_attach]. Qed.

Lemma orig_attach_all : forall cs i s, s_orig (attach_all cs i s) = s_orig s.
Proof. induction cs as [|c cs IH]; intros i s; simpl; [reflexivity|]. rewrite IH. apply orig_attach. Qed.

Lemma learned_attach_all : forall cs i s, s_learned (attach_all cs i s) = s_learned s /\ s_lbd (attach_all cs i s) = s_lbd s.
Proof.
  induction cs as [|c cs IH]; intros i s; simpl; [split; reflexivity|]. destruct (IH (S i) (attach c i s)) as [Q1 Q2].
  destruct (learned_attach c i s) as [Q3 Q4]. split; congruence.
Qed.

Lemma es_attach_all : forall cs i s, estep s (attach_all cs i s).
Proof. intros. apply es_prop, ps_db; [apply attach_all_asg | apply orig_attach_all | apply learned_attach_all | apply learned_attach_all]. Qed.

Lemma orig_reduce_db : forall s, s_orig (reduce_db s) = s_orig s.
Proof.
  intros s. unfold reduce_db. destruct (length (s_learned s) <? reduce_threshold); [reflexivity|]. rewrite orig_attach_all. reflexivity.
Qed.

Lemma assign_pures_esteps : forall A pl s, esteps s (assign_pures A pl s).
Proof.
  intros A pl. induction pl as [|[v b] pl IH]; intros s; simpl; [apply steps_refl|].
  destruct (is_none (val_of s v) && negb (existsb (fun a => lvar a =? v) A)) eqn:E; [|apply IH].
  apply andb_prop in E. destruct E as [E _].
  assert (val_of s v = None) as Hvn by (destruct (val_of s v); [discriminate | reflexivity]).
  eapply steps_trans; [apply steps_one; apply es_prop, ps_assign; exact Hvn | apply IH].
Qed.

Lemma assign_units_esteps : forall ul s s', assign_units ul s = (s', false) -> esteps s s'.
Proof.
  induction ul as [|[l i] ul IH]; intros s s' E; simpl in E.
  - injection E as E. subst. apply steps_refl.
  - destruct (val_of s (lvar l)) as [b|] eqn:EV.
    + destruct (Bool.eqb b (lpos l)); [exact (IH s s' E) | discriminate].
    + eapply steps_trans; [apply steps_one; apply es_prop, ps_assign; exact EV | exact (IH _ s' E)].
Qed.

Lemma learn_esteps : forall s ci lc bt lbd, BI s -> conflict_ok s ci -> analyze s ci = Some (lc, bt, lbd) ->
  esteps s (learn_st s lc bt lbd).
Proof.
  intros s ci lc bt lbd H Hc E. pose proof (proj1 (learn_BI s ci lc bt lbd H Hc E)) as H3. cbv zeta in H3.
  pose proof (proj1 (bi_ti s H)) as HT. unfold learn_st. set (s1 := unassign_to bt s) in *.
  set (s2 := attach lc (n_clauses s1) (append_learned lc lbd s1)) in *.
  assert (esteps s s2) as R2.
  { eapply steps_step; [|apply es_attach]. eapply steps_step; [apply steps_one; apply es_unassign; exact HT | apply es_append]. }
  destruct lc as [|l0 lc']; [exact R2|]. eapply steps_step; [exact R2|]. apply es_prop, ps_assign.
  (* the asserted literal is new on the trail, hence was unassigned: the trail has no duplicates *)
  assert (trail_inv s2) as HT2.
  { apply (trail_inv_asg_eq s1); [|apply unassign_to_trail_inv; exact HT]. eapply asg_eq_trans; [apply append_learned_asg | apply attach_asg]. }
  pose proof (ti_nodup _ (proj1 (bi_ti _ H3))) as ND. inversion ND as [|? ? Hnin _]; subst.
  destruct (val_of s2 (lvar l0)) eqn:EV; [|reflexivity]. exfalso. apply Hnin. apply (ti_assigned s2 HT2). congruence.
Qed.

Lemma restart_esteps : forall s, trail_inv s -> esteps s (reduce_db (unassign_to 0 s)).
Proof. intros s HT. eapply steps_step; [apply steps_one; apply es_unassign; exact HT | apply es_reduce]. Qed.

Lemma decide_esteps : forall s v b, val_of s v = None -> esteps s (assign v b None (push_lim s)).
Proof.
  intros s v b Hn. eapply steps_step; [apply steps_one; apply es_push_lim|].
  apply es_prop, ps_assign. exact Hn.
Qed.

(* recording a model, from the state in which the blocking clause has been appended: back to level 0, the clause is sorted ... *)
Lemma blk_sorted_esteps : forall s n, BI s -> nv s = S n ->
  let s0 := append_learned (blocking_of s n) 0 s in
  esteps s0 (set_last_learned (unassign_to 0 s0) (sort_blocking (unassign_to 0 s0) (blocking_of s n))).
Proof.
  intros s n HB Hnv s0. eapply steps_step; [|eapply (es_set_last _ _ (blocking_of s n) (s_learned s))].
  - apply steps_one. apply es_unassign. apply (trail_inv_asg_eq s); [apply append_learned_asg | exact (proj1 (bi_ti s HB))].
  - exact (blk_learned1 s n HB Hnv).
  - intros l. unfold sort_blocking. rewrite in_app_iff, !filter_In.
    destruct (is_false (lit_value (unassign_to 0 s0) l)); simpl; intuition congruence.
Qed.

(* ... and, unless it is false, attached (and its first literal asserted if it is unit) *)
Lemma blk_s4_esteps : forall s n, BI s -> nv s = S n -> blk_open s n <> 0 ->
  esteps (append_learned (blocking_of s n) 0 s) (blk_s4 s n).
Proof.
  intros s n HB Hnv Ho. eapply steps_trans; [exact (blk_sorted_esteps s n HB Hnv)|].
  apply (steps_trans (b := blk_s3 s n)).
  - unfold blk_s3. destruct (blk_open s n =? 1); [|apply steps_refl]. destruct (blk_first_open s n Ho) as [Hx1 Hx2].
    apply steps_one. apply es_prop, ps_assign. exact (blk_not_true s n HB Hnv _ Hx1 Hx2).
  - unfold blk_s4. destruct (2 <=? length _); [|apply steps_refl].
    unfold add_watch. eapply steps_step; [apply steps_one|]; apply es_prop, ps_set_watch_list.
Qed.

(* either the list of recorded models is unchanged, or a model was recorded: then its blocking clause was appended (with lbd 0)
   and the rest of the iteration is a sequence of elementary steps from there *)
Theorem main_step_esteps_sols : forall fuel P L L', LI P L -> main_step fuel P L = Cont L' ->
  (l_sols L' = l_sols L /\ esteps (l_st L) (l_st L'))
  \/ (l_conflict L = CNone /\ all_assigned (l_st L) (p_nvars P) = true
      /\ l_sols L' = solution_of (l_st L) (p_nvars P) :: l_sols L
      /\ esteps (append_learned (blocking_of (l_st L) (p_nvars P)) 0 (l_st L)) (l_st L')).
Proof.
  intros fuel P L L' [HB Hnv _ Hdec Hconf] E.
  destruct (main_step_cont fuel P L L' E) as [EC Hall _ Ho | s5 c EC Hall _ Ho EP | v orc s2 c EC _ _ Hv Hvn EP _
                                               | ci lc bt lbd lv s5 c EC Hd EA _ _ _ EP | ci lc bt lbd s5 c EC Hd EA _ EP];
    rewrite EC in Hconf; cbn [l_st l_sols].
  - right. split; [exact EC|]. split; [exact Hall|]. split; [reflexivity|]. exact (blk_sorted_esteps _ _ HB Hnv).
  - right. split; [exact EC|]. split; [exact Hall|]. split; [reflexivity|]. exact (steps_trans (blk_s4_esteps _ _ HB Hnv Ho) (propagate_esteps _ _ _ _ _ EP)).
  - left. split; [reflexivity|]. exact (steps_trans (decide_esteps _ _ _ Hvn) (propagate_esteps _ _ _ _ _ EP)).
  - left. split; [reflexivity|]. destruct Hconf as [Hconf|Hconf]; [lia|].
    pose proof (proj1 (bi_ti _ (proj1 (learn_BI (l_st L) ci lc bt lbd HB Hconf EA)))) as HT3.
    exact (steps_trans (learn_esteps _ _ _ _ _ HB Hconf EA) (steps_trans (restart_esteps _ HT3) (propagate_esteps _ _ _ _ _ EP))).
  - left. split; [reflexivity|]. destruct Hconf as [Hconf|Hconf]; [lia|].
    exact (steps_trans (learn_esteps _ _ _ _ _ HB Hconf EA) (propagate_esteps _ _ _ _ _ EP)).
Qed.

Theorem main_step_esteps : forall fuel P L L', LI P L -> main_step fuel P L = Cont L' -> esteps (l_st L) (l_st L').
Proof.
  intros fuel P L L' HL E. destruct (main_step_esteps_sols fuel P L L' HL E) as [[_ R]|(_ & _ & _ & R)]; [exact R|].
  eapply steps_trans; [apply steps_one; apply es_append | exact R].
Qed.
