(* C02 - the fixed luby() loop computes the Luby sequence within 2*i iterations; the pinned loop
   never returns on i = 2. *)
From Coq Require Import ZArith Bool Lia.
From SV Require Import C01.Luby.
Open Scope Z_scope.

Lemma shiftl1 : forall k, 0 <= k -> Z.shiftl 1 k = 2 ^ k.
Proof.
  intros k Hk. rewrite Z.shiftl_mul_pow2 by exact Hk. lia.
Qed.

Lemma pow2_pos : forall k, 0 <= k -> 0 < 2 ^ k.
Proof. intros k Hk. apply Z.pow_pos_nonneg; lia. Qed.

Lemma pow2_succ : forall k, 1 <= k -> 2 ^ k = 2 * 2 ^ (k - 1).
Proof.
  intros k Hk. replace k with (Z.succ (k - 1)) at 1 by lia. rewrite Z.pow_succ_r by lia. reflexivity.
Qed.

Lemma pow2_gt_lin : forall k, 0 <= k -> k < 2 ^ k.
Proof. intros k Hk. apply Z.pow_gt_lin_r; lia. Qed.

(* one loop iteration of the fixed code, with 1 << k rewritten to 2^k *)
Lemma luby_loop_unfold : forall f i k, 1 <= k ->
  luby_loop (S f) i k =
    if i =? 2 ^ k - 1 then Some (2 ^ (k - 1))
    else if (2 ^ (k - 1) <=? i) && (i <? 2 ^ k - 1)
         then luby_loop f (i - (2 ^ (k - 1) - 1)) 1
         else luby_loop f i (k + 1).
Proof.
  intros f i k Hk. simpl. rewrite !shiftl1 by lia. reflexivity.
Qed.

(* measure 2*i - k decreases strictly with every iteration that does not return *)
Lemma luby_loop_spec : forall fuel i k, 1 <= k -> 2 ^ (k - 1) <= i -> 2 * i - k < Z.of_nat fuel ->
  exists v, luby_loop fuel i k = Some v /\ Luby i v /\ 1 <= v.
Proof.
  induction fuel as [|f IH]; intros i k Hk Hi Hfuel.
  - exfalso. assert (k - 1 < 2 ^ (k - 1)) as H by (apply pow2_gt_lin; lia).
    change (Z.of_nat 0) with 0 in Hfuel. lia.
  - rewrite luby_loop_unfold by exact Hk.
    pose proof (pow2_succ k Hk) as Hsucc.
    assert (0 < 2 ^ (k - 1)) as Hpos by (apply pow2_pos; lia).
    destruct (i =? 2 ^ k - 1) eqn:E1.
    + apply Z.eqb_eq in E1. exists (2 ^ (k - 1)). split; [reflexivity|]. split; [|lia].
      rewrite E1. apply Luby_top. exact Hk.
    + apply Z.eqb_neq in E1.
      destruct ((2 ^ (k - 1) <=? i) && (i <? 2 ^ k - 1)) eqn:E2.
      * apply andb_prop in E2. destruct E2 as [E2 E3]. apply Z.leb_le in E2. apply Z.ltb_lt in E3.
        assert (2 <= k) as Hk2.
        { destruct (Z.eq_dec k 1) as [Hk1|Hk1]; [|lia]. subst k. simpl in *. lia. }
        assert (k - 1 < 2 ^ (k - 1)) as Hlin by (apply pow2_gt_lin; lia).
        destruct (IH (i - (2 ^ (k - 1) - 1)) 1) as [v [Hv [HL Hv1]]].
        -- lia.
        -- simpl. lia.
        -- rewrite Nat2Z.inj_succ in Hfuel. lia.
        -- exists v. split; [exact Hv|]. split; [|exact Hv1].
           apply (Luby_rec k i v Hk); [lia|].
           replace (i - 2 ^ (k - 1) + 1) with (i - (2 ^ (k - 1) - 1)) by lia. exact HL.
      * assert (2 ^ k <= i) as Hge.
        { apply andb_false_iff in E2. destruct E2 as [E2 | E2].
          - apply Z.leb_gt in E2. lia.
          - apply Z.ltb_ge in E2. lia. }
        destruct (IH i (k + 1)) as [v [Hv [HL Hv1]]].
        -- lia.
        -- replace (k + 1 - 1) with k by lia. exact Hge.
        -- rewrite Nat2Z.inj_succ in Hfuel. lia.
        -- exists v. split; [exact Hv|]. split; assumption.
Qed.

Lemma pow2_le_mono : forall a b, 0 <= a <= b -> 2 ^ a <= 2 ^ b.
Proof. intros a b H. apply Z.pow_le_mono_r; lia. Qed.

Lemma block_unique : forall k1 k2 i, 1 <= k1 -> 1 <= k2 ->
  2 ^ (k1 - 1) <= i <= 2 ^ k1 - 1 -> 2 ^ (k2 - 1) <= i <= 2 ^ k2 - 1 -> k1 = k2.
Proof.
  intros k1 k2 i H1 H2 B1 B2.
  destruct (Z.lt_trichotomy k1 k2) as [Hlt | [Heq | Hgt]]; [|exact Heq|].
  - pose proof (pow2_le_mono k1 (k2 - 1)). lia.
  - pose proof (pow2_le_mono k2 (k1 - 1)). lia.
Qed.

(* the block [2^(k-1), 2^k - 1] of i and the rule that applies there *)
Lemma Luby_inv : forall i v, Luby i v -> exists k, 1 <= k /\ 2 ^ (k - 1) <= i <= 2 ^ k - 1
  /\ ((i = 2 ^ k - 1 /\ v = 2 ^ (k - 1)) \/ (i < 2 ^ k - 1 /\ Luby (i - 2 ^ (k - 1) + 1) v)).
Proof.
  intros i v H. destruct H as [k Hk | k i v Hk Hi HL]; exists k; (split; [exact Hk|]).
  - pose proof (pow2_succ k Hk). pose proof (pow2_pos (k - 1)). split; [lia | left; split; reflexivity].
  - split; [lia | right; split; [lia | exact HL]].
Qed.

Lemma Luby_fun : forall i v, Luby i v -> forall v', Luby i v' -> v = v'.
Proof.
  intros i v H. induction H as [k Hk | k i v Hk Hi HL IH]; intros v' H';
    destruct (Luby_inv _ _ H') as (k' & Hk' & Hb & Hrule); pose proof (pow2_succ k Hk); pose proof (pow2_pos (k - 1)).
  - assert (k = k') by (apply (block_unique k k' (2 ^ k - 1)); try assumption; lia). subst k'.
    destruct Hrule as [[_ Ev]|[Hlt _]]; [symmetry; exact Ev | lia].
  - assert (k = k') by (apply (block_unique k k' i); try assumption; lia). subst k'.
    destruct Hrule as [[E _]|[_ HL']]; [lia | apply IH; exact HL'].
Qed.

Theorem luby_spec : forall i, 1 <= i ->
  exists v, luby (luby_fuel i) i = Some v /\ Luby i v /\ 1 <= v
            /\ forall v', Luby i v' -> v' = v.
Proof.
  intros i Hi. unfold luby, luby_fuel.
  destruct (luby_loop_spec (Z.to_nat (2 * i)) i 1) as [v [Hv [HL Hv1]]].
  - lia.
  - simpl. exact Hi.
  - rewrite Z2Nat.id by lia. lia.
  - exists v. split; [exact Hv|]. split; [exact HL|]. split; [exact Hv1|].
    intros v' HL'. symmetry. exact (Luby_fun i v HL v' HL').
Qed.

Lemma luby_loop_mono : forall f i k v, luby_loop f i k = Some v -> luby_loop (S f) i k = Some v.
Proof.
  induction f as [|f IH]; intros i k v H; [discriminate|].
  change (luby_loop (S (S f)) i k) with
    (if i =? Z.shiftl 1 k - 1 then Some (Z.shiftl 1 (k - 1))
     else if (Z.shiftl 1 (k - 1) <=? i) && (i <? Z.shiftl 1 k - 1)
          then luby_loop (S f) (i - (Z.shiftl 1 (k - 1) - 1)) 1
          else luby_loop (S f) i (k + 1)).
  simpl in H.
  destruct (i =? Z.shiftl 1 k - 1); [exact H|].
  destruct ((Z.shiftl 1 (k - 1) <=? i) && (i <? Z.shiftl 1 k - 1)); apply IH; exact H.
Qed.

Theorem luby_pinned_refuted : forall fuel, luby_pinned fuel 2 = None.
Proof.
  unfold luby_pinned. induction fuel as [|f IH]; [reflexivity|].
  simpl. exact IH.
Qed.
