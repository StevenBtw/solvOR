(* C01 deep model - invariants (W, "at least" half = coverage) and (J):
     covered : every clause of the database is looked after: a unit clause is true at level 0; a longer clause is watched on
               its positions 0 and 1 (with multiplicity) or - if binary - sits in both implication lists
     J       : no clause has both literals of positions 0/1 false and processed
   Definitions, the behaviour of `false and processed` under the elementary operations, and J through the steps that keep
   the clauses (assignments, backjumps). *)
From Coq Require Import List ZArith Lia.
Import ListNotations.
From SV Require Import C01.SatSpec C01.DeepCdcl C01.DeepBase C01.DeepTrail C01.DeepTrailProp C01.DeepAnalyze C01.DeepWatch
  C01.DeepReason C01.DeepRunOps.
Close Scope Z_scope.
Open Scope nat_scope.

(* the trail entry of variable v has been taken by the head loop *)
Definition processed (s : st) (v : nat) : Prop :=
  exists tr1 tr2, s_trail s = tr1 ++ v :: tr2 /\ length tr2 < s_head s.

(* literal l is false and its trail entry is processed *)
Definition fp (s : st) (l : Z) : Prop := lit_value s l = Some false /\ processed s (lvar l).

Definition wcov (s : st) (ci : nat) (c : clause) : Prop := forall l, pos01 c l <= cnt (watch_list s l) ci.
Definition bcov (s : st) (ci : nat) (a b : Z) : Prop := In (b, ci) (implications s a) /\ In (a, ci) (implications s b).

Definition covered (s : st) (ci : nat) : Prop :=
  match get_clause s ci with
  | [] => False
  | [l] => lit_value s l = Some true /\ level_of s (lvar l) = 0
  | a :: b :: r => wcov s ci (a :: b :: r) \/ (r = [] /\ bcov s ci a b)
  end.

Definition cov_all (s : st) : Prop := forall ci, ci < n_clauses s -> covered s ci.

Definition arr_len (s : st) : Prop :=
  length (s_wpos s) = nv s /\ length (s_wneg s) = nv s /\ length (s_bpos s) = nv s /\ length (s_bneg s) = nv s.

Definition Jx (s : st) (X : nat -> Z -> Z -> Prop) : Prop :=
  forall ci a b r, ci < n_clauses s -> get_clause s ci = a :: b :: r -> fp s a -> fp s b -> X ci a b.

Definition J (s : st) : Prop := Jx s (fun _ _ _ => False).
(* what is left of J when propagate reports a conflict: a violating clause involves a literal of the current level *)
Definition JC (s : st) : Prop :=
  Jx s (fun _ a b => level_of s (lvar a) = cur_level s \/ level_of s (lvar b) = cur_level s).

Lemma Jx_weaken : forall s (X Y : nat -> Z -> Z -> Prop), (forall ci a b, X ci a b -> Y ci a b) -> Jx s X -> Jx s Y.
Proof. intros s X Y H HJ ci a b r H1 H2 H3 H4. apply H. eapply HJ; eauto. Qed.

Lemma J_JC : forall s, J s -> JC s.
Proof. intros s H. eapply Jx_weaken; [|exact H]. intros ci a b []. Qed.

Lemma processed_asg_eq : forall s s' v, asg_eq s s' -> processed s' v -> processed s v.
Proof. intros s s' v (_ & _ & _ & E4 & _ & E6 & _) (tr1 & tr2 & E & L). exists tr1, tr2. rewrite <- E4, <- E6. auto. Qed.

Lemma fp_asg_eq : forall s s' l, asg_eq s s' -> fp s' l -> fp s l.
Proof.
  intros s s' l E [H1 H2]. split; [rewrite <- (asg_eq_lit_value _ _ _ E); exact H1 | eapply processed_asg_eq; eauto].
Qed.

Lemma asg_eq_sym : forall s s', asg_eq s s' -> asg_eq s' s.
Proof. intros s s' (E1 & E2 & E3 & E4 & E5 & E6 & E7). repeat split; symmetry; assumption. Qed.

Lemma fp_assign_inv : forall s v b r l, trail_inv s -> val_of s v = None -> v < length (s_vals s) ->
  fp (assign v b r s) l -> fp s l.
Proof.
  intros s v b r l HT Hn Hv [H1 (tr1 & tr2 & E & L)].
  assert (~ In v (s_trail s)) as Hnotin by (intros C; apply (ti_assigned s HT) in C; congruence).
  simpl in E, L. destruct tr1 as [|x tr1'].
  - simpl in E. injection E as E1 E2. subst tr2. pose proof (ti_head s HT). lia.
  - simpl in E. injection E as E1 E2. subst x.
    assert (lvar l <> v) as Hne by (intros C; apply Hnotin; rewrite E2, <- C; apply in_or_app; right; left; reflexivity).
    split; [rewrite lit_value_assign_other in H1 by exact Hne; exact H1 | exists tr1', tr2; auto].
Qed.

(* after `prop_head += 1` the only new false-and-processed literal is the false literal of the entry just taken:
   the entry with `prop_head` entries below it is trail_at s (s_head s) *)
Lemma fp_set_head : forall s l, l <> 0%Z ->
  fp (set_head s (S (s_head s))) l -> fp s l \/ l = false_lit_of s (trail_at s (s_head s)).
Proof.
  intros s l Hnz [H1 (tr1 & tr2 & E & L)]. simpl in E, L.
  change (lit_value (set_head s (S (s_head s))) l) with (lit_value s l) in H1.
  destruct (Nat.eq_dec (length tr2) (s_head s)) as [Q|Q].
  - right. replace (trail_at s (s_head s)) with (lvar l); [apply lit_false_is_false_lit; assumption|].
    unfold trail_at. rewrite E, app_length. simpl length.
    replace (length tr1 + S (length tr2) - 1 - s_head s) with (length tr1) by lia. symmetry. apply nth_middle.
  - left. split; [exact H1 | exists tr1, tr2; split; [exact E | lia]].
Qed.

Lemma fp_unassign_to : forall s level l, trail_inv s -> head_inv s -> fp (unassign_to level s) l -> fp s l.
Proof.
  intros s level l HT HH [H1 (tr1 & tr2 & E & L)].
  destruct (unassign_to_spec s level HT) as [popped (Etr & _ & _ & _ & EH & Hpop & Hkeep & _)].
  pose proof (ti_nodup s HT) as ND. rewrite Etr in ND.
  assert (In (lvar l) (s_trail (unassign_to level s))) as Hin by (rewrite E; apply in_or_app; right; left; reflexivity).
  assert (~ In (lvar l) popped) as Hnp by (intros C; exact (NoDup_app_disjoint _ _ _ ND C Hin)).
  split.
  - unfold lit_value in *. rewrite (Hkeep _ Hnp) in H1. exact H1.
  - exists (popped ++ tr1), tr2. split; [rewrite Etr, E, app_assoc; reflexivity|]. rewrite EH in L. lia.
Qed.

Lemma fp_push_lim : forall s l, fp (push_lim s) l -> fp s l.
Proof. intros s l [H1 (tr1 & tr2 & E & L)]. split; [exact H1 | exists tr1, tr2; auto]. Qed.

Lemma Jx_mono : forall s s' (X : nat -> Z -> Z -> Prop), n_clauses s' = n_clauses s ->
  (forall r, get_clause s' r = get_clause s r) -> (forall l, fp s' l -> fp s l) -> Jx s X -> Jx s' X.
Proof. intros s s' X En Eg Hfp H ci a b r H1 H2 H3 H4. rewrite En in H1. rewrite Eg in H2. eapply H; eauto. Qed.

Lemma Jx_frame : forall s s' (X : nat -> Z -> Z -> Prop), asg_eq s s' -> n_clauses s' = n_clauses s ->
  (forall r, get_clause s' r = get_clause s r) -> Jx s X -> Jx s' X.
Proof. intros s s' X EA En Eg. apply Jx_mono; [exact En | exact Eg | intros l; apply fp_asg_eq; exact EA]. Qed.

Lemma Jx_assign : forall s v b r (X : nat -> Z -> Z -> Prop), trail_inv s -> val_of s v = None -> v < length (s_vals s) ->
  Jx s X -> Jx (assign v b r s) X.
Proof. intros s v b r X HT Hn Hv. apply Jx_mono; [reflexivity | reflexivity | intros l; apply fp_assign_inv; assumption]. Qed.

Lemma J_unassign_to : forall s level, trail_inv s -> head_inv s -> J s -> J (unassign_to level s).
Proof.
  intros s level HT HH. apply Jx_mono; [apply db_eq_n_clauses | intros r; apply db_eq_get_clause | intros l; apply fp_unassign_to; assumption];
    apply unassign_to_db_eq.
Qed.

(* the backjump removes the literals of the current level, hence what JC excepts *)
Lemma JC_unassign_to : forall s level, trail_inv s -> head_inv s -> JC s -> level < cur_level s -> J (unassign_to level s).
Proof.
  intros s level HT HH HJ Hl cj a b r H1 H2 H3 H4.
  rewrite (db_eq_n_clauses _ _ (unassign_to_db_eq level s)) in H1. rewrite (db_eq_get_clause _ _ _ (unassign_to_db_eq level s)) in H2.
  pose proof (fp_unassign_to s level a HT HH H3) as Fa. pose proof (fp_unassign_to s level b HT HH H4) as Fb.
  assert (forall l, fp (unassign_to level s) l -> fp s l -> level_of s (lvar l) = cur_level s -> False) as Hgone.
  { intros l [F1 _] [G1 _] Hlv.
    assert (In (lvar l) (s_trail s)) as Hin by (apply (ti_assigned s HT); eapply lit_value_assigned; exact G1).
    pose proof (proj2 (unassign_to_stays_or_goes s level (lvar l) HT Hin Hl) ltac:(lia)) as Q.
    apply lit_value_assigned in F1. contradiction. }
  destruct (HJ cj a b r H1 H2 Fa Fb) as [Q|Q]; [exact (Hgone a H3 Fa Q) | exact (Hgone b H4 Fb Q)].
Qed.
