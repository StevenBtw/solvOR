(* C02 - soundness of the RUP checker, by following one model through the unit propagation; with the elementary facts
   about mem and lit_true it needs (SatLemmas.v and the Deep files use them too). *)
From Coq Require Import List ZArith Bool Lia.
Import ListNotations.
From SV Require Import C01.SatSpec C01.Rup.
Open Scope Z_scope.

Lemma mem_In : forall l s, mem l s = true <-> In l s.
Proof.
  intros l s. unfold mem. rewrite existsb_exists. split.
  - intros [x [Hin Heq]]. apply Z.eqb_eq in Heq. subst. exact Hin.
  - intros Hin. exists l. split; [exact Hin | apply Z.eqb_refl].
Qed.

Lemma mem_false_notIn : forall l s, mem l s = false -> ~ In l s.
Proof.
  intros l s H Hin. apply mem_In in Hin. congruence.
Qed.

Lemma lit_true_opp : forall m l, l <> 0 -> lit_true m (- l) = negb (lit_true m l).
Proof.
  intros m l Hl. unfold lit_true.
  destruct (0 <? l) eqn:E1; destruct (0 <? - l) eqn:E2;
    try (apply Z.ltb_lt in E1); try (apply Z.ltb_lt in E2);
    try (apply Z.ltb_ge in E1); try (apply Z.ltb_ge in E2); try lia.
  - rewrite Z.opp_involutive. reflexivity.
  - rewrite negb_involutive. reflexivity.
Qed.

Lemma clause_true_false_all : forall m c, clause_true m c = false ->
  forall l, In l c -> lit_true m l = false.
Proof.
  intros m c H l Hin. unfold clause_true in H.
  destruct (lit_true m l) eqn:E; [|reflexivity].
  assert (existsb (lit_true m) c = true) as Ht by (apply existsb_exists; exists l; auto).
  congruence.
Qed.

Lemma lit_false_sound : forall m s l, agrees m s -> lit_false s l = true -> lit_true m l = false.
Proof.
  intros m s l Hs H. unfold lit_false in H. apply andb_prop in H. destruct H as [Hnz Hmem].
  apply negb_true_iff in Hnz. apply Z.eqb_neq in Hnz.
  apply mem_In in Hmem. apply Hs in Hmem.
  rewrite (lit_true_opp m l Hnz) in Hmem. apply negb_true_iff in Hmem. exact Hmem.
Qed.

(* a literal of c that is true under m is among those the checker does not count as false *)
Lemma true_lit_open : forall m s c l, agrees m s -> In l c -> lit_true m l = true ->
  In l (filter (fun l => negb (lit_false s l)) c).
Proof.
  intros m s c l Hs Hin Hl. apply filter_In. split; [exact Hin|].
  destruct (lit_false s l) eqn:Elf; [|reflexivity]. rewrite (lit_false_sound m s l Hs Elf) in Hl. discriminate.
Qed.

Lemma status_conflict_sound : forall m s c, agrees m s ->
  clause_status s c = CConflict -> clause_true m c = false.
Proof.
  intros m s c Hs H. unfold clause_status in H.
  destruct (existsb (fun l => mem l s) c); [discriminate|].
  destruct (filter (fun l => negb (lit_false s l)) c) as [|u tl] eqn:Ef; [|destruct (forallb (Z.eqb u) tl); discriminate].
  unfold clause_true. apply not_true_is_false. intros Hex. apply existsb_exists in Hex. destruct Hex as [l [Hin Hl]].
  pose proof (true_lit_open m s c l Hs Hin Hl) as Hf. rewrite Ef in Hf. destruct Hf.
Qed.

Lemma status_unit_sound : forall m s c u, agrees m s -> clause_true m c = true ->
  clause_status s c = CUnit u -> lit_true m u = true.
Proof.
  intros m s c u Hs Hc H. unfold clause_status in H.
  destruct (existsb (fun l => mem l s) c); [discriminate|].
  destruct (filter (fun l => negb (lit_false s l)) c) as [|u' tl] eqn:Ef; [discriminate|].
  destruct (forallb (Z.eqb u') tl) eqn:Eall; [|discriminate].
  injection H as Hu. subst u'.
  unfold clause_true in Hc. apply existsb_exists in Hc. destruct Hc as [l [Hin Hl]].
  pose proof (true_lit_open m s c l Hs Hin Hl) as Hf. rewrite Ef in Hf. destruct Hf as [Heq | Htl]; [subst; exact Hl|].
  rewrite forallb_forall in Eall. apply Eall in Htl. apply Z.eqb_eq in Htl. subst. exact Hl.
Qed.

Lemma agrees_cons : forall m s u, agrees m s -> lit_true m u = true -> agrees m (u :: s).
Proof.
  intros m s u Hs Hu l [Heq | Hin]; [subst; exact Hu | apply Hs; exact Hin].
Qed.

Lemma scan_sound : forall m F s ch, (forall c, In c F -> clause_true m c = true) -> agrees m s ->
  match scan F s ch with
  | None => False
  | Some (s', _) => agrees m s'
  end.
Proof.
  intros m F. induction F as [|c F IH]; intros s ch HF Hs; simpl.
  - exact Hs.
  - assert (clause_true m c = true) as Hc by (apply HF; left; reflexivity).
    assert (forall c', In c' F -> clause_true m c' = true) as HF' by (intros c' Hin; apply HF; right; exact Hin).
    destruct (clause_status s c) as [| |u|] eqn:Est.
    + apply IH; assumption.
    + rewrite (status_conflict_sound m s c Hs Est) in Hc. discriminate.
    + apply IH; [exact HF'|]. apply agrees_cons; [exact Hs|].
      exact (status_unit_sound m s c u Hs Hc Est).
    + apply IH; assumption.
Qed.

Lemma up_sound : forall m fuel F s, (forall c, In c F -> clause_true m c = true) -> agrees m s ->
  up fuel F s = false.
Proof.
  intros m fuel. induction fuel as [|f IH]; intros F s HF Hs; simpl; [reflexivity|].
  pose proof (scan_sound m F s false HF Hs) as Hscan.
  destruct (scan F s false) as [[s' ch']|]; [|destruct Hscan].
  destruct ch'; [apply IH; assumption | reflexivity].
Qed.

Theorem rup_sound : forall F c, rup F c = true -> entails F c.
Proof.
  intros F c H m Hm. unfold rup in H.
  destruct (mem 0 c) eqn:E0; [discriminate|].
  destruct (clause_true m c) eqn:Ec; [reflexivity|].
  exfalso.
  assert (agrees m (map Z.opp c)) as Hs.
  { intros l' Hin. apply in_map_iff in Hin. destruct Hin as [l [Heq Hl]]. subst l'.
    assert (l <> 0) as Hnz.
    { intros Hz. subst l. apply mem_false_notIn in E0. apply E0. exact Hl. }
    rewrite (lit_true_opp m l Hnz). rewrite (clause_true_false_all m c Ec l Hl). reflexivity. }
  rewrite (up_sound m (S (length F)) F (map Z.opp c) Hm Hs) in H. discriminate.
Qed.

Corollary rup_empty_unsat : forall F, rup F [] = true -> forall m, ~ models m F.
Proof.
  intros F H m Hm. pose proof (rup_sound F [] H m Hm) as Hc. discriminate.
Qed.
