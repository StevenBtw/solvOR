(* C01 deep model - the array update `upd` and the list facts the later files share; asg_eq: what the operations that
   leave vals, levels, reasons, trail, trail_lim, prop_head and phase alone have in common, and what can be read off
   that part of a state.

   Names of the invariants of coq/C01/Deep*.v, on a solver state s or on the local variables L of the main loop:
     (T)  trail_inv s (DeepTrail; its constructor is mkTI): vals / trail / trail_lim / levels / prop_head are consistent
          TI s = trail_inv s /\ db_range s (DeepTrailProp): (T), and every stored literal indexes into the arrays
     (W)  watch_le, big_ok (DeepWatch): watch and implication lists hold only what the clauses justify ("at most" half);
          cov_all (DeepJ) is the "at least" half
     (b)  reason_inv s (DeepReason): reasons are clauses of the database that imply their variable; reason_ok (DeepAnalyze)
          is the same with membership in `db s` instead of an index below n_clauses, db_nonzero the same for nz
          BI s (DeepReason) = TI + nz + variable 0 unassigned + (W, "at most") + (b) + decision_first + head_inv
          WI fl s (DeepReasonProp) = BI s while the false literal fl of the current level is being processed
     (c)  analyze_entailed (DeepAnalyze): the learned clause is entailed by the database
     (J)  J s, JC s (DeepJ): no clause has both watched literals false and processed (JC: except on the current level)
          LI P L (DeepRun) = BI of the loop state + what the recorded conflict is; LJ L (DeepJRun) = cov_all + J / JC;
          LE (DeepAlgo) and LS (DeepResult) carry the database and the solutions of a run. *)
From Coq Require Import List ZArith Arith Lia.
Import ListNotations.
From SV Require Import C01.SatSpec C01.Machine C01.DeepCdcl.
Close Scope Z_scope.
Open Scope nat_scope.

Lemma upd_length : forall {A} (l : list A) i x, length (upd l i x) = length l.
Proof. induction l as [|h t IH]; intros [|i] x; simpl; auto. Qed.

Lemma nth_upd_eq : forall {A} (l : list A) i x d, i < length l -> nth i (upd l i x) d = x.
Proof. induction l as [|h t IH]; intros [|i] x d H; simpl in *; try lia; auto. apply IH. lia. Qed.

Lemma nth_upd_neq : forall {A} (l : list A) i j x d, i <> j -> nth j (upd l i x) d = nth j l d.
Proof. induction l as [|h t IH]; intros [|i] [|j] x d H; simpl; auto; try congruence. Qed.

Lemma nth_upd_default : forall {A} (l : list A) i j d, nth j (upd l i d) d = if (i =? j) then d else nth j l d.
Proof.
  intros A l i j d. destruct (Nat.eqb_spec i j) as [E|E].
  - subst j. destruct (Nat.lt_ge_cases i (length l)) as [H|H].
    + apply nth_upd_eq; exact H.
    + apply nth_overflow. rewrite upd_length. exact H.
  - apply nth_upd_neq; exact E.
Qed.

Lemma In_upd : forall {A} (l : list A) i x y, In y (upd l i x) -> y = x \/ In y l.
Proof.
  induction l as [|h t IH]; intros [|i] x y H; simpl in *; auto.
  - destruct H; auto.
  - destruct H as [H|H]; auto. destruct (IH _ _ _ H); auto.
Qed.

Lemma Forall_upd : forall {A} (P : A -> Prop) (l : list A) i x, Forall P l -> P x -> Forall P (upd l i x).
Proof.
  intros A P l i x Hl Hx. apply Forall_forall. intros y Hy. destruct (In_upd _ _ _ _ Hy) as [E|E].
  - subst; exact Hx.
  - rewrite Forall_forall in Hl. auto.
Qed.

Lemma Forall_nth_default : forall {A} (P : A -> Prop) (l : list A) i d, Forall P l -> P d -> P (nth i l d).
Proof.
  intros A P l i d Hl Hd. destruct (Nat.lt_ge_cases i (length l)) as [H|H].
  - rewrite Forall_forall in Hl. apply Hl. apply nth_In. exact H.
  - rewrite nth_overflow by exact H. exact Hd.
Qed.

Lemma repeat_nth : forall {A} (x : A) n i d, i < n -> nth i (repeat x n) d = x.
Proof. induction n as [|n IH]; intros [|i] d H; simpl; try lia; auto. apply IH. lia. Qed.

Lemma app_cons_length_lt : forall {A} (l l1 : list A) x l2, l = l1 ++ x :: l2 -> length l2 < length l.
Proof. intros A l l1 x l2 E. subst l. rewrite app_length. apply Nat.lt_lt_add_l, Nat.lt_succ_diag_r. Qed.

Lemma nth_skipn : forall {A} (l : list A) k j d, nth j (skipn k l) d = nth (k + j) l d.
Proof.
  induction l as [|x l IH]; intros [|k] j d; simpl; auto. destruct j; reflexivity.
Qed.

Lemma nth_firstn' : forall {A} (l : list A) k j d, j < k -> nth j (firstn k l) d = nth j l d.
Proof.
  induction l as [|x l IH]; intros [|k] [|j] d H; simpl; auto; try lia. apply IH. lia.
Qed.

Lemma NoDup_app_l : forall {A} (a b : list A), NoDup (a ++ b) -> NoDup b.
Proof. induction a as [|x a IH]; intros b H; simpl in *; [exact H|]. inversion H; subst. apply IH. assumption. Qed.

Lemma NoDup_app_disjoint : forall {A} (a b : list A) x, NoDup (a ++ b) -> In x a -> ~ In x b.
Proof.
  induction a as [|y a IH]; intros b x H Hin; simpl in *; [contradiction|].
  inversion H; subst. destruct Hin as [E|Hin].
  - subst y. intros Hb. apply H2. apply in_or_app. right. exact Hb.
  - apply IH; assumption.
Qed.

Lemma filter_length_le' : forall {A} (f : A -> bool) l, length (filter f l) <= length l.
Proof. induction l as [|x l IH]; simpl; [lia|]. destruct (f x); simpl; lia. Qed.

Lemma val_of_range : forall s v, val_of s v <> None -> v < length (s_vals s).
Proof.
  intros s v H. destruct (Nat.lt_ge_cases v (length (s_vals s))) as [L|L]; [exact L|].
  unfold val_of in H. rewrite nth_overflow in H by exact L. congruence.
Qed.

Definition asg_eq (s s' : st) : Prop :=
  s_vals s' = s_vals s /\ s_levels s' = s_levels s /\ s_reasons s' = s_reasons s /\ s_trail s' = s_trail s
  /\ s_lim s' = s_lim s /\ s_head s' = s_head s /\ s_phase s' = s_phase s.

Lemma asg_eq_refl : forall s, asg_eq s s.
Proof. intros s. repeat split. Qed.

Lemma asg_eq_trans : forall a b c, asg_eq a b -> asg_eq b c -> asg_eq a c.
Proof.
  intros a b c (H1 & H2 & H3 & H4 & H5 & H6 & H7) (G1 & G2 & G3 & G4 & G5 & G6 & G7).
  repeat split; congruence.
Qed.

Lemma set_clause_asg : forall s i c, asg_eq s (set_clause s i c).
Proof. intros s i c. unfold set_clause. destruct (i <? length (s_orig s)); repeat split. Qed.

Lemma set_watch_list_asg : forall s l ws, asg_eq s (set_watch_list s l ws).
Proof. intros s l ws. unfold set_watch_list. destruct (lpos l); repeat split. Qed.

Lemma add_watch_asg : forall l i s, asg_eq s (add_watch l i s).
Proof. intros l i s. unfold add_watch. apply set_watch_list_asg. Qed.

Lemma bump_confl_asg : forall s, asg_eq s (bump_confl s).
Proof. intros s. repeat split. Qed.

Lemma big_add1_asg : forall a b i s, asg_eq s (big_add1 a b i s).
Proof. intros a b i s. unfold big_add1. destruct (lpos a); repeat split. Qed.

Lemma big_add_asg : forall a b i s, asg_eq s (big_add a b i s).
Proof. intros a b i s. unfold big_add. eapply asg_eq_trans; apply big_add1_asg. Qed.

Lemma append_learned_asg : forall c k s, asg_eq s (append_learned c k s).
Proof. intros c k s. repeat split. Qed.

Lemma set_last_learned_asg : forall s c, asg_eq s (set_last_learned s c).
Proof. intros s c. repeat split. Qed.

Lemma attach_asg : forall c i s, asg_eq s (attach c i s).
Proof.
  intros c i s. unfold attach. destruct c as [|a [|b [|x r]]]; try apply asg_eq_refl.
  - apply big_add_asg.
  - eapply asg_eq_trans; apply add_watch_asg.
Qed.

Lemma attach_all_asg : forall cs i s, asg_eq s (attach_all cs i s).
Proof.
  induction cs as [|c r IH]; intros i s; simpl; [apply asg_eq_refl|].
  eapply asg_eq_trans; [apply attach_asg | apply IH].
Qed.

Lemma reduce_db_asg : forall s, asg_eq s (reduce_db s).
Proof.
  intros s. unfold reduce_db. destruct (length (s_learned s) <? reduce_threshold); [apply asg_eq_refl|].
  eapply asg_eq_trans; [|apply attach_all_asg]. repeat split.
Qed.

Lemma asg_eq_val_of : forall s s' v, asg_eq s s' -> val_of s' v = val_of s v.
Proof. intros s s' v (H & _). unfold val_of. rewrite H. reflexivity. Qed.

Lemma asg_eq_level_of : forall s s' v, asg_eq s s' -> level_of s' v = level_of s v.
Proof. intros s s' v (_ & H & _). unfold level_of. rewrite H. reflexivity. Qed.

Lemma asg_eq_reason_of : forall s s' v, asg_eq s s' -> reason_of s' v = reason_of s v.
Proof. intros s s' v (_ & _ & H & _). unfold reason_of. rewrite H. reflexivity. Qed.

Lemma asg_eq_lit_value : forall s s' l, asg_eq s s' -> lit_value s' l = lit_value s l.
Proof. intros s s' l H. unfold lit_value. rewrite (asg_eq_val_of _ _ _ H). reflexivity. Qed.

Lemma asg_eq_cur_level : forall s s', asg_eq s s' -> cur_level s' = cur_level s.
Proof. intros s s' (_ & _ & _ & _ & H & _). unfold cur_level. rewrite H. reflexivity. Qed.

(* literals, variables and the values of literals *)
Lemma lvar_zvar : forall v, lvar (zvar v) = v.
Proof. intros v. unfold lvar, zvar. apply Zabs2Nat.id. Qed.

Lemma lvar_opp : forall l, lvar (- l)%Z = lvar l.
Proof. intros l. unfold lvar. apply Nat2Z.inj. rewrite !Zabs2Nat.id_abs. apply Z.abs_opp. Qed.

Lemma zvar_lvar_pos : forall l, (0 < l)%Z -> zvar (lvar l) = l.
Proof. intros l H. unfold zvar, lvar. rewrite Zabs2Nat.id_abs. lia. Qed.

Lemma zvar_lvar_neg : forall l, (l < 0)%Z -> zvar (lvar l) = (- l)%Z.
Proof. intros l H. unfold zvar, lvar. rewrite Zabs2Nat.id_abs. lia. Qed.

Lemma lit_false_is_false_lit : forall s l, l <> 0%Z -> lit_value s l = Some false -> l = false_lit_of s (lvar l).
Proof.
  intros s l Hnz H. unfold lit_value in H. unfold false_lit_of.
  destruct (val_of s (lvar l)) as [b|]; [|discriminate]. injection H as H.
  unfold lpos in H. destruct (Z.ltb_spec 0 l) as [L|L].
  - destruct b; simpl in H; [discriminate|]. symmetry. apply zvar_lvar_pos. exact L.
  - destruct b; simpl in H; [|discriminate]. rewrite zvar_lvar_neg by lia. lia.
Qed.

Lemma lit_true_is_neg_false_lit : forall s l, l <> 0%Z -> lit_value s l = Some true -> l = (- false_lit_of s (lvar l))%Z.
Proof.
  intros s l Hnz H. unfold lit_value in H. unfold false_lit_of.
  destruct (val_of s (lvar l)) as [b|]; [|discriminate]. injection H as H.
  unfold lpos in H. destruct (Z.ltb_spec 0 l) as [L|L].
  - destruct b; simpl in H; [|discriminate]. rewrite zvar_lvar_pos by exact L. lia.
  - destruct b; simpl in H; [discriminate|]. rewrite zvar_lvar_neg by lia. lia.
Qed.

Lemma lit_value_assigned : forall s l b, lit_value s l = Some b -> val_of s (lvar l) <> None.
Proof. intros s l b H. unfold lit_value in H. destruct (val_of s (lvar l)); congruence. Qed.

Lemma lvar_false_lit_of : forall s v, lvar (false_lit_of s v) = v.
Proof. intros s v. unfold false_lit_of. destruct (val_of s v) as [[|]|]; rewrite ?lvar_opp; apply lvar_zvar. Qed.

Lemma false_lit_of_nonzero : forall s v, v <> 0 -> false_lit_of s v <> 0%Z.
Proof. intros s v Hv. unfold false_lit_of, zvar. destruct (val_of s v) as [[|]|]; lia. Qed.

Lemma false_lit_of_false : forall s v, val_of s v <> None -> v <> 0 -> lit_value s (false_lit_of s v) = Some false.
Proof.
  intros s v Ha Hv. unfold lit_value. rewrite lvar_false_lit_of. unfold false_lit_of.
  destruct (val_of s v) as [[|]|]; [| |congruence]; unfold lpos, zvar.
  - destruct (Z.ltb_spec 0 (- Z.of_nat v)); [lia|reflexivity].
  - destruct (Z.ltb_spec 0 (Z.of_nat v)); [reflexivity|lia].
Qed.

Lemma lvar_nonzero : forall l, l <> 0%Z -> lvar l <> 0.
Proof. intros l H. unfold lvar. lia. Qed.

Lemma is_false_some : forall o, is_false o = true -> o = Some false.
Proof. intros [[|]|] H; simpl in H; congruence. Qed.

Lemma not_true_false_none : forall o, is_true o = false -> is_false o = false -> o = None.
Proof. intros [[|]|] H1 H2; simpl in *; congruence. Qed.
