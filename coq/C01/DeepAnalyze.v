(* C01 deep model - (c): the clause computed by `analyze` (1-UIP resolution along the trail) is entailed by the clause
   database, provided the conflict clause is falsified and the reasons are what invariant (b) says they are.
   Also the shape of the result (uip literal first, the rest false at lower levels), used for the run invariants. *)
From Coq Require Import List ZArith Bool Arith Lia.
Import ListNotations.
From SV Require Import C01.SatSpec C01.Machine C01.DeepCdcl C01.DeepBase C01.DeepTrail C01.RupProofs.
Close Scope Z_scope.
Open Scope nat_scope.

Definition db (s : st) : cnf := s_orig s ++ s_learned s.
Definition db_nonzero (s : st) : Prop := forall c, In c (db s) -> forall l, In l c -> l <> 0%Z.

(* (b) as analyze needs it: the reason clause of an implied variable (level >= 1) is a clause of the database; its
   literals are the variable's own true literal or literals that are false and were assigned earlier *)
Definition reason_ok (s : st) : Prop :=
  forall tr1 v tr2 r, s_trail s = tr1 ++ v :: tr2 -> 1 <= level_of s v -> reason_of s v = Some r ->
    In (get_clause s r) (db s)
    /\ forall l, In l (get_clause s r) ->
         (lvar l = v /\ lit_value s l = Some true) \/ (lit_value s l = Some false /\ In (lvar l) tr2).

(* a variable of level >= 1 without reason is the decision of its level: nothing below it on the trail has that level *)
Definition decision_first (s : st) : Prop :=
  forall tr1 v tr2, s_trail s = tr1 ++ v :: tr2 -> 1 <= level_of s v -> reason_of s v = None ->
    forall w, In w tr2 -> level_of s w <> level_of s v.

Lemma filter_length_at : forall (f g : nat -> bool) l v, NoDup l -> In v l -> f v = false ->
  (forall w, w <> v -> g w = f w) -> length (filter g l) = (if g v then 1 else 0) + length (filter f l).
Proof.
  induction l as [|x l IH]; intros v ND Hin Hf Hext; [contradiction|].
  inversion ND as [|? ? Hx ND']; subst. simpl. destruct Hin as [E|Hin].
  - subst x. rewrite Hf.
    rewrite (filter_ext_in g f l); [destruct (g v); reflexivity|].
    intros w Hw. apply Hext. intros C. subst w. contradiction.
  - assert (x <> v) as Hne by (intros C; subst x; contradiction).
    rewrite (Hext x Hne). pose proof (IH v ND' Hin Hf Hext) as Q. destruct (f x); simpl; lia.
Qed.

Lemma filter_length_zero : forall {A} (f : A -> bool) l x, length (filter f l) = 0 -> In x l -> f x = false.
Proof.
  intros A f l x H Hx. destruct (f x) eqn:E; [|reflexivity].
  assert (In x (filter f l)) as Q by (apply filter_In; auto). destruct (filter f l); [contradiction|discriminate].
Qed.

Section Acc.
Variable s : st.
Variable cur : nat.

Definition pend (seen : list bool) (v : nat) : bool := nth v seen false && (level_of s v =? cur).

(* under m, one of the literals still to be accounted for is true *)
Definition P (m : asg) (seen : list bool) (ll : list Z) (tr : list nat) : Prop :=
  (exists l, In l ll /\ lit_true m l = true)
  \/ (exists v, In v tr /\ pend seen v = true /\ lit_true m (false_lit_of s v) = true).

Definition ll_ok (ll : list Z) : Prop :=
  forall l, In l ll -> l <> 0%Z /\ lit_value s l = Some false /\ level_of s (lvar l) <> cur.

Record acc_ok (tr : list nat) (seen : list bool) (ll : list Z) (cnt : nat) : Prop := mkAcc {
  ao_cnt : cnt = length (filter (pend seen) tr);
  ao_seen : forall v, nth v seen false = true -> level_of s v <> cur -> In (false_lit_of s v) ll;
  ao_ll : ll_ok ll;
  ao_len : length seen = length (s_vals s)
}.
Arguments ao_cnt {tr seen ll cnt}.
Arguments ao_seen {tr seen ll cnt}.
Arguments ao_ll {tr seen ll cnt}.
Arguments ao_len {tr seen ll cnt}.

Lemma P_mono : forall m seen seen' ll ll' tr, (forall w, nth w seen false = true -> nth w seen' false = true) ->
  (forall l, In l ll -> In l ll') -> P m seen ll tr -> P m seen' ll' tr.
Proof.
  intros m seen seen' ll ll' tr Hs Hl [[l [Hin Ht]]|[v [Hv [Hp Ht]]]]; [left; exists l; auto|].
  right. exists v. split; [exact Hv|]. split; [|exact Ht].
  unfold pend in *. apply andb_prop in Hp. destruct Hp as [Hp1 Hp2]. rewrite (Hs v Hp1), Hp2. reflexivity.
Qed.

Lemma P_mono_ll : forall m seen ll ll' tr, (forall l, In l ll -> In l ll') -> P m seen ll tr -> P m seen ll' tr.
Proof. intros m seen ll ll' tr. apply P_mono. auto. Qed.

Lemma P_tail : forall m seen ll v tr, P m seen ll (v :: tr) ->
  P m seen ll tr \/ (pend seen v = true /\ lit_true m (false_lit_of s v) = true).
Proof.
  intros m seen ll v tr [L|[w [[Q|Hw] [Hp Ht]]]]; [left; left; exact L | subst w; right; auto | left; right; exists w; auto].
Qed.

Lemma acc_ok_tail : forall v tr seen ll cnt, acc_ok (v :: tr) seen ll cnt ->
  acc_ok tr seen ll (if pend seen v then pred cnt else cnt).
Proof.
  intros v tr seen ll cnt [Hc Hs Hl Hn]. constructor; auto. simpl in Hc. destruct (pend seen v); simpl in Hc; lia.
Qed.

(* a seen false literal of the trail is accounted for: it is pending or, at a lower level, one of ll *)
Lemma seen_covered : forall tr seen ll cnt l, acc_ok tr seen ll cnt ->
  l <> 0%Z -> lit_value s l = Some false -> In (lvar l) tr -> nth (lvar l) seen false = true ->
  (level_of s (lvar l) = cur -> 1 <= cnt) /\ (forall m, lit_true m l = true -> P m seen ll tr).
Proof.
  intros tr seen ll cnt l H Hnz Hf Hin Hs. pose proof (lit_false_is_false_lit s l Hnz Hf) as Hl.
  destruct (Nat.eqb_spec (level_of s (lvar l)) cur) as [Lc|Lc].
  - assert (pend seen (lvar l) = true) as Hp by (unfold pend; rewrite Hs, Lc, Nat.eqb_refl; reflexivity).
    split.
    + intros _. destruct cnt; [|apply Nat.lt_0_succ].
      rewrite (filter_length_zero _ tr _ (eq_sym (ao_cnt H)) Hin) in Hp. discriminate.
    + intros m Ht. right. exists (lvar l). rewrite <- Hl. auto.
  - split; [contradiction|]. intros m Ht. left. exists l. split; [|exact Ht]. rewrite Hl. apply (ao_seen H); assumption.
Qed.

Lemma add_lit_step : forall tr seen ll cnt l seen' ll' cnt',
  NoDup tr -> acc_ok tr seen ll cnt ->
  l <> 0%Z -> lit_value s l = Some false -> In (lvar l) tr ->
  add_lit s cur (seen, ll, cnt) l = (seen', ll', cnt') ->
  acc_ok tr seen' ll' cnt' /\ cnt <= cnt' /\ (forall w, nth w seen false = true -> nth w seen' false = true)
  /\ (forall x, In x ll -> In x ll') /\ nth (lvar l) seen' false = true.
Proof.
  intros tr seen ll cnt l seen' ll' cnt' ND H Hnz Hf Hin E.
  unfold add_lit in E. remember (lvar l) as v eqn:Heqv.
  destruct (nth v seen false) eqn:Es; simpl in E.
  - injection E as E1 E2 E3. subst seen' ll' cnt'. split; [exact H|]. repeat split; auto.
  - pose proof (lit_false_is_false_lit s l Hnz Hf) as Hl. pose proof (lit_value_assigned s l false Hf) as Hass.
    rewrite <- Heqv in Hl, Hass. destruct (val_of s v) eqn:Ev; [|congruence]. simpl in E.
    assert (v < length seen) as Hv by (rewrite (ao_len H); apply val_of_range; congruence).
    assert (forall w, nth w seen false = true -> nth w (upd seen v true) false = true) as Hmon.
    { intros w Hw. destruct (Nat.eq_dec v w) as [Q|Q]; [subst w; congruence | rewrite nth_upd_neq by exact Q; exact Hw]. }
    (* v is counted iff it is of the current level, and is in ll' otherwise *)
    assert (length (filter (pend (upd seen v true)) tr)
            = (if level_of s v =? cur then 1 else 0) + length (filter (pend seen) tr)) as Hcount.
    { rewrite (filter_length_at (pend seen) (pend (upd seen v true)) tr v ND Hin); unfold pend.
      - rewrite nth_upd_eq by exact Hv. reflexivity.
      - rewrite Es. reflexivity.
      - intros w Hw. rewrite nth_upd_neq by (intros C; apply Hw; symmetry; exact C). reflexivity. }
    assert (forall ll0, (forall x, In x ll -> In x ll0) -> (level_of s v <> cur -> In l ll0) ->
              forall w, nth w (upd seen v true) false = true -> level_of s w <> cur -> In (false_lit_of s w) ll0) as Hseen.
    { intros ll0 Hsub Hnew w Hw Hlw. destruct (Nat.eq_dec v w) as [Q|Q].
      - subst w. rewrite <- Hl. exact (Hnew Hlw).
      - rewrite nth_upd_neq in Hw by exact Q. apply Hsub. apply (ao_seen H); assumption. }
    destruct (Nat.eqb_spec (level_of s v) cur) as [Lc|Lc].
    + injection E as E1 E2 E3. subst seen' ll' cnt'.
      split; [|split; [apply Nat.le_succ_diag_r | split; [exact Hmon | split; [auto | apply nth_upd_eq; exact Hv]]]].
      constructor; [rewrite Hcount, (ao_cnt H); reflexivity | apply Hseen; [auto | contradiction] | exact (ao_ll H) |].
      rewrite upd_length. exact (ao_len H).
    + rewrite Hf in E. simpl in E. injection E as E1 E2 E3. subst seen' ll' cnt'.
      assert (forall x, In x ll -> In x (ll ++ [l])) as Hsub by (intros x Hx; apply in_or_app; left; exact Hx).
      split; [|split; [apply Nat.le_refl | split; [exact Hmon | split; [exact Hsub | apply nth_upd_eq; exact Hv]]]].
      constructor; [rewrite Hcount, (ao_cnt H); reflexivity | | | rewrite upd_length; exact (ao_len H)].
      * apply Hseen; [exact Hsub|]. intros _. apply in_or_app. right. left. reflexivity.
      * intros x Hx. apply in_app_or in Hx. destruct Hx as [Hx|[Hx|[]]]; [apply (ao_ll H); exact Hx|].
        subst x. split; [exact Hnz | split; [exact Hf | rewrite <- Heqv; exact Lc]].
Qed.

Lemma fold_add_lit_mono : forall tr L seen ll cnt seen' ll' cnt',
  NoDup tr -> acc_ok tr seen ll cnt ->
  (forall l, In l L -> l <> 0%Z /\ lit_value s l = Some false /\ In (lvar l) tr) ->
  fold_left (add_lit s cur) L (seen, ll, cnt) = (seen', ll', cnt') ->
  acc_ok tr seen' ll' cnt' /\ cnt <= cnt' /\ (forall w, nth w seen false = true -> nth w seen' false = true)
  /\ (forall x, In x ll -> In x ll') /\ (forall l, In l L -> nth (lvar l) seen' false = true).
Proof.
  intros tr. induction L as [|x L IH]; intros seen ll cnt seen' ll' cnt' ND H HL E; cbn [fold_left] in E.
  - injection E as E1 E2 E3. subst. split; [exact H|]. repeat split; auto.
  - destruct (add_lit s cur (seen, ll, cnt) x) as [[seen1 ll1] cnt1] eqn:EA.
    destruct (HL x (or_introl eq_refl)) as (Hnz & Hf & Hin).
    destruct (add_lit_step _ _ _ _ _ _ _ _ ND H Hnz Hf Hin EA) as (H1 & Hle1 & Hs1 & Hl1 & Hx).
    destruct (IH _ _ _ _ _ _ ND H1 (fun l Hl => HL l (or_intror Hl)) E) as (H' & Hle & Hs & Hl & Hall).
    split; [exact H'|]. split; [exact (Nat.le_trans _ _ _ Hle1 Hle)|]. split; [auto|]. split; [auto|].
    intros l [Q|Q]; [subst l; apply Hs; exact Hx | apply Hall; exact Q].
Qed.

Lemma fold_add_lit_covers : forall tr L seen ll cnt seen' ll' cnt',
  NoDup tr -> acc_ok tr seen ll cnt ->
  (forall l, In l L -> l <> 0%Z /\ lit_value s l = Some false /\ In (lvar l) tr) ->
  fold_left (add_lit s cur) L (seen, ll, cnt) = (seen', ll', cnt') ->
  acc_ok tr seen' ll' cnt' /\ cnt <= cnt'
  /\ (forall l, In l L -> level_of s (lvar l) = cur -> 1 <= cnt')
  /\ (forall m, P m seen ll tr \/ (exists l, In l L /\ lit_true m l = true) -> P m seen' ll' tr).
Proof.
  intros tr L seen ll cnt seen' ll' cnt' ND H HL E.
  destruct (fold_add_lit_mono tr L seen ll cnt seen' ll' cnt' ND H HL E) as (H' & Hle & Hs & Hl & Hall).
  assert (forall l, In l L -> (level_of s (lvar l) = cur -> 1 <= cnt') /\ (forall m, lit_true m l = true -> P m seen' ll' tr)) as Hcov.
  { intros l Hin. destruct (HL l Hin) as (Hnz & Hf & Htr). exact (seen_covered tr seen' ll' cnt' l H' Hnz Hf Htr (Hall l Hin)). }
  split; [exact H'|]. split; [exact Hle|]. split; [intros l Hin; apply Hcov; exact Hin|].
  intros m [HP|[l [Hin Ht]]]; [exact (P_mono m _ _ _ _ tr Hs Hl HP) | apply (Hcov l Hin); exact Ht].
Qed.

End Acc.
Arguments ao_cnt {s cur tr seen ll cnt}.
Arguments ao_ll {s cur tr seen ll cnt}.

Lemma fold_left_skip : forall {A B} (f : A -> B -> A) (q : B -> bool) l a,
  fold_left (fun a x => if q x then a else f a x) l a = fold_left f (filter (fun x => negb (q x)) l) a.
Proof. induction l as [|x l IH]; intros a; simpl; [reflexivity|]. destruct (q x); simpl; apply IH. Qed.

Definition uip_shape (s : st) (cur : nat) (tr : list nat) (res : list Z) : Prop :=
  exists u ll', res = false_lit_of s u :: ll' /\ In u tr /\ level_of s u = cur /\ ll_ok s cur ll'.

Lemma uip_shape_cons : forall s cur v tr res, uip_shape s cur tr res -> uip_shape s cur (v :: tr) res.
Proof.
  intros s cur v tr res (u & ll' & E1 & E2 & E3 & E4). exists u, ll'. split; [exact E1|]. split; [right; exact E2|]. split; assumption.
Qed.

Lemma an_loop_cons : forall s cur v tr seen ll cnt,
  an_loop s cur (v :: tr) (seen, ll, S cnt) =
  if pend s cur seen v then
    match cnt with
    | O => false_lit_of s v :: ll
    | S _ =>
        match reason_of s v with
        | Some r =>
            an_loop s cur tr
              (fold_left (fun a l => if lvar l =? v then a else add_lit s cur a l) (get_clause s r) (seen, ll, cnt))
        | None => an_loop s cur tr (seen, ll, cnt)
        end
    end
  else an_loop s cur tr (seen, ll, S cnt).
Proof.
  intros. unfold pend. simpl. destruct (nth v seen false); [destruct (level_of s v =? cur)|]; reflexivity.
Qed.

Lemma an_loop_spec : forall s cur, trail_inv s -> db_nonzero s -> reason_ok s -> decision_first s -> 1 <= cur ->
  forall tr pre seen ll cnt, s_trail s = pre ++ tr -> acc_ok s cur tr seen ll cnt ->
    (forall m, models m (db s) -> P s cur m seen ll tr) ->
    entails (db s) (an_loop s cur tr (seen, ll, cnt))
    /\ (1 <= cnt -> uip_shape s cur tr (an_loop s cur tr (seen, ll, cnt))).
Proof.
  intros s cur HT Hnz HR HD Hc1.
  (* counter 0: nothing is pending, so the true literal is one of ll *)
  assert (forall tr seen ll m, acc_ok s cur tr seen ll 0 -> P s cur m seen ll tr ->
            exists l, In l ll /\ lit_true m l = true) as Hzero.
  { intros tr seen ll m H [L|[w [Hw [Hp _]]]]; [exact L|].
    rewrite (filter_length_zero _ _ w (eq_sym (ao_cnt H)) Hw) in Hp. discriminate. }
  induction tr as [|v tr IH]; intros pre seen ll cnt Htr H Hsem.
  - pose proof (ao_cnt H) as Hc. simpl in Hc. subst cnt. simpl. split; [|intros C; inversion C].
    intros m Hm. apply existsb_exists. exact (Hzero _ _ _ m H (Hsem m Hm)).
  - destruct cnt as [|cnt'].
    { simpl. split; [|intros C; inversion C]. intros m Hm. apply existsb_exists. exact (Hzero _ _ _ m H (Hsem m Hm)). }
    assert (NoDup (v :: tr)) as ND by (pose proof (ti_nodup s HT) as Q; rewrite Htr in Q; exact (NoDup_app_l _ _ Q)).
    assert (NoDup tr) as ND' by (inversion ND; assumption).
    assert (s_trail s = (pre ++ [v]) ++ tr) as Htr' by (rewrite <- app_assoc; exact Htr).
    pose proof (acc_ok_tail s cur v tr seen ll (S cnt') H) as H0.
    rewrite an_loop_cons. destruct (pend s cur seen v) eqn:Hpv; simpl in H0.
    2:{ (* v is not pending: skip it *)
      destruct (IH (pre ++ [v]) seen ll (S cnt') Htr' H0) as [He Hs].
      - intros m Hm. destruct (P_tail s cur m seen ll v tr (Hsem m Hm)) as [Q|[Q _]]; [exact Q | congruence].
      - split; [exact He|]. intros _. apply uip_shape_cons, Hs, Nat.lt_0_succ. }
    assert (level_of s v = cur) as Lc by (unfold pend in Hpv; apply andb_prop in Hpv; apply Nat.eqb_eq; apply Hpv).
    destruct cnt' as [|cnt''].
    + (* v is the only pending variable: the unique implication point *)
      split.
      * intros m Hm. apply existsb_exists. destruct (P_tail s cur m seen ll v tr (Hsem m Hm)) as [Q|[_ Ht]].
        -- destruct (Hzero tr seen ll m H0 Q) as [l [Hl Ht]]. exists l. split; [right; exact Hl | exact Ht].
        -- exists (false_lit_of s v). split; [left; reflexivity | exact Ht].
      * intros _. exists v, ll. split; [reflexivity|]. split; [left; reflexivity|]. split; [exact Lc | exact (ao_ll H)].
    + assert (1 <= level_of s v) as Hlv by (rewrite Lc; exact Hc1).
      destruct (reason_of s v) as [r|] eqn:Er.
      * (* resolve with the reason clause of v *)
        destruct (HR pre v tr r Htr Hlv Er) as [Hdb Hlits].
        rewrite fold_left_skip. set (L := filter (fun l => negb (lvar l =? v)) (get_clause s r)).
        destruct (fold_left (add_lit s cur) L (seen, ll, S cnt'')) as [[seen1 ll1] cnt1] eqn:EF.
        destruct (fold_add_lit_covers s cur tr L seen ll (S cnt'') seen1 ll1 cnt1 ND' H0) as (H1 & Hle1 & _ & Hm1); [|exact EF|].
        { intros l Hl. apply filter_In in Hl. destruct Hl as [Hl Hsk]. apply negb_true_iff, Nat.eqb_neq in Hsk.
          destruct (Hlits l Hl) as [[Q _]|[Q1 Q2]]; [contradiction|]. repeat split; auto. apply (Hnz _ Hdb). exact Hl. }
        destruct (IH (pre ++ [v]) seen1 ll1 cnt1 Htr' H1) as [He Hs].
        { intros m Hm. apply Hm1. destruct (P_tail s cur m seen ll v tr (Hsem m Hm)) as [Q|[_ Ht]]; [left; exact Q|].
          (* the literal of v in its reason is false under m: another literal of the reason is true *)
          right. assert (clause_true m (get_clause s r) = true) as Hcr by (apply Hm; exact Hdb).
          apply existsb_exists in Hcr. destruct Hcr as [l [Hl Hlt]]. exists l. split; [|exact Hlt].
          apply filter_In. split; [exact Hl|]. apply negb_true_iff, Nat.eqb_neq. intros Q. destruct (Hlits l Hl) as [[_ Q2]|[Q1 Q2]].
          - assert (l <> 0%Z) as Hl0 by (apply (Hnz _ Hdb); exact Hl).
            pose proof (lit_true_is_neg_false_lit s l Hl0 Q2) as Q3. rewrite Q in Q3.
            rewrite Q3, lit_true_opp, Ht in Hlt; [discriminate|].
            intros C. apply Hl0. rewrite Q3, C. reflexivity.
          - rewrite Q in Q2. inversion ND. contradiction. }
        split; [exact He|]. intros _. apply uip_shape_cons, Hs. exact (Nat.le_trans _ _ _ (Nat.lt_0_succ _) Hle1).
      * (* no reason: v is the decision of the current level, nothing below it is pending *)
        exfalso. pose proof (HD pre v tr Htr Hlv Er) as Q. pose proof (ao_cnt H0) as Hcnt.
        destruct (filter (pend s cur seen) tr) as [|w rest] eqn:EF'; [discriminate|].
        assert (In w (filter (pend s cur seen) tr)) as Q2 by (rewrite EF'; left; reflexivity).
        apply filter_In in Q2. destruct Q2 as [Q2 Q3]. apply (Q _ Q2).
        unfold pend in Q3. apply andb_prop in Q3. destruct Q3 as [_ Q3]. apply Nat.eqb_eq in Q3. congruence.
Qed.

Lemma acc_ok_init : forall s cur tr, acc_ok s cur tr (repeat false (length (s_vals s))) [] 0.
Proof.
  intros s cur tr. constructor.
  - induction tr as [|v tr IH]; simpl; [reflexivity|]. unfold pend at 1. rewrite nth_repeat. simpl. exact IH.
  - intros v Hv. rewrite nth_repeat in Hv. discriminate.
  - intros l [].
  - apply repeat_length.
Qed.

(* what `analyze` folds over the conflict clause and walks down the trail *)
Definition analyze_lits (s : st) (ci : nat) : list Z :=
  an_loop s (cur_level s) (s_trail s)
    (fold_left (add_lit s (cur_level s)) (get_clause s ci) (repeat false (length (s_vals s)), [], 0)).

Lemma analyze_some : forall s ci lc bt lbd, analyze s ci = Some (lc, bt, lbd) ->
  1 <= cur_level s /\ lc = analyze_lits s ci /\ lc <> []
  /\ bt = list_max_nat (filter (fun x => x <? list_max_nat (dedup_nat (map (fun l => level_of s (lvar l))
                           (filter (fun l => negb (is_none (val_of s (lvar l)))) lc))))
                         (dedup_nat (map (fun l => level_of s (lvar l)) (filter (fun l => negb (is_none (val_of s (lvar l)))) lc)))).
Proof.
  intros s ci lc bt lbd E. unfold analyze in E. destruct (Nat.eqb_spec (cur_level s) 0) as [Q|Q]; [discriminate|].
  fold (analyze_lits s ci) in E. destruct (analyze_lits s ci) as [|x r] eqn:EL; [discriminate|].
  injection E as E1 E2 E3. subst lc. split; [apply Nat.neq_0_lt_0; exact Q|]. split; [reflexivity|]. split; [discriminate|]. symmetry. exact E2.
Qed.

Lemma analyze_lits_spec : forall s ci, trail_inv s -> db_nonzero s -> reason_ok s -> decision_first s -> 1 <= cur_level s ->
  In (get_clause s ci) (db s) -> (forall l, In l (get_clause s ci) -> lit_value s l = Some false) ->
  entails (db s) (analyze_lits s ci)
  /\ ((exists l, In l (get_clause s ci) /\ level_of s (lvar l) = cur_level s) ->
      uip_shape s (cur_level s) (s_trail s) (analyze_lits s ci)).
Proof.
  intros s ci HT Hnz HR HD Hc1 Hdb Hfalse. unfold analyze_lits.
  destruct (fold_left (add_lit s (cur_level s)) (get_clause s ci) (repeat false (length (s_vals s)), [], 0)) as [[seen ll] cnt] eqn:EF.
  destruct (fold_add_lit_covers s (cur_level s) (s_trail s) (get_clause s ci) _ _ _ seen ll cnt (ti_nodup s HT)
              (acc_ok_init s (cur_level s) (s_trail s))) as (H1 & _ & Hpos & Hm1); [|exact EF|].
  { intros l Hl. split; [apply (Hnz _ Hdb); exact Hl|]. split; [apply Hfalse; exact Hl|].
    apply (ti_assigned s HT). eapply lit_value_assigned. apply Hfalse. exact Hl. }
  destruct (an_loop_spec s (cur_level s) HT Hnz HR HD Hc1 (s_trail s) [] seen ll cnt eq_refl H1) as [He Hs].
  { intros m Hm. apply Hm1. right. assert (clause_true m (get_clause s ci) = true) as Q by (apply Hm; exact Hdb).
    apply existsb_exists in Q. destruct Q as [l [Hl Ht]]. exists l. auto. }
  split; [exact He|]. intros [l0 [Hl0 Hlv]]. exact (Hs (Hpos l0 Hl0 Hlv)).
Qed.

Theorem analyze_entailed : forall s ci lc bt lbd,
  trail_inv s -> db_nonzero s -> reason_ok s -> decision_first s ->
  In (get_clause s ci) (db s) -> (forall l, In l (get_clause s ci) -> lit_value s l = Some false) ->
  analyze s ci = Some (lc, bt, lbd) -> entails (db s) lc.
Proof.
  intros s ci lc bt lbd HT Hnz HR HD Hdb Hfalse E. destruct (analyze_some _ _ _ _ _ E) as (Hc1 & Elc & _). subst lc.
  exact (proj1 (analyze_lits_spec s ci HT Hnz HR HD Hc1 Hdb Hfalse)).
Qed.

Lemma fold_max_ge_acc : forall l a, a <= fold_left Nat.max l a.
Proof. induction l as [|x l IH]; intros a; simpl; [lia|]. pose proof (IH (Nat.max a x)). lia. Qed.

Lemma fold_max_ge : forall l a x, In x l -> x <= fold_left Nat.max l a.
Proof.
  induction l as [|y l IH]; intros a x H; simpl; [contradiction|]. destruct H as [E|H].
  - subst y. pose proof (fold_max_ge_acc l (Nat.max a x)). lia.
  - apply IH. exact H.
Qed.

Lemma fold_max_le : forall l a b, a <= b -> (forall x, In x l -> x <= b) -> fold_left Nat.max l a <= b.
Proof.
  induction l as [|y l IH]; intros a b Ha H; simpl; [exact Ha|]. apply IH.
  - pose proof (H y (or_introl eq_refl)). lia.
  - intros x Hx. apply H. right. exact Hx.
Qed.

Lemma list_max_nat_ge : forall l x, In x l -> x <= list_max_nat l.
Proof. intros l x H. unfold list_max_nat. apply fold_max_ge. exact H. Qed.

Lemma list_max_nat_le : forall l b, (forall x, In x l -> x <= b) -> list_max_nat l <= b.
Proof. intros l b H. unfold list_max_nat. apply fold_max_le; [lia|exact H]. Qed.

Lemma list_max_nat_lt : forall l b, 0 < b -> (forall x, In x l -> x < b) -> list_max_nat l < b.
Proof.
  intros l b Hb H. assert (list_max_nat l <= b - 1); [|lia]. apply list_max_nat_le. intros x Hx. pose proof (H x Hx). lia.
Qed.

Lemma In_dedup_nat : forall l x, In x (dedup_nat l) <-> In x l.
Proof.
  induction l as [|y l IH]; intros x; simpl; [tauto|].
  destruct (existsb (Nat.eqb y) l) eqn:E.
  - rewrite IH. split; [auto|]. intros [Q|Q]; [|exact Q]. subst y.
    apply existsb_exists in E. destruct E as [z [Hz Ez]]. apply Nat.eqb_eq in Ez. subst z. exact Hz.
  - simpl. rewrite IH. tauto.
Qed.

Lemma analyze_bt : forall s ci lc bt lbd u ll', trail_inv s -> analyze s ci = Some (lc, bt, lbd) ->
  lc = false_lit_of s u :: ll' -> In u (s_trail s) -> level_of s u = cur_level s -> ll_ok s (cur_level s) ll' ->
  bt < cur_level s /\ forall l, In l ll' -> level_of s (lvar l) <= bt.
Proof.
  intros s ci lc bt lbd u ll' HT E Elc Hu Hlu Hll. destruct (analyze_some _ _ _ _ _ E) as (Hc1 & _ & _ & Ebt).
  set (lvls := dedup_nat (map (fun l => level_of s (lvar l)) (filter (fun l => negb (is_none (val_of s (lvar l)))) lc))) in *.
  assert (forall l, In l lc -> val_of s (lvar l) <> None -> In (level_of s (lvar l)) lvls) as Hin.
  { intros l Hl Ha. unfold lvls. apply In_dedup_nat. apply in_map_iff. exists l. split; [reflexivity|].
    apply filter_In. split; [exact Hl|]. destruct (val_of s (lvar l)); [reflexivity|congruence]. }
  assert (forall x, In x lvls -> x <= cur_level s) as Hle.
  { intros x Hx. unfold lvls in Hx. apply (proj1 (In_dedup_nat _ _)) in Hx. apply in_map_iff in Hx. destruct Hx as [l [El Hl]].
    apply filter_In in Hl. destruct Hl as [Hl Ha]. subst x. apply level_le_cur; [exact HT|].
    apply (ti_assigned s HT). destruct (val_of s (lvar l)); [congruence|discriminate]. }
  assert (list_max_nat lvls = cur_level s) as Htop.
  { apply Nat.le_antisymm; [apply list_max_nat_le; exact Hle|]. apply list_max_nat_ge.
    rewrite <- Hlu. rewrite <- (lvar_false_lit_of s u) at 1. apply Hin.
    - rewrite Elc. left. reflexivity.
    - rewrite lvar_false_lit_of. apply (ti_assigned s HT). exact Hu. }
  rewrite Htop in Ebt. split.
  - rewrite Ebt. apply list_max_nat_lt; [exact Hc1|]. intros x Hx. apply filter_In in Hx. apply Nat.ltb_lt, Hx.
  - intros l Hl. destruct (Hll l Hl) as (_ & Hf & Hne). rewrite Ebt. apply list_max_nat_ge. apply filter_In.
    assert (In (level_of s (lvar l)) lvls) as Q.
    { apply Hin; [rewrite Elc; right; exact Hl | eapply lit_value_assigned; exact Hf]. }
    split; [exact Q|]. apply Nat.ltb_lt. pose proof (Hle _ Q). clear - H Hne. lia.
Qed.
