(* C01 deep model - end to end: whatever solve_sat (the model) hands back in `solution` / `solutions` satisfies the input
   clauses and the assumptions, and the entries of `solutions` are pairwise distinct.  Distinctness: the blocking clause of a
   recorded model stays in the database (lbd 0 survives reduce_db) and every later model satisfies it. *)
From Coq Require Import List ZArith Bool Lia.
Import ListNotations.
From SV Require Import C01.SatSpec C01.Machine C01.DeepCdcl C01.DeepBase C01.DeepAnalyze C01.DeepWatch C01.DeepRun
  C01.DeepInit C01.DeepJRun C01.DeepSteps C01.DeepAlgo C01.RupProofs C01.SatLemmas.
Close Scope Z_scope.
Open Scope nat_scope.

Lemma combine_app_same_length : forall {X Y} (a1 a2 : list X) (b1 b2 : list Y), length a1 = length b1 ->
  combine (a1 ++ a2) (b1 ++ b2) = combine a1 b1 ++ combine a2 b2.
Proof.
  intros X Y a1. induction a1 as [|x a1 IH]; intros a2 [|y b1] b2 H; simpl in *; try discriminate; [reflexivity|].
  rewrite IH by lia. reflexivity.
Qed.

Lemma combine_map_fst_snd : forall {X Y} (l : list (X * Y)), combine (map fst l) (map snd l) = l.
Proof. induction l as [|[x y] l IH]; simpl; [reflexivity | rewrite IH; reflexivity]. Qed.

Lemma In_combine_upd : forall {X Y} (l1 : list X) (l2 : list Y) j c x y d, In (x, y) (combine l1 l2) ->
  exists y', In (x, y') (combine l1 (upd l2 j c)) /\ (y' = y \/ (y' = c /\ y = nth j l2 d)).
Proof.
  intros X Y l1. induction l1 as [|a l1 IH]; intros [|b l2] j c x y d H; simpl in H; try contradiction.
  destruct j as [|j]; simpl.
  - destruct H as [H|H].
    + injection H as E1 E2. subst. exists c. split; [left; reflexivity | right; auto].
    + exists y. split; [right; exact H | left; reflexivity].
  - destruct H as [H|H].
    + injection H as E1 E2. subst. exists y. split; [left; reflexivity | left; reflexivity].
    + destruct (IH l2 j c x y d H) as [y' [Q1 Q2]]. exists y'. split; [right; exact Q1 | exact Q2].
Qed.

Lemma In_ins_sorted_rev : forall {X} (key : X -> nat * nat) x l y, y = x \/ In y l -> In y (ins_sorted key x l).
Proof.
  intros X key x l. induction l as [|z l IH]; intros y H; simpl.
  - destruct H as [H|[]]. left. symmetry. exact H.
  - destruct (key_le (key z) (key x)).
    + destruct H as [H|[H|H]]; [right; apply IH; left; exact H | left; exact H | right; apply IH; right; exact H].
    + destruct H as [H|H]; [left; symmetry; exact H | right; exact H].
Qed.

Lemma In_fold_ins_rev : forall {X} (key : X -> nat * nat) l acc y, In y acc \/ In y l ->
  In y (fold_left (fun a x => ins_sorted key x a) l acc).
Proof.
  intros X key l. induction l as [|x l IH]; intros acc y H; simpl; [destruct H as [H|[]]; exact H|].
  apply IH. destruct H as [H|[H|H]]; [left; apply In_ins_sorted_rev; right; exact H | left; apply In_ins_sorted_rev; left; symmetry; exact H | right; exact H].
Qed.

Lemma In_stable_sort_rev : forall {X} (key : X -> nat * nat) l y, In y l -> In y (stable_sort key l).
Proof. intros. unfold stable_sort. apply In_fold_ins_rev. right. assumption. Qed.

Lemma In_keep_loop_rev : forall half l i lbd c, In (lbd, c) l -> lbd <= 3 -> In (lbd, c) (keep_loop half i l).
Proof.
  intros half l. induction l as [|[k d] l IH]; intros i lbd c H Hl; simpl in *; [contradiction|].
  destruct H as [H|H].
  - injection H as E1 E2. subst. apply Nat.leb_le in Hl. rewrite Hl, orb_true_r. left. reflexivity.
  - destruct ((i <? half) || (k <=? 3)); [right|]; apply IH; assumption.
Qed.

(* BKs s ms: every model of ms is blocked in s - its blocking clause (the negated model, up to order) is a learned clause with
   lbd 0, which reduce_db never drops *)
Definition lbd_ok (s : st) : Prop := length (s_lbd s) = length (s_learned s).
Definition blocked (s : st) (m : model) : Prop :=
  exists c, In (0, c) (combine (s_lbd s) (s_learned s)) /\ same_mem c (map Z.opp m).
Definition BKs (s : st) (ms : list model) : Prop := lbd_ok s /\ forall m, In m ms -> blocked s m.

Lemma same_mem_trans : forall a b c, same_mem a b -> same_mem b c -> same_mem a c.
Proof. intros a b c H1 H2 l. rewrite (H1 l). apply H2. Qed.

Lemma BKs_same : forall s s' ms, s_learned s' = s_learned s -> s_lbd s' = s_lbd s -> BKs s ms -> BKs s' ms.
Proof. intros s s' ms E1 E2 [H1 H2]. unfold BKs, lbd_ok, blocked. rewrite E1, E2. split; assumption. Qed.

Lemma BKs_kept : forall ms s s' kept, s_learned s' = map snd kept -> s_lbd s' = map fst kept ->
  (forall c, In (0, c) (combine (s_lbd s) (s_learned s)) -> In (0, c) kept) -> BKs s ms -> BKs s' ms.
Proof.
  intros ms s s' kept E1 E2 Hk [H1 H2]. unfold BKs, lbd_ok, blocked. rewrite E1, E2, combine_map_fst_snd.
  split; [rewrite !map_length; reflexivity|]. intros m Hm. destruct (H2 m Hm) as [c [Q1 Q2]]. exists c. split; [apply Hk; exact Q1 | exact Q2].
Qed.

Lemma BKs_upd : forall ms s s' j c, s_lbd s' = s_lbd s -> s_learned s' = upd (s_learned s) j c ->
  same_mem c (nth j (s_learned s) []) -> BKs s ms -> BKs s' ms.
Proof.
  intros ms s s' j c E1 E2 Hm [H1 H2]. unfold BKs, lbd_ok, blocked. rewrite E1, E2, upd_length. split; [exact H1|].
  intros m Hm0. destruct (H2 m Hm0) as [c0 [Q1 Q2]].
  destruct (In_combine_upd (s_lbd s) (s_learned s) j c 0 c0 [] Q1) as [y' [R1 [R2|[R2 R3]]]]; subst y'.
  - exists c0. auto.
  - exists c. split; [exact R1|]. subst c0. exact (same_mem_trans _ _ _ Hm Q2).
Qed.

Lemma BKs_estep : forall ms s s', estep s s' -> BKs s ms -> BKs s' ms.
Proof.
  intros ms s s' E H.
  destruct E as [? ? [s v b r _ | s ci c Hm | s s' EA Eo El Eb | s h] | s c k | s c b L EL Hm | s | s k _ | s].
  - apply (BKs_same s); auto.
  - unfold get_clause in Hm. unfold set_clause. destruct (Nat.ltb_spec ci (length (s_orig s))) as [Q|Q]; [exact H|].
    apply (BKs_upd ms s _ (ci - length (s_orig s)) c); [reflexivity | reflexivity | exact Hm | exact H].
  - apply (BKs_same s); auto.
  - apply (BKs_same s); auto.
  - destruct H as [H1 H2]. split; [unfold lbd_ok in *; simpl; rewrite !app_length; simpl; lia|].
    intros m Hm0. destruct (H2 m Hm0) as [c0 [Q1 Q2]]. exists c0. split; [|exact Q2]. simpl.
    rewrite combine_app_same_length by exact H1. apply in_or_app. left. exact Q1.
  - (* the last clause is reordered: an update at the last index *)
    apply (BKs_upd ms s _ (length L) c); [reflexivity | | rewrite EL, nth_middle; exact Hm | exact H].
    simpl. rewrite EL, removelast_app_one. clear. induction L as [|x L IH]; simpl; [reflexivity | f_equal; exact IH].
  - (* reduce_db keeps clauses with lbd <= 3 *)
    unfold reduce_db. destruct (length (s_learned s) <? reduce_threshold); [exact H|].
    eapply BKs_kept; [exact (proj1 (learned_attach_all _ _ _)) | exact (proj2 (learned_attach_all _ _ _)) | | exact H].
    intros c Q. apply In_keep_loop_rev; [|lia]. apply In_stable_sort_rev. exact Q.
  - apply (BKs_same s); auto; destruct (unassign_to_db_eq k s) as (_ & Q & _); [exact Q|].
    unfold unassign_to. destruct (unwind _ (s_vals s) (s_phase s) (s_trail s)) as [[a b] c]. reflexivity.
  - apply (BKs_same s); auto.
Qed.

Lemma BKs_esteps : forall ms s s', esteps s s' -> BKs s ms -> BKs s' ms.
Proof. intros ms. apply steps_pres. apply BKs_estep. Qed.

Lemma solution_consistent : forall s n, consistent_b (solution_of s n) = true.
Proof.
  intros s n. unfold consistent_b. apply forallb_forall. intros x Hx. unfold solution_of in Hx. apply in_flat_map in Hx.
  destruct Hx as [v [Hv Hx]]. apply in_seq in Hv.
  destruct (val_of s v) as [[|]|] eqn:E; simpl in Hx; [| |contradiction]; destruct Hx as [Q|[]]; subst x; unfold lit_true, asg_of.
  - destruct (Z.ltb_spec 0 (zvar v)) as [L|L]; [|unfold zvar in L; lia]. apply mem_In. apply In_solution_pos. split; [lia | exact E].
  - destruct (Z.ltb_spec 0 (- zvar v)) as [L|L]; [unfold zvar in L; lia|]. rewrite Z.opp_involutive. apply negb_true_iff.
    destruct (mem (zvar v) (solution_of s n)) eqn:Em; [|reflexivity]. exfalso. apply mem_In in Em.
    apply In_solution_pos in Em. destruct Em as [_ Q]. congruence.
Qed.

Lemma map_opp_solution : forall s n, map Z.opp (solution_of s n) = blocking_of s n.
Proof.
  intros s n. unfold solution_of, blocking_of. induction (seq 1 n) as [|v l IH]; simpl; [reflexivity|].
  rewrite map_app, IH. destruct (val_of s v) as [[|]|]; simpl; rewrite ?Z.opp_involutive; reflexivity.
Qed.

Lemma clause_true_same_mem : forall (a : asg) c c', same_mem c c' -> clause_true a c = true -> clause_true a c' = true.
Proof.
  intros a c c' H Q. unfold clause_true in *. apply existsb_exists in Q. destruct Q as [l [Hl Ht]].
  apply existsb_exists. exists l. split; [apply H; exact Hl | exact Ht].
Qed.

Definition good (cls : cnf) (A : list Z) (m : model) : Prop :=
  models (asg_of m) cls /\ agrees (asg_of m) A /\ consistent_b m = true.

(* LS: the loop invariant about all_solutions - the recorded models are good, pairwise distinct and blocked *)
Record LS (cls : cnf) (A : list Z) (L : loop) : Prop := mkLS {
  ls_good : forall m, In m (l_sols L) -> good cls A m;
  ls_blocked : BKs (l_st L) (l_sols L);
  ls_nodup : NoDup (l_sols L)
}.

Lemma in_combine_learned_db : forall s k c, In (k, c) (combine (s_lbd s) (s_learned s)) -> In c (db s).
Proof. intros s k c H. unfold db. apply in_or_app. right. eapply in_combine_r. exact H. Qed.

Lemma new_solution_good : forall cls P L, LI P L -> LJ L -> LE cls P L -> LS cls (p_assum P) L ->
  l_conflict L = CNone -> all_assigned (l_st L) (p_nvars P) = true ->
  good cls (p_assum P) (solution_of (l_st L) (p_nvars P)) /\ ~ In (solution_of (l_st L) (p_nvars P)) (l_sols L).
Proof.
  intros cls P L H1 H2 H3 [G B N] EC Hall. destruct (algo_models cls P L H1 H2 H3 EC Hall) as (M1 & M2 & M3).
  split; [split; [exact M1 | split; [exact M2 | apply solution_consistent]]|].
  intros Hin. destruct B as [_ B]. destruct (B _ Hin) as [c [Q1 Q2]].
  pose proof (M3 c (in_combine_learned_db _ _ _ Q1)) as Q3.
  pose proof (clause_true_same_mem _ _ _ Q2 Q3) as Q4.
  exact (differ_neq _ _ (blocking_differ _ _ (solution_consistent _ _) Q4) eq_refl).
Qed.

Theorem main_step_LS : forall cls fuel P L L', LI P L -> LJ L -> LE cls P L -> LS cls (p_assum P) L ->
  main_step fuel P L = Cont L' -> LS cls (p_assum P) L'.
Proof.
  intros cls fuel P L L' H1 H2 H3 H4 E.
  destruct (main_step_esteps_sols fuel P L L' H1 E) as [[Es R]|(EC & Hall & Es & R)].
  - destruct H4 as [G B N]. constructor; rewrite Es; auto. eapply BKs_esteps; eauto.
  - destruct (new_solution_good cls P L H1 H2 H3 H4 EC Hall) as [Gn Nn]. destruct H4 as [G [B1 B2] N].
    constructor; rewrite Es.
    + intros m [Q|Q]; [subst m; exact Gn | apply G; exact Q].
    + apply (BKs_esteps _ _ _ R). split; [unfold lbd_ok in *; simpl; rewrite !app_length; simpl; lia|].
      intros m [Q|Q].
      * subst m. exists (blocking_of (l_st L) (p_nvars P)). split.
        -- simpl. rewrite combine_app_same_length by exact B1. apply in_or_app. right. left. reflexivity.
        -- rewrite map_opp_solution. intros l. tauto.
      * destruct (B2 m Q) as [c0 [Q1 Q2]]. exists c0. split; [|exact Q2]. simpl. rewrite combine_app_same_length by exact B1. apply in_or_app. left. exact Q1.
    + constructor; assumption.
Qed.

Definition result_sound (cls : cnf) (A : list Z) (r : dres) : Prop :=
  (forall m, d_solution r = Some m -> good cls A m)
  /\ (forall ms, d_solutions r = Some ms -> NoDup ms /\ forall m, In m ms -> good cls A m).

Lemma finish_sound : forall cls A L st_ evs r, (forall m, In m (l_sols L) -> good cls A m) -> NoDup (l_sols L) ->
  finish L st_ = Done evs r -> result_sound cls A r.
Proof.
  intros cls A L st_ evs r G N E. unfold finish in E. destruct (rev (l_sols L)) as [|first rest] eqn:Er.
  - injection E as E1 E2. subst r. split; simpl; intros; discriminate.
  - injection E as E1 E2. subst r. split; simpl.
    + intros m Q. injection Q as Q. subst m. apply G. apply in_rev. rewrite Er. left. reflexivity.
    + intros ms Q. injection Q as Q. subst ms. rewrite <- Er. split; [apply NoDup_rev; exact N | intros m Hm; apply G; apply in_rev; exact Hm].
Qed.

Theorem main_step_stop_sound : forall cls fuel P L evs r, LI P L -> LJ L -> LE cls P L -> LS cls (p_assum P) L ->
  main_step fuel P L = Stop (Done evs r) -> result_sound cls (p_assum P) r.
Proof.
  intros cls fuel P L evs r H1 H2 H3 H4 E. pose proof H4 as [G B N].
  pose proof (main_step_stop fuel P L _ E) as C. remember (Done evs r) as o eqn:Eo.
  destruct C as [sol Esol EC EAll _ | _ _ | L2 Es | | |]; try discriminate.
  - (* the limit is reached: the new model and the earlier ones *)
    injection Eo as _ Er. subst r sol. destruct (new_solution_good cls P L H1 H2 H3 H4 EC EAll) as [Gn Nn].
    split; cbn [d_solution d_solutions].
    + intros m Q. injection Q as Q. subst m. exact Gn.
    + intros ms Q. destruct (p_limit P =? 1)%Z; [discriminate|].
      injection Q as Q. subst ms.
      change (rev (l_sols L) ++ [solution_of (l_st L) (p_nvars P)]) with (rev (solution_of (l_st L) (p_nvars P) :: l_sols L)).
      split; [apply NoDup_rev; constructor; assumption|]. intros m Hm. apply in_rev in Hm. destruct Hm as [Q'|Q']; [subst m; exact Gn | apply G; exact Q'].
  - unfold finish_exhausted in Eo. destruct (l_sols L) eqn:Es; rewrite <- Es in G, N; exact (finish_sound cls (p_assum P) L _ evs r G N Eo).
  - apply (finish_sound cls (p_assum P) L2 MAX_ITER evs r); [rewrite Es; exact G | rewrite Es; exact N | exact Eo].
Qed.

Theorem main_loop_sound : forall cls inner P fuel L evs r, LI P L -> LJ L -> LE cls P L -> LS cls (p_assum P) L ->
  main_loop fuel inner P L = Done evs r -> result_sound cls (p_assum P) r.
Proof.
  intros cls inner P. induction fuel as [|f IH]; intros L evs r H1 H2 H3 H4 E; simpl in E; [discriminate|].
  destruct (main_step inner P L) as [L'|o] eqn:ES.
  - apply (IH L' evs r); [eapply main_step_LI | eapply main_step_LJ | eapply main_step_LE | eapply main_step_LS | exact E]; eauto.
  - subst o. eapply main_step_stop_sound; eauto.
Qed.

Theorem solve_sat_sound : forall fuel cls A mc mr limit lf orc evs r, valid_input cls A = true ->
  solve_sat fuel cls A mc mr limit lf orc = Done evs r ->
  (forall m, d_solution r = Some m -> models (asg_of m) cls /\ agrees (asg_of m) A)
  /\ (forall ms, d_solutions r = Some ms -> NoDup ms /\ forall m, In m ms -> models (asg_of m) cls /\ agrees (asg_of m) A).
Proof.
  intros fuel cls A mc mr limit lf orc evs r Hv E. unfold solve_sat in E.
  destruct (init_loop fuel cls A mc mr limit lf orc) as [o|P L0] eqn:EI.
  - (* early returns: no model is handed back *)
    subst o. pose proof (init_loop_cases fuel cls A mc mr limit lf orc) as C. rewrite EI in C. destruct C as [Hn0|[Q1 Q2]].
    + exfalso. unfold valid_input in Hv. apply andb_prop in Hv. destruct Hv as [_ Hv]. apply Z.ltb_lt in Hv. unfold n_vars_of in Hn0. lia.
    + rewrite Q1, Q2. split; intros; discriminate.
  - destruct (init_LE _ _ _ _ _ _ _ _ _ _ Hv EI) as (H3 & EA & En & R0 & Es0).
    assert (LS cls (p_assum P) L0) as H4.
    { constructor; rewrite Es0; [intros m [] | | constructor].
      apply (BKs_esteps [] _ _ R0). split; [reflexivity | intros m []]. }
    pose proof (main_loop_sound cls fuel P fuel L0 evs r (init_LI _ _ _ _ _ _ _ _ _ _ Hv EI) (init_LJ _ _ _ _ _ _ _ _ _ _ Hv EI) H3 H4 E) as [Q1 Q2].
    rewrite EA in *. split.
    + intros m Hm. destruct (Q1 m Hm) as (G1 & G2 & _). auto.
    + intros ms Hms. destruct (Q2 ms Hms) as [N G]. split; [exact N|]. intros m Hm. destruct (G m Hm) as (G1 & G2 & _). auto.
Qed.

Lemma models_eqb_eq : forall a b, models_eqb a b = true -> a = b.
Proof.
  induction a as [|x a IH]; intros [|y b] H; simpl in H; try discriminate; [reflexivity|].
  apply andb_prop in H. destruct H as [H1 H2]. apply zlist_eqb_eq in H1. apply IH in H2. subst. reflexivity.
Qed.

Lemma opt_eqb_eq : forall {X} (eqb : X -> X -> bool) (a b : option X), (forall x y, eqb x y = true -> x = y) ->
  opt_eqb eqb a b = true -> a = b.
Proof. intros X eqb [x|] [y|] H E; simpl in E; try discriminate; [f_equal; apply H; exact E | reflexivity]. Qed.

(* if the model, driven by the decisions of a real call, reproduces that call's trace and Result (deep_check = true, evaluated
   inside coqc for every run of the check), then the solutions the IMPLEMENTATION returned satisfy clauses and assumptions and
   are pairwise distinct - by the theorems about the model, not by evaluating them *)
Theorem deep_check_sound : forall cls A mc mr limit lf evs impl, valid_input cls A = true ->
  deep_check cls A mc mr limit lf evs impl = true ->
  (forall m, d_solution impl = Some m -> models (asg_of m) cls /\ agrees (asg_of m) A)
  /\ (forall ms, d_solutions impl = Some ms -> NoDup ms /\ forall m, In m ms -> models (asg_of m) cls /\ agrees (asg_of m) A).
Proof.
  intros cls A mc mr limit lf evs impl Hv H. unfold deep_check, deep_ok in H.
  destruct (solve_sat (deep_fuel cls evs) cls A mc mr limit lf (decisions_of evs)) as [evs' r|] eqn:E; [|discriminate].
  apply andb_prop in H. destruct H as [_ H]. unfold dres_eqb in H.
  repeat (apply andb_prop in H; destruct H as [H ?]).
  assert (d_solution r = d_solution impl) as E1 by (apply (opt_eqb_eq zlist_eqb); [apply zlist_eqb_eq | assumption]).
  assert (d_solutions r = d_solutions impl) as E2 by (apply (opt_eqb_eq models_eqb); [apply models_eqb_eq | assumption]).
  destruct (solve_sat_sound _ _ _ _ _ _ _ _ _ _ Hv E) as [Q1 Q2]. rewrite E1 in Q1. rewrite E2 in Q2. split; assumption.
Qed.
