(* C01 deep model - one iteration of `while True:` and the set-up before it.
   propagate() as a sequence of elementary steps (pstep, steps); BI through the conflict branch (learn_mid, learn_BI), the
   recording of a model (Section Block: the blocking clause), a decision and a restart; the loop invariant LI: BI holds in every
   state a run goes through, the recorded conflict is a falsified clause with a literal of the current level,
   dec_level = len(trail_lim).  The case analysis of main_step (step_cont, step_prop, step_stop, main_step_cases) and of
   init_loop (init_cont, init_loop_cases), which the later files start from; main_step_LI; every clause `analyze` produces
   during a run is entailed by the clause database of that moment (learned_entailed_run). *)
From Coq Require Import List ZArith Bool Lia.
Import ListNotations.
From SV Require Import C01.SatSpec C01.Machine C01.DeepCdcl C01.DeepBase C01.DeepTrail C01.DeepTrailProp C01.DeepAnalyze
  C01.DeepWatch C01.DeepReason C01.DeepReasonProp C01.DeepRunOps C01.DeepReduce.
Close Scope Z_scope.
Open Scope nat_scope.

Definition same_mem (c c' : clause) : Prop := forall l, In l c <-> In l c'.

(* what propagate() does to the state: it assigns an unassigned variable, reorders a clause, changes something that is
   neither the assignment nor a clause list (watch lists, implication lists, counters), or moves prop_head *)
Inductive pstep : st -> st -> Prop :=
| ps_assign : forall s v b r, val_of s v = None -> pstep s (assign v b r s)
| ps_set_clause : forall s ci c, same_mem c (get_clause s ci) -> pstep s (set_clause s ci c)
| ps_db : forall s s', asg_eq s s' -> s_orig s' = s_orig s -> s_learned s' = s_learned s -> s_lbd s' = s_lbd s -> pstep s s'
| ps_set_head : forall s h, pstep s (set_head s h).

Inductive steps (R : st -> st -> Prop) : st -> st -> Prop :=
| steps_refl : forall s, steps R s s
| steps_step : forall s s' s'', steps R s s' -> R s' s'' -> steps R s s''.

Lemma steps_trans : forall (R : st -> st -> Prop) a b c, steps R a b -> steps R b c -> steps R a c.
Proof. intros R a b c H1 H2. induction H2 as [|x y z _ IH E]; [exact H1 | eapply steps_step; [apply IH; exact H1 | exact E]]. Qed.

Lemma steps_one : forall (R : st -> st -> Prop) s s', R s s' -> steps R s s'.
Proof. intros R s s' H. eapply steps_step; [apply steps_refl | exact H]. Qed.

Lemma steps_pres : forall (R : st -> st -> Prop) (Q : st -> Prop), (forall s s', R s s' -> Q s -> Q s') -> forall s s', steps R s s' -> Q s -> Q s'.
Proof. intros R Q H s s' S. induction S; auto. intros Hq. eapply H; eauto. Qed.

Lemma steps_mono : forall R R' : st -> st -> Prop, (forall s s', R s s' -> R' s s') -> forall s s', steps R s s' -> steps R' s s'.
Proof. intros R R' H s s' S. induction S as [|x y z _ IH E]; [apply steps_refl | exact (steps_step R' _ _ _ IH (H _ _ E))]. Qed.

Arguments steps_step {R s s' s''} _ _.
Arguments steps_trans {R a b c} _ _.
Arguments steps_one {R s s'} _.
Arguments steps_mono {R R'} _ {s s'} _.

Lemma orig_set_watch_list : forall s l ws, s_orig (set_watch_list s l ws) = s_orig s.
Proof. intros. unfold set_watch_list. destruct (lpos l); reflexivity. Qed.

Lemma learned_set_watch_list : forall s l ws, s_learned (set_watch_list s l ws) = s_learned s /\ s_lbd (set_watch_list s l ws) = s_lbd s.
Proof. intros. unfold set_watch_list. destruct (lpos l); split; reflexivity. Qed.

Lemma ps_set_watch_list : forall s l ws, pstep s (set_watch_list s l ws).
Proof.
  intros. apply ps_db; [apply set_watch_list_asg | apply orig_set_watch_list | apply learned_set_watch_list | apply learned_set_watch_list].
Qed.

Lemma ps_bump : forall s, pstep s (bump_confl s).
Proof. intros. apply ps_db; [apply bump_confl_asg | reflexivity | reflexivity | reflexivity]. Qed.

(* ci may lie outside the database: then both sides are the empty clause *)
Lemma get_clause_swap01 : forall s ci, get_clause (set_clause s ci (swap01 (get_clause s ci))) ci = swap01 (get_clause s ci).
Proof.
  intros s ci. destruct (Nat.lt_ge_cases ci (n_clauses s)) as [L|L]; [apply get_clause_set_clause_eq; exact L|].
  rewrite (get_clause_overflow s ci L). apply get_clause_overflow. rewrite n_clauses_set_clause. exact L.
Qed.

Lemma watch_step_psteps : forall s0 fl i s, steps pstep s0 s -> wstep_post (steps pstep s0) (watch_step fl i s).
Proof.
  intros s0 fl i s R. unfold watch_step.
  destruct (i <? length (watch_list s fl)); [|exact Logic.I].
  set (ci := nth i (watch_list s fl) 0). set (c := get_clause s ci).
  destruct (length c =? 1); [exact (steps_step R (ps_bump s))|].
  set (c1 := if (nth 0 c 0 =? fl)%Z then swap01 c else c).
  set (s1 := if (nth 0 c 0 =? fl)%Z then set_clause s ci c1 else s).
  assert (steps pstep s0 s1 /\ get_clause s1 ci = c1) as [R1 Eg].
  { unfold s1, c1. destruct (nth 0 c 0 =? fl)%Z; [|split; [exact R | reflexivity]].
    split; [|apply get_clause_swap01]. eapply steps_step; [exact R|]. apply ps_set_clause. intros l. apply In_swap01. }
  clearbody s1 c1. destruct (is_true (lit_value s1 (nth 0 c1 0%Z))) eqn:E1; [exact R1|].
  destruct (find_nonfalse s1 (skipn 2 c1) 2) as [k|] eqn:EF.
  - (* the watch moves to position k >= 2 of the clause: positions 1 and k are exchanged *)
    simpl. unfold add_watch. eapply steps_step; [|apply ps_set_watch_list]. eapply steps_step; [|apply ps_set_watch_list].
    eapply steps_step; [exact R1|]. apply ps_set_clause. rewrite Eg.
    destruct (find_nonfalse_spec _ _ _ _ EF) as (K1 & K2 & _). destruct c1 as [|a [|b r]]; simpl in K2; try lia.
    replace k with (S (S (k - 2))) by lia. rewrite swap1k_shape. intros l. apply In_swap1k. exact K2.
  - destruct (is_false (lit_value s1 (nth 0 c1 0%Z))) eqn:E2; simpl; [exact (steps_step R1 (ps_bump s1))|].
    eapply steps_step; [exact R1|]. apply ps_assign. pose proof (not_true_false_none _ E1 E2) as Q.
    unfold lit_value in Q. destruct (val_of s1 (lvar (nth 0 c1 0%Z))); [discriminate | reflexivity].
Qed.

Lemma prop_watch_psteps : forall fuel fl i s s' r, prop_watch fuel fl i s = Some (s', r) -> steps pstep s s'.
Proof.
  intros fuel fl i s s' r E.
  exact (prop_watch_inv (steps pstep s) fl (fun i0 x R => watch_step_psteps s fl i0 x R) fuel i s s' r (steps_refl _ s) E).
Qed.

Lemma prop_bin_psteps : forall imps s s' r, prop_bin imps s = (s', r) -> steps pstep s s'.
Proof.
  induction imps as [|[implied ci] imps IH]; intros s s' r E; simpl in E.
  - injection E as E1 E2. subst. apply steps_refl.
  - destruct (val_of s (lvar implied)) as [b|] eqn:EV.
    + destruct (Bool.eqb b (lpos implied)); [exact (IH s s' r E)|]. injection E as E1 E2. subst. apply steps_one. apply ps_bump.
    + eapply steps_trans; [apply steps_one; apply ps_assign; exact EV | exact (IH _ s' r E)].
Qed.

Lemma prop_assums_psteps : forall A s s' r, prop_assums A s = (s', r) -> steps pstep s s'.
Proof.
  induction A as [|l A IH]; intros s s' r E; simpl in E.
  - injection E as E1 E2. subst. apply steps_refl.
  - destruct (val_of s (lvar l)) as [b|] eqn:EV.
    + destruct (Bool.eqb b (lpos l)); [exact (IH s s' r E)|]. injection E as E1 E2. subst. apply steps_one. apply ps_bump.
    + eapply steps_trans; [apply steps_one; apply ps_assign; exact EV | exact (IH _ s' r E)].
Qed.

Lemma head_step_psteps : forall inner s s' r, head_step inner s = Some (s', r) -> steps pstep s s'.
Proof.
  intros inner s s' r E. unfold head_step in E. apply (steps_trans (steps_one (ps_set_head s (S (s_head s))))).
  destruct (prop_bin _ (set_head s (S (s_head s)))) as [s2 [ci|]] eqn:EB; apply prop_bin_psteps in EB.
  - injection E as E1 E2. subst. exact EB.
  - apply prop_watch_psteps in E. exact (steps_trans EB E).
Qed.

Lemma prop_loop_psteps : forall fuel inner s s' c, prop_loop fuel inner s = Some (s', c) -> steps pstep s s'.
Proof.
  induction fuel as [|f IH]; intros inner s s' c E; simpl in E; [discriminate|].
  destruct (s_head s <? length (s_trail s)); [|injection E as E1 E2; subst; apply steps_refl].
  destruct (head_step inner s) as [[s1 [ci|]]|] eqn:EH; [| |discriminate]; apply head_step_psteps in EH.
  - injection E as E1 E2. subst. exact EH.
  - exact (steps_trans EH (IH _ _ _ _ E)).
Qed.

Theorem propagate_psteps : forall fuel A s s' c, propagate fuel A s = Some (s', c) -> steps pstep s s'.
Proof.
  intros fuel A s s' c E. unfold propagate in E. destruct (cur_level s =? 0); [|exact (prop_loop_psteps _ _ _ _ _ E)].
  destruct (prop_assums A s) as [s1 [|]] eqn:EA; apply prop_assums_psteps in EA.
  - injection E as E1 E2. subst. exact EA.
  - exact (steps_trans EA (prop_loop_psteps _ _ _ _ _ E)).
Qed.

Lemma asg_eq_lim : forall s s', asg_eq s s' -> s_lim s' = s_lim s.
Proof. intros s s' (_ & _ & _ & _ & H & _). exact H. Qed.

Lemma pstep_lim : forall s s', pstep s s' -> s_lim s' = s_lim s.
Proof.
  intros s s' [s1 v b r _ | s1 ci c _ | s1 s2 EA _ _ _ | s1 h]; [reflexivity | | exact (asg_eq_lim _ _ EA) | reflexivity].
  exact (asg_eq_lim _ _ (set_clause_asg s1 ci c)).
Qed.

Lemma steps_frame : forall (R : st -> st -> Prop) {X} (f : st -> X), (forall s s', R s s' -> f s' = f s) ->
  forall s s', steps R s s' -> f s' = f s.
Proof. intros R X f H s s' S. induction S as [|x y z _ IH E]; [reflexivity | rewrite (H _ _ E); exact IH]. Qed.

Lemma propagate_lim : forall fuel A s s' c, propagate fuel A s = Some (s', c) -> s_lim s' = s_lim s.
Proof. intros fuel A s s' c E. exact (steps_frame pstep s_lim pstep_lim _ _ (propagate_psteps _ _ _ _ _ E)). Qed.

Lemma pstep_nv : forall s s', pstep s s' -> nv s' = nv s.
Proof.
  intros s s' [s1 v b r _ | s1 ci c _ | s1 s2 (Q & _) _ _ _ | s1 h]; [apply nv_assign | apply nv_set_clause | | reflexivity].
  unfold nv. rewrite Q. reflexivity.
Qed.

Lemma head_step_nv : forall inner s s' r, head_step inner s = Some (s', r) -> nv s' = nv s.
Proof. intros inner s s' r E. exact (steps_frame pstep nv pstep_nv _ _ (head_step_psteps _ _ _ _ E)). Qed.

Lemma propagate_nv : forall fuel A s s' c, propagate fuel A s = Some (s', c) -> nv s' = nv s.
Proof. intros fuel A s s' c E. exact (steps_frame pstep nv pstep_nv _ _ (propagate_psteps _ _ _ _ _ E)). Qed.

Record LI (P : params) (L : loop) : Prop := mkLI {
  li_bi : BI (l_st L);
  li_nv : nv (l_st L) = S (p_nvars P);
  li_assum : assum_ok (S (p_nvars P)) (p_assum P);
  li_dec : l_dec_level L = cur_level (l_st L);
  li_conf : match l_conflict L with
            | CNone => s_head (l_st L) = length (s_trail (l_st L))
            | CAssum => cur_level (l_st L) = 0
            | CAt ci => cur_level (l_st L) = 0 \/ conflict_ok (l_st L) ci
            end
}.

Lemma LI_after_propagate : forall fuel P s s' c dl csr li nx dc rs sols evs orc,
  BI s -> nv s = S (p_nvars P) -> assum_ok (S (p_nvars P)) (p_assum P) -> dl = cur_level s ->
  propagate fuel (p_assum P) s = Some (s', c) ->
  LI P (mkLoop s' c dl csr li nx dc rs sols evs orc).
Proof.
  intros fuel P s s' c dl csr li nx dc rs sols evs orc H Hn HA Hd E.
  assert (assum_ok (nv s) (p_assum P)) as HA' by (rewrite Hn; exact HA).
  destruct (propagate_BI _ _ _ _ _ HA' H E) as (Q1 & Q2 & Q3 & Q4). constructor; cbn [l_st l_conflict l_dec_level]; [exact Q1 | | exact HA | |].
  - rewrite (propagate_nv _ _ _ _ _ E). exact Hn.
  - unfold cur_level. rewrite (propagate_lim _ _ _ _ _ E). exact Hd.
  - destruct c as [| |ci]; auto.
Qed.

Lemma cur_level_unassign_to : forall s level, level <= cur_level s -> cur_level (unassign_to level s) = level.
Proof.
  intros s level H. unfold cur_level in *. unfold unassign_to.
  destruct (unwind _ (s_vals s) (s_phase s) (s_trail s)) as [[a b] c]. simpl. rewrite firstn_length. lia.
Qed.

Lemma false_lit_of_in : forall s u, u < nv s -> lit_in (nv s) (false_lit_of s u).
Proof. intros s u H. unfold lit_in. rewrite lvar_false_lit_of. exact H. Qed.

Lemma val_in_range : forall s v, val_of s v <> None -> v < nv s.
Proof.
  intros s v H. unfold val_of, nv in *. destruct (Nat.lt_ge_cases v (length (s_vals s))) as [L|L]; [exact L|].
  rewrite nth_overflow in H by exact L. congruence.
Qed.

(* after backjump, learned.append and attach: the learned clause is false_lit_of s u :: ll' with u unassigned again and
   every literal of ll' still false - it is about to become unit *)
Lemma learn_mid : forall s ci lc bt lbd, BI s -> conflict_ok s ci -> analyze s ci = Some (lc, bt, lbd) ->
  let s1 := unassign_to bt s in
  let s2 := attach lc (n_clauses s1) (append_learned lc lbd s1) in
  exists u ll', lc = false_lit_of s u :: ll' /\ bt < cur_level s /\ BI s2 /\ asg_eq s1 s2 /\ n_clauses s2 = S (n_clauses s1)
    /\ get_clause s2 (n_clauses s1) = lc /\ val_of s2 u = None /\ (forall l, In l ll' -> lit_value s2 l = Some false)
    /\ u <> 0 /\ u < nv s /\ nv s2 = nv s /\ cur_level s2 = bt.
Proof.
  intros s ci lc bt lbd H (Hci & Hfalse & Hlev) E s1 s2. set (cidx := n_clauses s1).
  destruct (BI_analyze_hyps s H) as (HT & Hnz & HR & HD).
  destruct (analyze_some _ _ _ _ _ E) as (Hc1 & Elc & _).
  destruct (analyze_lits_spec s ci HT Hnz HR HD Hc1 (get_clause_in_db s ci Hci) Hfalse) as [_ Hshape].
  destruct (Hshape Hlev) as (u & ll' & Ell & Hu & Hlu & Hll). rewrite <- Elc in Ell.
  destruct (analyze_bt s ci lc bt lbd u ll' HT E Ell Hu Hlu Hll) as [Hbt Hlow].
  assert (val_of s u <> None) as Hua by (apply (ti_assigned s HT); exact Hu).
  assert (u <> 0) as Hu0 by (intros Q; rewrite Q in Hua; apply Hua; exact (bi_v0 s H)).
  assert (BI s1) as H1 by (apply BI_unassign_to; exact H).
  assert (nv s1 = nv s) as Hn1 by apply unassign_to_nvals.
  assert (clause_in (nv s1) lc) as Hin.
  { rewrite Hn1, Ell. constructor; [apply false_lit_of_in; apply val_in_range; exact Hua|].
    apply Forall_forall. intros l Hl. destruct (Hll l Hl) as (_ & Hf & _). apply val_in_range. eapply lit_value_assigned. exact Hf. }
  assert (forall l, In l lc -> l <> 0%Z) as Hnz'.
  { rewrite Ell. intros l [Q|Q]; [subst l; apply false_lit_of_nonzero; exact Hu0 | exact (proj1 (Hll l Q))]. }
  destruct (attach_frame lc cidx (append_learned lc lbd s1)) as (En & Eg & _).
  assert (asg_eq s1 s2) as EA by (unfold s2; eapply asg_eq_trans; [apply append_learned_asg | apply attach_asg]).
  exists u, ll'. split; [exact Ell|]. split; [exact Hbt|]. split; [apply BI_append_attach; assumption|]. split; [exact EA|].
  split; [unfold s2; fold cidx; rewrite En, n_clauses_append; reflexivity|].
  split; [unfold s2; fold cidx; rewrite Eg; apply get_clause_append_new|].
  split; [rewrite (asg_eq_val_of _ _ _ EA); apply (proj2 (unassign_to_stays_or_goes s bt u HT Hu Hbt)); lia|].
  split; [|split; [exact Hu0 | split; [apply val_in_range; exact Hua|]]].
  - intros l Q. destruct (Hll l Q) as (_ & Hf & _). rewrite (asg_eq_lit_value _ _ _ EA).
    assert (In (lvar l) (s_trail s)) as Hlt by (apply (ti_assigned s HT); eapply lit_value_assigned; exact Hf).
    destruct (proj1 (unassign_to_stays_or_goes s bt (lvar l) HT Hlt Hbt) (Hlow l Q)) as [_ Qv].
    unfold lit_value in *. unfold s1. rewrite Qv. exact Hf.
  - split; [unfold nv in *; destruct EA as (Q & _); rewrite Q; exact Hn1|].
    rewrite (asg_eq_cur_level _ _ EA). apply cur_level_unassign_to. lia.
Qed.

Lemma learn_BI : forall s ci lc bt lbd, BI s -> conflict_ok s ci -> analyze s ci = Some (lc, bt, lbd) ->
  let s1 := unassign_to bt s in
  let cidx := n_clauses s1 in
  let s2 := attach lc cidx (append_learned lc lbd s1) in
  let s3 := match lc with l0 :: _ => assign_lit l0 (Some cidx) s2 | [] => s2 end in
  BI s3 /\ cur_level s3 = bt /\ nv s3 = nv s.
Proof.
  intros s ci lc bt lbd H Hc E s1 cidx s2 s3.
  destruct (learn_mid s ci lc bt lbd H Hc E) as (u & ll' & Ell & _ & H2 & _ & Hn2c & Hg2 & Hun & Hll & Hu0 & Hur & Hn2 & Hc2).
  fold s1 cidx s2 in H2, Hn2c, Hg2, Hun, Hll, Hn2, Hc2. unfold s3. rewrite Ell. unfold assign_lit. rewrite lvar_false_lit_of.
  split; [|split; [exact Hc2 | rewrite nv_assign; exact Hn2]].
  apply BI_assign; [exact H2 | exact Hun | | exact Hu0 | | discriminate].
  - fold (nv s2). rewrite Hn2. exact Hur.
  - (* the new clause is the reason: its other literals are false *)
    intros r Hr _. injection Hr as Hr. subst r. split; [rewrite Hn2c; lia|]. rewrite Hg2, Ell.
    intros l [Q|Q]; [subst l; left; split; [apply lvar_false_lit_of | reflexivity] | right; exact (Hll l Q)].
Qed.

Lemma lpos_zvar : forall v, 1 <= v -> lpos (zvar v) = true.
Proof. intros v H. unfold lpos, zvar. apply Z.ltb_lt. lia. Qed.

Lemma lpos_opp_zvar : forall v, lpos (- zvar v)%Z = false.
Proof. intros v. unfold lpos, zvar. apply Z.ltb_ge. lia. Qed.

Lemma block_lits : forall s n l, In l (blocking_of s n) -> l <> 0%Z /\ 1 <= lvar l <= n /\ lit_value s l = Some false.
Proof.
  intros s n l H. unfold blocking_of in H. apply in_flat_map in H. destruct H as [v [Hv Hl]]. apply in_seq in Hv.
  destruct (val_of s v) as [[|]|] eqn:E; simpl in Hl; [| |contradiction]; destruct Hl as [Hl|[]]; subst l.
  - split; [unfold zvar; lia|]. rewrite lvar_opp, lvar_zvar. split; [lia|]. unfold lit_value. rewrite lvar_opp, lvar_zvar, E, lpos_opp_zvar. reflexivity.
  - split; [unfold zvar; lia|]. rewrite lvar_zvar. split; [lia|]. unfold lit_value. rewrite lvar_zvar, E, lpos_zvar by lia. reflexivity.
Qed.

Lemma filter_idem : forall {X} (f : X -> bool) l, filter f (filter f l) = filter f l.
Proof. intros X f l. induction l as [|x l IH]; simpl; [reflexivity|]. destruct (f x) eqn:E; simpl; rewrite ?E, IH; reflexivity. Qed.

Lemma filter_neg_nil : forall {X} (f g : X -> bool) l, (forall x, g x = negb (f x)) -> filter f (filter g l) = [].
Proof.
  intros X f g l H. induction l as [|x l IH]; simpl; [reflexivity|]. rewrite H. destruct (f x) eqn:E; simpl; rewrite ?E, IH; reflexivity.
Qed.

Lemma filter_partition : forall {X} (f g : X -> bool) l, (forall x, g x = negb (f x)) -> filter f (filter f l ++ filter g l) = filter f l.
Proof. intros X f g l H. rewrite filter_app, filter_idem, (filter_neg_nil f g l H). apply app_nil_r. Qed.

Lemma nth_snoc : forall {X} (L : list X) x d j, nth j (L ++ [x]) d = if j =? length L then x else nth j L d.
Proof.
  intros X L x d j. destruct (Nat.eqb_spec j (length L)) as [E|E]; [subst j; apply nth_middle|].
  destruct (Nat.lt_ge_cases j (length L)) as [H|H]; [apply app_nth1; exact H|].
  rewrite !nth_overflow; [reflexivity | exact H | rewrite app_length; simpl; lia].
Qed.

Lemma two_shape : forall (l : list Z), 2 <= length l -> exists a b r, l = a :: b :: r.
Proof. intros [|a [|b r]] H; simpl in H; try lia. exists a, b, r. reflexivity. Qed.

Lemma db_range_set_last : forall s1 L b c, db_range s1 -> s_learned s1 = L ++ [b] -> clause_in (nv s1) c ->
  db_range (set_last_learned s1 c).
Proof.
  intros s1 L b c [D1 D2 D3 D4 D5] E Hc. constructor; auto.
  change (Forall (clause_in (nv s1)) (removelast (s_learned s1) ++ [c])). rewrite E in *. rewrite removelast_app_one.
  apply Forall_app in D3. destruct D3 as [D3 _]. apply Forall_app. split; [exact D3 | constructor; [exact Hc | constructor]].
Qed.

Section Block.
Variable s : st.
Variable n : nat.
Hypothesis HB : BI s.
Hypothesis Hnv : nv s = S n.

Let blocking := blocking_of s n.
Let cidx := n_clauses s.
Let s0 := append_learned blocking 0 s.
Let s1 := unassign_to 0 s0.
Let sorted := sort_blocking s1 blocking.
Let s2 := set_last_learned s1 sorted.

Lemma blk_in : clause_in (nv s) blocking /\ (forall l, In l blocking -> l <> 0%Z).
Proof.
  split.
  - apply Forall_forall. intros l Hl. destruct (block_lits s n l Hl) as (_ & Q & _). unfold lit_in. lia.
  - intros l Hl. exact (proj1 (block_lits s n l Hl)).
Qed.

Lemma blk_s0 : BI s0.
Proof. destruct blk_in as [Q1 Q2]. apply BI_append_learned; assumption. Qed.

Lemma blk_s1 : BI s1 /\ cur_level s1 = 0 /\ nv s1 = nv s /\ db_eq s0 s1.
Proof.
  split; [apply BI_unassign_to; exact blk_s0|]. split; [apply cur_level_unassign_to; lia|].
  split; [unfold nv, s1; rewrite unassign_to_nvals; reflexivity | apply unassign_to_db_eq].
Qed.

Lemma blk_learned1 : s_learned s1 = s_learned s ++ [blocking].
Proof. destruct blk_s1 as (_ & _ & _ & (_ & Q & _)). rewrite Q. reflexivity. Qed.

Lemma blk_sorted_sub : forall l, In l sorted -> In l blocking.
Proof. intros l H. unfold sorted, sort_blocking in H. apply in_app_or in H. destruct H as [H|H]; apply filter_In in H; tauto. Qed.

Lemma blk_get2 : forall r, get_clause s2 r = if r =? cidx then sorted else get_clause s1 r.
Proof.
  intros r. unfold get_clause, s2, set_last_learned. simpl. rewrite blk_learned1, removelast_app_one.
  assert (s_orig s1 = s_orig s) as Qo by (destruct blk_s1 as (_ & _ & _ & (Q & _)); rewrite Q; reflexivity). rewrite Qo.
  unfold cidx, n_clauses. destruct (Nat.ltb_spec r (length (s_orig s))) as [L|L].
  - destruct (Nat.eqb_spec r (length (s_orig s) + length (s_learned s))); [lia | reflexivity].
  - rewrite !nth_snoc.
    destruct (Nat.eqb_spec (r - length (s_orig s)) (length (s_learned s))), (Nat.eqb_spec r (length (s_orig s) + length (s_learned s)));
      (reflexivity || lia).
Qed.

Lemma blk_nclauses2 : n_clauses s2 = S cidx /\ n_clauses s1 = S cidx.
Proof.
  assert (n_clauses s1 = S cidx) as Q.
  { rewrite (db_eq_n_clauses _ _ (proj2 (proj2 (proj2 blk_s1)))). unfold s0. rewrite n_clauses_append. reflexivity. }
  split; [|exact Q]. rewrite <- Q. unfold n_clauses, s2, set_last_learned. simpl. rewrite blk_learned1, removelast_app_one, !app_length. reflexivity.
Qed.

Lemma blk_watch_fresh : forall l, cnt (watch_list s1 l) cidx = 0.
Proof.
  intros l. rewrite (db_eq_watch_list _ _ l (proj2 (proj2 (proj2 blk_s1)))).
  change (watch_list s0 l) with (watch_list s l). pose proof (bi_wle s HB l cidx) as Q. unfold cidx in *.
  destruct (Nat.ltb_spec (n_clauses s) (n_clauses s)); lia.
Qed.

Lemma blk_s2 : BI s2 /\ cur_level s2 = 0 /\ nv s2 = nv s.
Proof.
  destruct blk_s1 as (H1 & Hc1 & Hn1 & Hdb). destruct blk_nclauses2 as [N2 N1].
  assert (asg_eq s1 s2) as EA by apply set_last_learned_asg.
  split; [|split; [rewrite (asg_eq_cur_level _ _ EA); exact Hc1 | unfold nv in *; destruct EA as (Q & _); rewrite Q; exact Hn1]].
  apply (BI_frame s1 _ H1 EA).
  - congruence.
  - intros r l Hl. rewrite blk_get2 in Hl. destruct (Nat.eqb_spec r cidx) as [E|E]; [|exact Hl].
    subst r. apply blk_sorted_sub in Hl.
    rewrite (db_eq_get_clause _ _ _ Hdb). unfold s0, cidx. rewrite get_clause_append_new. exact Hl.
  - split; [eapply trail_inv_asg_eq; [exact EA | exact (proj1 (bi_ti s1 H1))]|].
    apply (db_range_set_last s1 (s_learned s) blocking); [exact (proj2 (bi_ti s1 H1)) | exact blk_learned1|].
    apply Forall_forall. intros l Hl. apply blk_sorted_sub in Hl. destruct blk_in as [Q _]. unfold clause_in in Q. rewrite Forall_forall in Q.
    rewrite Hn1. exact (Q l Hl).
  - intros l cj. change (watch_list s2 l) with (watch_list s1 l). rewrite N2, blk_get2.
    destruct (Nat.eqb_spec cj cidx) as [E|E]; [subst cj; rewrite blk_watch_fresh; lia|].
    pose proof (bi_wle s1 H1 l cj) as Q. rewrite N1 in Q. exact Q.
  - intros fl implied ci Hin. change (implications s2 fl) with (implications s1 fl) in Hin.
    destruct (bi_big s1 H1 fl implied ci Hin) as [Q1 Q2]. rewrite N2, blk_get2. rewrite N1 in Q1. split; [exact Q1|].
    destruct (Nat.eqb_spec ci cidx) as [E|E]; [|exact Q2]. exfalso. subst ci.
    rewrite (db_eq_implications _ _ _ Hdb) in Hin. change (implications s0 fl) with (implications s fl) in Hin.
    destruct (bi_big s HB fl implied cidx Hin) as [Q3 _]. unfold cidx in Q3. lia.
Qed.

Lemma blk_not_true : forall l, In l blocking -> is_false (lit_value s2 l) = false -> val_of s2 (lvar l) = None.
Proof.
  intros l Hl Hnf. destruct (block_lits s n l Hl) as (_ & _ & Hf).
  change (val_of s2 (lvar l)) with (val_of s1 (lvar l)). change (lit_value s2 l) with (lit_value s1 l) in Hnf.
  destruct (val_of_unassign_to s0 0 (lvar l) (proj1 (bi_ti s0 blk_s0))) as [Q|Q]; [exact Q|]. exfalso.
  unfold lit_value in Hnf. fold s1 in Q. rewrite Q in Hnf. change (val_of s0 (lvar l)) with (val_of s (lvar l)) in Hnf.
  unfold lit_value in Hf. rewrite Hf in Hnf. discriminate.
Qed.

Definition blk_open : nat := length (filter (fun l => negb (is_false (lit_value s2 l))) sorted).
Definition blk_s3 : st := if blk_open =? 1 then assign_lit (nth 0 sorted 0%Z) (Some cidx) s2 else s2.
Definition blk_s4 : st :=
  if 2 <=? length sorted then add_watch (nth 1 sorted 0%Z) cidx (add_watch (nth 0 sorted 0%Z) cidx blk_s3) else blk_s3.

Lemma blk_first_open : blk_open <> 0 -> In (nth 0 sorted 0%Z) blocking /\ is_false (lit_value s2 (nth 0 sorted 0%Z)) = false.
Proof.
  intros Ho. unfold blk_open in Ho. change (fun l => negb (is_false (lit_value s2 l))) with (fun l => negb (is_false (lit_value s1 l))) in Ho.
  unfold sorted, sort_blocking in *.
  rewrite (filter_partition (fun l => negb (is_false (lit_value s1 l))) (fun l => is_false (lit_value s1 l)) blocking) in Ho
    by (intros; rewrite negb_involutive; reflexivity).
  destruct (filter (fun l => negb (is_false (lit_value s1 l))) blocking) as [|x A] eqn:EA; [simpl in Ho; contradiction|].
  simpl. assert (In x (filter (fun l => negb (is_false (lit_value s1 l))) blocking)) as Hx by (rewrite EA; left; reflexivity).
  apply filter_In in Hx. destruct Hx as [Hx1 Hx2]. split; [exact Hx1|]. apply negb_true_iff in Hx2. exact Hx2.
Qed.

Lemma blk_s3_BI : blk_open <> 0 -> BI blk_s3 /\ cur_level blk_s3 = 0 /\ nv blk_s3 = nv s /\ db_eq s2 blk_s3.
Proof.
  intros Ho. destruct blk_s2 as (H2 & Hc2 & Hn2). unfold blk_s3. destruct (blk_open =? 1); [|split; [exact H2 | split; [exact Hc2 | split; [exact Hn2 | apply db_eq_refl]]]].
  destruct (blk_first_open Ho) as [Hx1 Hx2]. set (x := nth 0 sorted 0%Z) in *.
  destruct (block_lits s n x Hx1) as (Hx0 & Hxr & _).
  split; [|split; [exact Hc2 | split; [unfold assign_lit; rewrite nv_assign; exact Hn2 | apply assign_db_eq]]].
  unfold assign_lit. apply BI_assign; [exact H2 | | | | | discriminate].
  - apply blk_not_true; assumption.
  - fold (nv s2). rewrite Hn2, Hnv. lia.
  - lia.
  - intros r _ Hlv. lia.
Qed.

Lemma blk_s4_BI : blk_open <> 0 -> BI blk_s4 /\ cur_level blk_s4 = 0 /\ nv blk_s4 = nv s.
Proof.
  intros Ho. destruct (blk_s3_BI Ho) as (H3 & Hc3 & Hn3 & Hdb3). unfold blk_s4.
  destruct (Nat.leb_spec 2 (length sorted)) as [L|L]; [|auto].
  destruct (two_shape sorted L) as (a & b & r & Es). rewrite Es. simpl nth.
  assert (asg_eq blk_s3 (add_watch b cidx (add_watch a cidx blk_s3))) as EA by (eapply asg_eq_trans; apply add_watch_asg).
  split; [|split; [rewrite (asg_eq_cur_level _ _ EA); exact Hc3 | unfold nv in *; destruct EA as (Q & _); rewrite Q; exact Hn3]].
  apply (BI_add_watch2 blk_s3 cidx a b r); auto.
  - rewrite (db_eq_n_clauses _ _ Hdb3). rewrite (proj1 blk_nclauses2). lia.
  - rewrite (db_eq_get_clause _ _ _ Hdb3). rewrite blk_get2, Nat.eqb_refl. exact Es.
  - intros l. rewrite (db_eq_watch_list _ _ l Hdb3). exact (blk_watch_fresh l).
Qed.

End Block.

Lemma BI_push_lim : forall s, BI s -> s_head s = length (s_trail s) -> BI (push_lim s).
Proof.
  intros s H Hh. apply (BI_db_eq s _ H).
  - apply push_lim_db_eq.
  - reflexivity.
  - apply push_lim_trail_inv. exact (proj1 (bi_ti s H)).
  - exact (bi_v0 s H).
  - apply (reason_inv_levels_frame s); auto. exact (bi_reason s H).
  - apply (decision_first_levels_frame s); auto. exact (bi_dec s H).
  - apply head_inv_push_lim; [exact (bi_head s H) | exact Hh].
Qed.

Lemma decide_BI : forall s v b, BI s -> s_head s = length (s_trail s) -> 1 <= v -> v < nv s -> val_of s v = None ->
  BI (assign v b None (push_lim s)) /\ cur_level (assign v b None (push_lim s)) = S (cur_level s)
  /\ nv (assign v b None (push_lim s)) = nv s.
Proof.
  intros s v b H Hh Hv1 Hv2 Hn. pose proof (BI_push_lim s H Hh) as H1. split; [|split].
  - apply BI_assign; [exact H1 | exact Hn | exact Hv2 | lia | discriminate |].
    intros _. right. intros w Hw. change (level_of (push_lim s) w) with (level_of s w).
    pose proof (level_le_cur s w (proj1 (bi_ti s H)) Hw) as Q. unfold cur_level in *. simpl. rewrite app_length. simpl. lia.
  - unfold cur_level. simpl. rewrite app_length. simpl. lia.
  - rewrite nv_assign. reflexivity.
Qed.

Lemma reduce_db_nv : forall s, nv (reduce_db s) = nv s.
Proof. intros s. unfold nv. destruct (reduce_db_asg s) as (Q & _). rewrite Q. reflexivity. Qed.

Lemma restart_BI : forall s, BI s ->
  BI (reduce_db (unassign_to 0 s)) /\ cur_level (reduce_db (unassign_to 0 s)) = 0 /\ nv (reduce_db (unassign_to 0 s)) = nv s.
Proof.
  intros s H. assert (cur_level (unassign_to 0 s) = 0) as Hc by (apply cur_level_unassign_to; lia).
  split; [apply reduce_db_BI; [apply BI_unassign_to; exact H | exact Hc]|].
  split; [rewrite (asg_eq_cur_level _ _ (reduce_db_asg _)); exact Hc | rewrite reduce_db_nv; apply unassign_to_nvals].
Qed.

(* the state after a conflict has been analysed: backjump, learned.append, attach, assert the first literal *)
Definition learn_st (s : st) (lc : clause) (bt lbd : nat) : st :=
  let s1 := unassign_to bt s in
  let s2 := attach lc (n_clauses s1) (append_learned lc lbd s1) in
  match lc with l0 :: _ => assign_lit l0 (Some (n_clauses s1)) s2 | [] => s2 end.

(* The five ways an iteration goes on to the next one, each with the conditions of its branch and the new loop variables:
   a model whose blocking clause is false at level 0; a model whose blocking clause is attached; a decision; a learned
   clause followed by a restart; a learned clause.  All but the first end in a propagate(). *)
Inductive step_cont (fuel : nat) (P : params) (L : loop) : loop -> Prop :=
| sc_blocked :
    l_conflict L = CNone -> all_assigned (l_st L) (p_nvars P) = true ->
    (Z.of_nat (S (length (l_sols L))) < p_limit P)%Z -> blk_open (l_st L) (p_nvars P) = 0 ->
    step_cont fuel P L
      (mkLoop (set_last_learned (unassign_to 0 (append_learned (blocking_of (l_st L) (p_nvars P)) 0 (l_st L)))
                 (sort_blocking (unassign_to 0 (append_learned (blocking_of (l_st L) (p_nvars P)) 0 (l_st L)))
                    (blocking_of (l_st L) (p_nvars P))))
              (CAt (n_clauses (l_st L))) 0 (l_csr L) (l_luby_idx L) (l_next L) (l_decisions L) (l_restarts L)
              (solution_of (l_st L) (p_nvars P) :: l_sols L)
              (DEv (ELearn (blocking_of (l_st L) (p_nvars P)) true) :: DEv (ESolution (solution_of (l_st L) (p_nvars P))) :: l_evs L)
              (l_oracle L))
| sc_block : forall s5 c,
    l_conflict L = CNone -> all_assigned (l_st L) (p_nvars P) = true ->
    (Z.of_nat (S (length (l_sols L))) < p_limit P)%Z -> blk_open (l_st L) (p_nvars P) <> 0 ->
    propagate fuel (p_assum P) (blk_s4 (l_st L) (p_nvars P)) = Some (s5, c) ->
    step_cont fuel P L
      (mkLoop s5 c 0 (l_csr L) (l_luby_idx L) (l_next L) (l_decisions L) (l_restarts L)
              (solution_of (l_st L) (p_nvars P) :: l_sols L)
              (DEv (ELearn (blocking_of (l_st L) (p_nvars P)) true) :: DEv (ESolution (solution_of (l_st L) (p_nvars P))) :: l_evs L)
              (l_oracle L))
| sc_decide : forall v orc s2 c,
    l_conflict L = CNone -> all_assigned (l_st L) (p_nvars P) = false -> l_oracle L = v :: orc ->
    1 <= v <= p_nvars P -> val_of (l_st L) v = None ->
    propagate fuel (p_assum P) (assign v (nth v (s_phase (l_st L)) true) None (push_lim (l_st L))) = Some (s2, c) ->
    (s_confl s2 < p_max_conflicts P)%Z ->
    step_cont fuel P L
      (mkLoop s2 c (S (l_dec_level L)) (l_csr L) (l_luby_idx L) (l_next L) (l_decisions L + 1)%Z (l_restarts L) (l_sols L)
              (DDecide v :: l_evs L) orc)
| sc_restart : forall ci lc bt lbd lv s5 c,
    l_conflict L = CAt ci -> l_dec_level L <> 0 -> analyze (l_st L) ci = Some (lc, bt, lbd) ->
    (l_next L <= l_csr L + 1)%Z -> (l_restarts L < p_max_restarts P)%Z -> luby_val (l_luby_idx L + 1) = Some lv ->
    propagate fuel (p_assum P) (reduce_db (unassign_to 0 (learn_st (l_st L) lc bt lbd))) = Some (s5, c) ->
    step_cont fuel P L
      (mkLoop s5 c 0 0%Z (l_luby_idx L + 1)%Z (p_luby_factor P * lv)%Z (l_decisions L) (l_restarts L + 1)%Z (l_sols L)
              (DRestart :: DEv (ELearn lc false) :: l_evs L) (l_oracle L))
| sc_learn : forall ci lc bt lbd s5 c,
    l_conflict L = CAt ci -> l_dec_level L <> 0 -> analyze (l_st L) ci = Some (lc, bt, lbd) ->
    (l_csr L + 1 < l_next L)%Z -> propagate fuel (p_assum P) (learn_st (l_st L) lc bt lbd) = Some (s5, c) ->
    step_cont fuel P L
      (mkLoop s5 c bt (l_csr L + 1)%Z (l_luby_idx L) (l_next L) (l_decisions L) (l_restarts L) (l_sols L)
              (DEv (ELearn lc false) :: l_evs L) (l_oracle L)).

(* the four states an iteration may hand to propagate(), with the conditions of their branches *)
Inductive step_prop (P : params) (L : loop) : st -> Prop :=
| sp_block :
    l_conflict L = CNone -> all_assigned (l_st L) (p_nvars P) = true ->
    (Z.of_nat (S (length (l_sols L))) < p_limit P)%Z -> blk_open (l_st L) (p_nvars P) <> 0 ->
    step_prop P L (blk_s4 (l_st L) (p_nvars P))
| sp_decide : forall v orc,
    l_conflict L = CNone -> all_assigned (l_st L) (p_nvars P) = false -> l_oracle L = v :: orc ->
    1 <= v <= p_nvars P -> val_of (l_st L) v = None ->
    step_prop P L (assign v (nth v (s_phase (l_st L)) true) None (push_lim (l_st L)))
| sp_restart : forall ci lc bt lbd lv,
    l_conflict L = CAt ci -> l_dec_level L <> 0 -> analyze (l_st L) ci = Some (lc, bt, lbd) ->
    (l_next L <= l_csr L + 1)%Z -> (l_restarts L < p_max_restarts P)%Z -> luby_val (l_luby_idx L + 1) = Some lv ->
    step_prop P L (reduce_db (unassign_to 0 (learn_st (l_st L) lc bt lbd)))
| sp_learn : forall ci lc bt lbd,
    l_conflict L = CAt ci -> l_dec_level L <> 0 -> analyze (l_st L) ci = Some (lc, bt, lbd) ->
    (l_csr L + 1 < l_next L)%Z -> step_prop P L (learn_st (l_st L) lc bt lbd).

(* What an iteration that leaves the loop hands back: the record of the `limit reached` exit; all models enumerated (an
   assumption conflict, a conflict at level 0 or one that analyze gives up on); a budget exhausted (`finish` with MAX_ITER of
   loop variables with the same recorded models); or an error of the model itself: the oracle, luby, or the fuel of propagate.
   The event list of an error, and of a budget exit everything but the recorded models, is left open. *)
Inductive step_stop (fuel : nat) (P : params) (L : loop) : outcome -> Prop :=
| ss_limit : forall sol, sol = solution_of (l_st L) (p_nvars P) ->
    l_conflict L = CNone -> all_assigned (l_st L) (p_nvars P) = true ->
    (p_limit P <= Z.of_nat (S (length (l_sols L))))%Z ->
    step_stop fuel P L
      (Done (rev (DEv (EVerdict OPTIMAL) :: DEv (ESolution sol) :: l_evs L))
            (mkDres OPTIMAL (Some sol) (Z.of_nat (length sol)) (l_decisions L) (s_props (l_st L))
                    (if (p_limit P =? 1)%Z then None else Some (rev (sol :: l_sols L)))))
| ss_exhausted :
    l_conflict L <> CNone -> (forall ci, l_conflict L = CAt ci -> l_dec_level L = 0 \/ analyze (l_st L) ci = None) ->
    step_stop fuel P L (finish_exhausted L)
| ss_budget : forall L2, l_sols L2 = l_sols L -> step_stop fuel P L (finish L2 MAX_ITER)
| ss_oracle : forall e evs, e = EOracleEmpty \/ (exists v, e = EOracleBad v) -> step_stop fuel P L (Err e evs)
| ss_luby : forall evs, luby_val (l_luby_idx L + 1) = None -> step_stop fuel P L (Err ELuby evs)
| ss_fuel : forall x evs, step_prop P L x -> propagate fuel (p_assum P) x = None -> step_stop fuel P L (Err EFuel evs).

Definition step_case (fuel : nat) (P : params) (L : loop) (r : step_res) : Prop :=
  match r with Cont L' => step_cont fuel P L L' | Stop o => step_stop fuel P L o end.

(* Moves a `let` at the head of the result into the context.  main_step binds two dozen intermediate values, each in terms of
   the earlier ones; unfolding them all (as `unfold` does) makes the goal, every case split on it and the proof term several
   times larger, so each is kept as a definition of the context, and only once its branch has been entered.  The definition takes the name
   of the binder in DeepCdcl.main_step: s, n, sols, open_lits, s1 .. s4, csr below are those names. *)
Ltac head_let :=
  lazymatch goal with
  | |- step_case ?f ?P ?L (let x := ?a in @?B x) => let y := fresh x in pose (y := a); change (step_case f P L (B y)); cbv beta
  end.

Lemma main_step_cases : forall fuel P L, step_case fuel P L (main_step fuel P L).
Proof.
  intros fuel P L. cbv beta delta [main_step with_prop]. head_let.
  destruct (l_conflict L) as [| |ci] eqn:EC.
  - head_let. destruct (all_assigned s n) eqn:EAll.
    + repeat head_let. destruct (Z.leb_spec (p_limit P) (Z.of_nat (length sols))) as [Hlim|Hlim]; [apply ss_limit; auto|].
      repeat head_let. fold (blk_open (l_st L) (p_nvars P)) in open_lits. destruct (Nat.eqb_spec open_lits 0) as [Ho|Ho].
      * apply sc_blocked; assumption.
      * repeat head_let. destruct (propagate fuel (p_assum P) s4) as [[s5 c]|] eqn:EP; [apply sc_block; assumption|].
        exact (ss_fuel fuel P L _ _ (sp_block P L EC EAll Hlim Ho) EP).
    + destruct (l_oracle L) as [|v orc] eqn:EO; [apply ss_oracle; left; reflexivity|].
      destruct ((1 <=? v) && (v <=? n) && is_none (val_of s v)) eqn:EV; [|apply ss_oracle; right; exists v; reflexivity].
      apply andb_prop in EV. destruct EV as [EV EV3]. apply andb_prop in EV. destruct EV as [EV1 EV2].
      apply Nat.leb_le in EV1. apply Nat.leb_le in EV2.
      assert (val_of s v = None) as Hvn by (destruct (val_of s v); [discriminate | reflexivity]).
      repeat head_let. destruct (propagate fuel (p_assum P) s1) as [[s2 c]|] eqn:EP;
        [|exact (ss_fuel fuel P L _ _ (sp_decide P L v orc EC EAll EO (conj EV1 EV2) Hvn) EP)].
      head_let. destruct (Z.leb_spec (p_max_conflicts P) (s_confl s2)) as [Hmc|Hmc]; [apply ss_budget; reflexivity|]. apply sc_decide; auto.
  - apply ss_exhausted; rewrite EC; [discriminate | intros ci; discriminate].
  - assert (l_conflict L <> CNone) as Hc by (rewrite EC; discriminate).
    destruct (Nat.eqb_spec (l_dec_level L) 0) as [Hd0|Hd0]; [apply (ss_exhausted fuel P L Hc); intros; left; exact Hd0|].
    destruct (analyze s ci) as [[[lc bt] lbd]|] eqn:EA;
      [|apply (ss_exhausted fuel P L Hc); intros ci0 Q; right; rewrite EC in Q; injection Q as Q; subst ci0; exact EA].
    repeat head_let. destruct (Z.leb_spec (l_next L) csr) as [Hnx|Hnx].
    + destruct (Z.leb_spec (p_max_restarts P) (l_restarts L)) as [Hmr|Hmr]; [apply ss_budget; reflexivity|].
      destruct (luby_val (l_luby_idx L + 1)) as [lv|] eqn:Elv; [|apply ss_luby; exact Elv].
      repeat head_let. destruct (propagate fuel (p_assum P) s4) as [[s5 c]|] eqn:EP; [eapply sc_restart; eassumption|].
      exact (ss_fuel fuel P L _ _ (sp_restart P L ci lc bt lbd lv EC Hd0 EA Hnx Hmr Elv) EP).
    + head_let. destruct (propagate fuel (p_assum P) s3) as [[s5 c]|] eqn:EP; [eapply sc_learn; eassumption|].
      exact (ss_fuel fuel P L _ _ (sp_learn P L ci lc bt lbd EC Hd0 EA Hnx) EP).
Qed.

Lemma main_step_cont : forall fuel P L L', main_step fuel P L = Cont L' -> step_cont fuel P L L'.
Proof. intros fuel P L L' E. pose proof (main_step_cases fuel P L) as C. rewrite E in C. exact C. Qed.

Lemma main_step_stop : forall fuel P L o, main_step fuel P L = Stop o -> step_stop fuel P L o.
Proof. intros fuel P L o E. pose proof (main_step_cases fuel P L) as C. rewrite E in C. exact C. Qed.

Theorem main_step_LI : forall fuel P L L', LI P L -> main_step fuel P L = Cont L' -> LI P L'.
Proof.
  intros fuel P L L' [HB Hnv HA Hdec Hconf] E.
  destruct (main_step_cont fuel P L L' E) as [EC _ _ Ho | s5 c EC _ _ Ho EP | v orc s2 c EC _ _ Hv Hvn EP _
                                               | ci lc bt lbd lv s5 c EC Hd EA _ _ _ EP | ci lc bt lbd s5 c EC Hd EA _ EP];
    rewrite EC in Hconf.
  - destruct (blk_s2 (l_st L) (p_nvars P) HB Hnv) as (H2 & Hc2 & Hn2).
    constructor; cbn [l_st l_conflict l_dec_level]; [exact H2 | congruence | exact HA | symmetry; exact Hc2 | left; exact Hc2].
  - destruct (blk_s4_BI (l_st L) (p_nvars P) HB Hnv Ho) as (H4 & Hc4 & Hn4).
    eapply LI_after_propagate; [exact H4 | congruence | exact HA | symmetry; exact Hc4 | exact EP].
  - destruct (decide_BI (l_st L) v (nth v (s_phase (l_st L)) true) HB Hconf (proj1 Hv) ltac:(rewrite Hnv; lia) Hvn) as (H1 & Hc1 & Hn1).
    eapply LI_after_propagate; [exact H1 | congruence | exact HA | congruence | exact EP].
  - destruct Hconf as [Hconf|Hconf]; [lia|]. destruct (learn_BI (l_st L) ci lc bt lbd HB Hconf EA) as (H3 & _ & Hn3).
    destruct (restart_BI _ H3) as (H4 & Hc4 & Hn4).
    eapply LI_after_propagate; [exact H4 | congruence | exact HA | symmetry; exact Hc4 | exact EP].
  - destruct Hconf as [Hconf|Hconf]; [lia|]. destruct (learn_BI (l_st L) ci lc bt lbd HB Hconf EA) as (H3 & Hc3 & Hn3).
    eapply LI_after_propagate; [exact H3 | congruence | exact HA | symmetry; exact Hc3 | exact EP].
Qed.

(* The one way through the set-up that reaches the main loop (the event list is left open), ... *)
Inductive init_cont (fuel : nat) (cls : cnf) (A : list Z) (mc mr limit lf : Z) (orc : list nat) : params -> loop -> Prop :=
| ic_loop : forall s0 units s2 s3 c lv evs,
    n_vars_of cls <> 0 -> existsb is_nilb cls = false ->
    attach_orig cls 0 [] (init_state cls (n_vars_of cls)) = (s0, units) ->
    assign_units units (if (limit <=? 1)%Z then assign_pures A (find_pure_literals cls (n_vars_of cls)) s0 else s0) = (s2, false) ->
    propagate fuel A s2 = Some (s3, c) -> (forall ci, c <> CAt ci) -> luby_val 1 = Some lv ->
    init_cont fuel cls A mc mr limit lf orc (mkParams A mc mr limit lf (n_vars_of cls))
              (mkLoop s3 c 0 0%Z 1%Z (lf * lv)%Z 0%Z 0%Z [] evs orc).

(* ... and the early returns: unless there is no variable at all, they hand back no model *)
Lemma init_loop_cases : forall fuel cls A mc mr limit lf orc,
  match init_loop fuel cls A mc mr limit lf orc with
  | ILoop P L0 => init_cont fuel cls A mc mr limit lf orc P L0
  | IDone (Done _ r) => n_vars_of cls = 0 \/ (d_solution r = None /\ d_solutions r = None)
  | IDone (Err _ _) => True
  end.
Proof.
  intros fuel cls A mc mr limit lf orc. unfold init_loop. destruct cls as [|c0 cls0]; [left; reflexivity|]. set (cls := c0 :: cls0).
  destruct (Nat.eqb_spec (n_vars_of cls) 0) as [Hn|Hn]; [left; exact Hn|].
  destruct (existsb is_nilb cls) eqn:Enil; [right; split; reflexivity|].
  destruct (attach_orig cls 0 [] (init_state cls (n_vars_of cls))) as [s0 units] eqn:EO.
  destruct (assign_units units _) as [s2 [|]] eqn:EU; [right; split; reflexivity|].
  destruct (propagate fuel A s2) as [[s3 c]|] eqn:EP; [|exact I].
  destruct c as [| |ci]; [| |right; split; reflexivity];
    (destruct (luby_val 1) as [lv|] eqn:Elv; [|exact I]); eapply ic_loop; eauto; intros ci; discriminate.
Qed.

Theorem reach_LI : forall fuel P L0 L, LI P L0 -> reach fuel P L0 L -> LI P L.
Proof. intros fuel P L0 L H0 R. induction R as [|L1 L2 R IH E]; [exact H0 | eapply main_step_LI; eauto]. Qed.

(* along a run: the clause learned from a conflict is entailed by the clause database of that moment *)
Theorem learned_entailed_run : forall P L ci lc bt lbd, LI P L -> l_conflict L = CAt ci -> l_dec_level L <> 0 ->
  analyze (l_st L) ci = Some (lc, bt, lbd) -> entails (db (l_st L)) lc.
Proof.
  intros P L ci lc bt lbd [HB Hnv HA Hdec Hconf] EC Hd EA. rewrite EC in Hconf. destruct Hconf as [Q|(Hci & Hfalse & _)]; [lia|].
  destruct (BI_analyze_hyps _ HB) as (HT & Hnz & HR & HD).
  exact (analyze_entailed _ ci lc bt lbd HT Hnz HR HD (get_clause_in_db _ ci Hci) Hfalse EA).
Qed.
