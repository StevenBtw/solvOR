(* C11: removing cycles from walks.  Without a negative closed walk (reachable from s) every walk can be
   replaced by a walk that repeats no vertex and is not heavier; a negative closed walk contains a negative
   closed walk whose inner vertices are pairwise distinct. *)
From Coq Require Import List ZArith Lia.
From SV Require Import C11.Paths C11.PathsLemmas.
Import ListNotations.
Local Open Scope Z_scope.

Lemma dup_split (l : list nat) : ~ NoDup l -> exists a x b c, l = a ++ x :: b ++ x :: c.
Proof.
  induction l as [|y l IH]; intros H; [exfalso; apply H; constructor|].
  destruct (in_dec Nat.eq_dec y l) as [Hin|Hnin].
  - apply in_split in Hin as (b & c & ->). exists [], y, b, c. reflexivity.
  - assert (Hl : ~ NoDup l) by (intros Hl; apply H; now constructor).
    destruct (IH Hl) as (a & x & b & c & ->). exists (y :: a), x, b, c. reflexivity.
Qed.

Lemma NoDup_dec_nat (l : list nat) : {NoDup l} + {~ NoDup l}.
Proof.
  induction l as [|y l IH]; [left; constructor|].
  destruct (in_dec Nat.eq_dec y l) as [Hin|Hnin].
  - right. intros H. inversion H; contradiction.
  - destruct IH as [Hl|Hl]; [left; now constructor|right; intros H; inversion H; contradiction].
Qed.

Lemma walk_cut g u t a x b c d : walk g u t (a ++ x :: b ++ x :: c) d ->
  exists d1 e d2, walk g u x (a ++ [x]) d1 /\ walk g x x (x :: b ++ [x]) e /\ walk g x t (x :: c) d2 /\
                  d = d1 + e + d2.
Proof.
  intros H. apply walk_split in H as (d1 & d' & H1 & H2 & ->).
  change (x :: b ++ x :: c) with ((x :: b) ++ x :: c) in H2.
  apply walk_split in H2 as (e & d2 & He & H2 & ->).
  exists d1, e, d2. repeat split; auto. lia.
Qed.

Definition no_neg_from (g : wgraph) (s : nat) : Prop :=
  forall v p c, reachable g s v -> walk g v v p c -> 0 <= c.

Lemma no_neg_from_intro g s : ~ neg_cycle_reachable g s -> no_neg_from g s.
Proof.
  intros H v p c Hr Hw. destruct (Z_lt_dec c 0) as [Hc|Hc]; [|lia]. exfalso. apply H.
  exists v, p, c. repeat split; auto. eapply walk_neg_long; eauto.
Qed.

Lemma no_neg_cycle_no_neg_from g s : ~ neg_cycle g -> no_neg_from g s.
Proof.
  intros H. apply no_neg_from_intro. intros (v & p & c & _ & Hw). apply H. now exists v, p, c.
Qed.

Lemma walk_simplify g s : no_neg_from g s ->
  forall k t p c, (length p <= k)%nat -> walk g s t p c ->
  exists p' c', walk g s t p' c' /\ c' <= c /\ NoDup p'.
Proof.
  intros Hnn. induction k as [|k IH]; intros t p c Hk Hw.
  - destruct (walk_hd _ _ _ _ _ Hw) as [q ->]. simpl in Hk. lia.
  - destruct (NoDup_dec_nat p) as [Hnd|Hnd]; [exists p, c; repeat split; auto; lia|].
    destruct (dup_split p Hnd) as (a & x & b & c0 & ->).
    destruct (walk_cut _ _ _ _ _ _ _ _ Hw) as (d1 & e & d2 & H1 & He & H2 & ->).
    assert (Hrx : reachable g s x) by (now exists (a ++ [x]), d1).
    pose proof (Hnn x _ _ Hrx He) as Hpos.
    pose proof (walk_app _ _ _ _ _ H1 _ _ _ H2) as Hnew.
    destruct (IH t ((a ++ [x]) ++ c0) (d1 + d2)) as (p' & c' & Hp' & Hle & Hnd'); [|exact Hnew|].
    + rewrite !app_length in *. simpl in *. rewrite app_length in Hk. simpl in Hk. lia.
    + exists p', c'. repeat split; auto. lia.
Qed.

Theorem walk_to_simple g s t p c : ~ neg_cycle_reachable g s -> walk g s t p c ->
  exists p' c', walk g s t p' c' /\ c' <= c /\ NoDup p'.
Proof.
  intros Hn Hw. eapply walk_simplify; [now apply no_neg_from_intro| |exact Hw]. apply Nat.le_refl.
Qed.

Lemma walk_bounded g n : (forall u v w, In (u, v, w) g -> (u < n)%nat /\ (v < n)%nat) ->
  forall u t p c, walk g u t p c -> (u < n)%nat -> forall x, In x p -> (x < n)%nat.
Proof.
  intros Hg u t p c Hw Hu x Hx. destruct (walk_in_graph_nodes _ _ _ _ _ Hw x Hx) as [->|(a & w & Hin)]; [exact Hu|].
  now apply Hg in Hin.
Qed.

Lemma NoDup_bounded_length (p : list nat) n : NoDup p -> (forall x, In x p -> (x < n)%nat) -> (length p <= n)%nat.
Proof.
  intros Hnd Hb. rewrite <- (seq_length n 0). apply NoDup_incl_length; [exact Hnd|].
  intros x Hx. apply in_seq. specialize (Hb x Hx). lia.
Qed.

Definition simple_cycle (g : wgraph) (v : nat) (p : list nat) (c : Z) : Prop :=
  walk g v v p c /\ exists q, p = v :: q ++ [v] /\ NoDup (v :: q).

Lemma neg_cycle_simple g : forall k v p c, (length p <= k)%nat -> walk g v v p c -> c < 0 ->
  exists v' p' c', simple_cycle g v' p' c' /\ c' < 0.
Proof.
  induction k as [|k IH]; intros v p c Hk Hw Hc.
  - destruct (walk_hd _ _ _ _ _ Hw) as [q ->]. simpl in Hk. lia.
  - (* p = v :: q ++ [v], with an edge since c < 0 *)
    inversion Hw as [|u x t r w d Hin Hr]; subst; [lia|].
    assert (Hrl : last r v = v) by (apply (walk_last _ _ _ _ _ Hr)).
    assert (Hrne : r <> []) by (eapply walk_nonempty; eauto).
    destruct (exists_last Hrne) as (q & z & ->). rewrite last_last in Hrl. subst z.
    destruct (NoDup_dec_nat (v :: q)) as [Hnd|Hnd]; [exists v, (v :: q ++ [v]), (w + d); repeat split; eauto|].
    (* a vertex y repeats: cut at y into an inner and an outer closed walk, both shorter, one of them negative *)
    destruct (dup_split _ Hnd) as (a & y & b & c0 & Heq).
    assert (Hp : v :: q ++ [v] = a ++ y :: b ++ y :: (c0 ++ [v])).
    { change (v :: q ++ [v]) with ((v :: q) ++ [v]). rewrite Heq, <- !app_assoc. simpl. now rewrite <- app_assoc. }
    rewrite Hp in Hw, Hk. repeat (rewrite app_length in Hk; cbn [length] in Hk).
    destruct (walk_cut _ _ _ _ _ _ _ _ Hw) as (d1 & e & d2 & H1 & He & H2 & Hsum).
    destruct (Z_lt_dec e 0) as [Hneg|Hnn].
    + apply (IH y (y :: b ++ [y]) e); auto. cbn [length]. rewrite app_length. cbn [length]. lia.
    + apply (IH v ((a ++ [y]) ++ c0 ++ [v]) (d1 + d2)); [|exact (walk_app _ _ _ _ _ H1 _ _ _ H2)|lia].
      rewrite !app_length. cbn [length]. lia.
Qed.

Theorem neg_cycle_has_simple g : neg_cycle g -> exists v p c, simple_cycle g v p c /\ c < 0.
Proof.
  intros (v & p & c & Hw & Hc & _). exact (neg_cycle_simple g (length p) v p c (Nat.le_refl _) Hw Hc).
Qed.
