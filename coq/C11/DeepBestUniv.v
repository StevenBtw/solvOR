(* C11 part B - the generic best-first loop on a CLOSED FINITE UNIVERSE U of nodes (start in U, every
   neighbour of any node lies in U; nodes outside U may have neighbours, as the cells outside a grid have):
     * totality: fuel > 1 + sum of the out-degrees of U suffices (BestProofs6.best_first_total: all nodes
       that are ever pushed lie in U);
     * iterations = number of closed nodes <= |U|, hence with |U| < max_iter the status is never MAX_ITER. *)
From Coq Require Import List ZArith Bool Arith Lia.
From SV Require Import C11.BestFirst C11.BestSpec C11.BestProofs1 C11.BestProofs6.
Import ListNotations.

Local Arguments BestFirst.expand : simpl never.

Section Univ.
  Context {N C K : Type}.
  Variable neqb : N -> N -> bool.
  Hypothesis neqb_spec : forall a b, neqb a b = true <-> a = b.
  Variable czero : C.
  Variable cadd : C -> C -> C.
  Variable cltb : C -> C -> bool.
  Variable kltb : K -> K -> bool.
  Variable mkkey : C -> N -> K.
  Variable limit_of : K -> C -> C.
  Variable found_status : status.
  Variable nbrs : N -> list (N * C).
  Variable is_goal : N -> bool.
  Variable max_iter : Z.
  Variable max_cost : option C.
  Variable start : N.
  Variable U : list N.
  Hypothesis U_nodup : NoDup U.
  Hypothesis U_start : In start U.
  Hypothesis U_closed : forall u v w, In (v, w) (nbrs u) -> In v U.

  Notation st := (@st N C K).
  Notation expand := (expand neqb cadd cltb kltb mkkey nbrs).
  Notation loop := (loop neqb cadd cltb kltb mkkey limit_of found_status nbrs is_goal max_iter max_cost).
  Notation mem := (memb neqb).
  Notation deg := (deg nbrs).

  Ltac ssimpl := cbn [s_g s_parent s_closed s_counter s_heap s_evals].

  Theorem best_first_total_U : forall fuel,
    1 + list_sum (map deg U) < fuel ->
    exists r, best_first neqb czero cadd cltb kltb mkkey limit_of found_status nbrs is_goal max_iter max_cost fuel start = Some r.
  Proof.
    apply (best_first_total neqb neqb_spec); [assumption|left; assumption|].
    intros u v w Hin. left. eapply U_closed. eassumption.
  Qed.

  Notation heap_in := (@heap_all N C K (fun v => In v U)).

  Record invU (s : st) (iters : Z) : Prop := {
    u_heap : heap_in s;
    u_closed : incl (s_closed s) U;
    u_nd : NoDup (s_closed s);
    u_iters : iters = Z.of_nat (length (s_closed s))
  }.

  Lemma invU_len : forall s iters, invU s iters -> (iters <= Z.of_nat (length U))%Z.
  Proof.
    intros s iters [_ Hc Hn Hi]. subst iters. apply inj_le. apply NoDup_incl_length; assumption.
  Qed.

  Lemma invU_expand : forall cur gcur s iters, invU s iters -> invU (expand cur gcur s) iters.
  Proof.
    intros cur gcur s iters [Hh Hc Hn Hi]. constructor; rewrite ?expand_closed; try assumption.
    (* u_heap *) apply expand_heap_all; [intros v w; apply U_closed|assumption].
  Qed.

  Lemma invU_close : forall s it k c cur h', invU s it -> s_heap s = (k, c, cur) :: h' ->
    mem cur (s_closed s) = false ->
    invU (closing s cur h') (it + 1).
  Proof.
    intros s it k c cur h' [Hh Hc Hn Hi] Eh Ec. constructor; ssimpl.
    - eapply heap_all_tail; eassumption.
    - intros x [E|Hx]; [subst; eapply Hh; rewrite Eh; left; reflexivity|apply Hc; assumption].
    - constructor; [|assumption]. intros Hi'. apply (memb_In neqb neqb_spec) in Hi'. congruence.
    - simpl length. lia.
  Qed.

  Lemma loop_iters_U : forall fuel s iters r, invU s iters -> loop fuel s iters = Some r ->
    (r_iters r <= Z.of_nat (length U))%Z /\
    (found_status <> MAX_ITER -> r_status r = MAX_ITER -> (max_iter <= Z.of_nat (length U))%Z).
  Proof.
    intros fuel s iters r.
    apply (loop_rule neqb cadd cltb kltb mkkey limit_of found_status nbrs is_goal max_iter max_cost invU
             (fun r => (r_iters r <= Z.of_nat (length U))%Z /\
                (found_status <> MAX_ITER -> r_status r = MAX_ITER -> (max_iter <= Z.of_nat (length U))%Z))).
    - intros s0 it I _. pose proof (invU_len _ _ I) as Hlen. unfold finish. simpl. split; [assumption|].
      intros _. destruct (max_iter <=? it)%Z eqn:E1; [|discriminate]. intros _. lia.
    - intros s0 it k c cur h' [Hh Hc Hn Hi] Eh _ _. constructor; ssimpl; try assumption.
      (* u_heap *) eapply heap_all_tail; eassumption.
    - intros s0 it k c cur h' gcur p I Eh _ Ec _ _ _. simpl.
      split; [exact (invU_len _ _ (invU_close s0 it k c cur h' I Eh Ec))|]. intros Hf E. congruence.
    - intros s0 it k c cur h' gcur I Eh _ Ec _ _ _. eapply invU_close; eassumption.
    - intros s0 it k c cur h' gcur I Eh _ Ec _ _ _. apply invU_expand. eapply invU_close; eassumption.
  Qed.

  Theorem best_first_iters_U : forall fuel r,
    best_first neqb czero cadd cltb kltb mkkey limit_of found_status nbrs is_goal max_iter max_cost fuel start = Some r ->
    (r_iters r <= Z.of_nat (length U))%Z /\
    (found_status <> MAX_ITER -> r_status r = MAX_ITER -> (max_iter <= Z.of_nat (length U))%Z).
  Proof.
    intros fuel r H. unfold best_first in H. eapply loop_iters_U; [|exact H].
    unfold init_st. constructor; ssimpl.
    - intros k c v [E|[]]. inversion E; subst. assumption.
    - intros x [].
    - constructor.
    - reflexivity.
  Qed.
End Univ.
