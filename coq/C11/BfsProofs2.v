(* C11 bfs/dfs proofs: the loop invariants beyond path validity (BfsProofs1.v).  Processed nodes are closed under the
   successor function and are not goals (INFEASIBLE iff no goal node reachable, visited = reachable set, dfs finds
   iff reachable); every iteration pops a distinct visited node (MAX_ITER is real); for bfs the queue is sorted by
   depth and spans at most two levels (the path found is a shortest one). *)
From Coq Require Import List ZArith Lia.
From SV Require Import C11.Paths C11.PathsLemmas C11.Bfs C11.BfsProofs1.
Import ListNotations.
Import Bfs.
Local Open Scope nat_scope.

Lemma in_dec_nat (x : nat) l : In x l \/ ~ In x l.
Proof. destruct (in_dec Nat.eq_dec x l); tauto. Qed.

Section InvB.
Variable succ : nat -> list nat.
Variable start : nat.
Variable goal : option (nat -> bool).

(* visited nodes that left the frontier have been expanded and were not goals *)
Definition invB (st : state) : Prop :=
  forall v, In v (visited st) -> ~ In v (frontier st) ->
    goal_test goal v = false /\ forall x, In x (succ v) -> In x (visited st).

Definition invAB (st : state) : Prop := invA succ start st /\ invB st.

Lemma invB_init : invB (init start).
Proof. intros v Hv Hn. exfalso. apply Hn. exact Hv. Qed.

Lemma invAB_step m st cur rest : invAB st -> frontier st = cur :: rest -> goal_test goal cur = false ->
  invAB (pop_expand m succ st cur rest).
Proof.
  intros [HA HB] Ef Eg. split; [apply invA_step; assumption|].
  destruct (pop_expand_spec m succ st cur rest) as (l & Hnd & Hl & ->). unfold invB. cbn [visited frontier].
  intros v Hv Hnf. rewrite in_pushall in Hnf. apply in_app_iff in Hv as [Hv|Hv]; [tauto|].
  destruct (Nat.eq_dec v cur) as [->|Hne].
  - split; [exact Eg|]. intros x Hx. apply in_app_iff.
    destruct (in_dec_nat x (visited st)) as [H|H]; [now right|]. left. now apply Hl.
  - assert (Hnf0 : ~ In v (frontier st)) by (rewrite Ef; intros [H|H]; [congruence|tauto]).
    destruct (HB v Hv Hnf0) as [H1 H2].
    split; [exact H1|]. intros x Hx. apply in_app_iff. right. now apply H2.
Qed.

Lemma visited_reach st : invA succ start st -> forall v, In v (visited st) -> reach succ start v.
Proof.
  intros (Hwf & Hvis & _) v Hv. apply Hvis in Hv. exists (anc (parent st) v ++ [v]).
  now apply chain_is_path.
Qed.

(* every iteration pops a distinct visited node: iterations + |frontier| <= |visited|, without duplicates *)
Definition invN (it : Z) (st : state) : Prop :=
  NoDup (visited st) /\ NoDup (frontier st) /\ incl (frontier st) (visited st) /\
  (it + Z.of_nat (length (frontier st)) <= Z.of_nat (length (visited st)))%Z.

Lemma invN_init : invN 0%Z (init start).
Proof.
  unfold invN, init; simpl. repeat split; try (constructor; [intros []|constructor]); try lia.
  intros x H; exact H.
Qed.

Lemma invN_step m it st cur rest : invN it st -> frontier st = cur :: rest ->
  invN (it + 1)%Z (pop_expand m succ st cur rest).
Proof.
  intros (Hv & Hf & Hi & Hc) Ef. destruct (pop_expand_spec m succ st cur rest) as (l & Hnd & Hl & ->).
  unfold invN. cbn [visited frontier].
  assert (Hfresh : forall x, In x l -> ~ In x (visited st)) by (intros x Hx; now apply Hl in Hx).
  rewrite Ef in Hf, Hi, Hc. inversion Hf as [|? ? Hcr Hrest]; subst.
  assert (Hri : incl rest (visited st)) by (intros x Hx; apply Hi; now right).
  split; [|split; [|split]].
  - now apply NoDup_app_intro.
  - destruct m; simpl.
    + apply NoDup_app_intro; [exact Hrest|now apply NoDup_rev|]. intros x Hx Hn. apply in_rev in Hn.
      apply (Hfresh x Hn). now apply Hri.
    + apply NoDup_app_intro; [exact Hnd|exact Hrest|]. intros x Hx Hr. apply (Hfresh x Hx). now apply Hri.
  - intros x Hx. apply in_pushall in Hx. apply in_app_iff. destruct Hx as [Hx|Hx]; [right; now apply Hri|now left].
  - assert (length (pushall m l rest) = length rest + length l)
      by (destruct m; simpl; rewrite app_length, ?rev_length; lia).
    rewrite H, app_length. simpl in Hc. lia.
Qed.

Definition result_spec (m : mode) (max_iter : Z) (r : result) : Prop :=
  match r with
  | Found s p obj => s = found_status m /\
      exists t, is_path succ start t p /\ goal_test goal t = true /\ obj = (Z.of_nat (length p) - 1)%Z
  | NotFound INFEASIBLE => goal <> None /\ forall t, reach succ start t -> goal_test goal t = false
  | NotFound MAX_ITER => goal <> None /\
      (* the limit really was reached: at least max_iter distinct reachable nodes exist *)
      exists vs, NoDup vs /\ (forall v, In v vs -> reach succ start v) /\ (max_iter <= Z.of_nat (length vs))%Z
  | NotFound _ => False
  | Visited vs obj => goal = None /\ obj = Z.of_nat (length vs) /\ In start vs /\ NoDup vs /\
      (forall v, In v vs -> reach succ start v) /\
      ((Z.of_nat (length vs) < max_iter)%Z -> forall t, reach succ start t -> In t vs)
  | Hang => False
  end.

Definition invABN (it : Z) (st : state) : Prop := invAB st /\ invN it st.

Lemma loop_spec m max_iter fuel st r : invABN 0%Z st ->
  loop fuel m succ goal max_iter 0%Z st = Some r -> result_spec m max_iter r.
Proof.
  intros Hinv Hl.
  destruct (loop_end m succ goal max_iter invABN
              (fun it st cur rest H E G => conj (invAB_step m st cur rest (proj1 H) E G)
                                                (invN_step m it st cur rest (proj2 H) E))
              fuel 0%Z st r Hinv Hl)
    as (it' & st' & [[HA HB] (Hnv & Hnf & Hni & Hcnt)] & Ho).
  assert (Hstart : In start (visited st')) by (apply (proj1 (proj2 HA)); now left).
  assert (Hreach : forall v, In v (visited st') -> reach succ start v)
    by (intros v Hv; eapply visited_reach; eauto).
  unfold result_spec.
  inversion Ho as [st0 it0 Ef|st0 it0 Hle Hne|st0 it0 cur rest Ef Eg]; subst.
  - assert (Hc : forall v, In v (visited st') -> forall x, In x (succ v) -> In x (visited st')).
    { intros v Hv. apply (HB v Hv). rewrite Ef. intros []. }
    assert (Hall : forall t, reach succ start t -> In t (visited st')).
    { intros t (p & Hp & Hh & Hlast & Hne).
      pose proof (closed_reach succ _ Hc p start Hstart Hp Hh) as Ht. now rewrite Hlast in Ht. }
    unfold finish. destruct goal as [isg|] eqn:Egoal.
    + destruct (max_iter <=? it')%Z eqn:Ele.
      * split; [discriminate|]. exists (visited st'). repeat split; auto.
        apply Z.leb_le in Ele. rewrite Ef in Hcnt. simpl in Hcnt. lia.
      * split; [discriminate|]. intros t Ht. rewrite <- Egoal. apply (HB t (Hall t Ht)). rewrite Ef. intros [].
    + repeat split; auto.
  - unfold finish. destruct goal as [isg|] eqn:Egoal.
    + assert (Hle' := Hle). apply Z.leb_le in Hle'. rewrite Hle'. split; [discriminate|].
      exists (visited st'). repeat split; auto. lia.
    + repeat split; auto. intros Hlt. exfalso. lia.
  - destruct HA as (Hwf & Hvis & Hfr).
    assert (Hg : good start (parent st') cur) by (apply Hvis, Hfr; rewrite Ef; now left).
    rewrite (reconstruct_path_anc succ start _ _ Hwf Hg). split; [reflexivity|].
    exists cur. split; [now apply chain_is_path|]. split; [exact Eg|reflexivity].
Qed.

End InvB.

(* bfs: the queue holds at most two consecutive levels in order, hence the first goal node popped is a nearest one *)
Section Levels.
Variable succ : nat -> list nat.
Variable start : nat.
Variable goal : option (nat -> bool).

Fixpoint sorted_by (f : nat -> nat) (l : list nat) : Prop :=
  match l with
  | [] => True
  | a :: r => (forall b, In b r -> f a <= f b) /\ sorted_by f r
  end.

Lemma sorted_by_ext f g l : (forall x, In x l -> f x = g x) -> sorted_by f l -> sorted_by g l.
Proof.
  induction l as [|a r IH]; intros He Hs; [exact I|]. destruct Hs as [H1 H2]. split.
  - intros b Hb. rewrite <- (He a), <- (He b); [now apply H1|now right|now left].
  - apply IH; [|exact H2]. intros x Hx. apply He. now right.
Qed.

Lemma sorted_by_app f l1 l2 : sorted_by f l1 -> sorted_by f l2 ->
  (forall a b, In a l1 -> In b l2 -> f a <= f b) -> sorted_by f (l1 ++ l2).
Proof.
  induction l1 as [|a r IH]; intros H1 H2 H12; [exact H2|]. destruct H1 as [Ha Hr]. split.
  - intros b Hb. apply in_app_iff in Hb as [Hb|Hb]; [now apply Ha|]. apply H12; [now left|exact Hb].
  - apply IH; auto. intros x y Hx Hy. apply H12; [now right|exact Hy].
Qed.

Lemma sorted_by_const f c l : (forall x, In x l -> f x = c) -> sorted_by f l.
Proof.
  induction l as [|a r IH]; intros H; [exact I|]. split.
  - intros b Hb. rewrite (H a), (H b); [lia|now right|now left].
  - apply IH. intros x Hx. apply H. now right.
Qed.

Definition dep (st : state) (v : nat) : nat := depth (parent st) v.

(* the queue is sorted by depth; no visited node is more than one level below its head; successors of processed
   nodes are at most one level deeper *)
Definition invC (st : state) : Prop :=
  sorted_by (dep st) (frontier st) /\
  (forall h t, frontier st = h :: t -> forall v, In v (visited st) -> dep st v <= S (dep st h)) /\
  (forall v, In v (visited st) -> ~ In v (frontier st) ->
     forall x, In x (succ v) -> dep st x <= S (dep st v)).

Definition invABC (st : state) : Prop := invAB succ start goal st /\ invC st.

Lemma invC_init : invC (init start).
Proof.
  unfold invC, init, dep; simpl. split; [split; [intros b []|exact I]|]. split.
  - intros h t _ v _. lia.
  - intros v Hv Hn. exfalso. apply Hn. exact Hv.
Qed.

Lemma invABC_step st cur rest : invABC st -> frontier st = cur :: rest -> goal_test goal cur = false ->
  invABC (pop_expand Queue succ st cur rest).
Proof.
  intros [HAB (Hs & Hb & Hp)] Ef Eg. split; [apply invAB_step; assumption|].
  destruct HAB as [(Hwf & Hvis & Hfr) HB].
  destruct (pop_expand_spec Queue succ st cur rest) as (l & Hnd & Hl & ->).
  unfold invC, dep. cbn [visited parent frontier pushall].
  assert (Hcurv : In cur (visited st)) by (apply Hfr; rewrite Ef; now left).
  assert (Hcn : ~ In cur l) by (intros H; apply Hl in H; tauto).
  assert (Hold : forall v, In v (visited st) -> depth (entries cur l ++ parent st) v = dep st v).
  { intros v Hv. apply depth_entries_old; [exact Hcn|]. intros H. apply Hl in H. tauto. }
  assert (Hnew : forall v, In v l -> depth (entries cur l ++ parent st) v = S (dep st cur))
    by (intros v; now apply depth_entries_new).
  rewrite Ef in Hs. destruct Hs as [Hcr Hsr].
  assert (Hrestv : forall v, In v rest -> In v (visited st)) by (intros v Hv; apply Hfr; rewrite Ef; now right).
  assert (Hbound : forall v, In v (visited st) -> dep st v <= S (dep st cur)) by (intros v Hv; eapply Hb; eauto).
  split; [|split].
  - apply sorted_by_app.
    + eapply sorted_by_ext; [|exact Hsr]. intros x Hx. symmetry. apply Hold. now apply Hrestv.
    + apply sorted_by_const with (c := S (dep st cur)). intros x Hx. apply Hnew. now apply in_rev.
    + intros a b Ha Hb'. apply in_rev in Hb'. rewrite (Hold a) by now apply Hrestv. rewrite (Hnew b Hb').
      apply Hbound. now apply Hrestv.
  - intros h t Eh v Hv.
    assert (Hh : S (dep st cur) <= S (depth (entries cur l ++ parent st) h)).
    { assert (Hin : In h (rest ++ rev l)) by (rewrite Eh; now left).
      apply in_app_iff in Hin as [Hin|Hin].
      - rewrite (Hold h) by now apply Hrestv. specialize (Hcr h Hin). unfold dep in *. lia.
      - apply in_rev in Hin. rewrite (Hnew h Hin). lia. }
    apply in_app_iff in Hv as [Hv|Hv].
    + rewrite (Hnew v Hv). lia.
    + rewrite (Hold v Hv). specialize (Hbound v Hv). lia.
  - intros v Hv Hnf x Hx. rewrite in_app_iff, <- in_rev in Hnf. apply in_app_iff in Hv as [Hv|Hv]; [tauto|].
    rewrite (Hold v Hv).
    destruct (Nat.eq_dec v cur) as [->|Hne].
    + destruct (in_dec_nat x (visited st)) as [Hxv|Hxv].
      * rewrite (Hold x Hxv). now apply Hbound.
      * rewrite (Hnew x); [lia|]. apply Hl. tauto.
    + assert (Hnf0 : ~ In v (frontier st)) by (rewrite Ef; intros [H|H]; [congruence|tauto]).
      destruct (HB v Hv Hnf0) as [_ Hsucc].
      rewrite (Hold x (Hsucc x Hx)). now apply (Hp v Hv Hnf0).
Qed.

Lemma depth_start par : wf_parent succ start par -> depth par start = 0.
Proof.
  induction 1 as [|c p rest Hwf IH Hc Hs Hg Hin]; [reflexivity|]. simpl.
  destruct (Nat.eqb c start) eqn:E; [apply Nat.eqb_eq in E; congruence|exact IH].
Qed.

(* every node reached by a path of k edges from a processed-or-visited node x, with dep x + k below the
   level of the queue head, is visited, processed and has depth <= dep x + k *)
Lemma level_walk st h t : invABC st -> frontier st = h :: t ->
  forall p x, path_in succ p -> hd_error p = Some x -> In x (visited st) ->
  dep st x + (length p - 1) < dep st h ->
  In (last p x) (visited st) /\ ~ In (last p x) (frontier st) /\ dep st (last p x) <= dep st x + (length p - 1).
Proof.
  intros [[HA HB] (Hs & Hb & Hp)] Ef.
  assert (Hlow : forall v, In v (frontier st) -> dep st h <= dep st v).
  { rewrite Ef in *. destruct Hs as [Hs _]. intros v [<-|Hv]; [lia|now apply Hs]. }
  induction p as [|u p IH]; intros x Hpath Hh Hx Hlt; [destruct Hpath|].
  injection Hh as ->. destruct p as [|v p].
  - simpl. split; [exact Hx|]. split; [|lia]. intros Hin. apply Hlow in Hin. simpl in Hlt. lia.
  - destruct Hpath as [Hxv Hpath].
    change (last (x :: v :: p) x) with (last (v :: p) x). rewrite (last_default (v :: p) x v) by discriminate.
    assert (Hxnf : ~ In x (frontier st)).
    { intros Hin. apply Hlow in Hin. simpl in Hlt. lia. }
    destruct (HB x Hx Hxnf) as [_ Hsucc].
    pose proof (Hp x Hx Hxnf v Hxv) as Hdv.
    simpl length in Hlt.
    destruct (IH v Hpath eq_refl (Hsucc v Hxv)) as (H1 & H2 & H3).
    + simpl length. lia.
    + split; [exact H1|]. split; [exact H2|]. simpl length in *. lia.
Qed.

Lemma bfs_loop_shortest max_iter fuel st r : invABC st -> invN 0%Z st ->
  loop fuel Queue succ goal max_iter 0%Z st = Some r ->
  forall s p obj, r = Found s p obj ->
  forall t q, is_path succ start t q -> goal_test goal t = true -> (obj <= Z.of_nat (length q) - 1)%Z.
Proof.
  intros Hinv HN Hl s p obj Hr t q Hq Hgt.
  destruct (loop_end Queue succ goal max_iter (fun _ => invABC)
              (fun _ st cur rest H E G => invABC_step st cur rest H E G) fuel 0%Z st r Hinv Hl)
    as (it' & st' & Hinv' & Ho).
  destruct Ho as [st' it' Ef|st' it' Hle Hne|st' it' cur rest Ef Eg].
  - unfold finish in Hr. destruct goal; [destruct (max_iter <=? it')%Z|]; discriminate.
  - unfold finish in Hr. destruct goal; [destruct (max_iter <=? it')%Z|]; discriminate.
  - pose proof Hinv' as [[(Hwf & Hvis & Hfr) HB] HC].
    assert (Hg : good start (parent st') cur) by (apply Hvis, Hfr; rewrite Ef; now left).
    rewrite (reconstruct_path_anc succ start _ _ Hwf Hg) in Hr. injection Hr as _ <- <-.
    rewrite app_length, anc_length. simpl length.
    destruct Hq as (Hpath & Hhd & Hlast & Hne).
    assert (Hq1 : length q >= 1) by (destruct q; [congruence|simpl; lia]).
    destruct (le_lt_dec (depth (parent st') cur) (length q - 1)) as [Hle|Hlt]; [lia|]. exfalso.
    assert (Hsv : In start (visited st')) by (apply Hvis; now left).
    destruct (level_walk st' cur rest Hinv' Ef q start Hpath Hhd Hsv) as (H1 & H2 & H3).
    + unfold dep. rewrite (depth_start _ Hwf). simpl. exact Hlt.
    + rewrite Hlast in *. destruct (HB t H1 H2) as [Hng _]. congruence.
Qed.

End Levels.
