(* C11 part B - completeness of the best-first search on graphs (dijkstra / astar, any heuristic, any
   weights): without a max_cost limit and unless the run stops with MAX_ITER,
       status INFEASIBLE  <->  no goal node is reachable,
   and a reachable goal makes the model return a path.  MAX_ITER cannot occur when max_iter exceeds the number of
   distinct nodes of the input (each node is closed at most once: iterations <= |nodes|).
   The direction INFEASIBLE -> unreachable is BestProofs2; the rest follows from it, the path theorem
   (BestProofs1) and the iteration bound (DeepBestUniv). *)
From Coq Require Import List ZArith Bool Arith Lia.
From SV Require Import C11.Paths C11.BestFirst C11.BestSpec C11.BestGraph C11.BestProofs1 C11.BestProofs2
  C11.BestProofsInst C11.BestProofs6 C11.BestGrid C11.DeepBestUniv C11.DeepBestGrid.
Import ListNotations.
Open Scope Z_scope.

(* the distinct nodes a run can ever see: the start and the edge targets *)
Definition graph_nodes (adj : adjacency) (start : nat) : list nat :=
  nodup Nat.eq_dec (start :: map fst (concat adj)).

(* boolean input condition: max_iter cannot interfere (the default 1_000_000 on any graph below 10^6 nodes) *)
Definition iter_limit_free (adj : adjacency) (start : nat) (max_iter : Z) : bool :=
  Z.of_nat (length (graph_nodes adj start)) <? max_iter.

Lemma adj_nbrs_target : forall adj u v w, In (v, w) (adj_nbrs adj u) -> In v (map fst (concat adj)).
Proof.
  intros adj u v w H. unfold adj_nbrs in H.
  destruct (Nat.lt_ge_cases u (length adj)) as [Hu|Hu].
  - apply in_map_iff. exists (v, w). split; [reflexivity|]. apply in_concat. exists (nth u adj []).
    split; [apply nth_In; assumption|assumption].
  - rewrite nth_overflow in H by assumption. destruct H.
Qed.

Lemma graph_nodes_closed : forall adj start u v w, In (v, w) (adj_nbrs adj u) -> In v (graph_nodes adj start).
Proof. intros. unfold graph_nodes. apply nodup_In. right. eapply adj_nbrs_target. eassumption. Qed.

Lemma graph_nodes_start : forall adj start, In start (graph_nodes adj start).
Proof. intros. unfold graph_nodes. apply nodup_In. left. reflexivity. Qed.

(* a returned path, in the vocabulary of C11.Paths *)
Definition graph_found (adj : adjacency) (start : nat) (goals : list nat) (found : status) (r : result nat Z) : Prop :=
  exists p d t, r_path r = Some p /\ r_obj r = Some d /\ walk (adj_edges adj) start t p d
                /\ goal_in goals t = true /\ r_status r = found.

Definition some_goal_reachable (adj : adjacency) (start : nat) (goals : list nat) : Prop :=
  exists t, goal_in goals t = true /\ reachable (adj_edges adj) start t.

Definition complete_ok (adj : adjacency) (start : nat) (goals : list nat) (found : status) (r : result nat Z) : Prop :=
  (r_status r = INFEASIBLE <-> no_goal_reachable adj start goals)
  /\ (some_goal_reachable adj start goals <-> graph_found adj start goals found r).

Lemma complete_of : forall adj start goals found (r : result nat Z),
  graph_res_ok adj start goals found r ->
  (r_status r = INFEASIBLE -> no_goal_reachable adj start goals) ->
  found <> INFEASIBLE -> r_status r <> MAX_ITER ->
  complete_ok adj start goals found r.
Proof.
  intros adj start goals found r Hok Hinf Hf Hm. unfold graph_res_ok in Hok. split; [split|split].
  - exact Hinf.
  - intros Hno. destruct (r_path r) as [p|].
    + destruct Hok as [d [t [_ [Hw [Hg _]]]]]. exfalso. apply (Hno t Hg). exists p, d. assumption.
    + destruct Hok as [_ [H|H]]; [assumption|contradiction].
  - intros [t [Hg Hr]]. destruct (r_path r) as [p|] eqn:Ep.
    + destruct Hok as [d [t' [Hd [Hw [Hg' Hs]]]]]. exists p, d, t'. repeat split; assumption.
    + destruct Hok as [_ [H|H]]; [|contradiction]. exfalso. apply (Hinf H t Hg Hr).
  - intros [p [d [t [_ [_ [Hw [Hg _]]]]]]]. exists t. split; [assumption|]. exists p, d. assumption.
Qed.

Lemma dijkstra_iters : forall fuel adj start goals max_iter max_cost r,
  dijkstra_gen fuel adj start goals max_iter max_cost = Some r ->
  r_iters r <= Z.of_nat (length (graph_nodes adj start)) /\
  (r_status r = MAX_ITER -> max_iter <= Z.of_nat (length (graph_nodes adj start))).
Proof.
  intros fuel adj start goals max_iter max_cost r H. unfold dijkstra_gen, dijkstra_c in H.
  eapply (best_first_iters_U Nat.eqb Nat.eqb_eq) with (U := graph_nodes adj start) in H.
  - destruct H as [H1 H2]. split; [exact H1|]. apply H2. discriminate.
  - apply graph_nodes_start.
  - intros u v w Hin. eapply graph_nodes_closed. eassumption.
Qed.

Lemma astar_iters : forall fuel adj start goals htab weight max_iter max_cost r,
  astar_gen fuel adj start goals htab weight max_iter max_cost = Some r ->
  r_iters r <= Z.of_nat (length (graph_nodes adj start)) /\
  (r_status r = MAX_ITER -> max_iter <= Z.of_nat (length (graph_nodes adj start))).
Proof.
  intros fuel adj start goals htab weight max_iter max_cost r H. unfold astar_gen, astar_c in H.
  eapply (best_first_iters_U Nat.eqb Nat.eqb_eq) with (U := graph_nodes adj start) in H.
  - destruct H as [H1 H2]. split; [exact H1|]. apply H2. destruct (weight =? 1); discriminate.
  - apply graph_nodes_start.
  - intros u v w Hin. eapply graph_nodes_closed. eassumption.
Qed.

Theorem dijkstra_complete_cond : forall fuel adj start goals max_iter r,
  dijkstra_gen fuel adj start goals max_iter None = Some r -> r_status r <> MAX_ITER ->
  complete_ok adj start goals OPTIMAL r.
Proof.
  intros fuel adj start goals max_iter r H Hm. apply complete_of.
  - eapply dijkstra_path_valid. eassumption.
  - eapply dijkstra_infeasible_sound. eassumption.
  - discriminate.
  - assumption.
Qed.

Theorem astar_complete_cond : forall fuel adj start goals htab weight max_iter r,
  astar_gen fuel adj start goals htab weight max_iter None = Some r -> r_status r <> MAX_ITER ->
  complete_ok adj start goals (if weight =? 1 then OPTIMAL else FEASIBLE) r.
Proof.
  intros fuel adj start goals htab weight max_iter r H Hm. apply complete_of.
  - eapply astar_path_valid. eassumption.
  - eapply astar_infeasible_sound. eassumption.
  - destruct (weight =? 1); discriminate.
  - assumption.
Qed.

Theorem dijkstra_complete : forall fuel adj start goals max_iter r,
  iter_limit_free adj start max_iter = true ->
  dijkstra_gen fuel adj start goals max_iter None = Some r ->
  r_status r <> MAX_ITER /\ complete_ok adj start goals OPTIMAL r.
Proof.
  intros fuel adj start goals max_iter r Hl H.
  assert (Hm : r_status r <> MAX_ITER).
  { intros E. destruct (dijkstra_iters _ _ _ _ _ _ _ H) as [_ H2]. specialize (H2 E).
    unfold iter_limit_free in Hl. apply Z.ltb_lt in Hl. lia. }
  split; [assumption|]. eapply dijkstra_complete_cond; eassumption.
Qed.

Theorem astar_complete : forall fuel adj start goals htab weight max_iter r,
  iter_limit_free adj start max_iter = true ->
  astar_gen fuel adj start goals htab weight max_iter None = Some r ->
  r_status r <> MAX_ITER /\ complete_ok adj start goals (if weight =? 1 then OPTIMAL else FEASIBLE) r.
Proof.
  intros fuel adj start goals htab weight max_iter r Hl H.
  assert (Hm : r_status r <> MAX_ITER).
  { intros E. destruct (astar_iters _ _ _ _ _ _ _ _ _ H) as [_ H2]. specialize (H2 E).
    unfold iter_limit_free in Hl. apply Z.ltb_lt in Hl. lia. }
  split; [assumption|]. eapply astar_complete_cond; eassumption.
Qed.

Theorem dijkstra_decides : forall adj start goals max_iter,
  iter_limit_free adj start max_iter = true ->
  exists r, dijkstra adj start goals max_iter None = Some r /\ r_status r <> MAX_ITER
            /\ complete_ok adj start goals OPTIMAL r.
Proof.
  intros adj start goals max_iter Hl. destruct (dijkstra_total adj start goals max_iter None) as [r Hr].
  exists r. split; [assumption|]. eapply dijkstra_complete; eassumption.
Qed.

Theorem astar_decides : forall adj start goals htab weight max_iter,
  iter_limit_free adj start max_iter = true ->
  exists r, astar adj start goals htab weight max_iter None = Some r /\ r_status r <> MAX_ITER
            /\ complete_ok adj start goals (if weight =? 1 then OPTIMAL else FEASIBLE) r.
Proof.
  intros adj start goals htab weight max_iter Hl.
  destruct (astar_total adj start goals htab weight max_iter None) as [r Hr].
  exists r. split; [assumption|]. eapply astar_complete; eassumption.
Qed.

Definition grid_iter_limit_free (g : grid) (max_iter : Z) : bool := Z.of_nat (S (n_cells g)) <? max_iter.

Theorem astar_grid_complete : forall g start goal directions h blocked cost_map weight max_iter r,
  astar_grid_zr g start goal directions h blocked cost_map weight max_iter = Some r ->
  (grid_iter_limit_free g max_iter = true -> r_status r <> MAX_ITER)
  /\ (r_status r <> MAX_ITER ->
      (r_status r = INFEASIBLE <-> unreachable_goal zr_add (zr_grid_nbrs g directions blocked cost_map) (cell_eqb goal) start)
      /\ ((exists a q t d, lwalk zr_add (zr_grid_nbrs g directions blocked cost_map) start a q t d /\ cell_eqb goal t = true)
          -> exists p d, r_path r = Some p /\ r_obj r = Some d
                         /\ path_spec zr_add (zr_grid_nbrs g directions blocked cost_map) zr_zero start (cell_eqb goal) p d)).
Proof.
  intros g start goal directions h blocked cost_map weight max_iter r H. split.
  - intros Hl E. rewrite astar_grid_zr_fuel_eq in H. destruct (astar_grid_iters _ _ _ _ _ _ _ _ _ _ _ H) as [_ H2].
    specialize (H2 E). unfold grid_iter_limit_free in Hl. apply Z.ltb_lt in Hl.
    destruct (in_grid g start); lia.
  - intros Hm. pose proof (astar_grid_path_valid _ _ _ _ _ _ _ _ _ _ H) as Hok.
    pose proof (astar_grid_infeasible_sound _ _ _ _ _ _ _ _ _ _ H) as Hinf.
    unfold grid_res_ok in Hok. split; [split|].
    + exact Hinf.
    + intros Hno. destruct (r_path r) as [p|].
      * destruct Hok as [d [_ [[q [t [_ [Hw Hg]]]] _]]]. rewrite (Hno _ _ _ _ Hw) in Hg. discriminate.
      * destruct Hok as [_ [E|E]]; [assumption|contradiction].
    + intros [a [q [t [d [Hw Hg]]]]]. destruct (r_path r) as [p|].
      * destruct Hok as [d' [Hd [Hp _]]]. exists p, d'. repeat split; assumption.
      * destruct Hok as [_ [E|E]]; [|contradiction]. rewrite (Hinf E _ _ _ _ Hw) in Hg. discriminate.
Qed.
