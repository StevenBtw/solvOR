(* C11 part B - optimality instantiated: dijkstra_c / astar_c over any ordered cost type, then dijkstra_gen /
   astar_gen over Z in the vocabulary of C11.Paths (walk, is_dist), with boolean input conditions. *)
From Coq Require Import List ZArith Bool Arith Lia.
From SV Require Import C11.Paths C11.BestFirst C11.BestSpec C11.BestGraph C11.BestOrder C11.BestHyps
  C11.BestProofs1 C11.BestProofs4 C11.BestProofsInst.
Import ListNotations.

Section CostInstances.
  Context {N C : Type}.
  Variable neqb : N -> N -> bool.
  Hypothesis neqb_spec : forall a b, neqb a b = true <-> a = b.
  Variable czero : C.
  Variable cadd : C -> C -> C.
  Variable cltb : C -> C -> bool.
  Hypothesis OC : ordered_costs czero cadd cltb.
  Variable nbrs : N -> list (N * C).
  Variable is_goal : N -> bool.
  Variable max_iter : Z.
  Variable max_cost : option C.
  Variable start : N.
  Notation le := (cle cltb).
  Hypothesis nonneg : forall u v w, In (v, w) (nbrs u) -> le czero w.

  Lemma flip_key_order : key_order (fun x y : C => cltb y x).
  Proof.
    pose proof (ordered_costs_key_order czero cadd cltb OC) as KO. constructor.
    - intros a b H. apply (ko_asym _ KO). assumption.
    - intros a b c H1 H2. eapply (ko_trans _ KO); eassumption.
    - intros a b c H1 H2. eapply (ko_negtrans _ KO); eassumption.
  Qed.

  Theorem dijkstra_c_optimal : forall fuel r,
    dijkstra_c neqb czero cadd cltb nbrs is_goal max_iter max_cost fuel start = Some r ->
    opt_res czero cadd cltb nbrs is_goal max_cost start r.
  Proof.
    intros fuel r H. unfold dijkstra_c in H. assert (Hf : OPTIMAL <> INFEASIBLE) by discriminate.
    refine ((fun B => conj (proj1 B) (proj2 B Hf)) _).
    eapply (best_first_bound neqb neqb_spec czero cadd cltb OC cltb (ordered_costs_key_order czero cadd cltb OC)
              (fun t _ => t) (fun k _ => k) OPTIMAL) with (h := fun _ => czero) (sc := fun a => a) (fv := fun k => k);
      (* the hypotheses of BestProofs4's Section Opt: nonneg and the run are at hand, goal_h, sc_add and sc_zero hold by
         computation (h = 0, sc = identity); the other six follow *)
      try eassumption; try reflexivity.
    - (* K_fv *) intros a b Hab. exact Hab.
    - (* K_mk *) intros t v. symmetry. apply (oc_zero _ _ _ OC).
    - (* H_lim *) intros k gcur v Hk. rewrite (oc_zero _ _ _ OC) in Hk. assumption.
    - (* consistent *) intros u v w Hin. rewrite (oc_zero _ _ _ OC). eapply nonneg; eassumption.
    - (* sc_mono *) intros a b Hab. exact Hab.
    - (* sc_ge *) intros a Ha. apply (cle_refl czero cadd cltb OC).
  Qed.

  Section Scaled.
    Variable h : N -> C.
    Variable sc : C -> C.
    Hypothesis consistent : forall u v w, In (v, w) (nbrs u) -> le (h u) (cadd w (h v)).
    Hypothesis goal_h : forall t, is_goal t = true -> h t = czero.
    Hypothesis sc_add : forall a b, sc (cadd a b) = cadd (sc a) (sc b).
    Hypothesis sc_mono : forall a b, le a b -> le (sc a) (sc b).
    Hypothesis sc_ge : forall a, le czero a -> le a (sc a).
    Hypothesis sc_zero : sc czero = czero.

    Theorem astar_c_bound : forall found fuel r,
      astar_c neqb czero cadd cltb (fun v => sc (h v)) found nbrs is_goal max_iter max_cost fuel start = Some r ->
      bound_res czero cadd cltb found nbrs is_goal max_cost start sc r.
    Proof.
      intros found fuel r H. unfold astar_c in H.
      eapply (best_first_bound neqb neqb_spec czero cadd cltb OC (akey_ltb cltb)
                (lex_key_order cltb (fun x y => cltb y x) (ordered_costs_key_order czero cadd cltb OC) flip_key_order)
                (fun t v => (cadd t (sc (h v)), t)) (fun _ gc => gc) found) with (h := h) (fv := fst);
        (* of the hypotheses of BestProofs4's Section Opt, K_mk holds by computation and all but two are at hand *)
        try eassumption; try reflexivity.
      - (* K_fv *) intros a b Hab. unfold akey_ltb in Hab. unfold cle. destruct (cltb (fst a) (fst b)); [discriminate|reflexivity].
      - (* H_lim *) intros k gcur v _. apply (cle_refl czero cadd cltb OC).
    Qed.
  End Scaled.
End CostInstances.

Open Scope Z_scope.

Definition within_opt (max_cost : option Z) (d : Z) : Prop :=
  match max_cost with None => True | Some mc => d <= mc end.

Definition graph_opt_ok (adj : adjacency) (start : nat) (goals : list nat) (max_cost : option Z) (r : result nat Z) : Prop :=
  (forall d0, r_obj r = Some d0 ->
     forall t p d, goal_in goals t = true -> walk (adj_edges adj) start t p d -> within_opt max_cost d -> d0 <= d)
  /\ (r_status r = INFEASIBLE ->
     forall t p d, goal_in goals t = true -> walk (adj_edges adj) start t p d -> within_opt max_cost d -> False).

Lemma nonneg_adj_spec : forall adj, nonneg_adj adj = true ->
  forall u v w, In (v, w) (adj_nbrs adj u) -> cle Z.ltb 0 w.
Proof.
  intros adj H u v w Hin. unfold nonneg_adj in H. rewrite forallb_forall in H. unfold adj_nbrs in Hin.
  destruct (Nat.lt_ge_cases u (length adj)) as [Hu|Hu].
  - specialize (H (nth u adj []) (nth_In _ _ Hu)). rewrite forallb_forall in H. specialize (H _ Hin). simpl in H.
    unfold cle. apply Z.ltb_ge. apply Z.leb_le. assumption.
  - rewrite nth_overflow in Hin by assumption. destruct Hin.
Qed.

Lemma consistent_adj_spec : forall adj goals htab, consistent_adj adj goals htab = true ->
  (forall u v w, In (v, w) (adj_nbrs adj u) -> cle Z.ltb (nth u htab 0) (w + nth v htab 0))
  /\ (forall t, goal_in goals t = true -> nth t htab 0 = 0).
Proof.
  intros adj goals htab H. unfold consistent_adj in H. apply andb_true_iff in H. destruct H as [H1 H2]. split.
  - intros u v w Hin. unfold adj_nbrs in Hin. rewrite forallb_forall in H1.
    destruct (Nat.lt_ge_cases u (length adj)) as [Hu|Hu].
    + assert (Hc : In (u, nth u adj []) (combine (seq 0 (length adj)) adj)).
      { replace (u, nth u adj []) with (nth u (combine (seq 0 (length adj)) adj) (O, [])).
        - apply nth_In. rewrite combine_length, seq_length. lia.
        - rewrite combine_nth by (rewrite seq_length; reflexivity). rewrite seq_nth by assumption. reflexivity. }
      specialize (H1 _ Hc). simpl in H1. rewrite forallb_forall in H1. specialize (H1 _ Hin). simpl in H1.
      unfold cle. apply Z.ltb_ge. apply Z.leb_le in H1. exact H1.
    + rewrite nth_overflow in Hin by assumption. destruct Hin.
  - intros t Ht. unfold goal_in in Ht. apply (memb_In Nat.eqb Nat.eqb_eq) in Ht.
    rewrite forallb_forall in H2. specialize (H2 _ Ht). apply Z.eqb_eq in H2. exact H2.
Qed.

Lemma graph_opt_ok_of : forall adj start goals max_cost r,
  opt_res 0 Z.add Z.ltb (adj_nbrs adj) (goal_in goals) max_cost start r -> graph_opt_ok adj start goals max_cost r.
Proof.
  intros adj start goals max_cost r [H1 H2]. split.
  - intros d0 Hd t p d Ht Hw W. destruct (walk_lwalk _ _ _ _ _ Hw 0) as [q [_ Hq]]. simpl in Hq.
    assert (Hle : cle Z.ltb d0 d).
    { eapply H1; try eassumption. unfold within, within_opt in *. destruct max_cost; [|exact I].
      unfold cle. apply Z.ltb_ge. assumption. }
    unfold cle in Hle. apply Z.ltb_ge in Hle. assumption.
  - intros Hs t p d Ht Hw W. destruct (walk_lwalk _ _ _ _ _ Hw 0) as [q [_ Hq]]. simpl in Hq.
    eapply H2; try eassumption. unfold within, within_opt in *. destruct max_cost; [|exact I].
    unfold cle. apply Z.ltb_ge. assumption.
Qed.

Theorem dijkstra_optimal : forall fuel adj start goals max_iter max_cost r,
  nonneg_adj adj = true ->
  dijkstra_gen fuel adj start goals max_iter max_cost = Some r ->
  graph_opt_ok adj start goals max_cost r.
Proof.
  intros fuel adj start goals max_iter max_cost r Hn H. apply graph_opt_ok_of. unfold dijkstra_gen in H.
  eapply (dijkstra_c_optimal Nat.eqb Nat.eqb_eq 0 Z.add Z.ltb Z_ordered_costs); [|exact H].
  apply nonneg_adj_spec. assumption.
Qed.

Theorem astar_gen_bound : forall fuel adj start goals htab weight max_iter max_cost r,
  1 <= weight -> nonneg_adj adj = true -> consistent_adj adj goals htab = true ->
  astar_gen fuel adj start goals htab weight max_iter max_cost = Some r ->
  bound_res 0 Z.add Z.ltb (if weight =? 1 then OPTIMAL else FEASIBLE) (adj_nbrs adj) (goal_in goals) max_cost start
    (Z.mul weight) r.
Proof.
  intros fuel adj start goals htab weight max_iter max_cost r Hw Hn Hc H.
  destruct (consistent_adj_spec _ _ _ Hc) as [Hc1 Hc2]. unfold astar_gen in H.
  eapply (astar_c_bound Nat.eqb Nat.eqb_eq 0 Z.add Z.ltb Z_ordered_costs (adj_nbrs adj) (goal_in goals)
            max_iter max_cost start (nonneg_adj_spec adj Hn) (fun v => nth v htab 0) (Z.mul weight));
    [exact Hc1|exact Hc2| | | | |exact H].
  - intros a b. lia.
  - intros a b Hab. unfold cle in *. rewrite Z.ltb_ge in *. nia.
  - intros a Ha. unfold cle in *. rewrite Z.ltb_ge in *. nia.
  - lia.
Qed.

Theorem astar_optimal : forall fuel adj start goals htab max_iter max_cost r,
  nonneg_adj adj = true -> consistent_adj adj goals htab = true ->
  astar_gen fuel adj start goals htab 1 max_iter max_cost = Some r ->
  graph_opt_ok adj start goals max_cost r.
Proof.
  intros fuel adj start goals htab max_iter max_cost r Hn Hc H. apply graph_opt_ok_of.
  destruct (astar_gen_bound fuel adj start goals htab 1 max_iter max_cost r (Z.le_refl 1) Hn Hc H) as [B1 B2].
  split.
  - intros d0 Hd t q d Ht Hw W. rewrite <- (Z.mul_1_l d). apply (B1 d0 Hd t q d Ht Hw). rewrite Z.mul_1_l. exact W.
  - intros Hst t q d Ht Hw W. apply (B2 ltac:(discriminate) Hst t q d Ht Hw). rewrite Z.mul_1_l. exact W.
Qed.

Theorem best_is_dist : forall adj start goals (r : result nat Z) found,
  graph_res_ok adj start goals found r -> graph_opt_ok adj start goals None r ->
  forall d0, r_obj r = Some d0 ->
  exists t p, r_path r = Some p /\ goal_in goals t = true /\ is_dist (adj_edges adj) start t d0
              /\ forall t' d', goal_in goals t' = true -> is_dist (adj_edges adj) start t' d' -> d0 <= d'.
Proof.
  intros adj start goals r found Hv [Ho _] d0 Hd. unfold graph_res_ok in Hv.
  destruct (r_path r) as [p|] eqn:Ep.
  - destruct Hv as [d [t [Hd' [Hw [Hg Hs]]]]]. rewrite Hd in Hd'. inversion Hd'; subst d.
    exists t, p. repeat split; try assumption.
    + exists p. assumption.
    + intros p' d' Hw'. eapply Ho; try eassumption. exact I.
    + intros t' d' Ht' [[p' Hw'] _]. eapply Ho; try eassumption. exact I.
  - destruct Hv as [Hn _]. congruence.
Qed.
