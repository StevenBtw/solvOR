(* C11 part B - Z[sqrt 2] with the exact order of BestGrid.v (zr_ltb) is a totally ordered commutative monoid
   (ordered_costs): the optimality theorem applies to the exact grid model.  Also a linear sufficient condition
   for <= and the order laws of scaling by an integer (zr_scale), as the grid theorems need them. *)
From Coq Require Import List ZArith Bool Arith Lia.
From SV Require Import C11.BestFirst C11.BestGrid C11.BestOrder.
Import ListNotations.
Open Scope Z_scope.

Lemma sq_lt_inv : forall x y, 0 <= x -> 0 <= y -> x * x < y * y -> x < y.
Proof. intros. nia. Qed.

Lemma sq_le_inv : forall x y, 0 <= x -> 0 <= y -> x * x <= y * y -> x <= y.
Proof. intros. nia. Qed.

Lemma sqrt2_irrational_nat : forall n : nat, forall a b : Z, Z.abs_nat a = n -> a * a = 2 * (b * b) -> a = 0.
Proof.
  induction n as [n IH] using lt_wf_ind. intros a b Hn H.
  destruct (Z.eq_dec a 0) as [E|E]; [assumption|exfalso].
  destruct (Z.Even_or_Odd a) as [[k Hk]|[k Hk]].
  - subst a. assert (Hb : b * b = 2 * (k * k)) by nia.
    assert (Hlt : (Z.abs_nat b < Z.abs_nat (2 * k))%nat).
    { apply Nat2Z.inj_lt. rewrite !Zabs2Nat.id_abs. apply sq_lt_inv; try apply Z.abs_nonneg.
      rewrite <- !Z.abs_mul, !Z.abs_eq by nia. nia. }
    rewrite Hn in Hlt. pose proof (IH _ Hlt b k eq_refl Hb) as Hb0. subst b. nia.
  - subst a. nia.
Qed.

Lemma sqrt2_irrational : forall a b : Z, a * a = 2 * (b * b) -> a = 0 /\ b = 0.
Proof.
  intros a b H. assert (Ha : a = 0) by (eapply sqrt2_irrational_nat; [reflexivity|exact H]).
  split; [assumption|]. subst. nia.
Qed.

(* For x, y >= 0 read x * x <= 2 * (y * y) as x <= y sqrt 2.  Such pairs are closed under addition: the squares add
   up once the cross term is bounded, which is the product of the two hypotheses (Cauchy-Schwarz). *)
Lemma cross_le : forall x1 y1 x2 y2, 0 <= x1 -> 0 <= y1 -> 0 <= x2 -> 0 <= y2 ->
  x1 * x1 <= 2 * (y1 * y1) -> x2 * x2 <= 2 * (y2 * y2) -> x1 * x2 <= 2 * (y1 * y2).
Proof.
  intros x1 y1 x2 y2 Hx1 Hy1 Hx2 Hy2 H1 H2. apply sq_le_inv; [nia|nia|].
  replace (x1 * x2 * (x1 * x2)) with (x1 * x1 * (x2 * x2)) by ring.
  replace (2 * (y1 * y2) * (2 * (y1 * y2))) with (2 * (y1 * y1) * (2 * (y2 * y2))) by ring.
  apply Z.mul_le_mono_nonneg; nia.
Qed.

(* the same for y sqrt 2 <= x, which is 2 y <= x sqrt 2 *)
Lemma cross_ge : forall x1 y1 x2 y2, 0 <= x1 -> 0 <= y1 -> 0 <= x2 -> 0 <= y2 ->
  2 * (y1 * y1) <= x1 * x1 -> 2 * (y2 * y2) <= x2 * x2 -> 2 * (y1 * y2) <= x1 * x2.
Proof.
  intros x1 y1 x2 y2 Hx1 Hy1 Hx2 Hy2 H1 H2.
  pose proof (cross_le (2 * y1) x1 (2 * y2) x2). lia.
Qed.

(* zr_pos as a proposition *)
Definition Pos (a b : Z) : Prop :=
  (0 <= a /\ 0 <= b /\ (a <> 0 \/ b <> 0)) \/ (0 < a /\ b < 0 /\ 2 * (b * b) < a * a) \/ (a < 0 /\ 0 < b /\ a * a < 2 * (b * b)).

Lemma zr_pos_spec : forall a b, zr_pos (a, b) = true <-> Pos a b.
Proof.
  intros a b. unfold zr_pos, Pos.
  destruct (0 <=? a) eqn:E1, (0 <=? b) eqn:E2; cbn [andb negb];
    try apply Z.leb_le in E1; try apply Z.leb_le in E2; try apply Z.leb_gt in E1; try apply Z.leb_gt in E2.
  - rewrite negb_true_iff, andb_false_iff, !Z.eqb_neq. split; [intros H; left; auto|intros [H|[H|H]]; [tauto|lia|lia]].
  - destruct (a <=? 0) eqn:E3; cbn [andb negb]; [apply Z.leb_le in E3|apply Z.leb_gt in E3].
    + destruct (b <=? 0) eqn:E4; [|apply Z.leb_gt in E4; lia]. split; [discriminate|]. intros [H|[H|H]]; lia.
    + destruct (0 <? a) eqn:E5; [|apply Z.ltb_ge in E5; lia]. rewrite Z.ltb_lt.
      split; [intros H; right; left; nia|intros [H|[H|H]]; nia].
  - destruct (a <=? 0) eqn:E3; [|apply Z.leb_gt in E3; lia]. cbn [andb negb].
    destruct (b <=? 0) eqn:E4; [apply Z.leb_le in E4|apply Z.leb_gt in E4].
    + split; [discriminate|]. intros [H|[H|H]]; lia.
    + destruct (0 <? a) eqn:E5; [apply Z.ltb_lt in E5; lia|]. rewrite Z.ltb_lt.
      split; [intros H; right; right; nia|intros [H|[H|H]]; nia].
  - destruct (a <=? 0) eqn:E3; [|apply Z.leb_gt in E3; lia].
    destruct (b <=? 0) eqn:E4; [|apply Z.leb_gt in E4; lia]. cbn [andb negb].
    split; [discriminate|]. intros [H|[H|H]]; lia.
Qed.

(* a + b sqrt 2 > 0 exactly when it is (p - q sqrt 2) + (s sqrt 2 - r) with both summands >= 0 and one > 0 *)
Lemma Pos_diff : forall p q r s, 0 <= p -> 0 <= q -> 0 <= r -> 0 <= s ->
  2 * (q * q) <= p * p -> r * r <= 2 * (s * s) -> 2 * (q * q) < p * p \/ r * r < 2 * (s * s) ->
  Pos (p - r) (s - q).
Proof.
  intros p q r s Hp Hq Hr Hs HU HL Hst. unfold Pos.
  destruct (Z_le_gt_dec r p) as [A|A], (Z_le_gt_dec q s) as [B|B].
  - (* both differences >= 0: were both 0, the two weak hypotheses would be equalities *)
    left. split; [lia|split; [lia|]].
    destruct (Z.eq_dec p r) as [->|]; [right|lia]. intros E. assert (s = q) by lia. subst s. lia.
  - (* were p - r <= (q - s) sqrt 2, adding r <= s sqrt 2 would give p <= q sqrt 2, strictly if r < s sqrt 2 *)
    assert (T : 2 * ((q - s) * (q - s)) < (p - r) * (p - r)).
    { destruct (Z_lt_le_dec (2 * ((q - s) * (q - s))) ((p - r) * (p - r))) as [|L]; [assumption|exfalso].
      pose proof (cross_le (p - r) (q - s) r s). lia. }
    right; left. split; [nia|split; [lia|]]. lia.
  - (* the mirror case, with cross_ge *)
    assert (T : (r - p) * (r - p) < 2 * ((s - q) * (s - q))).
    { destruct (Z_lt_le_dec ((r - p) * (r - p)) (2 * ((s - q) * (s - q)))) as [|L]; [assumption|exfalso].
      pose proof (cross_ge (r - p) (s - q) p q). lia. }
    right; right. split; [lia|split; [nia|]]. lia.
  - (* p < r and s < q would give p^2 < r^2 <= 2 s^2 < 2 q^2 <= p^2 *)
    exfalso. assert (p * p < r * r) by nia. assert (s * s < q * q) by nia. lia.
Qed.

Lemma Pos_split : forall a b, Pos a b -> exists p q r s,
  (0 <= p /\ 0 <= q /\ 0 <= r /\ 0 <= s) /\ a = p - r /\ b = s - q /\
  2 * (q * q) <= p * p /\ r * r <= 2 * (s * s) /\ (2 * (q * q) < p * p \/ r * r < 2 * (s * s)).
Proof.
  intros a b [H|[H|H]].
  - exists a, 0, 0, b. nia.
  - exists a, (- b), 0, 0. nia.
  - exists 0, 0, (- a), b. nia.
Qed.

Lemma Pos_add : forall a1 b1 a2 b2, Pos a1 b1 -> Pos a2 b2 -> Pos (a1 + a2) (b1 + b2).
Proof.
  intros a1 b1 a2 b2 H1 H2.
  destruct (Pos_split _ _ H1) as (p1 & q1 & r1 & s1 & N1 & -> & -> & U1 & L1 & S1).
  destruct (Pos_split _ _ H2) as (p2 & q2 & r2 & s2 & N2 & -> & -> & U2 & L2 & S2).
  replace (p1 - r1 + (p2 - r2)) with (p1 + p2 - (r1 + r2)) by ring.
  replace (s1 - q1 + (s2 - q2)) with (s1 + s2 - (q1 + q2)) by ring.
  pose proof (cross_ge p1 q1 p2 q2). pose proof (cross_le r1 s1 r2 s2).
  apply Pos_diff; lia.
Qed.

(* the sign of a + b sqrt 2 is that of the term that dominates; neither does only for 0, sqrt 2 being irrational *)
Lemma Pos_trichotomy : forall a b, Pos a b \/ Pos (- a) (- b) \/ (a = 0 /\ b = 0).
Proof.
  intros a b. unfold Pos. destruct (Z.lt_trichotomy (a * a) (2 * (b * b))) as [L|[E|L]].
  - destruct (Z.lt_trichotomy b 0) as [B|[B|B]]; [right; left; lia|nia|left; lia].
  - right; right. apply sqrt2_irrational. assumption.
  - destruct (Z.lt_trichotomy a 0) as [A|[A|A]]; [right; left; lia|nia|left; lia].
Qed.

Lemma Pos_total : forall a b, ~ Pos a b -> ~ Pos (- a) (- b) -> a = 0 /\ b = 0.
Proof. intros a b H1 H2. destruct (Pos_trichotomy a b) as [H|[H|H]]; [contradiction|contradiction|assumption]. Qed.

Lemma zr_ltb_spec : forall x y, zr_ltb x y = true <-> Pos (fst y - fst x) (snd y - snd x).
Proof. intros [a b] [c d]. unfold zr_ltb, zr_sub. simpl fst. simpl snd. apply zr_pos_spec. Qed.

Lemma zr_ltb_false : forall x y, zr_ltb x y = false <-> ~ Pos (fst y - fst x) (snd y - snd x).
Proof.
  intros x y. rewrite <- zr_ltb_spec. destruct (zr_ltb x y); split; intros H; try congruence; try discriminate.
Qed.

Lemma zr2_ordered_costs : ordered_costs zr_zero zr_add zr_ltb.
Proof.
  constructor.
  - intros [a b]. apply zr_ltb_false. simpl. unfold Pos. lia.
  - intros [a1 a2] [b1 b2] [c1 c2]. rewrite !zr_ltb_spec. simpl. intros H1 H2.
    pose proof (Pos_add _ _ _ _ H1 H2) as H.
    replace (b1 - a1 + (c1 - b1)) with (c1 - a1) in H by lia.
    replace (b2 - a2 + (c2 - b2)) with (c2 - a2) in H by lia. assumption.
  - intros [a1 a2] [b1 b2]. rewrite !zr_ltb_false. simpl. intros H1 H2.
    replace (a1 - b1) with (- (b1 - a1)) in H2 by lia. replace (a2 - b2) with (- (b2 - a2)) in H2 by lia.
    destruct (Pos_total _ _ H1 H2). f_equal; lia.
  - intros [a1 a2] [b1 b2] [c1 c2]. unfold zr_add. simpl. f_equal; lia.
  - intros [a1 a2] [b1 b2]. unfold zr_add. simpl. f_equal; lia.
  - intros [a1 a2]. unfold zr_add, zr_zero. simpl. f_equal; lia.
  - intros [a1 a2] [b1 b2] [c1 c2]. unfold zr_ltb, zr_sub, zr_add. simpl fst. simpl snd.
    replace (b1 + c1 - (a1 + c1)) with (b1 - a1) by lia.
    replace (b2 + c2 - (a2 + c2)) with (b2 - a2) by lia. reflexivity.
Qed.

(* a + b sqrt 2 <= 0 follows from two linear conditions, since 1 <= sqrt 2 <= 2 (enough for all grid heuristics) *)
Lemma zr_pos_false_suff : forall a b,
  (0 <= b -> a + 2 * b <= 0) -> (b <= 0 -> a + b <= 0) -> zr_pos (a, b) = false.
Proof.
  intros a b H1 H2. destruct (zr_pos (a, b)) eqn:E; [|reflexivity]. exfalso.
  apply zr_pos_spec in E. unfold Pos in E. destruct E as [E|[E|E]]; nia.
Qed.

Lemma zr_le_suff : forall x y : zr2,
  (0 <= snd x - snd y -> fst x - fst y + 2 * (snd x - snd y) <= 0) ->
  (snd x - snd y <= 0 -> fst x - fst y + (snd x - snd y) <= 0) ->
  cle zr_ltb x y.
Proof. intros [a b] [c d]. apply zr_pos_false_suff. Qed.

Lemma Pos_scale_inv : forall k a b, 0 < k -> Pos (k * a) (k * b) -> Pos a b.
Proof.
  intros k a b Hk H. unfold Pos in *. destruct H as [[H1 [H2 H3]]|[[H1 [H2 H3]]|[H1 [H2 H3]]]].
  - left. repeat split; [nia|nia|]. destruct H3 as [H3|H3]; [left|right]; nia.
  - right. left. repeat split; [nia|nia|].
    assert (E : k * k * (2 * (b * b)) < k * k * (a * a)) by nia.
    apply Z.mul_lt_mono_pos_l in E; [assumption|nia].
  - right. right. repeat split; [nia|nia|].
    assert (E : k * k * (a * a) < k * k * (2 * (b * b))) by nia.
    apply Z.mul_lt_mono_pos_l in E; [assumption|nia].
Qed.

Lemma zr_scale_mono : forall k x y, 0 <= k -> cle zr_ltb x y -> cle zr_ltb (zr_scale k x) (zr_scale k y).
Proof.
  intros k [a b] [c d] Hk H. unfold cle in *. rewrite zr_ltb_false in *. unfold zr_scale. cbn [fst snd] in *.
  intros HP. destruct (Z.eq_dec k 0) as [E|E].
  - subst k. unfold Pos in HP. lia.
  - apply H. apply (Pos_scale_inv k); [lia|].
    replace (k * (a - c)) with (k * a - k * c) by ring. replace (k * (b - d)) with (k * b - k * d) by ring. assumption.
Qed.

Lemma zr_scale_ge : forall k x, 1 <= k -> cle zr_ltb zr_zero x -> cle zr_ltb x (zr_scale k x).
Proof.
  intros k [a b] Hk H. unfold cle in *. rewrite zr_ltb_false in *. unfold zr_scale, zr_zero in *. cbn [fst snd] in *.
  intros HP. destruct (Z.eq_dec k 1) as [E|E].
  - subst k. replace (a - 1 * a) with 0 in HP by ring. replace (b - 1 * b) with 0 in HP by ring. unfold Pos in HP. lia.
  - apply H. apply (Pos_scale_inv (k - 1)); [lia|].
    replace ((k - 1) * (0 - a)) with (a - k * a) by ring. replace ((k - 1) * (0 - b)) with (b - k * b) by ring. assumption.
Qed.

Lemma zr_scale_add : forall k x y, zr_scale k (zr_add x y) = zr_add (zr_scale k x) (zr_scale k y).
Proof. intros k [a b] [c d]. unfold zr_scale, zr_add. cbn [fst snd]. f_equal; ring. Qed.

Lemma zr_scale_zero : forall k, zr_scale k zr_zero = zr_zero.
Proof. intros k. unfold zr_scale, zr_zero. cbn [fst snd]. f_equal; ring. Qed.

Lemma zr_scale_1 : forall x, zr_scale 1 x = x.
Proof. intros [a b]. unfold zr_scale. cbn [fst snd]. f_equal; lia. Qed.
