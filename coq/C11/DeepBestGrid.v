(* C11 part B - totality of the grid model astar_grid_zr (BestGrid.v) with its built-in fuel.
   Universe: the rows*cols cells of the grid (plus the start cell if it lies outside).  Every neighbour
   yielded by the neighbour generator is a grid cell, every cell yields at most |dirs| <= 8 neighbours, so
   pushes <= 1 + 8 * |universe| and  fuel > 1 + 8 * |universe|  suffices (BestFirst loop on a closed universe,
   DeepBestUniv.v).  grid_fuel g = 2 + 8 * (rows*cols + 1). *)
From Coq Require Import List ZArith Bool Arith Lia FinFun.
From SV Require Import C11.BestFirst C11.BestGrid C11.BestSpec C11.BestProofs1 C11.BestProofs6 C11.BestProofsInst
  C11.DeepBestUniv.
Import ListNotations.
Open Scope Z_scope.

Definition in_grid (g : grid) (p : cell) : bool :=
  (0 <=? fst p) && (fst p <? grid_rows g) && (0 <=? snd p) && (snd p <? grid_cols g).

Definition cell_of (r c : nat) : cell := (Z.of_nat r, Z.of_nat c).

Definition all_cells (g : grid) : list cell :=
  flat_map (fun r => map (cell_of r) (seq 0 (length (hd [] g)))) (seq 0 (length g)).

Definition n_cells (g : grid) : nat := (length g * length (hd [] g))%nat.

Lemma all_cells_length : forall g, length (all_cells g) = n_cells g.
Proof.
  intros g. unfold all_cells, n_cells.
  assert (H : forall m n a, length (flat_map (fun r => map (cell_of r) (seq 0 m)) (seq a n)) = (n * m)%nat).
  { intros m n. induction n as [|n IH]; intros a; simpl; [reflexivity|].
    rewrite app_length, map_length, seq_length, IH. reflexivity. }
  apply H.
Qed.

Lemma In_all_cells : forall g p, In p (all_cells g) <-> in_grid g p = true.
Proof.
  intros g [r c]. unfold all_cells, in_grid, grid_rows, grid_cols. simpl. rewrite in_flat_map. split.
  - intros [x [Hx Hin]]. apply in_map_iff in Hin. destruct Hin as [y [E Hy]].
    apply in_seq in Hx. apply in_seq in Hy. unfold cell_of in E. inversion E; subst.
    rewrite !andb_true_iff, !Z.leb_le, !Z.ltb_lt. lia.
  - rewrite !andb_true_iff, !Z.leb_le, !Z.ltb_lt. intros [[[H1 H2] H3] H4].
    exists (Z.to_nat r). split; [apply in_seq; lia|]. apply in_map_iff. exists (Z.to_nat c).
    split; [unfold cell_of; f_equal; lia|apply in_seq; lia].
Qed.

Lemma all_cells_NoDup : forall g, NoDup (all_cells g).
Proof.
  intros g. unfold all_cells.
  assert (H : forall m n a, NoDup (flat_map (fun r => map (cell_of r) (seq 0 m)) (seq a n))); [|apply H].
  intros m n. induction n as [|n IH]; intros a; simpl; [constructor|].
  apply PathsLemmas.NoDup_app_intro.
  - apply Injective_map_NoDup; [|apply seq_NoDup]. intros x y E. inversion E. lia.
  - apply IH.
  - intros x Hx Hin. apply in_map_iff in Hx. destruct Hx as [y [<- _]].
    apply in_flat_map in Hin. destruct Hin as [r [Hr Hin]]. apply in_seq in Hr.
    apply in_map_iff in Hin. destruct Hin as [z [E _]]. inversion E. lia.
Qed.

Lemma flat_map_length_le1 : forall (A B : Type) (f : A -> list B) l,
  (forall x, (length (f x) <= 1)%nat) -> (length (flat_map f l) <= length l)%nat.
Proof.
  intros A B f l H. induction l as [|x l IH]; simpl; [lia|]. rewrite app_length. specialize (H x). lia.
Qed.

Section Nbrs.
  Context {C : Type}.
  Variable c_one : C.
  Variable c_of_Z : Z -> C.
  Variable c_diag : C -> C.
  Variable g : grid.
  Variable dirs : list (Z * Z).
  Variable blocked : list Z.
  Variable cost_map : list (Z * Z).
  Notation nb := (grid_nbrs c_one c_of_Z c_diag g dirs blocked cost_map).

  Lemma grid_nbrs_in_grid : forall pos v w, In (v, w) (nb pos) -> in_grid g v = true.
  Proof.
    intros [r c] v w H. unfold grid_nbrs in H. apply in_flat_map in H. destruct H as [[dr dc] [_ H]].
    destruct ((0 <=? r + dr) && (r + dr <? grid_rows g) && (0 <=? c + dc) && (c + dc <? grid_cols g)) eqn:E; [|destruct H].
    destruct (zmem (grid_at g (r + dr) (c + dc)) blocked); [destruct H|].
    destruct H as [H|[]]. inversion H; subst. unfold in_grid. simpl. exact E.
  Qed.

  Lemma grid_nbrs_length : forall pos, (length (nb pos) <= length dirs)%nat.
  Proof.
    intros [r c]. unfold grid_nbrs. apply flat_map_length_le1. intros [dr dc].
    destruct ((0 <=? r + dr) && (r + dr <? grid_rows g) && (0 <=? c + dc) && (c + dc <? grid_cols g)); [|simpl; lia].
    destruct (zmem (grid_at g (r + dr) (c + dc)) blocked); simpl; lia.
  Qed.
End Nbrs.

Lemma dirs_of_length : forall d, (length (dirs_of d) <= 8)%nat.
Proof. intros d. unfold dirs_of. destruct (d =? 8); simpl; lia. Qed.

Lemma sum_deg_le : forall (N C : Type) (nbrs : N -> list (N * C)) b L,
  (forall u, (length (nbrs u) <= b)%nat) -> (list_sum (map (deg nbrs) L) <= b * length L)%nat.
Proof.
  intros N C nbrs b L H. induction L as [|x L IH]; simpl; [lia|].
  unfold deg at 1. specialize (H x). lia.
Qed.

(* the universe of a grid run *)
Definition grid_univ (g : grid) (start : cell) : list cell :=
  if in_grid g start then all_cells g else start :: all_cells g.

Lemma grid_univ_length : forall g start,
  length (grid_univ g start) = if in_grid g start then n_cells g else S (n_cells g).
Proof. intros. unfold grid_univ. destruct (in_grid g start); simpl; rewrite all_cells_length; reflexivity. Qed.

Lemma grid_univ_length_le : forall g start, (length (grid_univ g start) <= S (n_cells g))%nat.
Proof. intros. rewrite grid_univ_length. destruct (in_grid g start); lia. Qed.

Lemma grid_univ_NoDup : forall g start, NoDup (grid_univ g start).
Proof.
  intros. unfold grid_univ. destruct (in_grid g start) eqn:E; [apply all_cells_NoDup|].
  constructor; [|apply all_cells_NoDup]. intros H. apply In_all_cells in H. congruence.
Qed.

Lemma grid_univ_start : forall g start, In start (grid_univ g start).
Proof.
  intros. unfold grid_univ. destruct (in_grid g start) eqn:E; [apply In_all_cells; assumption|left; reflexivity].
Qed.

Lemma grid_univ_cells : forall g start v, in_grid g v = true -> In v (grid_univ g start).
Proof.
  intros g start v H. apply In_all_cells in H. unfold grid_univ. destruct (in_grid g start); [assumption|right; assumption].
Qed.

Definition astar_grid_zr_fuel (fuel : nat) (g : grid) (start goal : cell) (directions : Z) (h : hname)
           (blocked : list Z) (cost_map : list (Z * Z)) (weight : Z) (max_iter : Z) : option (result cell zr2) :=
  let hn := resolve_h directions h in
  match hn with
  | Heuclidean => None
  | _ =>
    astar_c cell_eqb zr_zero zr_add zr_ltb
      (fun v => match zr_heur hn goal v with Some x => zr_scale weight x | None => zr_zero end)
      (if weight =? 1 then OPTIMAL else FEASIBLE)
      (grid_nbrs (1, 0) zr_of_Z zr_mul_sqrt2 g (dirs_of directions) blocked cost_map)
      (cell_eqb goal) max_iter None fuel start
  end.

Lemma astar_grid_zr_fuel_eq : forall g start goal directions h blocked cost_map weight max_iter,
  astar_grid_zr g start goal directions h blocked cost_map weight max_iter
  = astar_grid_zr_fuel (grid_fuel g) g start goal directions h blocked cost_map weight max_iter.
Proof. reflexivity. Qed.

(* the heuristic is representable in Z[sqrt 2] (everything but euclidean) *)
Definition heur_repr (directions : Z) (h : hname) : bool :=
  match resolve_h directions h with Heuclidean => false | _ => true end.

(* well-formed input: rectangular grid, start and goal cells inside *)
Definition grid_wf (g : grid) (start goal : cell) : bool :=
  forallb (fun row => Nat.eqb (length row) (length (hd [] g))) g && in_grid g start && in_grid g goal.

Section GridRun.
  Variables (g : grid) (start goal : cell) (directions : Z) (blocked : list Z) (cost_map : list (Z * Z))
            (max_iter : Z).
  Notation nb := (grid_nbrs (1, 0) zr_of_Z zr_mul_sqrt2 g (dirs_of directions) blocked cost_map).
  Notation U := (grid_univ g start).

  Lemma grid_astar_total : forall wh found fuel,
    (1 + 8 * length U < fuel)%nat ->
    exists r, astar_c cell_eqb zr_zero zr_add zr_ltb wh found nb (cell_eqb goal) max_iter None fuel start = Some r.
  Proof.
    intros wh found fuel Hf. unfold astar_c.
    apply (best_first_total_U cell_eqb cell_eqb_spec) with (U := U).
    - apply grid_univ_NoDup.
    - apply grid_univ_start.
    - intros u v w Hin. apply grid_univ_cells. eapply grid_nbrs_in_grid. eassumption.
    - pose proof (sum_deg_le cell zr2 nb 8 U) as H.
      assert (Hb : forall u, (length (nb u) <= 8)%nat).
      { intros u. etransitivity; [apply grid_nbrs_length|apply dirs_of_length]. }
      specialize (H Hb). lia.
  Qed.

  Lemma grid_astar_iters : forall wh found fuel r,
    astar_c cell_eqb zr_zero zr_add zr_ltb wh found nb (cell_eqb goal) max_iter None fuel start = Some r ->
    r_iters r <= Z.of_nat (length U) /\
    (found <> MAX_ITER -> r_status r = MAX_ITER -> max_iter <= Z.of_nat (length U)).
  Proof.
    intros wh found fuel r H. unfold astar_c in H.
    eapply (best_first_iters_U cell_eqb cell_eqb_spec) with (U := U); [| |exact H].
    - apply grid_univ_start.
    - intros u v w Hin. apply grid_univ_cells. eapply grid_nbrs_in_grid. eassumption.
  Qed.
End GridRun.

Theorem astar_grid_total_fuel : forall fuel g start goal directions h blocked cost_map weight max_iter,
  heur_repr directions h = true ->
  (1 + 8 * (if in_grid g start then n_cells g else S (n_cells g)) < fuel)%nat ->
  exists r, astar_grid_zr_fuel fuel g start goal directions h blocked cost_map weight max_iter = Some r.
Proof.
  intros fuel g start goal directions h blocked cost_map weight max_iter Hh Hf.
  unfold astar_grid_zr_fuel. unfold heur_repr in Hh. rewrite <- grid_univ_length in Hf.
  destruct (resolve_h directions h); try discriminate; apply grid_astar_total; exact Hf.
Qed.

Theorem astar_grid_total : forall g start goal directions h blocked cost_map weight max_iter,
  heur_repr directions h = true ->
  exists r, astar_grid_zr g start goal directions h blocked cost_map weight max_iter = Some r.
Proof.
  intros. rewrite astar_grid_zr_fuel_eq. apply astar_grid_total_fuel; [assumption|].
  unfold grid_fuel, n_cells. destruct (in_grid g start); lia.
Qed.

Theorem astar_grid_total_wf : forall g start goal directions h blocked cost_map weight max_iter,
  grid_wf g start goal = true -> heur_repr directions h = true ->
  (forall fuel, (1 + 8 * n_cells g < fuel)%nat ->
     exists r, astar_grid_zr_fuel fuel g start goal directions h blocked cost_map weight max_iter = Some r)
  /\ exists r, astar_grid_zr g start goal directions h blocked cost_map weight max_iter = Some r.
Proof.
  intros g start goal directions h blocked cost_map weight max_iter Hwf Hh. split.
  - intros fuel Hf. apply astar_grid_total_fuel; [assumption|].
    unfold grid_wf in Hwf. apply andb_true_iff in Hwf. destruct Hwf as [Hwf _].
    apply andb_true_iff in Hwf. destruct Hwf as [_ Hs]. rewrite Hs. exact Hf.
  - apply astar_grid_total. assumption.
Qed.

(* each cell is closed at most once: iterations <= cells (+1 for an outside start); MAX_ITER needs max_iter <= that *)
Theorem astar_grid_iters : forall fuel g start goal directions h blocked cost_map weight max_iter r,
  astar_grid_zr_fuel fuel g start goal directions h blocked cost_map weight max_iter = Some r ->
  r_iters r <= Z.of_nat (if in_grid g start then n_cells g else S (n_cells g)) /\
  (r_status r = MAX_ITER -> max_iter <= Z.of_nat (if in_grid g start then n_cells g else S (n_cells g))).
Proof.
  intros fuel g start goal directions h blocked cost_map weight max_iter r H.
  unfold astar_grid_zr_fuel in H. rewrite <- grid_univ_length.
  assert (Hf : (if weight =? 1 then OPTIMAL else FEASIBLE) <> MAX_ITER) by (destruct (weight =? 1); discriminate).
  destruct (resolve_h directions h); try discriminate;
    apply grid_astar_iters in H; destruct H as [H1 H2]; (split; [exact H1|exact (H2 Hf)]).
Qed.
