From Coq Require Import List ZArith Lia.
From SV Require Import C11.Paths C11.PathsLemmas C11.Bfs C11.BfsProofs1 C11.BfsProofs2.
Import ListNotations.
Import Bfs.
Local Open Scope nat_scope.

Lemma succ_of_in adj u x : In x (succ_of adj u) -> In x (flat_map snd adj).
Proof.
  unfold succ_of. induction adj as [|[k l] adj IH]; simpl; [intros []|].
  destruct (Nat.eqb k u); intros H; apply in_app_iff; [now left|right; now apply IH].
Qed.

Lemma init_invABN start goal (succ : nat -> list nat) : invABN succ start goal 0%Z (init start).
Proof.
  split; [split; [apply invA_init|apply invB_init]|apply invN_init].
Qed.

Section Fuel.
Variable adj : adjl.
Variable start : nat.
Let U := start :: flat_map snd adj.

Lemma loop_fuel_ok m goal max_iter : forall fuel it st,
  invN it st -> incl (visited st) U -> (Z.of_nat (length U) - it < Z.of_nat fuel)%Z ->
  loop fuel m (succ_of adj) goal max_iter it st <> None.
Proof.
  induction fuel as [|f IH]; intros it st HN Hin Hf.
  - exfalso. destruct HN as (Hnd & _ & _ & Hc).
    pose proof (NoDup_incl_length Hnd Hin). simpl Z.of_nat in Hf at 2. lia.
  - simpl. destruct (frontier st) as [|cur rest] eqn:Ef; [discriminate|].
    destruct (it <? max_iter)%Z; [|discriminate].
    destruct (match goal with Some isg => isg cur | None => false end).
    + destruct (reconstruct_path (parent st) cur); discriminate.
    + apply IH.
      * apply (invN_step (succ_of adj) m it st cur rest HN Ef).
      * fold (pop_expand m (succ_of adj) st cur rest).
        destruct (pop_expand_spec m (succ_of adj) st cur rest) as (l & _ & Hl & ->). cbn [visited].
        intros x Hx. apply in_app_iff in Hx as [Hx|Hx]; [|now apply Hin].
        apply Hl in Hx as [Hx _]. right. eapply succ_of_in; eauto.
      * lia.
Qed.

Lemma search_some m goal max_iter : exists r, search m adj start goal max_iter = Some r.
Proof.
  destruct (search m adj start goal max_iter) as [r|] eqn:E; [eauto|]. exfalso. revert E.
  apply loop_fuel_ok.
  - apply invN_init.
  - intros x [<-|[]]. now left.
  - unfold fuel_of. fold U. change (length U) with (S (length (flat_map snd adj))). lia.
Qed.

End Fuel.

Theorem search_spec m adj start goal max_iter r :
  search m adj start goal max_iter = Some r -> result_spec (succ_of adj) start goal m max_iter r.
Proof. apply loop_spec. apply init_invABN. Qed.

Theorem bfs_shortest adj start goal max_iter s p obj :
  bfs adj start goal max_iter = Some (Found s p obj) ->
  forall t q, is_path (succ_of adj) start t q -> goal_test goal t = true -> (obj <= Z.of_nat (length q) - 1)%Z.
Proof.
  intros H. destruct (init_invABN start goal (succ_of adj)) as [HAB HN].
  eapply bfs_loop_shortest; [split; [exact HAB|apply invC_init]|exact HN|exact H|reflexivity].
Qed.

Definition goal_reachable (succ : nat -> list nat) (start : nat) (isg : nat -> bool) : Prop :=
  exists t, reach succ start t /\ isg t = true.

Theorem search_path_valid m adj start goal max_iter s p obj :
  search m adj start goal max_iter = Some (Found s p obj) ->
  exists t, is_path (succ_of adj) start t p /\ goal_test goal t = true /\ obj = (Z.of_nat (length p) - 1)%Z.
Proof. intros H. apply search_spec in H. exact (proj2 H). Qed.

Lemma search_goal_cases m adj start isg max_iter r :
  search m adj start (Some isg) max_iter = Some r -> r <> NotFound MAX_ITER ->
  ((exists p obj, r = Found (found_status m) p obj) /\ goal_reachable (succ_of adj) start isg) \/
  (r = NotFound INFEASIBLE /\ ~ goal_reachable (succ_of adj) start isg).
Proof.
  intros H Hm. apply search_spec in H.
  destruct r as [s p obj|[]|vs obj|]; simpl in H.
  - left. destruct H as (-> & t & Hp & Hg & _). split; [eauto|]. exists t. split; [now exists p|exact Hg].
  - destruct H.
  - destruct H.
  - right. split; [reflexivity|]. destruct H as [_ H]. intros (t & Ht & Hg). specialize (H t Ht). simpl in H. congruence.
  - now destruct Hm.
  - destruct H as [H _]. discriminate.
  - destruct H.
Qed.

Theorem search_infeasible_iff m adj start isg max_iter r :
  search m adj start (Some isg) max_iter = Some r -> r <> NotFound MAX_ITER ->
  (r = NotFound INFEASIBLE <-> ~ goal_reachable (succ_of adj) start isg).
Proof.
  intros H Hm. destruct (search_goal_cases _ _ _ _ _ _ H Hm) as [[(p & obj & ->) Hr]|[-> Hn]]; [|tauto].
  split; [discriminate|contradiction].
Qed.

Theorem search_finds_iff_reachable m adj start isg max_iter r :
  search m adj start (Some isg) max_iter = Some r -> r <> NotFound MAX_ITER ->
  ((exists p obj, r = Found (found_status m) p obj) <-> goal_reachable (succ_of adj) start isg).
Proof.
  intros H Hm. destruct (search_goal_cases _ _ _ _ _ _ H Hm) as [[Hf Hr]|[-> Hn]]; [tauto|].
  split; [intros (p & obj & E); discriminate|contradiction].
Qed.

(* the limit is only reported when it was really reached *)
Theorem search_max_iter_real m adj start goal max_iter :
  search m adj start goal max_iter = Some (NotFound MAX_ITER) ->
  exists vs, NoDup vs /\ (forall v, In v vs -> reach (succ_of adj) start v) /\ (max_iter <= Z.of_nat (length vs))%Z.
Proof. intros H. apply search_spec in H. exact (proj2 H). Qed.

(* goal None: the visited set is sound, and complete unless the limit stopped the search *)
Theorem search_visited m adj start max_iter vs obj :
  search m adj start None max_iter = Some (Visited vs obj) ->
  obj = Z.of_nat (length vs) /\ NoDup vs /\ (forall v, In v vs -> reach (succ_of adj) start v) /\
  ((Z.of_nat (length vs) < max_iter)%Z -> forall t, reach (succ_of adj) start t <-> In t vs).
Proof.
  intros H. apply search_spec in H. destruct H as (_ & Ho & Hs & Hnd & Hsound & Hcomp).
  repeat split; auto.
Qed.
