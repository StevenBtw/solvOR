(* C11 part B - bounded suboptimality of weighted A* in the closed-set (no re-opening) form of the code:
   for non-negative weights, a consistent heuristic h (h(u) <= w(u,v) + h(v), h(goal) = 0), heap priority
   g + sc (h v) where sc is an additive, monotone "scaling" with a <= sc a for a >= 0 (sc x = weight * x,
   weight >= 1), and no max_cost limit:   reported objective <= sc (weight of ANY walk start -> goal node).
   This is BestProofs5.astar_c_bound read without a limit. *)
From Coq Require Import List ZArith.
From SV Require Import C11.BestFirst C11.BestSpec C11.BestOrder C11.BestProofs5.
Import ListNotations.

Section AstarW.
  Context {N C : Type}.
  Variable neqb : N -> N -> bool.
  Hypothesis neqb_spec : forall a b, neqb a b = true <-> a = b.
  Variable czero : C.
  Variable cadd : C -> C -> C.
  Variable cltb : C -> C -> bool.
  Hypothesis OC : ordered_costs czero cadd cltb.
  Variable nbrs : N -> list (N * C).
  Variable is_goal : N -> bool.
  Variable max_iter : Z.
  Variable start : N.
  Notation le := (cle cltb).
  Hypothesis nonneg : forall u v w, In (v, w) (nbrs u) -> le czero w.
  Variable h : N -> C.
  Variable sc : C -> C.
  Hypothesis consistent : forall u v w, In (v, w) (nbrs u) -> le (h u) (cadd w (h v)).
  Hypothesis goal_h : forall t, is_goal t = true -> h t = czero.
  Hypothesis sc_add : forall a b, sc (cadd a b) = cadd (sc a) (sc b).
  Hypothesis sc_mono : forall a b, le a b -> le (sc a) (sc b).
  Hypothesis sc_ge : forall a, le czero a -> le a (sc a).
  Hypothesis sc_zero : sc czero = czero.

  Definition wopt_res (r : result N C) : Prop :=
    forall d0, r_obj r = Some d0 ->
      forall t q d, is_goal t = true -> lwalk cadd nbrs start czero q t d -> le d0 (sc d).

  Theorem astar_c_weighted : forall found fuel r,
    astar_c neqb czero cadd cltb (fun v => sc (h v)) found nbrs is_goal max_iter None fuel start = Some r ->
    wopt_res r.
  Proof.
    intros found fuel r H d0 Hd t q d Ht Hw.
    exact (proj1 (astar_c_bound neqb neqb_spec czero cadd cltb OC nbrs is_goal max_iter None start nonneg h sc
                    consistent goal_h sc_add sc_mono sc_ge sc_zero found fuel r H) d0 Hd t q d Ht Hw I).
  Qed.
End AstarW.
