(* C11 bfs/dfs proofs: what one expansion does, well-formed parent maps, reconstruct_path,
   the generic loop principle and the invariant behind path validity. *)
From Coq Require Import List ZArith Lia.
From SV Require Import C11.Paths C11.PathsLemmas C11.Bfs.
Import ListNotations.
Import Bfs.
Local Open Scope nat_scope.

Lemma mem_In x l : mem x l = true <-> In x l.
Proof.
  unfold mem. rewrite existsb_exists. split.
  - intros (y & Hy & He). apply Nat.eqb_eq in He. now subst.
  - intros H. exists x. split; [exact H|apply Nat.eqb_refl].
Qed.

Lemma mem_false x l : mem x l = false <-> ~ In x l.
Proof. rewrite <- mem_In. destruct (mem x l); split; congruence. Qed.

(* one expansion; l lists the new nodes latest first *)
Definition pushall (m : mode) (l fr : list nat) : list nat :=
  match m with Queue => fr ++ rev l | Stack => l ++ fr end.

Definition entries (cur : nat) (l : list nat) : list (nat * nat) := map (fun x => (x, cur)) l.

Lemma expand_spec m cur : forall ns st, exists l,
  NoDup l /\ (forall x, In x l <-> In x ns /\ ~ In x (visited st)) /\
  expand m cur ns st = mk (l ++ visited st) (entries cur l ++ parent st) (pushall m l (frontier st)).
Proof.
  induction ns as [|y r IH]; intros st.
  - exists []. split; [constructor|]. split; [intros x; simpl; tauto|].
    destruct st, m; simpl; rewrite ?app_nil_r; reflexivity.
  - simpl. destruct (mem y (visited st)) eqn:E.
    + apply mem_In in E. destruct (IH st) as (l & Hnd & Hl & ->). exists l. split; [exact Hnd|]. split; [|reflexivity].
      intros x. rewrite Hl. split; [tauto|]. intros [[->|H] Hn]; tauto.
    + apply mem_false in E.
      destruct (IH (mk (y :: visited st) ((y, cur) :: parent st) (push m y (frontier st)))) as (l & Hnd & Hl & ->).
      cbn [visited parent frontier] in *. exists (l ++ [y]). split; [|split].
      * apply NoDup_app_intro; [exact Hnd|constructor; [intros []|constructor]|].
        intros x Hx [<-|[]]. apply Hl in Hx. apply (proj2 Hx). now left.
      * intros x. rewrite in_app_iff, Hl. simpl. split.
        -- intros [[H Hn]|[<-|[]]]; [split; [now right|]; intros Hv; apply Hn; now right|split; [now left|exact E]].
        -- intros [[<-|H] Hn]; [right; now left|]. destruct (Nat.eq_dec y x) as [<-|Hne]; [right; now left|].
           left. split; [exact H|]. intros [?|?]; [congruence|tauto].
      * f_equal.
        -- now rewrite <- app_assoc.
        -- unfold entries. rewrite map_app, <- app_assoc. reflexivity.
        -- destruct m; simpl; [rewrite rev_app_distr, <- app_assoc; reflexivity|now rewrite <- app_assoc].
Qed.

Lemma in_pushall m l fr v : In v (pushall m l fr) <-> In v fr \/ In v l.
Proof. destruct m; simpl; rewrite in_app_iff, <- ?in_rev; tauto. Qed.

Section Parent.
Variable succ : nat -> list nat.
Variable start : nat.

Definition good (par : list (nat * nat)) (v : nat) : Prop := v = start \/ lookup v par <> None.

Inductive wf_parent : list (nat * nat) -> Prop :=
| wf_nil : wf_parent []
| wf_cons : forall c p rest, wf_parent rest -> lookup c rest = None -> c <> start ->
    good rest p -> In c (succ p) -> wf_parent ((c, p) :: rest).

(* proper ancestors of v, from the start down to v's parent *)
Fixpoint anc (par : list (nat * nat)) (v : nat) : list nat :=
  match par with
  | [] => []
  | (c, p) :: rest => if Nat.eqb c v then anc rest p ++ [p] else anc rest v
  end.

(* number of edges of the parent chain of v *)
Fixpoint depth (par : list (nat * nat)) (v : nat) : nat :=
  match par with
  | [] => O
  | (c, p) :: rest => if Nat.eqb c v then S (depth rest p) else depth rest v
  end.

Lemma anc_length par : forall v, length (anc par v) = depth par v.
Proof.
  induction par as [|[c p] rest IH]; intros v; simpl; [reflexivity|].
  destruct (Nat.eqb c v); [rewrite app_length, IH; simpl; lia|apply IH].
Qed.

Lemma good_cons c p rest v : good rest v -> good ((c, p) :: rest) v.
Proof.
  intros [->|H]; [now left|]. right. simpl. destruct (Nat.eqb c v); [discriminate|exact H].
Qed.

Lemma good_cons_inv c p rest v : v <> c -> good ((c, p) :: rest) v -> good rest v.
Proof.
  intros Hne [->|H]; [now left|]. right. simpl in H.
  destruct (Nat.eqb c v) eqn:E; [apply Nat.eqb_eq in E; congruence|exact H].
Qed.

Lemma wf_parent_good par : wf_parent par -> forall v p, lookup v par = Some p -> good par p.
Proof.
  induction 1 as [|c p0 rest Hwf IH Hc Hs Hg Hin]; intros v p Hl; [discriminate|].
  simpl in Hl. destruct (Nat.eqb c v) eqn:E.
  - injection Hl as <-. now apply good_cons.
  - apply good_cons. eapply IH; eauto.
Qed.

Lemma good_not_fresh rest c x : lookup c rest = None -> c <> start -> good rest x -> x <> c.
Proof. intros Hc Hs [->|H] ->; congruence. Qed.

Lemma recon_skip c p0 rest : wf_parent rest -> lookup c rest = None -> c <> start ->
  forall fuel x acc, good rest x -> recon fuel ((c, p0) :: rest) x acc = recon fuel rest x acc.
Proof.
  intros Hwf Hc Hs. induction fuel as [|f IH]; intros x acc Hg; [reflexivity|].
  simpl. pose proof (good_not_fresh _ _ _ Hc Hs Hg) as Hne.
  destruct (Nat.eqb c x) eqn:E; [apply Nat.eqb_eq in E; congruence|].
  destruct (lookup x rest) as [p|] eqn:El; [|reflexivity].
  apply IH. eapply wf_parent_good; eauto.
Qed.

Lemma recon_anc par : wf_parent par -> forall fuel v acc, good par v -> length par < fuel ->
  recon fuel par v acc = Some (anc par v ++ acc).
Proof.
  induction 1 as [|c p0 rest Hwf IH Hc Hs Hg Hin]; intros fuel v acc Hv Hf.
  - destruct fuel; [simpl in Hf; lia|]. reflexivity.
  - destruct fuel as [|f]; [simpl in Hf; lia|]. simpl in Hf.
    destruct (Nat.eq_dec c v) as [->|Hne].
    + simpl. rewrite Nat.eqb_refl. rewrite recon_skip by assumption.
      rewrite IH; [|assumption|lia]. rewrite <- app_assoc. reflexivity.
    + assert (Hv' : good rest v) by (apply (good_cons_inv c p0); [congruence|exact Hv]).
      rewrite recon_skip by assumption.
      simpl anc. destruct (Nat.eqb c v) eqn:E; [apply Nat.eqb_eq in E; congruence|].
      apply IH; [exact Hv'|lia].
Qed.

Lemma reconstruct_path_anc par v : wf_parent par -> good par v ->
  reconstruct_path par v = Some (anc par v ++ [v]).
Proof. intros Hwf Hg. unfold reconstruct_path. apply recon_anc; auto. Qed.

Lemma path_in_snoc : forall l u c, l <> [] -> last l u = u -> path_in succ l -> In c (succ u) ->
  path_in succ (l ++ [c]).
Proof.
  induction l as [|x l IH]; intros u c Hne Hl Hp Hin; [congruence|].
  destruct l as [|y l].
  - simpl in Hl. subst x. simpl. tauto.
  - change ((x :: y :: l) ++ [c]) with (x :: (y :: l) ++ [c]).
    destruct Hp as [Hxy Hp]. change (last (x :: y :: l) u) with (last (y :: l) u) in Hl.
    simpl. split; [exact Hxy|]. apply (IH u c); try assumption. discriminate.
Qed.

Lemma is_path_snoc s u l c : is_path succ s u l -> In c (succ u) -> is_path succ s c (l ++ [c]).
Proof.
  intros (Hp & Hh & Hl & Hne) Hin. split; [|split; [|split]].
  - apply (path_in_snoc l u c); auto. rewrite <- Hl. apply last_default. exact Hne.
  - destruct l; [congruence|]. exact Hh.
  - apply last_last.
  - destruct l; discriminate.
Qed.

Lemma chain_is_path par : wf_parent par -> forall v, good par v -> is_path succ start v (anc par v ++ [v]).
Proof.
  induction 1 as [|c p0 rest Hwf IH Hc Hs Hg Hin]; intros v Hv.
  - destruct Hv as [->|Hv]; [apply is_path_single|simpl in Hv; congruence].
  - simpl. destruct (Nat.eqb c v) eqn:E.
    + apply Nat.eqb_eq in E. subst v. apply is_path_snoc with (u := p0); auto.
    + apply IH. apply (good_cons_inv c p0); [|exact Hv]. intros ->. rewrite Nat.eqb_refl in E. discriminate.
Qed.

Lemma lookup_entries cur l par v :
  lookup v (entries cur l ++ par) = if mem v l then Some cur else lookup v par.
Proof.
  induction l as [|x l IH]; simpl; [reflexivity|].
  rewrite (Nat.eqb_sym v x). destruct (Nat.eqb x v); [reflexivity|exact IH].
Qed.

Lemma depth_entries cur l par : ~ In cur l -> forall v,
  depth (entries cur l ++ par) v = if mem v l then S (depth par cur) else depth par v.
Proof.
  induction l as [|x l IH]; intros Hc v; simpl; [reflexivity|].
  assert (Hc' : ~ In cur l) by (intros H; apply Hc; now right).
  rewrite (Nat.eqb_sym v x). destruct (Nat.eqb x v) eqn:E.
  - rewrite (IH Hc' cur). replace (mem cur l) with false; [reflexivity|].
    symmetry. apply mem_false. exact Hc'.
  - apply IH. exact Hc'.
Qed.

Lemma depth_entries_new cur l par v : ~ In cur l -> In v l -> depth (entries cur l ++ par) v = S (depth par cur).
Proof. intros Hc Hv. rewrite depth_entries by exact Hc. apply mem_In in Hv. now rewrite Hv. Qed.

Lemma depth_entries_old cur l par v : ~ In cur l -> ~ In v l -> depth (entries cur l ++ par) v = depth par v.
Proof. intros Hc Hv. rewrite depth_entries by exact Hc. apply mem_false in Hv. now rewrite Hv. Qed.

Lemma wf_entries cur par : wf_parent par -> good par cur ->
  forall l, NoDup l -> (forall x, In x l -> In x (succ cur) /\ ~ good par x) ->
  wf_parent (entries cur l ++ par).
Proof.
  intros Hwf Hcur. induction l as [|x l IH]; intros Hnd Hl; [exact Hwf|].
  inversion Hnd as [|? ? Hx Hnd']; subst. simpl.
  destruct (Hl x (or_introl eq_refl)) as [Hin Hng].
  apply wf_cons.
  - apply IH; [exact Hnd'|]. intros y Hy. apply Hl. now right.
  - rewrite lookup_entries. replace (mem x l) with false by (symmetry; now apply mem_false).
    destruct (lookup x par) eqn:E; [|reflexivity]. exfalso. apply Hng. right. congruence.
  - intros ->. apply Hng. now left.
  - destruct Hcur as [->|Hc]; [now left|]. right. rewrite lookup_entries.
    destruct (mem cur l); [discriminate|exact Hc].
  - exact Hin.
Qed.

End Parent.

Definition goal_test (goal : option (nat -> bool)) (x : nat) : bool :=
  match goal with Some isg => isg x | None => false end.

Definition pop_expand (m : mode) (succ : nat -> list nat) (st : state) (cur : nat) (rest : list nat) : state :=
  expand m cur (succ cur) (mk (visited st) (parent st) rest).

(* how the loop can end, in terms of the state and iteration count it ends with *)
Inductive outcome (m : mode) (goal : option (nat -> bool)) (max_iter : Z) : Z -> state -> result -> Prop :=
| out_empty : forall st it, frontier st = [] -> outcome m goal max_iter it st (finish goal max_iter it st)
| out_limit : forall st it, (max_iter <= it)%Z -> frontier st <> [] ->
    outcome m goal max_iter it st (finish goal max_iter it st)
| out_goal : forall st it cur rest, frontier st = cur :: rest -> goal_test goal cur = true ->
    outcome m goal max_iter it st
      (match reconstruct_path (parent st) cur with
       | Some p => Found (found_status m) p (Z.of_nat (length p) - 1)
       | None => Hang
       end).

Lemma loop_end m succ goal max_iter (P : Z -> state -> Prop) :
  (forall it st cur rest, P it st -> frontier st = cur :: rest -> goal_test goal cur = false ->
     P (it + 1)%Z (pop_expand m succ st cur rest)) ->
  forall fuel it st r, P it st -> loop fuel m succ goal max_iter it st = Some r ->
  exists it' st', P it' st' /\ outcome m goal max_iter it' st' r.
Proof.
  intros Hstep. induction fuel as [|f IH]; intros it st r HP Hl; [discriminate|].
  simpl in Hl. destruct (frontier st) as [|cur rest] eqn:Ef.
  - injection Hl as <-. exists it, st. split; [exact HP|]. now apply out_empty.
  - destruct (it <? max_iter)%Z eqn:Elt.
    + fold (goal_test goal cur) in Hl. destruct (goal_test goal cur) eqn:Eg.
      * exists it, st. split; [exact HP|].
        pose proof (out_goal m goal max_iter st it cur rest Ef Eg) as Ho.
        destruct (reconstruct_path (parent st) cur); injection Hl as <-; exact Ho.
      * eapply IH; [|exact Hl]. eapply Hstep; eauto.
    + injection Hl as <-. exists it, st. split; [exact HP|]. apply out_limit.
      * apply Z.ltb_ge in Elt. exact Elt.
      * rewrite Ef. discriminate.
Qed.

Lemma pop_expand_spec m succ st cur rest : exists l,
  NoDup l /\ (forall x, In x l <-> In x (succ cur) /\ ~ In x (visited st)) /\
  pop_expand m succ st cur rest = mk (l ++ visited st) (entries cur l ++ parent st) (pushall m l rest).
Proof. apply (expand_spec m cur (succ cur) (mk (visited st) (parent st) rest)). Qed.

Section InvA.
Variable succ : nat -> list nat.
Variable start : nat.

(* parent map well formed; visited = the start and the nodes that have a parent; frontier inside visited *)
Definition invA (st : state) : Prop :=
  wf_parent succ start (parent st) /\
  (forall v, In v (visited st) <-> good start (parent st) v) /\
  (forall v, In v (frontier st) -> In v (visited st)).

Lemma invA_init : invA (init start).
Proof.
  split; [constructor|]. split.
  - intros v. simpl. unfold good. simpl. split; [intros [<-|[]]; now left|intros [->|H]; [now left|congruence]].
  - intros v H. exact H.
Qed.

Lemma invA_step m st cur rest : invA st -> frontier st = cur :: rest -> invA (pop_expand m succ st cur rest).
Proof.
  intros (Hwf & Hvis & Hfr) Ef. destruct (pop_expand_spec m succ st cur rest) as (l & Hnd & Hl & ->).
  unfold invA. cbn [visited parent frontier].
  assert (Hcur : good start (parent st) cur) by (apply Hvis, Hfr; rewrite Ef; now left).
  split; [|split].
  - apply wf_entries; auto. intros x Hx. apply Hl in Hx as [H1 H2]. split; [exact H1|]. intros Hg. apply H2, Hvis, Hg.
  - intros v. rewrite in_app_iff. unfold good. rewrite lookup_entries. split.
    + intros [H|H].
      * right. apply mem_In in H. rewrite H. discriminate.
      * apply Hvis in H. destruct H as [->|H]; [now left|]. right. destruct (mem v l); [discriminate|exact H].
    + intros [->|H]; [right; apply Hvis; now left|].
      destruct (mem v l) eqn:E; [left; now apply mem_In|right; apply Hvis; now right].
  - intros v Hv. apply in_pushall in Hv. rewrite in_app_iff.
    destruct Hv as [Hv|Hv]; [right; apply Hfr; rewrite Ef; now right|now left].
Qed.

End InvA.
