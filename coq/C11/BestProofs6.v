(* C11 part B - totality of the model: on a finite graph (every node that can be pushed is listed in U or has no
   outgoing edges) the generic best-first loop returns a result - no fuel exhaustion, no KeyError on g[current],
   reconstruct_path reaches the root - as soon as fuel > 1 + sum of the out-degrees of U: each node of U is closed
   at most once, each pop closes a node or discards a stale entry, entries <= pushes <= 1 + sum of degrees.
   Instantiated for adjacency-list inputs (graph_fuel). *)
From Coq Require Import List ZArith Bool Arith Lia.
From SV Require Import C11.BestFirst C11.BestSpec C11.BestProofs1.
Import ListNotations.

Local Arguments BestFirst.expand : simpl never.

Section Total.
  Context {N C K : Type}.
  Variable neqb : N -> N -> bool.
  Hypothesis neqb_spec : forall a b, neqb a b = true <-> a = b.
  Variable czero : C.
  Variable cadd : C -> C -> C.
  Variable cltb : C -> C -> bool.
  Variable kltb : K -> K -> bool.
  Variable mkkey : C -> N -> K.
  Variable limit_of : K -> C -> C.
  Variable found_status : status.
  Variable nbrs : N -> list (N * C).
  Variable is_goal : N -> bool.
  Variable max_iter : Z.
  Variable max_cost : option C.
  Variable start : N.
  Variable U : list N.
  Hypothesis U_nodup : NoDup U.
  (* the nodes the loop may push: those of U, and nodes without outgoing edges *)
  Definition covered (v : N) : Prop := In v U \/ nbrs v = [].
  Hypothesis start_covered : covered start.
  Hypothesis nbrs_covered : forall u v w, In (v, w) (nbrs u) -> covered v.

  Notation st := (@st N C K).
  Notation expand := (expand neqb cadd cltb kltb mkkey nbrs).
  Notation heap_all := (@heap_all N C K).
  Notation loop := (loop neqb cadd cltb kltb mkkey limit_of found_status nbrs is_goal max_iter max_cost).
  Notation lk := (lookup neqb).
  Notation mem := (memb neqb).
  Notation anc := (anc neqb).
  Notation inv1 := (inv1 neqb czero cadd mkkey nbrs start).

  Ltac ssimpl := cbn [s_g s_parent s_closed s_counter s_heap s_evals].

  (* reconstruct_path succeeds on a duplicate-free parent chain: the chain is at most as long as the fuel *)
  Lemma lookup_keys : forall (v p : N) par, lk v par = Some p -> In v (map fst par).
  Proof.
    intros v p par. induction par as [|[k x] par IH]; simpl; [discriminate|].
    destruct (neqb v k) eqn:E; [apply neqb_spec in E; auto|]. intros H. right. apply IH. assumption.
  Qed.

  Lemma anc_keys : forall par v l, anc par v l ->
    exists root rest, l = root :: rest /\ forall x, In x rest -> In x (map fst par).
  Proof.
    intros par v l H. induction H as [v Hv|v p l Hv Hp IH].
    - exists v, []. split; [reflexivity|]. intros x [].
    - destruct IH as [root [rest [El Hr]]]. subst l. exists root, (rest ++ [v]). split; [reflexivity|].
      intros x Hx. apply in_app_or in Hx. destruct Hx as [Hx|[Hx|[]]]; [apply Hr; assumption|].
      subst x. eapply lookup_keys. eassumption.
  Qed.

  Lemma chain_len : forall par v l, anc par v l -> NoDup l -> length l <= S (length par).
  Proof.
    intros par v l H Hn. destruct (anc_keys _ _ _ H) as [root [rest [El Hr]]]. subst l.
    inversion Hn; subst. simpl. apply le_n_S. rewrite <- (map_length fst par).
    apply NoDup_incl_length; assumption.
  Qed.

  Lemma recon_complete : forall par v l, anc par v l ->
    forall fuel acc, length l <= fuel -> recon neqb fuel par v acc = Some (l ++ acc).
  Proof.
    intros par v l H. induction H as [v Hv|v p l Hv Hp IH]; intros fuel acc Hf.
    - destruct fuel as [|f]; [simpl in Hf; lia|]. simpl. rewrite Hv. reflexivity.
    - destruct fuel as [|f]; [rewrite app_length in Hf; simpl in Hf; lia|]. simpl. rewrite Hv.
      rewrite app_length in Hf. simpl in Hf. rewrite IH by lia. rewrite <- app_assoc. reflexivity.
  Qed.

  Definition deg (u : N) : nat := length (nbrs u).
  Definition unexp_in (L : list N) (closed : list N) : nat :=
    list_sum (map deg (filter (fun u => negb (mem u closed)) L)).
  Definition phi (s : st) : nat := length (s_heap s) + unexp_in U (s_closed s).

  Lemma unexp_cons_le : forall L cur closed, unexp_in L (cur :: closed) <= unexp_in L closed.
  Proof.
    intros L cur closed. unfold unexp_in. induction L as [|x L IH]; simpl in *; [lia|].
    destruct (neqb x cur); simpl in *.
    - destruct (mem x closed); simpl in *; lia.
    - destruct (mem x closed); simpl in *; lia.
  Qed.

  Lemma unexp_cons_in : forall L cur closed, NoDup L -> In cur L -> mem cur closed = false ->
    unexp_in L (cur :: closed) + deg cur <= unexp_in L closed.
  Proof.
    intros L cur closed Hn. induction Hn as [|x L Hx Hn IH]; intros Hin Hc; [destruct Hin|].
    unfold unexp_in in *. simpl. destruct (neqb x cur) eqn:E.
    - apply neqb_spec in E. subst x. rewrite Hc. simpl.
      pose proof (unexp_cons_le L cur closed) as H. unfold unexp_in in H. simpl in H. lia.
    - destruct Hin as [Hin|Hin]; [subst; rewrite (eqb_refl neqb neqb_spec) in E; discriminate|].
      specialize (IH Hin Hc). simpl in IH. destruct (mem x closed); simpl; lia.
  Qed.

  Lemma unexp_close : forall cur closed, covered cur -> mem cur closed = false ->
    unexp_in U (cur :: closed) + deg cur <= unexp_in U closed.
  Proof.
    intros cur closed [Hin|Hout] Hc.
    - apply unexp_cons_in; assumption.
    - unfold deg. rewrite Hout. simpl. pose proof (unexp_cons_le U cur closed). lia.
  Qed.

  Lemma unexp_nil : forall L, unexp_in L [] = list_sum (map deg L).
  Proof. intros L. unfold unexp_in. induction L as [|x L IH]; simpl in *; [reflexivity|]. rewrite IH. reflexivity. Qed.

  Lemma loop_total : forall fuel s iters,
    inv1 s -> heap_all covered s -> phi s < fuel -> exists r, loop fuel s iters = Some r.
  Proof.
    induction fuel as [|f IH]; intros s iters I HC Hphi; [lia|].
    simpl. destruct (s_heap s) as [|[[k c] cur] h'] eqn:Eh; [eauto|].
    destruct (negb (iters <? max_iter)%Z); [eauto|].
    unfold phi in Hphi. rewrite Eh in Hphi. simpl in Hphi.
    destruct (mem cur (s_closed s)) eqn:Ec.
    { apply IH; [eapply skip_inv1; eassumption|eapply heap_all_tail; eassumption|unfold phi; ssimpl; lia]. }
    destruct (i_heap _ _ _ _ _ _ _ I k c cur) as [gcur Hg]; [rewrite Eh; left; reflexivity|]. rewrite Hg.
    pose proof (close_inv1 neqb neqb_spec czero cadd mkkey nbrs start s k c cur gcur h' I Eh Ec Hg) as I2.
    set (s2 := closing s cur h') in *.
    assert (HC2 : heap_all covered s2) by (eapply heap_all_tail; eassumption).
    assert (Hc2 : mem cur (s_closed s2) = true) by apply (memb_head neqb neqb_spec).
    destruct (is_goal cur).
    - destruct (i_tree _ _ _ _ _ _ _ I2 cur gcur Hc2 Hg) as [q [Ha [Hnd _]]]. unfold reconstruct_path.
      change (s_parent s) with (s_parent s2).
      rewrite (recon_complete _ _ _ Ha) by (eapply chain_len; eassumption). eauto.
    - assert (Hcov : covered cur) by (eapply HC; rewrite Eh; left; reflexivity).
      pose proof (unexp_close cur (s_closed s) Hcov Ec) as Hu.
      destruct (over_limit cltb limit_of max_cost k gcur).
      + apply IH; [assumption|assumption|]. unfold phi, s2. ssimpl. lia.
      + apply IH.
        * apply (expand_inv1 neqb neqb_spec); assumption.
        * apply expand_heap_all; [|assumption]. intros v w Hin. eapply nbrs_covered. eassumption.
        * pose proof (expand_heap_length neqb cadd cltb kltb mkkey nbrs cur gcur s2) as Hlen.
          unfold phi. rewrite (expand_closed neqb cadd cltb kltb mkkey nbrs). unfold s2 in *. ssimpl.
          unfold deg in Hu. simpl in Hlen. lia.
  Qed.

  Theorem best_first_total : forall fuel,
    1 + list_sum (map deg U) < fuel ->
    exists r, best_first neqb czero cadd cltb kltb mkkey limit_of found_status nbrs is_goal max_iter max_cost fuel start = Some r.
  Proof.
    intros fuel Hf. unfold best_first. apply loop_total.
    - apply init_inv1. assumption.
    - intros k c v [E|[]]. inversion E; subst. exact start_covered.
    - unfold phi, init_st. ssimpl. rewrite unexp_nil. simpl length. lia.
  Qed.
End Total.

Lemma sum_deg_adj : forall adj : adjacency,
  list_sum (map (fun u => length (adj_nbrs adj u)) (seq 0 (length adj))) = length (concat adj).
Proof.
  unfold adj_nbrs. induction adj as [|l adj IH]; [reflexivity|].
  cbn [length concat seq map list_sum nth]. rewrite app_length, <- IH. f_equal.
  rewrite <- seq_shift, map_map. reflexivity.
Qed.

Lemma adj_covered : forall (adj : adjacency) u, covered (adj_nbrs adj) (seq 0 (length adj)) u.
Proof.
  intros adj u. destruct (Nat.lt_ge_cases u (length adj)) as [H|H].
  - left. apply in_seq. lia.
  - right. apply nth_overflow. assumption.
Qed.

Theorem dijkstra_total : forall adj start goals max_iter max_cost,
  exists r, dijkstra adj start goals max_iter max_cost = Some r.
Proof.
  intros. unfold dijkstra, dijkstra_gen, dijkstra_c.
  apply (best_first_total Nat.eqb Nat.eqb_eq) with (U := seq 0 (length adj)).
  - apply seq_NoDup.
  - apply adj_covered.
  - intros u v w _. apply adj_covered.
  - unfold deg. rewrite sum_deg_adj. unfold graph_fuel. lia.
Qed.

Theorem astar_total : forall adj start goals htab weight max_iter max_cost,
  exists r, astar adj start goals htab weight max_iter max_cost = Some r.
Proof.
  intros. unfold astar, astar_gen, astar_c.
  apply (best_first_total Nat.eqb Nat.eqb_eq) with (U := seq 0 (length adj)).
  - apply seq_NoDup.
  - apply adj_covered.
  - intros u v w _. apply adj_covered.
  - unfold deg. rewrite sum_deg_adj. unfold graph_fuel. lia.
Qed.
