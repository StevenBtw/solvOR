From Coq Require Import List ZArith Bool.
From SV Require Import C11.Paths C11.PathsLemmas C11.Bfs C11.BfsSpec C11.BfsProofs1.
Import ListNotations.
Import Bfs BfsSpec.
Local Open Scope nat_scope.

Lemma links_path_in succ : forall p, links succ p = true -> path_in succ p.
Proof.
  induction p as [|u p IH]; intros H; [discriminate|].
  destruct p as [|v p]; [exact I|].
  change (links succ (u :: v :: p)) with (mem v (succ u) && links succ (v :: p)) in H.
  apply andb_true_iff in H as [H1 H2]. split; [now apply mem_In|now apply IH].
Qed.

Lemma path_check_sound succ s p : path_check succ s p = true -> is_path succ s (last p s) p.
Proof.
  unfold path_check. destruct p as [|u p]; [discriminate|]. intros H.
  apply andb_true_iff in H as [Hu Hl]. apply Nat.eqb_eq in Hu. subst u.
  split; [now apply links_path_in|]. split; [reflexivity|]. split; [reflexivity|discriminate].
Qed.

Lemma closed_sound succ vs : closed succ vs = true ->
  forall v, In v vs -> forall x, In x (succ v) -> In x vs.
Proof.
  unfold closed. intros H v Hv x Hx. rewrite forallb_forall in H. specialize (H v Hv).
  rewrite forallb_forall in H. apply mem_In. now apply H.
Qed.

Theorem spec_check_sound adj s goal max_iter r : spec_check adj s goal max_iter r = true ->
  match r with
  | Found _ p obj => exists isg, goal = Some isg /\ found_spec (succ_of adj) s isg p obj
  | Visited vs obj => goal = None /\ In s vs /\ obj = Z.of_nat (length vs) /\
      ((Z.of_nat (length vs) < max_iter)%Z -> visited_complete (succ_of adj) s vs)
  | NotFound _ => True
  | Hang => False
  end.
Proof.
  destruct r as [st p obj|st|vs obj|]; simpl; intros H; try exact I; try discriminate.
  - apply andb_true_iff in H as [H Ho]. apply andb_true_iff in H as [Hp Hg].
    destruct goal as [isg|]; [|discriminate]. exists isg. split; [reflexivity|].
    exists (last p s). split; [now apply path_check_sound|]. split; [exact Hg|]. now apply Z.eqb_eq in Ho.
  - apply andb_true_iff in H as [H Hc]. apply andb_true_iff in H as [H Ho]. apply andb_true_iff in H as [Hg Hs].
    destruct goal; [discriminate|]. split; [reflexivity|]. split; [now apply mem_In|].
    split; [now apply Z.eqb_eq in Ho|]. intros Hlt. apply Z.ltb_lt in Hlt. rewrite Hlt in Hc.
    intros t (p & Hp & Hh & Hl & Hne). rewrite <- Hl.
    apply (closed_reach (succ_of adj) vs (closed_sound _ _ Hc)); auto. now apply mem_In.
Qed.
