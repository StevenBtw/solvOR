(* C11 bellman_ford proofs: the relaxation invariant (finite entries are attained by walks, parent
   links are edges that were tight or better), and what follows when the detection round is silent:
   exact distances, no reachable negative cycle, valid returned path. *)
From Coq Require Import List ZArith Bool Lia.
From SV Require Import C11.Paths C11.PathsLemmas C11.DistCert C11.BellmanFord.
Import ListNotations.
Import BF.
Local Open Scope Z_scope.

Lemma set_nth_length {A} (x : A) : forall l i, length (set_nth i x l) = length l.
Proof. induction l as [|h t IH]; intros [|i]; simpl; auto. Qed.

Lemma nth_set_nth_eq {A} (x d : A) : forall l i, (i < length l)%nat -> nth i (set_nth i x l) d = x.
Proof. induction l as [|h t IH]; intros [|i] H; simpl in *; try lia; auto. apply IH. lia. Qed.

Lemma nth_set_nth_neq {A} (x d : A) : forall l i j, i <> j -> nth j (set_nth i x l) d = nth j l d.
Proof.
  induction l as [|h t IH]; intros [|i] [|j] H; simpl; auto; try congruence.
Qed.

Lemma getd_dget d i : getd d i = dget d i. Proof. reflexivity. Qed.

Lemma lt_inf_true a b : lt_inf a b = true -> b = None \/ exists y, b = Some y /\ a < y.
Proof. destruct b as [y|]; simpl; intros H; [right; exists y; split; [reflexivity|now apply Z.ltb_lt]|now left]. Qed.

Lemma lt_inf_false a b : lt_inf a b = false -> exists y, b = Some y /\ y <= a.
Proof. destruct b as [y|]; simpl; intros H; [|discriminate]. exists y. split; [reflexivity|now apply Z.ltb_ge]. Qed.

Lemma relax_cases d p upd u v w :
  (relaxable d (u, v, w) = false /\ relax (d, p, upd) (u, v, w) = (d, p, upd)) \/
  (exists du, relaxable d (u, v, w) = true /\ dget d u = Some du /\ lt_inf (du + w) (dget d v) = true /\
     relax (d, p, upd) (u, v, w) = (set_nth v (Some (du + w)) d, set_nth v (Some u) p, true)).
Proof.
  unfold relax, relaxable. change getd with dget. destruct (dget d u) as [du|]; [|now left].
  destruct (lt_inf (du + w) (dget d v)) eqn:E; [right; exists du; auto|now left].
Qed.

Definition dist_of (st : dvec * pvec * bool) : dvec := fst (fst st).
Definition par_of (st : dvec * pvec * bool) : pvec := snd (fst st).

Section Inv.
Variable g : wgraph.
Variable s : nat.
Variable n : nat.
Hypothesis Hs : (s < n)%nat.
Hypothesis Hg : forall u v w, In (u, v, w) g -> (u < n)%nat /\ (v < n)%nat.

Record inv (d : dvec) (p : pvec) : Prop := {
  i_len_d : length d = n;
  i_len_p : length p = n;
  i_src : below (dget d s) 0;
  i_att : attained g s d;
  i_par : forall v u, nth v p None = Some u ->
            exists w dv du, In (u, v, w) g /\ dget d v = Some dv /\ dget d u = Some du /\ du + w <= dv;
  i_root : forall v x, dget d v = Some x -> v <> s -> nth v p None <> None
}.

Definition vec_le (d' d : dvec) : Prop := forall v x, dget d v = Some x -> below (dget d' v) x.

Lemma vec_le_below d d' v c : vec_le d' d -> below (dget d v) c -> below (dget d' v) c.
Proof. intros Hle (x & Hx & Hxc). exact (below_le _ _ _ (Hle _ _ Hx) Hxc). Qed.

Lemma vec_le_refl d : vec_le d d.
Proof. intros v x H. rewrite H. apply below_refl. Qed.

Lemma vec_le_trans a b c : vec_le a b -> vec_le b c -> vec_le a c.
Proof. intros H1 H2 v x Hx. exact (vec_le_below _ _ _ _ H1 (H2 _ _ Hx)). Qed.

Lemma init_inv : inv (init_dist n s) (init_parent n).
Proof.
  unfold init_dist, init_parent.
  assert (Hget : forall v, dget (set_nth s (Some 0) (repeat None n)) v = if Nat.eqb v s then Some 0 else None).
  { intros v. unfold dget. destruct (Nat.eqb v s) eqn:E.
    - apply Nat.eqb_eq in E. subst. apply nth_set_nth_eq. now rewrite repeat_length.
    - apply Nat.eqb_neq in E. rewrite nth_set_nth_neq by congruence. apply nth_repeat. }
  constructor.
  - now rewrite set_nth_length, repeat_length.
  - apply repeat_length.
  - exists 0. rewrite Hget, Nat.eqb_refl. split; [reflexivity|lia].
  - intros v x Hv. rewrite Hget in Hv. destruct (Nat.eqb v s) eqn:E; [|discriminate].
    apply Nat.eqb_eq in E. injection Hv as <-. subst v. exists [s]. apply walk_nil.
  - intros v u Hv. rewrite nth_repeat in Hv. discriminate.
  - intros v x Hv Hne. rewrite Hget in Hv. apply Nat.eqb_neq in Hne. rewrite Hne in Hv. discriminate.
Qed.

Definition sinv (st : dvec * pvec * bool) : Prop := inv (dist_of st) (par_of st).
Definition st_le (st' st : dvec * pvec * bool) : Prop := vec_le (dist_of st') (dist_of st).

Lemma relax_inv st e : In e g -> sinv st -> sinv (relax st e) /\ st_le (relax st e) st.
Proof.
  destruct st as [[d p] upd], e as [[u v] w]. unfold sinv, st_le. intros Hin Hi. destruct (Hg _ _ _ Hin) as [Hu Hv].
  destruct (relax_cases d p upd u v w) as [[_ ->]|(du & _ & Edu & Elt & ->)]; [split; [exact Hi|apply vec_le_refl]|].
  cbn [dist_of par_of fst snd] in *.
  destruct Hi as [Hld Hlp Hsrc Hatt Hpar Hroot].
  assert (Hgetv : dget (set_nth v (Some (du + w)) d) v = Some (du + w))
    by (unfold dget; apply nth_set_nth_eq; lia).
  assert (Hgeto : forall y, y <> v -> dget (set_nth v (Some (du + w)) d) y = dget d y)
    by (intros y Hy; unfold dget; apply nth_set_nth_neq; congruence).
  assert (Hle : vec_le (set_nth v (Some (du + w)) d) d).
  { intros y x Hy. destruct (Nat.eq_dec y v) as [->|Hne].
    - exists (du + w). split; [exact Hgetv|]. apply lt_inf_true in Elt as [E|(y & E & Hlt)]; [congruence|].
      rewrite Hy in E. injection E as <-. lia.
    - exists x. rewrite Hgeto by exact Hne. split; [exact Hy|lia]. }
  split; [|exact Hle]. constructor.
  - now rewrite set_nth_length.
  - now rewrite set_nth_length.
  - exact (vec_le_below _ _ _ _ Hle Hsrc).
  - intros y x Hy. destruct (Nat.eq_dec y v) as [->|Hne].
    + rewrite Hgetv in Hy. injection Hy as <-. destruct (Hatt _ _ Edu) as (q & Hq).
      exists (q ++ [v]). eapply walk_snoc; eauto.
    + rewrite Hgeto in Hy by exact Hne. now apply Hatt.
  - intros y a Hy. destruct (Nat.eq_dec y v) as [->|Hne].
    + rewrite nth_set_nth_eq in Hy by lia. injection Hy as <-.
      exists w, (du + w). destruct (Hle _ _ Edu) as (du' & Hdu' & Hdule).
      exists du'. repeat split; auto. lia.
    + rewrite nth_set_nth_neq in Hy by congruence.
      destruct (Hpar _ _ Hy) as (w' & dv & da & Hin' & Hdv & Hda & Hle').
      destruct (Hle _ _ Hda) as (da' & Hda' & Hdale).
      exists w', dv, da'. rewrite Hgeto by exact Hne. repeat split; auto. lia.
  - intros y x Hy Hys. destruct (Nat.eq_dec y v) as [->|Hne].
    + rewrite nth_set_nth_eq by lia. discriminate.
    + rewrite nth_set_nth_neq by congruence. rewrite Hgeto in Hy by exact Hne. eapply Hroot; eauto.
Qed.

Lemma fold_relax_inv es st : incl es g -> sinv st ->
  sinv (fold_left relax es st) /\ st_le (fold_left relax es st) st.
Proof.
  intros Hi. apply (fold_mono relax sinv st_le (fun a => vec_le_refl _) (fun a b c => vec_le_trans _ _ _)).
  intros a e He. apply relax_inv, Hi, He.
Qed.

Lemma rounds_pres (Q : dvec -> pvec -> Prop) :
  (forall d p, Q d p -> Q (dist_of (round g d p)) (par_of (round g d p))) ->
  forall k d p, Q d p -> Q (fst (rounds k g d p)) (snd (rounds k g d p)).
Proof.
  intros Hround. induction k as [|k IH]; intros d p HQ; [exact HQ|].
  simpl. specialize (Hround d p HQ). destruct (round g d p) as [[d1 p1] upd1].
  destruct upd1; [now apply IH|exact Hround].
Qed.

Lemma rounds_inv k d p : inv d p -> inv (fst (rounds k g d p)) (snd (rounds k g d p)).
Proof.
  apply (rounds_pres inv). intros d0 p0 H0. apply (fold_relax_inv g (d0, p0, false) (incl_refl g) H0).
Qed.

Lemma detect_false_edges_le d : detect g d = false -> edges_le g d.
Proof.
  unfold detect. intros H u v w du Hin Hu.
  assert (Hr : relaxable d (u, v, w) = false).
  { destruct (relaxable d (u, v, w)) eqn:E; [|reflexivity].
    assert (existsb (relaxable d) g = true) by (apply existsb_exists; eauto). congruence. }
  unfold relaxable in Hr. change getd with dget in Hr. rewrite Hu in Hr. apply lt_inf_false in Hr as (y & Hy & Hle). eauto.
Qed.

Lemma fixpoint_exact d p : inv d p -> edges_le g d ->
  dget d s = Some 0 /\ dist_vector g s d /\ ~ neg_cycle_reachable g s.
Proof.
  intros Hi He. destruct (i_src _ _ Hi) as (x0 & Hx0 & Hle).
  assert (x0 = 0) by (eapply cert_source_zero; eauto; apply (i_att _ _ Hi)). subst x0.
  split; [exact Hx0|]. split; [apply cert_sound; auto; apply (i_att _ _ Hi)|eapply cert_no_neg_cycle; eauto].
Qed.

Lemma recon_walk d p t dt : inv d p -> edges_le g d -> dget d s = Some 0 -> dget d t = Some dt ->
  forall fuel cur acc path c dc, walk g cur t acc c -> dget d cur = Some dc -> dc + c = dt ->
  recon fuel p cur acc = Some path -> walk g s t path dt.
Proof.
  intros Hi He Hs0 Ht. induction fuel as [|f IH]; intros cur acc path c dc Hw Hc Hsum Hr; [discriminate|].
  simpl in Hr. destruct (nth cur p None) as [u|] eqn:Ep.
  - destruct (i_par _ _ Hi _ _ Ep) as (w & dv & du & Hin & Hdv & Hdu & Hle).
    rewrite Hc in Hdv. injection Hdv as <-.
    destruct (He _ _ _ _ Hin Hdu) as (dc' & Hdc' & Hle'). rewrite Hc in Hdc'. injection Hdc' as <-.
    apply (IH u (u :: acc) path (w + c) du); auto; [|lia].
    destruct (walk_hd _ _ _ _ _ Hw) as [q ->]. eapply walk_cons; eauto.
  - injection Hr as <-.
    destruct (Nat.eq_dec cur s) as [->|Hne].
    + rewrite Hs0 in Hc. injection Hc as <-. replace dt with c by lia. exact Hw.
    + exfalso. eapply (i_root _ _ Hi); eauto.
Qed.

End Inv.

Lemma valid_input_facts start edges n target : valid_input start edges n target = true ->
  (start < n)%nat /\ (forall u v w, In (u, v, w) edges -> (u < n)%nat /\ (v < n)%nat) /\
  match target with Some t => (t < n)%nat | None => True end.
Proof.
  unfold valid_input. intros H. apply andb_true_iff in H as [H Ht]. apply andb_true_iff in H as [H He].
  apply andb_true_iff in H as [_ Hs]. apply Nat.ltb_lt in Hs. split; [exact Hs|]. split.
  - intros u v w Hin. rewrite forallb_forall in He. specialize (He _ Hin). simpl in He.
    apply andb_true_iff in He as [H1 H2]. apply Nat.ltb_lt in H1, H2. now split.
  - destruct target; [now apply Nat.ltb_lt|exact I].
Qed.

Lemma valid_input_no_target start edges n target : valid_input start edges n target = true ->
  valid_input start edges n None = true.
Proof. unfold valid_input. intros H. apply andb_true_iff in H as [-> _]. reflexivity. Qed.

Definition bf_result_spec (start : nat) (g : wgraph) (target : option nat) (r : result) : Prop :=
  match r with
  | Error => True
  | Unbounded => True
  | Infeasible => ~ neg_cycle_reachable g start /\ exists t, target = Some t /\ ~ reachable g start t
  | Path p x => ~ neg_cycle_reachable g start /\ exists t, target = Some t /\ walk g start t p x /\ is_dist g start t x
  | Dists d => ~ neg_cycle_reachable g start /\ target = None /\ dist_vector g start d
  | Hang => ~ neg_cycle_reachable g start
  end.

(* the answer read off the final vectors once the detection round was silent *)
Definition answer (d : dvec) (p : pvec) (target : option nat) : result :=
  match target with
  | Some t => match getd d t with
              | None => Infeasible
              | Some dt => match reconstruct_indexed p t with Some path => Path path dt | None => Hang end
              end
  | None => Dists d
  end.

Lemma answer_proper d p target : answer d p target <> Error /\ answer d p target <> Unbounded.
Proof.
  unfold answer. destruct target as [t|]; [|split; discriminate].
  destruct (getd d t); [|split; discriminate]. destruct (reconstruct_indexed p t); split; discriminate.
Qed.

Lemma bf_run start g n target : valid_input start g n target = true ->
  exists d p, final_state start g n = (d, p) /\ inv g start n d p /\
    bellman_ford start g n target = if detect g d then Unbounded else answer d p target.
Proof.
  intros Hv. destruct (valid_input_facts _ _ _ _ Hv) as (Hs & Hg & _).
  unfold bellman_ford. rewrite Hv. simpl negb. cbv iota.
  pose proof (rounds_inv g start n Hs Hg (n - 1) _ _ (init_inv g start n Hs)) as H. fold (final_state start g n) in H.
  destruct (final_state start g n) as [d p]. now exists d, p.
Qed.

Lemma bf_invalid start g n target : valid_input start g n target = false -> bellman_ford start g n target = Error.
Proof. unfold bellman_ford. now intros ->. Qed.

Lemma bf_not_error start g n target : valid_input start g n target = true -> bellman_ford start g n target <> Error.
Proof.
  intros Hv. destruct (bf_run _ _ _ _ Hv) as (d & p & _ & _ & ->).
  destruct (detect g d); [discriminate|apply answer_proper].
Qed.

Theorem bellman_ford_sound start g n target :
  bf_result_spec start g target (bellman_ford start g n target).
Proof.
  destruct (valid_input start g n target) eqn:Hv; [|now rewrite bf_invalid].
  destruct (bf_run _ _ _ _ Hv) as (d & p & _ & Hinv & ->). destruct (valid_input_facts _ _ _ _ Hv) as (Hs & _).
  destruct (detect g d) eqn:Ed; [exact I|].
  pose proof (detect_false_edges_le g d Ed) as He.
  destruct (fixpoint_exact g start n d p Hinv He) as (Hs0 & Hdv & Hnn).
  unfold answer. destruct target as [t|]; [|simpl; auto].
  change getd with dget. pose proof (Hdv t) as Hdt. destruct (dget d t) as [dt|] eqn:Et.
  - unfold reconstruct_indexed. destruct (recon (S (length p)) p t [t]) as [path|] eqn:Er; simpl; [|exact Hnn].
    split; [exact Hnn|]. exists t. split; [reflexivity|]. split; [|exact Hdt].
    eapply recon_walk with (d := d) (p := p) (cur := t) (acc := [t]) (c := 0) (dc := dt) (n := n); eauto; [apply walk_nil|lia].
  - simpl. split; [exact Hnn|]. exists t. split; [reflexivity|exact Hdt].
Qed.

Lemma bf_path_spec start g n target p x : bellman_ford start g n target = Path p x ->
  exists t, target = Some t /\ walk g start t p x /\ is_dist g start t x.
Proof. intros E. pose proof (bellman_ford_sound start g n target) as H. rewrite E in H. apply H. Qed.

Lemma bf_dists_spec start g n d : bellman_ford start g n None = Dists d -> dist_vector g start d.
Proof. intros E. pose proof (bellman_ford_sound start g n None) as H. rewrite E in H. apply H. Qed.

Lemma bf_bounded_no_neg start g n target : valid_input start g n target = true ->
  bellman_ford start g n target <> Unbounded -> ~ neg_cycle_reachable g start.
Proof.
  intros Hv Hu. pose proof (bf_not_error _ _ _ _ Hv) as He. pose proof (bellman_ford_sound start g n target) as H.
  destruct (bellman_ford start g n target); try contradiction; apply H.
Qed.
