(* C11, "all solvers agree" for the best-first family: on every graph with non-negative weights
   the objective reported by dijkstra (and by astar with weight 1 and a consistent heuristic) for a single goal
   node t equals floyd_warshall's matrix entry [s][t], bellman_ford's distance vector entry [t] and
   bellman_ford's single-target answer - including "no path" (inf / None / INFEASIBLE).
   The theorems stand in Props/C11_deep.v; here: the answer predicate dist_spec, that the result of each solver
   satisfies it (completeness, DeepBestComplete, gives the "no path" half), and that it determines the answer. *)
From Coq Require Import List ZArith Lia.
From SV Require Import C11.Paths C11.PathsLemmas C11.PathsSimple C11.DistCert C11.BellmanFord C11.FloydWarshall
  C11.BellmanFordProofs1 C11.BellmanFordNoNeg C11.FloydWarshallProofs
  C11.BestFirst C11.BestSpec C11.BestGraph C11.BestOrder C11.BestHyps C11.BestProofs1 C11.BestProofsInst
  C11.BestProofs5 C11.DeepBestComplete.
Import ListNotations.
Open Scope Z_scope.

(* the answer to "distance from s to t": Some d = shortest-walk weight, None = unreachable *)
Definition dist_spec (g : wgraph) (s t : nat) (o : option Z) : Prop :=
  match o with Some x => is_dist g s t x | None => ~ reachable g s t end.

Lemma dist_spec_unique : forall g s t o1 o2, dist_spec g s t o1 -> dist_spec g s t o2 -> o1 = o2.
Proof. exact dist_answer_unique. Qed.

Lemma goal_in_single : forall t t', goal_in [t] t' = true -> t' = t.
Proof.
  intros t t' H. unfold goal_in in H. simpl in H. destruct (Nat.eqb t' t) eqn:E; [|discriminate].
  apply Nat.eqb_eq. assumption.
Qed.

Lemma goal_in_single_refl : forall t, goal_in [t] t = true.
Proof. intros t. unfold goal_in. simpl. rewrite Nat.eqb_refl. reflexivity. Qed.

(* what a best-first result for the goal set {t} says about the distance s -> t *)
Lemma best_dist_spec : forall adj s t found (r : result nat Z),
  graph_res_ok adj s [t] found r -> graph_opt_ok adj s [t] None r ->
  (r_status r = INFEASIBLE -> no_goal_reachable adj s [t]) -> r_status r <> MAX_ITER ->
  dist_spec (adj_edges adj) s t (r_obj r).
Proof.
  intros adj s t found r Hok Hopt Hinf Hm. unfold dist_spec. destruct (r_obj r) as [d|] eqn:Ed.
  - destruct (best_is_dist adj s [t] r found Hok Hopt d Ed) as [t' [p [_ [Hg [Hd _]]]]].
    apply goal_in_single in Hg. subst t'. exact Hd.
  - unfold graph_res_ok in Hok. destruct (r_path r) as [p|].
    + destruct Hok as [d [t' [Hd _]]]. congruence.
    + destruct Hok as [_ [E|E]]; [|contradiction]. apply (Hinf E t). apply goal_in_single_refl.
Qed.

Lemma walk_nonneg : forall adj, nonneg_adj adj = true ->
  forall u t p d, walk (adj_edges adj) u t p d -> 0 <= d.
Proof.
  intros adj Hn u t p d H. induction H as [u|u v t p w d Hin Hw IH]; [lia|].
  apply In_adj_edges in Hin. pose proof (nonneg_adj_spec adj Hn u v w Hin) as Hw0.
  unfold cle in Hw0. apply Z.ltb_ge in Hw0. lia.
Qed.

Lemma nonneg_no_neg_from : forall adj s, nonneg_adj adj = true -> no_neg_from (adj_edges adj) s.
Proof. intros adj s Hn v p c _ Hw. eapply walk_nonneg; eassumption. Qed.

Lemma nonneg_no_neg_cycle : forall adj, nonneg_adj adj = true -> ~ neg_cycle (adj_edges adj).
Proof. intros adj Hn [v [p [c [Hw [Hc _]]]]]. pose proof (walk_nonneg adj Hn _ _ _ _ Hw). lia. Qed.

Lemma bf_valid_fw : forall s g n tgt, BF.valid_input s g n tgt = true -> FW.valid_input n g = true.
Proof.
  intros s g n tgt H. destruct (valid_input_facts _ _ _ _ H) as (Hs & Hg & _).
  apply fw_valid_input_intro; [lia|exact Hg].
Qed.

(* the agreement statement for an answer o of the best-first family *)
Definition agree_with_part_a (adj : adjacency) (s t n : nat) (o : option Z) : Prop :=
  (exists m, FW.floyd_warshall n (adj_edges adj) true = FW.Dist m /\ FW.get m s t = o)
  /\ (exists dv, BF.bellman_ford s (adj_edges adj) n None = BF.Dists dv /\ nth t dv None = o)
  /\ match o with
     | Some d => exists p, BF.bellman_ford s (adj_edges adj) n (Some t) = BF.Path p d
     | None => BF.bellman_ford s (adj_edges adj) n (Some t) = BF.Infeasible
     end.

Lemma agree_of_dist_spec : forall adj s t n o,
  nonneg_adj adj = true -> BF.valid_input s (adj_edges adj) n (Some t) = true ->
  dist_spec (adj_edges adj) s t o -> agree_with_part_a adj s t n o.
Proof.
  intros adj s t n o Hn Hv Ho. unfold agree_with_part_a. set (g := adj_edges adj) in *.
  pose proof (nonneg_no_neg_from adj s Hn) as Hnn. fold g in Hnn.
  destruct (valid_input_facts _ _ _ _ Hv) as (Hs & _).
  split; [|split].
  - destruct (fw_no_neg_dist n g true (bf_valid_fw _ _ _ _ Hv) (nonneg_no_neg_cycle adj Hn)) as (m & E).
    exists m. split; [exact E|]. exact (dist_spec_unique g s t _ o (fw_dist n g true m E s t Hs) Ho).
  - destruct (bf_no_neg_answers s g n None (valid_input_no_target _ _ _ _ Hv) Hnn) as (dv & E & Hd).
    exists dv. split; [exact E|]. exact (dist_spec_unique g s t _ o (Hd t) Ho).
  - destruct (bf_no_neg_answers s g n (Some t) Hv Hnn) as [(p & x & E & _ & Hd)|[E Hr]].
    + rewrite (dist_spec_unique g s t o (Some x) Ho Hd). now exists p.
    + now rewrite (dist_spec_unique g s t o None Ho Hr).
Qed.

Lemma dijkstra_dist_spec : forall fuel adj s t max_iter r, nonneg_adj adj = true ->
  dijkstra_gen fuel adj s [t] max_iter None = Some r -> r_status r <> MAX_ITER ->
  dist_spec (adj_edges adj) s t (r_obj r).
Proof.
  intros fuel adj s t max_iter r Hn H Hm. eapply best_dist_spec.
  - eapply dijkstra_path_valid. eassumption.
  - eapply dijkstra_optimal; eassumption.
  - eapply dijkstra_infeasible_sound. eassumption.
  - assumption.
Qed.

Lemma astar_dist_spec : forall fuel adj s t htab max_iter r,
  nonneg_adj adj = true -> consistent_adj adj [t] htab = true ->
  astar_gen fuel adj s [t] htab 1 max_iter None = Some r -> r_status r <> MAX_ITER ->
  dist_spec (adj_edges adj) s t (r_obj r).
Proof.
  intros fuel adj s t htab max_iter r Hn Hc H Hm. eapply best_dist_spec.
  - eapply astar_path_valid. eassumption.
  - eapply astar_optimal; eassumption.
  - eapply astar_infeasible_sound. eassumption.
  - assumption.
Qed.
