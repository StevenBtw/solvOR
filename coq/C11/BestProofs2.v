(* C11 part B - INFEASIBLE is sound: without a max_cost limit, if the generic best-first loop ends with status
   INFEASIBLE (heap exhausted before max_iter) then no goal node is reachable from the start.
   No assumption on weights, heuristic or cost type. *)
From Coq Require Import List ZArith Bool Arith Lia.
From SV Require Import C11.BestFirst C11.BestSpec C11.BestProofs1.
Import ListNotations.

Section Proofs2.
  Context {N C K : Type}.
  Variable neqb : N -> N -> bool.
  Hypothesis neqb_spec : forall a b, neqb a b = true <-> a = b.
  Variable czero : C.
  Variable cadd : C -> C -> C.
  Variable cltb : C -> C -> bool.
  Variable kltb : K -> K -> bool.
  Variable mkkey : C -> N -> K.
  Variable limit_of : K -> C -> C.
  Variable found_status : status.
  Hypothesis found_not_infeasible : found_status <> INFEASIBLE.
  Variable nbrs : N -> list (N * C).
  Variable is_goal : N -> bool.
  Variable max_iter : Z.
  Variable start : N.

  Notation lw := (lwalk cadd nbrs).
  Notation st := (@st N C K).
  Notation relax := (relax neqb cadd cltb kltb mkkey).
  Notation expand := (expand neqb cadd cltb kltb mkkey nbrs).
  Notation loop := (loop neqb cadd cltb kltb mkkey limit_of found_status nbrs is_goal max_iter None).
  Notation lk := (lookup neqb).
  Notation mem := (memb neqb).

  Ltac ssimpl := cbn [s_g s_parent s_closed s_counter s_heap s_evals].

  Notation inv1 := (inv1 neqb czero cadd mkkey nbrs start).

  Definition has_g (s : st) (v : N) : Prop := exists gv, lk v (s_g s) = Some gv.

  Lemma relax_has_g : forall cur gcur s nb x, has_g s x -> has_g (relax cur gcur s nb) x.
  Proof.
    intros cur gcur s [v w] x [gx Hx].
    destruct (relax_cases neqb cadd cltb kltb mkkey cur gcur s v w) as [[-> _]|[-> _]]; [exists gx; assumption|].
    unfold has_g. ssimpl. destruct (eqb_dec neqb neqb_spec x v) as [->|E].
    - rewrite (lookup_cons_eq neqb neqb_spec). eauto.
    - rewrite (lookup_cons_neq neqb neqb_spec) by assumption. eauto.
  Qed.

  Lemma relax_has_g_nb : forall cur gcur s v w,
    (mem v (s_closed s) = true -> has_g s v) -> has_g (relax cur gcur s (v, w)) v.
  Proof.
    intros cur gcur s v w Hcl.
    destruct (relax_cases neqb cadd cltb kltb mkkey cur gcur s v w) as [[-> [Hv|[gv [Hgv _]]]]|[-> _]].
    - apply Hcl, Hv.
    - exists gv. assumption.
    - unfold has_g. ssimpl. rewrite (lookup_cons_eq neqb neqb_spec). eauto.
  Qed.

  Lemma expand_has_g : forall cur gcur s, (forall u, mem u (s_closed s) = true -> has_g s u) ->
    (forall x, has_g s x -> has_g (expand cur gcur s) x)
    /\ (forall v w, In (v, w) (nbrs cur) -> has_g (expand cur gcur s) v).
  Proof.
    intros cur gcur. unfold BestFirst.expand. induction (nbrs cur) as [|[v w] l IH]; intros s Hcl; cbn [fold_left].
    - split; [auto|intros v w []].
    - destruct (IH (relax cur gcur s (v, w))) as [Hm Hl].
      { intros u Hu. rewrite relax_closed in Hu. apply relax_has_g, Hcl, Hu. }
      split.
      + intros x Hx. apply Hm, relax_has_g, Hx.
      + intros v' w' [E|Hin]; [inversion E; subst; apply Hm, relax_has_g_nb, Hcl|eapply Hl; eassumption].
  Qed.

  Definition expanded (s : st) : Prop :=
    forall u, mem u (s_closed s) = true -> is_goal u = false /\ forall v w, In (v, w) (nbrs u) -> has_g s v.

  Definition unreachable_goal : Prop :=
    forall a q t d, lw start a q t d -> is_goal t = false.

  (* with an empty heap every discovered node is closed (inv1: an unclosed one has an entry) *)
  Lemma walk_stays_closed : forall (s : st), inv1 s -> expanded s -> s_heap s = [] ->
    forall u a q t d, lw u a q t d -> mem u (s_closed s) = true -> mem t (s_closed s) = true.
  Proof.
    intros s I E Hh u a q t d H. induction H as [u a|u a v w q t d Hin Hw IH]; intros Hu; [assumption|].
    apply IH. destruct (mem v (s_closed s)) eqn:Ev; [reflexivity|].
    destruct (proj2 (E u Hu) v w Hin) as [gv Hgv].
    destruct (i_cur _ _ _ _ _ _ _ I v gv Ev Hgv) as [c Hc]. rewrite Hh in Hc. destruct Hc.
  Qed.

  Lemma loop_infeasible_sound : forall fuel s iters r,
    inv1 s /\ expanded s -> loop fuel s iters = Some r -> r_status r = INFEASIBLE -> unreachable_goal.
  Proof.
    intros fuel s iters r.
    apply (loop_rule neqb cadd cltb kltb mkkey limit_of found_status nbrs is_goal max_iter None
             (fun s _ => inv1 s /\ expanded s) (fun r => r_status r = INFEASIBLE -> unreachable_goal)).
    - intros s0 it [I E] [Eh|Elt] Hst.
      + intros a q t d Hw. apply (E t). apply (walk_stays_closed s0 I E Eh _ _ _ _ _ Hw).
        destruct (mem start (s_closed s0)) eqn:Es; [reflexivity|].
        destruct (i_cur _ _ _ _ _ _ _ I start czero Es (i_start_g _ _ _ _ _ _ _ I)) as [c Hc].
        rewrite Eh in Hc. destruct Hc.
      + simpl in Hst. destruct (max_iter <=? it)%Z eqn:E1; [discriminate|]. lia.
    - intros s0 it k c cur h' [I E] Eh _ Ec. split; [eapply skip_inv1; eassumption|exact E].
    - intros s0 it k c cur h' gcur p _ _ _ _ _ _ _ Hst. simpl in Hst. congruence.
    - intros s0 it k c cur h' gcur _ _ _ _ _ _ Ho. discriminate Ho.
    - intros s0 it k c cur h' gcur [I E] Eh _ Ec Eg Egoal _.
      pose proof (close_inv1 neqb neqb_spec czero cadd mkkey nbrs start s0 k c cur gcur h' I Eh Ec Eg) as I2.
      set (s2 := closing s0 cur h') in *.
      destruct (expand_has_g cur gcur s2 (i_cg _ _ _ _ _ _ _ I2)) as [Hm Hn].
      split.
      + apply (expand_inv1 neqb neqb_spec); [exact I2|apply (memb_head neqb neqb_spec)|exact Eg].
      + intros u Hu. rewrite (expand_closed neqb cadd cltb kltb mkkey nbrs) in Hu.
        destruct (memb_cons_true neqb neqb_spec _ _ _ Hu) as [->|Hu']; [split; assumption|].
        destruct (E u Hu') as [Hg Hnb]. split; [assumption|]. intros v w Hin. apply Hm, (Hnb v w Hin).
  Qed.

  Theorem best_first_infeasible_sound : forall fuel r,
    best_first neqb czero cadd cltb kltb mkkey limit_of found_status nbrs is_goal max_iter None fuel start = Some r ->
    r_status r = INFEASIBLE -> unreachable_goal.
  Proof.
    intros fuel r H Hst. unfold best_first in H. eapply loop_infeasible_sound; [|exact H|exact Hst].
    split; [apply init_inv1; assumption|]. intros u Hu. discriminate Hu.
  Qed.
End Proofs2.
