(* C11 part B - the built-in grid heuristics are consistent on the exact grid graph (terrain costs >= 1):
   manhattan for 4 directions, octile and chebyshev for 4 and 8 directions; hence astar_grid with an integer
   weight >= 1 over Z[sqrt 2] returns at most weight * the shortest distance. *)
From Coq Require Import List ZArith Bool Arith Lia.
From SV Require Import C11.BestFirst C11.BestGrid C11.BestSpec C11.BestGraph C11.BestOrder C11.BestHyps C11.BestZr2
  C11.BestProofs1 C11.BestProofs4 C11.BestProofs5 C11.BestProofsInst.
Import ListNotations.
Open Scope Z_scope.

Lemma grid_edge_inv : forall g directions blocked cost_map r c v w,
  costs_ge1 cost_map = true ->
  In (v, w) (zr_grid_nbrs g directions blocked cost_map (r, c)) ->
  exists dr dc base, In (dr, dc) (dirs_of directions) /\ v = (r + dr, c + dc) /\ 1 <= base /\
    w = (if negb (dr =? 0) && negb (dc =? 0) then (0, base) else (base, 0)).
Proof.
  intros g directions blocked cost_map r c v w Hc Hin. unfold zr_grid_nbrs, grid_nbrs in Hin.
  apply in_flat_map in Hin. destruct Hin as [[dr dc] [Hd Hin]].
  destruct ((0 <=? r + dr) && (r + dr <? grid_rows g) && (0 <=? c + dc) && (c + dc <? grid_cols g)); [|destruct Hin].
  destruct (zmem (grid_at g (r + dr) (c + dc)) blocked); [destruct Hin|].
  destruct Hin as [E|[]]. inversion E; subst v w. clear E.
  destruct (lookup Z.eqb (grid_at g (r + dr) (c + dc)) cost_map) as [k|] eqn:El.
  - exists dr, dc, k. split; [assumption|]. split; [reflexivity|]. split.
    + apply (lookup_In Z.eqb Z.eqb_eq) in El. unfold costs_ge1 in Hc. rewrite forallb_forall in Hc. specialize (Hc _ El).
      simpl in Hc. apply Z.leb_le. assumption.
    + destruct (negb (dr =? 0) && negb (dc =? 0)); unfold zr_mul_sqrt2, zr_of_Z; simpl; reflexivity.
  - exists dr, dc, 1. split; [assumption|]. split; [reflexivity|]. split; [lia|].
    destruct (negb (dr =? 0) && negb (dc =? 0)); unfold zr_mul_sqrt2; simpl; reflexivity.
Qed.

Lemma grid_nonneg : forall g directions blocked cost_map,
  costs_ge1 cost_map = true ->
  forall u v w, In (v, w) (zr_grid_nbrs g directions blocked cost_map u) -> cle zr_ltb zr_zero w.
Proof.
  intros g directions blocked cost_map Hc [r c] v w Hin.
  destruct (grid_edge_inv _ _ _ _ _ _ _ _ Hc Hin) as [dr [dc [base [Hd [Hv [Hb Hw]]]]]]. subst w.
  apply zr_le_suff; destruct (negb (dr =? 0) && negb (dc =? 0)); simpl; lia.
Qed.

(* every move changes each coordinate by at most 1, and a 4-direction move is never diagonal: checked on each of
   the 8 (4) listed directions *)
Lemma dirs_of_spec : forall directions dr dc, In (dr, dc) (dirs_of directions) ->
  -1 <= dr <= 1 /\ -1 <= dc <= 1 /\ (directions =? 8 = false -> negb (dr =? 0) && negb (dc =? 0) = false).
Proof.
  intros directions dr dc H. unfold dirs_of in H.
  destruct (directions =? 8); simpl in H;
    repeat (destruct H as [H|H];
            [injection H as <- <-; split; [lia|split; [lia|intros E; first [discriminate E|reflexivity]]]|]);
    destruct H.
Qed.

(* One move seen from the goal: the two coordinate distances a, b become a', b', each changing by at most 1.
   A straight move changes only one of them and costs base, a diagonal one costs base sqrt 2.
   Each heuristic is a function of the two distances, and its consistency is a linear fact about them. *)
Section Step.
  Variables a b a' b' base : Z.
  Variable w : zr2.
  Hypothesis Ha : -1 <= a - a' <= 1.
  Hypothesis Hb : -1 <= b - b' <= 1.
  Hypothesis Hbase : 1 <= base.
  Hypothesis Hw : (w = (base, 0) /\ (a = a' \/ b = b')) \/ w = (0, base).

  Lemma manhattan_step : a = a' \/ b = b' -> cle zr_ltb (a + b, 0) (zr_add (base, 0) (a' + b', 0)).
  Proof. intros S. apply zr_le_suff; cbn [zr_add fst snd]; lia. Qed.

  Lemma chebyshev_step : cle zr_ltb (Z.max a b, 0) (zr_add w (Z.max a' b', 0)).
  Proof. destruct Hw as [[-> S]| ->]; apply zr_le_suff; cbn [zr_add fst snd]; lia. Qed.

  Lemma octile_step :
    cle zr_ltb (Z.max a b - Z.min a b, Z.min a b) (zr_add w (Z.max a' b' - Z.min a' b', Z.min a' b')).
  Proof. destruct Hw as [[-> S]| ->]; apply zr_le_suff; cbn [zr_add fst snd]; lia. Qed.
End Step.

Lemma grid_consistent : forall g directions blocked cost_map goal hn x,
  costs_ge1 cost_map = true -> heur_ok directions hn = true ->
  forall u v w, In (v, w) (zr_grid_nbrs g directions blocked cost_map u) ->
    zr_heur hn goal u = Some x ->
    exists y, zr_heur hn goal v = Some y /\ cle zr_ltb x (zr_add w y).
Proof.
  intros g directions blocked cost_map [gr gc] hn x Hc Hok [r c] v w Hin Hx.
  destruct (grid_edge_inv _ _ _ _ _ _ _ _ Hc Hin) as [dr [dc [base [Hd [Hv [Hb Hw]]]]]]. subst v.
  apply dirs_of_spec in Hd. destruct Hd as [Hdr [Hdc H4]].
  assert (Ha : -1 <= Z.abs (r - gr) - Z.abs (r + dr - gr) <= 1) by lia.
  assert (Hb' : -1 <= Z.abs (c - gc) - Z.abs (c + dc - gc) <= 1) by lia.
  assert (Hs : negb (dr =? 0) && negb (dc =? 0) = false ->
               Z.abs (r - gr) = Z.abs (r + dr - gr) \/ Z.abs (c - gc) = Z.abs (c + dc - gc)).
  { destruct (Z.eqb_spec dr 0) as [->|], (Z.eqb_spec dc 0) as [->|]; intros E; try discriminate E;
      [left|left|right]; f_equal; lia. }
  unfold zr_heur in *. cbn [fst snd] in *.
  destruct hn; try discriminate Hok; injection Hx as <-; eexists; (split; [reflexivity|]).
  - (* manhattan: 4 directions only, so the move is straight *)
    apply negb_true_iff, H4 in Hok. rewrite Hok in Hw. subst w. apply manhattan_step; auto.
  - apply (octile_step _ _ _ _ base); try assumption.
    subst w. destruct (negb (dr =? 0) && negb (dc =? 0)); [right; reflexivity|left; auto].
  - apply (chebyshev_step _ _ _ _ base); try assumption.
    subst w. destruct (negb (dr =? 0) && negb (dc =? 0)); [right; reflexivity|left; auto].
Qed.

(* the heuristic as a total function; under heur_ok it is the value zr_heur returns *)
Definition heur_val (hn : hname) (goal v : cell) : zr2 :=
  match zr_heur hn goal v with Some x => x | None => zr_zero end.

Lemma heur_val_some : forall directions hn goal v, heur_ok directions hn = true ->
  zr_heur hn goal v = Some (heur_val hn goal v).
Proof. intros directions hn goal v Hok. unfold heur_val. destruct hn; try discriminate Hok; reflexivity. Qed.

Lemma heur_val_goal : forall directions hn goal, heur_ok directions hn = true -> heur_val hn goal goal = zr_zero.
Proof.
  intros directions hn [gr gc] Hok. unfold heur_val, zr_heur. cbn [fst snd]. rewrite !Z.sub_diag.
  destruct hn; try discriminate Hok; reflexivity.
Qed.

Theorem astar_grid_bound : forall g start goal directions h blocked cost_map weight max_iter r,
  1 <= weight -> costs_ge1 cost_map = true -> heur_ok directions (resolve_h directions h) = true ->
  astar_grid_zr g start goal directions h blocked cost_map weight max_iter = Some r ->
  bound_res zr_zero zr_add zr_ltb (if weight =? 1 then OPTIMAL else FEASIBLE)
    (zr_grid_nbrs g directions blocked cost_map) (cell_eqb goal) None start (zr_scale weight) r.
Proof.
  intros g start goal directions h blocked cost_map weight max_iter r Hw Hc Hok H.
  apply astar_grid_zr_run in H. set (hn := resolve_h directions h) in *.
  eapply (astar_c_bound cell_eqb cell_eqb_spec zr_zero zr_add zr_ltb zr2_ordered_costs
           (zr_grid_nbrs g directions blocked cost_map) (cell_eqb goal) max_iter None start
           (grid_nonneg g directions blocked cost_map Hc) (heur_val hn goal) (zr_scale weight)).
  - intros u v w Hin.
    destruct (grid_consistent g directions blocked cost_map goal hn _ Hc Hok u v w Hin (heur_val_some _ _ _ _ Hok))
      as [y [Hy Hle]].
    rewrite (heur_val_some _ _ _ v Hok) in Hy. injection Hy as <-. exact Hle.
  - intros t Ht. apply cell_eqb_spec in Ht. subst t. apply (heur_val_goal directions). exact Hok.
  - apply zr_scale_add.
  - intros a b. apply zr_scale_mono. lia.
  - intros a. apply zr_scale_ge. exact Hw.
  - apply zr_scale_zero.
  - unfold heur_val. destruct hn; try discriminate Hok; exact H.
Qed.
