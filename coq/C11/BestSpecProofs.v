From Coq Require Import List Bool.
From SV Require Import C11.BestFirst C11.BestSpec.
Import ListNotations.

Section SpecProofs.
  Context {N C : Type}.
  Variable neqb : N -> N -> bool.
  Hypothesis neqb_eq : forall a b, neqb a b = true -> a = b.
  Variable cadd : C -> C -> C.
  Variable nbrs : N -> list (N * C).

  Lemma lsums_sound : forall q u acc sums t,
    lsums neqb cadd nbrs u acc q = (sums, t) ->
    forall d, In d sums -> exists a, In a acc /\ lwalk cadd nbrs u a q t d.
  Proof.
    induction q as [|v q IH]; intros u acc sums t H d Hd; simpl in H.
    - inversion H; subst. exists d. split; [assumption|constructor].
    - destruct (IH _ _ _ _ H d Hd) as [a' [Ha' Hw]].
      apply in_flat_map in Ha'. destruct Ha' as [a [Ha Hm]].
      apply in_map_iff in Hm. destruct Hm as [[v' w] [He Hf]].
      apply filter_In in Hf. destruct Hf as [Hin Hv]. simpl in *.
      apply neqb_eq in Hv. subst v' a'.
      exists a. split; [assumption|]. econstructor; eauto.
  Qed.

  Lemma path_check_sound : forall czero start is_goal p dok,
    path_check neqb cadd nbrs czero start is_goal p dok = true ->
    exists d, dok d = true /\ path_spec cadd nbrs czero start is_goal p d.
  Proof.
    intros czero start is_goal p dok H. unfold path_check in H.
    destruct p as [|s q]; [discriminate|].
    apply andb_true_iff in H. destruct H as [Hs H].
    apply neqb_eq in Hs. subst s.
    destruct (lsums neqb cadd nbrs start [czero] q) as [sums t] eqn:E.
    apply andb_true_iff in H. destruct H as [Hg Hex].
    apply existsb_exists in Hex. destruct Hex as [d [Hin Hd]].
    destruct (lsums_sound _ _ _ _ _ E d Hin) as [a [Ha Hw]].
    destruct Ha as [Ha|[]]. subst a.
    exists d. split; [assumption|]. exists q, t. auto.
  Qed.

  Theorem result_check_sound : forall (D : Type) (dok : D -> C -> bool) czero start is_goal (o : obs N D),
    result_check neqb cadd nbrs dok czero start is_goal o = true ->
    result_spec_gen cadd nbrs dok czero start is_goal o.
  Proof.
    intros D dok czero start is_goal [[s p] d] H. unfold result_check in H. unfold result_spec_gen.
    destruct s; try discriminate.
    - destruct p as [p'|]; [|discriminate]. destruct d as [d'|]; [|discriminate].
      apply path_check_sound in H. destruct H as [x [Hx Hp]]. exists p', d', x. auto.
    - destruct p as [p'|]; [|discriminate]. destruct d as [d'|]; [|discriminate].
      apply path_check_sound in H. destruct H as [x [Hx Hp]]. exists p', d', x. auto.
    - destruct p; [discriminate|]. destruct d; [discriminate|]. auto.
    - destruct p; [discriminate|]. destruct d; [discriminate|]. auto.
  Qed.
End SpecProofs.
