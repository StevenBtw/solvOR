(* C11 part B - what the optimality proof needs from the cost type: a totally ordered commutative monoid with
   order-reflecting translation (Z, and Z[sqrt 2] with its exact order, are instances), and what it needs
   from the heap keys: a strict weak order (key_order; closed under lexicographic products) that refines the order
   of the f-values. *)
From Coq Require Import List ZArith Bool Arith Lia.
Import ListNotations.

Record ordered_costs {C : Type} (czero : C) (cadd : C -> C -> C) (cltb : C -> C -> bool) : Prop := {
  oc_irrefl : forall a, cltb a a = false;
  oc_trans : forall a b c, cltb a b = true -> cltb b c = true -> cltb a c = true;
  oc_total : forall a b, cltb a b = false -> cltb b a = false -> a = b;
  oc_assoc : forall a b c, cadd (cadd a b) c = cadd a (cadd b c);
  oc_comm : forall a b, cadd a b = cadd b a;
  oc_zero : forall a, cadd a czero = a;
  oc_mono : forall a b c, cltb (cadd a c) (cadd b c) = cltb a b
}.

Section Order.
  Context {C : Type}.
  Variable czero : C.
  Variable cadd : C -> C -> C.
  Variable cltb : C -> C -> bool.
  Hypothesis OC : ordered_costs czero cadd cltb.

  Definition cle (a b : C) : Prop := cltb b a = false.

  Lemma cle_refl : forall a, cle a a.
  Proof. intros. apply (oc_irrefl _ _ _ OC). Qed.

  Lemma clt_cle : forall a b, cltb a b = true -> cle a b.
  Proof.
    intros a b H. unfold cle. destruct (cltb b a) eqn:E; [|reflexivity].
    pose proof (oc_trans _ _ _ OC _ _ _ H E) as H1. rewrite (oc_irrefl _ _ _ OC) in H1. discriminate.
  Qed.

  Lemma cle_cases : forall a b, cle a b -> a = b \/ cltb a b = true.
  Proof.
    intros a b H. destruct (cltb a b) eqn:E; [right; reflexivity|left].
    apply (oc_total _ _ _ OC); assumption.
  Qed.

  Lemma cle_trans : forall a b c, cle a b -> cle b c -> cle a c.
  Proof.
    intros a b c H1 H2. destruct (cle_cases _ _ H1) as [E|L1]; [subst; assumption|].
    destruct (cle_cases _ _ H2) as [E|L2]; [subst; assumption|].
    apply clt_cle. eapply (oc_trans _ _ _ OC); eassumption.
  Qed.

  Lemma clt_cle_trans : forall a b c, cltb a b = true -> cle b c -> cltb a c = true.
  Proof.
    intros a b c H1 H2. destruct (cle_cases _ _ H2) as [E|L2]; [subst; assumption|].
    eapply (oc_trans _ _ _ OC); eassumption.
  Qed.

  Lemma cle_clt_trans : forall a b c, cle a b -> cltb b c = true -> cltb a c = true.
  Proof.
    intros a b c H1 H2. destruct (cle_cases _ _ H1) as [E|L1]; [subst; assumption|].
    eapply (oc_trans _ _ _ OC); eassumption.
  Qed.

  Lemma cle_total : forall a b, cle a b \/ cle b a.
  Proof. intros a b. unfold cle. destruct (cltb b a) eqn:E; [right; apply clt_cle; assumption|left; reflexivity]. Qed.

  Lemma cle_add_r : forall a b c, cle a b -> cle (cadd a c) (cadd b c).
  Proof. intros a b c H. unfold cle in *. rewrite (oc_mono _ _ _ OC). assumption. Qed.

  Lemma cle_add_l : forall a b c, cle a b -> cle (cadd c a) (cadd c b).
  Proof. intros a b c H. rewrite (oc_comm _ _ _ OC c a), (oc_comm _ _ _ OC c b). apply cle_add_r. assumption. Qed.

  Lemma cle_cancel_r : forall a b c, cle (cadd a c) (cadd b c) -> cle a b.
  Proof. intros a b c H. unfold cle in *. rewrite (oc_mono _ _ _ OC) in H. assumption. Qed.

  Lemma cle_add_nonneg : forall a w, cle czero w -> cle a (cadd a w).
  Proof.
    intros a w H. apply (cle_add_l _ _ a) in H. rewrite (oc_zero _ _ _ OC) in H. assumption.
  Qed.

  Lemma czero_l : forall a, cadd czero a = a.
  Proof. intros. rewrite (oc_comm _ _ _ OC). apply (oc_zero _ _ _ OC). Qed.
End Order.

Record key_order {K : Type} (kltb : K -> K -> bool) : Prop := {
  ko_asym : forall a b, kltb a b = true -> kltb b a = false;
  ko_trans : forall a b c, kltb a b = true -> kltb b c = true -> kltb a c = true;
  ko_negtrans : forall a b c, kltb a b = false -> kltb b c = false -> kltb a c = false
}.

Lemma ordered_costs_key_order : forall {C} czero cadd (cltb : C -> C -> bool),
  ordered_costs czero cadd cltb -> key_order cltb.
Proof.
  intros C czero cadd cltb OC. constructor.
  - intros a b H. apply (clt_cle czero cadd cltb OC). assumption.
  - apply (oc_trans _ _ _ OC).
  - intros a b c H1 H2. apply (cle_trans czero cadd cltb OC c b a); assumption.
Qed.

(* lexicographic product of two strict weak orders (ties of the first = incomparable) *)
Section Lex.
  Context {A B : Type}.
  Variable k1 : A -> A -> bool.
  Variable k2 : B -> B -> bool.
  Hypothesis KO1 : key_order k1.
  Hypothesis KO2 : key_order k2.

  Definition lex (a b : A * B) : bool :=
    if k1 (fst a) (fst b) then true else if k1 (fst b) (fst a) then false else k2 (snd a) (snd b).

  (* closes a case whose k1-comparisons contradict asymmetry, transitivity or negative transitivity of k1 *)
  Ltac kill :=
    match goal with
    | H1 : k1 ?x ?y = true, H2 : k1 ?y ?x = true |- _ => rewrite (ko_asym _ KO1 _ _ H1) in H2; discriminate
    | H1 : k1 ?x ?y = true, H2 : k1 ?y ?z = true, H3 : k1 ?x ?z = false |- _ =>
        rewrite (ko_trans _ KO1 _ _ _ H1 H2) in H3; discriminate
    | H1 : k1 ?x ?y = false, H2 : k1 ?y ?z = false, H3 : k1 ?x ?z = true |- _ =>
        rewrite (ko_negtrans _ KO1 _ _ _ H1 H2) in H3; discriminate
    end.

  (* every combination of the k1-comparisons decides the claim by computation or contradicts KO1, except the one in
     which all first components tie: there the claim is that of k2 *)
  Lemma lex_key_order : key_order lex.
  Proof.
    constructor.
    - intros [a1 a2] [b1 b2]. unfold lex. simpl.
      destruct (k1 a1 b1) eqn:Eab, (k1 b1 a1) eqn:Eba; intros H; try discriminate; try reflexivity; try kill.
      apply (ko_asym _ KO2). assumption.
    - intros [a1 a2] [b1 b2] [c1 c2]. unfold lex. simpl.
      destruct (k1 a1 b1) eqn:Eab, (k1 b1 a1) eqn:Eba, (k1 b1 c1) eqn:Ebc, (k1 c1 b1) eqn:Ecb,
               (k1 a1 c1) eqn:Eac, (k1 c1 a1) eqn:Eca; intros H1 H2; try discriminate; try reflexivity; try kill.
      eapply (ko_trans _ KO2); eassumption.
    - intros [a1 a2] [b1 b2] [c1 c2]. unfold lex. simpl.
      destruct (k1 a1 b1) eqn:Eab, (k1 b1 a1) eqn:Eba, (k1 b1 c1) eqn:Ebc, (k1 c1 b1) eqn:Ecb,
               (k1 a1 c1) eqn:Eac, (k1 c1 a1) eqn:Eca; intros H1 H2; try discriminate; try reflexivity; try kill.
      eapply (ko_negtrans _ KO2); eassumption.
  Qed.
End Lex.

Lemma nat_ltb_key_order : key_order Nat.ltb.
Proof.
  constructor; intros *; rewrite ?Nat.ltb_lt, ?Nat.ltb_ge; lia.
Qed.

Lemma Z_ordered_costs : ordered_costs 0%Z Z.add Z.ltb.
Proof.
  constructor; intros.
  - apply Z.ltb_irrefl.
  - rewrite Z.ltb_lt in *. lia.
  - rewrite Z.ltb_ge in *. lia.
  - lia.
  - lia.
  - lia.
  - destruct (Z.ltb_spec a b), (Z.ltb_spec (a + c) (b + c)); try reflexivity; lia.
Qed.
