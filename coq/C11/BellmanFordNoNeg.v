(* C11 bellman_ford proofs: the run when no negative closed walk is reachable from the source.
   n-1 rounds (or an earlier round without update) suffice, so the detection round is silent; and the parent
   pointers of the finite nodes form a forest at every moment (CLRS 24.16: a relaxation that would close a parent
   cycle exhibits a negative closed walk), so _reconstruct_indexed terminates.  With BellmanFordProofs1.v: UNBOUNDED iff a
   negative cycle is reachable, the model never answers Hang, and otherwise the answer is exact. *)
From Coq Require Import List ZArith Lia.
From SV Require Import C11.Paths C11.PathsLemmas C11.PathsSimple C11.DistCert C11.BellmanFord C11.BellmanFordProofs1.
Import ListNotations.
Import BF.
Local Open Scope Z_scope.

Lemma fold_relax_flag_true : forall es d p, snd (fold_left relax es (d, p, true)) = true.
Proof.
  induction es as [|[[u v] w] es IH]; intros d p; [reflexivity|]. cbn [fold_left].
  destruct (relax_cases d p true u v w) as [[_ ->]|(du & _ & _ & _ & ->)]; apply IH.
Qed.

Lemma fold_relax_noupd : forall es d p d' p', fold_left relax es (d, p, false) = (d', p', false) ->
  d' = d /\ p' = p /\ forall e, In e es -> relaxable d e = false.
Proof.
  induction es as [|[[u v] w] es IH]; intros d p d' p' H.
  - injection H as <- <-. repeat split; auto. intros e [].
  - cbn [fold_left] in H.
    destruct (relax_cases d p false u v w) as [[Er Hx]|(du & _ & _ & _ & Hx)]; rewrite Hx in H.
    + destruct (IH _ _ _ _ H) as (-> & -> & Hall). repeat split; auto. intros e [<-|He]; [exact Er|now apply Hall].
    + apply (f_equal snd) in H. rewrite fold_relax_flag_true in H. discriminate.
Qed.

Section Rounds.
Variable g : wgraph.
Variable s : nat.
Variable n : nat.
Hypothesis Hs : (s < n)%nat.
Hypothesis Hg : forall u v w, In (u, v, w) g -> (u < n)%nat /\ (v < n)%nat.

Notation inv := (inv g s n).
Notation sinv := (sinv g s n).

(* relaxing (u,v,w) makes d[v] <= (any bound on d[u]) + w, and so it stays until the end of the edge list *)
Lemma relax_below st u v w B : sinv st -> In (u, v, w) g -> below (dget (dist_of st) u) B ->
  below (dget (dist_of (relax st (u, v, w))) v) (B + w).
Proof.
  destruct st as [[d p] upd]. unfold sinv. cbn [dist_of par_of fst snd]. intros Hinv Hin (du & Hdu & HB).
  destruct (relax_cases d p upd u v w) as [[Hr ->]|(du' & _ & Hdu' & _ & ->)]; cbn [dist_of fst].
  - unfold relaxable in Hr. change getd with dget in Hr. rewrite Hdu in Hr.
    apply lt_inf_false in Hr as (y & Hy & Hle). exists y. split; [exact Hy|lia].
  - rewrite Hdu in Hdu'. injection Hdu' as <-. exists (du + w). split; [|lia].
    unfold dget. apply nth_set_nth_eq. rewrite (i_len_d _ _ _ _ _ Hinv). apply (Hg _ _ _ Hin).
Qed.

Lemma fold_relax_edge u v w es st B : incl es g -> sinv st -> In (u, v, w) es ->
  below (dget (dist_of st) u) B -> below (dget (dist_of (fold_left relax es st)) v) (B + w).
Proof.
  intros Hi Hinv Hin. pose proof (Hi _ Hin) as Hing. revert Hin st Hinv.
  apply (fold_hit relax sinv st_le (fun a => vec_le_refl _) (fun a b c => vec_le_trans _ _ _)
           (fun st => below (dget (dist_of st) u) B) (fun st => below (dget (dist_of st) v) (B + w))).
  - intros a e He. apply (relax_inv g s n Hs Hg), Hi, He.
  - intros a a' Hle. apply vec_le_below, Hle.
  - intros a a' Hle. apply vec_le_below, Hle.
  - intros a Ha. now apply relax_below.
Qed.

Definition walks_below (k : nat) (d : dvec) : Prop :=
  forall v q c, walk g s v q c -> (length q <= S k)%nat -> below (dget d v) c.

Lemma round_walks_below k d p : inv d p -> walks_below k d -> walks_below (S k) (dist_of (round g d p)).
Proof.
  intros Hinv HK v q c Hw Hl. destruct (fold_relax_inv g s n Hs Hg g (d, p, false) (incl_refl g) Hinv) as [_ Hle].
  destruct (walk_unsnoc _ _ _ _ _ Hw) as [(-> & -> & ->)|(a & q' & c' & w & -> & Hw' & Hin & ->)].
  - apply (vec_le_below _ _ _ _ Hle), (HK s [s] 0 Hw). simpl. lia.
  - apply (fold_relax_edge a v w g (d, p, false) c' (incl_refl g) Hinv Hin), (HK a q' c' Hw').
    rewrite app_length in Hl. simpl in Hl. lia.
Qed.

Lemma edges_le_detect d : edges_le g d -> detect g d = false.
Proof.
  intros He. unfold detect. destruct (existsb (relaxable d) g) eqn:E; [|reflexivity]. exfalso.
  apply existsb_exists in E as ([[u v] w] & Hin & Hr). unfold relaxable in Hr. change getd with dget in Hr.
  destruct (dget d u) as [du|] eqn:Edu; [|discriminate].
  destruct (He _ _ _ _ Hin Edu) as (dv & Hdv & Hle). rewrite Hdv in Hr. simpl in Hr. apply Z.ltb_lt in Hr. lia.
Qed.

Lemma rounds_walks_below : forall k k0 d p, inv d p -> walks_below k0 d ->
  detect g (fst (rounds k g d p)) = false \/ walks_below (k0 + k) (fst (rounds k g d p)).
Proof.
  induction k as [|k IH]; intros k0 d p Hinv HK.
  - simpl. right. now rewrite Nat.add_0_r.
  - simpl. pose proof (round_walks_below k0 d p Hinv HK) as H1.
    destruct (fold_relax_inv g s n Hs Hg g (d, p, false) (incl_refl g) Hinv) as [Hinv1 _]. unfold round in *.
    destruct (fold_left relax g (d, p, false)) as [[d1 p1] upd1] eqn:Ef. destruct upd1.
    + replace (k0 + S k)%nat with (S k0 + k)%nat by lia. exact (IH (S k0) d1 p1 Hinv1 H1).
    + left. destruct (fold_relax_noupd _ _ _ _ _ Ef) as (-> & -> & Hall).
      cbn [fst]. unfold detect. destruct (existsb (relaxable d) g) eqn:E; [|reflexivity].
      apply existsb_exists in E as (e & He & Hr). rewrite (Hall e He) in Hr. discriminate.
Qed.

Lemma init_walks_below : walks_below 0 (init_dist n s).
Proof.
  intros v q c Hw Hl. inversion Hw as [|u x t r w d Hin Hr]; subst.
  - exists 0. split; [|lia]. unfold init_dist, dget. apply nth_set_nth_eq. now rewrite repeat_length.
  - destruct (walk_hd _ _ _ _ _ Hr) as [r' ->]. simpl in Hl. lia.
Qed.

(* the crux: without a negative closed walk reachable from s the detection round is silent *)
Theorem no_neg_detect_false : no_neg_from g s -> detect g (fst (final_state s g n)) = false.
Proof.
  intros Hnn. unfold final_state.
  pose proof (rounds_inv g s n Hs Hg (n - 1) _ _ (init_inv g s n Hs)) as Hinv.
  destruct (rounds_walks_below (n - 1) 0 _ _ (init_inv g s n Hs) init_walks_below) as [H1|HK]; [exact H1|]. apply edges_le_detect.
  apply exact_edges_le with (s := s); [apply (i_att _ _ _ _ _ Hinv)|].
  intros v q c Hw.
  destruct (walk_simplify g s Hnn (length q) v q c (Nat.le_refl _) Hw) as (q' & c' & Hw' & Hle & Hnd).
  assert (Hlen : (length q' <= n)%nat).
  { apply NoDup_bounded_length; [exact Hnd|]. eapply walk_bounded; eauto. }
  apply (below_le _ c'); [apply (HK v q' c' Hw'); simpl; lia|exact Hle].
Qed.

End Rounds.

(* following parent pointers from v ends after h steps at a node without parent *)
Inductive rooted (p : pvec) : nat -> nat -> Prop :=
| rooted_root : forall v, nth v p None = None -> rooted p v 0
| rooted_step : forall v u h, nth v p None = Some u -> rooted p u h -> rooted p v (S h).

Lemma rooted_fun p v h : rooted p v h -> forall h', rooted p v h' -> h = h'.
Proof.
  induction 1 as [v Hv|v u h Hv Hr IH]; intros h' H'; inversion H'; subst; try congruence.
  f_equal. apply IH. congruence.
Qed.

Lemma recon_rooted p : forall cur h, rooted p cur h -> forall fuel acc, (h < fuel)%nat ->
  exists path, recon fuel p cur acc = Some path.
Proof.
  induction 1 as [v Hv|v u h Hv Hr IH]; intros fuel acc Hf; (destruct fuel as [|f]; [lia|]); simpl; rewrite Hv.
  - eauto.
  - apply IH. lia.
Qed.

Section Forest.
Variable g : wgraph.
Variable s : nat.
Variable n : nat.
Hypothesis Hs : (s < n)%nat.
Hypothesis Hg : forall u v w, In (u, v, w) g -> (u < n)%nat /\ (v < n)%nat.
Hypothesis Hnn : no_neg_from g s.

Notation inv := (inv g s n).
Notation sinv := (sinv g s n).

Definition all_rooted (d : dvec) (p : pvec) : Prop := forall v x, dget d v = Some x -> exists h, rooted p v h.

(* the ancestors of u (in p) do not contain v when (u,v,w) is relaxable: they stay rooted after parent[v] := u *)
Lemma rooted_avoid d p u v w du : inv d p -> In (u, v, w) g -> dget d u = Some du ->
  lt_inf (du + w) (dget d v) = true ->
  forall y h, rooted p y h -> forall q c dy, walk g y u q c -> dget d y = Some dy -> dy + c <= du ->
  rooted (set_nth v (Some u) p) y h.
Proof.
  intros Hinv Hin Hdu Hlt.
  (* a node y with d[y] + (weight of a walk y ~> u) <= d[u] is not v: the walk and the edge would close a negative cycle *)
  assert (Hne : forall y q c dy, walk g y u q c -> dget d y = Some dy -> dy + c <= du -> y <> v).
  { intros y q c dy Hw Hdy Hle ->. apply lt_inf_true in Hlt as [Hv|(dv & Hv & Hlt)]; [congruence|].
    rewrite Hdy in Hv. injection Hv as <-.
    destruct (i_att _ _ _ _ _ Hinv _ _ Hdy) as (r & Hr).
    pose proof (Hnn v (q ++ [v]) (c + w) (ex_intro _ r (ex_intro _ dy Hr)) (walk_snoc _ _ _ _ _ _ _ Hw Hin)). lia. }
  induction 1 as [y Hy|y z h Hy Hr IH]; intros q c dy Hw Hdy Hle; pose proof (Hne y q c dy Hw Hdy Hle) as Hyv.
  - apply rooted_root. rewrite nth_set_nth_neq by congruence. exact Hy.
  - destruct (i_par _ _ _ _ _ Hinv _ _ Hy) as (w' & dy' & dz & Hin' & Hdy' & Hdz & Hle').
    rewrite Hdy in Hdy'. injection Hdy' as <-.
    apply rooted_step with (u := z); [rewrite nth_set_nth_neq by congruence; exact Hy|].
    destruct (walk_hd _ _ _ _ _ Hw) as [q' ->].
    apply (IH (z :: y :: q') (w' + c) dz); [eapply walk_cons; eauto|exact Hdz|lia].
Qed.

Lemma relax_rooted st e : In e g -> sinv st -> all_rooted (dist_of st) (par_of st) ->
  all_rooted (dist_of (relax st e)) (par_of (relax st e)).
Proof.
  destruct st as [[d p] upd], e as [[u v] w]. unfold sinv. cbn [dist_of par_of fst snd].
  intros Hin Hinv HR. destruct (Hg _ _ _ Hin) as [Hu Hv].
  destruct (relax_cases d p upd u v w) as [[_ ->]|(du & _ & Edu & Elt & ->)]; [exact HR|]. cbn [dist_of par_of fst snd].
  set (p' := set_nth v (Some u) p).
  destruct (HR _ _ Edu) as (hu & Hru).
  assert (Hru' : rooted p' u hu).
  { apply (rooted_avoid d p u v w du Hinv Hin Edu Elt u hu Hru [u] 0 du); [apply walk_nil|exact Edu|lia]. }
  assert (Hrv' : rooted p' v (S hu)).
  { apply rooted_step with (u := u); [|exact Hru']. unfold p'. apply nth_set_nth_eq. rewrite (i_len_p _ _ _ _ _ Hinv). exact Hv. }
  assert (Hother : forall y h, rooted p y h -> y <> v -> exists h', rooted p' y h').
  { induction 1 as [y Hy|y z h Hy Hr IH]; intros Hne.
    - exists 0%nat. apply rooted_root. unfold p'. rewrite nth_set_nth_neq by congruence. exact Hy.
    - assert (Hy' : nth y p' None = Some z) by (unfold p'; rewrite nth_set_nth_neq by congruence; exact Hy).
      destruct (Nat.eq_dec z v) as [->|Hzv].
      + exists (S (S hu)). eapply rooted_step; eauto.
      + destruct (IH Hzv) as (h' & Hh'). exists (S h'). eapply rooted_step; eauto. }
  intros y x Hy. destruct (Nat.eq_dec y v) as [->|Hne]; [eauto|].
  unfold dget in Hy. rewrite nth_set_nth_neq in Hy by congruence.
  destruct (HR _ _ Hy) as (h & Hh). now apply (Hother y h).
Qed.

Lemma rounds_rooted k d p : inv d p -> all_rooted d p ->
  inv (fst (rounds k g d p)) (snd (rounds k g d p)) /\ all_rooted (fst (rounds k g d p)) (snd (rounds k g d p)).
Proof.
  intros Hinv HR. apply (rounds_pres g (fun d p => inv d p /\ all_rooted d p)); [|now split].
  intros d0 p0 H0.
  apply (fold_left_pres relax (fun st => sinv st /\ all_rooted (dist_of st) (par_of st))); [|exact H0].
  intros st e Hin [H1 H2]. split; [now apply relax_inv|now apply relax_rooted].
Qed.

Lemma init_rooted : all_rooted (init_dist n s) (init_parent n).
Proof. intros v x _. exists 0%nat. apply rooted_root. unfold init_parent. apply nth_repeat. Qed.

(* a rooted chain visits pairwise distinct nodes below n, so it has fewer than n steps *)
Lemma rooted_chain d p : inv d p -> forall v h, rooted p v h -> (v < n)%nat ->
  exists L, length L = S h /\ NoDup L /\ (forall x, In x L -> (x < n)%nat) /\
            (forall x, In x L -> exists hx, (hx <= h)%nat /\ rooted p x hx).
Proof.
  intros Hinv. induction 1 as [v Hv|v u h Hv Hr IH]; intros Hvn.
  - exists [v]. repeat split; [constructor; [intros []|constructor]|intros x [<-|[]]; exact Hvn|].
    intros x [<-|[]]. exists 0%nat. split; [lia|now apply rooted_root].
  - destruct (i_par _ _ _ _ _ Hinv _ _ Hv) as (w & _ & _ & Hin & _). destruct (Hg _ _ _ Hin) as [Hun _].
    destruct (IH Hun) as (L & Hlen & Hnd & Hb & Hh).
    exists (v :: L). split; [simpl; lia|]. split; [|split].
    + constructor; [|exact Hnd]. intros HinL. destruct (Hh _ HinL) as (hx & Hle & Hrx).
      pose proof (rooted_fun _ _ _ Hrx (S h) (rooted_step _ _ _ _ Hv Hr)). lia.
    + intros x [<-|Hx]; [exact Hvn|now apply Hb].
    + intros x [<-|Hx]; [exists (S h); split; [lia|eapply rooted_step; eauto]|].
      destruct (Hh _ Hx) as (hx & Hle & Hrx). exists hx. split; [lia|exact Hrx].
Qed.

Lemma final_recon_some t x : (t < n)%nat -> dget (fst (final_state s g n)) t = Some x ->
  exists path, reconstruct_indexed (snd (final_state s g n)) t = Some path.
Proof.
  intros Ht Hx. unfold final_state in *.
  destruct (rounds_rooted (n - 1) _ _ (init_inv g s n Hs) init_rooted) as [Hinv HR].
  destruct (rounds (n - 1) g (init_dist n s) (init_parent n)) as [d p]. cbn [fst snd] in *.
  destruct (HR _ _ Hx) as (h & Hh).
  destruct (rooted_chain d p Hinv t h Hh Ht) as (L & Hlen & Hnd & Hb & _).
  pose proof (NoDup_bounded_length L n Hnd Hb) as Hln.
  apply recon_rooted with (h := h); [exact Hh|]. rewrite (i_len_p _ _ _ _ _ Hinv). lia.
Qed.

End Forest.

Lemma unbounded_dec (r : result) : r = Unbounded \/ r <> Unbounded.
Proof. destruct r; (now left) || (right; discriminate). Qed.

Theorem bf_neg_cycle_unbounded start g n target : valid_input start g n target = true ->
  neg_cycle_reachable g start -> bellman_ford start g n target = Unbounded.
Proof.
  intros Hv Hneg. destruct (unbounded_dec (bellman_ford start g n target)) as [E|E]; [exact E|].
  destruct (bf_bounded_no_neg _ _ _ _ Hv E Hneg).
Qed.

Theorem bf_unbounded_not_no_neg start g n target :
  bellman_ford start g n target = Unbounded -> ~ no_neg_from g start.
Proof.
  intros E Hnn. destruct (valid_input start g n target) eqn:Hv; [|rewrite bf_invalid in E by exact Hv; discriminate].
  destruct (valid_input_facts _ _ _ _ Hv) as (Hs & Hg & _).
  pose proof (no_neg_detect_false g start n Hs Hg Hnn) as H.
  destruct (bf_run _ _ _ _ Hv) as (d & p & Ef & _ & Er). rewrite Ef in H. cbn [fst] in H. rewrite Er, H in E.
  exact (proj2 (answer_proper d p target) E).
Qed.

(* with the (classically trivial) case distinction the textbook statement follows *)
Corollary bf_unbounded_iff_classical start g n target : valid_input start g n target = true ->
  (neg_cycle_reachable g start \/ ~ neg_cycle_reachable g start) ->
  (bellman_ford start g n target = Unbounded <-> neg_cycle_reachable g start).
Proof.
  intros Hv [Hneg|Hnn]; split; intros H; auto.
  - now apply bf_neg_cycle_unbounded.
  - exfalso. apply (bf_unbounded_not_no_neg _ _ _ _ H). now apply no_neg_from_intro.
  - contradiction.
Qed.

Theorem bellman_ford_no_hang start g n target : bellman_ford start g n target <> Hang.
Proof.
  destruct (valid_input start g n target) eqn:Hv; [|rewrite bf_invalid by exact Hv; discriminate].
  destruct (valid_input_facts _ _ _ _ Hv) as (Hs & Hg & Ht). intros E.
  (* the answer is not UNBOUNDED, so no negative closed walk is reachable *)
  assert (Hnn : no_neg_from g start).
  { apply no_neg_from_intro, (bf_bounded_no_neg _ _ _ _ Hv). rewrite E. discriminate. }
  destruct (bf_run _ _ _ _ Hv) as (d & p & Ef & _ & Er). rewrite Er in E.
  destruct (detect g d); [discriminate|]. unfold answer in E. destruct target as [t|]; [|discriminate].
  change getd with dget in E. destruct (dget d t) as [x|] eqn:Ex; [|discriminate].
  pose proof (final_recon_some g start n Hs Hg Hnn t x Ht) as H. rewrite Ef in H.
  destruct (H Ex) as (path & Hp). cbn [snd] in Hp. rewrite Hp in E. discriminate.
Qed.

Theorem bf_no_neg_answers start g n target : valid_input start g n target = true -> no_neg_from g start ->
  match target with
  | None => exists d, bellman_ford start g n None = Dists d /\ dist_vector g start d
  | Some t => (exists p x, bellman_ford start g n (Some t) = Path p x /\ walk g start t p x /\ is_dist g start t x) \/
              (bellman_ford start g n (Some t) = Infeasible /\ ~ reachable g start t)
  end.
Proof.
  intros Hv Hnn. pose proof (bellman_ford_sound start g n target) as H.
  destruct (bellman_ford start g n target) as [| | |p x|d|] eqn:E; simpl in H.
  - destruct (bf_not_error _ _ _ _ Hv E).
  - destruct (bf_unbounded_not_no_neg _ _ _ _ E Hnn).
  - destruct H as (_ & t & -> & Hr). now right.
  - destruct H as (_ & t & -> & Hw & Hd). left. now exists p, x.
  - destruct H as (_ & -> & Hd). now exists d.
  - destruct (bellman_ford_no_hang _ _ _ _ E).
Qed.
