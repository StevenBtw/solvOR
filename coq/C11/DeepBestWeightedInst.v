(* C11 part B - bounded suboptimality without a max_cost limit, read off the bounds for every weight and budget:
   astar_gen over Z (BestProofs5.astar_gen_bound: objective <= weight * weight of any walk to a goal node, in
   particular <= weight * distance) and astar_grid over Z[sqrt 2] (BestGridProofs.astar_grid_bound, zr_scale weight). *)
From Coq Require Import List ZArith Bool.
From SV Require Import C11.Paths C11.BestFirst C11.BestGrid C11.BestSpec C11.BestGraph C11.BestOrder C11.BestHyps
  C11.BestProofsInst C11.BestProofs4 C11.BestProofs5 C11.BestGridProofs C11.DeepBestWeighted.
Import ListNotations.

Open Scope Z_scope.

Theorem astar_weighted_bound : forall fuel adj start goals htab weight max_iter r,
  (1 <=? weight) = true -> nonneg_adj adj = true -> consistent_adj adj goals htab = true ->
  astar_gen fuel adj start goals htab weight max_iter None = Some r ->
  forall d0, r_obj r = Some d0 ->
    (forall t p d, goal_in goals t = true -> walk (adj_edges adj) start t p d -> d0 <= weight * d)
    /\ (forall t dmin, goal_in goals t = true -> is_dist (adj_edges adj) start t dmin -> d0 <= weight * dmin).
Proof.
  intros fuel adj start goals htab weight max_iter r Hw Hn Hc H d0 Hd.
  apply Z.leb_le in Hw.
  pose proof (proj1 (astar_gen_bound fuel adj start goals htab weight max_iter None r Hw Hn Hc H)) as G.
  assert (G1 : forall t p d, goal_in goals t = true -> walk (adj_edges adj) start t p d -> d0 <= weight * d).
  { intros t p d Ht Hwk. destruct (walk_lwalk _ _ _ _ _ Hwk 0) as [q [_ Hq]]. simpl in Hq.
    specialize (G d0 Hd t q d Ht Hq I). unfold cle in G. apply Z.ltb_ge in G. exact G. }
  split; [exact G1|]. intros t dmin Ht [[p Hp] _]. eapply G1; eassumption.
Qed.

Theorem astar_grid_weighted_bound : forall g start goal directions h blocked cost_map weight max_iter r,
  (1 <=? weight) = true -> costs_ge1 cost_map = true -> heur_ok directions (resolve_h directions h) = true ->
  astar_grid_zr g start goal directions h blocked cost_map weight max_iter = Some r ->
  wopt_res zr_zero zr_add zr_ltb (zr_grid_nbrs g directions blocked cost_map) (cell_eqb goal) start (zr_scale weight) r.
Proof.
  intros g start goal directions h blocked cost_map weight max_iter r Hw Hc Hok H d0 Hd t q d Ht Hwk.
  apply Z.leb_le in Hw.
  exact (proj1 (astar_grid_bound g start goal directions h blocked cost_map weight max_iter r Hw Hc Hok H)
           d0 Hd t q d Ht Hwk I).
Qed.
