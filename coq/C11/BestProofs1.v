(* C11 part B - the structural invariant inv1 of the generic best-first loop (parent tree, g, heap and closed set),
   the rule by which every partial-correctness proof about the loop goes (loop_rule), and the path theorem:
   every returned path is a real walk from the start to a goal node whose weights sum to the objective.
   No assumption on weights, heuristic, limits or the cost type (any C, cadd; also floats). *)
From Coq Require Import List ZArith Bool Arith Lia.
From SV Require C11.PathsLemmas.
From SV Require Import C11.BestFirst C11.BestSpec.
Import ListNotations.

Section Assoc.
  Context {A B : Type}.
  Variable eqb : A -> A -> bool.
  Hypothesis eqb_spec : forall a b, eqb a b = true <-> a = b.

  Lemma eqb_refl : forall a, eqb a a = true.
  Proof. intros a. apply eqb_spec. reflexivity. Qed.

  Lemma eqb_neq : forall a b, a <> b -> eqb a b = false.
  Proof. intros a b H. destruct (eqb a b) eqn:E; [|reflexivity]. apply eqb_spec in E. contradiction. Qed.

  Lemma eqb_dec : forall a b : A, a = b \/ a <> b.
  Proof. intros a b. destruct (eqb a b) eqn:E; [left; apply eqb_spec; exact E|right; intros H; apply eqb_spec in H; congruence]. Qed.

  Lemma lookup_cons_eq : forall k (v : B) l, lookup eqb k ((k, v) :: l) = Some v.
  Proof. intros. simpl. rewrite eqb_refl. reflexivity. Qed.

  Lemma lookup_cons_neq : forall k k' (v : B) l, k <> k' -> lookup eqb k ((k', v) :: l) = lookup eqb k l.
  Proof. intros. simpl. rewrite eqb_neq by assumption. reflexivity. Qed.

  Lemma lookup_In : forall k (l : list (A * B)) v, lookup eqb k l = Some v -> In (k, v) l.
  Proof.
    intros k l v. induction l as [|[k' v'] l IH]; simpl; [discriminate|].
    destruct (eqb k k') eqn:E.
    - apply eqb_spec in E. intros H. inversion H; subst. left. reflexivity.
    - intros H. right. apply IH. assumption.
  Qed.

  Lemma memb_In : forall k l, memb eqb k l = true <-> In k l.
  Proof.
    intros k l. induction l as [|x l IH]; simpl.
    - split; [discriminate|tauto].
    - destruct (eqb k x) eqn:E.
      + apply eqb_spec in E. subst. tauto.
      + rewrite IH. split; [tauto|]. intros [H|H]; [|assumption]. subst. rewrite eqb_refl in E. discriminate.
  Qed.

  Lemma memb_cons : forall k x l, memb eqb k l = true -> memb eqb k (x :: l) = true.
  Proof. intros k x l H. simpl. destruct (eqb k x); auto. Qed.

  Lemma memb_cons_false : forall k x l, memb eqb k (x :: l) = false -> k <> x /\ memb eqb k l = false.
  Proof.
    intros k x l H. simpl in H. destruct (eqb k x) eqn:E; [discriminate|]. split; [|exact H].
    intros ->. rewrite eqb_refl in E. discriminate.
  Qed.

  Lemma Forall_memb_cons : forall x l l',
    Forall (fun k => memb eqb k l = true) l' -> Forall (fun k => memb eqb k (x :: l) = true) l'.
  Proof. intros x l l' H. eapply Forall_impl; [|exact H]. intros a. apply memb_cons. Qed.

  Lemma memb_head : forall k l, memb eqb k (k :: l) = true.
  Proof. intros. simpl. rewrite eqb_refl. reflexivity. Qed.

  Lemma memb_cons_true : forall k x l, memb eqb k (x :: l) = true -> k = x \/ memb eqb k l = true.
  Proof. intros k x l H. simpl in H. destruct (eqb k x) eqn:E; [left; apply eqb_spec; exact E|right; exact H]. Qed.
End Assoc.

Lemma hinsert_In : forall {N K : Type} (kltb : K -> K -> bool) (e e' : @entry N K) h,
  In e' (hinsert kltb e h) <-> e' = e \/ In e' h.
Proof.
  intros N K kltb e e' h. induction h as [|x h IH]; simpl.
  - intuition.
  - destruct (entry_ltb kltb e x); simpl; [intuition|]. rewrite IH. intuition.
Qed.

Notation popped s h' := (mkSt (s_g s) (s_parent s) (s_closed s) (s_counter s) h' (s_evals s)).
Notation closing s cur h' := (mkSt (s_g s) (s_parent s) (cur :: s_closed s) (s_counter s) h' (s_evals s)).

Section Proofs.
  Context {N C K : Type}.
  Variable neqb : N -> N -> bool.
  Hypothesis neqb_spec : forall a b, neqb a b = true <-> a = b.
  Variable czero : C.
  Variable cadd : C -> C -> C.
  Variable cltb : C -> C -> bool.
  Variable kltb : K -> K -> bool.
  Variable mkkey : C -> N -> K.
  Variable limit_of : K -> C -> C.
  Variable found_status : status.
  Variable nbrs : N -> list (N * C).
  Variable is_goal : N -> bool.
  Variable max_iter : Z.
  Variable max_cost : option C.
  Variable start : N.

  Notation lw := (lwalk cadd nbrs).
  Notation st := (@st N C K).
  Notation relax := (relax neqb cadd cltb kltb mkkey).
  Notation expand := (expand neqb cadd cltb kltb mkkey nbrs).
  Notation loop := (loop neqb cadd cltb kltb mkkey limit_of found_status nbrs is_goal max_iter max_cost).
  Notation lk := (lookup neqb).
  Notation mem := (memb neqb).

  Inductive anc (par : list (N * N)) : N -> list N -> Prop :=
  | anc_root : forall v, lk v par = None -> anc par v [v]
  | anc_step : forall v p l, lk v par = Some p -> anc par p l -> anc par v (l ++ [v]).

  Lemma anc_fun : forall par v l1, anc par v l1 -> forall l2, anc par v l2 -> l1 = l2.
  Proof.
    intros par v l1 H. induction H as [v Hv|v p l Hv Hp IH]; intros l2 H2; inversion H2; subst; try congruence.
    rewrite Hv in H. inversion H; subst. f_equal. apply IH. assumption.
  Qed.

  Lemma anc_ext : forall par u l v c, anc par u l -> ~ In v l -> anc ((v, c) :: par) u l.
  Proof.
    intros par u l v c H. induction H as [u Hu|u p l Hu Hp IH]; intros Hn.
    - apply anc_root. rewrite (lookup_cons_neq neqb neqb_spec); [assumption|]. intros E. apply Hn. left. auto.
    - apply anc_step with p.
      + rewrite (lookup_cons_neq neqb neqb_spec); [assumption|]. intros E. apply Hn. apply in_or_app. right. left. auto.
      + apply IH. intros Hi. apply Hn. apply in_or_app. left. assumption.
  Qed.

  Lemma recon_anc : forall fuel par cur acc l,
    recon neqb fuel par cur acc = Some l -> exists l0, anc par cur l0 /\ l = l0 ++ acc.
  Proof.
    induction fuel as [|f IH]; intros par cur acc l H; simpl in H; [discriminate|].
    destruct (lk cur par) as [p|] eqn:E.
    - apply IH in H. destruct H as [l0 [Ha Hl]]. exists (l0 ++ [cur]). split.
      + apply anc_step with p; assumption.
      + rewrite <- app_assoc. assumption.
    - inversion H; subst. exists [cur]. split; [apply anc_root; assumption|reflexivity].
  Qed.

  Lemma NoDup_snoc : forall (l : list N) x, NoDup l -> ~ In x l -> NoDup (l ++ [x]).
  Proof.
    intros l x Hl Hx. apply PathsLemmas.NoDup_app_intro; [assumption|constructor; [intros []|constructor]|].
    intros y Hy [<-|[]]. contradiction.
  Qed.

  Lemma lw_snoc : forall u a q t d v w, lw u a q t d -> In (v, w) (nbrs t) -> lw u a (q ++ [v]) v (cadd d w).
  Proof.
    intros u a q t d v w H. induction H as [u a|u a v' w' q t d Hin Hw IH]; intros Hv; simpl.
    - econstructor; [eassumption|constructor].
    - econstructor; [eassumption|]. apply IH. assumption.
  Qed.

  Ltac ssimpl := cbn [s_g s_parent s_closed s_counter s_heap s_evals].

  (* the structure the loop keeps whatever the costs are: the parent pointers form a tree of real walks rooted at the
     start whose inner nodes are closed; closed nodes and heap nodes have a g; every unclosed discovered node waits
     in the heap under the key of its present g *)
  Record inv1 (s : st) : Prop := {
    i_start_g : lk start (s_g s) = Some czero;
    i_start_par : lk start (s_parent s) = None;
    i_first : forall x, mem x (s_closed s) = true -> mem start (s_closed s) = true;
    i_edge : forall v gv, lk v (s_g s) = Some gv ->
               v = start \/ exists p gp w, lk v (s_parent s) = Some p /\ mem p (s_closed s) = true /\
                                          lk p (s_g s) = Some gp /\ In (v, w) (nbrs p) /\ gv = cadd gp w;
    i_tree : forall p gp, mem p (s_closed s) = true -> lk p (s_g s) = Some gp ->
              exists q, anc (s_parent s) p (start :: q) /\ NoDup (start :: q) /\ lw start czero q p gp /\
                        Forall (fun x => mem x (s_closed s) = true) (start :: q);
    i_cg : forall u, mem u (s_closed s) = true -> exists gu, lk u (s_g s) = Some gu;
    i_heap : forall k c v, In (k, c, v) (s_heap s) -> exists gv, lk v (s_g s) = Some gv;
    i_cur : forall v gv, mem v (s_closed s) = false -> lk v (s_g s) = Some gv ->
              exists c, In (mkkey gv v, c, v) (s_heap s)
  }.

  Lemma relax_cases : forall cur gcur s v w,
    (relax cur gcur s (v, w) = s /\
       (mem v (s_closed s) = true \/ exists gv, lk v (s_g s) = Some gv /\ cltb (cadd gcur w) gv = false))
    \/ (relax cur gcur s (v, w) =
          mkSt ((v, cadd gcur w) :: s_g s) ((v, cur) :: s_parent s) (s_closed s) (S (s_counter s))
               (hinsert kltb (mkkey (cadd gcur w) v, s_counter s, v) (s_heap s)) (s_evals s + 1) /\
        mem v (s_closed s) = false /\ forall gv, lk v (s_g s) = Some gv -> cltb (cadd gcur w) gv = true).
  Proof.
    intros cur gcur s v w. unfold BestFirst.relax.
    destruct (mem v (s_closed s)); [left; auto|].
    destruct (lk v (s_g s)) as [gv|].
    - destruct (cltb (cadd gcur w) gv) eqn:E.
      + right. split; [reflexivity|]. split; [reflexivity|]. intros gv' Hgv'. inversion Hgv'; subst. assumption.
      + left. split; [reflexivity|]. right. exists gv. auto.
    - right. split; [reflexivity|]. split; [reflexivity|]. intros gv' Hgv'. discriminate.
  Qed.

  Lemma relax_closed : forall cur gcur s nb, s_closed (relax cur gcur s nb) = s_closed s.
  Proof. intros cur gcur s [v w]. destruct (relax_cases cur gcur s v w) as [[-> _]|[-> _]]; reflexivity. Qed.

  Lemma relax_g_closed : forall cur gcur s nb u, mem u (s_closed s) = true ->
    lk u (s_g (relax cur gcur s nb)) = lk u (s_g s).
  Proof.
    intros cur gcur s [v w] u Hu. destruct (relax_cases cur gcur s v w) as [[-> _]|[-> [Ev _]]]; [reflexivity|].
    apply (lookup_cons_neq neqb neqb_spec). intros ->. congruence.
  Qed.

  Lemma relax_inv1 : forall cur gcur s nb,
    inv1 s -> mem cur (s_closed s) = true -> lk cur (s_g s) = Some gcur -> In nb (nbrs cur) ->
    inv1 (relax cur gcur s nb).
  Proof.
    intros cur gcur s [v w] I Hc Hg Hin.
    destruct (relax_cases cur gcur s v w) as [[-> _]|[-> [Ev _]]]; [assumption|].
    assert (Hvc : v <> cur) by (intros E; subst; congruence).
    assert (Hvs : v <> start) by (intros E; subst; rewrite (i_first _ I _ Hc) in Ev; discriminate).
    assert (Hnc : forall x, mem x (s_closed s) = true -> x <> v) by (intros x Hx E; subst; congruence).
    constructor; ssimpl.
    - rewrite (lookup_cons_neq neqb neqb_spec); auto. apply (i_start_g _ I).
    - rewrite (lookup_cons_neq neqb neqb_spec); auto. apply (i_start_par _ I).
    - apply (i_first _ I).
    - intros u gu Hu. destruct (eqb_dec neqb neqb_spec u v) as [->|E].
      + rewrite (lookup_cons_eq neqb neqb_spec) in Hu. inversion Hu; subst gu. right. exists cur, gcur, w.
        rewrite (lookup_cons_eq neqb neqb_spec), (lookup_cons_neq neqb neqb_spec) by auto. auto.
      + rewrite (lookup_cons_neq neqb neqb_spec) in Hu by assumption.
        destruct (i_edge _ I _ _ Hu) as [->|[p [gp [w' [H1 [H2 H3]]]]]]; [left; reflexivity|].
        right. exists p, gp, w'. rewrite !(lookup_cons_neq neqb neqb_spec) by auto. auto.
    - intros p gp Hp Hgp.
      rewrite (lookup_cons_neq neqb neqb_spec) in Hgp by (apply Hnc; assumption).
      destruct (i_tree _ I _ _ Hp Hgp) as [q [Ha [Hnd [Hw Hf]]]].
      exists q. repeat split; try assumption.
      apply anc_ext; [assumption|].
      intros Hi. rewrite Forall_forall in Hf. specialize (Hf _ Hi). congruence.
    - intros u Hu. rewrite (lookup_cons_neq neqb neqb_spec) by (apply Hnc; assumption). apply (i_cg _ I _ Hu).
    - intros k c x Hx. apply hinsert_In in Hx. destruct (eqb_dec neqb neqb_spec x v) as [->|E].
      + rewrite (lookup_cons_eq neqb neqb_spec). eauto.
      + rewrite (lookup_cons_neq neqb neqb_spec) by assumption.
        destruct Hx as [Hx|Hx]; [inversion Hx; congruence|]. eapply (i_heap _ I). eassumption.
    - intros x gx Hx Hgx. destruct (eqb_dec neqb neqb_spec x v) as [->|E].
      + rewrite (lookup_cons_eq neqb neqb_spec) in Hgx. inversion Hgx; subst gx.
        exists (s_counter s). apply hinsert_In. left. reflexivity.
      + rewrite (lookup_cons_neq neqb neqb_spec) in Hgx by assumption.
        destruct (i_cur _ I x gx Hx Hgx) as [c' Hc']. exists c'. apply hinsert_In. right. assumption.
  Qed.

  Lemma expand_rule : forall (P : st -> Prop) cur gcur,
    (forall s nb, In nb (nbrs cur) -> P s -> P (relax cur gcur s nb)) -> forall s, P s -> P (expand cur gcur s).
  Proof.
    intros P cur gcur Hstep s. unfold BestFirst.expand.
    assert (G : forall l, incl l (nbrs cur) -> forall s0, P s0 -> P (fold_left (relax cur gcur) l s0)).
    { induction l as [|nb l IH]; intros Hl s0 Hs; simpl; [assumption|].
      apply IH; [intros x Hx; apply Hl; right; assumption|].
      apply Hstep; [apply Hl; left; reflexivity|assumption]. }
    apply G, incl_refl.
  Qed.

  Lemma expand_closed : forall cur gcur s, s_closed (expand cur gcur s) = s_closed s.
  Proof.
    intros cur gcur s. apply (expand_rule (fun s' => s_closed s' = s_closed s)); [|reflexivity].
    intros s0 nb _ E. rewrite relax_closed. exact E.
  Qed.

  Lemma expand_g_closed : forall cur gcur s u, mem u (s_closed s) = true ->
    lk u (s_g (expand cur gcur s)) = lk u (s_g s).
  Proof.
    intros cur gcur s u Hu.
    refine (proj2 (expand_rule (fun s' => s_closed s' = s_closed s /\ lk u (s_g s') = lk u (s_g s)) cur gcur _ s
                     (conj eq_refl eq_refl))).
    intros s0 nb _ [Hc Hg]. rewrite relax_closed, relax_g_closed by (rewrite Hc; assumption). auto.
  Qed.

  Lemma expand_inv1 : forall cur gcur s,
    inv1 s -> mem cur (s_closed s) = true -> lk cur (s_g s) = Some gcur -> inv1 (expand cur gcur s).
  Proof.
    intros cur gcur s I Hc Hg.
    refine (proj1 (expand_rule (fun s => inv1 s /\ mem cur (s_closed s) = true /\ lk cur (s_g s) = Some gcur)
                     cur gcur _ s (conj I (conj Hc Hg)))).
    intros s0 nb Hin [I0 [Hc0 Hg0]]. rewrite relax_closed, relax_g_closed by assumption.
    split; [apply (relax_inv1 cur gcur s0 nb I0 Hc0 Hg0 Hin)|auto].
  Qed.

  Definition heap_all (Q : N -> Prop) (s : st) : Prop := forall k c v, In (k, c, v) (s_heap s) -> Q v.

  Lemma heap_all_tail : forall Q (s : st) e h' g p cl cn ev, heap_all Q s -> s_heap s = e :: h' ->
    heap_all Q (mkSt g p cl cn h' ev).
  Proof. intros Q s e h' g p cl cn ev H Eh k c v Hin. eapply H. rewrite Eh. right. exact Hin. Qed.

  Lemma expand_heap_all : forall (Q : N -> Prop) cur gcur s,
    (forall v w, In (v, w) (nbrs cur) -> Q v) -> heap_all Q s -> heap_all Q (expand cur gcur s).
  Proof.
    intros Q cur gcur s HQ. apply expand_rule. intros s0 [v w] Hin H.
    destruct (relax_cases cur gcur s0 v w) as [[-> _]|[-> _]]; [assumption|].
    intros k c x Hx. apply hinsert_In in Hx.
    destruct Hx as [E|Hx]; [inversion E; subst; eapply HQ; eassumption|eapply H; eassumption].
  Qed.

  Lemma hinsert_length : forall (e : @entry N K) h, length (hinsert kltb e h) = S (length h).
  Proof. intros e h. induction h as [|x h IH]; simpl; [reflexivity|]. destruct (entry_ltb kltb e x); simpl; lia. Qed.

  Lemma expand_heap_length : forall cur gcur s,
    length (s_heap (expand cur gcur s)) <= length (nbrs cur) + length (s_heap s).
  Proof.
    intros cur gcur. unfold BestFirst.expand. induction (nbrs cur) as [|[v w] l IH]; intros s; cbn [fold_left length]; [lia|].
    etransitivity; [apply IH|].
    destruct (relax_cases cur gcur s v w) as [[-> _]|[-> _]]; ssimpl; rewrite ?hinsert_length; lia.
  Qed.

  Lemma close_inv1 : forall s k c cur gcur h',
    inv1 s -> s_heap s = (k, c, cur) :: h' -> mem cur (s_closed s) = false -> lk cur (s_g s) = Some gcur ->
    inv1 (closing s cur h').
  Proof.
    intros s k c cur gcur h' I Eh Hc Hg.
    assert (Hmono : forall x, mem x (s_closed s) = true -> mem x (cur :: s_closed s) = true)
      by (intros; apply memb_cons; assumption).
    constructor; simpl.
    - apply (i_start_g _ I).
    - apply (i_start_par _ I).
    - intros x _. destruct (i_edge _ I _ _ Hg) as [->|[p [gp [w [_ [Hp' _]]]]]]; [apply (memb_head neqb neqb_spec)|].
      apply Hmono, (i_first _ I p), Hp'.
    - intros v gv Hv. destruct (i_edge _ I _ _ Hv) as [->|[p [gp [w [H1 [H2 H3]]]]]]; [left; reflexivity|].
      right. exists p, gp, w. split; [exact H1|split; [apply Hmono, H2|exact H3]].
    - intros p gp Hp Hgp.
      destruct (memb_cons_true neqb neqb_spec _ _ _ Hp) as [->|Hp0].
      + rewrite Hgp in Hg. inversion Hg; subst gp.
        destruct (i_edge _ I _ _ Hgp) as [->|[p [gp' [w [Hp' [Hpc [H1 [H2 ->]]]]]]]].
        { rewrite (i_start_g _ I) in Hgp. inversion Hgp; subst gcur. exists []. repeat split.
          - apply anc_root, (i_start_par _ I).
          - constructor; [intros []|constructor].
          - constructor.
          - constructor; [|constructor]. apply (memb_head neqb neqb_spec). }
        destruct (i_tree _ I _ _ Hpc H1) as [q [Ha [Hnd [Hw Hf]]]]. exists (q ++ [cur]).
        change (start :: q ++ [cur]) with ((start :: q) ++ [cur]). repeat split.
        * apply anc_step with p; assumption.
        * apply NoDup_snoc; [assumption|].
          intros Hx. rewrite Forall_forall in Hf. specialize (Hf _ Hx). congruence.
        * eapply lw_snoc; eassumption.
        * apply Forall_app. split.
          -- apply Forall_memb_cons. exact Hf.
          -- constructor; [|constructor]. apply (memb_head neqb neqb_spec).
      + destruct (i_tree _ I _ _ Hp0 Hgp) as [q [Ha [Hnd [Hw Hf]]]].
        exists q. repeat split; try assumption.
        apply Forall_memb_cons. exact Hf.
    - intros u Hu. destruct (memb_cons_true neqb neqb_spec _ _ _ Hu) as [->|Hu']; [eauto|apply (i_cg _ I _ Hu')].
    - intros k' c' v Hin. eapply (i_heap _ I). rewrite Eh. right. eassumption.
    - intros v gv Hv Hgv. destruct (memb_cons_false neqb neqb_spec _ _ _ Hv) as [Hne Hv'].
      destruct (i_cur _ I v gv Hv' Hgv) as [c' Hin]. rewrite Eh in Hin.
      destruct Hin as [E|Hin]; [inversion E; congruence|]. exists c'. assumption.
  Qed.

  Lemma skip_inv1 : forall s k c cur h',
    inv1 s -> s_heap s = (k, c, cur) :: h' -> mem cur (s_closed s) = true ->
    inv1 (popped s h').
  Proof.
    intros s k c cur h' I Eh Hc. destruct I. constructor; simpl; try assumption.
    - (* i_heap *) intros k' c' v Hin. eapply i_heap0. rewrite Eh. right. eassumption.
    - (* i_cur *) intros v gv Hv Hgv. destruct (i_cur0 v gv Hv Hgv) as [c' Hin]. rewrite Eh in Hin.
      destruct Hin as [E|Hin]; [inversion E; congruence|]. exists c'. assumption.
  Qed.

  Definition res_ok (r : result N C) : Prop :=
    match r_path r with
    | Some p => exists d, r_obj r = Some d /\ path_spec cadd nbrs czero start is_goal p d /\ r_status r = found_status
    | None => r_obj r = None /\ (r_status r = INFEASIBLE \/ r_status r = MAX_ITER)
    end.

  Lemma finish_ok : forall iters (s : st), res_ok (finish max_iter iters s).
  Proof.
    intros. unfold res_ok, finish. simpl. split; [reflexivity|].
    destruct (max_iter <=? iters)%Z; auto.
  Qed.

  Lemma goal_ok : forall s cur gcur p,
    inv1 s -> mem cur (s_closed s) = true -> lk cur (s_g s) = Some gcur -> is_goal cur = true ->
    reconstruct_path neqb (s_parent s) cur = Some p ->
    path_spec cadd nbrs czero start is_goal p gcur.
  Proof.
    intros s cur gcur p I Hc Hg Hgoal Hr.
    unfold reconstruct_path in Hr. apply recon_anc in Hr. destruct Hr as [l0 [Ha Hl]].
    rewrite app_nil_r in Hl. subst l0.
    destruct (i_tree _ I _ _ Hc Hg) as [q [Ha' [_ [Hw Hf]]]].
    rewrite (anc_fun _ _ _ Ha _ Ha'). exists q, cur. auto.
  Qed.

  (* The shape of every partial-correctness proof about the loop: an invariant of (state, iteration count) kept by
     the three ways an iteration goes on (stale entry skipped; node closed but over the limit; node closed and
     expanded), and a property of the result shown where the loop returns (heap empty or max_iter; goal popped). *)
  Lemma loop_rule : forall (Inv : st -> Z -> Prop) (Q : result N C -> Prop),
    (forall s iters, Inv s iters -> s_heap s = [] \/ (iters <? max_iter)%Z = false -> Q (finish max_iter iters s)) ->
    (forall s iters k c cur h', Inv s iters -> s_heap s = (k, c, cur) :: h' -> (iters <? max_iter)%Z = true ->
       mem cur (s_closed s) = true ->
       Inv (popped s h') iters) ->
    (forall s iters k c cur h' gcur p, Inv s iters -> s_heap s = (k, c, cur) :: h' -> (iters <? max_iter)%Z = true ->
       mem cur (s_closed s) = false -> lk cur (s_g s) = Some gcur -> is_goal cur = true ->
       reconstruct_path neqb (s_parent s) cur = Some p ->
       Q (mkResult found_status (Some p) (Some gcur) (iters + 1)%Z (s_evals s))) ->
    (forall s iters k c cur h' gcur, Inv s iters -> s_heap s = (k, c, cur) :: h' -> (iters <? max_iter)%Z = true ->
       mem cur (s_closed s) = false -> lk cur (s_g s) = Some gcur -> is_goal cur = false ->
       over_limit cltb limit_of max_cost k gcur = true ->
       Inv (closing s cur h') (iters + 1)%Z) ->
    (forall s iters k c cur h' gcur, Inv s iters -> s_heap s = (k, c, cur) :: h' -> (iters <? max_iter)%Z = true ->
       mem cur (s_closed s) = false -> lk cur (s_g s) = Some gcur -> is_goal cur = false ->
       over_limit cltb limit_of max_cost k gcur = false ->
       Inv (expand cur gcur (closing s cur h')) (iters + 1)%Z) ->
    forall fuel s iters r, Inv s iters -> loop fuel s iters = Some r -> Q r.
  Proof.
    intros Inv Q Hstop Hskip Hgoal Hlim Hexp. induction fuel as [|f IH]; intros s iters r I H; [discriminate|].
    simpl in H.
    destruct (s_heap s) as [|[[k c] cur] h'] eqn:Eh.
    { inversion H; subst. apply Hstop; auto. }
    destruct (iters <? max_iter)%Z eqn:Elt; simpl in H.
    2:{ inversion H; subst. apply Hstop; auto. }
    destruct (mem cur (s_closed s)) eqn:Ec.
    { eapply IH; [|exact H]. eapply Hskip; eassumption. }
    destruct (lk cur (s_g s)) as [gcur|] eqn:Eg; [|discriminate].
    destruct (is_goal cur) eqn:Egoal.
    { destruct (reconstruct_path neqb (s_parent s) cur) as [p|] eqn:Er; [|discriminate].
      inversion H; subst. eapply Hgoal; eassumption. }
    destruct (over_limit cltb limit_of max_cost k gcur) eqn:Eo.
    - eapply IH; [|exact H]. eapply Hlim; eassumption.
    - eapply IH; [|exact H]. eapply Hexp; eassumption.
  Qed.

  Lemma loop_path_valid : forall fuel s iters r, inv1 s -> loop fuel s iters = Some r -> res_ok r.
  Proof.
    intros fuel s iters r. apply (loop_rule (fun s _ => inv1 s) res_ok).
    - intros; apply finish_ok.
    - intros s0 _ k c cur h' I Eh _ Ec. apply (skip_inv1 s0 k c cur h' I Eh Ec).
    - intros s0 it k c cur h' gcur p I Eh _ Ec Eg Egoal Er. unfold res_ok. simpl. exists gcur. repeat split.
      apply (goal_ok _ cur gcur p (close_inv1 s0 k c cur gcur h' I Eh Ec Eg)); try assumption.
      apply (memb_head neqb neqb_spec).
    - intros s0 it k c cur h' gcur I Eh _ Ec Eg _ _. apply (close_inv1 s0 k c cur gcur h' I Eh Ec Eg).
    - intros s0 it k c cur h' gcur I Eh _ Ec Eg _ _.
      apply expand_inv1; [apply (close_inv1 s0 k c cur gcur h' I Eh Ec Eg)|apply (memb_head neqb neqb_spec)|assumption].
  Qed.

  Lemma init_inv1 : inv1 (init_st czero mkkey start).
  Proof.
    constructor; simpl; try (intros; discriminate).
    - rewrite (eqb_refl neqb neqb_spec). reflexivity.
    - reflexivity.
    - intros v gv Hv. left. destruct (neqb v start) eqn:E; [apply neqb_spec; assumption|discriminate].
    - intros k c v [E|[]]. inversion E; subst. rewrite (eqb_refl neqb neqb_spec). eauto.
    - intros v gv _ Hv. destruct (neqb v start) eqn:E; [|discriminate].
      apply neqb_spec in E. subst. inversion Hv; subst. exists O. left. reflexivity.
  Qed.

  Theorem best_first_path_valid : forall fuel r,
    best_first neqb czero cadd cltb kltb mkkey limit_of found_status nbrs is_goal max_iter max_cost fuel start = Some r ->
    res_ok r.
  Proof. intros fuel r H. eapply loop_path_valid; [apply init_inv1|exact H]. Qed.
End Proofs.
