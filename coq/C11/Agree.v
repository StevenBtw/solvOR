(* C11: what the agreement statements of Props/C11.v need beyond the single solvers.  bfs's objective is the
   distance in the unit-weight graph of the successor dictionary; and running bellman_ford and floyd_warshall together
   decides, constructively, whether a negative cycle is reachable, which removes the case distinction from
   bf_unbounded_iff_classical. *)
From Coq Require Import List ZArith Lia.
From SV Require Import C11.Paths C11.PathsLemmas C11.PathsSimple C11.DistCert C11.Bfs C11.BellmanFord C11.FloydWarshall
  C11.BfsTheorems C11.BellmanFordProofs1 C11.BellmanFordNoNeg C11.FloydWarshallProofs.
Import ListNotations.
Local Open Scope Z_scope.

(* bfs on a successor dictionary = shortest walks in its unit-weight graph *)
Definition adj_graph (adj : Bfs.adjl) : wgraph := unit_graph (map fst adj) (Bfs.succ_of adj).

Lemma succ_of_key adj u v : In v (Bfs.succ_of adj u) -> In u (map fst adj).
Proof.
  unfold Bfs.succ_of. induction adj as [|[k l] adj IH]; simpl; [intros []|].
  destruct (Nat.eqb k u) eqn:E; [apply Nat.eqb_eq in E; now left|right; now apply IH].
Qed.

Theorem bfs_is_unit_distance adj s t max_iter st p obj :
  Bfs.bfs adj s (Bfs.goal_val t) max_iter = Some (Bfs.Found st p obj) -> is_dist (adj_graph adj) s t obj.
Proof.
  intros H. pose proof (bfs_shortest _ _ _ _ _ _ _ H) as Hmin.
  apply (search_path_valid Bfs.Queue) in H as (t' & Hp & Hg & ->). simpl in Hg. apply Nat.eqb_eq in Hg. subst t'.
  split.
  - exists p. apply path_unit_walk; [apply succ_of_key|exact Hp].
  - intros q d Hw. apply unit_walk_path in Hw as [Hq ->]. apply (Hmin t q Hq). simpl. apply Nat.eqb_refl.
Qed.

(* "a negative cycle is reachable from s" is decidable by running the verified models: bellman_ford on the
   zero-weight copy of the graph decides reachability, floyd_warshall on the edges whose source is reachable
   decides the negative cycle *)
Definition zero (g : wgraph) : wgraph := map (fun e => (fst (fst e), snd (fst e), 0)) g.

Lemma in_zero g u v w : In (u, v, w) (zero g) <-> w = 0 /\ exists w', In (u, v, w') g.
Proof.
  unfold zero. rewrite in_map_iff. split.
  - intros ([[a b] c] & Heq & Hin). simpl in Heq. injection Heq as -> -> <-. eauto.
  - intros (-> & w' & Hin). exists (u, v, w'). auto.
Qed.

Lemma walk_zero g u t p c : walk g u t p c -> walk (zero g) u t p 0.
Proof.
  induction 1 as [u|u v t p w c Hin Hw IH]; [apply walk_nil|].
  replace 0 with (0 + 0) by lia. eapply walk_cons; [|exact IH]. apply in_zero. eauto.
Qed.

Lemma zero_walk g u t p c : walk (zero g) u t p c -> c = 0 /\ exists c', walk g u t p c'.
Proof.
  induction 1 as [u|u v t p w c Hin Hw [-> (c' & IH)]]; [split; [reflexivity|exists 0; apply walk_nil]|].
  apply in_zero in Hin as (-> & w' & Hin). split; [reflexivity|]. exists (w' + c'). eapply walk_cons; eauto.
Qed.

Lemma reachable_zero g s v : reachable (zero g) s v <-> reachable g s v.
Proof.
  split.
  - intros (p & c & Hw). apply zero_walk in Hw as (_ & c' & Hw). now exists p, c'.
  - intros (p & c & Hw). exists p, 0. eapply walk_zero; eauto.
Qed.

Lemma valid_input_zero s g n t : BF.valid_input s (zero g) n t = BF.valid_input s g n t.
Proof.
  unfold BF.valid_input. f_equal. f_equal. unfold zero.
  induction g as [|[[u v] w] g IH]; [reflexivity|]. simpl. now rewrite IH.
Qed.

Lemma reachable_decidable s g n : BF.valid_input s g n None = true ->
  exists R : nat -> bool, forall v, R v = true <-> reachable g s v.
Proof.
  intros Hv. rewrite <- valid_input_zero in Hv.
  destruct (bf_no_neg_answers s (zero g) n None Hv) as (d & _ & Hd).
  { intros v p c _ Hw. apply zero_walk in Hw as [-> _]. lia. }
  exists (fun v => match nth v d None with Some _ => true | None => false end).
  intros v. specialize (Hd v). unfold dget in Hd. rewrite <- reachable_zero.
  destruct (nth v d None) as [x|]; split; try discriminate; try tauto. intros _. eapply is_dist_reachable; eauto.
Qed.

Definition restrict (g : wgraph) (R : nat -> bool) : wgraph := filter (fun e => R (fst (fst e))) g.

Lemma in_restrict g R u v w : In (u, v, w) (restrict g R) <-> In (u, v, w) g /\ R u = true.
Proof. unfold restrict. rewrite filter_In. reflexivity. Qed.

Lemma walk_restrict g (R : nat -> bool) s : (forall v, R v = true <-> reachable g s v) ->
  forall u t p c, walk g u t p c -> reachable g s u -> walk (restrict g R) u t p c.
Proof.
  intros HR. induction 1 as [u|u v t p w c Hin Hw IH]; intros Hu; [apply walk_nil|].
  eapply walk_cons.
  - apply in_restrict. split; [exact Hin|now apply HR].
  - apply IH. eapply reachable_edge; eauto.
Qed.

Lemma neg_cycle_reachable_restrict g (R : nat -> bool) s : (forall v, R v = true <-> reachable g s v) ->
  (neg_cycle_reachable g s <-> neg_cycle (restrict g R)).
Proof.
  intros HR. split.
  - intros (v & p & c & Hr & Hw & Hc & Hl). exists v, p, c. repeat split; auto. eapply walk_restrict; eauto.
  - intros (v & p & c & Hw & Hc & Hl). exists v, p, c. repeat split; auto.
    + inversion Hw as [|u x t r w d Hin Hr]; subst; [lia|]. apply in_restrict in Hin as [_ Hin]. now apply HR.
    + eapply walk_mono; [|exact Hw]. intros e He. unfold restrict in He. now apply filter_In in He.
Qed.

Theorem neg_cycle_reachable_decidable s g n target : BF.valid_input s g n target = true ->
  neg_cycle_reachable g s \/ ~ neg_cycle_reachable g s.
Proof.
  intros Hv. apply valid_input_no_target in Hv.
  destruct (reachable_decidable s g n Hv) as (R & HR).
  rewrite (neg_cycle_reachable_restrict g R s HR).
  assert (Hvr : FW.valid_input n (restrict g R) = true).
  { destruct (valid_input_facts _ _ _ _ Hv) as (Hs & Hg & _). apply fw_valid_input_intro; [lia|].
    intros u v w Hin. apply in_restrict in Hin as [Hin _]. now apply Hg in Hin. }
  pose proof (fw_unbounded_iff n (restrict g R) true Hvr) as Hfw. simpl FW.graph_of in Hfw. rewrite <- Hfw.
  destruct (FW.floyd_warshall n (restrict g R) true); (now left) || (right; discriminate).
Qed.
