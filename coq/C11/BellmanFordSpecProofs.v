From Coq Require Import List ZArith Bool Lia.
From SV Require Import C11.Paths C11.PathsLemmas C11.DistCert C11.BellmanFord C11.FloydWarshall C11.BellmanFordSpec.
Import ListNotations.
Import BFSpec.
Local Open Scope Z_scope.

Lemma bmem_In x l : mem x l = true <-> In x l.
Proof.
  unfold mem. rewrite existsb_exists. split.
  - intros (y & Hy & He). apply Nat.eqb_eq in He. now subst.
  - intros H. exists x. split; [exact H|apply Nat.eqb_refl].
Qed.

Lemma oz_eqb_eq a b : oz_eqb a b = true -> a = b.
Proof. destruct a, b; simpl; intros H; try discriminate; [apply Z.eqb_eq in H; now subst|reflexivity]. Qed.

Lemma edge_le_sound g d : forallb (edge_le d) g = true -> edges_le g d.
Proof.
  intros H u v w du Hin Hu. rewrite forallb_forall in H. specialize (H _ Hin). unfold edge_le in H.
  change (getd d u) with (dget d u) in H. rewrite Hu in H. change (getd d v) with (dget d v) in H.
  destruct (dget d v) as [dv|]; [|discriminate]. exists dv. split; [reflexivity|]. now apply Z.leb_le.
Qed.

Definition reached (g : wgraph) (s : nat) (d : list (option Z)) (R : list nat) : Prop :=
  forall v, In v R -> exists x p, dget d v = Some x /\ walk g s v p x.

Lemma tight_step_reached g s d R : reached g s d R -> reached g s d (tight_step g d R).
Proof.
  unfold tight_step. apply fold_left_pres. intros R0 [[u v] w] Hin HR.
  destruct (mem u R0 && negb (mem v R0) &&
            match getd d u, getd d v with Some du, Some dv => dv =? du + w | _, _ => false end) eqn:E; [|exact HR].
  apply andb_true_iff in E as [E Et]. apply andb_true_iff in E as [Eu _]. apply bmem_In in Eu.
  change (getd d u) with (dget d u) in Et. change (getd d v) with (dget d v) in Et.
  destruct (dget d u) as [du|] eqn:Edu; [|discriminate]. destruct (dget d v) as [dv|] eqn:Edv; [|discriminate].
  apply Z.eqb_eq in Et. intros y [<-|Hy]; [|now apply HR].
  destruct (HR u Eu) as (x & p & Hx & Hp). rewrite Edu in Hx. injection Hx as <-.
  exists dv, (p ++ [v]). split; [exact Edv|]. subst dv. eapply walk_snoc; eauto.
Qed.

Lemma tight_closure_reached g s d : forall k R, reached g s d R -> reached g s d (tight_closure k g d R).
Proof.
  induction k as [|k IH]; intros R HR; [exact HR|]. simpl. apply IH, tight_step_reached, HR.
Qed.

Theorem cert_check_sound g s d n : cert_check g s d n = true -> dist_vector g s d /\ ~ neg_cycle_reachable g s.
Proof.
  unfold cert_check. intros H. apply andb_true_iff in H as [H Hall]. apply andb_true_iff in H as [H Hle].
  apply andb_true_iff in H as [Hs Hlen]. apply oz_eqb_eq in Hs. apply Nat.eqb_eq in Hlen.
  change (getd d s) with (dget d s) in Hs. pose proof (edge_le_sound _ _ Hle) as He.
  split; [|eapply cert_no_neg_cycle; eauto].
  apply cert_sound; auto.
  intros v x Hv.
  assert (Hvn : (v < n)%nat).
  { destruct (lt_dec v n) as [Hl|Hl]; [exact Hl|]. unfold dget in Hv. rewrite nth_overflow in Hv by lia. discriminate. }
  rewrite forallb_forall in Hall. specialize (Hall v). rewrite in_seq in Hall. specialize (Hall ltac:(lia)).
  change (getd d v) with (dget d v) in Hall. rewrite Hv in Hall. apply bmem_In in Hall.
  assert (H0 : reached g s d [s]).
  { intros y [<-|[]]. exists 0, [s]. split; [exact Hs|apply walk_nil]. }
  destruct (tight_closure_reached g s d n [s] H0 v Hall) as (x' & p & Hx' & Hp).
  rewrite Hv in Hx'. injection Hx' as <-. now exists p.
Qed.

(* bellman_ford answers for single targets, judged against the certified vector *)
Theorem spec_check_sound s g n d qs : spec_check s g n d qs = true ->
  dist_vector g s d /\ ~ neg_cycle_reachable g s /\
  forall t r, In (t, r) qs ->
    match r with
    | BF.Path p x => walk g s t p x /\ is_dist g s t x
    | BF.Infeasible => ~ reachable g s t
    | _ => False
    end.
Proof.
  unfold spec_check. intros H. apply andb_true_iff in H as [Hc Hq].
  destruct (cert_check_sound _ _ _ _ Hc) as [Hd Hn]. split; [exact Hd|]. split; [exact Hn|].
  intros t r Hin. rewrite forallb_forall in Hq. specialize (Hq _ Hin). unfold query_check in Hq.
  specialize (Hd t). change (getd d t) with (dget d t) in Hq.
  destruct r; try discriminate.
  - apply oz_eqb_eq in Hq. rewrite Hq in Hd. exact Hd.
  - apply andb_true_iff in Hq as [Hw Hx]. apply oz_eqb_eq in Hx. rewrite Hx in Hd.
    split; [now apply walk_check_sound|exact Hd].
Qed.

(* the graph floyd_warshall's matrix is checked against: row i is a certificate for source i *)
Definition fw_graph (edges : wgraph) (directed : bool) : wgraph := FW.graph_of edges directed.
