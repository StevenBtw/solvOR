(* C11 part B - the generic theorems of BestProofs1/2 instantiated for dijkstra, astar (graphs over Z, stated
   with C11.Paths.walk on the edge list) and astar_grid (exact Z[sqrt 2] grid graph). *)
From Coq Require Import List ZArith Bool Arith Lia.
From SV Require Import C11.Paths C11.BestFirst C11.BestGrid C11.BestSpec C11.BestGraph C11.BestProofs1 C11.BestProofs2.
Import ListNotations.
Open Scope Z_scope.

Lemma cell_eqb_spec : forall a b : cell, cell_eqb a b = true <-> a = b.
Proof.
  intros [a1 a2] [b1 b2]. unfold cell_eqb. simpl. rewrite andb_true_iff, !Z.eqb_eq.
  split; [intros [H1 H2]; subst; reflexivity|intros H; inversion H; auto].
Qed.

Lemma In_edges_from : forall adj k u v w,
  In (u, v, w) (edges_from k adj) <-> (k <= u)%nat /\ In (v, w) (nth (u - k) adj []).
Proof.
  induction adj as [|l rest IH]; intros k u v w; simpl.
  - split; [tauto|]. intros [_ H]. destruct (u - k)%nat; destruct H.
  - rewrite in_app_iff, in_map_iff, IH. split.
    + intros [[[v' w'] [E Hin]]|[Hle Hin]].
      * simpl in E. inversion E; subst. split; [lia|]. rewrite Nat.sub_diag. assumption.
      * split; [lia|]. replace (u - k)%nat with (S (u - S k)) by lia. assumption.
    + intros [Hle Hin]. destruct (u - k)%nat as [|m] eqn:E.
      * left. exists (v, w). simpl. split; [|assumption]. f_equal. f_equal. lia.
      * right. split; [lia|]. replace (u - S k)%nat with m by lia. assumption.
Qed.

Lemma In_adj_edges : forall adj u v w, In (u, v, w) (adj_edges adj) <-> In (v, w) (adj_nbrs adj u).
Proof.
  intros. unfold adj_edges, adj_nbrs. rewrite In_edges_from, Nat.sub_0_r. split; [tauto|]. split; [lia|assumption].
Qed.

Lemma lwalk_walk : forall adj u a q t d,
  lwalk Z.add (adj_nbrs adj) u a q t d -> walk (adj_edges adj) u t (u :: q) (d - a).
Proof.
  intros adj u a q t d H. induction H as [u a|u a v w q t d Hin Hw IH].
  - replace (a - a) with 0 by lia. constructor.
  - replace (d - a) with (w + (d - (a + w))) by lia. econstructor; [|exact IH].
    apply In_adj_edges. assumption.
Qed.

Lemma walk_lwalk : forall adj u t p d, walk (adj_edges adj) u t p d ->
  forall a, exists q, p = u :: q /\ lwalk Z.add (adj_nbrs adj) u a q t (a + d).
Proof.
  intros adj u t p d H. induction H as [u|u v t p w d Hin Hw IH]; intros a.
  - exists []. split; [reflexivity|]. replace (a + 0) with a by lia. constructor.
  - destruct (IH (a + w)) as [q [Hp Hq]]. exists (v :: q). split; [subst; reflexivity|].
    econstructor; [apply In_adj_edges; eassumption|]. replace (a + (w + d)) with (a + w + d) by lia. assumption.
Qed.

Lemma graph_res_ok_of : forall adj start goals found (r : result nat Z),
  res_ok 0 Z.add found (adj_nbrs adj) (goal_in goals) start r -> graph_res_ok adj start goals found r.
Proof.
  intros adj start goals found r H. unfold res_ok in H. unfold graph_res_ok.
  destruct (r_path r) as [p|]; [|assumption].
  destruct H as [d [Ho [[q [t [Hp [Hw Hg]]]] Hs]]]. subst p.
  exists d, t. repeat split; try assumption.
  apply lwalk_walk in Hw. replace (d - 0) with d in Hw by lia. assumption.
Qed.

Lemma unreachable_of : forall adj start goals,
  unreachable_goal Z.add (adj_nbrs adj) (goal_in goals) start -> no_goal_reachable adj start goals.
Proof.
  intros adj start goals H t Ht [p [d Hw]].
  destruct (walk_lwalk _ _ _ _ _ Hw 0) as [q [_ Hq]].
  apply H in Hq. congruence.
Qed.

Theorem dijkstra_path_valid : forall fuel adj start goals max_iter max_cost r,
  dijkstra_gen fuel adj start goals max_iter max_cost = Some r -> graph_res_ok adj start goals OPTIMAL r.
Proof.
  intros. apply graph_res_ok_of. unfold dijkstra_gen, dijkstra_c in H.
  eapply (best_first_path_valid Nat.eqb Nat.eqb_eq). eassumption.
Qed.

Theorem astar_path_valid : forall fuel adj start goals htab weight max_iter max_cost r,
  astar_gen fuel adj start goals htab weight max_iter max_cost = Some r ->
  graph_res_ok adj start goals (if weight =? 1 then OPTIMAL else FEASIBLE) r.
Proof.
  intros. apply graph_res_ok_of. unfold astar_gen, astar_c in H.
  eapply (best_first_path_valid Nat.eqb Nat.eqb_eq). eassumption.
Qed.

Lemma astar_grid_zr_run : forall g start goal directions h blocked cost_map weight max_iter r,
  astar_grid_zr g start goal directions h blocked cost_map weight max_iter = Some r ->
  astar_c cell_eqb zr_zero zr_add zr_ltb
    (fun v => match zr_heur (resolve_h directions h) goal v with Some x => zr_scale weight x | None => zr_zero end)
    (if weight =? 1 then OPTIMAL else FEASIBLE) (zr_grid_nbrs g directions blocked cost_map)
    (cell_eqb goal) max_iter None (grid_fuel g) start = Some r.
Proof.
  intros g start goal directions h blocked cost_map weight max_iter r H. unfold astar_grid_zr in H.
  destruct (resolve_h directions h); try discriminate H; exact H.
Qed.

Theorem astar_grid_path_valid : forall g start goal directions h blocked cost_map weight max_iter r,
  astar_grid_zr g start goal directions h blocked cost_map weight max_iter = Some r ->
  grid_res_ok g start goal directions blocked cost_map weight r.
Proof.
  intros g start goal directions h blocked cost_map weight max_iter r H.
  apply astar_grid_zr_run in H. unfold astar_c in H.
  eapply (best_first_path_valid cell_eqb cell_eqb_spec). exact H.
Qed.

Theorem dijkstra_infeasible_sound : forall fuel adj start goals max_iter r,
  dijkstra_gen fuel adj start goals max_iter None = Some r -> r_status r = INFEASIBLE ->
  no_goal_reachable adj start goals.
Proof.
  intros fuel adj start goals max_iter r H Hs. apply unreachable_of.
  unfold dijkstra_gen, dijkstra_c in H.
  eapply (best_first_infeasible_sound Nat.eqb Nat.eqb_eq); [|exact H|exact Hs]. discriminate.
Qed.

Theorem astar_infeasible_sound : forall fuel adj start goals htab weight max_iter r,
  astar_gen fuel adj start goals htab weight max_iter None = Some r -> r_status r = INFEASIBLE ->
  no_goal_reachable adj start goals.
Proof.
  intros fuel adj start goals htab weight max_iter r H Hs. apply unreachable_of.
  unfold astar_gen, astar_c in H.
  eapply (best_first_infeasible_sound Nat.eqb Nat.eqb_eq); [|exact H|exact Hs].
  destruct (weight =? 1); discriminate.
Qed.

Theorem astar_grid_infeasible_sound : forall g start goal directions h blocked cost_map weight max_iter r,
  astar_grid_zr g start goal directions h blocked cost_map weight max_iter = Some r -> r_status r = INFEASIBLE ->
  unreachable_goal zr_add (zr_grid_nbrs g directions blocked cost_map) (cell_eqb goal) start.
Proof.
  intros g start goal directions h blocked cost_map weight max_iter r H Hs.
  apply astar_grid_zr_run in H. unfold astar_c in H.
  eapply (best_first_infeasible_sound cell_eqb cell_eqb_spec); [|exact H|exact Hs].
  destruct (weight =? 1); discriminate.
Qed.
