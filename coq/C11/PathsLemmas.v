(* C11: basic lemmas about walks, about paths of a successor function and about folds, used by the proof files of C11 part A, by DeepBestAgree.v and by C12. *)
From Coq Require Import List ZArith Bool Lia.
From SV Require Import C11.Paths.
Import ListNotations.
Open Scope Z_scope.

Lemma walk_hd g u t p d : walk g u t p d -> exists q, p = u :: q.
Proof. intros H; inversion H; subst; eauto. Qed.

Lemma walk_nonempty g u t p d : walk g u t p d -> p <> [].
Proof. intros H; destruct (walk_hd _ _ _ _ _ H) as [q ->]; discriminate. Qed.

Lemma walk_neg_long g v p c : walk g v v p c -> c < 0 -> (1 < length p)%nat.
Proof.
  intros H Hc. inversion H as [|? ? ? q ? ? _ Hq]; subst; [lia|].
  destruct (walk_hd _ _ _ _ _ Hq) as [r ->]. simpl. lia.
Qed.

Lemma walk_last g u t p d : walk g u t p d -> forall x, last p x = t.
Proof.
  induction 1 as [u|u v t p w d Hin Hw IH]; intros x; [reflexivity|].
  destruct (walk_hd _ _ _ _ _ Hw) as [q ->]. specialize (IH x).
  change (last (u :: v :: q) x) with (last (v :: q) x). exact IH.
Qed.

Lemma walk_one g u v w : In (u, v, w) g -> walk g u v [u; v] w.
Proof.
  intros H. replace w with (w + 0) by lia. eapply walk_cons; [exact H|apply walk_nil].
Qed.

Lemma walk_app g u v p d : walk g u v p d ->
  forall t q e, walk g v t (v :: q) e -> walk g u t (p ++ q) (d + e).
Proof.
  induction 1 as [u|u v' v p w d Hin Hw IH]; intros t q e H2.
  - simpl. replace (0 + e) with e by lia. exact H2.
  - simpl. replace (w + d + e) with (w + (d + e)) by lia.
    eapply walk_cons; [exact Hin|]. apply IH. exact H2.
Qed.

Lemma walk_snoc g u v p d t w : walk g u v p d -> In (v, t, w) g -> walk g u t (p ++ [t]) (d + w).
Proof.
  intros H Hin. eapply walk_app; [exact H|]. apply walk_one. exact Hin.
Qed.

Lemma walk_split g : forall a u t x b d, walk g u t (a ++ x :: b) d ->
  exists d1 d2, walk g u x (a ++ [x]) d1 /\ walk g x t (x :: b) d2 /\ d = d1 + d2.
Proof.
  induction a as [|y a IH]; intros u t x b d H; simpl in *.
  - destruct (walk_hd _ _ _ _ _ H) as [q Hq]. injection Hq as -> _.
    exists 0, d. split; [apply walk_nil|split; [exact H|lia]].
  - inversion H as [|u' v t' p w d' Hin Hw]; subst.
    + destruct a; discriminate.
    + destruct (IH _ _ _ _ _ Hw) as (d1 & d2 & H1 & H2 & ->).
      exists (w + d1), d2. split; [|split; [exact H2|lia]].
      eapply walk_cons; [exact Hin|exact H1].
Qed.

Lemma reachable_refl g s : reachable g s s.
Proof. exists [s], 0. apply walk_nil. Qed.

Lemma reachable_trans g a b c : reachable g a b -> reachable g b c -> reachable g a c.
Proof.
  intros (p & d & H1) (q & e & H2). destruct (walk_hd _ _ _ _ _ H2) as [q' ->].
  exists (p ++ q'), (d + e). eapply walk_app; eauto.
Qed.

Lemma reachable_edge g s u v w : reachable g s u -> In (u, v, w) g -> reachable g s v.
Proof.
  intros (p & d & H) Hin. exists (p ++ [v]), (d + w). eapply walk_snoc; eauto.
Qed.

Lemma walk_in_graph_nodes g u t p d : walk g u t p d ->
  forall x, In x p -> x = u \/ exists a w, In (a, x, w) g.
Proof.
  induction 1 as [u|u v t p w d Hin Hw IH]; intros x Hx.
  - destruct Hx as [<-|[]]. now left.
  - destruct Hx as [<-|Hx]; [now left|].
    destruct (IH x Hx) as [->|H']; right; eauto.
Qed.

Lemma walk_mono g g' u t p d : incl g g' -> walk g u t p d -> walk g' u t p d.
Proof.
  intros Hi. induction 1; [apply walk_nil|]. eapply walk_cons; eauto.
Qed.

Lemma edge_weights_in g u v w : In w (edge_weights g u v) <-> In (u, v, w) g.
Proof.
  unfold edge_weights. rewrite in_map_iff. split.
  - intros ([[a b] c] & Hc & Hin). simpl in Hc. subst c. apply filter_In in Hin as [Hin Hf]. simpl in Hf.
    apply andb_true_iff in Hf as [Ha Hb]. apply Nat.eqb_eq in Ha, Hb. subst. exact Hin.
  - intros Hin. exists (u, v, w). split; [reflexivity|]. apply filter_In. split; [exact Hin|].
    simpl. rewrite !Nat.eqb_refl. reflexivity.
Qed.

Lemma walk_sums_sound g : forall p d, In d (walk_sums g p) ->
  exists u, hd_error p = Some u /\ walk g u (last p u) p d.
Proof.
  induction p as [|u q IH]; intros d H; [destruct H|].
  destruct q as [|v q'].
  - destruct H as [<-|[]]. exists u. split; [reflexivity|]. apply walk_nil.
  - change (walk_sums g (u :: v :: q')) with
      (flat_map (fun w => map (fun d => w + d) (walk_sums g (v :: q'))) (edge_weights g u v)) in H.
    apply in_flat_map in H as (w & Hw & Hd). apply in_map_iff in Hd as (d' & <- & Hd').
    apply edge_weights_in in Hw. destruct (IH _ Hd') as (v' & Hv & Hwalk). injection Hv as <-.
    exists u. split; [reflexivity|].
    change (last (u :: v :: q') u) with (last (v :: q') u).
    rewrite (walk_last _ _ _ _ _ Hwalk u). eapply walk_cons; [exact Hw|exact Hwalk].
Qed.

Lemma walk_check_sound g s t p d : walk_check g s t p d = true -> walk g s t p d.
Proof.
  unfold walk_check. destruct p as [|u q]; [discriminate|]. intros H.
  apply andb_true_iff in H as [H Hs]. apply andb_true_iff in H as [Hu Ht].
  apply Nat.eqb_eq in Hu, Ht. subst u.
  apply existsb_exists in Hs as (d' & Hin & Hd). apply Z.eqb_eq in Hd. subst d'.
  destruct (walk_sums_sound _ _ _ Hin) as (u & Hu & Hw). injection Hu as <-.
  rewrite Ht in Hw. exact Hw.
Qed.

Lemma walk_sums_complete g u t p d : walk g u t p d -> In d (walk_sums g p).
Proof.
  induction 1 as [u|u v t p w d Hin Hw IH]; [now left|].
  destruct (walk_hd _ _ _ _ _ Hw) as [q ->].
  change (walk_sums g (u :: v :: q)) with
    (flat_map (fun w => map (fun d => w + d) (walk_sums g (v :: q))) (edge_weights g u v)).
  apply in_flat_map. exists w. split; [now apply edge_weights_in|]. apply in_map. exact IH.
Qed.

Lemma walk_check_complete g s t p d : walk g s t p d -> walk_check g s t p d = true.
Proof.
  intros H. unfold walk_check. pose proof (walk_sums_complete _ _ _ _ _ H) as Hs.
  pose proof (walk_last _ _ _ _ _ H s) as Hl. destruct (walk_hd _ _ _ _ _ H) as [q ->].
  rewrite Nat.eqb_refl, Hl, Nat.eqb_refl. cbn [andb].
  apply existsb_exists. exists d. split; [exact Hs|apply Z.eqb_refl].
Qed.

Lemma last_default {A} (q : list A) d d' : q <> [] -> last q d = last q d'.
Proof.
  induction q as [|x q IH]; intros H; [congruence|].
  destruct q as [|y q]; [reflexivity|].
  change (last (x :: y :: q) d) with (last (y :: q) d). change (last (x :: y :: q) d') with (last (y :: q) d').
  apply IH. discriminate.
Qed.

Lemma is_path_single succ s : is_path succ s s [s].
Proof. repeat split; discriminate. Qed.

Lemma is_path_cons succ s v t q : In v (succ s) -> is_path succ v t (v :: q) -> is_path succ s t (s :: v :: q).
Proof.
  intros Hin (Hp & _ & Hl & _). split; [split; [exact Hin|exact Hp]|]. split; [reflexivity|]. split; [|discriminate].
  change (last (s :: v :: q) s) with (last (v :: q) s). rewrite <- Hl. apply last_default. discriminate.
Qed.

Lemma closed_reach succ (V : list nat) : (forall v, In v V -> forall x, In x (succ v) -> In x V) ->
  forall p s, In s V -> path_in succ p -> hd_error p = Some s -> In (last p s) V.
Proof.
  intros Hc. induction p as [|u p IH]; intros s Hs Hp Hh; [destruct Hp|].
  injection Hh as ->. destruct p as [|v p]; [exact Hs|].
  destruct Hp as [Huv Hp]. change (last (s :: v :: p) s) with (last (v :: p) s).
  rewrite (last_default (v :: p) s v) by discriminate.
  apply IH; [eapply Hc; eauto|exact Hp|reflexivity].
Qed.

Lemma walk_unsnoc g u t p c : walk g u t p c ->
  (p = [u] /\ t = u /\ c = 0) \/
  exists a p' c' w, p = p' ++ [t] /\ walk g u a p' c' /\ In (a, t, w) g /\ c = c' + w.
Proof.
  induction 1 as [u|u v t p w c Hin Hw IH]; [left; auto|]. right.
  destruct IH as [(-> & -> & ->)|(a & p' & c' & w' & -> & Hw' & Hin' & ->)].
  - exists u, [u], 0, w. repeat split; auto; [apply walk_nil|lia].
  - exists a, (u :: p'), (w + c'), w'. repeat split; auto; [eapply walk_cons; eauto|lia].
Qed.

Lemma walk_last_edge g u t q c : walk g u t (u :: q ++ [t]) c -> exists a w, In (a, t, w) g.
Proof.
  intros H. destruct (walk_unsnoc _ _ _ _ _ H) as [(Hp & _)|(a & p' & c' & w & _ & _ & Hin & _)]; [|eauto].
  exfalso. injection Hp as Hp. destruct q; discriminate.
Qed.

(* an entry of a distance vector or matrix (None = inf) is finite and at most c *)
Definition below (o : option Z) (c : Z) : Prop := exists x, o = Some x /\ x <= c.

Lemma below_refl x : below (Some x) x.
Proof. exists x. split; [reflexivity|lia]. Qed.

Lemma below_le o c c' : below o c -> c <= c' -> below o c'.
Proof. intros (x & Hx & Hle) Hc. exists x. split; [exact Hx|lia]. Qed.

Lemma bounds_dist g s t (o : option Z) :
  (forall x, o = Some x -> exists p, walk g s t p x) -> (forall p c, walk g s t p c -> below o c) ->
  match o with Some x => is_dist g s t x | None => ~ reachable g s t end.
Proof.
  intros Ha Hb. destruct o as [x|].
  - split; [now apply Ha|]. intros p c Hw. destruct (Hb _ _ Hw) as (y & Hy & Hyc). now injection Hy as <-.
  - intros (p & c & Hw). destruct (Hb _ _ Hw) as (y & Hy & _). discriminate.
Qed.

Lemma fold_left_pres {A B} (f : A -> B -> A) (P : A -> Prop) (l : list B) :
  (forall a b, In b l -> P a -> P (f a b)) -> forall a, P a -> P (fold_left f l a).
Proof.
  induction l as [|b l IH]; intros Hf a Ha; [exact Ha|].
  apply IH; [intros a' b' Hb'; apply Hf; now right|]. apply Hf; [now left|exact Ha].
Qed.

(* steps that keep an invariant I and only move downwards in a preorder le: so does their fold; and what the step at
   one element x0 makes of Pre (namely Post), both kept by moving downwards, holds at the end *)
Section MonotoneFold.
Context {A B : Type} (f : A -> B -> A) (I : A -> Prop) (le : A -> A -> Prop).
Hypothesis le_refl : forall a, le a a.
Hypothesis le_trans : forall a b c, le a b -> le b c -> le a c.

Lemma fold_mono (l : list B) : (forall a b, In b l -> I a -> I (f a b) /\ le (f a b) a) ->
  forall a, I a -> I (fold_left f l a) /\ le (fold_left f l a) a.
Proof.
  intros Hf a Ha. apply (fold_left_pres f (fun a' => I a' /\ le a' a)); [|split; [exact Ha|apply le_refl]].
  intros a' b Hb [HI Hle]. destruct (Hf a' b Hb HI) as [H1 H2]. split; [exact H1|eapply le_trans; eauto].
Qed.

Lemma fold_hit (Pre Post : A -> Prop) (l : list B) (x0 : B) :
  (forall a b, In b l -> I a -> I (f a b) /\ le (f a b) a) ->
  (forall a a', le a' a -> Pre a -> Pre a') -> (forall a a', le a' a -> Post a -> Post a') ->
  (forall a, I a -> Pre a -> Post (f a x0)) ->
  In x0 l -> forall a, I a -> Pre a -> Post (fold_left f l a).
Proof.
  intros Hf Hpre Hpost Hstep. induction l as [|x l IH]; intros Hin a HI HP; [destruct Hin|].
  simpl. destruct (Hf a x (or_introl eq_refl) HI) as [HI1 Hle1].
  destruct Hin as [->|Hin].
  - destruct (fold_mono l (fun a' y Hy => Hf a' y (or_intror Hy)) _ HI1) as [_ Hle2].
    eapply Hpost; [exact Hle2|]. now apply Hstep.
  - apply IH; auto.
    + intros a' y Hy. apply Hf. now right.
    + eapply Hpre; eauto.
Qed.

End MonotoneFold.

Lemma NoDup_app_l {A} (a b : list A) : NoDup (a ++ b) -> NoDup a.
Proof. induction a as [|x a IH]; intros H; [constructor|]. inversion H; subst. constructor; [rewrite in_app_iff in *; tauto|auto]. Qed.

Lemma NoDup_app_r {A} (a b : list A) : NoDup (a ++ b) -> NoDup b.
Proof. induction a as [|x a IH]; intros H; [exact H|]. inversion H; subst. auto. Qed.

Lemma NoDup_app_intro {A} (a b : list A) : NoDup a -> NoDup b -> (forall x, In x a -> ~ In x b) -> NoDup (a ++ b).
Proof.
  induction a as [|x a IH]; intros Ha Hb Hd; [exact Hb|].
  inversion Ha; subst. simpl. constructor.
  - rewrite in_app_iff. intros [H|H]; [contradiction|]. apply (Hd x); [now left|exact H].
  - apply IH; auto. intros y Hy. apply Hd. now right.
Qed.

Lemma is_dist_unique g s t x y : is_dist g s t x -> is_dist g s t y -> x = y.
Proof. intros [(p & Hp) Hx] [(q & Hq) Hy]. pose proof (Hx _ _ Hq). pose proof (Hy _ _ Hp). lia. Qed.

Lemma is_dist_reachable g s t x : is_dist g s t x -> reachable g s t.
Proof. intros [(p & Hp) _]. now exists p, x. Qed.

Lemma dist_answer_unique g s t (o1 o2 : option Z) :
  match o1 with Some x => is_dist g s t x | None => ~ reachable g s t end ->
  match o2 with Some x => is_dist g s t x | None => ~ reachable g s t end -> o1 = o2.
Proof.
  destruct o1 as [x|], o2 as [y|]; intros H1 H2; [|destruct H2|destruct H1|reflexivity].
  - f_equal. eapply is_dist_unique; eauto.
  - eapply is_dist_reachable; eauto.
  - eapply is_dist_reachable; eauto.
Qed.

Lemma in_unit_graph nodes succ u v w :
  In (u, v, w) (unit_graph nodes succ) <-> In u nodes /\ In v (succ u) /\ w = 1.
Proof.
  unfold unit_graph. rewrite in_flat_map. split.
  - intros (x & Hx & Hin). apply in_map_iff in Hin as (y & Heq & Hy). injection Heq as -> -> <-. auto.
  - intros (Hu & Hv & ->). exists u. split; [exact Hu|]. apply in_map_iff. exists v. auto.
Qed.

Lemma unit_walk_path nodes succ s t p d : walk (unit_graph nodes succ) s t p d ->
  is_path succ s t p /\ d = Z.of_nat (length p) - 1.
Proof.
  induction 1 as [u|u v t p w d Hin Hw [IHp IHd]].
  - split; [apply is_path_single|reflexivity].
  - apply in_unit_graph in Hin as (_ & Hv & ->). destruct (walk_hd _ _ _ _ _ Hw) as [q ->].
    split; [now apply is_path_cons|]. subst d. cbn [length]. lia.
Qed.

Lemma path_unit_walk nodes succ : (forall u v, In v (succ u) -> In u nodes) ->
  forall p s t, is_path succ s t p -> walk (unit_graph nodes succ) s t p (Z.of_nat (length p) - 1).
Proof.
  intros Hn. induction p as [|u p IH]; intros s t (Hp & Hh & Hl & Hne); [congruence|].
  injection Hh as ->. destruct p as [|v p].
  - simpl in Hl. subst t. apply walk_nil.
  - destruct Hp as [Huv Hp].
    replace (Z.of_nat (length (s :: v :: p)) - 1) with (1 + (Z.of_nat (length (v :: p)) - 1)) by (cbn [length]; lia).
    eapply walk_cons.
    + apply in_unit_graph. split; [eapply Hn; eauto|]. split; [exact Huv|reflexivity].
    + apply IH. split; [exact Hp|]. split; [reflexivity|]. split; [|discriminate].
      change (last (s :: v :: p) s) with (last (v :: p) s) in Hl. rewrite <- Hl. apply last_default. discriminate.
Qed.
