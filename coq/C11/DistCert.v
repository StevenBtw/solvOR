(* C11: distance certificates.  A vector d with d[s] = 0 that satisfies every edge inequality and whose
   finite entries are attained by walks IS the vector of shortest-walk distances from s, and then no
   negative cycle is reachable from s.  Used for the Coq spec checker and for the Bellman-Ford proof. *)
From Coq Require Import List ZArith Lia.
From SV Require Import C11.Paths C11.PathsLemmas.
Import ListNotations.
Local Open Scope Z_scope.

Definition dget (d : list (option Z)) (i : nat) : option Z := nth i d None.

Definition edges_le (g : wgraph) (d : list (option Z)) : Prop :=
  forall u v w du, In (u, v, w) g -> dget d u = Some du -> exists dv, dget d v = Some dv /\ dv <= du + w.

Definition attained (g : wgraph) (s : nat) (d : list (option Z)) : Prop :=
  forall v x, dget d v = Some x -> exists p, walk g s v p x.

Definition dist_vector (g : wgraph) (s : nat) (d : list (option Z)) : Prop :=
  forall v, match dget d v with Some x => is_dist g s v x | None => ~ reachable g s v end.

Lemma lower_bound g d : edges_le g d -> forall u t p c, walk g u t p c ->
  forall du, dget d u = Some du -> exists dt, dget d t = Some dt /\ dt <= du + c.
Proof.
  intros He. induction 1 as [u|u v t p w c Hin Hw IH]; intros du Hu.
  - exists du. split; [exact Hu|lia].
  - destruct (He _ _ _ _ Hin Hu) as (dv & Hv & Hle). destruct (IH dv Hv) as (dt & Ht & Hle').
    exists dt. split; [exact Ht|lia].
Qed.

Theorem cert_no_neg_cycle g s d x0 : dget d s = Some x0 -> edges_le g d -> ~ neg_cycle_reachable g s.
Proof.
  intros Hs He (v & p & c & (q & e & Hq) & Hp & Hc & _).
  destruct (lower_bound g d He _ _ _ _ Hq _ Hs) as (dv & Hv & _).
  destruct (lower_bound g d He _ _ _ _ Hp _ Hv) as (dv' & Hv' & Hle).
  rewrite Hv in Hv'. injection Hv' as <-. lia.
Qed.

Lemma cert_source_zero g s d x0 : dget d s = Some x0 -> edges_le g d -> attained g s d -> x0 <= 0 -> x0 = 0.
Proof.
  intros Hs He Ha Hle. destruct (Ha _ _ Hs) as (p & Hp).
  destruct (lower_bound g d He _ _ _ _ Hp _ Hs) as (x & Hx & Hle'). rewrite Hs in Hx. injection Hx as <-. lia.
Qed.

Theorem cert_sound g s d : dget d s = Some 0 -> edges_le g d -> attained g s d -> dist_vector g s d.
Proof.
  intros Hs He Ha v. apply bounds_dist; [apply Ha|]. intros p c Hw.
  destruct (lower_bound g d He _ _ _ _ Hw _ Hs) as (dt & Ht & Hle). exists dt. split; [exact Ht|lia].
Qed.

(* conversely the true distances satisfy the edge inequalities: this is why Bellman-Ford's detection round stays
   silent once the vector is exact *)
Lemma exact_edges_le g s d : attained g s d ->
  (forall v p c, walk g s v p c -> below (dget d v) c) -> edges_le g d.
Proof.
  intros Ha Hup u v w du Hin Hu. destruct (Ha _ _ Hu) as (p & Hp).
  destruct (Hup v (p ++ [v]) (du + w)) as (x & Hx & Hle); [eapply walk_snoc; eauto|]. eauto.
Qed.
