(* C11 floyd_warshall proofs: matrices, monotone in-place steps, the k-outermost invariant, the initial matrix,
   and the statements about FW.floyd_warshall: UNBOUNDED iff the graph has a negative closed walk; otherwise the
   matrix holds exactly the shortest-walk distances (None iff unreachable).
   up K m: m[i][j] bounds every walk i ~> j whose inner vertices are pairwise distinct and < K.
   The in-place update is handled by monotonicity: entries only decrease, so the values read during round K are
   at most the values at the start of round K. *)
From Coq Require Import List ZArith Bool Lia.
From SV Require Import C11.Paths C11.PathsLemmas C11.PathsSimple C11.FloydWarshall.
Import ListNotations.
Import FW.
Local Open Scope Z_scope.

Lemma set_nth_length {A} (x : A) : forall l i, length (set_nth i x l) = length l.
Proof. induction l as [|h t IH]; intros [|i]; simpl; auto. Qed.

Lemma nth_set_nth_eq {A} (x d : A) : forall l i, (i < length l)%nat -> nth i (set_nth i x l) d = x.
Proof. induction l as [|h t IH]; intros [|i] H; simpl in *; try lia; auto. apply IH. lia. Qed.

Lemma nth_set_nth_neq {A} (x d : A) : forall l i j, i <> j -> nth j (set_nth i x l) d = nth j l d.
Proof. induction l as [|h t IH]; intros [|i] [|j] H; simpl; auto; try congruence. Qed.

Lemma nth_map_seq {A} (f : nat -> A) n i d : (i < n)%nat -> nth i (map f (seq 0 n)) d = f i.
Proof. intros Hi. rewrite nth_indep with (d' := f 0%nat) by now rewrite map_length, seq_length. now rewrite map_nth, seq_nth. Qed.

Section Mat.
Variable n : nat.

Definition wf (m : mat) : Prop := length m = n /\ forall i, (i < n)%nat -> length (nth i m []) = n.

Lemma wf_set m i j x : wf m -> wf (set m i j x).
Proof.
  intros [Hl Hr]. unfold set. split; [now rewrite set_nth_length|].
  intros i' Hi'. destruct (Nat.eq_dec i i') as [<-|Hne].
  - rewrite nth_set_nth_eq by lia. rewrite set_nth_length. now apply Hr.
  - rewrite nth_set_nth_neq by exact Hne. now apply Hr.
Qed.

Lemma get_set_eq m i j x : wf m -> (i < n)%nat -> (j < n)%nat -> get (set m i j x) i j = x.
Proof.
  intros [Hl Hr] Hi Hj. unfold get, set. rewrite nth_set_nth_eq by lia. apply nth_set_nth_eq. rewrite Hr; lia.
Qed.

Lemma get_set_neq m i j x i' j' : (i', j') <> (i, j) -> get (set m i j x) i' j' = get m i' j'.
Proof.
  intros Hne. unfold get, set. destruct (Nat.eq_dec i i') as [<-|Hi].
  - destruct (lt_dec i (length m)) as [Hlt|Hge].
    + rewrite nth_set_nth_eq by exact Hlt. apply nth_set_nth_neq. congruence.
    + replace (set_nth i (set_nth j x (nth i m [])) m) with m; [reflexivity|].
      clear -Hge. revert i Hge. induction m as [|h t IH]; intros [|i] H; simpl in *; try reflexivity; try lia.
      f_equal. apply IH. lia.
  - now rewrite nth_set_nth_neq by exact Hi.
Qed.

Lemma wf_init : wf (init n).
Proof.
  unfold init. split; [now rewrite map_length, seq_length|]. intros i Hi.
  rewrite nth_map_seq by exact Hi. now rewrite map_length, seq_length.
Qed.

Lemma get_init i j : (i < n)%nat -> (j < n)%nat -> get (init n) i j = if Nat.eqb i j then Some 0 else None.
Proof. intros Hi Hj. unfold get, init. now rewrite !nth_map_seq. Qed.

Definition mat_le (m' m : mat) : Prop := forall i j x, get m i j = Some x -> below (get m' i j) x.

Lemma mat_le_below m m' i j c : mat_le m' m -> below (get m i j) c -> below (get m' i j) c.
Proof. intros Hle (x & Hx & Hxc). exact (below_le _ _ _ (Hle _ _ _ Hx) Hxc). Qed.

Lemma mat_le_refl m : mat_le m m.
Proof. intros i j x H. rewrite H. apply below_refl. Qed.

Lemma mat_le_trans a b c : mat_le a b -> mat_le b c -> mat_le a c.
Proof. intros H1 H2 i j x Hx. exact (mat_le_below _ _ _ _ _ H1 (H2 _ _ _ Hx)). Qed.

Lemma mat_le_set m i j x : wf m -> (i < n)%nat -> (j < n)%nat ->
  (forall y, get m i j = Some y -> x <= y) -> mat_le (set m i j (Some x)) m.
Proof.
  intros Hwf Hi Hj Hx i' j' y Hy. destruct (Nat.eq_dec i' i) as [->|Hne1].
  - destruct (Nat.eq_dec j' j) as [->|Hne2].
    + exists x. rewrite get_set_eq by assumption. split; [reflexivity|now apply Hx].
    + exists y. rewrite get_set_neq by congruence. split; [exact Hy|lia].
  - exists y. rewrite get_set_neq by congruence. split; [exact Hy|lia].
Qed.

End Mat.

Section Inv.
Variable g : wgraph.
Variable n : nat.
Hypothesis Hg : forall u v w, In (u, v, w) g -> (u < n)%nat /\ (v < n)%nat.

Definition att (m : mat) : Prop := forall i j x, get m i j = Some x -> exists p, walk g i j p x.
Definition diag (m : mat) : Prop := forall i, (i < n)%nat -> below (get m i i) 0.
Definition up (K : nat) (m : mat) : Prop :=
  forall i j q c, (i < n)%nat -> (j < n)%nat -> walk g i j (i :: q ++ [j]) c -> NoDup q ->
    (forall x, In x q -> (x < K)%nat) -> below (get m i j) c.

Definition minv (m : mat) : Prop := wf n m /\ att m.

Lemma set_minv m i j x : (i < n)%nat -> (j < n)%nat -> minv m -> (exists p, walk g i j p x) ->
  (forall y, get m i j = Some y -> x <= y) -> minv (set m i j (Some x)) /\ mat_le (set m i j (Some x)) m.
Proof.
  intros Hi Hj [Hwf Hatt] Hp Hx. split; [split; [now apply wf_set|]|now apply (mat_le_set n)].
  intros i' j' y Hy. destruct (Nat.eq_dec i' i) as [->|Hne1]; [destruct (Nat.eq_dec j' j) as [->|Hne2]|].
  - rewrite (get_set_eq n) in Hy by assumption. now injection Hy as <-.
  - rewrite get_set_neq in Hy by congruence. now apply Hatt.
  - rewrite get_set_neq in Hy by congruence. now apply Hatt.
Qed.

Lemma step_minv k i j m : (i < n)%nat -> (j < n)%nat -> minv m -> minv (step k i j m) /\ mat_le (step k i j m) m.
Proof.
  intros Hi Hj HI. unfold step.
  destruct (get m i k) as [a|] eqn:Ea; [|split; [exact HI|apply mat_le_refl]].
  destruct (get m k j) as [b|] eqn:Eb; [|split; [exact HI|apply mat_le_refl]].
  destruct (lt_inf (a + b) (get m i j)) eqn:Elt; [|split; [exact HI|apply mat_le_refl]].
  apply set_minv; auto.
  - destruct (proj2 HI _ _ _ Ea) as (p1 & Hp1). destruct (proj2 HI _ _ _ Eb) as (p2 & Hp2).
    destruct (walk_hd _ _ _ _ _ Hp2) as [q2 ->]. exists (p1 ++ q2). eapply walk_app; eauto.
  - intros y Hy. rewrite Hy in Elt. simpl in Elt. apply Z.ltb_lt in Elt. lia.
Qed.

Lemma step_bound k i j m a b : (i < n)%nat -> (j < n)%nat -> minv m ->
  below (get m i k) a -> below (get m k j) b -> below (get (step k i j m) i j) (a + b).
Proof.
  intros Hi Hj [Hwf _] (a' & Ha & Hale) (b' & Hb & Hble). unfold step. rewrite Ha, Hb.
  destruct (lt_inf (a' + b') (get m i j)) eqn:Elt.
  - exists (a' + b'). rewrite (get_set_eq n) by assumption. split; [reflexivity|lia].
  - destruct (get m i j) as [y|]; [|discriminate]. simpl in Elt. apply Z.ltb_ge in Elt. exists y. split; [reflexivity|lia].
Qed.

Lemma loop_j_minv k i m : (i < n)%nat -> minv m -> minv (loop_j n k i m) /\ mat_le (loop_j n k i m) m.
Proof.
  intros Hi. unfold loop_j. apply (fold_mono _ _ _ mat_le_refl mat_le_trans). intros m0 j Hj HI. apply in_seq in Hj. apply step_minv; auto; lia.
Qed.

Lemma loop_i_minv k m : minv m -> minv (loop_i n k m) /\ mat_le (loop_i n k m) m.
Proof.
  unfold loop_i. apply (fold_mono _ _ _ mat_le_refl mat_le_trans). intros m0 i Hi HI. apply in_seq in Hi. apply loop_j_minv; auto; lia.
Qed.

Lemma loop_k_minv m : minv m -> minv (loop_k n m) /\ mat_le (loop_k n m) m.
Proof. unfold loop_k. apply (fold_mono _ _ _ mat_le_refl mat_le_trans). intros m0 k _ HI. now apply loop_i_minv. Qed.

(* the entry (i,j) after round k is at most (start value of [i][k]) + (start value of [k][j]) *)
Lemma loop_i_bound k i j m a b : (i < n)%nat -> (j < n)%nat -> minv m ->
  below (get m i k) a -> below (get m k j) b -> below (get (loop_i n k m) i j) (a + b).
Proof.
  intros Hi Hj HI Ha Hb.
  set (Pre := fun m : mat => below (get m i k) a /\ below (get m k j) b).
  set (Post := fun m : mat => below (get m i j) (a + b)).
  assert (Hpre : forall m m', mat_le m' m -> Pre m -> Pre m')
    by (intros m0 m' Hle [H1 H2]; split; eapply mat_le_below; eauto).
  assert (Hpost : forall m m', mat_le m' m -> Post m -> Post m')
    by (intros m0 m' Hle H; eapply mat_le_below; eauto).
  unfold loop_i.
  apply (fold_hit (fun m i => loop_j n k i m) minv _ mat_le_refl mat_le_trans Pre Post (seq 0 n) i); auto.
  - intros m0 i0 Hi0 HI0. apply in_seq in Hi0. apply loop_j_minv; auto; lia.
  - intros m0 HI0 HP0. unfold loop_j.
    apply (fold_hit (fun m j => step k i j m) minv _ mat_le_refl mat_le_trans Pre Post (seq 0 n) j); auto.
    + intros m1 j1 Hj1 HI1. apply in_seq in Hj1. apply step_minv; auto; lia.
    + intros m1 HI1 [Ha1 Hb1]. now apply step_bound.
    + apply in_seq. lia.
  - apply in_seq. lia.
  - split; assumption.
Qed.

(* one round of the outer loop extends the set of allowed inner vertices by k *)
Lemma loop_i_up k m : minv m -> up k m -> up (S k) (loop_i n k m).
Proof.
  intros HI Hu i j q c Hi Hj Hw Hnd Hq.
  destruct (loop_i_minv k m HI) as [_ Hle].
  destruct (in_dec Nat.eq_dec k q) as [Hin|Hnin].
  - apply in_split in Hin as (q1 & q2 & ->).
    assert (Hk1 : ~ In k q1 /\ ~ In k q2).
    { apply NoDup_remove_2 in Hnd. rewrite in_app_iff in Hnd. tauto. }
    assert (Hnd12 : NoDup q1 /\ NoDup q2).
    { apply NoDup_remove_1 in Hnd. split; [eapply NoDup_app_l|eapply NoDup_app_r]; eauto. }
    assert (Hlt : forall x, In x q1 \/ In x q2 -> (x < k)%nat).
    { intros x Hx. assert (x <> k) by (intros ->; tauto).
      assert (x < S k)%nat by (apply Hq; rewrite in_app_iff; simpl; tauto). lia. }
    replace (i :: (q1 ++ k :: q2) ++ [j]) with ((i :: q1) ++ k :: (q2 ++ [j])) in Hw
      by (simpl; rewrite <- app_assoc; reflexivity).
    apply walk_split in Hw as (c1 & c2 & Hw1 & Hw2 & ->).
    assert (Hkn : (k < n)%nat).
    { destruct (walk_last_edge _ _ _ _ _ Hw1) as (a & w & Hin). now apply Hg in Hin. }
    apply loop_i_bound; auto.
    + exact (Hu i k q1 c1 Hi Hkn Hw1 (proj1 Hnd12) (fun x Hx => Hlt x (or_introl Hx))).
    + exact (Hu k j q2 c2 Hkn Hj Hw2 (proj2 Hnd12) (fun x Hx => Hlt x (or_intror Hx))).
  - apply (mat_le_below _ _ _ _ _ Hle), (Hu i j q c); auto.
    intros x Hx. assert (x <> k) by (intros ->; contradiction). specialize (Hq x Hx). lia.
Qed.

Lemma loop_k_up m : minv m -> up 0 m -> up n (loop_k n m).
Proof.
  intros HI Hu. unfold loop_k.
  assert (H : forall K, minv (fold_left (fun m k => loop_i n k m) (seq 0 K) m) /\
                        up K (fold_left (fun m k => loop_i n k m) (seq 0 K) m)); [|apply H].
  induction K as [|K [IH1 IH2]]; [now split|]. rewrite seq_S, fold_left_app. simpl.
  split; [now apply loop_i_minv|now apply loop_i_up].
Qed.

End Inv.

Lemma get_oob n m i j : wf n m -> ~ ((i < n)%nat /\ (j < n)%nat) -> get m i j = None.
Proof.
  intros [Hl Hr] H. unfold get. destruct (lt_dec i n) as [Hi|Hi].
  - apply nth_overflow. rewrite Hr by exact Hi. lia.
  - rewrite (nth_overflow m) by lia. now destruct j.
Qed.

Lemma in_sym a b w edges : In (a, b, w) (sym edges) <-> In (a, b, w) edges \/ In (b, a, w) edges.
Proof.
  unfold sym. rewrite in_flat_map. split.
  - intros ([[u v] w'] & Hin & [H|[H|[]]]); injection H as <- <- <-; auto.
  - intros [H|H]; [exists (a, b, w)|exists (b, a, w)]; simpl; auto.
Qed.

(* the initialisation writes one arc at a time: both arcs of an edge when directed = False *)
Definition add_arc (m : mat) (e : nat * nat * Z) : mat :=
  let '(u, v, w) := e in set m u v (min_inf (get m u v) w).

Lemma init_edges_arcs directed : forall es m,
  fold_left (add_edge directed) es m = fold_left add_arc (graph_of es directed) m.
Proof.
  induction es as [|[[u v] w] es IH]; intros m; [now destruct directed|].
  destruct directed; simpl; rewrite IH; reflexivity.
Qed.

Section Init.
Variable g : wgraph.
Variable n : nat.
Hypothesis Hg : forall u v w, In (u, v, w) g -> (u < n)%nat /\ (v < n)%nat.

Notation minv := (minv g n).

Lemma add_arc_minv m u v w : In (u, v, w) g -> minv m ->
  let m1 := add_arc m (u, v, w) in minv m1 /\ mat_le m1 m /\ below (get m1 u v) w.
Proof.
  intros Hin HI. destruct (Hg _ _ _ Hin) as [Hu Hv]. unfold add_arc. cbv zeta.
  set (x := match get m u v with None => w | Some y => Z.min y w end).
  assert (Hm : min_inf (get m u v) w = Some x) by (unfold min_inf, x; destruct (get m u v); reflexivity).
  rewrite Hm. destruct (set_minv g n m u v x Hu Hv HI) as [H1 H2].
  - unfold x. destruct (get m u v) as [y|] eqn:Ey; [|exists [u; v]; now apply walk_one].
    destruct (Z.min_spec y w) as [[_ ->]|[_ ->]]; [now apply (proj2 HI)|exists [u; v]; now apply walk_one].
  - intros y Hy. unfold x. rewrite Hy. lia.
  - split; [exact H1|]. split; [exact H2|]. exists x. rewrite (get_set_eq n) by (assumption || apply HI).
    split; [reflexivity|]. unfold x. destruct (get m u v); lia.
Qed.

Lemma arcs_minv m : minv m ->
  let m' := fold_left add_arc g m in minv m' /\ mat_le m' m /\ forall a b c, In (a, b, c) g -> below (get m' a b) c.
Proof.
  intros HI.
  assert (Hstep : forall m0 e, In e g -> minv m0 -> minv (add_arc m0 e) /\ mat_le (add_arc m0 e) m0).
  { intros m0 [[u v] w] He H0. destruct (add_arc_minv m0 u v w He H0) as (H1 & H2 & _). now split. }
  destruct (fold_mono add_arc minv mat_le mat_le_refl mat_le_trans g Hstep m HI) as [H1 H2].
  split; [exact H1|]. split; [exact H2|]. intros a b c Hin.
  apply (fold_hit add_arc minv mat_le mat_le_refl mat_le_trans (fun _ => True) (fun m0 => below (get m0 a b) c) g (a, b, c));
    auto.
  - intros m0 m1 Hle. apply mat_le_below, Hle.
  - intros m0 H0 _. apply (add_arc_minv m0 a b c Hin H0).
Qed.

Lemma init_minv : minv (init n) /\ diag n (init n).
Proof.
  split; [split; [apply wf_init|]|].
  - intros i j x Hx. destruct (lt_dec i n) as [Hi|Hi]; [destruct (lt_dec j n) as [Hj|Hj]|].
    + rewrite get_init in Hx by assumption. destruct (Nat.eqb i j) eqn:E; [|discriminate].
      apply Nat.eqb_eq in E. subst j. injection Hx as <-. exists [i]. apply walk_nil.
    + rewrite (get_oob n) in Hx; [discriminate|apply wf_init|tauto].
    + rewrite (get_oob n) in Hx; [discriminate|apply wf_init|tauto].
  - intros i Hi. exists 0. rewrite get_init by assumption. rewrite Nat.eqb_refl. split; [reflexivity|lia].
Qed.

End Init.

Lemma valid_input_graph n edges directed : valid_input n edges = true ->
  forall u v w, In (u, v, w) (graph_of edges directed) -> (u < n)%nat /\ (v < n)%nat.
Proof.
  unfold valid_input. intros H. apply andb_true_iff in H as [_ H]. rewrite forallb_forall in H.
  assert (He : forall u v w, In (u, v, w) edges -> (u < n)%nat /\ (v < n)%nat).
  { intros u v w Hin. specialize (H _ Hin). simpl in H. apply andb_true_iff in H as [H1 H2].
    apply Nat.ltb_lt in H1, H2. now split. }
  intros u v w Hin. destruct directed; simpl in Hin; [now apply He in Hin|].
  apply in_sym in Hin as [Hin|Hin]; apply He in Hin; tauto.
Qed.

Section Final.
Variable n : nat.
Variable edges : wgraph.
Variable directed : bool.
Hypothesis Hv : valid_input n edges = true.

Let g := graph_of edges directed.
Let m := final n edges directed.

Let Hrange : forall u v w, In (u, v, w) g -> (u < n)%nat /\ (v < n)%nat :=
  valid_input_graph n edges directed Hv.

Lemma final_facts : minv g n m /\ diag n m /\ up g n n m.
Proof.
  unfold m, final, init_edges.
  destruct (init_minv g n) as [HI0 Hd0].
  rewrite init_edges_arcs. fold g.
  destruct (arcs_minv g n Hrange (init n) HI0) as (HI1 & Hle1 & He1).
  set (m0 := fold_left add_arc g (init n)) in *.
  assert (Hup0 : up g n 0 m0).
  { intros i j q c Hi Hj Hw Hnd Hq. destruct q as [|x q]; [|specialize (Hq x (or_introl eq_refl)); lia].
    simpl in Hw. inversion Hw as [|u v t p w d Hin Hr]; subst. inversion Hr; subst.
    - apply (below_le _ _ _ (He1 _ _ _ Hin)). lia.
    - match goal with Hx : walk _ _ _ [] _ |- _ => inversion Hx end. }
  destruct (loop_k_minv g n m0 HI1) as [HI2 Hle2].
  split; [exact HI2|]. split.
  - intros i Hi. exact (mat_le_below _ _ _ _ _ Hle2 (mat_le_below _ _ _ _ _ Hle1 (Hd0 i Hi))).
  - exact (loop_k_up g n Hrange m0 HI1 Hup0).
Qed.

Lemma final_bounds_simple i j p c : (i < n)%nat -> walk g i j p c -> NoDup p -> below (get m i j) c.
Proof.
  intros Hi Hw Hnd. destruct final_facts as (HI & Hd & Hup).
  destruct (walk_unsnoc _ _ _ _ _ Hw) as [(-> & -> & ->)|(a & p' & c' & w & -> & Hw' & Hin & ->)].
  - apply Hd. exact Hi.
  - destruct (walk_hd _ _ _ _ _ Hw') as [q Hq]. subst p'.
    apply (Hup i j q (c' + w)); auto.
    + now apply Hrange in Hin.
    + simpl in Hnd. inversion Hnd; subst. eapply NoDup_app_l; eauto.
    + intros x Hx. eapply (walk_bounded g n Hrange _ _ _ _ Hw' Hi). now right.
Qed.

Lemma neg_diag_true_iff : neg_diag n m = true <-> neg_cycle g.
Proof.
  destruct final_facts as ([Hwf Hatt] & Hd & Hup). unfold neg_diag. rewrite existsb_exists. split.
  - intros (i & Hi & Hx). destruct (get m i i) as [x|] eqn:E; [|discriminate]. apply Z.ltb_lt in Hx.
    destruct (Hatt _ _ _ E) as (p & Hp). exists i, p, x. repeat split; auto. eapply walk_neg_long; eauto.
  - intros Hneg. destruct (neg_cycle_has_simple g Hneg) as (v & p & c & [Hw (q & -> & Hnd)] & Hc).
    assert (Hvn : (v < n)%nat).
    { destruct (walk_last_edge _ _ _ _ _ Hw) as (a & w & Hin). now apply Hrange in Hin. }
    destruct (Hup v v q c Hvn Hvn Hw) as (x & Hx & Hxc).
    + now inversion Hnd.
    + intros x Hx. eapply (walk_bounded g n Hrange _ _ _ _ Hw Hvn). right. apply in_app_iff. now left.
    + exists v. split; [apply in_seq; lia|]. rewrite Hx. apply Z.ltb_lt. lia.
Qed.

Lemma final_dist : neg_diag n m = false -> forall i j, (i < n)%nat ->
  match get m i j with Some x => is_dist g i j x | None => ~ reachable g i j end.
Proof.
  intros Hnd i j Hi. destruct final_facts as ([Hwf Hatt] & Hd & Hup).
  assert (Hnn : ~ neg_cycle g).
  { intros H. apply neg_diag_true_iff in H. congruence. }
  assert (Hnr : ~ neg_cycle_reachable g i).
  { intros (v & p & c & _ & Hw & Hc & Hl). apply Hnn. exists v, p, c. auto. }
  apply bounds_dist; [intros x; apply Hatt|]. intros p c Hw.
  destruct (walk_to_simple g i j p c Hnr Hw) as (p' & c' & Hw' & Hle & Hnd').
  exact (below_le _ _ _ (final_bounds_simple i j p' c' Hi Hw' Hnd') Hle).
Qed.

End Final.

Lemma fw_valid_input_intro n g : (0 < n)%nat -> (forall u v w, In (u, v, w) g -> (u < n)%nat /\ (v < n)%nat) ->
  valid_input n g = true.
Proof.
  intros Hn Hg. unfold valid_input. apply andb_true_iff. split; [now apply Nat.ltb_lt|].
  apply forallb_forall. intros [[u v] w] Hin. destruct (Hg _ _ _ Hin). simpl. apply andb_true_iff. split; now apply Nat.ltb_lt.
Qed.

Lemma fw_run n edges directed : valid_input n edges = true ->
  floyd_warshall n edges directed =
  if neg_diag n (final n edges directed) then Unbounded else Dist (final n edges directed).
Proof. unfold floyd_warshall. now intros ->. Qed.

Lemma fw_dist_inv n edges directed mt : floyd_warshall n edges directed = Dist mt ->
  valid_input n edges = true /\ neg_diag n (final n edges directed) = false /\ mt = final n edges directed.
Proof.
  unfold floyd_warshall. destruct (valid_input n edges); [|discriminate]. simpl.
  destruct (neg_diag n (final n edges directed)); [discriminate|]. intros H. injection H as <-. auto.
Qed.

Theorem fw_unbounded_iff n edges directed : valid_input n edges = true ->
  (floyd_warshall n edges directed = Unbounded <-> neg_cycle (graph_of edges directed)).
Proof.
  intros Hv. rewrite (fw_run _ _ _ Hv), <- (neg_diag_true_iff n edges directed Hv).
  destruct (neg_diag n (final n edges directed)); split; intros H; auto; discriminate.
Qed.

Theorem fw_dist n edges directed mt : floyd_warshall n edges directed = Dist mt ->
  forall i j, (i < n)%nat ->
  match get mt i j with
  | Some x => is_dist (graph_of edges directed) i j x
  | None => ~ reachable (graph_of edges directed) i j
  end.
Proof. intros H. destruct (fw_dist_inv _ _ _ _ H) as (Hv & Hn & ->). intros i j Hi. now apply final_dist. Qed.

Theorem fw_dist_no_neg_cycle n edges directed mt : floyd_warshall n edges directed = Dist mt ->
  ~ neg_cycle (graph_of edges directed).
Proof.
  intros H. destruct (fw_dist_inv _ _ _ _ H) as (Hv & Hn & _). intros Hc.
  apply (neg_diag_true_iff n edges directed Hv) in Hc. congruence.
Qed.

Theorem fw_no_neg_dist n edges directed : valid_input n edges = true -> ~ neg_cycle (graph_of edges directed) ->
  exists m, floyd_warshall n edges directed = Dist m.
Proof.
  intros Hv Hn. rewrite (fw_run _ _ _ Hv). destruct (neg_diag n (final n edges directed)) eqn:E; [|eauto].
  destruct Hn. now apply (neg_diag_true_iff n edges directed Hv).
Qed.
