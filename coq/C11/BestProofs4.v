(* C11 part B - optimality and bounded suboptimality of the generic closed-set (no re-opening) best-first loop
   (Dijkstra, A* and its weighted form): for non-negative weights, a consistent heuristic h (h(u) <= w(u,v) + h(v),
   h(goal) = 0) and heap priority g + sc (h v), where sc is an additive, monotone "scaling" with a <= sc a for
   a >= 0 (sc x = weight * x, weight >= 1; the identity for weight 1), the reported objective is <= sc d for every
   walk of weight d from the start to any goal node (with sc d within max_cost, if given), and INFEASIBLE means
   there is no such walk.  Invariant: every closed node u has g[u] <= sc d for every such walk start -> u.
   Generic in the cost type (ordered_costs) and the heap key. *)
From Coq Require Import List ZArith Bool Arith Lia Sorted.
From SV Require Import C11.BestFirst C11.BestSpec C11.BestOrder C11.BestProofs1.
Import ListNotations.

(* The sorted-list heap: ordered insertion keeps the list sorted, so the head (heappop) is a minimum of the key
   order.  Generic in the key type (strict weak order on keys, ties broken by the unique counter). *)
Section Heap.
  Context {N K : Type}.
  Variable kltb : K -> K -> bool.
  Hypothesis KO : key_order kltb.

  Notation entry := (@entry N K).
  Notation eltb := (@entry_ltb N K kltb).

  Definition ele (a b : entry) : Prop := eltb b a = false.

  (* the order of heap entries is the lexicographic product of the key order and < on the counters *)
  Let entry_order := lex_key_order kltb Nat.ltb KO nat_ltb_key_order.

  Lemma eltb_asym : forall a b : entry, eltb a b = true -> eltb b a = false.
  Proof. intros [[ka ca] na] [[kb cb] nb]. apply (ko_asym _ entry_order (ka, ca) (kb, cb)). Qed.

  Lemma eltb_trans : forall a b c : entry, eltb a b = true -> eltb b c = true -> eltb a c = true.
  Proof. intros [[ka ca] na] [[kb cb] nb] [[kc cc] nc]. apply (ko_trans _ entry_order (ka, ca) (kb, cb) (kc, cc)). Qed.

  Lemma hinsert_sorted : forall (e : entry) h, StronglySorted ele h -> StronglySorted ele (hinsert kltb e h).
  Proof.
    intros e h H. induction H as [|x h Hs IH Hf]; simpl.
    - constructor; constructor.
    - destruct (eltb e x) eqn:E.
      + constructor; [constructor; assumption|].
        constructor.
        * unfold ele. apply eltb_asym. assumption.
        * rewrite Forall_forall in *. intros y Hy. unfold ele.
          destruct (eltb y e) eqn:Ey; [|reflexivity].
          pose proof (eltb_trans _ _ _ Ey E) as Hyx. specialize (Hf _ Hy). unfold ele in Hf. congruence.
      + constructor; [assumption|].
        rewrite Forall_forall in *. intros y Hy. apply hinsert_In in Hy. destruct Hy as [Hy|Hy].
        * subst. exact E.
        * apply Hf. assumption.
  Qed.

  Lemma sorted_tail : forall (x : entry) h, StronglySorted ele (x :: h) -> StronglySorted ele h.
  Proof. intros x h H. inversion H; assumption. Qed.

  Lemma sorted_head_min : forall k c v h k' c' v',
    StronglySorted ele ((k, c, v) :: h) -> In (k', c', v') ((k, c, v) :: h) -> kltb k' k = false.
  Proof.
    intros k c v h k' c' v' H Hin. inversion H as [|x l Hs Hf]; subst.
    destruct Hin as [E|Hin].
    - inversion E; subst. destruct (kltb k' k') eqn:E1; [|reflexivity].
      rewrite (ko_asym _ KO _ _ E1) in E1. discriminate.
    - rewrite Forall_forall in Hf. specialize (Hf _ Hin). unfold ele, entry_ltb in Hf.
      destruct (kltb k' k); [discriminate|reflexivity].
  Qed.
End Heap.

Section Opt.
  Context {N C K : Type}.
  Variable neqb : N -> N -> bool.
  Hypothesis neqb_spec : forall a b, neqb a b = true <-> a = b.
  Variable czero : C.
  Variable cadd : C -> C -> C.
  Variable cltb : C -> C -> bool.
  Hypothesis OC : ordered_costs czero cadd cltb.
  Variable kltb : K -> K -> bool.
  Hypothesis KO : key_order kltb.
  Variable mkkey : C -> N -> K.
  Variable limit_of : K -> C -> C.
  Variable found_status : status.
  Variable nbrs : N -> list (N * C).
  Variable is_goal : N -> bool.
  Variable max_iter : Z.
  Variable max_cost : option C.
  Variable start : N.

  Notation le := (cle cltb).
  Variable h : N -> C.                  (* the heuristic *)
  Variable sc : C -> C.                 (* multiplication by the weight *)
  Variable fv : K -> C.                 (* the f-value stored in a key *)
  Hypothesis K_fv : forall a b, kltb a b = false -> le (fv b) (fv a).
  Hypothesis K_mk : forall t v, fv (mkkey t v) = cadd t (sc (h v)).
  Hypothesis H_lim : forall k gcur v, le (fv k) (cadd gcur (sc (h v))) -> le (limit_of k gcur) gcur.
  Hypothesis nonneg : forall u v w, In (v, w) (nbrs u) -> le czero w.
  Hypothesis consistent : forall u v w, In (v, w) (nbrs u) -> le (h u) (cadd w (h v)).
  Hypothesis goal_h : forall t, is_goal t = true -> h t = czero.
  Hypothesis sc_add : forall a b, sc (cadd a b) = cadd (sc a) (sc b).
  Hypothesis sc_mono : forall a b, le a b -> le (sc a) (sc b).
  Hypothesis sc_ge : forall a, le czero a -> le a (sc a).
  Hypothesis sc_zero : sc czero = czero.

  Notation lw := (lwalk cadd nbrs).
  Notation st := (@st N C K).
  Notation relax := (relax neqb cadd cltb kltb mkkey).
  Notation expand := (expand neqb cadd cltb kltb mkkey nbrs).
  Notation loop := (loop neqb cadd cltb kltb mkkey limit_of found_status nbrs is_goal max_iter max_cost).
  Notation lk := (lookup neqb).
  Notation mem := (memb neqb).
  Notation sorted := (StronglySorted (@ele N K kltb)).
  Notation inv1 := (inv1 neqb czero cadd mkkey nbrs start).

  Ltac ssimpl := cbn [s_g s_parent s_closed s_counter s_heap s_evals].

  Let le_refl := cle_refl czero cadd cltb OC.
  Let le_trans := cle_trans czero cadd cltb OC.

  Definition within (d : C) : Prop := match max_cost with None => True | Some mc => le d mc end.

  Lemma within_le : forall a d, le a d -> within d -> within a.
  Proof. unfold within. intros a d H W. destruct max_cost; [eapply le_trans; eassumption|exact I]. Qed.

  Lemma lw_mono : forall u a q t d, lw u a q t d -> le a d.
  Proof.
    intros u a q t d H. induction H as [u a|u a v w q t d Hin Hw IH]; [apply le_refl|].
    eapply le_trans; [|exact IH]. apply (cle_add_nonneg czero cadd cltb OC). eapply nonneg; eassumption.
  Qed.

  Lemma lw_consistent : forall u a q t d, lw u a q t d -> le (cadd a (h u)) (cadd d (h t)).
  Proof.
    intros u a q t d H. induction H as [u a|u a v w q t d Hin Hw IH]; [apply le_refl|].
    eapply le_trans; [|exact IH]. rewrite (oc_assoc _ _ _ OC).
    apply (cle_add_l czero cadd cltb OC). eapply consistent; eassumption.
  Qed.

  Lemma step_sc : forall gu a w, le gu (sc a) -> le czero w -> le (cadd gu w) (sc (cadd a w)).
  Proof.
    intros gu a w H Hw. rewrite sc_add. eapply le_trans.
    - apply (cle_add_r czero cadd cltb OC). exact H.
    - apply (cle_add_l czero cadd cltb OC). apply sc_ge. assumption.
  Qed.

  (* what the order adds to inv1: the g of a closed node is a lower bound (up to sc) for every walk to it, the neighbours
     of an expanded node are closed or have a g at most one edge above it, heap keys are not below the g of their node,
     the heap is sorted; [ex]: the node being expanded, whose neighbours are not all relaxed yet *)
  Record inv3 (ex : option N) (s : st) : Prop := {
    o_opt : forall u gu, mem u (s_closed s) = true -> lk u (s_g s) = Some gu ->
              forall q d, lw start czero q u d -> within (sc d) -> le gu (sc d);
    o_goal : forall u, mem u (s_closed s) = true -> is_goal u = false;
    o_exp : forall u gu, mem u (s_closed s) = true -> Some u <> ex -> lk u (s_g s) = Some gu -> within gu ->
              forall v w, In (v, w) (nbrs u) ->
                mem v (s_closed s) = true \/ exists gv, lk v (s_g s) = Some gv /\ le gv (cadd gu w);
    o_heap : forall k c v, In (k, c, v) (s_heap s) ->
              exists t gv, k = mkkey t v /\ lk v (s_g s) = Some gv /\ le gv t;
    o_sorted : sorted (s_heap s)
  }.

  (* every walk (within the budget) to an unclosed node passes an unclosed node y whose g is at most sc of the
     weight of the walk's prefix up to y *)
  Lemma frontier : forall s, inv1 s -> inv3 None s ->
    forall u a q t d, lw u a q t d ->
    forall q0, lw start czero q0 u a -> (exists gu, lk u (s_g s) = Some gu /\ le gu (sc a)) ->
    within (sc d) -> mem t (s_closed s) = false ->
    exists y gy a' q', mem y (s_closed s) = false /\ lk y (s_g s) = Some gy /\ le gy (sc a') /\ lw y a' q' t d.
  Proof.
    intros s I1 I u a q t d H. induction H as [u a|u a v w q t d Hin Hw IH]; intros q0 Hpre [gu [Hgu Hle]] W Ht.
    - exists u, gu, a, []. repeat split; try assumption. constructor.
    - destruct (mem u (s_closed s)) eqn:Eu.
      + pose proof (lw_mono _ _ _ _ _ Hw) as Hawd.
        assert (Hw0 : le czero w) by (eapply nonneg; eassumption).
        assert (Haw : le a (cadd a w)) by (apply (cle_add_nonneg czero cadd cltb OC); assumption).
        assert (Wgu : within gu).
        { eapply within_le; [|exact W]. eapply le_trans; [exact Hle|]. apply sc_mono. eapply le_trans; eassumption. }
        assert (Hpre' : lw start czero (q0 ++ [v]) v (cadd a w)) by (eapply lw_snoc; eassumption).
        apply (IH (q0 ++ [v]) Hpre'); try assumption.
        assert (Hnone : Some u <> None) by discriminate.
        destruct (o_exp _ _ I u gu Eu Hnone Hgu Wgu v w Hin) as [Hvc|[gv [Hgv Hlev]]].
        * destruct (i_cg _ _ _ _ _ _ _ I1 v Hvc) as [gv Hgv]. exists gv. split; [assumption|].
          eapply (o_opt _ _ I v gv Hvc Hgv); [exact Hpre'|]. eapply within_le; [|exact W]. apply sc_mono. assumption.
        * exists gv. split; [assumption|]. eapply le_trans; [exact Hlev|]. apply step_sc; assumption.
      + exists u, gu, a, (v :: q). repeat split; try assumption. econstructor; eassumption.
  Qed.

  Lemma frontier_start : forall s, inv1 s -> inv3 None s ->
    forall q t d, lw start czero q t d -> within (sc d) -> mem t (s_closed s) = false ->
    exists y gy a' q', mem y (s_closed s) = false /\ lk y (s_g s) = Some gy /\ le gy (sc a') /\ lw y a' q' t d.
  Proof.
    intros s I1 I q t d Hw W Ht. eapply (frontier s I1 I _ _ _ _ _ Hw []); try assumption.
    - constructor.
    - exists czero. split; [apply (i_start_g _ _ _ _ _ _ _ I1)|]. rewrite sc_zero. apply le_refl.
  Qed.

  Section Pop.
    Variable s : st.
    Hypothesis I1 : inv1 s.
    Hypothesis I : inv3 None s.
    Variables (k : K) (c : nat) (cur : N) (h' : list (@entry N K)).
    Hypothesis Eh : s_heap s = (k, c, cur) :: h'.

    Lemma pop_min : forall y gy, mem y (s_closed s) = false -> lk y (s_g s) = Some gy -> le (fv k) (cadd gy (sc (h y))).
    Proof.
      intros y gy Hy Hgy. destruct (i_cur _ _ _ _ _ _ _ I1 y gy Hy Hgy) as [c' Hin].
      rewrite <- K_mk. apply K_fv. rewrite Eh in Hin.
      eapply (sorted_head_min kltb KO); [|exact Hin]. rewrite <- Eh. apply (o_sorted _ _ I).
    Qed.

    Lemma pop_walk : forall q t d, lw start czero q t d -> within (sc d) -> mem t (s_closed s) = false ->
      le (fv k) (cadd (sc d) (sc (h t))).
    Proof.
      intros q t d Hw W Ht.
      destruct (frontier_start s I1 I q t d Hw W Ht) as [y [gy [a' [q' [Hy [Hgy [Hle Hw']]]]]]].
      eapply le_trans; [apply (pop_min y gy Hy Hgy)|].
      eapply le_trans; [apply (cle_add_r czero cadd cltb OC); exact Hle|].
      rewrite <- !sc_add. apply sc_mono. apply (lw_consistent _ _ _ _ _ Hw').
    Qed.

    Lemma pop_key : forall gcur, lk cur (s_g s) = Some gcur -> le (cadd gcur (sc (h cur))) (fv k).
    Proof.
      intros gcur Hg. destruct (o_heap _ _ I k c cur) as [t [gv [Hk [Hgv Hle]]]]; [rewrite Eh; left; reflexivity|].
      rewrite Hg in Hgv. inversion Hgv; subst gv. rewrite Hk, K_mk.
      apply (cle_add_r czero cadd cltb OC). assumption.
    Qed.

    Lemma pop_opt : forall gcur, lk cur (s_g s) = Some gcur -> mem cur (s_closed s) = false ->
      forall q d, lw start czero q cur d -> within (sc d) -> le gcur (sc d).
    Proof.
      intros gcur Hg Hc q d Hw W. apply (cle_cancel_r czero cadd cltb OC _ _ (sc (h cur))).
      eapply le_trans; [apply pop_key; assumption|]. eapply pop_walk; eassumption.
    Qed.

    Lemma pop_goal_opt : forall gcur, lk cur (s_g s) = Some gcur -> is_goal cur = true ->
      forall t q d, is_goal t = true -> lw start czero q t d -> within (sc d) -> le gcur (sc d).
    Proof.
      intros gcur Hg Hgoal t q d Ht Hw W.
      assert (Htc : mem t (s_closed s) = false).
      { destruct (mem t (s_closed s)) eqn:E; [|reflexivity]. rewrite (o_goal _ _ I t E) in Ht. discriminate. }
      pose proof (pop_key gcur Hg) as H1. pose proof (pop_walk q t d Hw W Htc) as H2.
      rewrite (goal_h _ Hgoal), sc_zero, (oc_zero _ _ _ OC) in H1.
      rewrite (goal_h _ Ht), sc_zero, (oc_zero _ _ _ OC) in H2.
      eapply le_trans; eassumption.
    Qed.

    Lemma pop_limit : forall gcur, lk cur (s_g s) = Some gcur -> mem cur (s_closed s) = false ->
      over_limit cltb limit_of max_cost k gcur = true -> within gcur -> False.
    Proof.
      intros gcur Hg Hc Ho W. unfold over_limit in Ho. unfold within in W. destruct max_cost as [mc|]; [|discriminate].
      assert (H1 : le (limit_of k gcur) gcur) by (eapply H_lim; apply pop_min; eassumption).
      pose proof (clt_cle_trans czero cadd cltb OC _ _ _ Ho H1) as H2. unfold cle in W. congruence.
    Qed.

    Lemma pop_skip : inv3 None (popped s h').
    Proof.
      destruct I as [O1 Og O3 Hh Hs]. constructor; ssimpl; try assumption.
      - (* o_heap *) intros k' c' v Hin. apply (Hh k' c' v). rewrite Eh. right. assumption.
      - (* o_sorted *) rewrite Eh in Hs. eapply sorted_tail. eassumption.
    Qed.

    Lemma pop_close : forall gcur, mem cur (s_closed s) = false -> lk cur (s_g s) = Some gcur -> is_goal cur = false ->
      inv3 (Some cur) (closing s cur h').
    Proof.
      intros gcur Hc Hg Hgoal. pose proof (pop_opt gcur Hg Hc) as Hopt.
      destruct I as [O1 Og O3 Hh Hs]. constructor; ssimpl.
      - intros u gu Hu Hgu. destruct (memb_cons_true neqb neqb_spec _ _ _ Hu) as [->|Hu'].
        + rewrite Hg in Hgu. inversion Hgu; subst. assumption.
        + apply O1; assumption.
      - intros u Hu. destruct (memb_cons_true neqb neqb_spec _ _ _ Hu) as [->|Hu'].
        + assumption.
        + apply Og; assumption.
      - intros u gu Hu Hne Hgu W v w Hin. destruct (memb_cons_true neqb neqb_spec _ _ _ Hu) as [->|Hu'].
        + congruence.
        + assert (Hnone : Some u <> None) by discriminate.
          destruct (O3 u gu Hu' Hnone Hgu W v w Hin) as [Hv|Hv]; [left; apply memb_cons; assumption|right; assumption].
      - intros k' c' v Hin. apply (Hh k' c' v). rewrite Eh. right. assumption.
      - rewrite Eh in Hs. eapply sorted_tail. eassumption.
    Qed.
  End Pop.

  (* a closed node over the budget needs no expansion *)
  Lemma over_budget_inv3 : forall s cur gcur,
    inv3 (Some cur) s -> lk cur (s_g s) = Some gcur -> (within gcur -> False) -> inv3 None s.
  Proof.
    intros s cur gcur [O1 Og O3 Hh Hs] Hg Hw. constructor; try assumption.
    (* o_exp, also for cur, which is over the budget *)
    intros u gu Hu _ Hgu W v w Hin. destruct (eqb_dec neqb neqb_spec u cur) as [E|E].
    - subst u. rewrite Hg in Hgu. inversion Hgu; subst. contradiction.
    - apply (O3 u gu); try assumption. congruence.
  Qed.

  Definition g_below (s' s : st) : Prop :=
    forall x gx, lk x (s_g s) = Some gx -> exists gx', lk x (s_g s') = Some gx' /\ le gx' gx.

  Lemma g_below_refl : forall s, g_below s s.
  Proof. intros s x gx Hx. exists gx. split; [assumption|apply le_refl]. Qed.

  Lemma relax_inv3 : forall cur gcur s v w,
    inv3 (Some cur) s ->
    let s' := relax cur gcur s (v, w) in
    inv3 (Some cur) s' /\ g_below s' s /\
    (mem v (s_closed s) = true \/ exists gv, lk v (s_g s') = Some gv /\ le gv (cadd gcur w)).
  Proof.
    intros cur gcur s v w I. cbv zeta.
    destruct (relax_cases neqb cadd cltb kltb mkkey cur gcur s v w) as [[-> Hkeep]|[-> [Ev Hlt]]].
    { split; [assumption|]. split; [apply g_below_refl|].
      destruct Hkeep as [Hv|[gv [Hgv Hge]]]; [left; assumption|right; exists gv; split; assumption]. }
    set (t := cadd gcur w).
    assert (Hnc : forall x, mem x (s_closed s) = true -> x <> v) by (intros x Hx E; subst; congruence).
    assert (Hdecr : forall x gx, lk x (s_g s) = Some gx -> exists gx', lk x ((v, t) :: s_g s) = Some gx' /\ le gx' gx).
    { intros x gx Hx. destruct (eqb_dec neqb neqb_spec x v) as [E|E].
      - subst x. exists t. rewrite (lookup_cons_eq neqb neqb_spec). split; [reflexivity|].
        apply (clt_cle czero cadd cltb OC), Hlt, Hx.
      - exists gx. rewrite (lookup_cons_neq neqb neqb_spec) by assumption. split; [assumption|apply le_refl]. }
    split; [|split; [exact Hdecr|]].
    2:{ right. exists t. ssimpl. rewrite (lookup_cons_eq neqb neqb_spec). split; [reflexivity|apply le_refl]. }
    destruct I as [O1 Og O3 Hh Hs]. constructor; ssimpl.
    - intros u gu Hu Hgu. rewrite (lookup_cons_neq neqb neqb_spec) in Hgu by (apply Hnc; assumption).
      apply O1; assumption.
    - assumption.
    - intros u gu Hu Hne Hgu W v0 w0 Hin.
      rewrite (lookup_cons_neq neqb neqb_spec) in Hgu by (apply Hnc; assumption).
      destruct (O3 u gu Hu Hne Hgu W v0 w0 Hin) as [Hv0|[gv0 [Hgv0 Hle0]]]; [left; assumption|].
      right. destruct (Hdecr _ _ Hgv0) as [g' [H1 H2]]. exists g'. split; [assumption|eapply le_trans; eassumption].
    - intros k' c' x Hin. apply (hinsert_In kltb) in Hin. destruct Hin as [E|Hin].
      + inversion E; subst. exists t, t. rewrite (lookup_cons_eq neqb neqb_spec). repeat split. apply le_refl.
      + destruct (Hh _ _ _ Hin) as [t' [gx [Hk [Hgx Hle]]]].
        destruct (Hdecr _ _ Hgx) as [g' [H1 H2]]. exists t', g'. repeat split; try assumption.
        eapply le_trans; eassumption.
    - apply (hinsert_sorted kltb KO). assumption.
  Qed.

  Lemma fold_relax_inv3 : forall cur gcur l s,
    inv3 (Some cur) s ->
    let s' := fold_left (relax cur gcur) l s in
    inv3 (Some cur) s' /\ g_below s' s /\
    (forall v w, In (v, w) l -> mem v (s_closed s) = true \/ exists gv, lk v (s_g s') = Some gv /\ le gv (cadd gcur w)).
  Proof.
    intros cur gcur l. induction l as [|[v w] l IH]; intros s I; cbn [fold_left].
    - split; [assumption|]. split; [apply g_below_refl|intros v w []].
    - destruct (relax_inv3 cur gcur s v w I) as [I1 [Hd1 Hv1]].
      destruct (IH _ I1) as [I2 [Hd2 Hl2]].
      split; [assumption|]. split.
      + intros x gx Hx. destruct (Hd1 _ _ Hx) as [g1 [H1 H1']]. destruct (Hd2 _ _ H1) as [g2 [H2 H2']].
        exists g2. split; [assumption|eapply le_trans; eassumption].
      + intros v' w' [E|Hin].
        * inversion E; subst v' w'. destruct Hv1 as [Hv1|[gv [Hgv Hle]]]; [left; assumption|].
          right. destruct (Hd2 _ _ Hgv) as [g2 [H2 H2']]. exists g2. split; [assumption|eapply le_trans; eassumption].
        * destruct (Hl2 _ _ Hin) as [H|H]; [left; rewrite relax_closed in H; assumption|right; assumption].
  Qed.

  Lemma expand_inv3 : forall cur gcur s,
    inv3 (Some cur) s -> mem cur (s_closed s) = true -> lk cur (s_g s) = Some gcur ->
    inv3 None (expand cur gcur s).
  Proof.
    intros cur gcur s I Hc Hg.
    pose proof (expand_g_closed neqb neqb_spec cadd cltb kltb mkkey nbrs cur gcur s cur Hc) as Hg'.
    pose proof (expand_closed neqb cadd cltb kltb mkkey nbrs cur gcur s) as Hc'.
    unfold BestFirst.expand in *.
    destruct (fold_relax_inv3 cur gcur (nbrs cur) s I) as [[O1 Og O3 Hh Hs] [Hd Hl]].
    constructor; try assumption.
    (* o_exp, also for cur: all its neighbours are relaxed *)
    intros u gu Hu _ Hgu W v w Hin. destruct (eqb_dec neqb neqb_spec u cur) as [E|E].
    - subst u. rewrite Hg', Hg in Hgu. inversion Hgu; subst gu.
      destruct (Hl _ _ Hin) as [H|H]; [left; rewrite Hc'; assumption|right; assumption].
    - apply (O3 u gu); try assumption. congruence.
  Qed.

  Definition opt_res (r : result N C) : Prop :=
    (forall d0, r_obj r = Some d0 ->
       forall t q d, is_goal t = true -> lw start czero q t d -> within d -> le d0 d)
    /\ (r_status r = INFEASIBLE ->
       forall t q d, is_goal t = true -> lw start czero q t d -> within d -> False).

  (* the reported objective is within the factor of every walk to any goal node (sc the identity: opt_res) *)
  Definition bound_res (r : result N C) : Prop :=
    (forall d0, r_obj r = Some d0 ->
       forall t q d, is_goal t = true -> lw start czero q t d -> within (sc d) -> le d0 (sc d))
    /\ (found_status <> INFEASIBLE -> r_status r = INFEASIBLE ->
       forall t q d, is_goal t = true -> lw start czero q t d -> within (sc d) -> False).

  Lemma loop_bound : forall fuel s iters r, inv1 s /\ inv3 None s -> loop fuel s iters = Some r -> bound_res r.
  Proof.
    intros fuel s iters r.
    apply (loop_rule neqb cadd cltb kltb mkkey limit_of found_status nbrs is_goal max_iter max_cost
             (fun s _ => inv1 s /\ inv3 None s) bound_res).
    - intros s0 it [I1 I] Hstop. split; [intros d0 Hd; discriminate|]. intros _ Hst t q d Ht Hw W.
      destruct Hstop as [Eh|Elt].
      + (* heap empty: a walk to an unclosed goal would pass an unclosed discovered node, which has a heap entry *)
        assert (Htc : mem t (s_closed s0) = false).
        { destruct (mem t (s_closed s0)) eqn:E; [|reflexivity]. rewrite (o_goal _ _ I t E) in Ht. discriminate. }
        destruct (frontier_start s0 I1 I q t d Hw W Htc) as [y [gy [a' [q' [Hy [Hgy _]]]]]].
        destruct (i_cur _ _ _ _ _ _ _ I1 y gy Hy Hgy) as [c' Hin]. rewrite Eh in Hin. destruct Hin.
      + simpl in Hst. destruct (max_iter <=? it)%Z eqn:E; [discriminate|]. lia.
    - intros s0 it k c cur h' [I1 I] Eh _ Ec. split; [eapply skip_inv1; eassumption|eapply pop_skip; eassumption].
    - intros s0 it k c cur h' gcur p [I1 I] Eh _ Ec Eg Egoal _. split; simpl.
      + intros d0 Hd. inversion Hd; subst d0. eapply pop_goal_opt; eassumption.
      + intros; contradiction.
    - intros s0 it k c cur h' gcur [I1 I] Eh _ Ec Eg Egoal Eo.
      split; [eapply (close_inv1 neqb neqb_spec); eassumption|].
      eapply over_budget_inv3; [eapply pop_close; eassumption|exact Eg|]. eapply pop_limit; eassumption.
    - intros s0 it k c cur h' gcur [I1 I] Eh _ Ec Eg Egoal _. split.
      + apply (expand_inv1 neqb neqb_spec);
          [eapply (close_inv1 neqb neqb_spec); eassumption|apply (memb_head neqb neqb_spec)|exact Eg].
      + apply expand_inv3; [eapply pop_close; eassumption|apply (memb_head neqb neqb_spec)|exact Eg].
  Qed.

  Theorem best_first_bound : forall fuel r,
    best_first neqb czero cadd cltb kltb mkkey limit_of found_status nbrs is_goal max_iter max_cost fuel start = Some r ->
    bound_res r.
  Proof.
    intros fuel r H. unfold best_first in H. eapply loop_bound; [|exact H].
    split; [apply init_inv1; assumption|]. unfold init_st. constructor; ssimpl; try (intros; discriminate).
    - intros k c v [E|[]]. inversion E; subst. exists czero, czero.
      rewrite (lookup_cons_eq neqb neqb_spec). repeat split. apply le_refl.
    - constructor; constructor.
  Qed.
End Opt.
