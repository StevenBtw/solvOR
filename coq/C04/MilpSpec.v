(* Readable specification of C04 and the hypotheses on the two oracles of the model.  Definitions, the soundness of the
   boolean checker `spec_check`, and the small facts about integers in Q and rows that the proof files share.
   Vocabulary of C03.LPSpec: dot, mv, feasible, feasible_tol, lp_optimal, lp_infeasible, lp_unbounded. *)
From Coq Require Import List QArith Qabs Qminmax Lia.
From SV Require Import C03.Simplex C03.LPSpec C03.LinAlgProofs C04.Milp.
Import ListNotations.
Open Scope Q_scope.

(* the MILP:  min/max c.x,  A x <= b,  x >= 0,  x_j integer for j in ints *)
Definition is_int (q : Q) : Prop := exists z : Z, q == inject_Z z.

Definition int_feasible (c : list Q) (A : list (list Q)) (b : list Q) (ints : list nat) (y : list Q) : Prop :=
  length y = length c /\ feasible A b y /\ forall j, In j ints -> is_int (nth j y 0).

(* what the code guarantees of a returned point: feasibility up to eps, integrality up to eps *)
Definition near_int (eps q : Q) : Prop := exists z : Z, Qabs (q - inject_Z z) <= eps.
Definition point_ok (eps : Q) (c : list Q) (A : list (list Q)) (b : list Q) (ints : list nat) (x : list Q) : Prop :=
  length x = length c /\ feasible_tol eps A b x /\ forall j, In j ints -> near_int eps (nth j x 0).
Definition sol_ok (eps : Q) (c : list Q) (A : list (list Q)) (b : list Q) (ints : list nat) (x : list Q) (o : Q) : Prop :=
  point_ok eps c A b ints x /\ o == dot c x.

(* the tolerance in "OPTIMAL means no integer-feasible point is better": eps from the two prune tests, gap_tol (relative
   to |best|, absolute when |best| < 1e-10) from the early exit *)
Definition opt_slack (eps gap_tol best : Q) : Q := Qmax eps (gap_tol * Qmax 1 (Qabs best)).

(* the LP kernel answers correctly on well-formed LPs (= the three C03 soundness statements) *)
Definition lp_sound (lp : lp_kernel) : Prop :=
  forall minimize max_iter c A b, valid_lp c A b = true ->
    let '(st, x, z) := lp minimize max_iter c A b in
    match st with
    | OPTIMAL => length x = length c /\ lp_optimal minimize c A b x /\ z == dot c x
    | INFEASIBLE => lp_infeasible A b
    | UNBOUNDED => lp_unbounded minimize c A b
    | MAX_ITER => True
    end.

(* the LNS pass only returns points that pass the code's _is_feasible (and have the right length) *)
Definition lns_ok (lns : list Q -> option (list Q)) (eps : Q) (c : list Q) (A : list (list Q)) (b : list Q)
           (ints : list nat) : Prop :=
  forall s x, lns s = Some x -> length x = length c /\ is_feasible eps x A b ints = true.

(* the `_detect_binary` tightening is justified: explicit rows x_j <= 1 bound the integer variables of every
   integer-feasible point *)
Definition binary_justified (eps : Q) (c : list Q) (A : list (list Q)) (b : list Q) (ints : list nat) : Prop :=
  detect_binary eps A b ints (length c) = true ->
  forall y, int_feasible c A b ints y -> forall j, In j ints -> nth j y 0 <= 1.

Definition tiny_free (eps : Q) (A : list (list Q)) : bool :=
  forallb (forallb (fun a => Qeq_bool a 0 || Qltb eps (Qabs a))) A.

(* boolean conditions on the input:  0 <= eps <= 1/4;  dimensions as check_matrix_dims / check_integers_valid demand,
   integer indices sorted;  no non-zero coefficient of absolute value <= eps *)
Definition milp_input_ok (eps : Q) (c : list Q) (A : list (list Q)) (b : list Q) (ints : list nat) : bool :=
  Qleb 0 eps && Qleb eps (1 # 4) && valid_milp c A b ints && tiny_free eps A.

(* boolean checker of the conclusion of C04_feasible, usable on the implementation's outputs *)
Definition point_check (eps : Q) (c : list Q) (A : list (list Q)) (b : list Q) (ints : list nat) (x : list Q) : bool :=
  Nat.eqb (length x) (length c) && Nat.eqb (length A) (length b) && is_feasible eps x A b ints.

Definition spec_check (eps : Q) (c : list Q) (A : list (list Q)) (b : list Q) (ints : list nat)
           (tol : Q) (r : milp_result) : bool :=
  match m_solution r, m_objective r with
  | Some x, Fin o => point_check eps c A b ints x && Qleb (Qabs (o - dot c x)) tol
  | Some _, _ => false
  | None, _ => true
  end
  && match m_solutions r with Some ss => forallb (point_check eps c A b ints) ss | None => true end.

Lemma is_int_Z : forall z, is_int (inject_Z z).
Proof. intro z. exists z. reflexivity. Qed.

Lemma int_lt_1 : forall a b, is_int a -> is_int b -> a - b < 1 -> a <= b.
Proof.
  intros a b [za Ha] [zb Hb] H. rewrite Ha, Hb in *. rewrite <- Zle_Qle.
  unfold Qlt, Qminus, Qplus, Qopp, inject_Z in H. simpl in H. lia.
Qed.

(* rows as pairs: `for i, row in enumerate(A): ... b[i]` *)
Definition rows_le (slack : Q) (R : list (list Q * Q)) (x : list Q) : Prop :=
  Forall (fun rb => dot (fst rb) x <= snd rb + slack) R.

Lemma no_row_violated : forall eps x R, existsb (row_violated eps x) R = false <-> rows_le eps R x.
Proof.
  intros eps x R. unfold rows_le. induction R as [|rb R IH]; simpl.
  - split; constructor.
  - rewrite orb_false_iff, IH, Forall_cons_iff. unfold row_violated. rewrite Qltb_false. reflexivity.
Qed.

Lemma Forall2_mv_combine : forall (P : Q -> Q -> Prop) A b x, length A = length b ->
  (Forall2 P (mv A x) b <-> Forall (fun rb => P (dot (fst rb) x) (snd rb)) (combine A b)).
Proof.
  intros P A. induction A as [|r A IH]; intros b x L; destruct b as [|bi b]; simpl in *; try discriminate.
  - split; constructor.
  - injection L as L. split; intro H; inversion H; subst; constructor; auto; apply (IH b x L); assumption.
Qed.

Lemma is_feasible_spec : forall eps x A b ints, length A = length b ->
  is_feasible eps x A b ints = true ->
  feasible_tol eps A b x /\ forall j, In j ints -> frac_dist (nth j x 0) <= eps.
Proof.
  intros eps x A b ints L H. unfold is_feasible in H.
  apply andb_true_iff in H. destruct H as [H H3]. apply andb_true_iff in H. destruct H as [H1 H2].
  rewrite forallb_forall in H1, H2. split; [split|].
  - apply Forall_forall. intros v Hv. apply Qltb_false. apply negb_true_iff. apply H1. exact Hv.
  - apply (Forall2_mv_combine (fun l r => l <= r + eps)); [exact L|].
    apply no_row_violated. apply negb_true_iff. exact H3.
  - intros j Hj. apply Qltb_false. apply negb_true_iff. apply H2. exact Hj.
Qed.

Lemma frac_near_int : forall eps q, frac_dist q <= eps -> near_int eps q.
Proof. intros eps q H. exists (pyround q). exact H. Qed.

Lemma feasible_point_ok : forall eps c A b ints x, length x = length c -> length A = length b ->
  is_feasible eps x A b ints = true -> point_ok eps c A b ints x.
Proof.
  intros eps c A b ints x L LA F. destruct (is_feasible_spec eps x A b ints LA F) as [FT I].
  split; [exact L|]. split; [exact FT|]. intros j Hj. apply frac_near_int. apply I. exact Hj.
Qed.

Lemma point_check_sound : forall eps c A b ints x,
  point_check eps c A b ints x = true -> point_ok eps c A b ints x.
Proof.
  intros eps c A b ints x H. unfold point_check in H.
  apply andb_true_iff in H. destruct H as [H H3]. apply andb_true_iff in H. destruct H as [H1 H2].
  apply feasible_point_ok; [apply Nat.eqb_eq; exact H1|apply Nat.eqb_eq; exact H2|exact H3].
Qed.

Definition Spec (eps : Q) (c : list Q) (A : list (list Q)) (b : list Q) (ints : list nat) (tol : Q) (r : milp_result) : Prop :=
  (forall x, m_solution r = Some x ->
     point_ok eps c A b ints x /\ exists o, m_objective r = Fin o /\ Qabs (o - dot c x) <= tol)
  /\ (forall ss x, m_solutions r = Some ss -> In x ss -> point_ok eps c A b ints x).

Lemma spec_check_sound : forall eps c A b ints tol r,
  spec_check eps c A b ints tol r = true -> Spec eps c A b ints tol r.
Proof.
  intros eps c A b ints tol r H. unfold spec_check in H. apply andb_true_iff in H. destruct H as [H1 H2]. split.
  - intros x Hx. rewrite Hx in H1. destruct (m_objective r) as [o| |]; try discriminate.
    apply andb_true_iff in H1. destruct H1 as [P O]. split; [apply point_check_sound; exact P|].
    exists o. split; [reflexivity|]. apply Qleb_le. exact O.
  - intros ss x Hs Hx. rewrite Hs in H2. rewrite forallb_forall in H2. apply point_check_sound. apply H2. exact Hx.
Qed.
