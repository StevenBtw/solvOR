(* solve_milp: the `_detect_binary` tightening, root handling, warm start / rounding / LNS incumbents, then the loop;
   the theorems about its Result and about the error value None. *)
From Coq Require Import List QArith Qabs Lia Lqa.
From SV Require Import C03.Simplex C03.LPSpec C03.LinAlgProofs C04.Milp C04.MilpSpec C04.MilpNodeProofs C04.MilpBBProofs C04.MilpRoundProofs.
Import ListNotations.
Open Scope Q_scope.

Lemma mem_nat_In : forall j l, mem_nat j l = true <-> In j l.
Proof.
  intros j l. unfold mem_nat. rewrite existsb_exists. split.
  - intros [x [Hx E]]. apply Nat.eqb_eq in E. subst x. exact Hx.
  - intro H. exists j. split; [exact H|apply Nat.eqb_refl].
Qed.

Lemma dot_single : forall row y j, (forall k, k <> j -> nth k row 0 == 0) -> dot row y == nth j row 0 * nth j y 0.
Proof.
  induction row as [|a row IH]; intros y j H.
  - simpl. destruct j; ring.
  - destruct y as [|v y].
    + simpl. destruct j; ring.
    + destruct j as [|j]; simpl.
      * rewrite (dot_all_zero row y); [ring|]. intros k. apply (H (S k)). lia.
      * rewrite (IH y j); [|intros k Hk; apply (H (S k)); lia].
        pose proof (H O) as H0. simpl in H0. rewrite H0 by lia. ring.
Qed.

(* _detect_binary only answers True when explicit rows x_j <= 1 exist: then every integer-feasible point has x_j <= 1 for
   the integer variables, so tightening their upper bounds to 1 loses nothing.  Needs: no coefficient of A is a non-zero
   number of absolute value <= eps (integer data satisfy this), and eps <= 1/4. *)
Definition unit_bound_row (eps : Q) (n : nat) (rb : list Q * Q) (j : nat) : Prop :=
  Qabs (snd rb - 1) <= eps
  /\ filter (fun k => Qltb eps (Qabs (nth k (fst rb) 0))) (seq 0 n) = [j] /\ Qabs (nth j (fst rb) 0 - 1) < eps.

Lemma db_row_spec : forall eps ints n acc rb,
  db_row eps ints n acc rb = acc
  \/ exists j, db_row eps ints n acc rb = acc ++ [j] /\ In j ints /\ ~ In j acc /\ unit_bound_row eps n rb j.
Proof.
  intros eps ints n acc [row bi]. unfold db_row, unit_bound_row. cbn [fst snd].
  destruct (Qltb eps (Qabs (bi - 1))) eqn:E1; [left; reflexivity|].
  destruct (filter (fun k => Qltb eps (Qabs (nth k row 0))) (seq 0 n)) as [|j [|? ?]]; try (left; reflexivity).
  destruct (mem_nat j ints && Qltb (Qabs (nth j row 0 - 1)) eps && negb (mem_nat j acc)) eqn:E2; [|left; reflexivity].
  apply andb_true_iff in E2. destruct E2 as [E2 E4]. apply andb_true_iff in E2. destruct E2 as [E2 E3].
  right. exists j. split; [reflexivity|]. split; [apply mem_nat_In; exact E2|]. split.
  - intro H. apply mem_nat_In in H. rewrite H in E4. discriminate.
  - split; [apply Qltb_false; exact E1|]. split; [reflexivity|apply Qltb_lt; exact E3].
Qed.

Lemma db_fold : forall eps ints n R R' acc, incl R' R ->
  (forall j, In j acc -> In j ints /\ exists rb, In rb R /\ unit_bound_row eps n rb j) -> NoDup acc ->
  let res := fold_left (db_row eps ints n) R' acc in
  (forall j, In j res -> In j ints /\ exists rb, In rb R /\ unit_bound_row eps n rb j) /\ NoDup res.
Proof.
  intros eps ints n R R'. induction R' as [|rb R' IH]; intros acc Sub HA ND; cbn [fold_left]; [split; assumption|].
  assert (Sub' : incl R' R) by (intros x Hx; apply Sub; right; exact Hx).
  destruct (db_row_spec eps ints n acc rb) as [E|[j [E [Hi [Hn W]]]]]; rewrite E; apply IH; try assumption.
  - intros j' Hj'. apply in_app_or in Hj'. destruct Hj' as [Hj'|[Hj'|[]]]; [apply HA; exact Hj'|]. subst j'.
    split; [exact Hi|]. exists rb. split; [apply Sub; left; reflexivity|exact W].
  - apply (NoDup_Add (Add_app j acc [])). rewrite app_nil_r. split; assumption.
Qed.

(* such a row reads a_j x_j <= bi with a_j > 3/4 and bi <= 5/4 (its other coefficients are below eps, hence zero), so an
   integer x_j >= 2 would violate it *)
Lemma unit_bound_row_sound : forall eps n row bi j y,
  eps <= 1 # 4 -> length row = n -> forallb (fun a => Qeq_bool a 0 || Qltb eps (Qabs a)) row = true ->
  unit_bound_row eps n (row, bi) j -> dot row y <= bi -> is_int (nth j y 0) -> nth j y 0 <= 1.
Proof.
  intros eps n row bi j y E1 Lr TF [Hb [Hf Hc]] Sy Iy. cbn [fst snd] in Hb, Hf, Hc. rewrite forallb_forall in TF.
  assert (Z : forall k, k <> j -> nth k row 0 == 0).
  { intros k Hk. destruct (Nat.lt_ge_cases k (length row)) as [Lt|Ge]; [|rewrite nth_overflow by exact Ge; reflexivity].
    specialize (TF (nth k row 0) (nth_In _ _ Lt)). apply orb_true_iff in TF. destruct TF as [TF|G]; [apply Qeq_bool_iff; exact TF|].
    assert (H : In k (filter (fun k => Qltb eps (Qabs (nth k row 0))) (seq 0 n))).
    { apply filter_In. split; [apply in_seq; lia|exact G]. }
    rewrite Hf in H. destruct H as [H|[]]. congruence. }
  rewrite (dot_single row y j Z) in Sy.
  assert (Ha : 3 # 4 <= nth j row 0) by (apply Qabs_Qlt_condition in Hc; lra).
  assert (Hbi : bi <= 5 # 4) by (apply Qabs_Qle_condition in Hb; lra).
  destruct (Qlt_le_dec 1 (nth j y 0)) as [G|G]; [exfalso|exact G].
  assert (H2 : 2 <= nth j y 0) by (apply int_lt_1; [apply (is_int_Z 2)|exact Iy|lra]).
  assert (nth j row 0 * 2 <= nth j row 0 * nth j y 0) by (apply Qmult_le_l; lra). lra.
Qed.

(* detect_binary = true: `bounded` is duplicate-free, inside ints and as long as ints, hence holds every integer index *)
Lemma detect_binary_sound : forall eps c A b ints,
  0 <= eps -> eps <= 1 # 4 -> valid_lp c A b = true -> tiny_free eps A = true ->
  binary_justified eps c A b ints.
Proof.
  intros eps c A b ints E0 E1 V TF DB y [Ly [Fy Iy]] j Hj.
  unfold detect_binary in DB. apply andb_true_iff in DB. destruct DB as [DL _]. apply Nat.eqb_eq in DL.
  destruct (db_fold eps ints (length c) (combine A b) (combine A b) [] (incl_refl _)
                    (fun j (H : In j []) => match H with end) (NoDup_nil _)) as [W ND].
  set (bounded := fold_left (db_row eps ints (length c)) (combine A b) []) in *.
  assert (INC : incl ints bounded).
  { apply NoDup_length_incl; [exact ND|lia|]. intros k Hk. exact (proj1 (W k Hk)). }
  destruct (W j (INC j Hj)) as [_ [[row bi] [Hin U]]].
  destruct (valid_parts c A b V) as [_ [LA RL]]. pose proof (in_combine_l _ _ _ _ Hin) as HrA.
  apply (feasible_combine A b y LA) in Fy. destruct Fy as [_ Sy]. unfold sat in Sy. rewrite Forall_forall in Sy.
  apply (unit_bound_row_sound eps (length c) row bi j y E1 (RL row HrA)); [|exact U|exact (Sy _ Hin)|exact (Iy j Hj)].
  unfold tiny_free in TF. rewrite forallb_forall in TF. exact (TF row HrA).
Qed.

Lemma repeat_Forall : forall X (P : X -> Prop) v n, P v -> Forall P (repeat v n).
Proof. intros X P v n H. induction n; simpl; constructor; auto. Qed.

Lemma box_root : forall n y, length y = n -> nonneg y -> in_box (repeat 0 n) (repeat (@None Q) n) y.
Proof.
  induction n as [|n IH]; intros y L N; destruct y as [|v y]; simpl in L; try discriminate.
  - split; constructor.
  - injection L as L. inversion N as [|v' y' Hv Hy]. destruct (IH y L Hy) as [I1 I2]. split; simpl; constructor; auto. exact I.
Qed.

Section Main.
  Variable lp : lp_kernel.
  Hypothesis LP : lp_sound lp.
  Variable lns : list Q -> option (list Q).
  Variable eps gap_tol : Q.
  Variable minimize : bool.
  Variable max_iter max_nodes : nat.
  Variable c : list Q.
  Variable A : list (list Q).
  Variable b : list Q.
  Variable ints : list nat.
  Hypothesis LNS : lns_ok lns eps c A b ints.

  (* what the proof needs of the input: the tolerance, the dimensions, and that the `_detect_binary` tightening
     loses no integer-feasible point *)
  Section Sound.
    Hypothesis Heps0 : 0 <= eps.
    Hypothesis Heps1 : eps < 1.
    Hypothesis VL : valid_lp c A b = true.
    Hypothesis IL : forall j, In j ints -> (j < length c)%nat.
    Hypothesis BJ : binary_justified eps c A b ints.

    Notation POK := (point_ok eps c A b ints).
    Notation BOK := (best_ok eps c A b ints).

    Lemma feasible_incumbent : forall x, length x = length c -> is_feasible eps x A b ints = true ->
      POK x /\ BOK (Some (x, Qred (dot c x))).
    Proof.
      intros x L F. assert (P : POK x) by (apply feasible_point_ok; [exact L|apply (valid_parts c A b VL)|exact F]).
      split; [exact P|]. split; [exact P|]. apply Qred_correct.
    Qed.

    Lemma Forall_snoc : forall all x, Forall POK all -> POK x -> Forall POK (all ++ [x]).
    Proof. intros all x H P. apply Forall_app. split; [exact H|]. constructor; [exact P|constructor]. Qed.

    Lemma warm_stage_ok : forall ws,
      let best0 := match ws with
                   | Some w => if Nat.eqb (length w) (length c) && is_feasible eps w A b ints
                               then Some (w, Qred (dot c w)) else None
                   | None => None
                   end in
      BOK best0 /\ Forall POK (match best0 with Some (w, _) => [w] | None => [] end).
    Proof.
      intros [w|]; cbv zeta; [|split; [exact I|constructor]].
      destruct (Nat.eqb (length w) (length c) && is_feasible eps w A b ints) eqn:E; [|split; [exact I|constructor]].
      apply andb_true_iff in E. destruct E as [E1 E2]. apply Nat.eqb_eq in E1.
      destruct (feasible_incumbent w E1 E2) as [P B]. split; [exact B|constructor; [exact P|constructor]].
    Qed.

    Lemma round_stage_ok : forall (go : bool) sol best0 all0 best1 all1,
      length sol = length c -> BOK best0 -> Forall POK all0 ->
      (if go then
         match round_binary eps sol ints c A b minimize with
         | None => None
         | Some None => Some (best0, all0)
         | Some (Some rd) => Some (Some (rd, Qred (dot c rd)), all0 ++ [rd])
         end
       else Some (best0, all0)) = Some (best1, all1) ->
      BOK best1 /\ Forall POK all1.
    Proof.
      intros go sol best0 all0 best1 all1 SL B0 A0 R.
      destruct go; [|injection R as <- <-; split; assumption].
      destruct (round_binary eps sol ints c A b minimize) as [[rd|]|] eqn:RBin; try discriminate;
        injection R as <- <-; [|split; assumption].
      destruct (round_binary_feasible eps minimize c A b ints _ _ RBin) as [G1 G2]. rewrite SL in G1.
      destruct (feasible_incumbent rd G1 G2) as [P B]. split; [exact B|apply Forall_snoc; assumption].
    Qed.

    Lemma lns_stage_ok : forall (go : bool) best1 all1 best2 all2, BOK best1 -> Forall POK all1 ->
      match best1 with
      | Some (bs, bo) =>
          if go then
            match lns bs with
            | Some imp =>
                let io := Qred (dot c imp) in
                if (if minimize then Qltb io bo else Qltb bo io)
                then (Some (imp, io), if mem_sol imp all1 then all1 else all1 ++ [imp])
                else (best1, all1)
            | None => (best1, all1)
            end
          else (best1, all1)
      | None => (best1, all1)
      end = (best2, all2) ->
      BOK best2 /\ Forall POK all2.
    Proof.
      intros go best1 all1 best2 all2 B1 A1 R.
      destruct best1 as [[bs bo]|]; [|injection R as <- <-; split; assumption].
      destruct go; [|injection R as <- <-; split; assumption].
      destruct (lns bs) as [imp|] eqn:EL; [|injection R as <- <-; split; assumption].
      destruct (LNS bs imp EL) as [L1 L2]. destruct (feasible_incumbent imp L1 L2) as [P B]. cbv zeta in R.
      destruct (if minimize then Qltb (Qred (dot c imp)) bo else Qltb bo (Qred (dot c imp)));
        injection R as <- <-; [|split; assumption].
      split; [exact B|]. destruct (mem_sol imp all1); [exact A1|apply Forall_snoc; assumption].
    Qed.

    Lemma tighten_length : forall n, length (tighten_upper n ints) = n.
    Proof. intros. unfold tighten_upper. rewrite map_length, seq_length. reflexivity. Qed.

    Lemma tighten_int : forall n, Forall ub_int (tighten_upper n ints).
    Proof.
      intros n. unfold tighten_upper. apply Forall_forall. intros u Hu. apply in_map_iff in Hu.
      destruct Hu as [j [E _]]. subst u. destruct (mem_nat j ints); simpl; [apply (is_int_Z 1)|exact I].
    Qed.

    Lemma tighten_box : forall y, length y = length c -> (forall j, In j ints -> nth j y 0 <= 1) ->
      Forall2 (fun u v => ub_le v u) (tighten_upper (length c) ints) y.
    Proof.
      intros y L H. unfold tighten_upper.
      assert (G : forall k s (y' : list Q), length y' = k -> (forall i, (i < k)%nat -> In (s + i)%nat ints -> nth i y' 0 <= 1) ->
                  Forall2 (fun u v => ub_le v u) (map (fun j => if mem_nat j ints then Some 1 else None) (seq s k)) y').
      { induction k as [|k IH]; intros s y' L' H'; destruct y' as [|v y']; simpl in L'; try discriminate; [constructor|].
        injection L' as L'. simpl. constructor.
        - destruct (mem_nat s ints) eqn:M; simpl; [|exact I]. apply mem_nat_In in M.
          apply (H' O); [lia|]. rewrite Nat.add_0_r. exact M.
        - apply IH; [exact L'|]. intros i Hi Hin. apply (H' (S i)); [lia|]. rewrite Nat.add_succ_r. exact Hin. }
      apply G; [exact L|]. intros i _ Hi. simpl in Hi. apply H. exact Hi.
    Qed.

    (* the root node of the search, with t saying whether the upper bounds of the integer variables are set to 1 *)
    Lemma root_pre : forall t : bool,
      node_pre c (repeat 0 (length c)) (if t then tighten_upper (length c) ints else repeat None (length c)).
    Proof.
      intros t. split; [apply repeat_length|]. split; [|split; [split|]].
      - destruct t; [apply tighten_length|apply repeat_length].
      - apply repeat_Forall. apply (is_int_Z 0).
      - destruct t; [apply tighten_int|apply repeat_Forall; exact I].
      - apply repeat_Forall. apply Qle_refl.
    Qed.

    Theorem solve_milp_sound : forall warm_start solution_limit heuristics lns_iterations r,
      solve_milp lp lns eps gap_tol minimize max_iter max_nodes c A b ints warm_start solution_limit heuristics lns_iterations
        = Some r -> res_ok eps gap_tol minimize c A b ints r.
    Proof.
      intros ws sl heur li r H. unfold solve_milp in H.
      set (n := length c) in *.
      assert (NP : node_pre c (repeat 0 n) (repeat (@None Q) n)) by exact (root_pre false).
      assert (RB : forall y, length y = length c -> feasible A b y -> node_point c A b (repeat 0 n) (repeat None n) y).
      { intros y L F. split; [exact L|]. split; [exact F|]. apply box_root; [exact L|apply F]. }
      pose proof (solve_node_sound lp LP eps minimize max_iter c A b Heps0 Heps1 VL _ _ NP) as NS. unfold node_spec in NS.
      set (root := solve_node lp eps minimize max_iter c A b (repeat 0 n) (repeat None n)) in *.
      destruct (n_status root) eqn:St.
      - destruct NS as [SL [SN [SR [SOb [_ SOpt]]]]].
        assert (Hroot : forall y, length y = length c -> feasible A b y -> sgn minimize * n_obj root <= sgn minimize * dot c y).
        { intros y L F. apply SOpt. apply RB; assumption. }
        destruct (most_fractional eps (n_sol root) ints) as [fv|] eqn:MF.
        + (* branch and bound: each heuristic stage keeps the incumbent and the list of solutions sound *)
          destruct (warm_stage_ok ws) as [B0 A0].
          set (looks := looks_binary_at eps (n_sol root) ints) in *.
          set (upper1 := if looks && detect_binary eps A b ints n then tighten_upper n ints else repeat None n) in *.
          (* X: what the rounding stage leaves of incumbent and solution list (st1 of solve_milp), then the LNS stage *)
          match type of H with match ?X with _ => _ end = _ => destruct X as [[best1 all1]|] eqn:R1; [|discriminate] end.
          destruct (round_stage_ok _ _ _ _ _ _ SL B0 A0 R1) as [B1 A1].
          match type of H with (let '(_, _) := ?X in _) = _ => destruct X as [best2 all2] eqn:R2 end.
          destruct (lns_stage_ok _ _ _ _ _ B1 A1 R2) as [B2 A2].
          set (rb := Qred (sgn minimize * n_obj root)) in *.
          apply (loop_ok lp LP eps gap_tol minimize max_iter max_nodes c A b ints sl Heps0 Heps1 VL IL
                         (sgn minimize * n_obj root) Hroot _ _ r) in H; [exact H|].
          constructor; simpl.
          * constructor; [|constructor]. split; simpl.
            -- exact (root_pre _).
            -- intros y [Ly [Fy _]] _. unfold rb. rewrite Qred_correct. apply Hroot; assumption.
          * constructor; [constructor|constructor].
          * exact B2.
          * exact A2.
          * (* the root node, with the upper bounds possibly tightened to 1, holds every integer-feasible point *)
            intros _ y Hy. right. left. exists (rb, O, mkNode rb (repeat 0 n) upper1 0). split; [left; reflexivity|]. simpl.
            pose proof Hy as [Ly [Fy Iy]]. destruct (RB y Ly Fy) as [_ [_ [R1' R2']]]. split; [exact R1'|].
            unfold upper1. destruct (looks && detect_binary eps A b ints n) eqn:TD; [|exact R2'].
            apply andb_true_iff in TD. destruct TD as [_ TD]. apply tighten_box; [exact Ly|].
            exact (BJ TD y Hy).
        + (* the root relaxation is already integral *)
          injection H as H. subst r.
          pose proof (lp_point_ok eps c A b ints Heps0 VL (n_sol root) SL SN SR MF) as PO.
          apply sol_res_ok; [split; assumption|discriminate| |discriminate|discriminate].
          intros _ y [Ly [Fy _]]. pose proof (Hroot y Ly Fy). pose proof (slack_eps eps gap_tol (n_obj root)). lra.
      - injection H as H. subst r. apply nosol_res_ok; [discriminate| |discriminate].
        intros _ y [Ly [Fy _]]. exact (NS y (RB y Ly Fy)).
      - injection H as H. subst r. apply nosol_res_ok; [discriminate|discriminate|].
        intros _ M. destruct (NS (sgn minimize * M)) as [y [Ly [Fy Hy]]]. exists y. split; [exact Fy|].
        apply sgn_lt. exact Hy.
      - injection H as H. subst r. apply nosol_res_ok; discriminate.
    Qed.
  End Sound.

  Hypothesis OK : milp_input_ok eps c A b ints = true.

  Lemma input_parts : 0 <= eps /\ eps <= 1 # 4 /\ valid_lp c A b = true
    /\ (forall j, In j ints -> (j < length c)%nat) /\ tiny_free eps A = true.
  Proof.
    unfold milp_input_ok in OK. apply andb_true_iff in OK. destruct OK as [H TF]. apply andb_true_iff in H. destruct H as [H V].
    apply andb_true_iff in H. destruct H as [E0 E1]. unfold valid_milp in V.
    apply andb_true_iff in V. destruct V as [V _]. apply andb_true_iff in V. destruct V as [VL VI].
    split; [apply Qleb_le; exact E0|]. split; [apply Qleb_le; exact E1|]. split; [exact VL|]. split; [|exact TF].
    intros j Hj. apply Nat.ltb_lt. rewrite forallb_forall in VI. apply VI. exact Hj.
  Qed.

  (* the same under the boolean input condition milp_input_ok *)
  Theorem solve_milp_ok : forall warm_start solution_limit heuristics lns_iterations r,
    solve_milp lp lns eps gap_tol minimize max_iter max_nodes c A b ints warm_start solution_limit heuristics lns_iterations
      = Some r -> res_ok eps gap_tol minimize c A b ints r.
  Proof.
    destruct input_parts as [E0 [E1 [VL [IL TF]]]]. apply solve_milp_sound; try assumption; [lra|].
    exact (detect_binary_sound eps c A b ints E0 E1 VL TF).
  Qed.
End Main.

(* the error value: solve_milp returns None only if the model fuel of _round_binary ran out, since the loop
   is given bb_fuel *)
Lemma solve_milp_none : forall lp lns eps gap_tol minimize max_iter max_nodes c A b ints warm_start solution_limit
    heuristics lns_iterations,
  solve_milp lp lns eps gap_tol minimize max_iter max_nodes c A b ints warm_start solution_limit heuristics lns_iterations = None ->
  round_binary eps (n_sol (solve_node lp eps minimize max_iter c A b (repeat 0 (length c)) (repeat None (length c))))
               ints c A b minimize = None.
Proof.
  intros lp lns eps gap_tol minimize max_iter max_nodes c A b ints ws sl heur li H. unfold solve_milp in H.
  set (root := solve_node lp eps minimize max_iter c A b (repeat 0 (length c)) (repeat None (length c))) in *.
  destruct (n_status root); try discriminate.
  destruct (most_fractional eps (n_sol root) ints); [|discriminate].
  (* X: the result of the rounding stage (st1 of solve_milp); it is None exactly when round_binary is *)
  match type of H with match ?X with _ => _ end = _ => destruct X as [[best1 all1]|] eqn:R1 end.
  - exfalso.
    match type of H with (let '(_, _) := ?X in _) = _ => destruct X as [best2 all2] end.
    match type of H with bb_loop _ _ _ _ _ ?mn _ _ _ _ _ ?fuel ?st = None =>
      destruct (loop_total lp eps gap_tol minimize max_iter mn c A b ints sl fuel st) as [r Hr] end.
    + unfold bb_fuel. simpl. lia.
    + congruence.
  - destruct (heur && _ && _); [|discriminate].
    destruct (round_binary eps (n_sol root) ints c A b minimize) as [[rd|]|]; try discriminate. reflexivity.
Qed.
