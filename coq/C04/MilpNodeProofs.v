(* Correctness of _solve_node relative to a sound LP kernel: substitution of fixed variables, bound rows. *)
From Coq Require Import List QArith Lia Lqa.
From SV Require Import C03.Simplex C03.LPSpec C03.LinAlgProofs C04.Milp C04.MilpSpec.
Import ListNotations.
Open Scope Q_scope.

Definition agree (fx : list (option Q)) (y : list Q) : Prop :=
  Forall2 (fun o v => match o with Some f => v == f | None => True end) fx y.
Definition fixed_nonneg (fx : list (option Q)) : Prop :=
  Forall (fun o => match o with Some f => 0 <= f | None => True end) fx.
Definition ub_le (v : Q) (u : ub) : Prop := match u with Some h => v <= h | None => True end.
(* both bound lists stand on the left, so that one set of lemmas about set_nth serves lower and upper *)
Definition in_box (lower : list Q) (upper : list ub) (y : list Q) : Prop :=
  Forall2 Qle lower y /\ Forall2 (fun u v => ub_le v u) upper y.
Definition ub_int (u : ub) : Prop := match u with Some h => is_int h | None => True end.
Definition bounds_int (lower : list Q) (upper : list ub) : Prop := Forall is_int lower /\ Forall ub_int upper.

Definition sat (R : list (list Q * Q)) (x : list Q) : Prop := Forall (fun rb => dot (fst rb) x <= snd rb) R.

Definition getv (o : option Q) : Q := match o with Some v => v | None => 0 end.

Lemma sgn_le : forall (mi : bool) (a b : Q), (if mi then a <= b else b <= a) <-> sgn mi * a <= sgn mi * b.
Proof. intros [] a b; unfold sgn; split; intro H; lra. Qed.
Lemma sgn_lt : forall (mi : bool) (a b : Q), (if mi then a < b else b < a) <-> sgn mi * a < sgn mi * b.
Proof. intros [] a b; unfold sgn; split; intro H; lra. Qed.
Lemma sgn_sq : forall mi a, sgn mi * (sgn mi * a) == a.
Proof. intros [] a; unfold sgn; ring. Qed.

Lemma sel_length_eq : forall X Y fx (v : list X) (w : list Y), length v = length w -> length (sel fx v) = length (sel fx w).
Proof.
  intros X Y fx. induction fx as [|o fx IH]; intros [|a v] [|b w] L; try discriminate L; try reflexivity.
  - destruct o; reflexivity.
  - injection L as L. destruct o; simpl; auto.
Qed.

Lemma sel_all_fixed : forall X fx (v : list X), forallb is_fixed fx = true -> sel fx v = [].
Proof.
  intros X fx. induction fx as [|o fx IH]; intros v H; simpl in *; [reflexivity|].
  destruct o; simpl in H; [|discriminate]. destruct v; [reflexivity|]. apply IH. exact H.
Qed.

Lemma sel_Forall : forall X (P : X -> Prop) fx v, Forall P v -> Forall P (sel fx v).
Proof.
  intros X P fx. induction fx as [|o fx IH]; intros v H; simpl; [constructor|].
  destruct o; destruct v; try constructor; inversion H; subst; auto.
Qed.

Lemma sel_Forall2 : forall X Y (P : X -> Y -> Prop) fx v w, Forall2 P v w -> Forall2 P (sel fx v) (sel fx w).
Proof.
  intros X Y P fx. induction fx as [|o fx IH]; intros v w H; simpl; [constructor|].
  destruct o; inversion H; subst; try constructor; auto.
Qed.

Lemma merge_length : forall fx xs, length (merge fx xs) = length fx.
Proof. induction fx as [|o fx IH]; intros xs; simpl; [reflexivity|]. destruct o; simpl; rewrite IH; reflexivity. Qed.

Lemma merge_all_fixed : forall fx xs, forallb is_fixed fx = true -> merge fx xs = map getv fx.
Proof.
  induction fx as [|o fx IH]; intros xs H; simpl in *; [reflexivity|].
  destruct o; simpl in H; [|discriminate]. simpl. rewrite IH; auto.
Qed.

Lemma merge_nonneg : forall fx xs, fixed_nonneg fx -> nonneg xs -> nonneg (merge fx xs).
Proof.
  induction fx as [|o fx IH]; intros xs F N; simpl; [constructor|].
  inversion F; subst. destruct o as [v|].
  - constructor; [assumption|apply IH; assumption].
  - assert (H0 : 0 <= hd 0 xs /\ nonneg (tl xs)).
    { destruct N; simpl; split; try assumption; [apply Qle_refl|constructor]. }
    constructor; [apply H0|apply IH; [assumption|apply H0]].
Qed.

(* dot, sel, fdot and merge all stop at the shorter list (merge pads with zeros), so neither equation needs a length *)
Lemma dot_merge : forall fx row xs, dot row (merge fx xs) == dot (sel fx row) xs + fdot fx row.
Proof.
  induction fx as [|o fx IH]; intros row xs; destruct row as [|a row]; simpl.
  - ring.
  - ring.
  - destruct o; simpl; ring.
  - destruct o as [v|]; simpl; rewrite (IH row); [ring|].
    destruct xs as [|x xs]; simpl; [rewrite !dot_nil_r|]; ring.
Qed.

Lemma dot_sel : forall fx row y, agree fx y -> dot row y == dot (sel fx row) (sel fx y) + fdot fx row.
Proof.
  induction fx as [|o fx IH]; intros row y G; inversion G as [|o' v fx' y' Hov G']; subst; destruct row as [|a row]; simpl.
  - ring.
  - ring.
  - destruct o; simpl; ring.
  - destruct o as [f|]; simpl; rewrite (IH row y' G'); [rewrite Hov|]; ring.
Qed.

Lemma combine_fst : forall (A : list (list Q)) (b : list Q), length A = length b -> map fst (combine A b) = A.
Proof.
  induction A as [|r A IH]; intros b L; destruct b; simpl in *; try discriminate; [reflexivity|].
  injection L as L. rewrite IH; auto.
Qed.
Lemma feasible_rows : forall R x, feasible (map fst R) (map snd R) x <-> nonneg x /\ sat R x.
Proof.
  intros R x. unfold feasible, sat. apply and_iff_compat_l.
  induction R as [|rb R IH]; simpl; [split; constructor|]. rewrite Forall_cons_iff, <- IH. split.
  - intro H. inversion H; subst. split; assumption.
  - intros [H1 H2]. constructor; assumption.
Qed.

Lemma feasible_combine : forall A b x, length A = length b ->
  (feasible A b x <-> nonneg x /\ sat (combine A b) x).
Proof. intros A b x L. unfold feasible, sat. rewrite (Forall2_mv_combine Qle) by exact L. reflexivity. Qed.

Lemma sat_rows_le : forall eps R x, 0 <= eps -> sat R x -> rows_le eps R x.
Proof. intros eps R x E. apply Forall_impl. intros rb H. lra. Qed.

Lemma dot_unit_from : forall i v k s x, length x = k ->
  dot (map (fun j => if Nat.eqb j i then v else 0) (seq s k)) x == v * (if Nat.leb s i then nth (i - s) x 0 else 0).
Proof.
  intros i v k. induction k as [|k IH]; intros s x L; destruct x as [|a x]; simpl in L; try discriminate.
  - simpl. destruct (Nat.leb s i); [destruct (i - s)%nat|]; ring.
  - injection L as L. cbn [seq map dot]. rewrite (IH (S s) x L).
    destruct (Nat.eqb_spec s i) as [->|N].
    + rewrite Nat.leb_refl, Nat.sub_diag, (proj2 (Nat.leb_gt (S i) i)) by lia. simpl. ring.
    + destruct (Nat.leb_spec s i) as [G|G].
      * rewrite (proj2 (Nat.leb_le (S s) i)) by lia. replace (i - s)%nat with (S (i - S s)) by lia. simpl. ring.
      * rewrite (proj2 (Nat.leb_gt (S s) i)) by lia. ring.
Qed.

Lemma dot_unit_row : forall nf i v x, length x = nf -> dot (unit_row nf i v) x == v * nth i x 0.
Proof.
  intros nf i v x L. unfold unit_row. rewrite (dot_unit_from i v nf 0 x L). simpl. rewrite Nat.sub_0_r. reflexivity.
Qed.

Lemma unit_row_length : forall nf i v, length (unit_row nf i v) = nf.
Proof. intros. unfold unit_row. rewrite map_length, seq_length. reflexivity. Qed.

Lemma bound_rows_width : forall eps nf lbs j, Forall (fun rb => length (fst rb) = nf) (bound_rows eps nf j lbs).
Proof.
  intros eps nf lbs. induction lbs as [|[lo hi] r IH]; intros j; simpl; [constructor|].
  apply Forall_app. split; [destruct (Qltb eps lo); repeat constructor; apply unit_row_length|].
  apply Forall_app. split; [destruct hi; repeat constructor; apply unit_row_length|apply IH].
Qed.

(* what the bound rows say of one variable: the lower bound only when it was written down (lo > eps) *)
Definition bnd_ok (eps : Q) (lb : Q * ub) (v : Q) : Prop := (eps < fst lb -> fst lb <= v) /\ ub_le v (snd lb).

Lemma sat_app : forall R1 R2 x, sat (R1 ++ R2) x <-> sat R1 x /\ sat R2 x.
Proof. intros. apply Forall_app. Qed.

Lemma lower_row_sat : forall eps nf j lo x, length x = nf ->
  (sat (if Qltb eps lo then [(unit_row nf j (- (1)), - lo)] else []) x <-> (eps < lo -> lo <= nth j x 0)).
Proof.
  intros eps nf j lo x L. unfold sat. destruct (Qltb eps lo) eqn:G.
  - apply Qltb_lt in G. rewrite Forall_cons_iff, Forall_nil_iff. cbn [fst snd]. rewrite (dot_unit_row _ _ _ _ L).
    split; [intros [H _] _|intro H; specialize (H G); split; [|exact I]]; lra.
  - apply Qltb_false in G. split; [intros _ G'; lra|constructor].
Qed.

Lemma upper_row_sat : forall nf j hi x, length x = nf ->
  (sat (match hi with Some h => [(unit_row nf j 1, h)] | None => [] end) x <-> ub_le (nth j x 0) hi).
Proof.
  intros nf j hi x L. unfold sat. destruct hi as [h|]; simpl; [|split; constructor].
  rewrite Forall_cons_iff, Forall_nil_iff. cbn [fst snd]. rewrite (dot_unit_row _ _ _ _ L).
  split; [intros [H _]|intro H; split; [|exact I]]; lra.
Qed.

(* the rows for the variables from position j on, read at a vector split as pre ++ xs with |pre| = j *)
Lemma bound_rows_sat : forall eps nf lbs j pre xs,
  length (pre ++ xs) = nf -> length pre = j -> length xs = length lbs ->
  (sat (bound_rows eps nf j lbs) (pre ++ xs) <-> Forall2 (bnd_ok eps) lbs xs).
Proof.
  intros eps nf lbs. induction lbs as [|[lo hi] r IH]; intros j pre [|v xs] L Lp Lx; try discriminate Lx.
  - split; constructor.
  - injection Lx as Lx.
    assert (Hn : nth j (pre ++ v :: xs) 0 = v) by (subst j; rewrite app_nth2, Nat.sub_diag by lia; reflexivity).
    assert (T : sat (bound_rows eps nf (S j) r) (pre ++ v :: xs) <-> Forall2 (bnd_ok eps) r xs).
    { change (pre ++ v :: xs) with (pre ++ [v] ++ xs) in *. rewrite app_assoc in *.
      apply IH; [exact L|rewrite app_length; simpl; lia|exact Lx]. }
    simpl bound_rows. rewrite !sat_app, (lower_row_sat _ _ _ _ _ L), (upper_row_sat _ _ _ _ L), T, Hn. split.
    + intros [H1 [H2 H3]]. constructor; [split|]; assumption.
    + intro F. inversion F as [|? ? ? ? [H1 H2] H3]; subst. auto.
Qed.

(* one pass over the bounds: a variable is fixed only when hi - lo < eps <= 1, which for integer bounds means hi <= lo, and
   then it sits at lo <= hi (integers with hi >= lo - eps); a free variable whose lower bound is not written down as a row
   has an integer bound 0 <= lo <= eps < 1, that is lo = 0 <= v *)
Lemma classify_sound : forall eps lower upper fx,
  classify eps lower upper = Some fx -> length lower = length upper ->
  0 <= eps -> eps < 1 -> bounds_int lower upper -> Forall (Qle 0) lower ->
  length fx = length lower /\ fixed_nonneg fx
  /\ (forall y, in_box lower upper y -> agree fx y)
  /\ (forall xs, nonneg xs -> Forall2 (bnd_ok eps) (sel fx (combine lower upper)) xs -> in_box lower upper (merge fx xs)).
Proof.
  intros eps lower. induction lower as [|lo ls IH]; intros [|hi us] fx C L E0 E1 [BL BU] LN; try discriminate L; simpl in C.
  - injection C as <-. split; [reflexivity|]. split; [constructor|]. split.
    + intros y [IL _]. inversion IL. constructor.
    + intros xs N H. split; constructor.
  - injection L as L.
    destruct (match hi with Some h => Qltb h (lo - eps) | None => false end) eqn:G1; [discriminate|].
    destruct (classify eps ls us) as [r|] eqn:C'; [|discriminate]. injection C as <-.
    apply Forall_cons_iff in BL, BU, LN. destruct BL as [Ilo BL]. destruct BU as [Ihi BU]. destruct LN as [Nlo LN].
    destruct (IH us r C' L E0 E1 (conj BL BU) LN) as [Lr [Nr [Ar Mr]]].
    split; [simpl; rewrite Lr; reflexivity|]. split; [|split].
    + constructor; [|exact Nr].
      destruct (match hi with Some h => Qltb (h - lo) eps | None => false end); [exact Nlo|exact I].
    + intros y [IL IU]. inversion IL as [|? v ? y' Hlo IL']; subst. inversion IU as [|? ? ? ? Hhi IU']; subst.
      constructor; [|apply Ar; split; assumption].
      destruct hi as [h|]; [|exact I]. destruct (Qltb (h - lo) eps) eqn:G; [|exact I].
      apply Qltb_lt in G. simpl in Hhi. assert (h <= lo) by (apply int_lt_1; [assumption..|lra]). lra.
    + intros xs N H. destruct (match hi with Some h => Qltb (h - lo) eps | None => false end); simpl in H |- *.
      * destruct (Mr xs N H) as [I1 I2]. split; constructor; try assumption; [apply Qle_refl|].
        destruct hi as [h|]; simpl; [|exact I]. apply Qltb_false in G1. apply int_lt_1; [assumption..|lra].
      * destruct xs as [|v xs']; [inversion H|]. inversion H as [|? ? ? ? [Hlo Hhi] H']; subst.
        apply Forall_cons_iff in N. destruct N as [Nv N]. destruct (Mr xs' N H') as [I1 I2].
        split; constructor; try assumption. simpl in Hlo.
        destruct (Qlt_le_dec eps lo) as [Q1|Q1]; [apply Hlo; exact Q1|].
        assert (lo <= 0) by (apply int_lt_1; [assumption|apply (is_int_Z 0)|lra]). simpl. lra.
Qed.

Lemma classify_none : forall eps lower upper y,
  classify eps lower upper = None -> 0 <= eps -> in_box lower upper y -> False.
Proof.
  intros eps lower. induction lower as [|lo ls IH]; intros upper y H E [IL IU]; [simpl in H; discriminate|].
  inversion IL as [|lo' v ls' y' Hlo IL']; subst. inversion IU as [|hi v' us y'' Hhi IU']; subst.
  simpl in H. destruct (match hi with Some h => Qltb h (lo - eps) | None => false end) eqn:G.
  - destruct hi as [h|]; [|discriminate]. apply Qltb_lt in G. simpl in Hhi. lra.
  - destruct (classify eps ls us) eqn:C; [discriminate|]. apply (IH us y' C E). split; assumption.
Qed.

Lemma combine_bounds : forall eps lower upper y, in_box lower upper y ->
  Forall2 (bnd_ok eps) (combine lower upper) y.
Proof.
  intros eps lower. induction lower as [|lo ls IH]; intros upper y [IL IU]; inversion IL; subst; simpl; [constructor|].
  inversion IU; subst. constructor; [split; simpl; auto|apply IH; split; assumption].
Qed.

Section Node.
  Variable lp : lp_kernel.
  Hypothesis LP : lp_sound lp.
  Variable eps : Q.
  Variable minimize : bool.
  Variable max_iter : nat.
  Variable c : list Q.
  Variable A : list (list Q).
  Variable b : list Q.
  Hypothesis Heps0 : 0 <= eps.
  Hypothesis Heps1 : eps < 1.
  Hypothesis Hvalid : valid_lp c A b = true.

  Lemma valid_parts : A <> [] /\ length A = length b /\ forall r, In r A -> length r = length c.
  Proof.
    unfold valid_lp in Hvalid. apply andb_true_iff in Hvalid. destruct Hvalid as [H H3].
    apply andb_true_iff in H. destruct H as [H1 H2]. split; [|split].
    - intro E. rewrite E in H1. discriminate.
    - apply Nat.eqb_eq. exact H2.
    - intros r Hr. rewrite forallb_forall in H3. apply Nat.eqb_eq. apply H3. exact Hr.
  Qed.

  Lemma feasible_sat : forall y, feasible A b y <-> nonneg y /\ sat (combine A b) y.
  Proof. intro y. apply feasible_combine. apply valid_parts. Qed.

  Definition node_pre (lower : list Q) (upper : list ub) : Prop :=
    length lower = length c /\ length upper = length c /\ bounds_int lower upper /\ Forall (Qle 0) lower.

  Definition node_point (lower : list Q) (upper : list ub) (y : list Q) : Prop :=
    length y = length c /\ feasible A b y /\ in_box lower upper y.

  (* what the answer of _solve_node means, in the shape of lp_sound *)
  Definition node_spec (lower : list Q) (upper : list ub) (r : nres) : Prop :=
    match n_status r with
    | OPTIMAL =>
        length (n_sol r) = length c /\ nonneg (n_sol r) /\ rows_le eps (combine A b) (n_sol r)
        /\ n_obj r == dot c (n_sol r) /\ in_box lower upper (n_sol r)
        /\ forall y, node_point lower upper y -> sgn minimize * n_obj r <= sgn minimize * dot c y
    | INFEASIBLE => forall y, ~ node_point lower upper y
    | UNBOUNDED => forall M, exists y, length y = length c /\ feasible A b y /\ sgn minimize * dot c y < M
    | MAX_ITER => True
    end.

  Section AtNode.
    Variable lower : list Q.
    Variable upper : list ub.
    Variable fx : list (option Q).
    Hypothesis NP : node_pre lower upper.
    Hypothesis C : classify eps lower upper = Some fx.

    Lemma fx_sound : length fx = length c /\ fixed_nonneg fx
      /\ (forall y, in_box lower upper y -> agree fx y)
      /\ (forall xs, nonneg xs -> Forall2 (bnd_ok eps) (sel fx (combine lower upper)) xs -> in_box lower upper (merge fx xs)).
    Proof.
      destruct NP as [Ll [Lu [BI LN]]]. rewrite <- Ll.
      apply (classify_sound eps lower upper fx C); try assumption. congruence.
    Qed.

    (* every variable fixed: the point, map getv fx = merge fx [], is determined; its rows are tested up to eps *)
    Definition node_fixed : nres :=
      if existsb (row_violated eps (map getv fx)) (combine A b) then mkN INFEASIBLE [] 0
      else mkN OPTIMAL (map getv fx) (Qred (fdot fx c)).

    Lemma node_fixed_sound : forallb is_fixed fx = true -> node_spec lower upper node_fixed.
    Proof.
      intro AF. destruct fx_sound as [Lf [FN [AG MB]]]. unfold node_spec, node_fixed. rewrite <- (merge_all_fixed fx [] AF).
      assert (D : forall y, in_box lower upper y -> forall row, dot row y == dot row (merge fx [])).
      { intros y B row. rewrite (dot_sel fx row y (AG y B)), dot_merge, (sel_all_fixed _ fx row AF). reflexivity. }
      destruct (existsb (row_violated eps (merge fx [])) (combine A b)) eqn:V; cbn [n_status n_sol n_obj].
      - intros y [Ly [F B]]. apply existsb_exists in V. destruct V as [rb [Hrb V]]. apply Qltb_lt in V.
        apply feasible_sat in F. destruct F as [_ S]. unfold sat in S. rewrite Forall_forall in S. specialize (S rb Hrb).
        rewrite (D y B) in S. lra.
      - assert (O : Qred (fdot fx c) == dot c (merge fx [])).
        { rewrite Qred_correct, dot_merge, dot_nil_r. ring. }
        split; [rewrite merge_length; exact Lf|]. split; [apply merge_nonneg; [exact FN|constructor]|].
        split; [apply no_row_violated; exact V|]. split; [exact O|]. split.
        + apply MB; [constructor|]. rewrite (sel_all_fixed _ fx _ AF). constructor.
        + intros y [_ [_ B]]. rewrite O, (D y B c). apply Qle_refl.
    Qed.

    (* some variable free: the LP in the free variables, fixed values substituted, bounds as rows *)
    Definition red_rows : list (list Q * Q) :=
      map (fun rb => (sel fx (fst rb), snd rb - fdot fx (fst rb))) (combine A b)
      ++ bound_rows eps (length (sel fx c)) 0 (sel fx (combine lower upper)).
    Notation red_A := (map fst red_rows).
    Notation red_b := (map snd red_rows).

    Definition node_lp : nres :=
      let '(st, x, z) := lp minimize max_iter (sel fx c) red_A red_b in
      match st with
      | OPTIMAL => mkN OPTIMAL (merge fx x) (Qred (z + fdot fx c))
      | _ => mkN st [] 0
      end.

    Lemma red_A_eq :
      map (sel fx) A ++ map fst (bound_rows eps (length (sel fx c)) 0 (sel fx (combine lower upper))) = red_A.
    Proof.
      unfold red_rows. rewrite map_app, map_map. simpl. f_equal.
      destruct valid_parts as [_ [L _]]. rewrite <- (combine_fst A b L) at 1. rewrite map_map. reflexivity.
    Qed.
    Lemma red_b_eq :
      map (fun rb => snd rb - fdot fx (fst rb)) (combine A b)
        ++ map snd (bound_rows eps (length (sel fx c)) 0 (sel fx (combine lower upper))) = red_b.
    Proof. unfold red_rows. rewrite map_app, map_map. reflexivity. Qed.

    Lemma red_valid : valid_lp (sel fx c) red_A red_b = true.
    Proof.
      unfold valid_lp. destruct valid_parts as [NE [L RL]].
      apply andb_true_iff. split; [apply andb_true_iff; split|].
      - unfold red_rows. rewrite map_length, app_length, map_length. destruct A as [|r A']; [congruence|].
        destruct b; simpl in L; [discriminate|]. reflexivity.
      - rewrite !map_length. apply Nat.eqb_refl.
      - apply forallb_forall. intros r Hr. apply Nat.eqb_eq. apply in_map_iff in Hr. destruct Hr as [rb [E Hrb]]. subst r.
        unfold red_rows in Hrb. apply in_app_or in Hrb. destruct Hrb as [H|H].
        + apply in_map_iff in H. destruct H as [[r0 b0] [E H]]. subst rb. apply sel_length_eq. apply RL.
          exact (in_combine_l _ _ _ _ H).
        + pose proof (bound_rows_width eps (length (sel fx c)) (sel fx (combine lower upper)) 0) as F.
          rewrite Forall_forall in F. apply F. exact H.
    Qed.

    Lemma sel_bounds_length : forall X (v : list X), length v = length c ->
      length v = length (combine lower upper) /\ length (sel fx v) = length (sel fx (combine lower upper)).
    Proof.
      intros X v L. destruct NP as [Ll [Lu _]].
      assert (E : length v = length (combine lower upper)) by (rewrite combine_length; lia).
      split; [exact E|apply sel_length_eq; exact E].
    Qed.

    Lemma red_feasible_of_point : forall y, node_point lower upper y ->
      feasible red_A red_b (sel fx y) /\ dot c y == dot (sel fx c) (sel fx y) + fdot fx c.
    Proof.
      intros y [Ly [F B]]. destruct fx_sound as [_ [_ [AG _]]]. pose proof (AG y B) as G.
      split; [|apply dot_sel; exact G].
      apply feasible_rows. apply feasible_sat in F. destruct F as [N S]. split; [apply sel_Forall; exact N|].
      unfold red_rows. apply sat_app. split.
      - unfold sat in *. rewrite Forall_map. revert S. apply Forall_impl. intros rb S. simpl.
        rewrite (dot_sel fx (fst rb) y G) in S. lra.
      - apply (bound_rows_sat eps _ _ 0 [] (sel fx y)); [simpl; apply sel_length_eq; exact Ly|reflexivity| |].
        + apply (sel_bounds_length _ y Ly).
        + apply sel_Forall2. apply combine_bounds. exact B.
    Qed.

    Lemma lift_feasible : forall xs, feasible red_A red_b xs ->
      length (merge fx xs) = length c /\ feasible A b (merge fx xs)
      /\ dot c (merge fx xs) == dot (sel fx c) xs + fdot fx c.
    Proof.
      intros xs F. destruct fx_sound as [Lf [FN _]]. apply feasible_rows in F. destruct F as [N S].
      split; [rewrite merge_length; exact Lf|]. split; [|apply dot_merge].
      apply feasible_sat. split; [apply merge_nonneg; [exact FN|exact N]|].
      unfold red_rows in S. apply sat_app in S. destruct S as [S _]. unfold sat in *. rewrite Forall_map in S.
      revert S. apply Forall_impl. intros rb S. simpl in S. rewrite dot_merge. lra.
    Qed.

    Lemma node_lp_sound : node_spec lower upper node_lp.
    Proof.
      unfold node_spec, node_lp. pose proof (LP minimize max_iter _ _ _ red_valid) as S.
      destruct (lp minimize max_iter (sel fx c) red_A red_b) as [[st x] z].
      destruct st; cbn [n_status n_sol n_obj].
      - destruct S as [Lx [[Fx Opt] Z]]. destruct (lift_feasible x Fx) as [Lm [FA DC]].
        assert (O : Qred (z + fdot fx c) == dot c (merge fx x)) by (rewrite Qred_correct, DC, Z; reflexivity).
        pose proof FA as FA'. apply feasible_sat in FA'. destruct FA' as [N Sat].
        split; [exact Lm|]. split; [exact N|]. split; [apply sat_rows_le; assumption|]. split; [exact O|]. split.
        + destruct fx_sound as [_ [_ [_ MB]]]. apply MB; [exact (proj1 Fx)|].
          apply feasible_rows in Fx. destruct Fx as [_ Sx]. unfold red_rows in Sx. apply sat_app in Sx.
          apply (bound_rows_sat eps (length (sel fx c)) _ 0 [] x); [exact Lx|reflexivity| |exact (proj2 Sx)].
          rewrite Lx. apply (sel_bounds_length _ c eq_refl).
        + intros y P. destruct (red_feasible_of_point y P) as [Fy Dy]. specialize (Opt _ Fy). apply sgn_le in Opt.
          rewrite O, DC, Dy. rewrite !Qmult_plus_distr_r. lra.
      - intros y P. exact (S _ (proj1 (red_feasible_of_point y P))).
      - (* points of the reduced LP with objective below M - const lift to points with objective below M *)
        intros M. destruct (S (sgn minimize * (M - sgn minimize * fdot fx c))) as [xs [Fx Hx]].
        destruct (lift_feasible xs Fx) as [Lm [FA DC]].
        exists (merge fx xs). split; [exact Lm|]. split; [exact FA|].
        rewrite DC. apply sgn_lt in Hx. rewrite sgn_sq in Hx. rewrite Qmult_plus_distr_r. lra.
      - exact I.
    Qed.
  End AtNode.

  Theorem solve_node_sound : forall lower upper, node_pre lower upper ->
    node_spec lower upper (solve_node lp eps minimize max_iter c A b lower upper).
  Proof.
    intros lower upper NP. unfold solve_node.
    destruct (classify eps lower upper) as [fx|] eqn:C.
    - destruct (forallb is_fixed fx) eqn:AF; [exact (node_fixed_sound lower upper fx NP C AF)|].
      cbv zeta. rewrite (red_A_eq lower upper fx), (red_b_eq lower upper fx). exact (node_lp_sound lower upper fx NP C).
    - intros y [_ [_ B]]. exact (classify_none _ _ _ y C Heps0 B).
  Qed.
End Node.
