(* _round_binary (code after 7e63594) only returns points that pass _is_feasible: after the rounding loop the point is
   checked; a flip of phase 1 is kept only if the flipped point passes; a swap trial of phase 2 leaves the point
   unchanged and the swap that is finally applied is exactly the state that passed when it was recorded. *)
From Coq Require Import List QArith.
From SV Require Import C03.Simplex C03.LPSpec C03.LinAlgProofs C04.Milp C04.MilpSpec.
Import ListNotations.
Open Scope Q_scope.

Lemma rb_round_length : forall eps A b cands sol sol',
  rb_round eps A b cands sol = Some sol' -> length sol' = length sol.
Proof.
  intros eps A b cands. induction cands as [|[[k v] j] r IH]; intros sol sol' H; simpl in H.
  - injection H as H. subst. reflexivity.
  - destruct (rows_ok eps (set_nth j (inject_Z (pyround v)) sol) A b).
    + rewrite (IH _ _ H). apply set_nth_length.
    + destruct (rows_ok eps (set_nth j (1 - inject_Z (pyround v)) sol) A b); [|discriminate].
      rewrite (IH _ _ H). apply set_nth_length.
Qed.

Lemma fold_left_inv : forall X Y (P : X -> Prop) (f : X -> Y -> X) l st,
  (forall st y, P st -> P (f st y)) -> P st -> P (fold_left f l st).
Proof. intros X Y P f l. induction l as [|y l IH]; intros st Hf H; simpl; auto. Qed.

Section Round.
  Variable eps : Q.
  Variable minimize : bool.
  Variable c : list Q.
  Variable A : list (list Q).
  Variable b : list Q.
  Variable ints : list nat.

  Notation feas := (fun s => is_feasible eps s A b ints = true).

  Lemma flip_pass_inv : forall fc sol imp sol' imp',
    feas sol -> rb_flip_pass eps A b ints fc sol imp = (sol', imp') -> feas sol' /\ length sol' = length sol.
  Proof.
    induction fc as [|[k j] r IH]; intros sol imp sol' imp' F H; simpl in H.
    - injection H as H1 H2. subst. split; [exact F|reflexivity].
    - destruct (is_feasible eps (set_nth j (1 - nth j sol 0) sol) A b ints) eqn:E.
      + destruct (IH _ _ _ _ E H) as [F' L']. split; [exact F'|]. rewrite L'. apply set_nth_length.
      + exact (IH _ _ _ _ F H).
  Qed.

  Lemma phase1_inv : forall fuel sol sol',
    feas sol -> rb_phase1 fuel eps minimize c A b ints sol = Some sol' -> feas sol' /\ length sol' = length sol.
  Proof.
    induction fuel as [|f IH]; intros sol sol' F H; simpl in H; [discriminate|].
    match type of H with (let '(_, _) := ?X in _) = _ => destruct X as [s1 imp] eqn:P end.
    destruct (flip_pass_inv _ _ _ _ _ F P) as [F1 L1].
    destruct imp.
    - destruct (IH _ _ F1 H) as [F2 L2]. split; [exact F2|congruence].
    - injection H as H. subst. split; assumption.
  Qed.

  (* phase 2, code after 7e63594: the sweep does not change sol; a recorded swap passed _is_feasible *)
  Definition sweep_ok (sol : list Q) (st : Q * option (nat * nat) * list Q) : Prop :=
    snd st = sol /\ forall j_on j_off, snd (fst st) = Some (j_on, j_off) ->
                      is_feasible eps (set_nth j_off 0 (set_nth j_on 1 sol)) A b ints = true.

  Lemma try_inv : forall sol s j_on st j_off, sweep_ok sol st -> sweep_ok sol (rb_try true eps A b ints s c j_on st j_off).
  Proof.
    intros sol s j_on [[bg bs] s0] j_off [E W]. simpl in E. subst s0. unfold rb_try.
    destruct (Qltb bg (- s * nth j_on c 0 + s * nth j_off c 0)); [|split; [reflexivity|exact W]].
    destruct (is_feasible eps (set_nth j_off 0 (set_nth j_on 1 sol)) A b ints) eqn:F; split; simpl; try reflexivity.
    - intros a b' H. injection H as H1 H2. subst. exact F.
    - exact W.
  Qed.

  Lemma sweep_inv : forall sol s ones zeros st, sweep_ok sol st ->
    sweep_ok sol (fold_left (fun st j_on => fold_left (rb_try true eps A b ints s c j_on) ones st) zeros st).
  Proof.
    intros sol s ones zeros st. apply fold_left_inv. intros st1 j_on. apply fold_left_inv. intros st2 j_off. apply try_inv.
  Qed.

  Lemma phase2_inv : forall fuel sol sol',
    feas sol -> rb_phase2 true fuel eps minimize c A b ints sol = Some sol' -> feas sol' /\ length sol' = length sol.
  Proof.
    induction fuel as [|f IH]; intros sol sol' F H; simpl in H; [discriminate|].
    match type of H with match ?X with _ => _ end = _ =>
      pose proof (sweep_inv sol (sgn minimize) (filter (fun j => Qltb (1 # 2) (nth j sol 0)) ints)
                            (filter (fun j => Qltb (nth j sol 0) (1 # 2)) ints) (0, None, sol)) as SW;
      destruct X as [[bg bs] s1] eqn:P end.
    destruct SW as [E W]; [split; [reflexivity|intros a b' H0; discriminate]|]. simpl in E, W. subst s1.
    destruct bs as [[j_on j_off]|].
    - destruct (IH _ _ (W j_on j_off eq_refl) H) as [F2 L2]. split; [exact F2|]. rewrite L2, !set_nth_length. reflexivity.
    - injection H as H. subst. split; [exact F|reflexivity].
  Qed.

  Theorem round_binary_feasible : forall lp_solution rd,
    round_binary eps lp_solution ints c A b minimize = Some (Some rd) ->
    length rd = length lp_solution /\ is_feasible eps rd A b ints = true.
  Proof.
    intros lps rd H. unfold round_binary, round_binary_gen in H.
    match type of H with match ?X with _ => _ end = _ => destruct X as [s0|] eqn:R0 end; [|discriminate].
    destruct (is_feasible eps s0 A b ints) eqn:F0; cbn [negb] in H; cbv iota in H; [|discriminate].
    destruct (rb_phase1 (S (length ints)) eps minimize c A b ints s0) as [s1|] eqn:P1; [|discriminate].
    destruct (rb_phase2 true (S (2 ^ length ints)) eps minimize c A b ints s1) as [s2|] eqn:P2; [|discriminate].
    injection H as H. subst s2.
    destruct (phase1_inv _ _ _ F0 P1) as [F1 L1]. destruct (phase2_inv _ _ _ F1 P2) as [F2 L2].
    split; [|exact F2]. rewrite L2, L1. exact (rb_round_length _ _ _ _ _ _ R0).
  Qed.
End Round.
