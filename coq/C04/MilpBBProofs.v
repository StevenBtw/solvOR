(* The branch-and-bound loop: invariant, one step, the loop, the final status mapping, and the fuel it needs. *)
From Coq Require Import List QArith Qabs Qround Qminmax Lia Lqa Sorted Permutation.
From SV Require Import C03.Simplex C03.LPSpec C03.LinAlgProofs C04.Milp C04.MilpSpec C04.MilpNodeProofs.
Import ListNotations.
Open Scope Q_scope.

Lemma Forall2_set_nth : forall X Y (P : X -> Y -> Prop) d i v l y,
  Forall2 P l y -> P v (nth i y d) -> Forall2 P (set_nth i v l) y.
Proof.
  intros X Y P d i v l. revert i. induction l as [|x l IH]; intros i y H Hv; inversion H; subst; [destruct i; constructor|].
  destruct i; simpl in *; constructor; auto.
Qed.
(* weakening back: the replaced entry was at least as permissive *)
Lemma Forall2_unset : forall X Y (P : X -> Y -> Prop) d i v l y,
  Forall2 P (set_nth i v l) y -> (forall w, P v w -> P (nth i l d) w) -> Forall2 P l y.
Proof.
  intros X Y P d i v l. revert i. induction l as [|x l IH]; intros i y H W; [destruct i; simpl in H; exact H|].
  destruct i; simpl in *; inversion H; subst; constructor; eauto.
Qed.
Lemma Forall2_nth : forall X Y (P : X -> Y -> Prop) d1 d2 l y i,
  Forall2 P l y -> (i < length l)%nat -> P (nth i l d1) (nth i y d2).
Proof.
  intros X Y P d1 d2 l y i H. revert i. induction H; intros i L; simpl in L; [lia|]. destruct i; simpl; [assumption|apply IHForall2; lia].
Qed.

Lemma mf_fold : forall eps sol l st,
  (fold_left (mf_step eps sol) l st = st
   /\ forall j, In j l -> Qltb eps (frac_dist (nth j sol 0)) && Qltb (snd st) (frac_dist (nth j sol 0)) = false)
  \/ exists j, In j l /\ fst (fold_left (mf_step eps sol) l st) = Some j.
Proof.
  intros eps sol l. induction l as [|i l IH]; intros st; simpl; [left; split; [reflexivity|intros j []]|].
  unfold mf_step at 2 4. destruct (Qltb eps (frac_dist (nth i sol 0)) && Qltb (snd st) (frac_dist (nth i sol 0))) eqn:E.
  - right. destruct (IH (Some i, frac_dist (nth i sol 0))) as [[E' _]|[j [Hj E']]].
    + exists i. split; [left; reflexivity|rewrite E'; reflexivity].
    + exists j. split; [right; exact Hj|exact E'].
  - destruct (IH st) as [[E' F]|[j [Hj E']]]; [left|right].
    + split; [exact E'|]. intros j [<-|Hj]; [exact E|exact (F j Hj)].
    + exists j. split; [right; exact Hj|exact E'].
Qed.

Lemma mf_none : forall eps sol ints, 0 <= eps ->
  most_fractional eps sol ints = None -> forall j, In j ints -> frac_dist (nth j sol 0) <= eps.
Proof.
  intros eps sol ints E H j Hj. unfold most_fractional in H.
  destruct (mf_fold eps sol ints (None, 0)) as [[_ F]|[j' [_ E']]]; [|rewrite E' in H; discriminate].
  specialize (F j Hj). apply andb_false_iff in F. destruct F as [F|F]; apply Qltb_false in F; simpl in F; lra.
Qed.

Lemma mf_some : forall eps sol ints j, most_fractional eps sol ints = Some j -> In j ints.
Proof.
  intros eps sol ints j H. unfold most_fractional in H.
  destruct (mf_fold eps sol ints (None, 0)) as [[E' _]|[j' [Hj' E']]]; rewrite E' in H; [discriminate|].
  injection H as <-. exact Hj'.
Qed.

Definition kle (k1 k2 : hkey) : Prop := fst (fst k1) <= fst (fst k2).

Lemma heap_push_perm : forall k t, Permutation (heap_push k t) (k :: t).
Proof.
  intros k t. induction t as [|h t IH]; simpl; [reflexivity|].
  destruct (Qleb (fst (fst h)) (fst (fst k))); [|reflexivity]. rewrite IH. apply perm_swap.
Qed.

Lemma heap_push_length : forall k t, length (heap_push k t) = S (length t).
Proof. intros k t. exact (Permutation_length (heap_push_perm k t)). Qed.

Lemma heap_push_sorted : forall k t, StronglySorted kle t -> StronglySorted kle (heap_push k t).
Proof.
  intros k t. induction t as [|h t IH]; intros S; simpl; [repeat constructor|].
  inversion S as [|h' t' S' F]; subst.
  destruct (Qleb (fst (fst h)) (fst (fst k))) eqn:E.
  - apply Qleb_le in E. constructor; [apply IH; exact S'|]. rewrite heap_push_perm. constructor; assumption.
  - apply Qleb_false in E. constructor; [exact S|]. constructor; [unfold kle; lra|].
    revert F. apply Forall_impl. intros x F. unfold kle in *. lra.
Qed.

Lemma compute_gap_bound : forall minimize obj nb gap_tol,
  compute_gap obj (sgn minimize * nb) < gap_tol -> sgn minimize * obj - gap_tol * Qmax 1 (Qabs obj) <= nb.
Proof.
  intros mi obj nb g H. unfold compute_gap in H.
  assert (D : sgn mi * obj - nb <= Qabs (obj - sgn mi * nb)).
  { destruct mi; unfold sgn.
    - eapply Qle_trans; [|apply Qle_Qabs]. lra.
    - rewrite <- Qabs_opp. eapply Qle_trans; [|apply Qle_Qabs]. lra. }
  pose proof (Qabs_nonneg (obj - sgn mi * nb)) as N0.
  pose proof (Q.le_max_l 1 (Qabs obj)) as M1. pose proof (Q.le_max_r 1 (Qabs obj)) as M2.
  destruct (Qltb (Qabs obj) (1 # 10000000000)) eqn:E.
  - assert (0 < g) by lra. assert (g * 1 <= g * Qmax 1 (Qabs obj)) by (apply Qmult_le_l; assumption). lra.
  - apply Qltb_false in E. assert (P : 0 < Qabs obj) by lra.
    assert (K : Qabs (obj - sgn mi * nb) < g * Qabs obj).
    { apply Qnot_le_lt. intro G. apply (Qle_shift_div_l _ _ _ P) in G. lra. }
    assert (0 < g).
    { apply Qnot_le_lt. intro G. assert (g * Qabs obj <= 0 * Qabs obj) by (apply Qmult_le_compat_r; lra). lra. }
    assert (g * Qabs obj <= g * Qmax 1 (Qabs obj)) by (apply Qmult_le_l; assumption). lra.
Qed.

(* branching on x_fv at the value val: floor / ceiling children *)
Lemma int_split : forall q v, is_int q -> q <= inject_Z (Qfloor v) \/ inject_Z (Qceiling v) <= q.
Proof.
  intros q v [z Hz]. rewrite Hz. destruct (Qlt_le_dec v (inject_Z z)) as [H|H]; [right|left]; rewrite <- Zle_Qle.
  - rewrite <- (Qceiling_Z z). apply Qceiling_resp_le. apply Qlt_le_weak. exact H.
  - rewrite <- (Qfloor_Z z) at 1. apply Qfloor_resp_le. exact H.
Qed.

Lemma ub_le_trans : forall w v u, w <= v -> ub_le v u -> ub_le w u.
Proof. intros w v [h|] H1 H2; simpl in *; [lra|exact I]. Qed.

Section Children.
  Variable lower : list Q.
  Variable upper : list ub.
  Variable fv : nat.
  Variable val : Q.
  Notation upper_l := (set_nth fv (Some (inject_Z (Qfloor val))) upper).
  Notation lower_r := (set_nth fv (inject_Z (Qceiling val)) lower).

  Lemma children_cover : forall y, in_box lower upper y -> is_int (nth fv y 0) ->
    in_box lower upper_l y \/ in_box lower_r upper y.
  Proof.
    intros y [B1 B2] Iy. destruct (int_split (nth fv y 0) val Iy) as [Q|Q].
    - left. split; [exact B1|]. apply (Forall2_set_nth _ _ _ 0); [exact B2|exact Q].
    - right. split; [|exact B2]. apply (Forall2_set_nth _ _ _ 0); [exact B1|exact Q].
  Qed.

  (* val lies within the old bounds of x_fv, so the children are parts of the parent *)
  Hypothesis Vlo : nth fv lower 0 <= val.
  Hypothesis Vhi : ub_le val (nth fv upper None).

  Lemma left_child_sub : forall y, in_box lower upper_l y -> in_box lower upper y.
  Proof.
    intros y [B1 B2]. split; [exact B1|]. apply (Forall2_unset _ _ _ None fv _ _ _ B2). intros w Hw. simpl in Hw.
    apply (ub_le_trans w val); [|exact Vhi]. pose proof (Qfloor_le val). lra.
  Qed.

  Lemma right_child_sub : forall y, in_box lower_r upper y -> in_box lower upper y.
  Proof.
    intros y [B1 B2]. split; [|exact B2]. apply (Forall2_unset _ _ _ 0 fv _ _ _ B1). intros w Hw.
    pose proof (Qle_ceiling val). lra.
  Qed.
End Children.

Section BB.
  Variable lp : lp_kernel.
  Hypothesis LP : lp_sound lp.
  Variable eps gap_tol : Q.
  Variable minimize : bool.
  Variable max_iter max_nodes : nat.
  Variable c : list Q.
  Variable A : list (list Q).
  Variable b : list Q.
  Variable ints : list nat.
  Variable solution_limit : nat.
  Hypothesis Heps0 : 0 <= eps.
  Hypothesis Heps1 : eps < 1.
  Hypothesis Hvalid : valid_lp c A b = true.
  Hypothesis Hints : forall j, In j ints -> (j < length c)%nat.
  (* every feasible point of the relaxation is at least as expensive as the root bound (root LP was OPTIMAL) *)
  Variable root_bound : Q.
  Hypothesis Hroot : forall y, length y = length c -> feasible A b y -> root_bound <= sgn minimize * dot c y.

  Notation sgm := (sgn minimize).
  Notation IF := (int_feasible c A b ints).
  Notation step := (bb_step lp eps gap_tol minimize max_iter c A b ints solution_limit).
  Notation loop := (bb_loop lp eps gap_tol minimize max_iter max_nodes c A b ints solution_limit).
  Notation box nd := (in_box (nd_lower nd) (nd_upper nd)).

  Definition node_ok (k : hkey) : Prop :=
    node_pre c (nd_lower (snd k)) (nd_upper (snd k))
    /\ forall y, IF y -> box (snd k) y -> fst (fst k) <= sgm * dot c y.

  Definition best_ok (best : option (list Q * Q)) : Prop :=
    match best with Some (bs, bo) => sol_ok eps c A b ints bs bo | None => True end.

  Definition by_best (best : option (list Q * Q)) (y : list Q) : Prop :=
    exists bs bo, best = Some (bs, bo) /\ sgm * bo - eps <= sgm * dot c y.
  Definition in_tree (t : list hkey) (y : list Q) : Prop := exists k, In k t /\ box (snd k) y.

  (* `open` is the part of the search space that is neither in the tree nor settled by the incumbent: nothing between
     two iterations, the box of the popped node while bb_step works on it.  Unless an LP hit its iteration limit, every
     integer-feasible point is open, in a node of the tree, or no better than the incumbent by more than eps. *)
  Record Inv (open : list Q -> Prop) (st : bstate) : Prop := mkInv {
    inv_nodes : Forall node_ok (s_tree st);
    inv_sorted : StronglySorted kle (s_tree st);
    inv_best : best_ok (s_best st);
    inv_all : Forall (point_ok eps c A b ints) (s_all st);
    inv_cover : s_hit st = false -> forall y, IF y -> open y \/ in_tree (s_tree st) y \/ by_best (s_best st) y
  }.
  Notation nothing := (fun _ : list Q => False).

  (* what is guaranteed of a Result *)
  Definition res_ok (r : milp_result) : Prop :=
    (forall x, m_solution r = Some x -> exists o, m_objective r = Fin o /\ sol_ok eps c A b ints x o)
    /\ (forall ss x, m_solutions r = Some ss -> In x ss -> point_ok eps c A b ints x)
    /\ (m_status r = S_OPTIMAL ->
        exists x o, m_solution r = Some x /\ m_objective r = Fin o
                    /\ forall y, IF y -> sgm * o - opt_slack eps gap_tol o <= sgm * dot c y)
    /\ (m_status r = S_INFEASIBLE -> forall y, ~ IF y)
    /\ (m_status r = S_UNBOUNDED -> lp_unbounded minimize c A b).

  Lemma slack_eps : forall o, eps <= opt_slack eps gap_tol o.
  Proof. intros. unfold opt_slack. apply Q.le_max_l. Qed.
  Lemma slack_gap : forall o, gap_tol * Qmax 1 (Qabs o) <= opt_slack eps gap_tol o.
  Proof. intros. unfold opt_slack. apply Q.le_max_r. Qed.

  Lemma sol_res_ok : forall st x o nodes sols,
    sol_ok eps c A b ints x o -> (forall ss, sols = Some ss -> Forall (point_ok eps c A b ints) ss) ->
    (st = S_OPTIMAL -> forall y, IF y -> sgm * o - opt_slack eps gap_tol o <= sgm * dot c y) ->
    st <> S_INFEASIBLE -> st <> S_UNBOUNDED -> res_ok (mkM st (Some x) (Fin o) nodes sols).
  Proof.
    intros st x o nodes sols SOK PA OPT N1 N2. split; [|split; [|split; [|split]]]; simpl.
    - intros x' Hx. injection Hx as Hx. subst x'. exists o. split; [reflexivity|exact SOK].
    - intros ss x' Hs. specialize (PA ss Hs). rewrite Forall_forall in PA. apply PA.
    - intro Hst. exists x, o. split; [reflexivity|]. split; [reflexivity|exact (OPT Hst)].
    - intro Hst. contradiction.
    - intro Hst. contradiction.
  Qed.

  Lemma nosol_res_ok : forall st o nodes, st <> S_OPTIMAL ->
    (st = S_INFEASIBLE -> forall y, ~ IF y) -> (st = S_UNBOUNDED -> lp_unbounded minimize c A b) ->
    res_ok (mkM st None o nodes None).
  Proof.
    intros st o nodes N1 INF UNB. split; [|split; [|split; [|split]]]; simpl.
    - intros x Hx. discriminate.
    - intros ss x Hs. discriminate.
    - intro Hst. contradiction.
    - exact INF.
    - exact UNB.
  Qed.

  Lemma lp_point_ok : forall sol,
    length sol = length c -> nonneg sol -> rows_le eps (combine A b) sol ->
    most_fractional eps sol ints = None -> point_ok eps c A b ints sol.
  Proof.
    intros sol L N R M. split; [exact L|]. split; [split|].
    - revert N. apply Forall_impl. intros v Hv. lra.
    - destruct (valid_parts c A b Hvalid) as [_ [LA _]].
      apply (Forall2_mv_combine (fun l r => l <= r + eps)); [exact LA|]. exact R.
    - intros j Hj. apply frac_near_int. apply (mf_none eps sol ints Heps0 M j Hj).
  Qed.

  Lemma IF_point : forall lower upper y, IF y -> in_box lower upper y -> node_point c A b lower upper y.
  Proof. intros lower upper y [L [F _]] B. split; [exact L|]. split; assumption. Qed.

  Lemma close_node : forall open tree cnt nodes nodes' best all hit,
    Inv open (mkS tree cnt nodes best all hit) -> (forall y, IF y -> open y -> by_best best y) ->
    Inv nothing (mkS tree cnt nodes' best all hit).
  Proof.
    intros open tree cnt nodes nodes' best all hit [IN IS IB IA IC] D. constructor; simpl in *; try assumption.
    intros Hh y Hy. right. destruct (IC Hh y Hy) as [H|H]; [right; exact (D y Hy H)|exact H].
  Qed.

  (* an incumbent that prunes v settles every open point costing at least v *)
  Lemma prune_node : forall open tree cnt nodes nodes' best all hit v,
    Inv open (mkS tree cnt nodes best all hit) -> prune eps minimize best v = true ->
    (forall y, IF y -> open y -> v <= sgm * dot c y) -> Inv nothing (mkS tree cnt nodes' best all hit).
  Proof.
    intros open tree cnt nodes nodes' best all hit v I P Bnd. apply (close_node _ _ _ _ _ _ _ _ I). intros y Hy B.
    unfold prune in P. destruct best as [[bs bo]|]; [|discriminate]. apply Qleb_le in P.
    exists bs, bo. split; [reflexivity|]. pose proof (Bnd y Hy B). unfold Milp.sg in P. lra.
  Qed.

  (* an objective that the incumbent does not prune beats it by more than eps, so it improves on it *)
  Lemma unpruned_improves : forall best o, prune eps minimize best (sgm * o) = false -> improves minimize best o = true.
  Proof.
    intros [[bs bo]|] o P; [|reflexivity]. apply Qleb_false in P. apply Qltb_lt. unfold Milp.sg in *. lra.
  Qed.

  Lemma branch_ok : forall nd tree cnt nodes nodes' best all hit sol cb fv,
    node_pre c (nd_lower nd) (nd_upper nd) -> Inv (box nd) (mkS tree cnt nodes best all hit) ->
    length sol = length c -> box nd sol -> In fv ints ->
    (forall y, IF y -> box nd y -> cb <= sgm * dot c y) ->
    let val := nth fv sol 0 in
    let left := mkNode cb (nd_lower nd) (set_nth fv (Some (inject_Z (Qfloor val))) (nd_upper nd)) (S (nd_depth nd)) in
    let right := mkNode cb (set_nth fv (inject_Z (Qceiling val)) (nd_lower nd)) (nd_upper nd) (S (nd_depth nd)) in
    Inv nothing (mkS (heap_push (cb, S cnt, right) (heap_push (cb, cnt, left) tree)) (S (S cnt)) nodes' best all hit).
  Proof.
    intros nd tree cnt nodes nodes' best all hit sol cb fv [Ll [Lu [[BL BU] LN]]] [IN IS IB IA IC] SL [SB1 SB2] Hfv Bnd
           val left right.
    pose proof (Hints fv Hfv) as Lfv.
    assert (Vlo : nth fv (nd_lower nd) 0 <= val) by (apply (Forall2_nth _ _ Qle); [exact SB1|lia]).
    assert (Vhi : ub_le val (nth fv (nd_upper nd) None)).
    { apply (Forall2_nth _ _ (fun u v => ub_le v u) None 0 _ _ fv SB2). lia. }
    assert (OKL : node_ok (cb, cnt, left)).
    { split; simpl.
      - split; [exact Ll|]. split; [rewrite set_nth_length; exact Lu|]. split; [|exact LN].
        split; [exact BL|]. apply Forall_set_nth; [exact BU|]. apply is_int_Z.
      - intros y Hy B. apply (Bnd y Hy). exact (left_child_sub _ _ fv val Vhi y B). }
    assert (OKR : node_ok (cb, S cnt, right)).
    { split; simpl.
      - split; [rewrite set_nth_length; exact Ll|]. split; [exact Lu|]. split.
        + split; [|exact BU]. apply Forall_set_nth; [exact BL|]. apply is_int_Z.
        + apply Forall_set_nth; [exact LN|]. rewrite Forall_forall in LN.
          assert (0 <= nth fv (nd_lower nd) 0) by (apply LN; apply nth_In; lia).
          pose proof (Qle_ceiling val). lra.
      - intros y Hy B. apply (Bnd y Hy). exact (right_child_sub _ _ fv val Vlo y B). }
    simpl in *. constructor; simpl; try assumption.
    - rewrite !heap_push_perm. constructor; [exact OKR|]. constructor; [exact OKL|exact IN].
    - apply heap_push_sorted. apply heap_push_sorted. exact IS.
    - intros Hh y Hy. right. destruct (IC Hh y Hy) as [B|[[k [Hk Bk]]|H]]; [left|left|right; exact H].
      + destruct Hy as [_ [_ Iy]].
        destruct (children_cover _ _ fv val y B (Iy fv Hfv)) as [Q|Q]; [exists (cb, cnt, left)|exists (cb, S cnt, right)];
          (split; [rewrite !heap_push_perm; simpl; auto|exact Q]).
      + exists k. split; [rewrite !heap_push_perm; simpl; auto|exact Bk].
  Qed.

  (* one iteration, entered after heappop: the popped key bounds its box from below and is the least key *)
  Lemma step_ok : forall nb nd st,
    Inv (box nd) st -> node_ok (nb, O, nd) -> Forall (fun k => nb <= fst (fst k)) (s_tree st) ->
    match step nb nd st with inl st' => Inv nothing st' | inr r => res_ok r end.
  Proof.
    intros nb nd [tree cnt nodes best all hit] I [NP NB] PM. unfold bb_step, Milp.sg. simpl in NP, NB, PM |- *.
    destruct (prune eps minimize best nb) eqn:P1.
    { (* first prune test: the inherited bound *)
      exact (prune_node _ _ _ _ _ _ _ _ _ I P1 NB). }
    pose proof (solve_node_sound lp LP eps minimize max_iter c A b Heps0 Heps1 Hvalid _ _ NP) as NS. unfold node_spec in NS.
    set (r := solve_node lp eps minimize max_iter c A b (nd_lower nd) (nd_upper nd)) in *.
    destruct (n_status r) eqn:St; cbv beta iota.
    - destruct NS as [SL [SN [SR [SOb [SB SOpt]]]]].
      assert (Bnd : forall y, IF y -> box nd y -> sgm * n_obj r <= sgm * dot c y).
      { intros y Hy B. apply SOpt. apply IF_point; assumption. }
      destruct (prune eps minimize best (sgm * n_obj r)) eqn:P2.
      { (* second prune test: the LP bound of the node itself *)
        exact (prune_node _ _ _ _ _ _ _ _ _ I P2 Bnd). }
      destruct (most_fractional eps (n_sol r) ints) as [fv|] eqn:MF.
      { apply (branch_ok nd tree cnt nodes _ best all hit (n_sol r) (Qred (sgm * n_obj r)) fv NP I SL SB (mf_some _ _ _ _ MF)).
        intros y Hy B. rewrite Qred_correct. apply Bnd; assumption. }
      pose proof (lp_point_ok (n_sol r) SL SN SR MF) as PO.
      assert (SOK : sol_ok eps c A b ints (n_sol r) (n_obj r)) by (split; assumption).
      destruct I as [IN IS IB IA IC]. simpl in IN, IS, IB, IA, IC.
      set (collect := Nat.ltb 1 solution_limit && negb (mem_sol (n_sol r) all)).
      set (all' := if collect then all ++ [n_sol r] else all).
      assert (PA' : Forall (point_ok eps c A b ints) all').
      { unfold all'. destruct collect; [|exact IA]. apply Forall_app. split; [exact IA|]. constructor; [exact PO|constructor]. }
      destruct (collect && Nat.leb solution_limit (length all')) eqn:EX.
      { destruct (best_or best (n_sol r) (n_obj r)) as [bs bo] eqn:BO.
        apply sol_res_ok; [|intros ss Hs; injection Hs as Hs; subst ss; exact PA'|discriminate|discriminate|discriminate].
        unfold best_or in BO. destruct best as [[[|x xs] o]|]; simpl in IB; injection BO as B1 B2; subst; assumption. }
      (* the second prune test failed, so the test for a new incumbent succeeds.  Every point outside the tree is in
         the node or was settled by the old incumbent, and the new incumbent is within eps of both kinds *)
      pose proof (unpruned_improves _ _ P2) as IM. rewrite IM.
      assert (New : hit = false -> forall y, IF y -> in_tree tree y \/ sgm * n_obj r - eps <= sgm * dot c y).
      { intros Hh y Hy. destruct (IC Hh y Hy) as [B|[H|[bs [bo [E H]]]]]; [right|left; exact H|right].
        - pose proof (Bnd y Hy B). lra.
        - unfold improves in IM. rewrite E in IM. apply Qltb_lt in IM. unfold Milp.sg in *. lra. }
      destruct (Qltb (compute_gap (n_obj r) (sgm * nb)) gap_tol && Nat.eqb solution_limit 1 && negb hit) eqn:GP.
      { (* early exit on the gap: the nodes left in the tree have keys >= nb, which is within the gap of the objective *)
        apply andb_true_iff in GP. destruct GP as [GP G3]. apply andb_true_iff in GP. destruct GP as [G1 G2].
        apply negb_true_iff in G3. apply Qltb_lt in G1.
        apply sol_res_ok; [exact SOK|discriminate| |discriminate|discriminate].
        intros _ y Hy. pose proof (slack_eps (n_obj r)) as M0.
        destruct (New G3 y Hy) as [[k [Hk Bk]]|H]; [|lra].
        rewrite Forall_forall in PM, IN. pose proof (PM k Hk) as M1.
        pose proof (proj2 (IN k Hk) y Hy Bk) as M2.
        pose proof (compute_gap_bound minimize (n_obj r) nb gap_tol G1) as M3.
        pose proof (slack_gap (n_obj r)) as M4. lra. }
      constructor; simpl; try assumption.
      intros Hh y Hy. right. destruct (New Hh y Hy) as [H|H]; [left; exact H|right].
      exists (n_sol r), (n_obj r). split; [reflexivity|exact H].
    - (* INFEASIBLE: the box holds no integer-feasible point *)
      rewrite orb_false_r. apply (close_node _ _ _ _ _ _ _ _ I). intros y Hy B.
      destruct (NS y). apply IF_point; assumption.
    - (* UNBOUNDED: impossible below a bounded root *)
      exfalso. destruct (NS root_bound) as [y [Ly [Fy Hy]]]. pose proof (Hroot y Ly Fy). lra.
    - (* MAX_ITER: the node is dropped and lp_limit_hit set *)
      destruct I. constructor; simpl in *; try assumption. rewrite orb_true_r. discriminate.
  Qed.

  Lemma finish_ok : forall st, Inv nothing st -> res_ok (bb_finish minimize solution_limit st).
  Proof.
    intros st [IN IS IB IA IC]. unfold bb_finish.
    assert (Done : s_tree st = [] -> s_hit st = false -> forall y, IF y -> by_best (s_best st) y).
    { intros ET EH y Hy. rewrite ET in IC. destruct (IC EH y Hy) as [[]|[[k [[] _]]|H]]. exact H. }
    destruct (s_best st) as [[bs bo]|] eqn:EB.
    - apply sol_res_ok; [exact IB| | | |].
      + intros ss Hs. destruct (s_all st); [discriminate|]. destruct (Nat.ltb 1 solution_limit); [|discriminate].
        injection Hs as Hs. subst ss. exact IA.
      + intros Hst y Hy. destruct (s_tree st); [|discriminate]. destruct (s_hit st); [discriminate|].
        destruct (Done eq_refl eq_refl y Hy) as [bs' [bo' [E H]]]. injection E as E1 E2. subst. pose proof (slack_eps bo'). lra.
      + destruct (s_tree st); [destruct (s_hit st)|]; discriminate.
      + destruct (s_tree st); [destruct (s_hit st)|]; discriminate.
    - apply nosol_res_ok.
      + destruct (s_hit st || _); discriminate.
      + intros Hst y Hy. destruct (s_hit st); [discriminate|]. destruct (s_tree st); [|discriminate].
        destruct (Done eq_refl eq_refl y Hy) as [bs' [bo' [E H]]]. discriminate.
      + destruct (s_hit st || _); discriminate.
  Qed.

  Lemma loop_ok : forall fuel st r, Inv nothing st -> loop fuel st = Some r -> res_ok r.
  Proof.
    induction fuel as [|f IH]; intros st r I H; simpl in H; [discriminate|].
    destruct (s_tree st) as [|[[nb cnt] nd] rest] eqn:ET.
    - injection H as H. subst r. apply finish_ok. exact I.
    - destruct (Nat.leb max_nodes (s_nodes st)).
      + injection H as H. subst r. apply finish_ok. exact I.
      + destruct I as [IN IS IB IA IC]. rewrite ET in *.
        inversion IN as [|k t NK NT]; subst. inversion IS as [|k t SS SF]; subst.
        assert (I' : Inv (box nd) (mkS rest (s_counter st) (s_nodes st) (s_best st) (s_all st) (s_hit st))).
        { constructor; simpl; try assumption.
          intros Hh y Hy. destruct (IC Hh y Hy) as [[]|[[k [[Hk|Hk] Bk]]|Hb]].
          - subst k. left. exact Bk.
          - right. left. exists k. split; assumption.
          - right. right. exact Hb. }
        pose proof (step_ok nb nd _ I' NK SF) as SO.
        destruct (step nb nd (mkS rest (s_counter st) (s_nodes st) (s_best st) (s_all st) (s_hit st))) as [st'|r'].
        * apply (IH st' r SO H).
        * injection H as H. subst r'. exact SO.
  Qed.

  (* fuel: S (S (2 * max_nodes)) iterations suffice.  Every iteration pops a node; one that pushes two children
     also increments nodes_explored, which the loop bounds by max_nodes. *)
  Definition measure_ok (st : bstate) (o : bstate + milp_result) : Prop :=
    match o with
    | inl st' =>
        (s_nodes st' = s_nodes st /\ length (s_tree st') = length (s_tree st))
        \/ (s_nodes st' = S (s_nodes st) /\ (length (s_tree st') <= length (s_tree st) + 2)%nat)
    | inr _ => True
    end.

  Lemma step_measure : forall nb nd st, measure_ok st (step nb nd st).
  Proof.
    intros nb nd st. unfold bb_step.
    (* every test of bb_step is split; each leaf is st itself, or st with one more node and at most two pushes *)
    repeat match goal with
           | |- context [match ?X with _ => _ end] => destruct X
           end; simpl; rewrite ?heap_push_length; auto; right; (split; [reflexivity|lia]).
  Qed.

  Lemma loop_total : forall fuel st,
    (length (s_tree st) + 2 * (max_nodes - s_nodes st) < fuel)%nat -> exists r, loop fuel st = Some r.
  Proof.
    induction fuel as [|f IH]; intros st M; [lia|]. simpl.
    destruct (s_tree st) as [|[[nb cnt] nd] rest] eqn:ET; [eexists; reflexivity|].
    destruct (Nat.leb max_nodes (s_nodes st)) eqn:EN; [eexists; reflexivity|].
    apply Nat.leb_gt in EN. simpl in M.
    destruct (step nb nd (mkS rest (s_counter st) (s_nodes st) (s_best st) (s_all st) (s_hit st))) as [st'|r] eqn:ES;
      [|eexists; reflexivity].
    apply IH. pose proof (step_measure nb nd (mkS rest (s_counter st) (s_nodes st) (s_best st) (s_all st) (s_hit st))) as SM.
    rewrite ES in SM. destruct SM as [[H1 H2]|[H1 H2]]; simpl in H1, H2; rewrite H1; lia.
  Qed.
End BB.
