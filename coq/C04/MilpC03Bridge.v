(* Bridge to C03: lp_sound of the simplex model (exact arithmetic, eps = 0) follows from the three C03 soundness
   statements (C03_optimal_sound_full_statement, C03_infeasible_sound_full_statement, C03_unbounded_sound_full_statement
   of Props/C03.v, restated here verbatim as hypotheses so that this file does not depend on Props/C03.v). *)
From Coq Require Import List QArith.
From SV Require Import C03.Simplex C03.LPSpec C03.LinAlgProofs C04.Milp C04.MilpInst C04.MilpSpec.
Import ListNotations.
Open Scope Q_scope.

Definition c03_optimal_sound : Prop :=
  forall minimize fuel c A b r, valid_lp c A b = true ->
    solve_lp 0 minimize fuel c A b = r -> r_status r = OPTIMAL ->
    lp_optimal minimize c A b (r_solution r) /\ r_objective r == dot c (r_solution r).
Definition c03_infeasible_sound : Prop :=
  forall minimize fuel c A b r, valid_lp c A b = true ->
    solve_lp 0 minimize fuel c A b = r -> r_status r = INFEASIBLE -> lp_infeasible A b.
Definition c03_unbounded_sound : Prop :=
  forall minimize fuel c A b r, valid_lp c A b = true ->
    solve_lp 0 minimize fuel c A b = r -> r_status r = UNBOUNDED -> lp_unbounded minimize c A b.

Lemma extract_loop_length : forall n basis rows i sol, length (extract_loop n basis i rows sol) = length sol.
Proof.
  intros n basis rows. induction rows as [|r rs IH]; intros i sol; simpl; [reflexivity|].
  rewrite IH. destruct (Nat.ltb (nth i basis O) n); [apply set_nth_length|reflexivity].
Qed.

Lemma extract_length : forall T basis n st it mi piv, length (r_solution (extract T basis n st it mi piv)) = n.
Proof. intros. unfold extract. simpl. rewrite extract_loop_length. unfold zeros. apply repeat_length. Qed.

Lemma solve_lp_length : forall eps mi fuel c A b,
  r_status (solve_lp eps mi fuel c A b) = OPTIMAL -> length (r_solution (solve_lp eps mi fuel c A b)) = length c.
Proof.
  intros eps mi fuel c A b. unfold solve_lp.
  destruct (existsb (fun r => Qltb (snd r) (- eps)) (t_rows (init_tableau mi c A b))).
  - destruct (phase1 eps fuel (length b) (length c) (init_tableau mi c A b) (seq (length c) (length b)))
      as [[[[st it] T1] b1] p1].
    destruct st; try (simpl; discriminate).
    destruct (phase2 eps (fuel - it) 0 T1 b1 p1) as [[[[st2 it2] T2] b2] p2]. intros _. apply extract_length.
  - destruct (phase2 eps fuel 0 (init_tableau mi c A b) (seq (length c) (length b)) []) as [[[[st2 it2] T2] b2] p2].
    intros _. apply extract_length.
Qed.

Theorem lp_sound_from_C03 :
  c03_optimal_sound -> c03_infeasible_sound -> c03_unbounded_sound -> lp_sound (simplex_kernel 0).
Proof.
  intros HO HI HU mi it c A b V. unfold simplex_kernel.
  destruct (r_status (solve_lp 0 mi it c A b)) eqn:St.
  - destruct (HO mi it c A b _ V eq_refl St) as [O Z]. split; [apply solve_lp_length; exact St|]. split; assumption.
  - exact (HI mi it c A b _ V eq_refl St).
  - exact (HU mi it c A b _ V eq_refl St).
  - exact I.
Qed.
