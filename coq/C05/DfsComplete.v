(* C05 - completeness of the DFS (property (4) of Props/C05.v).
 (4a) INFEASIBLE from the DFS model implies that no solution exists (any value order that lists every value
 of the domain, any solution_limit, any hints - thanks to the retry without hints).
 (4b) When the solution limit is not reached the DFS returns every solution - projected on the named
 variables - exactly once (for every value order that is a duplicate-free listing of the domain). Hidden
 ("_") variables are searched too, one completion per named assignment. *)
From Coq Require Import List ZArith Bool Lia.
From SV Require Import C06.CpAst C06.CpAstProofs C05.CpDfs C05.CpSpec C05.CpLemmas C05.PropSound
  C05.DfsSound.
Import ListNotations.
Open Scope Z_scope.

(* min(unassigned or candidates, key=len) *)
Definition branch_var (ds : doms) (o : var) (otl : list var) : var :=
  match filter vnamed (o :: otl) with [] => argmin ds o otl | u :: utl => argmin ds u utl end.

Lemma bt_S vo vs cs limit f ds sols :
  bt vo vs cs limit (S f) ds sols =
  match open_vars vs ds with
  | [] => Some (sols ++ [leaf_sol vs ds], true)
  | o :: otl =>
      let v := branch_var ds o otl in
      bt_loop cs limit (bt vo vs cs limit f) ds (vid v) (match filter vnamed (o :: otl) with [] => true | _ => false end)
              (vo (dget ds (vid v))) sols
  end.
Proof. reflexivity. Qed.

Lemma argmin_In ds : forall rest best, In (argmin ds best rest) (best :: rest).
Proof.
  induction rest as [|v tl IH]; intros best; simpl; [left; reflexivity|].
  destruct (Nat.ltb _ _).
  - destruct (IH v) as [H|H]; [right; left; exact H | right; right; exact H].
  - destruct (IH best) as [H|H]; [left; exact H | right; right; exact H].
Qed.

Lemma branch_var_open vs ds o otl : open_vars vs ds = o :: otl ->
  let v := branch_var ds o otl in
  In v vs /\ is_open (dget ds (vid v)) = true /\ (filter vnamed (o :: otl) <> [] -> vnamed v = true).
Proof.
  intros O v. assert (Hv : In v (o :: otl) /\ (filter vnamed (o :: otl) <> [] -> vnamed v = true)).
  { unfold v, branch_var. destruct (filter vnamed (o :: otl)) as [|u utl] eqn:U.
    - split; [apply argmin_In | intros X; contradiction].
    - pose proof (argmin_In ds utl u) as A. rewrite <- U in A. apply filter_In in A. split; [|intros _]; tauto. }
  destruct Hv as [Hv Nv]. rewrite <- O in Hv. apply filter_In in Hv. tauto.
Qed.

Definition found (M : cpmodel) (ds : doms) (sols out : list sol) (b : bool) : Prop :=
  exists e, out = sols ++ e /\ (b = true -> e <> []) /\ ((exists a, sol_in M a ds) -> e <> []).

Section Complete.
  Variable M : cpmodel.
  Variable vo : list Z -> list Z.
  Variable limit : Z.
  Hypothesis WF : wf_dfs M = true.
  Hypothesis VO : forall d, incl d (vo d).

  Let vs := m_vars M.
  Let cs := m_cons M.

  (* prop_sound, in terms of sol_in *)
  Lemma sol_in_propagate a ds : sol_in M a ds ->
    propagate cs ds <> PFail /\ forall ds', propagate cs ds = POk ds' -> sol_in M a ds'.
  Proof.
    intros [I [K H]].
    assert (H1 : forall c, In c cs -> cvars_in c ds /\ holds a c).
    { intros c Hc. split; [apply (wf_dfs_cvars M _ WF K c Hc) | apply H, Hc]. }
    destruct (prop_sound a cs ds I H1) as [NF OK]. split; [exact NF|].
    intros ds' PR. destruct (OK _ PR) as [I2 K2]. split; [exact I2 | split; [congruence | exact H]].
  Qed.

  Lemma sol_in_child a ds v : sol_in M a ds ->
    propagate cs (dset ds v [a v]) <> PFail /\ forall ds', propagate cs (dset ds v [a v]) = POk ds' -> sol_in M a ds'.
  Proof.
    intros [I [K H]]. apply sol_in_propagate. split; [|split; [rewrite dkeys_dset; exact K | exact H]].
    apply in_ds_dset; [exact I | left; reflexivity].
  Qed.

  Lemma bt_loop_found (rec : doms -> list sol -> bt_out) ds v nn :
    (forall ds' sols out b, rec ds' sols = Some (out, b) -> found M ds' sols out b) ->
    forall vals sols out b, bt_loop cs limit rec ds v nn vals sols = Some (out, b) ->
    exists e, out = sols ++ e /\ (b = true -> e <> []) /\ (forall a, sol_in M a ds -> In (a v) vals -> e <> []).
  Proof.
    intros REC. induction vals as [|val rest IH]; intros sols out b H; simpl in H.
    - inversion H. subst. exists []. split; [symmetry; apply app_nil_r|]. split; [discriminate | intros a _ []].
    - destruct (propagate cs (dset ds v [val])) as [| |ds'] eqn:PR; [discriminate | |].
      + (* a refuted value is the value of no solution *)
        destruct (IH _ _ _ H) as [e [E [B F]]]. exists e. split; [exact E|]. split; [exact B|].
        intros a SI [Ha|Ha]; [|exact (F a SI Ha)]. exfalso. subst val.
        destruct (sol_in_child a ds v SI) as [NF _]. exact (NF PR).
      + destruct (rec ds' sols) as [[sols' stop]|] eqn:R; [|discriminate].
        destruct (REC _ _ _ _ R) as [e1 [-> [B1 F1]]].
        destruct (stop && (nn || (limit <=? Z.of_nat (length (sols ++ e1))))) eqn:C.
        * inversion H. subst. apply andb_true_iff in C. destruct C as [-> _]. pose proof (B1 eq_refl) as N1.
          exists e1. split; [reflexivity|]. split; intros; exact N1.
        * destruct (IH _ _ _ H) as [e2 [-> [B2 F2]]]. exists (e1 ++ e2). split; [apply app_assoc_reverse|]. split.
          -- intros Hb X. apply app_eq_nil in X. exact (B2 Hb (proj2 X)).
          -- intros a SI [Ha|Ha] X; apply app_eq_nil in X; destruct X as [X1 X2]; [|exact (F2 a SI Ha X2)].
             subst val. destruct (sol_in_child a ds v SI) as [_ OK]. exact (F1 (ex_intro _ a (OK _ PR)) X1).
  Qed.

  Lemma bt_found : forall fuel ds sols out b, bt vo vs cs limit fuel ds sols = Some (out, b) -> found M ds sols out b.
  Proof.
    induction fuel as [|f IH]; intros ds sols out b H; [discriminate|]. rewrite bt_S in H.
    destruct (open_vars vs ds) as [|o otl] eqn:O.
    - inversion H. subst. exists [leaf_sol vs ds]. split; [reflexivity|]. split; discriminate.
    - destruct (branch_var_open vs ds o otl O) as [Hv _]. cbv zeta in H, Hv.
      destruct (bt_loop_found _ ds _ _ (IH) _ _ _ _ H) as [e [E [B F]]]. exists e. split; [exact E|]. split; [exact B|].
      intros [a SI]. apply (F a SI). apply VO. destruct SI as [I [K _]]. apply I. rewrite K. apply in_map. exact Hv.
  Qed.

  Lemma solution_in_init a : cp_solution M a -> sol_in M a (init_doms vs).
  Proof.
    intros [D H]. split; [|split; [apply dkeys_init | exact H]].
    intros i Hi. rewrite dkeys_init in Hi. apply in_map_iff in Hi. destruct Hi as [v [<- Hv]].
    rewrite (dget_init vs v (wf_dfs_ids M WF) Hv). apply In_zrange. apply D. exact Hv.
  Qed.

  Theorem solve_dfs_infeasible : solve_dfs vo M [] limit = RSols [] -> no_solution M.
  Proof.
    intros H a SA. destruct (sol_in_propagate a _ (solution_in_init a SA)) as [NF OK].
    destruct (solve_dfs_RSols _ _ _ _ _ H) as [_ [[PF _]|[ds' [b [PR B]]]]]; [exact (NF PF)|].
    destruct (bt_found _ _ _ _ _ B) as [e [E [_ F]]]. simpl in E. subst e.
    exact (F (ex_intro _ a (OK _ PR)) eq_refl).
  Qed.
End Complete.

Lemma empty_dom_no_solution M : has_empty_dom M = true -> no_solution M.
Proof.
  unfold has_empty_dom. intros H a [D _]. apply existsb_exists in H. destruct H as [v [Hv L]].
  apply Z.ltb_lt in L. specialize (D v Hv). lia.
Qed.

Theorem dfs_infeasible (vo : list Z -> list Z) (M : cpmodel) (hints : list (nat * Z)) (limit : Z) :
  wf_dfs M = true -> (forall d, incl d (vo d)) ->
  solve vo M hints limit = RSols [] -> no_solution M.
Proof.
  intros WF VO H. destruct (solve_cases vo M hints limit) as [[HE _]|[_ [h [E [_ N]]]]].
  - apply empty_dom_no_solution, HE.
  - rewrite E in H. rewrite (N H) in H. apply (solve_dfs_infeasible M vo limit WF VO H).
Qed.

Theorem dfs_empty_iff vo M hints limit sols :
  wf_dfs M = true -> (forall d, incl (vo d) d) -> (forall d, incl d (vo d)) ->
  solve vo M hints limit = RSols sols -> (sols = [] <-> no_solution M).
Proof.
  intros WF V1 V2 E. split.
  - intros ->. apply (dfs_infeasible vo M hints limit WF V2 E).
  - intros NS. destruct sols as [|y ys]; [reflexivity|]. exfalso.
    destruct (dfs_sound vo M hints limit _ WF V1 E y (or_introl eq_refl)) as [a [A _]]. exact (NS a A).
Qed.

Section Enum.
  Variable M : cpmodel.
  Variable vo : list Z -> list Z.
  Variable limit : Z.
  Hypothesis WF : wf_dfs M = true.
  Hypothesis SUP : existsb sat_required (m_cons M) = false.
  Hypothesis VO1 : forall d, incl (vo d) d.
  Hypothesis VO2 : forall d, incl d (vo d).
  Hypothesis VO3 : forall d, NoDup d -> NoDup (vo d).

  Let vs := m_vars M.
  Let cs := m_cons M.
  Let node := Pre M (init_doms vs).
  Let HD : dsub (init_doms vs) (init_doms vs) := dsub_refl _.

  Definition ans (ds : doms) (x : sol) : Prop := exists a, sol_in M a ds /\ project M a = x.
  Definition ans_at (ds : doms) (v : nat) (vals : list Z) (x : sol) : Prop :=
    exists a, sol_in M a ds /\ In (a v) vals /\ project M a = x.

  Definition lists_answers (ds : doms) (sols out : list sol) : Prop :=
    exists e, out = sols ++ e /\ NoDup e /\ forall x, In x e <-> ans ds x.

  Lemma ans_sub ds' ds x : dsub ds' ds -> ans ds' x -> ans ds x.
  Proof. intros S [a [SI E]]. exists a. split; [apply (sol_in_sub M a ds' ds S SI) | exact E]. Qed.

  Lemma child_sols ds v val ds' a : In v (dkeys ds) -> In val (dget ds v) -> propagate cs (dset ds v [val]) = POk ds' ->
    (sol_in M a ds' <-> sol_in M a ds /\ a v = val).
  Proof.
    intros Kv Hval PR. pose proof (child_sub cs ds v val ds' Hval PR) as Sub. split.
    - intros SI. split; [apply (sol_in_sub M a ds' ds Sub SI)|]. destruct SI as [I _].
      assert (Hin : In (a v) (dget ds' v)) by (apply I; rewrite (dsub_keys _ _ Sub); exact Kv).
      apply (dsub_incl _ _ v (dsub_propagate _ _ _ PR)) in Hin. rewrite dget_dset_same in Hin by exact Kv.
      destruct Hin as [<-|[]]. reflexivity.
    - intros [SI <-]. destruct (sol_in_child M WF a ds v SI) as [_ OK]. exact (OK _ PR).
  Qed.

  Lemma project_named a a' v : project M a = project M a' -> In v vs -> vnamed v = true -> a (vid v) = a' (vid v).
  Proof.
    intros E Hv Nv. pose proof (proj1 (@map_ext_in_iff _ _ _ _ _) E v (proj2 (filter_In _ _ _) (conj Hv Nv))) as X.
    inversion X as [X']. exact X'.
  Qed.

  Definition named_closed (ds : doms) : Prop :=
    forall v, In v vs -> vnamed v = true -> is_open (dget ds (vid v)) = false.

  Lemma no_named_open ds l : open_vars vs ds = l -> (filter vnamed l = [] <-> named_closed ds).
  Proof.
    intros <-. rewrite filter_nil. split.
    - intros H v Hv Nv. destruct (is_open (dget ds (vid v))) eqn:E; [|reflexivity].
      rewrite (H v) in Nv; [discriminate | apply filter_In; tauto].
    - intros NC u Hu. apply filter_In in Hu. destruct Hu as [Hu Ou]. destruct (vnamed u) eqn:Nu; [|reflexivity].
      rewrite (NC u Hu Nu) in Ou. discriminate.
  Qed.

  Lemma named_closed_child ds ds' : dnodup ds' -> dsub ds' ds -> named_closed ds -> named_closed ds'.
  Proof.
    intros ND' Sub NC v Hv Nv. specialize (NC v Hv Nv). unfold is_open in *.
    apply Nat.ltb_ge in NC. apply Nat.ltb_ge.
    pose proof (NoDup_incl_length (ND' (vid v)) (dsub_incl _ _ (vid v) Sub)). lia.
  Qed.

  (* then all solutions inside the domains give the same answer: one answer is all there is *)
  Lemma closed_enum ds x : named_closed ds -> ans ds x -> forall y, In y [x] <-> ans ds y.
  Proof.
    intros NC [a [[I [K H]] E]] y. split; [intros [<-|[]]; exists a; repeat split; assumption|].
    intros [a' [[I' _] E']]. left. rewrite <- E, <- E'. apply map_ext_in. intros v Hv.
    apply filter_In in Hv. destruct Hv as [Hv Nv]. unfold aval.
    assert (Kv : In (vid v) (dkeys ds)) by (rewrite K; apply in_map; exact Hv).
    pose proof (not_open_in a' ds _ I' Kv (NC v Hv Nv)) as X.
    rewrite (not_open_in a ds _ I Kv (NC v Hv Nv)) in X. inversion X. reflexivity.
  Qed.

  Lemma ans_at_skip ds v val rest x : (forall a, sol_in M a ds -> val <> a v) ->
    (ans_at ds v rest x <-> ans_at ds v (val :: rest) x).
  Proof.
    intros No. split; intros [a [SI [Ha Ex]]]; exists a; simpl; [auto|].
    destruct Ha as [Ha|Ha]; [destruct (No a SI Ha) | auto].
  Qed.

  (* ds' holds exactly the solutions of ds that take val at v *)
  Lemma ans_at_cons ds ds' v val rest x : (forall a, sol_in M a ds' <-> sol_in M a ds /\ a v = val) ->
    (ans ds' x \/ ans_at ds v rest x <-> ans_at ds v (val :: rest) x).
  Proof.
    intros CS. split.
    - intros [[a [SI Ex]]|[a [SI [Ha Ex]]]]; exists a; simpl; [|auto].
      apply CS in SI. destruct SI as [SI Ha]. auto.
    - intros [a [SI [[->|Ha] Ex]]]; [left | right]; exists a; [|auto].
      split; [apply CS; auto | exact Ex].
  Qed.

  Lemma loop_spec (rec : doms -> list sol -> bt_out) ds v :
    In v vs -> vnamed v = true -> node ds ->
    (forall ds' sols out b, rec ds' sols = Some (out, b) -> found M ds' sols out b) ->
    (forall ds' sols out b, node ds' -> rec ds' sols = Some (out, b) -> Z.of_nat (length out) < limit -> lists_answers ds' sols out) ->
    forall vals sols out b, NoDup vals -> incl vals (dget ds (vid v)) ->
      bt_loop cs limit rec ds (vid v) false vals sols = Some (out, b) -> Z.of_nat (length out) < limit ->
      exists e, out = sols ++ e /\ NoDup e /\ forall x, In x e <-> ans_at ds (vid v) vals x.
  Proof.
    intros Hv Nv P REC SPEC.
    assert (Kv : In (vid v) (dkeys ds)) by (rewrite (Pre_keys M _ HD ds P); apply in_map; exact Hv).
    induction vals as [|val rest IH]; intros sols out b NDv Iv H Big; simpl in H.
    - inversion H. subst. exists []. split; [symmetry; apply app_nil_r|]. split; [constructor|].
      intros x. split; [intros [] | intros [a [_ [[] _]]]].
    - inversion NDv as [|? ? Nval NDr]; subst.
      destruct (incl_cons_inv Iv) as [Hval Ir].
      destruct (propagate cs (dset ds (vid v) [val])) as [| |ds'] eqn:PR; [discriminate | |].
      + (* propagation refutes val: no solution takes it *)
        destruct (IH _ _ _ NDr Ir H Big) as [e [E [ND A]]]. exists e. split; [exact E|]. split; [exact ND|].
        intros x. rewrite (A x). apply ans_at_skip. intros a SI ->.
        exact (proj1 (sol_in_child M WF a ds (vid v) SI) PR).
      + destruct (rec ds' sols) as [[sols' stop]|] eqn:R; [|discriminate].
        pose proof (Pre_child M _ ds (vid v) val ds' P Hval PR) as P'.
        pose proof (fun a => child_sols ds (vid v) val ds' a Kv Hval PR) as CS.
        destruct (stop && (limit <=? Z.of_nat (length sols'))) eqn:C.
        * exfalso. inversion H. subst. apply andb_true_iff in C. destruct C as [_ C]. apply Z.leb_le in C. lia.
        * destruct (bt_loop_found M limit WF rec ds (vid v) false REC _ _ _ _ H) as [e2' [E2' _]].
          assert (Big1 : Z.of_nat (length sols') < limit) by (rewrite E2', app_length in Big; lia).
          destruct (SPEC _ _ _ _ P' R Big1) as [e1 [E1 [ND1 A1]]].
          destruct (IH _ _ _ NDr Ir H Big) as [e2 [E2 [ND2 A2]]].
          exists (e1 ++ e2). split; [rewrite E2, E1; apply app_assoc_reverse|]. split.
          -- (* an answer below the child shows val at v, an answer found later a value of rest *)
             apply NoDup_app_disjoint; [exact ND1 | exact ND2|]. intros x H1 H2.
             apply A1 in H1. destruct H1 as [a1 [S1 X1]]. apply A2 in H2. destruct H2 as [a2 [_ [Ha2 X2]]].
             apply Nval. rewrite <- (proj2 (proj1 (CS a1) S1)).
             rewrite (project_named a1 a2 v (eq_trans X1 (eq_sym X2)) Hv Nv). exact Ha2.
          -- intros x. rewrite in_app_iff, (A1 x), (A2 x). apply ans_at_cons, CS.
  Qed.

  (* the hidden phase: every named variable is fixed; at most one answer comes out of the subtree *)
  Definition one_or_none (ds : doms) (sols out : list sol) (b : bool) : Prop :=
    (out = sols /\ b = false) \/ (exists x, out = sols ++ [x] /\ b = true /\ ans ds x).

  Lemma hidden_loop (rec : doms -> list sol -> bt_out) ds v :
    node ds -> named_closed ds ->
    (forall ds' sols out b, node ds' -> named_closed ds' -> rec ds' sols = Some (out, b) -> one_or_none ds' sols out b) ->
    forall vals sols out b, incl vals (dget ds v) ->
      bt_loop cs limit rec ds v true vals sols = Some (out, b) -> one_or_none ds sols out b.
  Proof.
    intros P NC REC. induction vals as [|val rest IH]; intros sols out b Iv H; simpl in H.
    - inversion H. left. split; reflexivity.
    - destruct (incl_cons_inv Iv) as [Hval Ir].
      destruct (propagate cs (dset ds v [val])) as [| |ds'] eqn:PR; [discriminate | apply IH; assumption |].
      pose proof (Pre_child M _ ds v val ds' P Hval PR) as P'.
      pose proof (child_sub cs ds v val ds' Hval PR) as Sub.
      pose proof (named_closed_child ds ds' (Pre_nodup M WF _ HD ds' P') Sub NC) as NC'.
      destruct (rec ds' sols) as [[sols' stop]|] eqn:R; [|discriminate].
      destruct (REC _ _ _ _ P' NC' R) as [[-> ->]|[x [-> [-> AX]]]]; simpl in H.
      + apply IH; assumption.
      + inversion H. right. exists x. split; [reflexivity|]. split; [reflexivity | exact (ans_sub _ _ _ Sub AX)].
  Qed.

  Lemma leaf_ans ds : node ds -> open_vars vs ds = [] -> ans ds (leaf_sol vs ds).
  Proof. intros P O. destruct (leaf_valid M WF SUP _ HD ds P O) as [a [SI E]]. exists a. split; assumption. Qed.

  Lemma hidden_spec : forall fuel ds sols out b, node ds -> named_closed ds ->
    bt vo vs cs limit fuel ds sols = Some (out, b) -> one_or_none ds sols out b.
  Proof.
    induction fuel as [|f IH]; intros ds sols out b P NC H; [discriminate|]. rewrite bt_S in H.
    destruct (open_vars vs ds) as [|o otl] eqn:O.
    - inversion H. right. exists (leaf_sol vs ds). split; [reflexivity|]. split; [reflexivity | apply leaf_ans; assumption].
    - rewrite (proj2 (no_named_open ds _ O) NC) in H.
      apply (hidden_loop (bt vo vs cs limit f) ds _ P NC) with (3 := H); [|apply VO1].
      intros. eapply IH; eauto.
  Qed.

  Lemma bt_spec : forall fuel ds sols out b, node ds ->
    bt vo vs cs limit fuel ds sols = Some (out, b) -> Z.of_nat (length out) < limit -> lists_answers ds sols out.
  Proof.
    induction fuel as [|f IH]; intros ds sols out b P H Big; [discriminate|].
    pose proof H as H0. rewrite bt_S in H.
    destruct (open_vars vs ds) as [|o otl] eqn:O.
    - inversion H. subst. exists [leaf_sol vs ds]. split; [reflexivity|]. split; [apply NoDup_single|].
      apply closed_enum; [|apply leaf_ans; assumption]. intros v Hv _. apply (open_vars_nil vs ds O v Hv).
    - destruct (branch_var_open vs ds o otl O) as [Hv [_ Nv]]. cbv zeta in H, Hv, Nv.
      destruct (filter vnamed (o :: otl)) as [|u utl] eqn:U.
      + (* no named variable is open: hidden phase *)
        pose proof (proj1 (no_named_open ds _ O) U) as NC.
        destruct (hidden_spec _ _ _ _ _ P NC H0) as [[-> ->]|[x [-> [-> AX]]]].
        * exists []. split; [symmetry; apply app_nil_r|]. split; [constructor|].
          intros x. split; [intros []|]. intros [a [SI _]]. exfalso.
          destruct (bt_found M vo limit WF VO2 _ _ _ _ _ H0) as [e [E [_ F]]].
          apply (F (ex_intro _ a SI)). apply (app_inv_head sols). rewrite <- E. symmetry. apply app_nil_r.
        * exists [x]. split; [reflexivity|]. split; [apply NoDup_single | apply closed_enum; assumption].
      + set (v := branch_var ds o otl) in *.
        assert (Nv' : vnamed v = true) by (apply Nv; discriminate).
        (* the value loop with rec := bt f, whose two facts are bt_found and the induction hypothesis; the values
           vo (dget ds v) are duplicate-free by VO3 and inside the domain by VO1 *)
        destruct (loop_spec (bt vo vs cs limit f) ds v Hv Nv' P (bt_found M vo limit WF VO2 f) (IH)
                            (vo (dget ds (vid v))) sols out b (VO3 _ (Pre_nodup M WF _ HD ds P _)) (VO1 _) H Big)
          as [e [E [NDe A]]].
        exists e. split; [exact E|]. split; [exact NDe|]. intros x. rewrite (A x). split.
        * intros [a [SI [_ Ex]]]. exists a. split; assumption.
        * intros [a [SI Ex]]. exists a. split; [exact SI|]. split; [|exact Ex]. apply VO2.
          destruct SI as [I [K _]]. apply I. rewrite K. apply in_map. exact Hv.
  Qed.
End Enum.

Theorem dfs_enumerates (vo : list Z -> list Z) (M : cpmodel) (limit : Z) (sols : list sol) :
  wf_dfs M = true -> (forall d, incl (vo d) d) -> (forall d, incl d (vo d)) -> (forall d, NoDup d -> NoDup (vo d)) ->
  solve vo M [] limit = RSols sols -> Z.of_nat (length sols) < limit ->
  NoDup sols /\ forall a, cp_solution M a -> In (project M a) sols.
Proof.
  intros WF V1 V2 V3 H Big.
  destruct (solve_cases vo M [] limit) as [[HE E]|[HE [h [E [Hh _]]]]]; rewrite E in H.
  { inversion H. split; [constructor|]. intros a SA. exfalso. exact (empty_dom_no_solution M HE a SA). }
  assert (h = []) as -> by (destruct Hh; assumption).
  assert (Root : forall a, cp_solution M a -> propagate (m_cons M) (init_doms (m_vars M)) <> PFail /\
                   forall ds', propagate (m_cons M) (init_doms (m_vars M)) = POk ds' -> sol_in M a ds').
  { intros a SA. apply (sol_in_propagate M WF), (solution_in_init M WF), SA. }
  destruct (solve_dfs_RSols _ _ _ _ _ H) as [SUP [[PF ->]|[ds' [b [PR B]]]]].
  - split; [constructor|]. intros a SA. exfalso. exact (proj1 (Root a SA) PF).
  - destruct (bt_spec M vo limit WF SUP V1 V2 V3 _ _ _ _ _ (Pre_root M [] ds' WF HE PR) B Big) as [e [E' [ND A]]].
    simpl in E'. subst e. split; [exact ND|]. intros a SA. apply A. exists a. split; [|reflexivity].
    exact (proj2 (Root a SA) _ PR).
Qed.
