(* C05 - the input predicate wf_dfs, and dfs_sound (property (3) of Props/C05.v): every solution the DFS model returns - any value order, any solution_limit,
   any hints - gives every variable a value of its declared domain and satisfies every constraint. *)
From Coq Require Import List ZArith Bool Lia.
From SV Require Import C06.CpAst C06.CpAstProofs C06.EncModel C05.CpDfs C05.CpSpec C05.CpLemmas C05.PropSound C05.LeafProofs.
Import ListNotations.
Open Scope Z_scope.

(* what the harness' translation guarantees: distinct ids (= distinct names) and every variable of a
   constraint is a variable of the model.  No condition on the domains (empty ones are handled by solve). *)
Definition wf_dfs (M : cpmodel) : bool :=
  nat_nodupb (map vid (m_vars M))
  && forallb (fun c => forallb (fun v => var_mem v (m_vars M)) (cons_vars c)) (m_cons M).

Lemma wf_dfs_ids M : wf_dfs M = true -> NoDup (map vid (m_vars M)).
Proof. unfold wf_dfs. intros H. apply andb_true_iff in H. apply nat_nodupb_NoDup. tauto. Qed.

Lemma wf_dfs_vars M c v : wf_dfs M = true -> In c (m_cons M) -> In v (cons_vars c) -> In v (m_vars M).
Proof.
  unfold wf_dfs. intros H Hc Hv. apply andb_true_iff in H. destruct H as [_ H].
  rewrite forallb_forall in H. specialize (H c Hc). rewrite forallb_forall in H. specialize (H v Hv).
  apply existsb_exists in H. destruct H as [w [Hw E]]. apply var_eqb_eq in E. subst w. exact Hw.
Qed.

Lemma wf_dfs_cvars M ds : wf_dfs M = true -> dkeys ds = map vid (m_vars M) ->
  forall c, In c (m_cons M) -> cvars_in c ds.
Proof. intros H K c Hc v Hv. rewrite K. apply in_map. exact (wf_dfs_vars M c v H Hc Hv). Qed.

Lemma open_vars_nil vs ds : open_vars vs ds = [] -> forall v, In v vs -> is_open (dget ds (vid v)) = false.
Proof. intros O. exact (proj1 (filter_nil _ vs) O). Qed.

(* An empty declared domain gives INFEASIBLE at once.  Otherwise Model.solve answers what ONE _solve_dfs run
   answers, the hinted one or the one without hints, and INFEASIBLE only ever comes from the latter. *)
Lemma solve_cases vo M hints limit :
  (has_empty_dom M = true /\ solve vo M hints limit = RSols [])
  \/ (has_empty_dom M = false /\ exists h, solve vo M hints limit = solve_dfs vo M h limit
         /\ (h = hints \/ h = []) /\ (solve_dfs vo M h limit = RSols [] -> h = [])).
Proof.
  unfold solve. destruct (has_empty_dom M); [left; split; reflexivity | right; split; [reflexivity|]].
  destruct (solve_dfs vo M hints limit) as [| |[|y ys]] eqn:E;
    try (exists hints; rewrite E; split; [reflexivity | split; [left; reflexivity | discriminate]]).
  destruct hints as [|h ht]; exists []; rewrite ?E; auto.
Qed.

Lemma solve_dfs_RSols vo M hints limit sols : solve_dfs vo M hints limit = RSols sols ->
  existsb sat_required (m_cons M) = false /\
  let D := apply_hints hints (init_doms (m_vars M)) in
  (propagate (m_cons M) D = PFail /\ sols = [])
  \/ (exists ds' b, propagate (m_cons M) D = POk ds'
                    /\ bt vo (m_vars M) (m_cons M) limit (S (dsize ds')) ds' [] = Some (sols, b)).
Proof.
  unfold solve_dfs. destruct (existsb sat_required (m_cons M)); [discriminate|]. intros H. split; [reflexivity|].
  cbv zeta. destruct (propagate _ _) as [| |ds']; [discriminate | left; inversion H; auto | right].
  destruct (bt _ _ _ _ _ _ _) as [[out b]|] eqn:B; [|discriminate]. inversion H. subst. exists ds', b. auto.
Qed.

Lemma apply_hints_cons j y tl ds :
  apply_hints ((j, y) :: tl) ds = apply_hints tl (if zmem y (dget ds j) then dset ds j [y] else ds).
Proof. reflexivity. Qed.

Lemma apply_hints_inv hints : forall ds, dsub (apply_hints hints ds) ds /\ (no_empty ds -> no_empty (apply_hints hints ds)).
Proof.
  induction hints as [|[i x] tl IH]; intros ds; [split; [apply dsub_refl | tauto]|].
  rewrite apply_hints_cons. destruct (zmem x (dget ds i)) eqn:E; [|apply IH].
  destruct (IH (dset ds i [x])) as [S N]. apply zmem_spec in E. split.
  - eapply dsub_trans; [exact S | apply dsub_dset_single; exact E].
  - intros NE. apply N. apply no_empty_dset; [exact NE | discriminate].
Qed.

Definition sol_in (M : cpmodel) (a : asgn) (ds : doms) : Prop :=
  in_ds a ds /\ dkeys ds = map vid (m_vars M) /\ forall c, In c (m_cons M) -> holds a c.

Lemma sol_in_sub M a ds' ds : dsub ds' ds -> sol_in M a ds' -> sol_in M a ds.
Proof.
  intros [K [I _]] [H1 [H2 H3]]. split; [|split; [congruence | exact H3]].
  intros i Hi. apply I, H1. rewrite K. exact Hi.
Qed.

Lemma child_sub cs ds v val ds' : In val (dget ds v) -> propagate cs (dset ds v [val]) = POk ds' -> dsub ds' ds.
Proof. intros Hval PR. eapply dsub_trans; [apply (dsub_propagate _ _ _ PR) | apply dsub_dset_single, Hval]. Qed.

Section Sound.
  Variable M : cpmodel.
  Variable vo : list Z -> list Z.
  Variable limit : Z.
  Hypothesis WF : wf_dfs M = true.
  Hypothesis SUP : existsb sat_required (m_cons M) = false.
  Hypothesis VO : forall d, incl (vo d) d.

  Let vs := m_vars M.
  Let cs := m_cons M.

  (* D = the domains the search starts from (declared domains cut by the applicable hints) *)
  Variable D : doms.
  Hypothesis HD : dsub D (init_doms vs).

  Definition Pre (ds : doms) : Prop :=
    dsub ds D /\ no_empty ds /\ exists ds0, propagate cs ds0 = POk ds.
  Definition valid_answers (l : list sol) : Prop :=
    forall x, In x l -> exists a, cp_solution M a /\ project M a = x /\ in_ds a D.

  Lemma Pre_sub ds : Pre ds -> dsub ds (init_doms vs).
  Proof. intros [S _]. eapply dsub_trans; [exact S | exact HD]. Qed.

  Lemma Pre_keys ds : Pre ds -> dkeys ds = map vid vs.
  Proof. intros P. rewrite (dsub_keys _ _ (Pre_sub ds P)). apply dkeys_init. Qed.

  Lemma Pre_nodup ds : Pre ds -> dnodup ds.
  Proof. intros P. destruct (Pre_sub ds P) as [_ [_ N]]. apply N, dnodup_init, (wf_dfs_ids M WF). Qed.

  Lemma Pre_child ds v val ds' : Pre ds -> In val (dget ds v) -> propagate cs (dset ds v [val]) = POk ds' -> Pre ds'.
  Proof.
    intros [S [NE _]] Hval PR. split; [|split].
    - eapply dsub_trans; [apply (child_sub cs ds v val ds' Hval PR) | exact S].
    - apply (prop_loop_no_empty cs _ _ _ PR). apply no_empty_dset; [exact NE | discriminate].
    - eexists. exact PR.
  Qed.

  Lemma sol_in_good ds a : Pre ds -> sol_in M a ds -> cp_solution M a /\ in_ds a D.
  Proof.
    intros P [I [K H]]. split; [split; [|exact H]|].
    - intros v Hv. apply In_zrange. fold (vdom v). rewrite <- (dget_init vs v (wf_dfs_ids M WF) Hv).
      apply (dsub_incl _ _ _ (Pre_sub ds P)), I. rewrite K. apply in_map. exact Hv.
    - destruct P as [S _]. intros i Hi. apply (dsub_incl _ _ _ S), I. rewrite (dsub_keys _ _ S). exact Hi.
  Qed.

  (* at a leaf every domain is a singleton; the assignment read off them is a solution: propagation succeeded on it *)
  Lemma leaf_valid ds : Pre ds -> open_vars vs ds = [] -> exists a, sol_in M a ds /\ project M a = leaf_sol vs ds.
  Proof.
    intros P O. pose proof (Pre_keys ds P) as K.
    assert (Mt : matches (asg_of_doms ds) ds).
    { intros i Hi. destruct P as [_ [NE _]]. pose proof (NE i Hi) as N.
      rewrite K in Hi. apply in_map_iff in Hi. destruct Hi as [v [<- Hv]].
      exact (not_open_single _ (open_vars_nil vs ds O v Hv) N). }
    exists (asg_of_doms ds). split; [|reflexivity]. split; [apply matches_in_ds, Mt | split; [exact K|]].
    pose proof (Pre_sub ds P) as S0. destruct P as [_ [_ [ds0 PR]]].
    apply (leaf_checked (asg_of_doms ds) cs ds0 ds PR Mt).
    intros c Hc. split; [|unfold dfs_supported; rewrite (existsb_false _ _ SUP c Hc); reflexivity].
    apply (wf_dfs_cvars M ds0 WF); [|exact Hc].
    rewrite <- (dsub_keys _ _ (dsub_propagate cs ds0 ds PR)), (dsub_keys _ _ S0). apply dkeys_init.
  Qed.

  Lemma bt_loop_sound (rec : doms -> list sol -> bt_out) ds v nn :
    (forall ds' sols out b, Pre ds' -> valid_answers sols -> rec ds' sols = Some (out, b) -> valid_answers out) ->
    Pre ds ->
    forall vals sols out b, incl vals (dget ds v) -> valid_answers sols ->
      bt_loop cs limit rec ds v nn vals sols = Some (out, b) -> valid_answers out.
  Proof.
    intros REC P. induction vals as [|val rest IH]; intros sols out b I G H; simpl in H.
    - inversion H. subst. exact G.
    - destruct (incl_cons_inv I) as [Hval I'].
      destruct (propagate cs (dset ds v [val])) as [| |ds'] eqn:PR; [discriminate | exact (IH _ _ _ I' G H) |].
      pose proof (Pre_child ds v val ds' P Hval PR) as P'.
      destruct (rec ds' sols) as [[sols' stop]|] eqn:R; [|discriminate].
      pose proof (REC ds' sols sols' stop P' G R) as G'.
      destruct (stop && (nn || (limit <=? Z.of_nat (length sols')))).
      + inversion H. subst. exact G'.
      + exact (IH _ _ _ I' G' H).
  Qed.

  Lemma bt_sound : forall fuel ds sols out b, Pre ds -> valid_answers sols ->
    bt vo vs cs limit fuel ds sols = Some (out, b) -> valid_answers out.
  Proof.
    induction fuel as [|f IH]; intros ds sols out b P G H; simpl in H; [discriminate|].
    destruct (open_vars vs ds) as [|o otl] eqn:O.
    - inversion H. subst. intros x Hx. apply in_app_or in Hx. destruct Hx as [Hx|[<-|[]]]; [apply G; exact Hx|].
      destruct (leaf_valid ds P O) as [a [SI E]]. destruct (sol_in_good ds a P SI) as [A1 A2]. exists a. tauto.
    - eapply bt_loop_sound; [| exact P | apply VO | exact G | exact H].
      intros ds' sols' out' b' P' G' H'. exact (IH ds' sols' out' b' P' G' H').
  Qed.

End Sound.

Lemma init_no_empty M : wf_dfs M = true -> has_empty_dom M = false -> no_empty (init_doms (m_vars M)).
Proof.
  intros WF HE i Hi. rewrite dkeys_init in Hi. apply in_map_iff in Hi. destruct Hi as [v [<- Hv]].
  rewrite (dget_init _ v (wf_dfs_ids M WF) Hv). intros E.
  assert (L : vlb v <= vub v) by (apply Z.ltb_ge; exact (existsb_false _ _ HE v Hv)).
  assert (X : In (vlb v) (vdom v)) by (apply In_zrange; lia). rewrite E in X. destruct X.
Qed.

Lemma Pre_root M hints ds' : wf_dfs M = true -> has_empty_dom M = false ->
  propagate (m_cons M) (apply_hints hints (init_doms (m_vars M))) = POk ds' ->
  Pre M (apply_hints hints (init_doms (m_vars M))) ds'.
Proof.
  intros WF HE PR. split; [apply (dsub_propagate _ _ _ PR) | split; [|eexists; exact PR]].
  apply (prop_loop_no_empty _ _ _ _ PR), apply_hints_inv, init_no_empty; assumption.
Qed.

Theorem solve_dfs_sound M vo limit hints sols :
  wf_dfs M = true -> (forall d, incl (vo d) d) -> has_empty_dom M = false ->
  solve_dfs vo M hints limit = RSols sols ->
  forall x, In x sols -> exists a, cp_solution M a /\ project M a = x /\ in_ds a (apply_hints hints (init_doms (m_vars M))).
Proof.
  intros WF VO HE H. destruct (solve_dfs_RSols _ _ _ _ _ H) as [SUP [[_ ->]|[ds' [b [PR B]]]]]; [intros x []|].
  (* bt_sound from the root node, with D the hinted start domains and no solution recorded yet *)
  apply (bt_sound M vo limit WF SUP VO _ (proj1 (apply_hints_inv hints _)) (S (dsize ds')) ds' [] sols b (Pre_root M hints ds' WF HE PR));
    [intros x [] | exact B].
Qed.

(* every solution returned by Model.solve(solver='dfs') - one or many, with or without hints,
   whatever the iteration order of the domain sets - is a valid answer *)
Theorem dfs_sound (vo : list Z -> list Z) (M : cpmodel) (hints : list (nat * Z)) (limit : Z) (sols : list sol) :
  wf_dfs M = true -> (forall d, incl (vo d) d) ->
  solve vo M hints limit = RSols sols -> forall x, In x sols -> answer_valid M x.
Proof.
  intros WF VO H. destruct (solve_cases vo M hints limit) as [[_ E]|[HE [h [E _]]]]; rewrite E in H.
  - inversion H. intros x [].
  - intros x Hx. destruct (solve_dfs_sound M vo limit h sols WF VO HE H x Hx) as [a [A1 [A2 _]]]. exists a. tauto.
Qed.
