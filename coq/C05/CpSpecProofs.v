(* C05 - soundness of the boolean answer checker (it judges the IMPLEMENTATION's outputs inside coqc). *)
From Coq Require Import List ZArith Bool.
From SV Require Import C06.CpAst C06.CpAstProofs C06.CpCheckProofs C05.CpDfs C05.CpSpec C05.DfsSound.
Import ListNotations.
Open Scope Z_scope.

Lemma sol_eqb_eq : forall a b : sol, sol_eqb a b = true -> a = b.
Proof.
  induction a as [|[i x] a' IH]; intros [|[j y] b'] H; simpl in H; try discriminate; [reflexivity|].
  apply andb_true_iff in H. destruct H as [H H3]. apply andb_true_iff in H. destruct H as [H1 H2].
  apply Nat.eqb_eq in H1. apply Z.eqb_eq in H2. subst. f_equal. apply IH. exact H3.
Qed.

Theorem spec_check_sound M s : spec_check M s = true -> answer_valid M s.
Proof.
  unfold spec_check. intros H. apply existsb_exists in H. destruct H as [xs [_ H]].
  apply andb_true_iff in H. destruct H as [H1 H2].
  exists (asgn_of (m_vars M) xs). split; [apply cp_solutionb_spec; exact H1 | apply sol_eqb_eq; exact H2].
Qed.

Theorem answer_check_sound M sols : answer_check M (Some sols) = true -> forall s, In s sols -> answer_valid M s.
Proof.
  simpl. intros H s Hs. rewrite forallb_forall in H. apply spec_check_sound. apply H. exact Hs.
Qed.

Lemma Forall2_map_r {A B} (P : A -> B -> Prop) (f : A -> B) l : (forall x, In x l -> P x (f x)) -> Forall2 P l (map f l).
Proof.
  induction l as [|x tl IH]; simpl; intros H; constructor; [apply H; left; reflexivity | apply IH; intros y Hy; apply H; right; exact Hy].
Qed.

Theorem infeasible_check_sound M : wf_dfs M = true -> infeasible_check M = true -> no_solution M.
Proof.
  intros WF H a [D Hh]. unfold infeasible_check in H.
  set (vs := m_vars M). set (xs := map (aval a) vs).
  assert (Hin : In xs (cp_solutions M)).
  { unfold cp_solutions. apply filter_In. split.
    - apply box_In. apply Forall2_map_r. intros v Hv. apply In_zrange. apply D. exact Hv.
    - apply forallb_forall. intros c Hc. rewrite (holdsb_ext _ a c).
      + apply holdsb_spec. apply Hh. exact Hc.
      + intros v Hv. apply asgn_of_map; [apply (wf_dfs_ids M WF) | apply (wf_dfs_vars M c v WF Hc Hv)]. }
  destruct (cp_solutions M); [destruct Hin | discriminate].
Qed.

Theorem answer_check_none_sound M : wf_dfs M = true -> answer_check M None = true -> no_solution M.
Proof. intros WF H. apply infeasible_check_sound; assumption. Qed.
