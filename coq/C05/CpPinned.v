(* C05 - model of the PINNED DFS dispatcher (solvor/cp.py before commit 8fe1d28): `_flatten_sum` only walks
   "add" nodes, `_propagate_ne_expr` only handles `var + c ==/!= var + c`, every other shape falls through
   as satisfied, and a solution is recorded as soon as all NAMED variables are fixed.  DEFINITIONS + the
   refutation witness (x - y == 2 over 0..3 answers x = 0, y = 0). *)
From Coq Require Import List ZArith Bool Lia Arith.
From SV Require Import C06.CpAst C05.CpDfs C05.CpSpec.
Import ListNotations.
Open Scope Z_scope.

(* Model._flatten_sum: IntVar -> term, int -> constant, ("add", a, b) -> both; anything else is IGNORED *)
Fixpoint flatten (e : expr) : list var * Z :=
  match e with
  | EVar v => ([v], 0)
  | EConst c => ([], c)
  | EAdd a b => (fst (flatten a) ++ fst (flatten b), snd (flatten a) + snd (flatten b))
  | _ => ([], 0)
  end.

Definition prop_lin_pinned (l r : expr) (is_ne : bool) (ds : doms) : option doms :=
  match fst (flatten l), fst (flatten r) with
  | [v1], [v2] =>
      let offset := snd (flatten r) - snd (flatten l) in
      if is_ne then
        let d1 := dget ds (vid v1) in
        let ds1 := if is_single d1 then ddiscard ds (vid v2) (first d1 - offset) else ds in
        let d2 := dget ds1 (vid v2) in
        Some (if is_single d2 then ddiscard ds1 (vid v1) (first d2 + offset) else ds1)
      else
        let valid1 := filter (fun v => zmem (v - offset) (dget ds (vid v2))) (dget ds (vid v1)) in
        let valid2 := filter (fun v => zmem (v + offset) (dget ds (vid v1))) (dget ds (vid v2)) in
        if is_nil valid1 || is_nil valid2 then None
        else Some (dset (dset ds (vid v1) valid1) (vid v2) valid2)
  | _, _ => Some ds      (* silently treated as satisfied *)
  end.

(* pinned all_different: `if other is not var` (identity instead of position) *)
Fixpoint alldiff_pinned (all rest : list var) (ds : doms) : doms :=
  match rest with
  | [] => ds
  | v :: tl =>
      let d := dget ds (vid v) in
      alldiff_pinned all tl
        (if is_single d
         then fold_left (fun acc o => if Nat.eqb (vid o) (vid v) then acc else ddiscard acc (vid o) (first d)) all ds
         else ds)
  end.

Definition prop_one_pinned (c : cstr) (ds : doms) : option doms :=
  match c with
  | CAllDiff vs => Some (alldiff_pinned vs vs ds)
  | CLin l r is_ne => prop_lin_pinned l r is_ne ds
  | CEqConst _ _ | CNeConst _ _ | CEqVar _ _ | CNeVar _ _ => prop_one c ds
  | _ => Some ds
  end.

Fixpoint prop_pass_pinned (cs : list cstr) (ds : doms) (changed : bool) : option (doms * bool) :=
  match cs with
  | [] => Some (ds, changed)
  | c :: tl =>
      match prop_one_pinned c ds with
      | None => None
      | Some ds' => if any_empty ds' then None else prop_pass_pinned tl ds' (changed || shrunk ds ds')
      end
  end.

Fixpoint prop_loop_pinned (cs : list cstr) (fuel : nat) (ds : doms) : pres :=
  match fuel with
  | O => PFuel
  | S f =>
      match prop_pass_pinned cs ds false with
      | None => PFail
      | Some (ds', true) => prop_loop_pinned cs f ds'
      | Some (ds', false) => POk ds'
      end
  end.
Definition propagate_pinned (cs : list cstr) (ds : doms) : pres := prop_loop_pinned cs (S (dsize ds)) ds.

Section SearchPinned.
  Variable vo : list Z -> list Z.
  Variable vs : list var.
  Variable cs : list cstr.
  Variable limit : Z.

  (* if self._propagate(new_domains): if backtrack(new_domains): return True *)
  Fixpoint loop_pinned (rec : doms -> list sol -> bt_out) (ds : doms) (v : nat) (vals : list Z) (sols : list sol) : bt_out :=
    match vals with
    | [] => Some (sols, false)
    | val :: rest =>
        match propagate_pinned cs (dset ds v [val]) with
        | PFuel => None
        | PFail => loop_pinned rec ds v rest sols
        | POk ds' =>
            match rec ds' sols with
            | None => None
            | Some (sols', true) => Some (sols', true)
            | Some (sols', false) => loop_pinned rec ds v rest sols'
            end
        end
    end.

  Fixpoint bt_pinned (fuel : nat) (ds : doms) (sols : list sol) : bt_out :=
    match fuel with
    | O => None
    | S f =>
        (* unassigned = [n for n in domains if len(domains[n]) > 1 and not n.startswith("_")] *)
        match filter (fun v => is_open (dget ds (vid v)) && vnamed v) vs with
        | [] => let sols' := sols ++ [leaf_sol vs ds] in Some (sols', limit <=? Z.of_nat (length sols'))
        | u :: utl => let v := argmin ds u utl in
                      loop_pinned (bt_pinned f) ds (vid v) (vo (dget ds (vid v))) sols
        end
    end.
End SearchPinned.

Definition solve_pinned (vo : list Z -> list Z) (M : cpmodel) (hints : list (nat * Z)) (limit : Z) : dfs_result :=
  if existsb sat_required (m_cons M) then RToSat else
  let ds := apply_hints hints (init_doms (m_vars M)) in
  match propagate_pinned (m_cons M) ds with
  | PFuel => RFuel
  | PFail => RSols []
  | POk ds' =>
      match bt_pinned vo (m_vars M) (m_cons M) limit (S (dsize ds')) ds' [] with
      | None => RFuel
      | Some (sols, _) => RSols sols
      end
  end.

Definition wx : var := mkVar 0 0 3 true 1.
Definition wy : var := mkVar 1 0 3 true 5.
(* x - y == 2 : the operators build ("ne_expr", ("sub", x, y), 2, False) *)
Definition x_minus_y_eq_2 : cpmodel := mkModel [wx; wy] [CLin (ESub (EVar wx) (EVar wy)) (EConst 2) false] 9.

Lemma pinned_answer : solve_pinned vo_id x_minus_y_eq_2 [] 1 = RSols [[(0%nat, 0); (1%nat, 0)]].
Proof. vm_compute. reflexivity. Qed.

Lemma pinned_answer_invalid : ~ answer_valid x_minus_y_eq_2 [(0%nat, 0); (1%nat, 0)].
Proof.
  intros [a [[_ H] P]]. unfold project in P. simpl in P. inversion P as [[P0 P1]].
  specialize (H _ (or_introl eq_refl)). simpl in H. unfold aval in *. simpl in *. lia.
Qed.
