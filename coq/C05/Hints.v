(* C05 - property (5) of Props/C05.v, hints only restrict the search: the answers of a hinted _solve_dfs run take the hinted values, and
 an INFEASIBLE answer of Model.solve obtained with hints is a true one (the retry without hints). *)
From Coq Require Import List ZArith Bool Lia.
From SV Require Import C06.CpAst C06.CpAstProofs C05.CpDfs C05.CpSpec C05.CpLemmas
  C05.DfsSound C05.DfsComplete.
Import ListNotations.
Open Scope Z_scope.

Lemma apply_hints_other hints i : ~ In i (map fst hints) -> forall ds, dget (apply_hints hints ds) i = dget ds i.
Proof.
  induction hints as [|[j y] tl IH]; intros N ds; [reflexivity|]. simpl in N.
  rewrite apply_hints_cons, IH by tauto. destruct (zmem y (dget ds j)); [|reflexivity].
  apply dget_dset_other. intros ->. tauto.
Qed.

Lemma apply_hints_effect hints : NoDup (map fst hints) -> forall ds i x,
  In (i, x) hints -> In x (dget ds i) -> dget (apply_hints hints ds) i = [x].
Proof.
  induction hints as [|[j y] tl IH]; intros ND ds i x Hin Hx; [destruct Hin|].
  simpl in ND. inversion ND as [|? ? N1 N2]; subst. rewrite apply_hints_cons.
  destruct Hin as [E|Hin].
  - inversion E. subst j y. rewrite (proj2 (zmem_spec x _) Hx), apply_hints_other by exact N1.
    apply dget_dset_same. destruct (in_dkeys_dec i ds) as [K|K]; [exact K|].
    rewrite dget_notin in Hx by exact K. destruct Hx.
  - apply IH; [exact N2 | exact Hin|]. destruct (zmem y (dget ds j)); [|exact Hx].
    rewrite dget_dset_other; [exact Hx|]. intros ->. apply N1. apply (in_map fst _ _ Hin).
Qed.

(* hints only restrict: every solution of the hinted _solve_dfs run is a CP solution that takes the hinted
   value on every variable whose hint is applicable (name known, value in the declared domain) *)
Theorem hints_restrict vo M hints limit sols :
  wf_dfs M = true -> (forall d, incl (vo d) d) -> has_empty_dom M = false -> NoDup (map fst hints) ->
  solve_dfs vo M hints limit = RSols sols ->
  forall x, In x sols -> exists a, cp_solution M a /\ project M a = x /\
    forall v val, In v (m_vars M) -> In (vid v, val) hints -> in_dom v val = true -> a (vid v) = val.
Proof.
  intros WF VO HE ND H x Hx.
  destruct (solve_dfs_sound M vo limit hints sols WF VO HE H x Hx) as [a [A1 [A2 A3]]].
  exists a. split; [exact A1|]. split; [exact A2|]. intros v val Hv Hh Hd.
  assert (Hval : In val (dget (init_doms (m_vars M)) (vid v))).
  { rewrite (dget_init _ v (wf_dfs_ids M WF) Hv). apply In_zrange.
    unfold in_dom in Hd. apply andb_true_iff in Hd. destruct Hd as [H1 H2]. apply Z.leb_le in H1, H2. lia. }
  pose proof (apply_hints_effect hints ND _ _ _ Hh Hval) as E.
  assert (K : In (vid v) (dkeys (apply_hints hints (init_doms (m_vars M))))).
  { destruct (apply_hints_inv hints (init_doms (m_vars M))) as [[K _] _]. rewrite K, dkeys_init. apply in_map. exact Hv. }
  specialize (A3 _ K). rewrite E in A3. destruct A3 as [A3|[]]. symmetry. exact A3.
Qed.

(* in particular an INFEASIBLE answer obtained WITH hints is a true INFEASIBLE (the defect fixed by 7ef6c48) *)
Corollary hints_never_cause_infeasible vo M hints limit :
  wf_dfs M = true -> (forall d, incl d (vo d)) -> solve vo M hints limit = RSols [] -> no_solution M.
Proof. intros WF V H. exact (dfs_infeasible vo M hints limit WF V H). Qed.
