(* C05 - what propagation preserves.  Propagators only shrink the domains (`dsub`: same keys, every new
   domain included in the old one, duplicate-freeness kept), and prop_sound (property (1) of Props/C05.v): no propagator (hence neither
   a sweep nor the fixpoint) removes a value that occurs in a solution of the constraint inside the current
   domains, and none of them reports inconsistency when such a solution exists. *)
From Coq Require Import List ZArith Bool Lia.
From SV Require Import C06.CpAst C06.CpAstProofs C06.EncLinear C05.CpDfs C05.CpLemmas.
Import ListNotations.
Open Scope Z_scope.

Definition cvars_in (c : cstr) (ds : doms) : Prop := forall v, In v (cons_vars c) -> In (vid v) (dkeys ds).

(* one direction of `!=` between two variables: once i is fixed, its value leaves the domain of j *)
Definition ne_step (ds : doms) (i j : nat) : doms :=
  if is_single (dget ds i) then ddiscard ds j (first (dget ds i)) else ds.

Lemma prop_one_ne_var v w ds :
  prop_one (CNeVar v w) ds = Some (ne_step (ne_step ds (vid v) (vid w)) (vid w) (vid v)).
Proof. reflexivity. Qed.

(* _propagate_ne_expr first splits the normal form into the terms over open variables and a constant that
   absorbs the fixed ones; how it then branches depends on these two alone *)
Definition lin_coefs (l r : expr) : list coef_t := map (fun t => (vid (fst t), snd t)) (fst (linearize l r)).
Definition lin_free (l r : expr) (ds : doms) : list coef_t :=
  filter (fun nc : coef_t => is_open (dget ds (fst nc))) (lin_coefs l r).
Definition lin_const (l r : expr) (ds : doms) : Z :=
  snd (linearize l r)
  + zsum (map (fun nc => snd nc * first (dget ds (fst nc)))
              (filter (fun nc : coef_t => negb (is_open (dget ds (fst nc)))) (lin_coefs l r))).

Definition lin_branch (free : list coef_t) (const : Z) (ne : bool) (ds : doms) : option doms :=
  match free with
  | [] => if ne then (if const =? 0 then None else Some ds) else (if const =? 0 then Some ds else None)
  | (n, c) :: ftl =>
      if ne then
        match ftl with
        | [] => if const mod c =? 0 then Some (ddiscard ds n ((- const) / c)) else Some ds
        | _ => Some ds
        end
      else eq_loop free free const ds
  end.

Lemma prop_lin_eq l r ne ds : prop_lin l r ne ds = lin_branch (lin_free l r ds) (lin_const l r ds) ne ds.
Proof. reflexivity. Qed.

Definition dnodup (ds : doms) : Prop := forall i, NoDup (dget ds i).
Definition dsub (ds' ds : doms) : Prop :=
  dkeys ds' = dkeys ds /\ (forall i, incl (dget ds' i) (dget ds i)) /\ (dnodup ds -> dnodup ds').

Lemma dsub_keys ds' ds : dsub ds' ds -> dkeys ds' = dkeys ds.
Proof. intros [K _]. exact K. Qed.

Lemma dsub_incl ds' ds i : dsub ds' ds -> incl (dget ds' i) (dget ds i).
Proof. intros [_ [I _]]. apply I. Qed.

Lemma cvars_in_sub c ds' ds : dsub ds' ds -> cvars_in c ds -> cvars_in c ds'.
Proof. intros [K _] H v Hv. rewrite K. apply H. exact Hv. Qed.

Lemma dsub_refl ds : dsub ds ds.
Proof. split; [reflexivity | split; [intros i; apply incl_refl | tauto]]. Qed.

Lemma dsub_trans a b c : dsub a b -> dsub b c -> dsub a c.
Proof.
  intros [K1 [H1 N1]] [K2 [H2 N2]]. split; [congruence | split; [|tauto]].
  intros i. eapply incl_tran; [apply H1 | apply H2].
Qed.

Lemma dnodup_dset ds i d : dnodup ds -> NoDup d -> dnodup (dset ds i d).
Proof.
  intros ND Nd j. rewrite dget_dset. destruct (Nat.eqb i j); [|apply ND].
  destruct (in_dkeys_dec i ds); [exact Nd | constructor].
Qed.

Lemma dnodup_init vs : NoDup (map vid vs) -> dnodup (init_doms vs).
Proof.
  intros ND i. destruct (in_dkeys_dec i (init_doms vs)) as [Ki|Ki].
  - rewrite dkeys_init in Ki. apply in_map_iff in Ki. destruct Ki as [v [<- Hv]].
    rewrite (dget_init vs v ND Hv). apply NoDup_zseq.
  - rewrite dget_notin by exact Ki. constructor.
Qed.

Lemma dsub_dset_sub ds0 ds i d :
  dsub ds ds0 -> incl d (dget ds0 i) -> (dnodup ds0 -> NoDup d) -> dsub (dset ds i d) ds0.
Proof.
  intros [K [I N]] Hd Nd. split; [rewrite dkeys_dset; exact K | split].
  - intros j. rewrite dget_dset. destruct (Nat.eqb i j) eqn:E; [|apply I].
    apply Nat.eqb_eq in E. subst j. destruct (in_dkeys_dec i ds); [exact Hd | intros x []].
  - intros ND. apply dnodup_dset; [apply N, ND | apply Nd, ND].
Qed.

Lemma dsub_dset ds i d : incl d (dget ds i) -> (dnodup ds -> NoDup d) -> dsub (dset ds i d) ds.
Proof. apply dsub_dset_sub, dsub_refl. Qed.

Lemma dsub_dset_filter ds i p : dsub (dset ds i (filter p (dget ds i))) ds.
Proof.
  apply dsub_dset; [intros x H; apply filter_In in H; tauto | intros ND; apply NoDup_filter, ND].
Qed.

Lemma dsub_dset_single ds i x : In x (dget ds i) -> dsub (dset ds i [x]) ds.
Proof. intros H. apply dsub_dset; [intros y [<-|[]]; exact H | intros _; apply NoDup_single]. Qed.

Lemma dsub_ddiscard ds i x : dsub (ddiscard ds i x) ds.
Proof. apply dsub_dset_filter. Qed.

Lemma dsub_ne_step ds i j : dsub (ne_step ds i j) ds.
Proof. unfold ne_step. destruct (is_single _); [apply dsub_ddiscard | apply dsub_refl]. Qed.

Lemma dsub_discard_others i x : forall rest j ds, dsub (discard_others rest i j x ds) ds.
Proof.
  induction rest as [|o tl IH]; intros j ds; simpl; [apply dsub_refl|].
  eapply dsub_trans; [apply IH|]. destruct (Nat.eqb j i); [apply dsub_refl | apply dsub_ddiscard].
Qed.

Lemma dsub_alldiff_loop all : forall rest i ds, dsub (alldiff_loop all rest i ds) ds.
Proof.
  induction rest as [|v tl IH]; intros i ds; simpl; [apply dsub_refl|].
  eapply dsub_trans; [apply IH|]. destruct (is_single _); [apply dsub_discard_others | apply dsub_refl].
Qed.

Lemma eq_filter_is_filter ds free const n c : exists p, eq_filter ds free const n c = filter p (dget ds n).
Proof.
  unfold eq_filter. cbv zeta.
  match goal with |- context [match ?X with _ => _ end] => destruct X as [|[o co] [|q tl]] end; eexists; reflexivity.
Qed.

Lemma dsub_eq_loop free const : forall todo ds ds', eq_loop free todo const ds = Some ds' -> dsub ds' ds.
Proof.
  induction todo as [|[n c] tl IH]; intros ds ds' H; simpl in H.
  - inversion H. apply dsub_refl.
  - destruct (eq_filter_is_filter ds free const n c) as [p Ep].
    destruct (eq_filter ds free const n c) as [|y ys] eqn:E; [discriminate|].
    eapply dsub_trans; [apply (IH _ _ H)|]. rewrite Ep. apply dsub_dset_filter.
Qed.

Lemma dsub_lin_branch free const ne ds ds' : lin_branch free const ne ds = Some ds' -> dsub ds' ds.
Proof.
  unfold lin_branch. destruct free as [|[n c] ftl].
  - destruct ne; destruct (const =? 0); intros H; inversion H; apply dsub_refl.
  - destruct ne; [|apply dsub_eq_loop].
    destruct ftl; [destruct (const mod c =? 0)|]; intros H; inversion H; try apply dsub_refl. apply dsub_ddiscard.
Qed.

Theorem dsub_prop_one c ds ds' : prop_one c ds = Some ds' -> dsub ds' ds.
Proof.
  (* the six SAT-only kinds return ds unchanged: closed by the `try` *)
  destruct c; cbn [prop_one prop_alldiff]; try (intros H; inversion H; apply dsub_refl).
  - (* all_different *)
    intros H. inversion H. apply dsub_alldiff_loop.
  - (* eq_const *)
    destruct (zmem c (dget ds (vid v))) eqn:E; intros H; inversion H. apply dsub_dset_single, zmem_spec, E.
  - (* ne_const *)
    intros H. inversion H. apply dsub_ddiscard.
  - (* eq_var: both domains become the intersection, a part of either *)
    destruct (filter _ _) as [|y ys] eqn:E; intros H; inversion H. rewrite <- E.
    apply dsub_dset_sub; [apply dsub_dset_filter | | intros ND; apply NoDup_filter, ND].
    intros x Hx. apply filter_In in Hx. apply zmem_spec. tauto.
  - (* ne_var *)
    intros H. inversion H.
    exact (dsub_trans _ _ _ (dsub_ne_step _ (vid w) (vid v)) (dsub_ne_step ds (vid v) (vid w))).
  - (* linear *)
    rewrite prop_lin_eq. apply dsub_lin_branch.
Qed.

Lemma dsub_prop_pass : forall cs ds ch ds' ch', prop_pass cs ds ch = Some (ds', ch') -> dsub ds' ds.
Proof.
  induction cs as [|c tl IH]; intros ds ch ds' ch' H; simpl in H.
  - inversion H. apply dsub_refl.
  - destruct (prop_one c ds) as [ds1|] eqn:E; [|discriminate].
    destruct (any_empty ds1); [discriminate|].
    eapply dsub_trans; [eapply IH; exact H | apply (dsub_prop_one c); exact E].
Qed.

Lemma dsub_prop_loop cs : forall fuel ds ds', prop_loop cs fuel ds = POk ds' -> dsub ds' ds.
Proof.
  induction fuel as [|f IH]; intros ds ds' H; simpl in H; [discriminate|].
  destruct (prop_pass cs ds false) as [[ds1 [|]]|] eqn:E; try discriminate.
  - eapply dsub_trans; [apply IH; exact H | eapply dsub_prop_pass; exact E].
  - inversion H. subst. eapply dsub_prop_pass; exact E.
Qed.

Theorem dsub_propagate cs ds ds' : propagate cs ds = POk ds' -> dsub ds' ds.
Proof. apply dsub_prop_loop. Qed.

Lemma discard_others_sound s i x : forall rest j ds,
  (forall k o, nth_error rest k = Some o -> (j + k)%nat <> i -> s (vid o) <> x) ->
  in_ds s ds -> in_ds s (discard_others rest i j x ds).
Proof.
  induction rest as [|a tl IH]; intros j ds H Hs; simpl; [exact Hs|].
  apply IH.
  - intros k o Hk N. apply (H (S k) o); [exact Hk | lia].
  - destruct (Nat.eqb j i) eqn:E; [exact Hs|]. apply in_ds_ddiscard; [exact Hs|].
    intros _. apply (H 0%nat a); [reflexivity|]. rewrite Nat.add_0_r. apply Nat.eqb_neq. exact E.
Qed.

Lemma NoDup_vals_nth s all i k v o :
  NoDup (vals s all) -> nth_error all i = Some v -> nth_error all k = Some o -> k <> i -> s (vid o) <> s (vid v).
Proof.
  intros ND Hi Hk N E. apply N.
  assert (Hi' := map_nth_error (aval s) _ _ Hi). assert (Hk' := map_nth_error (aval s) _ _ Hk).
  fold (vals s all) in Hi', Hk'.
  rewrite NoDup_nth_error in ND. apply ND.
  - apply nth_error_Some. rewrite Hk'. discriminate.
  - rewrite Hi', Hk'. unfold aval. rewrite E. reflexivity.
Qed.

Lemma alldiff_loop_sound s all :
  NoDup (vals s all) ->
  forall rest pre ds, all = pre ++ rest -> (forall v, In v all -> In (vid v) (dkeys ds)) ->
  in_ds s ds -> in_ds s (alldiff_loop all rest (length pre) ds).
Proof.
  intros ND. induction rest as [|v tl IH]; intros pre ds E K Hs; simpl; [exact Hs|].
  assert (Hv : nth_error all (length pre) = Some v).
  { rewrite E. rewrite nth_error_app2 by lia. rewrite Nat.sub_diag. reflexivity. }
  replace (S (length pre)) with (length (pre ++ [v])) by (rewrite app_length; simpl; lia).
  destruct (is_single (dget ds (vid v))) eqn:S1.
  - apply IH.
    + rewrite E, <- app_assoc. reflexivity.
    + intros w Hw. rewrite (dsub_keys _ _ (dsub_discard_others _ _ _ _ _)). apply K. exact Hw.
    + assert (Kv : In (vid v) (dkeys ds)). { apply K. rewrite E. apply in_or_app. right. left. reflexivity. }
      rewrite (single_in s ds (vid v) Hs Kv S1).
      apply discard_others_sound; [|exact Hs].
      intros k o Hk N. simpl in N. exact (NoDup_vals_nth s all _ k v o ND Hv Hk N).
  - apply IH; [rewrite E, <- app_assoc; reflexivity | exact K | exact Hs].
Qed.

Lemma ne_step_sound s ds i j : in_ds s ds -> In i (dkeys ds) -> s j <> s i -> in_ds s (ne_step ds i j).
Proof.
  intros Hs K N. unfold ne_step. destruct (is_single (dget ds i)) eqn:S1; [|exact Hs].
  rewrite (single_in s ds i Hs K S1). apply in_ds_ddiscard; [exact Hs | intros _; exact N].
Qed.

Definition csum (s : asgn) (cf : list coef_t) : Z := zsum (map (fun nc => snd nc * s (fst nc)) cf).

Lemma csum_terms s ts : csum s (map (fun t : var * Z => (vid (fst t), snd t)) ts) = terms_eval s ts.
Proof.
  unfold csum. induction ts as [|[w c] tl IH]; simpl; [reflexivity|]. rewrite IH. reflexivity.
Qed.

Lemma csum_split s (p : coef_t -> bool) cf :
  csum s cf = csum s (filter p cf) + csum s (filter (fun x => negb (p x)) cf).
Proof.
  unfold csum. induction cf as [|a tl IH]; simpl; [reflexivity|].
  destruct (p a); simpl; rewrite IH; lia.
Qed.

Lemma filter_ne_notin name (cf : list coef_t) :
  ~ In name (map fst cf) -> filter (fun nc => negb (Nat.eqb (fst nc) name)) cf = cf.
Proof.
  induction cf as [|[n c] tl IH]; simpl; intros H; [reflexivity|].
  destruct (Nat.eqb n name) eqn:E.
  - apply Nat.eqb_eq in E. subst. tauto.
  - simpl. rewrite IH; [reflexivity | tauto].
Qed.

Lemma csum_remove s name coef : forall cf, NoDup (map fst cf) -> In (name, coef) cf ->
  csum s cf = coef * s name + csum s (filter (fun nc => negb (Nat.eqb (fst nc) name)) cf).
Proof.
  induction cf as [|[n c] tl IH]; simpl; intros ND H; [destruct H|].
  inversion ND as [|? ? N1 N2]; subst.
  destruct (Nat.eqb n name) eqn:E; simpl.
  - apply Nat.eqb_eq in E. subst n. destruct H as [H|H].
    + inversion H; subst. rewrite filter_ne_notin by exact N1. unfold csum. simpl. reflexivity.
    + exfalso. apply N1. apply in_map_iff. exists (name, coef). split; [reflexivity | exact H].
  - destruct H as [H|H]; [inversion H; subst; rewrite Nat.eqb_refl in E; discriminate|].
    unfold csum in *. simpl. rewrite (IH N2 H). lia.
Qed.

Lemma others_bounds s ds : forall others,
  (forall nc, In nc others -> In (s (fst nc)) (dget ds (fst nc))) ->
  others_lo ds others <= csum s others <= others_hi ds others.
Proof.
  unfold others_lo, others_hi, csum. induction others as [|[o co] tl IH]; simpl; intros H; [lia|].
  assert (Ho : In (co * s o) (map (fun v => co * v) (dget ds o))).
  { apply in_map_iff. exists (s o). split; [reflexivity | apply (H (o, co)); left; reflexivity]. }
  pose proof (zmin_list_le _ _ Ho). pose proof (zmax_list_ge _ _ Ho).
  assert (IH' := IH (fun nc Hnc => H nc (or_intror Hnc))). lia.
Qed.

Lemma eq_filter_In s ds free const name coef :
  NoDup (map fst free) -> csum s free = - const -> In (name, coef) free ->
  (forall nc, In nc free -> In (fst nc) (dkeys ds)) -> in_ds s ds ->
  In (s name) (eq_filter ds free const name coef).
Proof.
  intros ND Hsum Hin K Hs.
  assert (Hn : In (s name) (dget ds name)). { apply Hs. apply (K (name, coef)). exact Hin. }
  rewrite (csum_remove s name coef free ND Hin) in Hsum.
  unfold eq_filter. set (others := filter _ free) in *.
  assert (Ho : forall nc, In nc others -> In (s (fst nc)) (dget ds (fst nc))).
  { intros nc Hnc. apply Hs. apply K. unfold others in Hnc. apply filter_In in Hnc. tauto. }
  pose proof (others_bounds s ds others Ho) as B.
  assert (Dflt : In (s name) (filter (fun v => (others_lo ds others <=? - const - coef * v)
                                               && (- const - coef * v <=? others_hi ds others)) (dget ds name))).
  { apply filter_In. split; [exact Hn|]. apply andb_true_iff. split; apply Z.leb_le; lia. }
  destruct others as [|[o co] [|p tl]] eqn:EO; try exact Dflt.
  apply filter_In. split; [exact Hn|]. apply zmem_spec. apply in_map_iff. exists (s o). split.
  - unfold csum in Hsum. simpl in Hsum. lia.
  - apply (Ho (o, co)). left. reflexivity.
Qed.

Lemma eq_loop_sound s free const :
  NoDup (map fst free) -> csum s free = - const ->
  forall todo ds, incl todo free -> (forall nc, In nc free -> In (fst nc) (dkeys ds)) -> in_ds s ds ->
  exists ds', eq_loop free todo const ds = Some ds' /\ in_ds s ds'.
Proof.
  intros ND Hsum. induction todo as [|[n c] tl IH]; intros ds I K Hs; simpl.
  - exists ds. split; [reflexivity | exact Hs].
  - assert (Hin : In (n, c) free) by (apply I; left; reflexivity).
    pose proof (eq_filter_In s ds free const n c ND Hsum Hin K Hs) as HF.
    destruct (eq_filter ds free const n c) as [|y ys] eqn:E; [destruct HF|].
    apply IH.
    + intros x Hx. apply I. right. exact Hx.
    + intros nc Hnc. rewrite dkeys_dset. apply K. exact Hnc.
    + apply in_ds_dset; [exact Hs | exact HF].
Qed.

Lemma ne_single_value c sn const : c * sn + const <> 0 -> const mod c = 0 -> sn <> (- const) / c.
Proof.
  intros H M E. subst sn. destruct (Z.eq_dec c 0) as [->|N].
  - rewrite Zmod_0_r in M. lia.
  - apply Z.mod_divide in M; [|exact N]. destruct M as [k ->].
    replace (- (k * c)) with ((- k) * c) in H by lia. rewrite Z.div_mul in H by exact N. lia.
Qed.

Lemma lin_branch_sound s free const (ne : bool) ds :
  in_ds s ds -> NoDup (map fst free) -> (forall nc, In nc free -> In (fst nc) (dkeys ds)) ->
  (if ne then csum s free + const <> 0 else csum s free + const = 0) ->
  exists ds', lin_branch free const ne ds = Some ds' /\ in_ds s ds'.
Proof.
  intros Hs ND K Hh. unfold lin_branch.
  assert (Same : exists ds', Some ds = Some ds' /\ in_ds s ds') by (exists ds; split; [reflexivity | exact Hs]).
  destruct free as [|[n c] ftl].
  - unfold csum in Hh. simpl in Hh. destruct ne.
    + destruct (const =? 0) eqn:E0; [apply Z.eqb_eq in E0; lia | exact Same].
    + destruct (const =? 0) eqn:E0; [exact Same | apply Z.eqb_neq in E0; lia].
  - destruct ne.
    + destruct ftl as [|p q]; [|exact Same].
      destruct (const mod c =? 0) eqn:EM; [|exact Same].
      apply Z.eqb_eq in EM. eexists. split; [reflexivity|].
      apply in_ds_ddiscard; [exact Hs|]. intros _. apply ne_single_value; [|exact EM].
      unfold csum in Hh. simpl in Hh. lia.
    + apply (eq_loop_sound s _ const ND); [lia | apply incl_refl | exact K | exact Hs].
Qed.

Lemma lin_coefs_keys l r ne ds : cvars_in (CLin l r ne) ds -> forall nc, In nc (lin_coefs l r) -> In (fst nc) (dkeys ds).
Proof.
  intros K nc Hnc. apply in_map_iff in Hnc. destruct Hnc as [[v c] [<- Ht]]. simpl.
  apply K. apply (linearize_terms l r (v, c) Ht).
Qed.

Lemma lin_free_NoDup l r ds : NoDup (map fst (lin_free l r ds)).
Proof. apply NoDup_map_filter. unfold lin_coefs. rewrite map_map. apply (linearize_NoDup l r). Qed.

Lemma csum_fixed s ds cf :
  in_ds s ds -> (forall nc, In nc cf -> In (fst nc) (dkeys ds) /\ is_open (dget ds (fst nc)) = false) ->
  zsum (map (fun nc => snd nc * first (dget ds (fst nc))) cf) = csum s cf.
Proof.
  intros Hs H. unfold csum. f_equal. apply map_ext_in. intros nc Hnc. destruct (H nc Hnc) as [K O].
  rewrite (not_open_in s ds (fst nc) Hs K O). reflexivity.
Qed.

Lemma lin_split s l r ne ds : in_ds s ds -> cvars_in (CLin l r ne) ds ->
  eval s l - eval s r = csum s (lin_free l r ds) + lin_const l r ds.
Proof.
  intros Hs K. rewrite <- (linearize_eval s l r). unfold lin_eval. rewrite <- csum_terms.
  change (csum s (lin_coefs l r) + snd (linearize l r) = csum s (lin_free l r ds) + lin_const l r ds).
  rewrite (csum_split s (fun nc => is_open (dget ds (fst nc)))). cbv beta. unfold lin_const, lin_free.
  rewrite (csum_fixed s ds); [lia | exact Hs |].
  intros nc Hnc. apply filter_In in Hnc. destruct Hnc as [H1 H2]. apply negb_true_iff in H2.
  split; [apply (lin_coefs_keys l r ne ds K nc H1) | exact H2].
Qed.

Lemma prop_lin_sound s l r ne ds :
  in_ds s ds -> cvars_in (CLin l r ne) ds -> holds s (CLin l r ne) ->
  exists ds', prop_lin l r ne ds = Some ds' /\ in_ds s ds'.
Proof.
  intros Hs K Hh. rewrite prop_lin_eq. apply lin_branch_sound; [exact Hs | apply lin_free_NoDup | |].
  - intros nc Hnc. apply filter_In in Hnc. apply (lin_coefs_keys l r ne ds K). tauto.
  - rewrite <- (lin_split s l r ne ds Hs K). simpl in Hh. destruct ne; lia.
Qed.

Theorem prop_one_sound s c ds :
  in_ds s ds -> cvars_in c ds -> holds s c ->
  exists ds', prop_one c ds = Some ds' /\ in_ds s ds'.
Proof.
  (* the six SAT-only kinds return ds unchanged: closed by the `try` *)
  intros Hs K Hh. destruct c; cbn [prop_one prop_alldiff]; try (exists ds; split; [reflexivity | exact Hs]);
    simpl in Hh; unfold aval in Hh.
  - (* all_different *)
    eexists. split; [reflexivity|]. apply (alldiff_loop_sound s vs Hh vs [] ds); [reflexivity | exact K | exact Hs].
  - (* eq_const *)
    pose proof (K v (or_introl eq_refl)) as Kv.
    assert (Hm : zmem c (dget ds (vid v)) = true). { apply zmem_spec. rewrite <- Hh. apply Hs. exact Kv. }
    rewrite Hm. eexists. split; [reflexivity|]. apply in_ds_dset; [exact Hs|]. left. symmetry. exact Hh.
  - (* ne_const *)
    eexists. split; [reflexivity|]. apply in_ds_ddiscard; [exact Hs|]. intros _. exact Hh.
  - (* eq_var *)
    pose proof (K v (or_introl eq_refl)) as Kv.
    pose proof (K w (or_intror (or_introl eq_refl))) as Kw.
    assert (Hc : In (s (vid v)) (filter (fun x => zmem x (dget ds (vid w))) (dget ds (vid v)))).
    { apply filter_In. split; [apply Hs; exact Kv|]. apply zmem_spec. rewrite Hh. apply Hs. exact Kw. }
    destruct (filter _ _) as [|y ys] eqn:E; [destruct Hc|].
    eexists. split; [reflexivity|]. apply in_ds_dset; [apply in_ds_dset; [exact Hs | exact Hc]|].
    rewrite <- Hh. exact Hc.
  - (* ne_var *)
    eexists. split; [apply prop_one_ne_var|].
    assert (H1 : in_ds s (ne_step ds (vid v) (vid w))).
    { apply ne_step_sound; [exact Hs | apply K; left; reflexivity | intros E; apply Hh; symmetry; exact E]. }
    apply ne_step_sound; [exact H1 | | exact Hh].
    rewrite (dsub_keys _ _ (dsub_ne_step _ _ _)). apply K. right. left. reflexivity.
  - (* linear *)
    apply prop_lin_sound; assumption.
Qed.

Lemma in_ds_not_empty s ds : in_ds s ds -> any_empty ds = false.
Proof.
  intros Hs. unfold any_empty. destruct (existsb _ _) eqn:E; [|reflexivity].
  apply existsb_exists in E. destruct E as [i [Hi E]]. specialize (Hs i Hi).
  destruct (dget ds i); [destruct Hs | discriminate].
Qed.

Lemma prop_pass_sound s : forall cs ds ch,
  in_ds s ds -> (forall c, In c cs -> cvars_in c ds /\ holds s c) ->
  exists ds' ch', prop_pass cs ds ch = Some (ds', ch') /\ in_ds s ds'.
Proof.
  induction cs as [|c tl IH]; intros ds ch Hs H; simpl.
  - exists ds, ch. auto.
  - destruct (H c (or_introl eq_refl)) as [K Hh].
    destruct (prop_one_sound s c ds Hs K Hh) as [ds1 [E1 H1]]. rewrite E1, (in_ds_not_empty s ds1 H1).
    apply IH; [exact H1|]. intros c' Hc'. destruct (H c' (or_intror Hc')) as [Kc Hc]. split; [|exact Hc].
    apply (cvars_in_sub c' ds1 ds); [apply (dsub_prop_one c), E1 | exact Kc].
Qed.

Lemma prop_loop_sound s cs : forall fuel ds,
  in_ds s ds -> (forall c, In c cs -> cvars_in c ds /\ holds s c) ->
  prop_loop cs fuel ds <> PFail /\ forall ds', prop_loop cs fuel ds = POk ds' -> in_ds s ds'.
Proof.
  induction fuel as [|f IH]; intros ds Hs H; simpl.
  - split; discriminate.
  - destruct (prop_pass_sound s cs ds false Hs H) as [ds1 [ch [E H1]]]. rewrite E.
    destruct ch.
    + apply IH; [exact H1|]. intros c Hc. destruct (H c Hc) as [Kc Hh]. split; [|exact Hh].
      apply (cvars_in_sub c ds1 ds); [apply (dsub_prop_pass _ _ _ _ _ E) | exact Kc].
    + split; [discriminate|]. intros ds' E'. inversion E'. subst. exact H1.
Qed.

Theorem prop_sound s cs ds :
  in_ds s ds -> (forall c, In c cs -> cvars_in c ds /\ holds s c) ->
  propagate cs ds <> PFail /\ forall ds', propagate cs ds = POk ds' -> in_ds s ds' /\ dkeys ds' = dkeys ds.
Proof.
  intros Hs H. destruct (prop_loop_sound s cs (S (dsize ds)) ds Hs H) as [NF OK]. split; [exact NF|].
  intros ds' E. split; [apply OK, E | apply dsub_keys, (dsub_propagate cs), E].
Qed.
