(* C05 - property (6) of Props/C05.v: the SAT path as a composition, stated as closed implications:
     IF   the CNF produced for M has exactly the models of M      (C06's theorems, SV.C06.CpEnc.encode)
     AND  the SAT back-end's answer is right about that CNF       (C01's theorems)
     THEN the decoded assignment is a CP solution of M, and INFEASIBLE means that M has no solution.
   After the Section is closed the hypotheses are ordinary premises: nothing is assumed globally.
   Then C06's premises are discharged by its encoder theorems, and the two back-ends are shown to agree on
   satisfiability (DFS verdict proved, SAT verdict under the premises). *)
From Coq Require Import List ZArith Bool.
From SV Require Import C06.CpAst C06.CpEnc C06.EncModel C05.CpDfs C05.CpSpec C05.DfsSound C05.DfsComplete.
Import ListNotations.
Open Scope Z_scope.

Section SatPath.
  Variable M : cpmodel.
  (* the observable of solve_sat on the encoder's clause list: Some b = a model was returned, None = INFEASIBLE *)
  Variable sat_answer : option asg.

  (* what C06_sound gives for a model with wf_model M: every model of the CNF decodes to a CP solution *)
  Hypothesis enc_sound : forall b, models b (fst (encode M)) -> cp_solution M (dec_asgn (m_vars M) b).
  (* what C06_complete gives under wf_model M: every CP solution extends to a model of the CNF *)
  Hypothesis enc_complete : forall a, cp_solution M a -> exists b, models b (fst (encode M)).
  (* C01: a returned model satisfies the clause list; INFEASIBLE only if it has no model *)
  Hypothesis sat_sound : forall b, sat_answer = Some b -> models b (fst (encode M)).
  Hypothesis sat_complete : sat_answer = None -> forall b, ~ models b (fst (encode M)).

  Theorem sat_path_sound b : sat_answer = Some b -> answer_valid M (project M (dec_asgn (m_vars M) b)).
  Proof. intros H. exists (dec_asgn (m_vars M) b). split; [apply enc_sound, sat_sound, H | reflexivity]. Qed.

  Theorem sat_path_infeasible : sat_answer = None -> no_solution M.
  Proof. intros H a SA. destruct (enc_complete a SA) as [b Hb]. exact (sat_complete H b Hb). Qed.

  (* SATEncoder.solve answers INFEASIBLE without calling the solver when some clause is empty *)
  Theorem sat_path_empty_clause : has_empty (fst (encode M)) = true -> no_solution M.
  Proof.
    intros H a SA. destruct (enc_complete a SA) as [b Hb].
    unfold has_empty in H. apply existsb_exists in H. destruct H as [c [Hc E]].
    destruct c; [|discriminate]. specialize (Hb [] Hc). discriminate.
  Qed.
End SatPath.

Lemma find_vid vs v : NoDup (map vid vs) -> In v vs -> find (fun w => Nat.eqb (vid w) (vid v)) vs = Some v.
Proof.
  induction vs as [|w tl IH]; simpl; intros ND H; [destruct H|].
  inversion ND as [|? ? N1 N2]; subst. destruct H as [->|H].
  - rewrite Nat.eqb_refl. reflexivity.
  - destruct (Nat.eqb (vid w) (vid v)) eqn:E; [|apply IH; assumption].
    apply Nat.eqb_eq in E. exfalso. apply N1. rewrite E. apply in_map. exact H.
Qed.

(* the dictionary decode_sat_solution builds is the projection of the decoded assignment
   (whenever every named variable has a true literal; ids distinct) *)
Theorem decode_is_projection M b :
  NoDup (map vid (m_vars M)) ->
  map (fun p => (fst p, match snd p with Some x => x | None => 0 end)) (decode M b)
  = project M (dec_asgn (m_vars M) b).
Proof.
  intros ND. unfold decode, project. rewrite map_map. apply map_ext_in. intros v Hv. simpl.
  unfold aval, dec_asgn. unfold named_vars in Hv. apply filter_In in Hv. destruct Hv as [Hv _].
  rewrite (find_vid _ v ND Hv). reflexivity.
Qed.

Theorem backends_agree (vo : list Z -> list Z) (M : cpmodel) (hints : list (nat * Z)) (limit : Z)
        (sat_answer : option asg) (sols : list sol) :
  wf_dfs M = true -> (forall d, incl (vo d) d) -> (forall d, incl d (vo d)) ->
  (* C06: the CNF has exactly the models of M *)
  (forall b, models b (fst (encode M)) -> cp_solution M (dec_asgn (m_vars M) b)) ->
  (forall a, cp_solution M a -> exists b, models b (fst (encode M))) ->
  (* C01: the SAT answer is right about the CNF *)
  (forall b, sat_answer = Some b -> models b (fst (encode M))) ->
  (sat_answer = None -> forall b, ~ models b (fst (encode M))) ->
  solve vo M hints limit = RSols sols ->
  (sols = [] <-> sat_answer = None).
Proof.
  intros WF V1 V2 ES EC SS SC E. rewrite (dfs_empty_iff vo M hints limit sols WF V1 V2 E). split.
  - intros NS. destruct sat_answer as [b|]; [|reflexivity]. exfalso.
    apply (NS (dec_asgn (m_vars M) b)). apply ES, SS. reflexivity.
  - apply (sat_path_infeasible M sat_answer EC SC).
Qed.

(* the C06 premises, discharged by SV.C06.EncModel.encode_sound / encode_complete (proved for every constraint
   kind under wf_model); what remains a premise is C01's statement about the SAT answer on this clause list *)
Lemma enc_sound_c06 M : wf_model M = true ->
  forall b, models b (fst (encode M)) -> cp_solution M (dec_asgn (m_vars M) b).
Proof. intros WF b Hb. exact (proj1 (encode_sound M b WF (model_proved_all M) Hb)). Qed.

Lemma enc_complete_c06 M : wf_model M = true ->
  forall a, cp_solution M a -> exists b, models b (fst (encode M)).
Proof. intros WF a Ha. destruct (encode_complete M a WF (model_proved_all M) Ha) as [b [Hb _]]. exists b. exact Hb. Qed.
