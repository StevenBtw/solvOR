(* C05 - the fuel of the model (total domain size + 1, for the `while changed` loop and for the recursion
 of backtrack) is always sufficient: the model never answers PFuel / RFuel. *)
From Coq Require Import List ZArith Bool Lia.
From SV Require Import C06.CpAst C05.CpDfs C05.CpLemmas C05.PropSound
  C05.DfsSound C05.DfsComplete.
Import ListNotations.
Open Scope Z_scope.

Lemma dsize_mono : forall ds ds', NoDup (dkeys ds) -> dkeys ds' = dkeys ds ->
  (forall i, (length (dget ds' i) <= length (dget ds i))%nat) ->
  (dsize ds' <= dsize ds)%nat /\
  forall i, In i (dkeys ds) -> (length (dget ds' i) < length (dget ds i))%nat -> (dsize ds' < dsize ds)%nat.
Proof.
  induction ds as [|[j d] tl IH]; intros [|[j' d'] tl'] ND K L; try discriminate.
  - split; [apply Nat.le_refl | intros i []].
  - change (j' :: dkeys tl' = j :: dkeys tl) in K. injection K as -> K.
    change (NoDup (j :: dkeys tl)) in ND. inversion ND as [|? ? N1 N2]; subst.
    assert (Ltl : forall i, (length (dget tl' i) <= length (dget tl i))%nat).
    { intros i. destruct (Nat.eqb j i) eqn:E.
      - apply Nat.eqb_eq in E. subst i. rewrite !dget_notin; [apply Nat.le_refl | exact N1 | rewrite K; exact N1].
      - specialize (L i). simpl in L. rewrite E in L. exact L. }
    destruct (IH tl' N2 K Ltl) as [Le Lt]. pose proof (L j) as Lj. simpl in Lj. rewrite Nat.eqb_refl in Lj.
    simpl. split; [lia|]. intros i [<-|Hi] Li; simpl in Li.
    + rewrite Nat.eqb_refl in Li. lia.
    + destruct (Nat.eqb j i) eqn:E; [apply Nat.eqb_eq in E; subst i; contradiction|]. specialize (Lt i Hi Li). lia.
Qed.

Definition dup_free (ds : doms) : Prop := NoDup (dkeys ds) /\ dnodup ds.

Lemma dup_free_sub ds' ds : dsub ds' ds -> dup_free ds -> dup_free ds'.
Proof. intros [K [_ N]] [G1 G2]. split; [rewrite K; exact G1 | apply N; exact G2]. Qed.

Lemma sub_len ds' ds : dsub ds' ds -> dup_free ds -> forall i, (length (dget ds' i) <= length (dget ds i))%nat.
Proof. intros [K [I N]] [G1 G2] i. apply NoDup_incl_length; [apply N; exact G2 | apply I]. Qed.

Lemma sub_size_le ds' ds : dsub ds' ds -> dup_free ds -> (dsize ds' <= dsize ds)%nat.
Proof. intros S G. apply dsize_mono; [apply G | apply dsub_keys, S | apply sub_len; assumption]. Qed.

Lemma sub_size_lt ds' ds : dsub ds' ds -> dup_free ds -> shrunk ds ds' = true -> (dsize ds' < dsize ds)%nat.
Proof.
  intros S G Sh. apply existsb_exists in Sh. destruct Sh as [i [Hi Li]]. apply Nat.ltb_lt in Li.
  exact (proj2 (dsize_mono ds ds' (proj1 G) (dsub_keys _ _ S) (sub_len _ _ S G)) i Hi Li).
Qed.

Lemma prop_pass_size : forall cs ds ch ds' ch', dup_free ds -> prop_pass cs ds ch = Some (ds', ch') ->
  (dsize ds' <= dsize ds)%nat /\ (ch' = true -> ch = true \/ (dsize ds' < dsize ds)%nat).
Proof.
  induction cs as [|c tl IH]; intros ds ch ds' ch' G H; simpl in H.
  - inversion H. subst. split; [lia | tauto].
  - destruct (prop_one c ds) as [ds1|] eqn:E; [|discriminate]. destruct (any_empty ds1); [discriminate|].
    pose proof (dsub_prop_one c ds ds1 E) as S1. pose proof (dup_free_sub _ _ S1 G) as G1.
    destruct (IH ds1 _ ds' ch' G1 H) as [L1 L2]. pose proof (sub_size_le _ _ S1 G) as L0. split; [lia|].
    intros T. destruct (L2 T) as [X|X]; [|right; lia].
    apply orb_true_iff in X. destruct X as [X|X]; [left; exact X | right].
    pose proof (sub_size_lt _ _ S1 G X). lia.
Qed.

Lemma prop_loop_fuel cs : forall fuel ds, dup_free ds -> (dsize ds < fuel)%nat -> prop_loop cs fuel ds <> PFuel.
Proof.
  induction fuel as [|f IH]; intros ds G L; [lia|]. simpl.
  destruct (prop_pass cs ds false) as [[ds1 [|]]|] eqn:E; try discriminate.
  destruct (prop_pass_size _ _ _ _ _ G E) as [_ L2]. destruct (L2 eq_refl) as [X|X]; [discriminate|].
  apply IH; [|lia]. eapply dup_free_sub; [eapply dsub_prop_pass; exact E | exact G].
Qed.

Theorem propagate_fuel cs ds : dup_free ds -> propagate cs ds <> PFuel.
Proof. intros G. apply prop_loop_fuel; [exact G | lia]. Qed.

Lemma dsize_dset_single ds i x : dup_free ds -> In i (dkeys ds) -> is_open (dget ds i) = true ->
  (dsize (dset ds i [x]) < dsize ds)%nat.
Proof.
  intros [G1 _] K O. unfold is_open in O. apply Nat.ltb_lt in O.
  assert (E : dget (dset ds i [x]) i = [x]) by (apply dget_dset_same, K).
  assert (L : forall j, (length (dget (dset ds i [x]) j) <= length (dget ds j))%nat).
  { intros j. destruct (Nat.eq_dec i j) as [<-|N]; [rewrite E; simpl; lia | rewrite dget_dset_other by exact N; lia]. }
  apply (proj2 (dsize_mono ds (dset ds i [x]) G1 (dkeys_dset _ _ _) L) i K). rewrite E. simpl. lia.
Qed.

Lemma dup_free_dset_single ds i x : dup_free ds -> dup_free (dset ds i [x]).
Proof.
  intros [G1 G2]. split; [rewrite dkeys_dset; exact G1 | apply dnodup_dset; [exact G2 | apply NoDup_single]].
Qed.

Section BtFuel.
  Variable vo : list Z -> list Z.
  Variable vs : list var.
  Variable cs : list cstr.
  Variable limit : Z.

  Lemma bt_loop_fuel (rec : doms -> list sol -> bt_out) ds v nn :
    dup_free ds -> In v (dkeys ds) -> is_open (dget ds v) = true ->
    (forall ds' sols, dup_free ds' -> dkeys ds' = dkeys ds -> (dsize ds' < dsize ds)%nat -> rec ds' sols <> None) ->
    forall vals sols, bt_loop cs limit rec ds v nn vals sols <> None.
  Proof.
    intros G K O REC. induction vals as [|val rest IH]; intros sols; simpl; [discriminate|].
    pose proof (dup_free_dset_single ds v val G) as G1.
    pose proof (propagate_fuel cs _ G1) as NF.
    destruct (propagate cs (dset ds v [val])) as [| |ds'] eqn:PR; [contradiction | apply IH |].
    pose proof (dsub_propagate _ _ _ PR) as S. pose proof (dup_free_sub _ _ S G1) as G'.
    assert (L : (dsize ds' < dsize ds)%nat).
    { pose proof (sub_size_le _ _ S G1). pose proof (dsize_dset_single ds v val G K O). lia. }
    assert (K' : dkeys ds' = dkeys ds) by (destruct S as [K' _]; rewrite K'; apply dkeys_dset).
    destruct (rec ds' sols) as [[sols' stop]|] eqn:R; [|exfalso; exact (REC ds' sols G' K' L R)].
    destruct (stop && _); [discriminate | apply IH].
  Qed.

  Lemma bt_fuel : forall fuel ds sols, dup_free ds -> dkeys ds = map vid vs -> (dsize ds < fuel)%nat ->
    bt vo vs cs limit fuel ds sols <> None.
  Proof.
    induction fuel as [|f IH]; intros ds sols G K L; [lia|]. rewrite bt_S.
    destruct (open_vars vs ds) as [|o otl] eqn:O; [discriminate|].
    destruct (branch_var_open vs ds o otl O) as [Hv [Ov _]]. cbv zeta in *.
    apply bt_loop_fuel; [exact G | rewrite K; apply in_map; exact Hv | exact Ov|].
    intros ds' sols' G' K' L'. apply IH; [exact G' | congruence | lia].
  Qed.
End BtFuel.

Lemma dup_free_init M : wf_dfs M = true -> dup_free (init_doms (m_vars M)).
Proof.
  intros WF. pose proof (wf_dfs_ids M WF) as ND. split; [rewrite dkeys_init; exact ND | apply dnodup_init, ND].
Qed.

Theorem solve_dfs_fuel vo M hints limit : wf_dfs M = true -> solve_dfs vo M hints limit <> RFuel.
Proof.
  intros WF. unfold solve_dfs. destruct (existsb sat_required (m_cons M)); [discriminate|].
  destruct (apply_hints_inv hints (init_doms (m_vars M))) as [SH _].
  pose proof (dup_free_sub _ _ SH (dup_free_init M WF)) as G.
  pose proof (propagate_fuel (m_cons M) _ G) as NF.
  destruct (propagate (m_cons M) (apply_hints hints (init_doms (m_vars M)))) as [| |ds'] eqn:PR; [contradiction | discriminate |].
  pose proof (dsub_propagate _ _ _ PR) as Sb. pose proof (dup_free_sub _ _ Sb G) as G'.
  assert (K : dkeys ds' = map vid (m_vars M)).
  { destruct Sb as [K1 _]. destruct SH as [K2 _]. rewrite K1, K2. apply dkeys_init. }
  pose proof (bt_fuel vo (m_vars M) (m_cons M) limit (S (dsize ds')) ds' [] G' K (Nat.lt_succ_diag_r _)) as NB.
  destruct (bt vo (m_vars M) (m_cons M) limit (S (dsize ds')) ds' []) as [[out b]|]; [discriminate | contradiction].
Qed.

(* hence: Model.solve(solver='dfs') on a DFS-supported model answers either INFEASIBLE or solutions *)
Corollary solve_total vo M hints limit : wf_dfs M = true -> existsb sat_required (m_cons M) = false ->
  exists sols, solve vo M hints limit = RSols sols.
Proof.
  intros WF SUP.
  assert (T : forall h, exists sols, solve_dfs vo M h limit = RSols sols).
  { intros h. pose proof (solve_dfs_fuel vo M h limit WF) as F. unfold solve_dfs in *. rewrite SUP in *.
    destruct (propagate _ _); [contradiction | eexists; reflexivity |].
    destruct (bt _ _ _ _ _ _ _) as [[? ?]|]; [eexists; reflexivity | contradiction]. }
  destruct (solve_cases vo M hints limit) as [[_ E]|[_ [h [E _]]]]; rewrite E; [eexists; reflexivity | apply T].
Qed.
