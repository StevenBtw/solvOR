(* C05 - basic lemmas: lists, association-list domains, assignments inside domains, distinct ids of the
   linear normal form. *)
From Coq Require Import List ZArith Bool Lia.
From SV Require Import C06.CpAst C06.CpAstProofs C06.EncLinear C05.CpDfs.
Import ListNotations.
Open Scope Z_scope.

Lemma existsb_false {A} (p : A -> bool) l : existsb p l = false -> forall x, In x l -> p x = false.
Proof.
  intros H x Hx. destruct (p x) eqn:E; [|reflexivity].
  rewrite <- H. symmetry. apply existsb_exists. exists x. split; assumption.
Qed.

Lemma filter_nil {A} (p : A -> bool) l : filter p l = [] <-> forall x, In x l -> p x = false.
Proof.
  split.
  - intros H x Hx. destruct (p x) eqn:E; [|reflexivity].
    assert (X : In x (filter p l)) by (apply filter_In; split; assumption). rewrite H in X. destruct X.
  - intros H. destruct (filter p l) as [|y tl] eqn:E; [reflexivity|].
    assert (X : In y (filter p l)) by (rewrite E; left; reflexivity).
    apply filter_In in X. destruct X as [Hy Py]. rewrite (H y Hy) in Py. discriminate.
Qed.

Lemma NoDup_single {A} (x : A) : NoDup [x].
Proof. constructor; [intros [] | constructor]. Qed.

Lemma incl_single_eq {A} (d : list A) x : incl d [x] -> NoDup d -> d <> [] -> d = [x].
Proof.
  intros I ND NE. destruct d as [|a [|b tl]]; [contradiction | |].
  - destruct (I a (or_introl eq_refl)) as [<-|[]]. reflexivity.
  - exfalso. destruct (I a (or_introl eq_refl)) as [<-|[]]. destruct (I b (or_intror (or_introl eq_refl))) as [<-|[]].
    inversion ND as [|? ? H1 H2]; subst. apply H1. left. reflexivity.
Qed.

Lemma NoDup_app_disjoint {A} (l1 l2 : list A) :
  NoDup l1 -> NoDup l2 -> (forall x, In x l1 -> In x l2 -> False) -> NoDup (l1 ++ l2).
Proof.
  induction l1 as [|a tl IH]; simpl; intros N1 N2 D; [exact N2|].
  inversion N1 as [|? ? H1 H2]; subst. constructor.
  - intros H. apply in_app_or in H. destruct H as [H|H]; [contradiction | apply (D a); [left; reflexivity | exact H]].
  - apply IH; [exact H2 | exact N2 | intros x Hx; apply D; right; exact Hx].
Qed.

Lemma discard_In x y d : In y (discard x d) <-> In y d /\ y <> x.
Proof.
  unfold discard. rewrite filter_In. rewrite negb_true_iff, Z.eqb_neq. tauto.
Qed.

Lemma discard_incl x d : incl (discard x d) d.
Proof. intros y H. apply discard_In in H. tauto. Qed.

Lemma dkeys_dset ds i d : dkeys (dset ds i d) = dkeys ds.
Proof.
  unfold dkeys. induction ds as [|[j e] tl IH]; simpl; [reflexivity|].
  destruct (Nat.eqb j i); simpl; [reflexivity | now rewrite IH].
Qed.

Lemma dkeys_ddiscard ds i x : dkeys (ddiscard ds i x) = dkeys ds.
Proof. apply dkeys_dset. Qed.

Lemma dget_dset_other ds i j d : i <> j -> dget (dset ds i d) j = dget ds j.
Proof.
  intros N. induction ds as [|[k e] tl IH]; simpl; [reflexivity|].
  destruct (Nat.eqb k i) eqn:E; simpl.
  - apply Nat.eqb_eq in E. subst k. destruct (Nat.eqb i j) eqn:E2; [apply Nat.eqb_eq in E2; contradiction | reflexivity].
  - destruct (Nat.eqb k j); [reflexivity | exact IH].
Qed.

Lemma dget_dset_same ds i d : In i (dkeys ds) -> dget (dset ds i d) i = d.
Proof.
  unfold dkeys. induction ds as [|[k e] tl IH]; simpl; [tauto|].
  intros H. destruct (Nat.eqb k i) eqn:E; simpl.
  - rewrite E. reflexivity.
  - rewrite E. apply IH. destruct H as [H|H]; [subst; rewrite Nat.eqb_refl in E; discriminate | exact H].
Qed.

Lemma dget_notin ds i : ~ In i (dkeys ds) -> dget ds i = [].
Proof.
  unfold dkeys. induction ds as [|[k e] tl IH]; simpl; [reflexivity|].
  intros H. destruct (Nat.eqb k i) eqn:E.
  - apply Nat.eqb_eq in E. subst. tauto.
  - apply IH. tauto.
Qed.

Lemma dset_notin ds i d : ~ In i (dkeys ds) -> dset ds i d = ds.
Proof.
  unfold dkeys. induction ds as [|[k e] tl IH]; simpl; [reflexivity|].
  intros H. destruct (Nat.eqb k i) eqn:E.
  - apply Nat.eqb_eq in E. subst. tauto.
  - rewrite IH; [reflexivity | tauto].
Qed.

Lemma in_dkeys_dec i ds : {In i (dkeys ds)} + {~ In i (dkeys ds)}.
Proof. apply in_dec. apply Nat.eq_dec. Qed.

Lemma dget_dset ds i j d :
  dget (dset ds i d) j = if Nat.eqb i j then (if in_dkeys_dec i ds then d else []) else dget ds j.
Proof.
  destruct (Nat.eqb i j) eqn:E.
  - apply Nat.eqb_eq in E. subst j. destruct (in_dkeys_dec i ds) as [H|H].
    + apply dget_dset_same. exact H.
    + rewrite dset_notin by exact H. apply dget_notin. exact H.
  - apply dget_dset_other. intros ->. rewrite Nat.eqb_refl in E. discriminate.
Qed.

Lemma dkeys_init vs : dkeys (init_doms vs) = map vid vs.
Proof. unfold dkeys, init_doms. rewrite map_map. reflexivity. Qed.

Lemma dget_init vs v : NoDup (map vid vs) -> In v vs -> dget (init_doms vs) (vid v) = vdom v.
Proof.
  induction vs as [|w tl IH]; simpl; intros ND H; [destruct H|].
  inversion ND as [|? ? N1 N2]; subst. destruct H as [->|H].
  - rewrite Nat.eqb_refl. reflexivity.
  - destruct (Nat.eqb (vid w) (vid v)) eqn:E.
    + apply Nat.eqb_eq in E. exfalso. apply N1. rewrite E. apply in_map. exact H.
    + apply IH; assumption.
Qed.

Lemma NoDup_zseq : forall len start, NoDup (zseq start len).
Proof.
  induction len as [|k IH]; intros start; simpl; constructor; [|apply IH].
  intros H. apply In_zseq in H. lia.
Qed.

Definition in_ds (s : asgn) (ds : doms) : Prop := forall i, In i (dkeys ds) -> In (s i) (dget ds i).

Lemma in_ds_dset s ds i d : in_ds s ds -> In (s i) d -> in_ds s (dset ds i d).
Proof.
  intros H Hd j Hj. rewrite dkeys_dset in Hj. rewrite dget_dset.
  destruct (Nat.eqb i j) eqn:E.
  - apply Nat.eqb_eq in E. subst j. destruct (in_dkeys_dec i ds); [exact Hd | contradiction].
  - apply H. exact Hj.
Qed.

Lemma in_ds_ddiscard s ds i x : in_ds s ds -> (In i (dkeys ds) -> s i <> x) -> in_ds s (ddiscard ds i x).
Proof.
  intros H N. unfold ddiscard. destruct (in_dkeys_dec i ds) as [K|K].
  - apply in_ds_dset; [exact H|]. apply discard_In. split; [apply H; exact K | apply N; exact K].
  - rewrite dset_notin by exact K. exact H.
Qed.

Lemma is_single_spec d : is_single d = true -> d = [first d].
Proof.
  unfold is_single, first. destruct d as [|x [|y tl]]; simpl; intros H; try discriminate. reflexivity.
Qed.

Lemma single_in s ds i : in_ds s ds -> In i (dkeys ds) -> is_single (dget ds i) = true -> first (dget ds i) = s i.
Proof.
  intros H K S. apply is_single_spec in S. specialize (H i K). rewrite S in H.
  destruct H as [H|[]]. exact H.
Qed.

Lemma not_open_single d : is_open d = false -> d <> [] -> d = [first d].
Proof. destruct d as [|x [|y tl]]; [contradiction | reflexivity | discriminate]. Qed.

Lemma not_open_in s ds i : in_ds s ds -> In i (dkeys ds) -> is_open (dget ds i) = false -> dget ds i = [s i].
Proof.
  intros H K S. specialize (H i K).
  rewrite (not_open_single _ S) in H |- * by (intros E; rewrite E in H; destruct H).
  destruct H as [->|[]]. reflexivity.
Qed.

Lemma fold_min_le l : forall a, fold_left Z.min l a <= a /\ forall x, In x l -> fold_left Z.min l a <= x.
Proof.
  induction l as [|y tl IH]; intros a; simpl.
  - split; [lia | intros x []].
  - destruct (IH (Z.min a y)) as [H1 H2]. split; [lia|].
    intros x [->|Hx]; [lia | apply H2; exact Hx].
Qed.

Lemma fold_max_ge l : forall a, a <= fold_left Z.max l a /\ forall x, In x l -> x <= fold_left Z.max l a.
Proof.
  induction l as [|y tl IH]; intros a; simpl.
  - split; [lia | intros x []].
  - destruct (IH (Z.max a y)) as [H1 H2]. split; [lia|].
    intros x [->|Hx]; [lia | apply H2; exact Hx].
Qed.

Lemma zmin_list_le x l : In x l -> zmin_list l <= x.
Proof.
  destruct l as [|a tl]; [intros []|]. unfold zmin_list. destruct (fold_min_le tl a) as [H1 H2].
  intros [->|H]; [exact H1 | apply H2; exact H].
Qed.

Lemma zmax_list_ge x l : In x l -> x <= zmax_list l.
Proof.
  destruct l as [|a tl]; [intros []|]. unfold zmax_list. destruct (fold_max_ge tl a) as [H1 H2].
  intros [->|H]; [exact H1 | apply H2; exact H].
Qed.

Lemma nodupb_NoDup l : nodupb l = true <-> NoDup l.
Proof. apply nodupb_spec. Qed.

Definition tids (ts : list (var * Z)) : list nat := map (fun t => vid (fst t)) ts.

Lemma NoDup_tids_lin_add ts v m : NoDup (tids ts) -> NoDup (tids (lin_add ts v m)).
Proof.
  induction ts as [|[w c] tl IH]; simpl; intros H.
  - apply NoDup_single.
  - inversion H as [|? ? H1 H2]; subst. destruct (Nat.eqb (vid w) (vid v)) eqn:E; simpl.
    + constructor; assumption.
    + constructor; [|apply IH; exact H2]. intros K. apply in_map_iff in K. destruct K as [[u cu] [Eu K]]. simpl in Eu.
      apply (in_map fst) in K. cbn [fst] in K. destruct (lin_add_vars _ _ _ _ K) as [->|K'].
      * rewrite Eu, Nat.eqb_refl in E. discriminate.
      * apply H1. rewrite <- Eu. apply in_map_iff in K'. destruct K' as [p [<- Hp]].
        apply (in_map (fun t => vid (fst t)) _ _ Hp).
Qed.

Lemma NoDup_tids_visit e : forall m acc, NoDup (tids (fst acc)) -> NoDup (tids (fst (visit e m acc))).
Proof.
  induction e as [v|c|a IHa b IHb|a IHa b IHb|a IHa b IHb|a IHa k]; intros m acc H; simpl.
  - apply NoDup_tids_lin_add. exact H.
  - exact H.
  - apply IHb, IHa, H.
  - apply IHb, IHa, H.
  - apply IHa, IHb, H.
  - apply IHa, H.
Qed.

Lemma NoDup_map_filter {A B} (f : A -> B) (p : A -> bool) l : NoDup (map f l) -> NoDup (map f (filter p l)).
Proof.
  induction l as [|x tl IH]; simpl; intros H; [constructor|].
  inversion H as [|? ? H1 H2]; subst. destruct (p x); simpl.
  - constructor; [|apply IH; exact H2]. intros K. apply H1. apply in_map_iff in K. destruct K as [y [E K]].
    apply filter_In in K. apply in_map_iff. exists y. tauto.
  - apply IH. exact H2.
Qed.

Lemma linearize_NoDup l r : NoDup (tids (fst (linearize l r))).
Proof.
  unfold linearize. cbn [fst]. unfold tids. apply NoDup_map_filter.
  apply (NoDup_tids_visit r), (NoDup_tids_visit l). simpl. constructor.
Qed.
