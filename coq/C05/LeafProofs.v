(* C05 - leaf_checked (property (2) of Props/C05.v): when every domain is a singleton and propagation succeeds, every constraint of a
   kind the DFS handles holds under the induced assignment ("always evaluated once fully assigned"). *)
From Coq Require Import List ZArith Bool Lia.
From SV Require Import C06.CpAst C06.CpAstProofs C05.CpDfs C05.CpLemmas C05.PropSound.
Import ListNotations.
Open Scope Z_scope.

Definition matches (s : asgn) (ds : doms) : Prop := forall i, In i (dkeys ds) -> dget ds i = [s i].
Definition no_empty (ds : doms) : Prop := forall i, In i (dkeys ds) -> dget ds i <> [].

Lemma matches_in_ds s ds : matches s ds -> in_ds s ds.
Proof. intros M i K. rewrite (M i K). left. reflexivity. Qed.

Lemma matches_dnodup s ds : matches s ds -> dnodup ds.
Proof.
  intros M i. destruct (in_dkeys_dec i ds) as [K|K].
  - rewrite (M i K). apply NoDup_single.
  - rewrite dget_notin by exact K. constructor.
Qed.

Lemma matches_stay s ds ds' : matches s ds -> dsub ds' ds -> no_empty ds' -> matches s ds'.
Proof.
  intros M [K [I N]] NE i Hi. apply incl_single_eq.
  - rewrite <- (M i); [apply I | rewrite <- K; exact Hi].
  - apply N. eapply matches_dnodup. exact M.
  - apply NE. exact Hi.
Qed.

Lemma no_empty_back ds ds' : dsub ds' ds -> no_empty ds' -> no_empty ds.
Proof.
  intros [K [I N]] NE i Hi E. apply (NE i); [rewrite K; exact Hi|].
  specialize (I i). rewrite E in I. destruct (dget ds' i) as [|x tl]; [reflexivity|].
  destruct (I x (or_introl eq_refl)).
Qed.

Lemma no_empty_any ds : any_empty ds = false -> no_empty ds.
Proof.
  intros H i Hi E. pose proof (existsb_false _ _ H i Hi) as X. cbv beta in X. rewrite E in X. discriminate.
Qed.

Lemma prop_pass_no_empty : forall cs ds ch ds' ch', prop_pass cs ds ch = Some (ds', ch') -> no_empty ds -> no_empty ds'.
Proof.
  induction cs as [|c tl IH]; intros ds ch ds' ch' H NE; simpl in H.
  - inversion H. subst. exact NE.
  - destruct (prop_one c ds) as [ds1|]; [|discriminate]. destruct (any_empty ds1) eqn:AE; [discriminate|].
    eapply IH; [exact H | apply no_empty_any; exact AE].
Qed.

Lemma prop_loop_no_empty cs : forall fuel ds ds', prop_loop cs fuel ds = POk ds' -> no_empty ds -> no_empty ds'.
Proof.
  induction fuel as [|f IH]; intros ds ds' H NE; simpl in H; [discriminate|].
  destruct (prop_pass cs ds false) as [[ds1 [|]]|] eqn:E; try discriminate.
  - eapply IH; [exact H | exact (prop_pass_no_empty _ _ _ _ _ E NE)].
  - inversion H. subst. exact (prop_pass_no_empty _ _ _ _ _ E NE).
Qed.

Lemma no_empty_dset ds i d : no_empty ds -> d <> [] -> no_empty (dset ds i d).
Proof.
  intros NE Hd j Hj. rewrite dkeys_dset in Hj. rewrite dget_dset. destruct (Nat.eqb i j) eqn:E.
  - destruct (in_dkeys_dec i ds); [exact Hd|]. apply Nat.eqb_eq in E. subst. contradiction.
  - apply NE. exact Hj.
Qed.

Lemma matches_no_empty s ds : matches s ds -> no_empty ds.
Proof. intros M i Hi E. rewrite (M i Hi) in E. discriminate. Qed.

Lemma ddiscard_own s ds j : matches s ds -> In j (dkeys ds) -> dget (ddiscard ds j (s j)) j = [].
Proof.
  intros M K. unfold ddiscard. rewrite dget_dset_same by exact K. rewrite (M j K). simpl.
  rewrite Z.eqb_refl. reflexivity.
Qed.

Lemma discard_others_absent i x : forall rest j ds p o,
  nth_error rest p = Some o -> (j + p)%nat <> i -> ~ In x (dget (discard_others rest i j x ds) (vid o)).
Proof.
  induction rest as [|a tl IH]; intros j ds p o Hp N; [destruct p; discriminate|].
  destruct p as [|p']; simpl in Hp |- *.
  - inversion Hp. subst a. rewrite Nat.add_0_r in N. apply Nat.eqb_neq in N. rewrite N.
    intros Hin. destruct (dsub_discard_others i x tl (S j) (ddiscard ds (vid o) x)) as [_ [I _]].
    apply I in Hin. unfold ddiscard in Hin. rewrite dget_dset, Nat.eqb_refl in Hin.
    destruct (in_dkeys_dec (vid o) ds); [apply discard_In in Hin; tauto | destruct Hin].
  - apply (IH _ _ p' o); [exact Hp | lia].
Qed.

Lemma alldiff_leaf s all : forall rest pre ds,
  all = pre ++ rest -> matches s ds -> (forall v, In v all -> In (vid v) (dkeys ds)) ->
  no_empty (alldiff_loop all rest (length pre) ds) ->
  forall p v q o, nth_error rest p = Some v -> nth_error all q = Some o -> q <> (length pre + p)%nat ->
  s (vid o) <> s (vid v).
Proof.
  induction rest as [|a tl IH]; intros pre ds E M K NE p v q o Hp Hq N; [destruct p; discriminate|].
  simpl in NE.
  assert (Ka : In (vid a) (dkeys ds)). { apply K. rewrite E. apply in_or_app. right. left. reflexivity. }
  rewrite (M _ Ka) in NE. simpl in NE.
  set (ds1 := discard_others all (length pre) 0 (s (vid a)) ds) in *.
  assert (S1 : dsub ds1 ds) by apply dsub_discard_others.
  assert (NE1 : no_empty ds1) by (eapply no_empty_back; [apply dsub_alldiff_loop | exact NE]).
  assert (M1 : matches s ds1) by (exact (matches_stay s ds ds1 M S1 NE1)).
  destruct p as [|p']; simpl in Hp.
  - inversion Hp. subst a. rewrite Nat.add_0_r in N.
    assert (Ko : In (vid o) (dkeys ds1)).
    { destruct S1 as [K1 _]. rewrite K1. apply K. eapply nth_error_In. exact Hq. }
    pose proof (discard_others_absent (length pre) (s (vid v)) all 0 ds q o Hq N) as A.
    fold ds1 in A. rewrite (M1 _ Ko) in A. intros Eq. apply A. left. exact Eq.
  - replace (S (length pre)) with (length (pre ++ [a])) in NE by (rewrite app_length; simpl; lia).
    apply (IH (pre ++ [a]) ds1) with (p := p') (q := q); [| exact M1 | | exact NE | exact Hp | exact Hq |].
    + rewrite E, <- app_assoc. reflexivity.
    + intros w Hw. destruct S1 as [K1 _]. rewrite K1. apply K. exact Hw.
    + rewrite app_length. simpl. lia.
Qed.

Lemma alldiff_leaf_holds s vs ds :
  matches s ds -> (forall v, In v vs -> In (vid v) (dkeys ds)) ->
  no_empty (alldiff_loop vs vs 0 ds) -> NoDup (vals s vs).
Proof.
  intros M K NE. apply NoDup_nth_error. intros i j Hi Eij.
  destruct (Nat.eq_dec i j) as [|N]; [assumption|]. exfalso.
  unfold vals in *. rewrite !nth_error_map in Eij. rewrite map_length in Hi.
  destruct (nth_error vs i) as [v|] eqn:Ei; [|apply nth_error_None in Ei; lia].
  destruct (nth_error vs j) as [o|] eqn:Ej; [|discriminate].
  simpl in Eij. inversion Eij as [Eq].
  apply (alldiff_leaf s vs vs [] ds eq_refl M K NE i v j o Ei Ej); [simpl; lia|].
  unfold aval in Eq. symmetry. exact Eq.
Qed.

Theorem leaf_checked_one s c ds ds' :
  matches s ds -> cvars_in c ds -> dfs_supported c = true ->
  prop_one c ds = Some ds' -> no_empty ds' -> holds s c.
Proof.
  intros M K Sup E NE. destruct c; simpl in Sup; try discriminate; cbn [prop_one prop_alldiff] in E; simpl; unfold aval.
  - (* all_different *)
    inversion E. subst ds'. exact (alldiff_leaf_holds s vs ds M K NE).
  - (* eq_const *)
    pose proof (K v (or_introl eq_refl)) as Kv.
    destruct (zmem c (dget ds (vid v))) eqn:Z; [|discriminate].
    apply zmem_spec in Z. rewrite (M _ Kv) in Z. destruct Z as [Z|[]]. exact Z.
  - (* ne_const *)
    pose proof (K v (or_introl eq_refl)) as Kv.
    inversion E. subst ds'. intros Eq. apply (NE (vid v)); [rewrite dkeys_ddiscard; exact Kv|].
    rewrite <- Eq. apply ddiscard_own; assumption.
  - (* eq_var *)
    pose proof (K v (or_introl eq_refl)) as Kv.
    pose proof (K w (or_intror (or_introl eq_refl))) as Kw.
    rewrite (M _ Kv), (M _ Kw) in E. simpl in E.
    destruct (s (vid v) =? s (vid w)) eqn:Q; [apply Z.eqb_eq in Q; exact Q | simpl in E; discriminate].
  - (* ne_var: v is fixed, so the first step already empties the domain of w when the two values agree *)
    pose proof (K v (or_introl eq_refl)) as Kv.
    pose proof (K w (or_intror (or_introl eq_refl))) as Kw.
    change (Some (ne_step (ne_step ds (vid v) (vid w)) (vid w) (vid v)) = Some ds') in E. inversion E as [E']. intros Eq.
    assert (NE1 : no_empty (ne_step ds (vid v) (vid w))).
    { apply (no_empty_back _ ds'); [rewrite <- E'; apply dsub_ne_step | exact NE]. }
    apply (NE1 (vid w)); [rewrite (dsub_keys _ _ (dsub_ne_step _ _ _)); exact Kw|].
    unfold ne_step. rewrite (M _ Kv). cbn [is_single length Nat.eqb first hd]. rewrite Eq.
    apply ddiscard_own; assumption.
  - (* linear: no variable is open, so the constant alone decides *)
    rewrite prop_lin_eq in E. pose proof (lin_split s l r is_ne ds (matches_in_ds _ _ M) K) as Eall.
    assert (F : lin_free l r ds = []).
    { apply filter_nil. intros nc Hnc. rewrite (M _ (lin_coefs_keys l r is_ne ds K nc Hnc)). reflexivity. }
    rewrite F in E, Eall. unfold csum in Eall. simpl in Eall. unfold lin_branch in E.
    destruct is_ne; destruct (lin_const l r ds =? 0) eqn:Q; try discriminate.
    + apply Z.eqb_neq in Q. lia.
    + apply Z.eqb_eq in Q. lia.
Qed.

Lemma prop_pass_flag : forall cs ds ch ds', prop_pass cs ds ch = Some (ds', false) -> ch = false.
Proof.
  induction cs as [|c tl IH]; intros ds ch ds' H; simpl in H.
  - inversion H. reflexivity.
  - destruct (prop_one c ds) as [ds1|]; [|discriminate]. destruct (any_empty ds1); [discriminate|].
    apply IH in H. apply orb_false_iff in H. tauto.
Qed.

Lemma not_shrunk_matches s ds ds1 : dsub ds1 ds -> shrunk ds ds1 = false -> matches s ds1 -> matches s ds.
Proof.
  intros [K [I N]] Sh M i Hi.
  assert (L : (length (dget ds i) <= length (dget ds1 i))%nat).
  { apply Nat.ltb_ge. exact (existsb_false _ _ Sh i Hi). }
  assert (M1 : dget ds1 i = [s i]) by (apply M; rewrite K; exact Hi).
  rewrite M1 in L. simpl in L. specialize (I i). rewrite M1 in I.
  destruct (dget ds i) as [|x [|y tl]]; simpl in L.
  - destruct (I (s i) (or_introl eq_refl)).
  - destruct (I (s i) (or_introl eq_refl)) as [->|[]]. reflexivity.
  - lia.
Qed.

Lemma prop_pass_leaf s : forall cs ds ch ds',
  prop_pass cs ds ch = Some (ds', false) -> matches s ds' ->
  (forall c, In c cs -> cvars_in c ds /\ dfs_supported c = true) ->
  matches s ds /\ forall c, In c cs -> holds s c.
Proof.
  induction cs as [|c tl IH]; intros ds ch ds' H M Hc; simpl in H.
  - inversion H. subst. split; [exact M | intros c []].
  - destruct (prop_one c ds) as [ds1|] eqn:E1; [|discriminate].
    destruct (any_empty ds1) eqn:AE; [discriminate|].
    pose proof (prop_pass_flag _ _ _ _ H) as F. apply orb_false_iff in F. destruct F as [_ Sh].
    pose proof (dsub_prop_one c ds ds1 E1) as S1.
    destruct (IH ds1 _ ds' H M) as [M1 Hall].
    { intros c' Hc'. destruct (Hc c' (or_intror Hc')) as [Kc Sc]. split; [exact (cvars_in_sub c' _ _ S1 Kc) | exact Sc]. }
    assert (M0 : matches s ds) by (exact (not_shrunk_matches s ds ds1 S1 Sh M1)).
    split; [exact M0|]. intros c' [<-|Hc']; [|apply Hall; exact Hc'].
    destruct (Hc c (or_introl eq_refl)) as [Kc Sc].
    apply (leaf_checked_one s c ds ds1 M0 Kc Sc E1). apply no_empty_any. exact AE.
Qed.

Lemma prop_loop_last cs : forall fuel ds ds', prop_loop cs fuel ds = POk ds' ->
  exists dsl, dsub dsl ds /\ prop_pass cs dsl false = Some (ds', false).
Proof.
  induction fuel as [|f IH]; intros ds ds' H; simpl in H; [discriminate|].
  destruct (prop_pass cs ds false) as [[ds1 [|]]|] eqn:E; try discriminate.
  - destruct (IH ds1 ds' H) as [dsl [S P]]. exists dsl. split; [|exact P].
    eapply dsub_trans; [exact S | eapply dsub_prop_pass; exact E].
  - inversion H. subst. exists ds. split; [apply dsub_refl | exact E].
Qed.

Theorem leaf_checked s cs ds0 ds :
  propagate cs ds0 = POk ds -> matches s ds ->
  (forall c, In c cs -> cvars_in c ds0 /\ dfs_supported c = true) ->
  forall c, In c cs -> holds s c.
Proof.
  intros P M Hc. destruct (prop_loop_last cs _ _ _ P) as [dsl [S PP]].
  apply (prop_pass_leaf s cs dsl false ds PP M).
  intros c Hin. destruct (Hc c Hin) as [Kc Sc]. split; [exact (cvars_in_sub c _ _ S Kc) | exact Sc].
Qed.
