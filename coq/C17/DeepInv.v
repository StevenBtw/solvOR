(* C17 deep - the tableau invariants of the master simplex (eps = 0) and their preservation by `pivot`.

   Tableau layout of `_solve_master_lp`: n pattern columns, m surplus columns, m artificial columns, right-hand side.
   Original row i:  [ a_{0,i} .. a_{n-1,i} | -e_i | e_i | d_i ].

   R1 (`Lin`)     every current row is a linear combination of the original rows, the multipliers being the row's entries
                  in the artificial columns (`mu r i = r[n+m+i]`);
   R2 (`canon`)   column basis[k] of the rows is the unit vector e_k;
   O1 (`ObjInv`)  phase-2 objective row = c0 - sum_i y_i * (original row i) with y_i = obj[n+i] = -obj[n+m+i];
   O2 (`objInv2`) objective row = c - sum_k c[basis[k]] * (current row k), column by column, for a cost row c:
                  c0 = (1,..,1 | 0 | 0 | 0) in phase 2, 1 on the artificial columns in phase 1;
   P  (`primal`)  all right-hand sides are >= 0: kept by a pivot on a row of minimum ratio. *)
From Coq Require Import List Qabs Lia Lqa.
From SV Require Import C17.Cg C17.PoolProofs C17.DeepSum.
Import ListNotations.
Open Scope Q_scope.

(* entry j of row k *)
Definition ent (rows : list row) (k j : nat) : Q := getq (nth k rows []) j.

Section Inv.
Variables (n m : nat) (A : nat -> nat -> Q) (D : nat -> Q).

(* index of the right-hand side *)
Definition NN : nat := (n + m + m)%nat.
Definition mu (r : row) (i : nat) : Q := getq r (n + m + i).
Definition c0 (j : nat) : Q := if Nat.ltb j n then 1 else 0.

Lemma c0_nonneg : forall j, 0 <= c0 j.
Proof. intros j. unfold c0. destruct (Nat.ltb j n); lra. Qed.

Definition Lin (r : row) : Prop :=
  length r = S NN /\
  (forall j, (j < n)%nat -> getq r j == sumN (fun i => mu r i * A j i) 0 m) /\
  (forall i, (i < m)%nat -> getq r (n + i) == - mu r i) /\
  getq r NN == sumN (fun i => mu r i * D i) 0 m.

Definition ObjInv (o : row) : Prop :=
  length o = S NN /\
  (forall j, (j < n)%nat -> getq o j == 1 + sumN (fun i => mu o i * A j i) 0 m) /\
  (forall i, (i < m)%nat -> getq o (n + i) == - mu o i) /\
  getq o NN == sumN (fun i => mu o i * D i) 0 m.

Lemma comb_sum : forall r' a f p (W : nat -> Q), comb r' a f p ->
  sumN (fun i => mu r' i * W i) 0 m == sumN (fun i => mu a i * W i) 0 m - f * sumN (fun i => mu p i * W i) 0 m.
Proof.
  intros r' a f p W [_ H]. rewrite <- sumN_lin. apply sumN_ext. intros i _. unfold mu. rewrite H. ring.
Qed.

Lemma Lin_comb : forall r' a f p, comb r' a f p -> Lin a -> Lin p -> Lin r'.
Proof.
  intros r' a f p Hc [La [Ha1 [Ha2 Ha3]]] [Lp [Hp1 [Hp2 Hp3]]]. pose proof Hc as [Hl H].
  split; [lia|]. split; [|split].
  - intros j Hj. rewrite (comb_sum _ _ _ _ _ Hc). rewrite H, Ha1, Hp1 by exact Hj. reflexivity.
  - intros i Hi. unfold mu. rewrite !H. rewrite Ha2, Hp2 by exact Hi. unfold mu. ring.
  - rewrite (comb_sum _ _ _ _ _ Hc). rewrite H, Ha3, Hp3. reflexivity.
Qed.

Lemma ObjInv_comb : forall r' a f p, comb r' a f p -> ObjInv a -> Lin p -> ObjInv r'.
Proof.
  intros r' a f p Hc [La [Ha1 [Ha2 Ha3]]] [Lp [Hp1 [Hp2 Hp3]]]. pose proof Hc as [Hl H].
  split; [lia|]. split; [|split].
  - intros j Hj. rewrite (comb_sum _ _ _ _ _ Hc). rewrite H, Ha1, Hp1 by exact Hj. ring.
  - intros i Hi. unfold mu. rewrite !H. rewrite Ha2, Hp2 by exact Hi. unfold mu. ring.
  - rewrite (comb_sum _ _ _ _ _ Hc). rewrite H, Ha3, Hp3. reflexivity.
Qed.

Lemma Lin_scale : forall piv r, ~ piv == 0 -> Lin r -> Lin (rscale_div piv r).
Proof.
  intros piv r Hp [L [H1 [H2 H3]]].
  assert (Hs : forall W, sumN (fun i => mu (rscale_div piv r) i * W i) 0 m == sumN (fun i => mu r i * W i) 0 m / piv).
  { intros W. unfold Qdiv. rewrite Qmult_comm. rewrite <- sumN_scal. apply sumN_ext. intros i _.
    unfold mu. rewrite getq_rscale_div. unfold Qdiv. ring. }
  split; [rewrite rscale_div_length; exact L|]. split; [|split].
  - intros j Hj. rewrite Hs, getq_rscale_div, H1 by exact Hj. reflexivity.
  - intros i Hi. unfold mu. rewrite !getq_rscale_div. rewrite H2 by exact Hi. unfold mu. field. exact Hp.
  - rewrite Hs, getq_rscale_div, H3. reflexivity.
Qed.

Definition canon (rows : list row) (basis : list nat) : Prop :=
  forall k k', (k < m)%nat -> (k' < m)%nat -> ent rows k' (nth k basis O) == if Nat.eqb k k' then 1 else 0.

Definition rowsInv (rows : list row) (basis : list nat) : Prop :=
  length rows = m /\ length basis = m /\ Forall Lin rows /\ canon rows basis.

Definition objInv2 (c : nat -> Q) (rows : list row) (basis : list nat) (o : row) : Prop :=
  forall j, getq o j == c j - sumN (fun k => c (nth k basis O) * ent rows k j) 0 m.

Definition primal (rows : list row) : Prop := forall k, (k < m)%nat -> 0 <= ent rows k NN.
Definition basisBound (basis : list nat) : Prop := forall k, (k < m)%nat -> (nth k basis O < n + m + m)%nat.

Lemma Forall_nth_Lin : forall rows k, Forall Lin rows -> (k < length rows)%nat -> Lin (nth k rows []).
Proof. intros rows k H Hk. rewrite Forall_forall in H. apply H. apply nth_In. exact Hk. Qed.

Lemma Lin_lastq : forall rows k, Forall Lin rows -> (k < length rows)%nat -> lastq (nth k rows []) = ent rows k NN.
Proof. intros rows k HL Hk. unfold ent. apply lastq_getq. apply (Forall_nth_Lin rows k HL Hk). Qed.

(* entries after a pivot on (l, e): row l is divided by the pivot element, w_j times row l is taken off the others *)
Lemma pivot_entries : forall rows obj basis l e T' basis',
  pivot 0 (mkT rows obj) basis l e = (T', basis') ->
  length rows = m -> Forall Lin rows -> (l < m)%nat ->
  let w j := ent rows l j / ent rows l e in
  basis' = set_nth l e basis /\
  (forall k j, (k < m)%nat -> ent (t_rows T') k j == if Nat.eqb k l then w j else ent rows k j - ent rows k e * w j) /\
  (length obj = S NN -> forall j, getq (t_obj T') j == getq obj j - getq obj e * w j).
Proof.
  intros rows obj basis l e T' basis' Ep Hlen HL Hl w. unfold pivot in Ep. cbn [t_rows t_obj] in Ep.
  injection Ep as <- <-. cbn [t_rows t_obj]. fold (ent rows l e) in *.
  set (prow := rscale_div (ent rows l e) (nth l rows [])).
  assert (Lprow : length prow = S NN) by (unfold prow; rewrite rscale_div_length; apply (Forall_nth_Lin rows l HL); lia).
  assert (Hw : forall j, getq prow j == w j) by (intros j; apply getq_rscale_div).
  split; [reflexivity|]. split.
  - intros k j Hk. unfold ent at 1. rewrite (nth_mapi _ rows k (@nil Q) (@nil Q)) by lia.
    destruct (Nat.eqb k l); [apply Hw|].
    destruct (comb_elim_row e prow (nth k rows [])) as [_ Hc].
    + rewrite Lprow. symmetry. apply (Forall_nth_Lin rows k HL). lia.
    + rewrite Hc, Hw. reflexivity.
  - intros Ho j. destruct (comb_elim_row e prow obj) as [_ Hc]; [rewrite Lprow; symmetry; exact Ho|].
    rewrite Hc, Hw. reflexivity.
Qed.

Section Pivot.
Variables (rows : list row) (obj : row) (basis : list nat) (l e : nat) (T' : tableau) (basis' : list nat).
Hypothesis Ep : pivot 0 (mkT rows obj) basis l e = (T', basis').
Hypothesis HR : rowsInv rows basis.
Hypothesis Hl : (l < m)%nat.
Hypothesis Hp : ~ ent rows l e == 0.

Lemma pivot_Lin :
  let prow := rscale_div (ent rows l e) (nth l rows []) in
  Lin prow /\ t_obj T' = elim_row 0 e prow obj /\
  t_rows T' = mapi (fun i x => if Nat.eqb i l then prow else elim_row 0 e prow x) rows.
Proof.
  destruct HR as [Hlen [_ [HL _]]]. unfold pivot in Ep. cbn [t_rows t_obj] in Ep. injection Ep as <- _.
  split; [|split; reflexivity]. apply Lin_scale; [exact Hp | apply Forall_nth_Lin; [exact HL | lia]].
Qed.

Lemma pivot_rows : rowsInv (t_rows T') basis'.
Proof.
  destruct HR as [Hlen [Hbl [HL Hc]]].
  destruct (pivot_entries _ _ _ _ _ _ _ Ep Hlen HL Hl) as [Eb [Hent _]]. cbn zeta in Hent. rewrite Eb.
  destruct pivot_Lin as [Lprow [_ Er]]. cbn zeta in Lprow, Er.
  split; [|split; [|split]].
  - rewrite Er, mapi_length. exact Hlen.
  - rewrite set_nth_length. exact Hbl.
  - rewrite Er. unfold mapi. apply (mapi_from_Forall Lin Lin); [|exact HL].
    intros i x Hx. destruct (Nat.eqb i l); [exact Lprow|].
    refine (Lin_comb _ x (getq x e) _ (comb_elim_row e _ x _) Hx Lprow).
    destruct Lprow as [L1 _]. destruct Hx as [L2 _]. lia.
  - intros k k' Hk Hk'. rewrite (Hent k' _ Hk').
    destruct (Nat.eq_dec k l) as [Ekl|Ekl].
    + subst k. rewrite set_nth_same by lia. rewrite (Nat.eqb_sym l k').
      destruct (Nat.eqb k' l); field; exact Hp.
    + rewrite set_nth_other by exact Ekl.
      assert (Hz : ent rows l (nth k basis O) == 0).
      { rewrite (Hc k l Hk Hl). apply Nat.eqb_neq in Ekl. rewrite Ekl. reflexivity. }
      destruct (Nat.eqb k' l) eqn:E.
      * apply Nat.eqb_eq in E. subst k'. rewrite Hz. apply Nat.eqb_neq in Ekl. rewrite Ekl. field. exact Hp.
      * rewrite Hz. rewrite (Hc k k' Hk Hk'). field. exact Hp.
Qed.

Lemma pivot_ObjInv : ObjInv obj -> ObjInv (t_obj T').
Proof.
  intros HO1. destruct pivot_Lin as [Lprow [Eo _]]. cbn zeta in Lprow, Eo. rewrite Eo.
  refine (ObjInv_comb _ obj (getq obj e) _ (comb_elim_row e _ obj _) HO1 Lprow).
  destruct Lprow as [L1 _]. destruct HO1 as [L2 _]. lia.
Qed.

Lemma pivot_obj : forall c, length obj = S NN -> objInv2 c rows basis obj ->
  length (t_obj T') = S NN /\ objInv2 c (t_rows T') basis' (t_obj T').
Proof.
  intros c Lo HO2. destruct HR as [Hlen [Hbl [HL Hc]]].
  destruct (pivot_entries _ _ _ _ _ _ _ Ep Hlen HL Hl) as [Eb [Hent Hobj]]. cbn zeta in Hent, Hobj.
  specialize (Hobj Lo). rewrite Eb.
  split; [destruct pivot_Lin as [_ [-> _]]; rewrite elim_row_length; exact Lo|].
  intros j. rewrite Hobj.
  set (w := ent rows l j / ent rows l e).
  assert (HS : sumN (fun k => c (nth k (set_nth l e basis) O) * ent (t_rows T') k j) 0 m
               == sumN (fun k => c (nth k basis O) * ent rows k j) 0 m
                  - w * sumN (fun k => c (nth k basis O) * ent rows k e) 0 m + c e * w).
  { transitivity (sumN (fun k => c (nth k basis O) * ent rows k j) 0 m
                  - w * sumN (fun k => c (nth k basis O) * ent rows k e) 0 m
                  + sumN (fun i => if Nat.eqb i l then c e * w else 0) 0 m);
      [|rewrite (sumN_delta (c e * w) l m 0) by lia; reflexivity].
    rewrite <- sumN_lin. rewrite <- sumN_plus. apply sumN_ext. intros k Hk.
    rewrite (Hent k j) by lia.
    destruct (Nat.eqb k l) eqn:E.
    - apply Nat.eqb_eq in E. subst k. rewrite set_nth_same by lia. unfold w. field. exact Hp.
    - apply Nat.eqb_neq in E. rewrite set_nth_other by exact E. unfold w. field. exact Hp. }
  rewrite HS. rewrite (HO2 j), (HO2 e). ring.
Qed.

Lemma div_nonneg : forall a b, 0 <= a -> 0 < b -> 0 <= a / b.
Proof. intros a b Ha Hb. apply Qle_shift_div_l; [exact Hb | lra]. Qed.

Lemma pivot_primal : primal rows -> 0 < ent rows l e ->
  (forall k, (k < m)%nat -> 0 < ent rows k e -> ent rows l NN / ent rows l e <= ent rows k NN / ent rows k e) ->
  primal (t_rows T').
Proof.
  intros HP Hpiv Hmin k Hk. destruct HR as [Hlen [Hbl [HL Hc]]].
  destruct (pivot_entries _ _ _ _ _ _ _ Ep Hlen HL Hl) as [_ [Hent _]]. cbn zeta in Hent.
  rewrite (Hent k NN Hk).
  assert (Hw : 0 <= ent rows l NN / ent rows l e) by (apply div_nonneg; [apply HP; exact Hl | exact Hpiv]).
  destruct (Nat.eqb k l); [exact Hw|].
  set (w := ent rows l NN / ent rows l e) in *.
  destruct (Qlt_le_dec 0 (ent rows k e)) as [Hpos|Hneg].
  - specialize (Hmin k Hk Hpos). fold w in Hmin.
    set (q := ent rows k NN / ent rows k e) in *.
    assert (Eq : q * ent rows k e == ent rows k NN) by (unfold q; field; lra).
    assert (Hm : w * ent rows k e <= q * ent rows k e) by (apply Qmult_le_compat_r; lra).
    lra.
  - specialize (HP k Hk).
    assert (Hm : ent rows k e * w <= 0 * w) by (apply Qmult_le_compat_r; assumption).
    lra.
Qed.

Lemma pivot_rhs_zero : ent rows l NN == 0 -> forall k, (k < m)%nat -> ent (t_rows T') k NN == ent rows k NN.
Proof.
  intros Hz k Hk. destruct HR as [Hlen [Hbl [HL Hc]]].
  destruct (pivot_entries _ _ _ _ _ _ _ Ep Hlen HL Hl) as [_ [Hent _]]. cbn zeta in Hent.
  rewrite (Hent k NN Hk). destruct (Nat.eqb k l) eqn:E.
  - apply Nat.eqb_eq in E. subst k. rewrite Hz. field. exact Hp.
  - rewrite Hz. field. exact Hp.
Qed.

Lemma pivot_basisBound : basisBound basis -> (e < n + m + m)%nat -> basisBound basis'.
Proof.
  intros Hb He k Hk. destruct HR as [Hlen [Hbl [HL _]]].
  destruct (pivot_entries _ _ _ _ _ _ _ Ep Hlen HL Hl) as [Eb _]. rewrite Eb.
  destruct (Nat.eq_dec k l) as [->|Hne].
  - rewrite set_nth_same by lia. exact He.
  - rewrite set_nth_other by exact Hne. apply Hb. exact Hk.
Qed.

End Pivot.
End Inv.
