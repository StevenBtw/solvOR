(* C17 - the boolean gates `plan_ok` / `plan_ok_custom` decide covering + objective = rolls; pat_eqb, pat_mem, covers, dict_set, rolls. *)
From Coq Require Import List ZArith QArith Bool Arith Lia.
From SV Require Import C17.Cg C17.CgSpec.
Import ListNotations.

Lemma pat_eqb_eq : forall a b, pat_eqb a b = true <-> a = b.
Proof.
  induction a as [|x a IH]; intros [|y b]; simpl; split; intros H; try reflexivity; try discriminate.
  - apply andb_true_iff in H. destruct H as [H1 H2]. apply Z.eqb_eq in H1. apply IH in H2. subst. reflexivity.
  - inversion H; subst. apply andb_true_iff. split; [apply Z.eqb_refl | apply IH; reflexivity].
Qed.

Lemma pat_mem_In : forall p l, pat_mem p l = true <-> In p l.
Proof.
  intros p l. unfold pat_mem. rewrite existsb_exists. split.
  - intros [x [Hx He]]. apply pat_eqb_eq in He. subst. exact Hx.
  - intros H. exists p. split; [exact H | apply pat_eqb_eq; reflexivity].
Qed.

Lemma pat_mem_false : forall p l, pat_mem p l = false -> ~ In p l.
Proof.
  intros p l H Hin. apply pat_mem_In in Hin. rewrite Hin in H. discriminate.
Qed.

Lemma fitsb_fits : forall sizes width a, fitsb sizes width a = true <-> fits sizes width a.
Proof.
  intros sizes width a. unfold fitsb, fits. rewrite !andb_true_iff, Nat.eqb_eq, Z.leb_le, forallb_forall, Forall_forall.
  setoid_rewrite Z.leb_le. tauto.
Qed.

Lemma covers_spec : forall P demands,
  covers P demands = true <-> (forall i, (i < length demands)%nat -> (getz demands i <= produced P i)%Z).
Proof.
  intros P demands. unfold covers. rewrite forallb_forall. split.
  - intros H i Hi. apply Z.leb_le. apply H. apply in_seq. lia.
  - intros H i Hi. apply in_seq in Hi. apply Z.leb_le. apply H. lia.
Qed.

(* plan_ok and plan_ok_custom differ only in the boolean test of a single pattern. *)
Lemma gate_iff : forall (fb : pattern -> bool) (feas : pattern -> Prop), (forall a, fb a = true <-> feas a) ->
  forall demands P obj,
  forallb (fun pc => fb (fst pc) && Z.leb 0 (snd pc)) P && covers P demands && Z.eqb obj (rolls P) = true <->
  covering feas demands P /\ obj = rolls P.
Proof.
  intros fb feas Hfb demands P obj. unfold covering.
  rewrite !andb_true_iff, covers_spec, Z.eqb_eq, forallb_forall, Forall_forall.
  setoid_rewrite andb_true_iff. setoid_rewrite Hfb. setoid_rewrite Z.leb_le. reflexivity.
Qed.

Lemma plan_ok_iff : forall sizes width demands P obj,
  plan_ok sizes width demands P obj = true <-> covering (fits sizes width) demands P /\ obj = rolls P.
Proof. intros sizes width. apply gate_iff, fitsb_fits. Qed.

Lemma plan_ok_sound : forall sizes width demands P obj,
  plan_ok sizes width demands P obj = true ->
  covering (fits sizes width) demands P /\ obj = rolls P.
Proof. intros sizes width demands P obj. apply plan_ok_iff. Qed.

Lemma plan_ok_complete : forall sizes width demands P,
  covering (fits sizes width) demands P -> plan_ok sizes width demands P (rolls P) = true.
Proof. intros sizes width demands P H. apply plan_ok_iff. split; [exact H | reflexivity]. Qed.

Lemma plan_ok_custom_sound : forall cols demands P obj,
  plan_ok_custom cols demands P obj = true ->
  covering (fun a => In a cols) demands P /\ obj = rolls P.
Proof. intros cols. apply (gate_iff (fun a => pat_mem a cols)). intros a. apply pat_mem_In. Qed.

Lemma rolls_app : forall P Q, rolls (P ++ Q) = (rolls P + rolls Q)%Z.
Proof. induction P as [|pc P IH]; intros Q; simpl; [reflexivity | rewrite IH; lia]. Qed.

Lemma dict_set_fresh : forall k v d, ~ In k (map fst d) -> dict_set k v d = d ++ [(k, v)].
Proof.
  induction d as [|[k' v'] d IH]; intros Hn; simpl; [reflexivity|].
  destruct (pat_eqb k k') eqn:E.
  - apply pat_eqb_eq in E. subst. exfalso. apply Hn. simpl. left. reflexivity.
  - rewrite IH; [reflexivity|]. intros Hin. apply Hn. simpl. right. exact Hin.
Qed.

Lemma rolls_nonneg : forall (feas : pattern -> Prop) demands P, covering feas demands P -> (0 <= rolls P)%Z.
Proof.
  intros feas demands P [Hf _]. induction Hf as [|pc P [_ Hc] _ IH]; simpl; lia.
Qed.
