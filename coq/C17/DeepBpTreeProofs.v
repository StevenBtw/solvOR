(* C17 deep - the whole-tree model of solve_bp (DeepBpTree.v).  The tree model is the root model followed by
   the tree loop (`solve_bp_tree_link`).  Invariant of the loop: the pool stays a duplicate-free list of fitting patterns, the incumbent is only ever replaced by a plan that passed
   `covers` or is the rounded root plan, and OPTIMAL is only claimed after `proven` against the bound ceil(root LP value) of a
   converged root, which the root's dual vector certifies (eps = 0).  The loop's fuel never decides:
   length heap + 2 * (max_nodes - nodes_explored) strictly decreases. *)
From Coq Require Import List Qabs Lia.
From SV Require Import C17.Cg C17.CgSpec C17.Bp C17.PoolProofs C17.BpGateProofs C17.DeepBp C17.DeepBpTree.
Import ListNotations.

Lemma branch_and_price_link : forall eps gap is_cs pricing demands cols0 mi mn,
  branch_and_price eps gap is_cs pricing demands cols0 mi mn =
  match branch_and_price_root eps gap is_cs pricing demands cols0 mi with
  | None => None
  | Some r =>
      match b_out r with
      | BpDone st sol obj it => Some (mkTO (mkBA st sol obj 0 it) (b_pool r) [])
      | BpTree rb inc =>
          match b_lp r with
          | Some lp => tree_loop eps gap is_cs pricing demands mi mn rb (tree_fuel mn) (b_pool r) inc [(lp, O, [])] 1 0 (b_iters r) []
          | None => None
          end
      | _ => None
      end
  end.
Proof.
  intros. unfold branch_and_price, branch_and_price_root. rewrite bsolve_node_nil.
  destruct (solve_node_lp eps is_cs pricing demands mi cols0) as [[[[[[cols x] du] lp] it] cv]|]; [|reflexivity].
  destruct lp as [lp_obj|]; [|reflexivity].
  destruct (most_fractional eps 0 x (None, 0%Q)) as [fi|].
  - destruct (round_solution eps cols x demands) as [[sol total]|]; [|reflexivity].
    destruct (proven gap _ (inject_Z total)); reflexivity.
  - destruct (covers (build_solution eps cols x) demands); [reflexivity|].
    destruct (round_solution eps cols x demands) as [[sol total]|]; [|reflexivity].
    destruct (proven gap _ (inject_Z total)); reflexivity.
Qed.

Lemma solve_bp_tree_link : forall eps gap sizes width demands mi mn o,
  solve_bp_tree eps gap sizes width demands mi mn = TAns o ->
  match b_out (solve_bp_root eps gap sizes width demands mi) with
  | BpDone st sol obj it => to_ans o = mkBA st sol obj 0 it
  | BpTree rb inc =>
      exists lp, b_lp (solve_bp_root eps gap sizes width demands mi) = Some lp /\
        tree_loop eps gap true (cs_pricing eps sizes width) demands mi mn rb (tree_fuel mn)
                  (b_pool (solve_bp_root eps gap sizes width demands mi)) inc [(lp, O, [])] 1 0
                  (b_iters (solve_bp_root eps gap sizes width demands mi)) [] = Some o
  | _ => False
  end.
Proof.
  intros eps gap sizes width demands mi mn o H. unfold solve_bp_tree in H. unfold solve_bp_root.
  destruct demands as [|d0 demands'] eqn:Ed; [inversion H; reflexivity|]. rewrite <- Ed in *.
  destruct (forallb (Z.leb 0) demands); cbn [negb] in *; [|discriminate].
  destruct (forallb (Z.eqb 0) demands); [inversion H; reflexivity|].
  destruct (Nat.eqb (length sizes) (length demands)); cbn [negb] in *; [|discriminate].
  destruct (valid_sizes sizes width); cbn [negb] in *; [|discriminate].
  rewrite branch_and_price_link in H.
  destruct (branch_and_price_root eps gap true (cs_pricing eps sizes width) demands (initial_patterns sizes width demands) mi)
    as [r|]; [|discriminate].
  destruct (b_out r) as [st sol obj it|rb inc| |]; try discriminate.
  - inversion H; reflexivity.
  - destruct (b_lp r) as [lp|]; [|discriminate].
    destruct (tree_loop eps gap true (cs_pricing eps sizes width) demands mi mn rb (tree_fuel mn) (b_pool r) inc [(lp, 0%nat, [])] 1 0 (b_iters r) [])
      as [o'|] eqn:Et; [|discriminate].
    inversion H; subst o'. exists lp. split; [reflexivity | exact Et].
Qed.

(* a usable answer carries a plan that passes the gate; OPTIMAL additionally passed `proven` against the root bound;
   INFEASIBLE carries no plan *)
Definition ans_ok (sizes : list Z) (width : Z) (demands : list Z) (gap : Q) (rb : option Z) (a : bp_ans) : Prop :=
  match ba_status a with
  | INFEASIBLE => ba_sol a = None /\ ba_obj a = None
  | st => exists sol obj, ba_sol a = Some sol /\ ba_obj a = Some obj /\ plan_ok sizes width demands sol obj = true /\
                          (st = OPTIMAL -> proven gap rb (inject_Z obj) = true)
  end.

Lemma tree_finish_ok : forall sizes width demands gap rb cols best nodes total trace,
  best_ok sizes width demands best ->
  ans_ok sizes width demands gap rb (to_ans (tree_finish gap rb cols best nodes total trace)) /\
  to_pool (tree_finish gap rb cols best nodes total trace) = cols.
Proof.
  intros sizes width demands gap rb cols best nodes total trace Hb. unfold tree_finish.
  destruct best as [[sol obj]|]; cbn [to_ans to_pool]; (split; [|reflexivity]); unfold ans_ok; cbn [ba_status ba_sol ba_obj].
  - simpl in Hb. destruct (proven gap rb (inject_Z obj)) eqn:Ep; exists sol, obj; (split; [reflexivity|]); (split; [reflexivity|]);
      (split; [exact Hb|]); intros E; [exact Ep | discriminate E].
  - split; reflexivity.
Qed.

Lemma tree_loop_inv : forall eps gap sizes width demands mi mn rb,
  (0 <= eps)%Q -> (eps < 1)%Q -> (0 <= width)%Z ->
  forall fuel cols best heap counter nodes total trace o,
  pool_ok sizes width cols -> best_ok sizes width demands best ->
  tree_loop eps gap true (cs_pricing eps sizes width) demands mi mn rb fuel cols best heap counter nodes total trace = Some o ->
  ans_ok sizes width demands gap rb (to_ans o) /\ pool_ok sizes width (to_pool o).
Proof.
  intros eps gap sizes width demands mi mn rb He0 He1 Hw fuel.
  induction fuel as [|fuel IH]; intros cols best heap counter nodes total trace o Hp Hb H; cbn [tree_loop] in H; [discriminate|].
  assert (Hfin : Some (tree_finish gap rb cols best nodes total trace) = Some o ->
                 ans_ok sizes width demands gap rb (to_ans o) /\ pool_ok sizes width (to_pool o)).
  { intros E. inversion E; subst o. destruct (tree_finish_ok sizes width demands gap rb cols best nodes total trace Hb) as [H1 H2].
    split; [exact H1 | rewrite H2; exact Hp]. }
  destruct heap as [|e0 rest]; [apply Hfin; exact H|].
  destruct (Nat.leb mn nodes); [apply Hfin; exact H|].
  set (e := heap_min e0 rest) in H.
  destruct (dominated eps best (h_key e)); [apply (IH _ _ _ _ _ _ _ _ Hp Hb H)|].
  destruct (bsolve_node_lp eps true (cs_pricing eps sizes width) demands (cb_dict (h_nb e)) mi cols)
    as [[[[[[cols' x] du] lp] it] cv]|] eqn:En; [|discriminate].
  pose proof (bsolve_node_lp_pool_ok _ _ _ _ _ _ _ _ _ _ _ _ _ He0 He1 Hw Hp En) as Hp'.
  destruct lp as [lpv|]; [|apply (IH _ _ _ _ _ _ _ _ Hp' Hb H)].
  destruct (dominated eps best lpv); [apply (IH _ _ _ _ _ _ _ _ Hp' Hb H)|].
  destruct (most_fractional eps 0 x (None, 0%Q)) as [fi|]; [apply (IH _ _ _ _ _ _ _ _ Hp' Hb H)|].
  destruct (improves eps best (plan_total (build_solution eps cols' x)) && covers (build_solution eps cols' x) demands) eqn:Ei;
    [|apply (IH _ _ _ _ _ _ _ _ Hp' Hb H)].
  apply andb_true_iff in Ei. destruct Ei as [_ Hc].
  pose proof (build_plan_ok eps sizes width demands cols' x Hp' Hc) as Hok.
  destruct (proven gap rb (inject_Z (plan_total (build_solution eps cols' x)))) eqn:Ep.
  - inversion H; subst o. cbn [to_ans to_pool]. split; [|exact Hp'].
    unfold ans_ok. cbn [ba_status ba_sol ba_obj]. eexists _, _. repeat split; [exact Hok | intros _; exact Ep].
  - apply (IH _ (Some (build_solution eps cols' x, plan_total (build_solution eps cols' x))) _ _ _ _ _ _ Hp' Hok H).
Qed.

Definition ans_gate (sizes : list Z) (width : Z) (demands : list Z) (a : bp_ans) : Prop :=
  match ba_status a with
  | INFEASIBLE => ba_sol a = None /\ ba_obj a = None
  | _ => exists sol obj, ba_sol a = Some sol /\ ba_obj a = Some obj /\ plan_ok sizes width demands sol obj = true
  end.

Lemma ans_ok_gate : forall sizes width demands gap rb a, ans_ok sizes width demands gap rb a -> ans_gate sizes width demands a.
Proof.
  intros sizes width demands gap rb a H. unfold ans_ok, ans_gate in *.
  destruct (ba_status a); [| |exact H]; destruct H as [sol [obj [H1 [H2 [H3 _]]]]]; exists sol, obj; repeat split; assumption.
Qed.

(* an answer of the tree model is the root model's answer, or comes out of the tree loop entered from a solved root LP with
   the rounded root plan (or none) as incumbent *)
Lemma solve_bp_tree_cases : forall eps gap sizes width demands mi mn o,
  (0 <= eps)%Q -> (eps < 1)%Q ->
  solve_bp_tree eps gap sizes width demands mi mn = TAns o ->
  let R := solve_bp_root eps gap sizes width demands mi in
  (exists st sol obj it, b_out R = BpDone st sol obj it /\ to_ans o = mkBA st sol obj 0 it /\
                         ans_gate sizes width demands (to_ans o)) \/
  (exists lp, length sizes = length demands /\ valid_sizes sizes width = true /\ (0 <= width)%Z /\
     solve_node_lp eps true (cs_pricing eps sizes width) demands mi (initial_patterns sizes width demands)
     = Some (b_pool R, b_x R, b_duals R, Some lp, b_iters R, b_conv R) /\
     ans_ok sizes width demands gap (if b_conv R then Some (Qceil (lp - eps)) else None) (to_ans o)).
Proof.
  intros eps gap sizes width demands mi mn o He0 He1 H. cbv zeta.
  pose proof (solve_bp_tree_link eps gap sizes width demands mi mn o H) as Hl.
  pose proof (solve_bp_root_gate eps gap sizes width demands mi) as Hroot.
  set (R := solve_bp_root eps gap sizes width demands mi) in *.
  destruct (solve_bp_root_cases eps gap sizes width demands mi) as [[_ E]|[E|[E|[El [Ev [Hw [Hd [En Eout]]]]]]]]; cbv zeta in *;
    fold R in E || fold R in En, Eout.
  2, 3: rewrite E in Hl; contradiction.     (* root BpInvalid / BpNoFuel: the tree model does not answer TAns *)
  - left. exists OPTIMAL, (Some []), (Some 0%Z), O. rewrite E in Hl, Hroot |- *. cbn [b_out bp_trivial] in *.
    split; [reflexivity|]. split; [exact Hl|]. rewrite Hl. eexists _, _. repeat split. exact (Hroot _ _ _ _ He0 He1 eq_refl).
  - pose proof (solve_node_lp_pool_ok _ _ _ _ _ _ _ _ _ _ _ _ He0 He1 Hw (initial_patterns_ok _ _ demands Ev) En) as Hp.
    rewrite Eout in Hl. destruct (b_lp R) as [lp|].
    2: { left. exists INFEASIBLE, None, None, (b_iters R). rewrite Hl. repeat split. exact Eout. }
    pose proof (root_decision_ok eps gap sizes width demands _ (b_x R) lp (b_iters R) (b_conv R) Hp) as Hd'.
    destruct (root_decision eps gap demands (b_pool R) (b_x R) lp (b_iters R) (b_conv R)) as [st sol obj it|rb inc| |];
      try contradiction.
    + left. exists st, sol, obj, it. split; [exact Eout|]. split; [exact Hl|].
      destruct Hd' as [Hst (s & ob & -> & -> & Hok)]. rewrite Hl. unfold ans_gate. cbn.
      destruct st; [| |contradiction]; exists s, ob; repeat split; exact Hok.
    + right. exists lp. destruct Hl as [lp' [_ Ht]]. destruct Hd' as [-> Hinc]. repeat (split; [assumption|]).
      apply (tree_loop_inv eps gap sizes width demands mi mn _ He0 He1 Hw _ _ _ _ _ _ _ _ _ Hp Hinc Ht).
Qed.

Theorem bp_tree_ans_gate : forall eps gap sizes width demands mi mn o,
  (0 <= eps)%Q -> (eps < 1)%Q ->
  solve_bp_tree eps gap sizes width demands mi mn = TAns o ->
  ans_gate sizes width demands (to_ans o).
Proof.
  intros eps gap sizes width demands mi mn o He0 He1 H.
  destruct (solve_bp_tree_cases eps gap sizes width demands mi mn o He0 He1 H) as [(st & sol & obj & it & _ & _ & Hg)|(lp & _ & _ & _ & _ & Ha)];
    [exact Hg | exact (ans_ok_gate _ _ _ _ _ _ Ha)].
Qed.

Theorem bp_tree_gate : forall eps gap sizes width demands mi mn o,
  (0 <= eps)%Q -> (eps < 1)%Q ->
  solve_bp_tree eps gap sizes width demands mi mn = TAns o ->
  ba_status (to_ans o) <> INFEASIBLE ->
  exists sol obj, ba_sol (to_ans o) = Some sol /\ ba_obj (to_ans o) = Some obj /\ plan_ok sizes width demands sol obj = true.
Proof.
  intros eps gap sizes width demands mi mn o He0 He1 H Hs.
  pose proof (bp_tree_ans_gate eps gap sizes width demands mi mn o He0 He1 H) as Hg. unfold ans_gate in Hg.
  destruct (ba_status (to_ans o)); [exact Hg | exact Hg | exfalso; apply Hs; reflexivity].
Qed.

Theorem bp_tree_optimal_sound : forall gap sizes width demands mi mn o obj,
  solve_bp_tree 0 gap sizes width demands mi mn = TAns o ->
  ba_status (to_ans o) = OPTIMAL -> ba_obj (to_ans o) = Some obj ->
  gap_ok gap obj = true ->
  is_min (fits sizes width) demands obj.
Proof.
  intros gap sizes width demands mi mn o obj H Hs Ho Hg.
  assert (He0 : (0 <= 0)%Q) by apply Qle_refl. assert (He1 : (0 < 1)%Q) by reflexivity.
  destruct (solve_bp_tree_cases 0 gap sizes width demands mi mn o He0 He1 H)
    as [(st & sol & ob & it & Eout & Ea & Hgate)|(lp & El & Ev & Hw & En & Ha)]; cbv zeta in *.
  - (* answered before the tree search: the root model's answer *)
    unfold ans_gate in Hgate. rewrite Hs in Hgate. destruct Hgate as (s & ob' & Es & Eo & _).
    rewrite Ea in Hs, Ho, Es. cbn [ba_status ba_obj ba_sol] in Hs, Ho, Es. subst st sol ob.
    apply (bp_root_optimal_sound gap sizes width demands mi s obj it Eout Hg).
  - (* answered by the tree search: proven against the root bound, which needs a converged root *)
    unfold ans_ok in Ha. rewrite Hs in Ha. destruct Ha as (sol & obj1 & _ & E2 & Hok & Hpr).
    rewrite Ho in E2. injection E2 as <-. specialize (Hpr eq_refl).
    destruct (b_conv (solve_bp_root 0 gap sizes width demands mi)); [|discriminate Hpr].
    apply (min_of_root_bound sizes width demands mi _ _ _ _ _ _ sol obj El Ev Hw En Hok).
    exact (proven_ceil gap lp obj Hg Hpr).
Qed.

Lemma heap_min_in : forall l b, In (heap_min b l) (b :: l).
Proof.
  induction l as [|e l IH]; intros b; cbn [heap_min]; [left; reflexivity|].
  destruct (IH (if hentry_lt e b then e else b)) as [H|H].
  - destruct (hentry_lt e b); [right; left; exact H | left; exact H].
  - right. right. exact H.
Qed.

Lemma filter_length_le : forall {A} (f : A -> bool) l, (length (filter f l) <= length l)%nat.
Proof. intros A f l. induction l as [|a l IH]; simpl; [lia|]. destruct (f a); simpl; lia. Qed.

Lemma filter_length_lt : forall {A} (f : A -> bool) l a, In a l -> f a = false -> (length (filter f l) < length l)%nat.
Proof.
  intros A f l a. induction l as [|b l IH]; intros Hin Hf; [destruct Hin|]. simpl. destruct Hin as [->|Hin].
  - rewrite Hf. pose proof (filter_length_le f l). lia.
  - specialize (IH Hin Hf). destruct (f b); simpl; lia.
Qed.

Lemma heap_remove_lt : forall e l, In e l -> (length (heap_remove (h_cnt e) l) < length l)%nat.
Proof.
  intros e l Hin. unfold heap_remove. apply (filter_length_lt _ l e Hin). rewrite Nat.eqb_refl. reflexivity.
Qed.

Definition tmeasure (mn : nat) (heap : list hentry) (nodes : nat) : nat := (length heap + 2 * (mn - nodes))%nat.

Lemma tree_loop_fuel_irrelevant : forall eps gap is_cs pricing demands mi mn rb fuel fuel' cols best heap counter nodes total trace,
  (tmeasure mn heap nodes < fuel)%nat -> (tmeasure mn heap nodes < fuel')%nat ->
  tree_loop eps gap is_cs pricing demands mi mn rb fuel cols best heap counter nodes total trace =
  tree_loop eps gap is_cs pricing demands mi mn rb fuel' cols best heap counter nodes total trace.
Proof.
  intros eps gap is_cs pricing demands mi mn rb fuel.
  induction fuel as [|fuel IH]; intros fuel' cols best heap counter nodes total trace H1 H2; [lia|].
  destruct fuel' as [|fuel']; [lia|]. cbn [tree_loop].
  destruct heap as [|e0 rest]; [reflexivity|].
  destruct (Nat.leb mn nodes) eqn:El; [reflexivity|]. apply Nat.leb_gt in El.
  set (e := heap_min e0 rest).
  pose proof (heap_remove_lt e (e0 :: rest) (heap_min_in rest e0)) as Hrm.
  set (heap' := heap_remove (h_cnt e) (e0 :: rest)) in *.
  unfold tmeasure in *.
  assert (Ha : forall n', (nodes <= n')%nat -> (length heap' + 2 * (mn - n') < fuel)%nat /\ (length heap' + 2 * (mn - n') < fuel')%nat) by (intros; lia).
  destruct (dominated eps best (h_key e)); [apply IH; apply (Ha nodes); lia|].
  destruct (bsolve_node_lp eps is_cs pricing demands (cb_dict (h_nb e)) mi cols) as [[[[[[cols' x] du] lp] it] cv]|]; [|reflexivity].
  destruct lp as [lpv|]; [|apply IH; apply (Ha (S nodes)); lia].
  destruct (dominated eps best lpv); [apply IH; apply (Ha (S nodes)); lia|].
  destruct (most_fractional eps 0 x (None, 0%Q)) as [fi|].
  - apply IH; rewrite app_length; cbn [length]; lia.
  - destruct (improves eps best (plan_total (build_solution eps cols' x)) && covers (build_solution eps cols' x) demands);
      [|apply IH; apply (Ha (S nodes)); lia].
    destruct (proven gap rb (inject_Z (plan_total (build_solution eps cols' x)))); [reflexivity|].
    apply IH; apply (Ha (S nodes)); lia.
Qed.
