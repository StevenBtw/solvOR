(* C17 - the basics the later proof files share (Qleb / Qltb, mapi, add_at, unit patterns), then the invariants of the column pool of the cutting-stock model: every pattern fits the roll, no duplicates.
   Ingredients: initial patterns, patterns stored in the knapsack DP cells, the explicit total_size check. *)
From Coq Require Import List ZArith QArith Qabs Qround Bool Arith Lia.
From SV Require Import C17.Cg C17.CgSpec C17.GateProofs.
Import ListNotations.

Lemma Qleb_le : forall a b, Qleb a b = true <-> (a <= b)%Q.
Proof. intros a b. unfold Qleb. apply Qle_bool_iff. Qed.

Lemma Qltb_lt : forall a b, Qltb a b = true <-> (a < b)%Q.
Proof.
  intros a b. unfold Qltb. rewrite negb_true_iff, <- not_true_iff_false, Qle_bool_iff.
  split; [apply Qnot_le_lt | apply Qlt_not_le].
Qed.

Lemma Qltb_false : forall a b, Qltb a b = false <-> (b <= a)%Q.
Proof.
  intros a b. unfold Qltb. rewrite negb_false_iff. apply Qle_bool_iff.
Qed.

Lemma mapi_from_length : forall {A B} (f : nat -> A -> B) l k, length (mapi_from k f l) = length l.
Proof. induction l as [|x l IH]; intros k; simpl; [reflexivity | rewrite IH; reflexivity]. Qed.

Lemma mapi_length : forall {A B} (f : nat -> A -> B) l, length (mapi f l) = length l.
Proof. intros. apply mapi_from_length. Qed.

Lemma mapi_from_Forall : forall {A B} (P : A -> Prop) (R : B -> Prop) (f : nat -> A -> B) l k,
  (forall i x, P x -> R (f i x)) -> Forall P l -> Forall R (mapi_from k f l).
Proof.
  induction l as [|x l IH]; intros k Hf Hl; simpl; constructor; inversion Hl; subst; auto.
Qed.

Fixpoint add_at (d : Z) (i : nat) (p : pattern) {struct p} : pattern :=
  match p, i with
  | [], _ => []
  | x :: p', O => (x + d)%Z :: p'
  | x :: p', S i' => x :: add_at d i' p'
  end.

Lemma add_at_length : forall d i p, length (add_at d i p) = length p.
Proof. intros d i p. revert i. induction p as [|x p IH]; intros [|i]; simpl; [reflexivity .. | rewrite IH; reflexivity]. Qed.

Lemma getz_add_at : forall d p i j, (i < length p)%nat ->
  getz (add_at d i p) j = if Nat.eqb j i then (getz p j + d)%Z else getz p j.
Proof.
  induction p as [|x p IH]; intros i j Hi; simpl in Hi; [lia|].
  destruct i as [|i], j as [|j]; try reflexivity. apply (IH i j). lia.
Qed.

Lemma dotz_add_at : forall d s p i, (i < length p)%nat -> dotz s (add_at d i p) = (dotz s p + getz s i * d)%Z.
Proof.
  induction s as [|sv s IH]; intros p i Hi; [destruct i; reflexivity|].
  destruct p as [|x p]; simpl in Hi; [lia|].
  destruct i as [|i]; unfold getz; simpl; [lia|]. rewrite IH by lia. unfold getz. lia.
Qed.

Lemma dotq_add_at : forall d y p i, (i < length p)%nat -> (dotq y (add_at d i p) == dotq y p + getq y i * z2q d)%Q.
Proof.
  induction y as [|yv y IH]; intros p i Hi; [unfold getq; destruct i; simpl; ring|].
  destruct p as [|x p]; simpl in Hi; [lia|].
  destruct i as [|i]; unfold getq; simpl.
  - unfold z2q. rewrite inject_Z_plus. ring.
  - rewrite IH by lia. unfold getq. ring.
Qed.

(* incr_at is written with mapi in the model *)
Lemma mapi_from_above : forall (g : Z -> Z) t p k, (t < k)%nat ->
  mapi_from k (fun k' x => if Nat.eqb k' t then g x else x) p = p.
Proof.
  induction p as [|x p IH]; intros k Hk; simpl; [reflexivity|].
  rewrite IH by lia. destruct (Nat.eqb_spec k t); [lia | reflexivity].
Qed.

Lemma mapi_from_add : forall t p k, (k <= t)%nat ->
  mapi_from k (fun k' x => if Nat.eqb k' t then (x + 1)%Z else x) p = add_at 1 (t - k) p.
Proof.
  induction p as [|x p IH]; intros k Hk; simpl; [reflexivity|].
  destruct (Nat.eqb_spec k t) as [->|Hne].
  - rewrite Nat.sub_diag, mapi_from_above by lia. reflexivity.
  - rewrite IH by lia. replace (t - k)%nat with (S (t - S k)) by lia. reflexivity.
Qed.

Lemma incr_at_add : forall i p, incr_at i p = add_at 1 i p.
Proof. intros i p. unfold incr_at, mapi. rewrite mapi_from_add by lia. rewrite Nat.sub_0_r. reflexivity. Qed.

Definition unit_pat (n j : nat) (c : Z) : pattern := map (fun i => if Nat.eqb i j then c else 0%Z) (seq 0 n).

Lemma dotz_zeros : forall s n, dotz s (repeat 0%Z n) = 0%Z.
Proof.
  induction s as [|sv s IH]; intros n; simpl; [reflexivity|]. destruct n; simpl; [reflexivity|]. rewrite IH. lia.
Qed.

Lemma dotq_zeros : forall y n, (dotq y (repeat 0%Z n) == 0)%Q.
Proof.
  induction y as [|yv y IH]; intros n; simpl; [reflexivity|]. destruct n; simpl; [reflexivity|]. rewrite IH. unfold z2q. simpl. ring.
Qed.

Lemma map_seq_above : forall j (c : Z) n k, (j < k)%nat ->
  map (fun i => if Nat.eqb i j then c else 0%Z) (seq k n) = repeat 0%Z n.
Proof.
  induction n as [|n IH]; intros k Hk; simpl; [reflexivity|].
  rewrite IH by lia. destruct (Nat.eqb_spec k j); [lia | reflexivity].
Qed.

Lemma map_seq_add : forall j c n k, (k <= j)%nat ->
  map (fun i => if Nat.eqb i j then c else 0%Z) (seq k n) = add_at c (j - k) (repeat 0%Z n).
Proof.
  induction n as [|n IH]; intros k Hk; simpl; [reflexivity|].
  destruct (Nat.eqb_spec k j) as [->|Hne].
  - rewrite Nat.sub_diag, map_seq_above by lia. reflexivity.
  - rewrite IH by lia. replace (j - k)%nat with (S (j - S k)) by lia. reflexivity.
Qed.

Lemma unit_pat_add : forall n j c, unit_pat n j c = add_at c j (repeat 0%Z n).
Proof. intros n j c. unfold unit_pat. rewrite map_seq_add by lia. rewrite Nat.sub_0_r. reflexivity. Qed.

Lemma dotz_unit : forall sizes j c, (j < length sizes)%nat ->
  dotz sizes (unit_pat (length sizes) j c) = (getz sizes j * c)%Z.
Proof. intros sizes j c Hj. rewrite unit_pat_add, dotz_add_at, dotz_zeros by (rewrite repeat_length; exact Hj). lia. Qed.

Lemma unit_pat_nth : forall n j j' c, (j' < n)%nat -> getz (unit_pat n j' c) j = if Nat.eqb j j' then c else 0%Z.
Proof.
  intros n j j' c Hj. rewrite unit_pat_add, getz_add_at by (rewrite repeat_length; exact Hj).
  unfold getz. rewrite nth_repeat. destruct (Nat.eqb j j'); reflexivity.
Qed.

Lemma valid_sizes_In : forall sizes width s, valid_sizes sizes width = true -> In s sizes -> (0 < s <= width)%Z.
Proof.
  intros sizes width s Hv Hin. unfold valid_sizes in Hv. rewrite forallb_forall in Hv.
  specialize (Hv s Hin). apply andb_true_iff in Hv. destruct Hv as [H1 H2].
  apply Z.ltb_lt in H1. apply Z.leb_le in H2. lia.
Qed.

Lemma valid_sizes_nth : forall sizes width j, valid_sizes sizes width = true -> (j < length sizes)%nat ->
  (0 < getz sizes j <= width)%Z.
Proof. intros sizes width j Hv Hj. apply (valid_sizes_In sizes); [exact Hv | apply nth_In; exact Hj]. Qed.

Lemma valid_sizes_width : forall sizes width, valid_sizes sizes width = true -> (0 < length sizes)%nat -> (0 <= width)%Z.
Proof. intros sizes width Hv Hj. pose proof (valid_sizes_nth _ _ _ Hv Hj). lia. Qed.

Definition pool_ok (sizes : list Z) (width : Z) (pool : list pattern) : Prop :=
  Forall (fits sizes width) pool /\ NoDup pool.

Lemma unit_pat_fits : forall sizes width j, valid_sizes sizes width = true -> (j < length sizes)%nat ->
  fits sizes width (unit_pat (length sizes) j (width / getz sizes j)).
Proof.
  intros sizes width j Hv Hj. destruct (valid_sizes_nth _ _ _ Hv Hj) as [Hp Hw].
  unfold fits. repeat split.
  - unfold unit_pat. rewrite map_length, seq_length. reflexivity.
  - unfold unit_pat. apply Forall_forall. intros x Hx. apply in_map_iff in Hx. destruct Hx as [i [Hi _]].
    destruct (Nat.eqb i j); subst; [apply Z.div_pos; lia | lia].
  - rewrite dotz_unit by exact Hj. apply Z.mul_div_le. exact Hp.
Qed.

(* different pieces give different initial patterns: entry j is at least 1 in the pattern of piece j, 0 in the others *)
Lemma unit_pat_inj : forall sizes width j j', valid_sizes sizes width = true ->
  (j < length sizes)%nat -> (j' < length sizes)%nat ->
  unit_pat (length sizes) j (width / getz sizes j) = unit_pat (length sizes) j' (width / getz sizes j') -> j = j'.
Proof.
  intros sizes width j j' Hv Hj Hj' H. apply (f_equal (fun p => getz p j)) in H.
  rewrite !unit_pat_nth, Nat.eqb_refl in H by assumption.
  destruct (Nat.eqb_spec j j') as [E|_]; [exact E | exfalso].
  destruct (valid_sizes_nth _ _ _ Hv Hj) as [Hpos Hw].
  assert (1 <= width / getz sizes j)%Z by (apply Z.div_le_lower_bound; lia). lia.
Qed.

Lemma initial_patterns_In : forall sizes width demands p,
  In p (initial_patterns sizes width demands) ->
  exists j, (j < length sizes)%nat /\ p = unit_pat (length sizes) j (width / getz sizes j).
Proof.
  intros sizes width demands p H. unfold initial_patterns in H. apply in_flat_map in H.
  destruct H as [j [Hj Hp]]. apply in_seq in Hj.
  destruct (Z.ltb 0 (getz demands j)); simpl in Hp; [|contradiction].
  destruct Hp as [Hp|[]]. exists j. split; [lia | symmetry; exact Hp].
Qed.

Lemma NoDup_flat_map_seq : forall (f : nat -> list pattern) n k,
  (forall j, length (f j) <= 1)%nat ->
  (forall j j' p, (k <= j < k + n)%nat -> (k <= j' < k + n)%nat -> In p (f j) -> In p (f j') -> j = j') ->
  NoDup (flat_map f (seq k n)).
Proof.
  intros f n. induction n as [|n IH]; intros k H1 Hinj; simpl; [constructor|].
  assert (Hrest : NoDup (flat_map f (seq (S k) n))).
  { apply IH; [assumption|]. intros j j' p Hj Hj'. apply Hinj; lia. }
  destruct (f k) as [|p [|q l]] eqn:E; simpl.
  - exact Hrest.
  - constructor; [|exact Hrest]. intros Hin. apply in_flat_map in Hin. destruct Hin as [j' [Hj' Hp]].
    apply in_seq in Hj'. assert (k = j') by (apply (Hinj k j' p); [lia | lia | rewrite E; left; reflexivity | exact Hp]). lia.
  - specialize (H1 k). rewrite E in H1. simpl in H1. lia.
Qed.

Lemma initial_patterns_ok : forall sizes width demands,
  valid_sizes sizes width = true -> pool_ok sizes width (initial_patterns sizes width demands).
Proof.
  intros sizes width demands Hv. split.
  - apply Forall_forall. intros p Hp. apply initial_patterns_In in Hp. destruct Hp as [j [Hj Hp]]. subst.
    apply unit_pat_fits; assumption.
  - unfold initial_patterns. apply NoDup_flat_map_seq.
    + intros j. destruct (Z.ltb 0 (getz demands j)); simpl; lia.
    + intros j j' p Hj Hj' Hp Hp'.
      destruct (Z.ltb 0 (getz demands j)); simpl in Hp; [|contradiction].
      destruct (Z.ltb 0 (getz demands j')); simpl in Hp'; [|contradiction].
      destruct Hp as [Hp|[]]. destruct Hp' as [Hp'|[]].
      apply (unit_pat_inj sizes width j j' Hv); [lia | lia | exact (eq_trans Hp (eq_sym Hp'))].
Qed.

Definition pat_ok (n : nat) (p : pattern) : Prop := length p = n /\ Forall (fun x => (0 <= x)%Z) p.
Definition cell_ok (n : nat) (c : cell) : Prop := pat_ok n (snd c).

Lemma zeros_ok : forall n, pat_ok n (repeat 0%Z n).
Proof.
  intros n. split; [apply repeat_length|]. apply Forall_forall. intros x Hx. apply repeat_spec in Hx. lia.
Qed.

Lemma getz_nonneg : forall p i, Forall (fun x => (0 <= x)%Z) p -> (0 <= getz p i)%Z.
Proof.
  intros p i Hf. unfold getz. destruct (nth_in_or_default i p 0%Z) as [Hin|Hd]; [|rewrite Hd; lia].
  rewrite Forall_forall in Hf. apply Hf. exact Hin.
Qed.

Lemma pat_ok_add_at : forall n d i p, pat_ok n p -> (0 <= getz p i + d)%Z -> pat_ok n (add_at d i p).
Proof.
  intros n d i p [Hl Hf] Hd. split; [rewrite add_at_length; exact Hl|]. clear Hl. revert i Hd.
  induction Hf as [|x p Hx Hf IH]; intros i Hd; [constructor|].
  destruct i as [|i]; simpl; constructor; [exact Hd | exact Hf | exact Hx | exact (IH i Hd)].
Qed.

Lemma incr_at_ok : forall n i p, pat_ok n p -> pat_ok n (incr_at i p).
Proof.
  intros n i p Hp. rewrite incr_at_add. apply pat_ok_add_at; [exact Hp|].
  destruct Hp as [_ Hf]. pose proof (getz_nonneg p i Hf). lia.
Qed.

Lemma knap_upd_ok : forall n eps v i cur prev,
  cell_ok n cur -> (forall c, prev = Some c -> cell_ok n c) -> cell_ok n (knap_upd eps v i cur prev).
Proof.
  intros n eps v i cur prev Hc Hp. unfold knap_upd.
  destruct prev as [[[pv|] pp]|]; try exact Hc.
  assert (Hpp : pat_ok n pp) by (apply (Hp (Some pv, pp)); reflexivity).
  destruct (fst cur) as [cv|].
  - destruct (Qltb (cv + eps) (Qred (pv + v))); [apply incr_at_ok; exact Hpp | exact Hc].
  - apply incr_at_ok. exact Hpp.
Qed.

(* index-wise view of a pass *)
Lemma zip_upd_length : forall eps v i dp sh, length (zip_upd eps v i dp sh) = length dp.
Proof.
  induction dp as [|c dp IH]; intros sh; simpl; [reflexivity|]. destruct sh; simpl; [reflexivity | rewrite IH; reflexivity].
Qed.

Lemma zip_upd_nth : forall eps v i dp sh w d, (w < length dp)%nat -> (w < length sh)%nat ->
  nth w (zip_upd eps v i dp sh) d = knap_upd eps v i (nth w dp d) (nth w sh None).
Proof.
  induction dp as [|c dp IH]; intros sh w d Hw Hs; simpl in *; [lia|].
  destruct sh as [|p sh]; simpl in *; [lia|].
  destruct w as [|w]; [reflexivity|]. apply IH; lia.
Qed.

Lemma knap_pass_length : forall eps v i s dp, length (knap_pass eps v i s dp) = length dp.
Proof. intros. unfold knap_pass. apply zip_upd_length. Qed.

Lemma knap_pass_nth : forall eps v i s dp w d, (w < length dp)%nat ->
  nth w (knap_pass eps v i s dp) d =
  knap_upd eps v i (nth w dp d) (if Nat.ltb w s then None else Some (nth (w - s) dp d)).
Proof.
  intros eps v i s dp w d Hw. unfold knap_pass.
  rewrite zip_upd_nth; [|exact Hw | rewrite app_length, repeat_length, map_length; lia].
  f_equal. destruct (Nat.ltb_spec w s) as [Hlt|Hge].
  - rewrite app_nth1 by (rewrite repeat_length; exact Hlt). apply nth_repeat.
  - rewrite app_nth2, repeat_length by (rewrite repeat_length; exact Hge).
    rewrite (nth_indep _ None (Some d)) by (rewrite map_length; lia). apply map_nth.
Qed.

Lemma knap_pass_ok : forall n eps v i s dp, Forall (cell_ok n) dp -> Forall (cell_ok n) (knap_pass eps v i s dp).
Proof.
  intros n eps v i s dp Hd. pose proof (proj1 (Forall_nth _ _) Hd) as Hn.
  apply Forall_nth. intros w d Hw. rewrite knap_pass_length in Hw. rewrite knap_pass_nth by exact Hw.
  apply knap_upd_ok; [apply Hn; exact Hw|].
  intros c Hc. destruct (Nat.ltb w s); [discriminate|]. injection Hc as <-. apply Hn. lia.
Qed.

Lemma iter_n_inv : forall {A} (P : A -> Prop) (f : A -> A) k x, (forall y, P y -> P (f y)) -> P x -> P (iter_n k f x).
Proof. induction k as [|k IH]; intros x Hf Hx; simpl; [exact Hx | apply IH; [exact Hf | apply Hf; exact Hx]]. Qed.

Lemma knap_items_ok : forall n eps ss i cs vs dp,
  Forall (cell_ok n) dp -> Forall (cell_ok n) (knap_items eps i ss cs vs dp).
Proof.
  induction ss as [|s ss IH]; intros i cs vs dp Hd; simpl; [exact Hd|].
  destruct cs as [|c cs]; [exact Hd|]. destruct vs as [|v vs]; [exact Hd|].
  apply IH. destruct (Qleb v eps); [exact Hd|].
  apply (iter_n_inv (fun d => Forall (cell_ok n) d)); [|exact Hd].
  intros y Hy. apply knap_pass_ok. exact Hy.
Qed.

Lemma knap_dp_ok : forall eps sizes_int cap_int copies values,
  pat_ok (length sizes_int) (fst (knap_dp eps sizes_int cap_int copies values)).
Proof.
  intros eps sizes_int cap_int copies values. unfold knap_dp.
  set (n := length sizes_int). set (zero := repeat 0%Z n).
  set (dp := knap_items eps 0 sizes_int copies values _).
  assert (Hdp : Forall (cell_ok n) dp).
  { apply knap_items_ok. constructor; [apply zeros_ok|].
    apply Forall_forall. intros c Hc. apply repeat_spec in Hc. subst. apply zeros_ok. }
  destruct (knap_best eps dp 0 (0%Q, O)) as [best_val best_w]. simpl.
  destruct (Qltb eps best_val); [|apply zeros_ok].
  destruct (nth_in_or_default best_w dp (None, zero)) as [Hin|Hd].
  - rewrite Forall_forall in Hdp. apply Hdp. exact Hin.
  - rewrite Hd. apply zeros_ok.
Qed.

Lemma knapsack_pricing_fits : forall eps sizes cap values pat v,
  (0 <= eps)%Q -> (eps < 1)%Q -> (0 <= cap)%Z ->
  knapsack_pricing eps sizes cap values = Some (pat, v) -> fits sizes cap pat.
Proof.
  intros eps sizes cap values pat v He0 He1 Hcap H. unfold knapsack_pricing in H.
  destruct sizes as [|s0 sizes'] eqn:Es.
  - inversion H; subst. unfold fits. simpl. repeat split; [constructor | exact Hcap].
  - rewrite <- Es in *.
    set (si := map (fun s => Z.max 1 (s * knap_scale)) sizes) in H.
    pose proof (knap_dp_ok eps si (cap * knap_scale) (max_copies sizes cap) values) as Hok.
    destruct (knap_dp eps si (cap * knap_scale) (max_copies sizes cap) values) as [bp bv]. simpl in Hok.
    destruct (Qltb (z2q cap + eps) (z2q (dotz sizes bp))) eqn:Echk; [discriminate|].
    inversion H; subst pat v. clear H.
    destruct Hok as [Hl Hf]. unfold si in Hl. rewrite map_length in Hl.
    unfold fits. repeat split; [exact Hl | exact Hf |].
    apply Qltb_false in Echk. unfold z2q in Echk.
    assert (Hlt : (inject_Z (dotz sizes bp) < inject_Z (cap + 1))%Q).
    { rewrite inject_Z_plus. eapply Qle_lt_trans; [exact Echk|].
      apply Qplus_lt_r. exact He1. }
    rewrite <- Zlt_Qlt in Hlt. lia.
Qed.

Lemma NoDup_snoc : forall {A} (l : list A) x, NoDup l -> ~ In x l -> NoDup (l ++ [x]).
Proof.
  intros A l x Hn Hx. apply (NoDup_Add (Add_app x l [])). rewrite app_nil_r. split; assumption.
Qed.

Lemma pool_ok_add : forall sizes width pool p,
  pool_ok sizes width pool -> fits sizes width p ->
  pool_ok sizes width (if pat_mem p pool then pool else pool ++ [p]).
Proof.
  intros sizes width pool p [Hf Hn] Hp. destruct (pat_mem p pool) eqn:E; [split; assumption|].
  apply pat_mem_false in E. split.
  - apply Forall_app. split; [exact Hf | constructor; [exact Hp | constructor]].
  - apply NoDup_snoc; assumption.
Qed.
