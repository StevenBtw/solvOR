(* C17 - soundness of the per-run dual certificates (dual_cert_check, dual_cert_custom), and status OPTIMAL of the solve_cg model
   under such a certificate (C17_optimal_partial, C17_optimal_partial_eps0). *)
From Coq Require Import List ZArith QArith Qabs Qround Bool Arith Lia.
From SV Require Import C17.Cg C17.CgSpec C17.GateProofs C17.PoolProofs C17.CgGateProofs C17.DualityProofs C17.KnapExact.
Import ListNotations.

Lemma forallb_Qleb0 : forall y, forallb (Qleb 0) y = true -> Forall (fun v => (0 <= v)%Q) y.
Proof.
  intros y H. apply Forall_forall. intros v Hv. rewrite forallb_forall in H. apply Qleb_le. apply H. exact Hv.
Qed.

Lemma forallb_Qleb0_intro : forall y, Forall (fun v => (0 <= v)%Q) y -> forallb (Qleb 0) y = true.
Proof.
  intros y H. apply forallb_forall. intros v Hv. rewrite Forall_forall in H. apply Qleb_le. apply H. exact Hv.
Qed.

(* the certificate proves dual feasibility for ALL fitting patterns *)
Lemma dual_cert_feasible : forall sizes width y v p,
  valid_sizes sizes width = true -> length y = length sizes -> (0 <= width)%Z ->
  forallb (Qleb 0) y = true ->
  knapsack_pricing 0 sizes width y = Some (p, v) -> (v <= 1)%Q ->
  dual_feasible (fits sizes width) y.
Proof.
  intros sizes width y v p Hv Hl Hw Hy Hk Hv1. split; [apply forallb_Qleb0; exact Hy|].
  intros a Ha. destruct (knapsack_pricing_exact sizes width y Hv Hl Hw) as [p' [v' [Hk' [_ [_ Hmax]]]]].
  rewrite Hk in Hk'. inversion Hk'; subst. eapply Qle_trans; [apply Hmax; exact Ha | exact Hv1].
Qed.

(* both certificates have the form  r <= 0 || b : no covering plan has fewer than 0 rolls *)
Lemma cert_nonpos_or : forall (feas : pattern -> Prop) d P r b,
  covering feas d P -> Z.leb r 0 || b = true -> (b = true -> (r <= rolls P)%Z) -> (r <= rolls P)%Z.
Proof.
  intros feas d P r b HP H Hb. apply orb_true_iff in H. destruct H as [H|H]; [|exact (Hb H)].
  apply Z.leb_le in H. pose proof (rolls_nonneg _ _ _ HP). lia.
Qed.

Theorem dual_cert_sound : forall sizes width demands y r,
  dual_cert_check sizes width demands y r = true ->
  forall P, covering (fits sizes width) demands P -> (r <= rolls P)%Z.
Proof.
  intros sizes width demands y r H P HP. apply (cert_nonpos_or _ _ _ _ _ HP H). clear H. intros H.
  rewrite !andb_true_iff in H. destruct H as [[[[[[H Hld] Hv] Hw] Hy] Hk] Hr].
  apply Nat.eqb_eq in H. apply Nat.eqb_eq in Hld. apply Z.leb_le in Hw. apply Z.leb_le in Hr.
  destruct (knapsack_pricing 0 sizes width y) as [[p v]|] eqn:Ek; [|discriminate]. apply Qleb_le in Hk.
  eapply Z.le_trans; [exact Hr|].
  apply (dual_bound_ceil (fits sizes width)); [eapply dual_cert_feasible; eassumption | lia | exact HP].
Qed.

Theorem dual_cert_custom_sound : forall cols demands y r,
  dual_cert_custom cols demands y r = true ->
  forall P, covering (fun a => In a cols) demands P -> (r <= rolls P)%Z.
Proof.
  intros cols demands y r H P HP. apply (cert_nonpos_or _ _ _ _ _ HP H). clear H. intros H.
  rewrite !andb_true_iff in H. destruct H as [[[H Hy] Hc] Hr]. apply Nat.eqb_eq in H. apply Z.leb_le in Hr.
  eapply Z.le_trans; [exact Hr|]. apply (dual_bound_ceil (fun a => In a cols)); [|symmetry; exact H | exact HP].
  split; [apply forallb_Qleb0; exact Hy|]. intros a Ha. rewrite forallb_forall in Hc. apply Qleb_le, Hc, Ha.
Qed.

(* gate + certificate = minimality; this is what is evaluated, inside coqc, on every OPTIMAL answer of the IMPLEMENTATION *)
Lemma is_min_intro : forall (feas : pattern -> Prop) demands P obj,
  covering feas demands P /\ obj = rolls P -> (forall P', covering feas demands P' -> (obj <= rolls P')%Z) ->
  is_min feas demands obj.
Proof. intros feas demands P obj [Hcov Hobj] Hmin. split; [exists P; split; [exact Hcov | symmetry; exact Hobj] | exact Hmin]. Qed.

Theorem certified_min : forall sizes width demands P obj y,
  plan_ok sizes width demands P obj = true ->
  dual_cert_check sizes width demands y obj = true ->
  is_min (fits sizes width) demands obj.
Proof.
  intros sizes width demands P obj y Hg Hc.
  exact (is_min_intro _ _ P _ (plan_ok_sound _ _ _ _ _ Hg) (dual_cert_sound _ _ _ _ _ Hc)).
Qed.

Theorem certified_min_custom : forall cols demands P obj y,
  plan_ok_custom cols demands P obj = true ->
  dual_cert_custom cols demands y obj = true ->
  is_min (fun a => In a cols) demands obj.
Proof.
  intros cols demands P obj y Hg Hc.
  exact (is_min_intro _ _ P _ (plan_ok_custom_sound _ _ _ _ Hg) (dual_cert_custom_sound _ _ _ _ Hc)).
Qed.

(* OPTIMAL is minimal, without a per-run hypothesis.  It rests on the soundness of the master simplex - the final tableau's
   dual vector is >= 0 and satisfies y.d >= lp_obj (DeepMaster.v) - and is C17_optimal_sound_full of Props/C17_deep.v. *)
Definition optimal_sound_full_statement : Prop :=
  forall sizes width demands max_iter r,
    solve_cg 0 sizes width demands max_iter = Done r -> r_status r = OPTIMAL ->
    is_min (fits sizes width) demands (r_obj r).

Theorem optimal_partial : forall eps sizes width demands max_iter r,
  (0 <= eps)%Q -> (eps < 1)%Q ->
  solve_cg eps sizes width demands max_iter = Done r -> r_status r = OPTIMAL ->
  dual_cert_check sizes width demands (r_duals r) (r_obj r) = true ->
  is_min (fits sizes width) demands (r_obj r).
Proof.
  intros eps sizes width demands max_iter r He0 He1 H Hs Hc.
  apply (certified_min sizes width demands (r_plan r) (r_obj r) (r_duals r)); [|exact Hc].
  apply (solve_cg_gate eps sizes width demands max_iter r He0 He1 H). rewrite Hs. reflexivity.
Qed.

Lemma master_lp_duals_length : forall drive eps cols demands x duals lp,
  master_lp drive eps cols demands = Some (x, duals, lp) -> length duals = length demands.
Proof.
  intros drive eps cols demands x duals lp H. unfold master_lp in H.
  destruct cols as [|c cols]; [injection H as _ <- _; apply repeat_length|].
  destruct (simplex_phase _ _ _ _ _) as [[T1 basis1] []]; [|discriminate]. cbn [negb] in H.
  destruct (Qltb _ _); [injection H as _ <- _; apply repeat_length|].
  destruct (if drive then _ else _) as [T1d basis1d].
  destruct (simplex_phase _ _ _ _ _) as [[T2 basis2] []]; [|discriminate].
  injection H as _ <- _. rewrite map_length, seq_length. reflexivity.
Qed.

Lemma cs_loop_conv : forall eps sizes width demands fuel it pool pool' it',
  cs_loop eps sizes width demands fuel it pool = Some (pool', it', true) ->
  exists x duals lp np pv,
    master_lp false eps pool' demands = Some (x, duals, lp) /\
    knapsack_pricing eps sizes width duals = Some (np, pv) /\ Qleb pv (1 + eps) = true.
Proof.
  intros eps sizes width demands fuel. induction fuel as [|fuel IH]; intros it pool pool' it' H; cbn [cs_loop] in H.
  - discriminate.
  - destruct (master_lp false eps pool demands) as [[[x duals] lp]|] eqn:Em; [|discriminate].
    destruct (knapsack_pricing eps sizes width duals) as [[np pv]|] eqn:Ek; [|discriminate].
    destruct (Qleb pv (1 + eps)) eqn:Eq.
    + injection H as <- _. exists x, duals, lp, np, pv. repeat split; assumption.
    + apply IH in H. exact H.
Qed.

Theorem optimal_partial_eps0 : forall sizes width demands max_iter r,
  solve_cg 0 sizes width demands max_iter = Done r -> r_status r = OPTIMAL ->
  simplex_residue demands r = true ->
  is_min (fits sizes width) demands (r_obj r).
Proof.
  intros sizes width demands max_iter r H Hs Hres.
  assert (He0 : (0 <= 0)%Q) by apply Qle_refl. assert (He1 : (0 < 1)%Q) by reflexivity.
  apply (optimal_partial 0 sizes width demands max_iter r He0 He1 H Hs).
  unfold simplex_residue in Hres. apply andb_true_iff in Hres. destruct Hres as [Hy Hlp].
  destruct (solve_cg_cases _ _ _ _ _ _ H)
    as [[_ Ht]|(El & Ev & Hw & pats & it & conv & x & duals & lp & Eloop & Em & [Hi|(_ & o & -> & ->)])].
  - injection Ht as <-. reflexivity.
  - rewrite Hi in Hs. discriminate.
  - cbn [r_status r_duals r_lp r_obj] in *.
    destruct conv; [|discriminate].
    destruct (Z.leb (snd (round_up 0 pats x)) (Qceil (o - 0))) eqn:Et; [|discriminate]. apply Z.leb_le in Et.
    destruct (cs_loop_conv _ _ _ _ _ _ _ _ _ Eloop) as [x' [duals' [lp' [np [pv [Em' [Ek Hpv]]]]]]].
    rewrite Em in Em'. injection Em' as <- <- <-.
    pose proof (master_lp_duals_length _ _ _ _ _ _ _ Em) as Hld.
    unfold dual_cert_check. apply orb_true_iff. right.
    rewrite Ek. repeat (apply andb_true_iff; split).
    + apply Nat.eqb_eq. lia.
    + apply Nat.eqb_eq. lia.
    + exact Ev.
    + apply Z.leb_le. exact Hw.
    + exact Hy.
    + apply Qleb_le in Hpv. apply Qleb_le. rewrite Qplus_0_r in Hpv. exact Hpv.
    + apply Z.leb_le. eapply Z.le_trans; [exact Et|]. unfold Qceil.
      apply Qceiling_resp_le. apply Qleb_le in Hlp. unfold Qminus. rewrite Qplus_0_r. exact Hlp.
Qed.
