(* C17 deep - finite sums over Q indexed by nat, and entry-wise descriptions of the row operations of the master simplex
   (rscale_div, vsubmul, elim_row with eps = 0, mapi, set_nth). *)
From Coq Require Import List Qabs Lia Lqa.
From SV Require Import C17.Cg C17.PoolProofs.
Import ListNotations.
Open Scope Q_scope.

(* sum_{i = s}^{s+k-1} f i *)
Fixpoint sumN (f : nat -> Q) (s k : nat) : Q :=
  match k with
  | O => 0
  | S k' => f s + sumN f (S s) k'
  end.

Lemma sumN_ext : forall f g k s,
  (forall i, (s <= i < s + k)%nat -> f i == g i) -> sumN f s k == sumN g s k.
Proof.
  intros f g k. induction k as [|k IH]; intros s H; simpl; [reflexivity|].
  rewrite (H s) by lia. rewrite (IH (S s)); [reflexivity|]. intros i Hi. apply H. lia.
Qed.

Lemma sumN_zero : forall k s, sumN (fun _ => 0) s k == 0.
Proof. induction k as [|k IH]; intros s; simpl; [reflexivity|]. rewrite IH. ring. Qed.

Lemma sumN_lin : forall f g c k s,
  sumN (fun i => f i - c * g i) s k == sumN f s k - c * sumN g s k.
Proof.
  intros f g c k. induction k as [|k IH]; intros s; simpl; [ring|]. rewrite IH. ring.
Qed.

Lemma sumN_plus : forall f g k s,
  sumN (fun i => f i + g i) s k == sumN f s k + sumN g s k.
Proof.
  intros f g k. induction k as [|k IH]; intros s; simpl; [ring|]. rewrite IH. ring.
Qed.

Lemma sumN_scal : forall f c k s, sumN (fun i => c * f i) s k == c * sumN f s k.
Proof.
  intros f c k. induction k as [|k IH]; intros s; simpl; [ring|]. rewrite IH. ring.
Qed.

(* sum of  [i = l] * c *)
Lemma sumN_delta_out : forall (c : Q) l k s, (l < s \/ s + k <= l)%nat ->
  sumN (fun i => if Nat.eqb i l then c else 0) s k == 0.
Proof.
  intros c l k. induction k as [|k IH]; intros s H; simpl; [reflexivity|].
  destruct (Nat.eqb s l) eqn:E; [apply Nat.eqb_eq in E; lia|]. rewrite IH by lia. ring.
Qed.

Lemma sumN_delta : forall (c : Q) l k s, (s <= l < s + k)%nat ->
  sumN (fun i => if Nat.eqb i l then c else 0) s k == c.
Proof.
  intros c l k. induction k as [|k IH]; intros s H; simpl; [lia|].
  destruct (Nat.eqb s l) eqn:E.
  - apply Nat.eqb_eq in E. rewrite sumN_delta_out by lia. ring.
  - apply Nat.eqb_neq in E. rewrite IH by lia. ring.
Qed.

Lemma sumN_nonpos : forall f k s, (forall i, (s <= i < s + k)%nat -> f i <= 0) -> sumN f s k <= 0.
Proof.
  intros f k. induction k as [|k IH]; intros s H; simpl; [apply Qle_refl|].
  assert (H1 : f s <= 0) by (apply H; lia).
  assert (H2 : sumN f (S s) k <= 0) by (apply IH; intros i Hi; apply H; lia). lra.
Qed.

Lemma sumN_nonneg : forall f k s, (forall i, (s <= i < s + k)%nat -> 0 <= f i) -> 0 <= sumN f s k.
Proof.
  intros f k. induction k as [|k IH]; intros s H; cbn [sumN]; [apply Qle_refl|].
  assert (0 <= f s) by (apply H; lia). assert (0 <= sumN f (S s) k) by (apply IH; intros; apply H; lia). lra.
Qed.

(* non-negative terms with a sum <= 0 all vanish *)
Lemma sumN_nonneg_le0 : forall f k s, (forall i, (s <= i < s + k)%nat -> 0 <= f i) -> sumN f s k <= 0 ->
  forall i, (s <= i < s + k)%nat -> f i == 0.
Proof.
  intros f k. induction k as [|k IH]; intros s Hn Hs i Hi; [lia|]. cbn [sumN] in Hs.
  assert (H1 : 0 <= f s) by (apply Hn; lia).
  assert (H2 : 0 <= sumN f (S s) k) by (apply sumN_nonneg; intros i' Hi'; apply Hn; lia).
  destruct (Nat.eq_dec i s) as [->|Hne]; [lra|].
  apply (IH (S s)); [intros i' Hi'; apply Hn; lia | lra | lia].
Qed.

Lemma sumN_snoc : forall f k s, sumN f s (S k) == sumN f s k + f (s + k)%nat.
Proof.
  intros f k. induction k as [|k IH]; intros s.
  - cbn [sumN]. rewrite Nat.add_0_r. ring.
  - change (sumN f s (S (S k))) with (f s + sumN f (S s) (S k)). rewrite IH. cbn [sumN].
    replace (S s + k)%nat with (s + S k)%nat by lia. ring.
Qed.

Lemma sumN_shift : forall f k s, sumN f (S s) k == sumN (fun i => f (S i)) s k.
Proof. intros f k. induction k as [|k IH]; intros s; cbn [sumN]; [reflexivity|]. rewrite IH. reflexivity. Qed.

Lemma dotq_tab : forall (g : nat -> Q) k s p,
  dotq (map g (seq s k)) p == sumN (fun i => g i * z2q (getz p (i - s))) s k.
Proof.
  intros g k. induction k as [|k IH]; intros s p; simpl; [reflexivity|].
  destruct p as [|x p].
  - rewrite (sumN_ext _ (fun _ => 0)).
    + rewrite sumN_zero. unfold getz, z2q. destruct (s - s)%nat; simpl; ring.
    + intros i Hi. unfold getz, z2q. destruct (i - s)%nat; simpl; ring.
  - rewrite IH. rewrite Nat.sub_diag. unfold getz at 2. simpl nth.
    apply Qplus_comp; [reflexivity|]. apply sumN_ext. intros i Hi.
    replace (i - s)%nat with (S (i - S s)) by lia. unfold getz. simpl. reflexivity.
Qed.

Lemma dotq_tab0 : forall (g : nat -> Q) k p,
  dotq (map g (seq 0 k)) p == sumN (fun i => g i * z2q (getz p i)) 0 k.
Proof.
  intros g k p. rewrite dotq_tab. apply sumN_ext. intros i Hi. rewrite Nat.sub_0_r. reflexivity.
Qed.

Lemma rscale_div_length : forall piv r, length (rscale_div piv r) = length r.
Proof. intros. unfold rscale_div. apply map_length. Qed.

Lemma getq_rscale_div : forall piv r j, getq (rscale_div piv r) j == getq r j / piv.
Proof.
  intros piv r j. unfold getq, rscale_div.
  destruct (Nat.lt_ge_cases j (length r)) as [Hj|Hj].
  - rewrite (nth_indep _ 0 (Qred (0 / piv))) by (rewrite map_length; exact Hj).
    rewrite (map_nth (fun x => Qred (x / piv))). apply Qred_correct.
  - rewrite !nth_overflow by (rewrite ?map_length; exact Hj). unfold Qdiv. ring.
Qed.

Lemma vsubmul_length : forall f a p, length (vsubmul f a p) = length a.
Proof. intros f a. induction a as [|x a IH]; intros p; simpl; [reflexivity|]. rewrite IH. reflexivity. Qed.

Lemma getq_vsubmul : forall f a p j, (j < length a)%nat ->
  getq (vsubmul f a p) j == getq a j - f * getq p j.
Proof.
  intros f a. induction a as [|x a IH]; intros p j Hj; simpl in Hj; [lia|].
  destruct j as [|j].
  - unfold getq. cbn [vsubmul nth]. rewrite Qred_correct. destruct p; cbn [hd nth]; reflexivity.
  - unfold getq in *. cbn [vsubmul nth]. rewrite IH by lia. destruct p as [|y p]; cbn [tl nth]; [destruct j; reflexivity | reflexivity].
Qed.

Lemma getq_overflow : forall r j, (length r <= j)%nat -> getq r j = 0.
Proof. intros. unfold getq. apply nth_overflow. assumption. Qed.

(* r' = a - f * p, entry by entry *)
Definition comb (r' a : row) (f : Q) (p : row) : Prop :=
  length r' = length a /\ forall j, getq r' j == getq a j - f * getq p j.

Lemma comb_vsubmul : forall f a p, length p = length a -> comb (vsubmul f a p) a f p.
Proof.
  intros f a p Hl. split; [apply vsubmul_length|]. intros j.
  destruct (Nat.lt_ge_cases j (length a)) as [Hj|Hj].
  - apply getq_vsubmul. exact Hj.
  - rewrite (getq_overflow (vsubmul f a p) j) by (rewrite vsubmul_length; lia).
    rewrite (getq_overflow a j), (getq_overflow p j) by lia. ring.
Qed.

Lemma Qabs_nonpos : forall d, Qabs d <= 0 -> d == 0.
Proof. intros d H. destruct (Qabs_Qle_condition d 0) as [H2 _]. specialize (H2 H). lra. Qed.

Lemma elim_row_length : forall eps e p r, length (elim_row eps e p r) = length r.
Proof. intros. unfold elim_row. destruct (Qltb eps (Qabs (getq r e))); [apply vsubmul_length | reflexivity]. Qed.

(* with eps = 0 the test `abs(factor) > eps` only skips subtractions of 0 *)
Lemma comb_elim_row : forall e p r, length p = length r -> comb (elim_row 0 e p r) r (getq r e) p.
Proof.
  intros e p r Hl. unfold elim_row. destruct (Qltb 0 (Qabs (getq r e))) eqn:E.
  - apply comb_vsubmul. exact Hl.
  - apply Qltb_false, Qabs_nonpos in E. split; [reflexivity|]. intros j. rewrite E. ring.
Qed.

Lemma nth_mapi_from_gen : forall {A B} (f : nat -> A -> B) l k j da db, (j < length l)%nat ->
  nth j (mapi_from k f l) db = f (k + j)%nat (nth j l da).
Proof.
  intros A B f l. induction l as [|x l IH]; intros k j da db Hj; simpl in *; [lia|].
  destruct j as [|j]; [rewrite Nat.add_0_r; reflexivity|].
  rewrite (IH (S k) j da db) by lia. f_equal. lia.
Qed.

Lemma nth_mapi : forall {A B} (f : nat -> A -> B) l j da db, (j < length l)%nat ->
  nth j (mapi f l) db = f j (nth j l da).
Proof. intros. unfold mapi. rewrite (nth_mapi_from_gen f l 0 j da db) by assumption. reflexivity. Qed.

Lemma set_nth_length : forall {A} i (v : A) l, length (set_nth i v l) = length l.
Proof. intros A i v l. revert i. induction l as [|x l IH]; intros [|i]; simpl; try reflexivity. rewrite IH. reflexivity. Qed.

Lemma set_nth_same : forall {A} i (v : A) l d, (i < length l)%nat -> nth i (set_nth i v l) d = v.
Proof.
  intros A i v l. revert i. induction l as [|x l IH]; intros [|i] d H; simpl in *; try lia; [reflexivity|].
  apply IH. lia.
Qed.

Lemma set_nth_other : forall {A} i k (v : A) l d, k <> i -> nth k (set_nth i v l) d = nth k l d.
Proof.
  intros A i k v l. revert i k. induction l as [|x l IH]; intros [|i] [|k] d H; simpl; try reflexivity; try lia.
  apply IH. lia.
Qed.

Lemma getq_app1 : forall a b j, (j < length a)%nat -> getq (a ++ b) j = getq a j.
Proof. intros. unfold getq. apply app_nth1. assumption. Qed.

Lemma getq_app2 : forall a b j, (length a <= j)%nat -> getq (a ++ b) j = getq b (j - length a).
Proof. intros. unfold getq. apply app_nth2. assumption. Qed.

Lemma getq_tab : forall (g : nat -> Q) k j, (j < k)%nat -> getq (map g (seq 0 k)) j = g j.
Proof.
  intros g k j Hj. unfold getq. rewrite (nth_indep _ 0 (g O)) by (rewrite map_length, seq_length; exact Hj).
  rewrite map_nth. rewrite seq_nth by exact Hj. reflexivity.
Qed.

Lemma getq_repeat : forall (v : Q) k j, (j < k)%nat -> getq (repeat v k) j = v.
Proof.
  intros v k. induction k as [|k IH]; intros j Hj; [lia|]. destruct j as [|j]; [reflexivity|].
  unfold getq in *. simpl. apply IH. lia.
Qed.

Lemma lastq_getq : forall r k, length r = S k -> lastq r = getq r k.
Proof.
  intros r. induction r as [|x r IH]; intros k H; [discriminate|].
  destruct r as [|y r].
  - simpl in H. injection H as H. subst. reflexivity.
  - destruct k as [|k]; [discriminate|]. simpl in H. injection H as H.
    unfold lastq, getq in *. change (last (x :: y :: r) 0) with (last (y :: r) 0).
    rewrite (IH k) by (simpl; lia). reflexivity.
Qed.

Lemma getq_repeat0 : forall k j, getq (repeat 0 k) j = 0.
Proof. intros. apply nth_repeat. Qed.

Lemma getq_set_nth : forall p v l j, (p < length l)%nat -> getq (set_nth p v l) j = if Nat.eqb j p then v else getq l j.
Proof.
  intros p v l j Hp. unfold getq. destruct (Nat.eqb j p) eqn:E.
  - apply Nat.eqb_eq in E. subst j. apply set_nth_same. exact Hp.
  - apply Nat.eqb_neq in E. apply set_nth_other. exact E.
Qed.

Lemma firstn_snoc : forall {A} (l : list A) t d, (t < length l)%nat -> firstn (S t) l = firstn t l ++ [nth t l d].
Proof.
  intros A l. induction l as [|x l IH]; intros t d H; simpl in H; [lia|].
  destruct t as [|t]; [reflexivity|].
  change (firstn (S (S t)) (x :: l)) with (x :: firstn (S t) l).
  change (firstn (S t) (x :: l)) with (x :: firstn t l).
  change (nth (S t) (x :: l) d) with (nth t l d).
  rewrite (IH t d) by lia. reflexivity.
Qed.
