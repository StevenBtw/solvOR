(* C17 deep - the tableaux `_solve_master_lp` builds: the invariants of DeepInv hold for the initial rows; the phase-1
   objective row built by the code satisfies O2 for the cost row c1 (1 on the artificial columns) and the phase-2 one
   (costs, then elimination of the basic columns) satisfies O1 and O2 for c0; when phase 1 ends with objective value >= 0
   every row whose basic variable is artificial has right-hand side 0, so drive_out_artificials, which keeps R1 and R2
   anyway, then changes no right-hand side. *)
From Coq Require Import List Qabs Lia Lqa.
From SV Require Import C17.Cg C17.PoolProofs C17.DeepSum C17.DeepInv C17.DeepPhase.
Import ListNotations.
Open Scope Q_scope.

(* the pieces of master_lp (prefix m_) *)
Definition m_rows (columns : list pattern) (demands : list Z) : list row :=
  let m := length demands in
  mapi (fun i d => map (fun c : pattern => z2q (getz c i)) columns ++ unitq m i (-(1)) ++ unitq m i 1 ++ [z2q d]) demands.

Definition obj1_step (n m : nat) (st : list Q * nat) (r : row) : list Q * nat :=
  (set_nth (n + m + snd st) 0 (vsub (fst st) r), S (snd st)).

Definition m_obj1 (n m : nat) (rows : list row) : row :=
  fst (fold_left (obj1_step n m) rows (repeat 0 (S (n + m + m)), O)).

Definition obj2_step (eps : Q) (n : nat) (basis : list nat) (st : list Q * nat) (r : row) : list Q * nat :=
  let b := nth (snd st) basis O in
  let cost := if Nat.ltb b n then 1 else 0 in
  ((if Qltb eps (Qabs cost) then vsubmul cost (fst st) r else fst st), S (snd st)).

Definition m_obj2 (eps : Q) (n m : nat) (basis : list nat) (rows : list row) : row :=
  fst (fold_left (obj2_step eps n basis) rows (repeat 1 n ++ repeat 0 (S (m + m)), O)).

Definition colA (columns : list pattern) (j i : nat) : Q := z2q (getz (nth j columns []) i).
Definition demD (demands : list Z) (i : nat) : Q := z2q (getz demands i).

Definition in_range (a b j : nat) : bool := Nat.leb a j && Nat.ltb j b.
Lemma in_range_true : forall a b j, in_range a b j = true <-> (a <= j < b)%nat.
Proof.
  intros a b j. unfold in_range. rewrite andb_true_iff, Nat.leb_le, Nat.ltb_lt. reflexivity.
Qed.
Lemma in_range_false : forall a b j, in_range a b j = false <-> ~ (a <= j < b)%nat.
Proof.
  intros a b j. rewrite <- in_range_true. destruct (in_range a b j); split; intros H.
  - discriminate.
  - exfalso. apply H. reflexivity.
  - intros H'. discriminate.
  - reflexivity.
Qed.

Definition c1 (n m j : nat) : Q := if in_range (n + m) (n + m + m) j then 1 else 0.

Lemma unitq_length : forall k i v, length (unitq k i v) = k.
Proof. intros. unfold unitq. rewrite map_length, seq_length. reflexivity. Qed.

Lemma getq_unitq : forall k i v j, (j < k)%nat -> getq (unitq k i v) j = if Nat.eqb j i then v else 0.
Proof. intros k i v j Hj. unfold unitq. apply (getq_tab (fun j => if Nat.eqb j i then v else 0)). exact Hj. Qed.

Lemma getz_nil : forall i, getz [] i = 0%Z.
Proof. intros [|i]; reflexivity. Qed.

Section Init.
Variables (columns : list pattern) (demands : list Z).
Notation n := (length columns).
Notation m := (length demands).
Notation A := (colA columns).
Notation D := (demD demands).
Notation rows0 := (m_rows columns demands).

Lemma m_rows_length : length (m_rows columns demands) = m.
Proof. unfold m_rows. rewrite mapi_length. reflexivity. Qed.

Lemma m_rows_nth : forall i, (i < m)%nat ->
  nth i (m_rows columns demands) [] =
  map (fun c : pattern => z2q (getz c i)) columns ++ unitq m i (-(1)) ++ unitq m i 1 ++ [z2q (getz demands i)].
Proof.
  intros i Hi. unfold m_rows. rewrite (nth_mapi _ demands i 0%Z (@nil Q)) by exact Hi. reflexivity.
Qed.

Lemma row0_x : forall i j, (i < m)%nat -> (j < n)%nat -> ent (m_rows columns demands) i j = A j i.
Proof.
  intros i j Hi Hj. unfold ent. rewrite m_rows_nth by exact Hi.
  rewrite getq_app1 by (rewrite map_length; exact Hj).
  unfold getq, colA. rewrite (nth_indep _ 0 (z2q (getz [] i))) by (rewrite map_length; exact Hj).
  rewrite (map_nth (fun c : pattern => z2q (getz c i))). reflexivity.
Qed.

Lemma row0_s : forall i i', (i < m)%nat -> (i' < m)%nat ->
  ent (m_rows columns demands) i (n + i') = if Nat.eqb i' i then -(1) else 0.
Proof.
  intros i i' Hi Hi'. unfold ent. rewrite m_rows_nth by exact Hi.
  rewrite getq_app2 by (rewrite map_length; lia). rewrite map_length.
  replace (n + i' - n)%nat with i' by lia.
  rewrite getq_app1 by (rewrite unitq_length; exact Hi'). apply getq_unitq. exact Hi'.
Qed.

Lemma row0_a : forall i i', (i < m)%nat -> (i' < m)%nat ->
  ent (m_rows columns demands) i (n + m + i') = if Nat.eqb i' i then 1 else 0.
Proof.
  intros i i' Hi Hi'. unfold ent. rewrite m_rows_nth by exact Hi.
  rewrite getq_app2 by (rewrite map_length; lia). rewrite map_length.
  rewrite getq_app2 by (rewrite unitq_length; lia). rewrite unitq_length.
  replace (n + m + i' - n - m)%nat with i' by lia.
  rewrite getq_app1 by (rewrite unitq_length; exact Hi'). apply getq_unitq. exact Hi'.
Qed.

Lemma row0_d : forall i, (i < m)%nat -> ent (m_rows columns demands) i (n + m + m) = D i.
Proof.
  intros i Hi. unfold ent. rewrite m_rows_nth by exact Hi.
  rewrite getq_app2 by (rewrite map_length; lia). rewrite map_length.
  rewrite getq_app2 by (rewrite unitq_length; lia). rewrite unitq_length.
  rewrite getq_app2 by (rewrite unitq_length; lia). rewrite unitq_length.
  replace (n + m + m - n - m - m)%nat with O by lia. reflexivity.
Qed.

Lemma row0_len : forall i, (i < m)%nat -> length (nth i (m_rows columns demands) []) = S (NN n m).
Proof.
  intros i Hi. rewrite m_rows_nth by exact Hi. rewrite !app_length, map_length, !unitq_length. simpl. unfold NN. lia.
Qed.

Lemma sum_delta_mul : forall (c : Q) (W : nat -> Q) i, (i < m)%nat ->
  sumN (fun i' => (if Nat.eqb i' i then c else 0) * W i') 0 m == c * W i.
Proof.
  intros c W i Hi. rewrite (sumN_ext _ (fun i' => if Nat.eqb i' i then c * W i else 0)).
  - apply sumN_delta. lia.
  - intros i' _. destruct (Nat.eqb i' i) eqn:E; [apply Nat.eqb_eq in E; subst; reflexivity | ring].
Qed.

Lemma row0_Lin : forall i, (i < m)%nat -> Lin n m A D (nth i (m_rows columns demands) []).
Proof.
  intros i Hi.
  assert (Hmu : forall i', (i' < m)%nat -> mu n m (nth i (m_rows columns demands) []) i' = if Nat.eqb i' i then 1 else 0).
  { intros i' Hi'. unfold mu. apply (row0_a i i' Hi Hi'). }
  assert (Hs : forall W, sumN (fun i' => mu n m (nth i (m_rows columns demands) []) i' * W i') 0 m == W i).
  { intros W. rewrite (sumN_ext _ (fun i' => (if Nat.eqb i' i then 1 else 0) * W i')).
    - rewrite sum_delta_mul by exact Hi. ring.
    - intros i' Hi'. rewrite Hmu by lia. reflexivity. }
  split; [apply row0_len; exact Hi|]. split; [|split].
  - intros j Hj. rewrite Hs. fold (ent (m_rows columns demands) i j). rewrite row0_x by assumption. reflexivity.
  - intros i' Hi'. rewrite Hmu by exact Hi'. fold (ent (m_rows columns demands) i (n + i')).
    rewrite row0_s by assumption. destruct (Nat.eqb i' i); ring.
  - rewrite Hs. unfold NN. fold (ent (m_rows columns demands) i (n + m + m)). rewrite row0_d by exact Hi. reflexivity.
Qed.

Lemma rows0_inv : rowsInv n m A D (m_rows columns demands) (seq (n + m) m).
Proof.
  split; [apply m_rows_length|]. split; [apply seq_length|]. split.
  - apply Forall_nth. intros i d Hi. rewrite m_rows_length in Hi.
    rewrite (nth_indep _ d []) by (rewrite m_rows_length; exact Hi). apply row0_Lin. exact Hi.
  - intros k k' Hk Hk'. rewrite seq_nth by exact Hk. rewrite row0_a by assumption. reflexivity.
Qed.

Lemma obj1_prefix : forall t, (t <= m)%nat ->
  snd (fold_left (obj1_step n m) (firstn t rows0) (repeat 0 (S (n + m + m)), O)) = t /\
  length (fst (fold_left (obj1_step n m) (firstn t rows0) (repeat 0 (S (n + m + m)), O))) = S (n + m + m) /\
  forall j, getq (fst (fold_left (obj1_step n m) (firstn t rows0) (repeat 0 (S (n + m + m)), O))) j ==
            if in_range (n + m) (n + m + t) j then 0 else - sumN (fun k => ent rows0 k j) 0 t.
Proof.
  induction t as [|t IH]; intros Ht.
  - cbn [firstn fold_left fst snd sumN]. split; [reflexivity|]. split; [apply repeat_length|].
    intros j. rewrite getq_repeat0. destruct (in_range (n + m) (n + m + 0) j); ring.
  - destruct IH as [Hs [Hl Hg]]; [lia|].
    rewrite (firstn_snoc rows0 t []) by (rewrite m_rows_length; lia). rewrite fold_left_app.
    set (st := fold_left (obj1_step n m) (firstn t rows0) (repeat 0 (S (n + m + m)), O)) in *.
    cbn [fold_left]. unfold obj1_step at 1 2 3. cbn [fst snd]. rewrite Hs.
    assert (Lr : length (nth t rows0 []) = S (n + m + m)) by (apply (row0_len t); lia).
    split; [reflexivity|]. split; [rewrite set_nth_length; unfold vsub; rewrite vsubmul_length; exact Hl|].
    intros j. rewrite getq_set_nth by (unfold vsub; rewrite vsubmul_length; lia).
    destruct (Nat.eqb j (n + m + t)) eqn:Ej.
    + apply Nat.eqb_eq in Ej. replace (in_range (n + m) (n + m + S t) j) with true; [reflexivity|].
      symmetry. apply in_range_true. lia.
    + apply Nat.eqb_neq in Ej. unfold vsub.
      destruct (comb_vsubmul 1 (fst st) (nth t rows0 [])) as [_ Hc]; [lia|]. rewrite Hc. rewrite Hg.
      fold (ent rows0 t j).
      destruct (in_range (n + m) (n + m + t) j) eqn:E1.
      * apply in_range_true in E1. replace (in_range (n + m) (n + m + S t) j) with true by (symmetry; apply in_range_true; lia).
        replace j with (n + m + (j - (n + m)))%nat by lia.
        rewrite (row0_a t (j - (n + m))) by lia.
        replace (Nat.eqb (j - (n + m)) t) with false by (symmetry; apply Nat.eqb_neq; lia). ring.
      * apply in_range_false in E1. replace (in_range (n + m) (n + m + S t) j) with false by (symmetry; apply in_range_false; lia).
        rewrite sumN_snoc. cbn [Nat.add]. ring.
Qed.

Lemma tab0_inv : tabInv n m A D (c1 n m) (mkT rows0 (m_obj1 n m rows0)) (seq (n + m) m).
Proof.
  split; [apply rows0_inv|]. cbn [t_rows t_obj].
  destruct (obj1_prefix m (le_n _)) as [_ [Hl Hg]].
  assert (Ef : firstn m rows0 = rows0) by (apply firstn_all2; rewrite m_rows_length; lia).
  rewrite Ef in Hl, Hg. change (fst (fold_left (obj1_step n m) rows0 (repeat 0 (S (n + m + m)), O))) with (m_obj1 n m rows0) in Hl, Hg.
  split; [exact Hl|]. intros j. rewrite Hg.
  rewrite (sumN_ext (fun k => c1 n m (nth k (seq (n + m) m) O) * ent rows0 k j) (fun k => ent rows0 k j)).
  2:{ intros k Hk. rewrite seq_nth by lia. unfold c1.
      replace (in_range (n + m) (n + m + m) (n + m + k)) with true by (symmetry; apply in_range_true; lia). ring. }
  unfold c1. destruct (in_range (n + m) (n + m + m) j) eqn:E.
  - apply in_range_true in E.
    rewrite (sumN_ext _ (fun k => if Nat.eqb k (j - (n + m)) then 1 else 0)).
    + rewrite sumN_delta by lia. ring.
    + intros k Hk. replace j with (n + m + (j - (n + m)))%nat at 1 by lia.
      rewrite (row0_a k (j - (n + m))) by lia. rewrite Nat.eqb_sym. reflexivity.
  - ring.
Qed.

Lemma rows0_primal : forallb (Z.leb 0) demands = true -> primal n m rows0.
Proof.
  intros Hd k Hk. unfold NN. rewrite (row0_d k Hk). unfold demD, z2q.
  rewrite forallb_forall in Hd. assert (Hin : In (getz demands k) demands) by (unfold getz; apply nth_In; exact Hk).
  specialize (Hd _ Hin). apply Z.leb_le in Hd. rewrite <- (Zle_Qle 0). exact Hd.
Qed.

Lemma basis0_bound : basisBound n m (seq (n + m) m).
Proof. intros k Hk. rewrite seq_nth by exact Hk. lia. Qed.

End Init.

Section Tab.
Variables (n m : nat) (A : nat -> nat -> Q) (D : nat -> Q).
Notation NN := (NN n m).
Notation rowsInv := (rowsInv n m A D).

Lemma obj20_get : forall j, getq (repeat 1 n ++ repeat 0 (S (m + m))) j = c0 n j.
Proof.
  intros j. unfold c0. destruct (Nat.ltb j n) eqn:E.
  - apply Nat.ltb_lt in E. rewrite getq_app1 by (rewrite repeat_length; exact E). apply getq_repeat. exact E.
  - apply Nat.ltb_ge in E. rewrite getq_app2 by (rewrite repeat_length; exact E). apply getq_repeat0.
Qed.

Lemma obj20_ObjInv : ObjInv n m A D (repeat 1 n ++ repeat 0 (S (m + m))).
Proof.
  assert (Hmu : forall i, mu n m (repeat 1 n ++ repeat 0 (S (m + m))) i = 0).
  { intros i. unfold mu. rewrite obj20_get. unfold c0. replace (Nat.ltb (n + m + i) n) with false; [reflexivity|].
    symmetry. apply Nat.ltb_ge. lia. }
  assert (Hs : forall W, sumN (fun i => mu n m (repeat 1 n ++ repeat 0 (S (m + m))) i * W i) 0 m == 0).
  { intros W. rewrite (sumN_ext _ (fun _ => 0)); [apply sumN_zero|]. intros i _. rewrite Hmu. ring. }
  split; [rewrite app_length, !repeat_length; unfold DeepInv.NN; lia|]. split; [|split].
  - intros j Hj. rewrite Hs, obj20_get. unfold c0. apply Nat.ltb_lt in Hj. rewrite Hj. ring.
  - intros i Hi. rewrite Hmu, obj20_get. unfold c0. replace (Nat.ltb (n + i) n) with false; [ring|].
    symmetry. apply Nat.ltb_ge. lia.
  - rewrite Hs, obj20_get. unfold c0, DeepInv.NN. replace (Nat.ltb (n + m + m) n) with false; [reflexivity|].
    symmetry. apply Nat.ltb_ge. lia.
Qed.

Lemma obj2_step_comb : forall basis acc s r, length r = length acc ->
  comb (fst (obj2_step 0 n basis (acc, s) r)) acc (c0 n (nth s basis O)) r.
Proof.
  intros basis acc s r Hl. unfold obj2_step, c0. cbn [fst snd].
  destruct (Nat.ltb (nth s basis O) n).
  - change (Qltb 0 (Qabs 1)) with true. cbv iota. apply comb_vsubmul. exact Hl.
  - change (Qltb 0 (Qabs 0)) with false. cbv iota. split; [reflexivity|]. intros j. ring.
Qed.

Lemma fold_obj2 : forall basis l s acc,
  Forall (Lin n m A D) l -> ObjInv n m A D acc ->
  ObjInv n m A D (fst (fold_left (obj2_step 0 n basis) l (acc, s))) /\
  forall j, getq (fst (fold_left (obj2_step 0 n basis) l (acc, s))) j ==
            getq acc j - sumN (fun k => c0 n (nth k basis O) * getq (nth (k - s) l []) j) s (length l).
Proof.
  intros basis l. induction l as [|r l IH]; intros s acc HL HO.
  - simpl. split; [exact HO|]. intros j. ring.
  - apply Forall_cons_iff in HL. destruct HL as [Hr HL].
    assert (Hlen : length r = length acc) by (destruct Hr as [L1 _]; destruct HO as [L2 _]; lia).
    pose proof (obj2_step_comb basis acc s r Hlen) as Hc.
    cbn [fold_left].
    assert (Est : obj2_step 0 n basis (acc, s) r = (fst (obj2_step 0 n basis (acc, s) r), S s)) by reflexivity.
    rewrite Est.
    assert (HO' : ObjInv n m A D (fst (obj2_step 0 n basis (acc, s) r))) by (apply (ObjInv_comb n m A D _ acc (c0 n (nth s basis O)) r); assumption).
    destruct (IH (S s) _ HL HO') as [H1 H2]. split; [exact H1|].
    intros j. rewrite H2. destruct Hc as [_ Hc]. rewrite Hc. cbn [length sumN].
    rewrite Nat.sub_diag. cbn [nth].
    rewrite (sumN_ext (fun k => c0 n (nth k basis O) * getq (nth (k - s) (r :: l) []) j)
                      (fun k => c0 n (nth k basis O) * getq (nth (k - S s) l []) j) (length l) (S s)).
    + ring.
    + intros k Hk. replace (k - s)%nat with (S (k - S s)) by lia. reflexivity.
Qed.

Lemma m_obj2_inv : forall rows basis, rowsInv rows basis ->
  ObjInv n m A D (m_obj2 0 n m basis rows) /\ objInv2 m (c0 n) rows basis (m_obj2 0 n m basis rows).
Proof.
  intros rows basis [Hlen [Hbl [HL Hc]]]. unfold m_obj2.
  destruct (fold_obj2 basis rows 0 _ HL obj20_ObjInv) as [H1 H2]. split; [exact H1|].
  intros j. rewrite H2, obj20_get, Hlen. apply Qplus_comp; [reflexivity|]. apply Qopp_comp.
  apply sumN_ext. intros k _. rewrite Nat.sub_0_r. reflexivity.
Qed.

Lemma argmax_abs_spec : forall basis k r j best e ax,
  argmax_abs basis k j r best = Some (e, ax) ->
  best = Some (e, ax) \/ ((j <= e < j + k)%nat /\ ax = Qabs (nth (e - j) r 0)).
Proof.
  intros basis k. induction k as [|k IH]; intros r j best e ax H; simpl in H; [left; exact H|].
  destruct r as [|x r]; [left; exact H|].
  apply IH in H. destruct H as [H|[H1 H2]].
  - destruct (mem_nat j basis); [left; exact H|].
    destruct best as [[bj bx]|].
    + destruct (Qltb bx (Qabs x)); [|left; exact H].
      inversion H; subst. right. split; [lia|]. rewrite Nat.sub_diag. reflexivity.
    + inversion H; subst. right. split; [lia|]. rewrite Nat.sub_diag. reflexivity.
  - right. split; [lia|]. replace (e - j)%nat with (S (e - S j)) by lia. exact H2.
Qed.

(* a step does nothing, or pivots a row whose basic variable is artificial on a non-zero entry of an original column *)
Lemma drive_step_cases : forall n_orig T basis i,
  drive_step 0 n_orig (T, basis) i = (T, basis) \/
  exists e, (n_orig <= nth i basis O)%nat /\ (e < n_orig)%nat /\ ~ ent (t_rows T) i e == 0 /\
            drive_step 0 n_orig (T, basis) i = pivot 0 T basis i e.
Proof.
  intros n_orig T basis i. unfold drive_step.
  destruct (Nat.ltb (nth i basis O) n_orig) eqn:Elt; [left; reflexivity|]. apply Nat.ltb_ge in Elt.
  destruct (argmax_abs basis n_orig 0 (nth i (t_rows T) []) None) as [[e ax]|] eqn:Ea; [|left; reflexivity].
  destruct (Qltb 0 ax) eqn:Eq; [|left; reflexivity].
  destruct (argmax_abs_spec _ _ _ _ _ _ _ Ea) as [Hb|[He Hax]]; [discriminate|].
  rewrite Nat.sub_0_r in Hax. apply Qltb_lt in Eq.
  right. exists e. split; [exact Elt|]. split; [lia|]. split; [|reflexivity].
  unfold ent, getq. intros Hz. rewrite Hax, Hz in Eq. apply (Qlt_irrefl 0). exact Eq.
Qed.

Lemma drive_ind : forall n_orig n_rows (P : tableau -> list nat -> Prop),
  (forall T basis i e T' basis', P T basis -> (i < n_rows)%nat -> (n_orig <= nth i basis O)%nat -> (e < n_orig)%nat ->
     ~ ent (t_rows T) i e == 0 -> pivot 0 T basis i e = (T', basis') -> P T' basis') ->
  forall T basis, P T basis ->
  P (fst (drive_out_artificials 0 n_orig n_rows T basis)) (snd (drive_out_artificials 0 n_orig n_rows T basis)).
Proof.
  intros n_orig n_rows P Hstep T basis HP. unfold drive_out_artificials.
  assert (Hgen : forall l st, (forall i, In i l -> (i < n_rows)%nat) -> P (fst st) (snd st) ->
            P (fst (fold_left (drive_step 0 n_orig) l st)) (snd (fold_left (drive_step 0 n_orig) l st))).
  { induction l as [|i l IH]; intros [T0 b0] Hl Hst; [exact Hst|]. cbn [fold_left]. apply IH.
    - intros i' Hi'. apply Hl. right. exact Hi'.
    - destruct (drive_step_cases n_orig T0 b0 i) as [->|[e [Hb [He [Hp ->]]]]]; [exact Hst|].
      destruct (pivot 0 T0 b0 i e) as [T1 b1] eqn:Ep.
      apply (Hstep T0 b0 i e T1 b1 Hst (Hl i (or_introl eq_refl)) Hb He Hp Ep). }
  apply Hgen; [|exact HP]. intros i Hi. apply in_seq in Hi. lia.
Qed.

Lemma drive_rows : forall T basis,
  rowsInv (t_rows T) basis ->
  rowsInv (t_rows (fst (drive_out_artificials 0 (n + m) m T basis))) (snd (drive_out_artificials 0 (n + m) m T basis)).
Proof.
  apply (drive_ind (n + m) m (fun T basis => rowsInv (t_rows T) basis)).
  intros [rows obj] basis i e T' basis' HR Hi _ _ Hp Ep. apply (pivot_rows n m A D _ _ _ _ _ _ _ Ep HR Hi Hp).
Qed.

(* the rows whose basic variable is artificial have right-hand side 0 *)
Definition artz (rows : list row) (basis : list nat) : Prop :=
  forall k, (k < m)%nat -> (n + m <= nth k basis O)%nat -> ent rows k NN == 0.

Lemma art_zero : forall rows basis obj,
  primal n m rows -> basisBound n m basis -> objInv2 m (c1 n m) rows basis obj ->
  ~ getq obj NN < 0 -> artz rows basis.
Proof.
  intros rows basis obj HP HB HO Hnn k Hk Hbk.
  pose proof (HO NN) as E.
  assert (Ec : c1 n m NN = 0).
  { unfold c1. replace (in_range (n + m) (n + m + m) NN) with false; [reflexivity|]. symmetry. apply in_range_false. unfold DeepInv.NN. lia. }
  rewrite Ec in E.
  assert (Hs : sumN (fun k => c1 n m (nth k basis O) * ent rows k NN) 0 m <= 0).
  { apply Qnot_lt_le in Hnn. lra. }
  assert (Hz : c1 n m (nth k basis O) * ent rows k NN == 0).
  { apply (sumN_nonneg_le0 (fun k => c1 n m (nth k basis O) * ent rows k NN) m 0); [|exact Hs|lia].
    intros i Hi. assert (Hi' : (i < m)%nat) by lia. specialize (HP i Hi'). unfold c1.
    destruct (in_range (n + m) (n + m + m) (nth i basis O)); lra. }
  unfold c1 in Hz. replace (in_range (n + m) (n + m + m) (nth k basis O)) with true in Hz; [lra|].
  symmetry. apply in_range_true. specialize (HB k Hk). lia.
Qed.

(* what holds after a phase 1 that ended with objective value >= 0, for non-negative demands *)
Definition DInv (rows : list row) (basis : list nat) : Prop :=
  rowsInv rows basis /\ primal n m rows /\ basisBound n m basis /\ artz rows basis.

Lemma drive_DInv : forall T basis,
  DInv (t_rows T) basis ->
  DInv (t_rows (fst (drive_out_artificials 0 (n + m) m T basis))) (snd (drive_out_artificials 0 (n + m) m T basis)).
Proof.
  apply (drive_ind (n + m) m (fun T basis => DInv (t_rows T) basis)).
  intros [rows obj] basis i e T' basis' [HR [HP [HB HZ]]] Hi Hbi He Hp Ep. cbn [t_rows] in *.
  pose proof (pivot_rhs_zero n m A D _ _ _ _ _ _ _ Ep HR Hi Hp (HZ i Hi Hbi)) as Hrhs.
  destruct HR as [Hlen [Hbl [HL Hc]]].
  destruct (pivot_entries n m A D _ _ _ _ _ _ _ Ep Hlen HL Hi) as [Eb _].
  assert (HR : rowsInv rows basis) by (split; [exact Hlen | split; [exact Hbl | split; [exact HL | exact Hc]]]).
  split; [apply (pivot_rows n m A D _ _ _ _ _ _ _ Ep HR Hi Hp)|]. split; [|split].
  - intros k Hk. rewrite (Hrhs k Hk). apply HP. exact Hk.
  - apply (pivot_basisBound n m A D _ _ _ _ _ _ _ Ep HR Hi HB). lia.
  - rewrite Eb. intros k Hk Hbk. rewrite (Hrhs k Hk).
    destruct (Nat.eq_dec k i) as [->|Hne].
    + rewrite set_nth_same in Hbk by lia. lia.
    + rewrite set_nth_other in Hbk by exact Hne. apply HZ; assumption.
Qed.

End Tab.
