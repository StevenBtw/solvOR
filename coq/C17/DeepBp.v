(* C17 deep - the ROOT of the solve_bp model, eps = 0: an OPTIMAL answer given before the tree search is minimal
   (`bp_root_optimal_sound`).  OPTIMAL is claimed against the bound ceil(root LP) of a converged root, which the root's dual
   vector certifies (`min_of_root_bound`, shared with the tree search); the answer has at most that many rolls because it
   passed `proven` under gap_ok, or because the root LP was integral and the plan built from x has exactly lp rolls. *)
From Coq Require Import List Qabs Qround Lia Lqa.
From SV Require Import C17.Cg C17.CgSpec C17.Bp C17.GateProofs C17.PoolProofs C17.BpGateProofs C17.OptimalProofs
                       C17.DeepSum C17.DeepMaster.
Import ListNotations.

(* the loop reports convergence only from a master LP with a finite value whose pricing found no improving column *)
Lemma node_loop_conv : forall eps sizes width demands fuel it cols res,
  node_loop eps true (cs_pricing eps sizes width) demands fuel it cols = Some res ->
  match res with
  | inl (_, _, _, _, _, conv) => conv = false
  | inr (cols', _, true) =>
      exists x duals o np pv,
        master_lp true eps cols' demands = Some (x, duals, Some o) /\
        knapsack_pricing eps sizes width duals = Some (np, pv) /\ Qleb pv (1 + eps) = true
  | inr _ => True
  end.
Proof.
  intros eps sizes width demands fuel. induction fuel as [|fuel IH]; intros it cols res H; cbn [node_loop] in H.
  - injection H as <-. exact I.
  - destruct (master_lp true eps cols demands) as [[[x duals] [lp|]]|] eqn:Em; [| |discriminate].
    + unfold cs_pricing in H at 1.
      destruct (knapsack_pricing eps sizes width duals) as [[np pv]|] eqn:Ek; [|discriminate].
      destruct (Qleb pv (1 + eps)) eqn:Eq; [|exact (IH _ _ _ H)].
      injection H as <-. exists x, duals, lp, np, pv. repeat split; assumption.
    + injection H as <-. reflexivity.
Qed.

Lemma solve_node_lp_conv : forall eps sizes width demands max_iter cols cols' x duals lp it,
  solve_node_lp eps true (cs_pricing eps sizes width) demands max_iter cols = Some (cols', x, duals, lp, it, true) ->
  master_lp true eps cols' demands = Some (x, duals, lp) /\
  exists np pv, knapsack_pricing eps sizes width duals = Some (np, pv) /\ Qleb pv (1 + eps) = true.
Proof.
  intros eps sizes width demands max_iter cols cols' x duals lp it H. unfold solve_node_lp in H.
  destruct (node_loop eps true (cs_pricing eps sizes width) demands max_iter 0 cols) as [res|] eqn:En; [|discriminate].
  destruct res as [[[[[[c1 x1] d1] l1] i1] b1]|[[c2 i2] b2]].
  all: apply node_loop_conv in En.
  - injection H as _ _ _ _ _ ->. discriminate.
  - destruct (master_lp true eps c2 demands) as [[[x2 d2] l2]|] eqn:Em; [|discriminate].
    injection H as -> -> -> -> _ ->. split; [exact Em|].
    destruct En as (x' & duals' & o & np & pv & Em' & Ek & Hpv).
    injection Em' as <- <- _. exists np, pv. split; assumption.
Qed.

(* the decisions read backwards.  OPTIMAL needs `proven`, which needs a root bound, i.e. a converged root *)
Lemma root_decision_optimal : forall gap demands cols x lp it conv sol obj it',
  root_decision 0 gap demands cols x lp it conv = BpDone OPTIMAL (Some sol) (Some obj) it' ->
  conv = true /\
  (proven gap (Some (Qceil (lp - 0))) (inject_Z obj) = true \/
   (most_fractional 0 0 x (None, 0%Q) = None /\ obj = plan_total (build_solution 0 cols x))).
Proof.
  intros gap demands cols x lp it conv sol obj it' H. unfold root_decision in H.
  destruct conv; [split; [reflexivity|] | exfalso].
  - destruct (most_fractional 0 0 x (None, 0%Q)) eqn:Emf;
      [|destruct (covers (build_solution 0 cols x) demands); [right; split; [reflexivity | congruence]|]];
      (destruct (round_solution 0 cols x demands) as [[s t]|]; [|discriminate]);
      (destruct (proven gap _ (inject_Z t)) eqn:Ep; [|discriminate]); left; congruence.
  - cbn [proven] in H.
    destruct (most_fractional 0 0 x (None, 0%Q)); [|destruct (covers (build_solution 0 cols x) demands); [discriminate|]];
      destruct (round_solution 0 cols x demands) as [[s t]|]; discriminate.
Qed.

Lemma min_of_root_bound : forall sizes width demands mi cols0 cols x duals lp it sol obj,
  length sizes = length demands -> valid_sizes sizes width = true -> (0 <= width)%Z ->
  solve_node_lp 0 true (cs_pricing 0 sizes width) demands mi cols0 = Some (cols, x, duals, Some lp, it, true) ->
  plan_ok sizes width demands sol obj = true -> (obj <= Qceil lp)%Z ->
  is_min (fits sizes width) demands obj.
Proof.
  intros sizes width demands mi cols0 cols x duals lp it sol obj El Ev Hw En Hok Hle.
  destruct (solve_node_lp_conv _ _ _ _ _ _ _ _ _ _ _ En) as [Em [np [pv [Ek Hpv]]]].
  apply Qleb_le in Hpv. rewrite Qplus_0_r in Hpv.
  pose proof (master_lp_duals_length _ _ _ _ _ _ _ Em) as Hld.
  destruct (master_lp_duals_ok true _ _ _ _ _ Em) as [Hy [_ Hlp]]. specialize (Hlp lp eq_refl).
  apply (certified_min sizes width demands sol obj duals Hok).
  unfold dual_cert_check. apply orb_true_iff. right.
  rewrite Ek. repeat (apply andb_true_iff; split).
  - apply Nat.eqb_eq. lia.
  - apply Nat.eqb_eq. lia.
  - exact Ev.
  - apply Z.leb_le. exact Hw.
  - apply forallb_Qleb0_intro. exact Hy.
  - apply Qleb_le. exact Hpv.
  - apply Z.leb_le. unfold Qceil in Hle. rewrite Hlp in Hle. exact Hle.
Qed.

(* the answers that come from the rounded incumbent: `proven` + a gap tolerance below 1/obj gives the bound *)
Definition gap_ok (gap : Q) (obj : Z) : bool := Qleb (gap * qmax (Qabs (inject_Z obj)) (1 # 10000000000)) 1.

Lemma qmax_pos_r : forall a b, (0 < b)%Q -> (0 < qmax a b)%Q.
Proof.
  intros a b Hb. unfold qmax. destruct (Qleb a b) eqn:E; [exact Hb|].
  destruct (Qlt_le_dec b a) as [Hlt|Hle]; [eapply Qlt_trans; [exact Hb | exact Hlt]|].
  apply Qleb_le in Hle. rewrite Hle in E. discriminate.
Qed.

Lemma proven_bound : forall gap rb obj,
  gap_ok gap obj = true -> proven gap (Some rb) (inject_Z obj) = true -> (obj <= rb)%Z.
Proof.
  intros gap rb obj Hg Hp. unfold gap_ok in Hg. apply Qleb_le in Hg. unfold proven in Hp.
  apply andb_true_iff in Hp. destruct Hp as [_ Hp]. apply Qltb_lt in Hp.
  set (M := qmax (Qabs (inject_Z obj)) (1 # 10000000000)) in *.
  assert (HM : (0 < M)%Q) by (apply qmax_pos_r; reflexivity).
  assert (H1 : (inject_Z obj - inject_Z rb < gap * M)%Q).
  { apply (Qmult_lt_r _ _ M HM) in Hp.
    assert (E : ((inject_Z obj - inject_Z rb) / M * M == inject_Z obj - inject_Z rb)%Q) by (field; lra).
    rewrite E in Hp. exact Hp. }
  assert (H2 : (inject_Z obj < inject_Z (rb + 1))%Q).
  { rewrite inject_Z_plus. change (inject_Z 1) with 1%Q. lra. }
  rewrite <- Zlt_Qlt in H2. lia.
Qed.

Lemma proven_ceil : forall gap lp obj,
  gap_ok gap obj = true -> proven gap (Some (Qceil (lp - 0))) (inject_Z obj) = true -> (obj <= Qceil lp)%Z.
Proof.
  intros gap lp obj Hg Hp. pose proof (proven_bound gap _ obj Hg Hp) as Hle. unfold Qceil in *.
  assert (E : (lp - 0 == lp)%Q) by ring. rewrite E in Hle. exact Hle.
Qed.

Open Scope Q_scope.

Lemma Qfloor_unique : forall y z, inject_Z z <= y -> y < inject_Z (z + 1) -> Qfloor y = z.
Proof.
  intros y z H1 H2. pose proof (Qfloor_le y) as F1. pose proof (Qlt_floor y) as F2.
  assert (A1 : inject_Z (Qfloor y) < inject_Z (z + 1)) by (eapply Qle_lt_trans; eassumption).
  assert (A2 : inject_Z z < inject_Z (Qfloor y + 1)) by (eapply Qle_lt_trans; eassumption).
  rewrite <- Zlt_Qlt in A1, A2. lia.
Qed.

Lemma frac_zero_integral : forall v, frac_part v <= 0 -> v == inject_Z (Qfloor v).
Proof.
  intros v H. unfold frac_part in H. cbv zeta in H.
  pose proof (Qfloor_le v) as F1. pose proof (Qlt_floor v) as F2.
  rewrite inject_Z_plus in F2. change (inject_Z 1) with 1 in F2.
  unfold qmin in H. destruct (Qleb (v - inject_Z (Qfloor v)) (1 - (v - inject_Z (Qfloor v)))); lra.
Qed.

Lemma round_integral : forall v, v == inject_Z (Qfloor v) -> round_nearest v = Qfloor v.
Proof.
  intros v H. unfold round_nearest. apply Qfloor_unique.
  - rewrite <- H. lra.
  - rewrite inject_Z_plus. change (inject_Z 1) with 1. rewrite <- H. lra.
Qed.

Lemma mf_some : forall xs i best k, fst best = Some k -> most_fractional 0 i xs best <> None.
Proof.
  induction xs as [|x xs IH]; intros i best k H; cbn [most_fractional].
  - rewrite H. discriminate.
  - destruct (Qltb 0 x); [|apply (IH _ _ k H)].
    destruct (Qltb 0 (frac_part x) && Qltb (snd best) (frac_part x))%bool; [apply (IH _ _ i); reflexivity | apply (IH _ _ k H)].
Qed.

Lemma mf_none : forall xs i b, most_fractional 0 i xs (None, b) = None ->
  forall v, In v xs -> 0 < v -> ~ (0 < frac_part v /\ b < frac_part v).
Proof.
  induction xs as [|x xs IH]; intros i b H v Hin Hv [H1 H2]; [destruct Hin|]. cbn [most_fractional] in H.
  destruct (Qltb 0 x) eqn:Ex.
  - cbn [snd] in H.
    destruct (Qltb 0 (frac_part x) && Qltb b (frac_part x))%bool eqn:Ef.
    + apply (mf_some xs (S i) (Some i, frac_part x) i eq_refl H).
    + destruct Hin as [->|Hin]; [|apply (IH _ _ H v Hin Hv); split; assumption].
      apply andb_false_iff in Ef. destruct Ef as [Ef|Ef]; apply Qltb_false in Ef; lra.
  - destruct Hin as [->|Hin]; [apply Qltb_false in Ex; lra | apply (IH _ _ H v Hin Hv); split; assumption].
Qed.

Definition bstep (sol : plan) (px : pattern * Q) : plan :=
  if Qltb 0 (snd px) then
    let count := round_nearest (snd px) in
    if Z.ltb 0 count then dict_set (fst px) count sol else sol
  else sol.

Fixpoint qsuml (l : list Q) : Q := match l with [] => 0 | v :: l' => v + qsuml l' end.

Lemma build_total : forall (cols : list pattern) xs sol,
  NoDup cols -> (forall k, In k (map fst sol) -> ~ In k cols) ->
  Forall (fun v => 0 <= v /\ (0 < v -> v == inject_Z (round_nearest v))) xs ->
  inject_Z (plan_total (fold_left bstep (combine cols xs) sol)) == inject_Z (plan_total sol) + qsuml (firstn (length cols) xs).
Proof.
  induction cols as [|p cols IH]; intros xs sol Hnd Hk Hx.
  - cbn [combine fold_left length firstn qsuml]. ring.
  - destruct xs as [|v xs]; [cbn [combine fold_left length firstn qsuml]; ring|].
    apply NoDup_cons_iff in Hnd. destruct Hnd as [Hnp Hnd]. apply Forall_cons_iff in Hx. destruct Hx as [[Hv0 Hvi] Hx].
    cbn [combine fold_left length firstn qsuml]. unfold bstep at 2. cbn [fst snd].
    destruct (Qltb 0 v) eqn:Ev.
    + apply Qltb_lt in Ev. specialize (Hvi Ev).
      assert (Hc : (0 < round_nearest v)%Z).
      { rewrite Hvi in Ev. change 0 with (inject_Z 0) in Ev. rewrite <- Zlt_Qlt in Ev. exact Ev. }
      cbv zeta. apply Z.ltb_lt in Hc. rewrite Hc.
      assert (Hfresh : ~ In p (map fst sol)) by (intros Hin; apply (Hk p Hin); left; reflexivity).
      rewrite (dict_set_fresh p _ sol Hfresh). rewrite IH; [|exact Hnd| |exact Hx].
      * rewrite !plan_total_rolls, rolls_app. cbn [rolls fold_right snd]. rewrite inject_Z_plus, Z.add_0_r.
        rewrite Hvi at 2. rewrite (plan_total_rolls sol). ring.
      * intros k Hin Hin'. rewrite map_app in Hin. apply in_app_or in Hin. destruct Hin as [Hin|[Hin|[]]].
        -- apply (Hk k Hin). right. exact Hin'.
        -- cbn [fst] in Hin. subst k. contradiction.
    + apply Qltb_false in Ev. rewrite IH; [|exact Hnd| |exact Hx].
      * assert (E0 : v == 0) by lra. rewrite E0. ring.
      * intros k Hin Hin'. apply (Hk k Hin). right. exact Hin'.
Qed.

Lemma qsuml_sumN : forall l, qsuml l == sumN (getq l) 0 (length l).
Proof.
  induction l as [|v l IH]; cbn [qsuml length sumN]; [reflexivity|].
  rewrite sumN_shift. rewrite IH. unfold getq at 2. cbn [nth]. apply Qplus_comp; [reflexivity|].
  apply sumN_ext. intros i _. reflexivity.
Qed.

(* an integral root LP: the plan built from x has lp rolls
   (primal side of the simplex: x is read off a primal-feasible optimal tableau, so sum x = lp) *)
Theorem integral_bound : forall (cols : list pattern) demands x y lp,
  master_lp true 0 cols demands = Some (x, y, Some lp) ->
  NoDup cols -> forallb (Z.leb 0) demands = true ->
  most_fractional 0 0 x (None, 0) = None ->
  (plan_total (build_solution 0 cols x) <= Qceil lp)%Z.
Proof.
  intros cols demands x y lp H Hnd Hd Hmf.
  destruct (master_lp_primal_ok true cols demands x y lp H Hd) as [Hl [Hnn Hsum]].
  assert (Hx : Forall (fun v => 0 <= v /\ (0 < v -> v == inject_Z (round_nearest v))) x).
  { apply Forall_forall. intros v Hin. split.
    - destruct (In_nth x v 0 Hin) as [p [_ Ep]]. rewrite <- Ep. apply (Hnn p).
    - intros Hv. pose proof (mf_none x 0 0 Hmf v Hin Hv) as Hf.
      assert (Hfr : frac_part v <= 0).
      { destruct (Qlt_le_dec 0 (frac_part v)) as [Hpos|Hle]; [exfalso; apply Hf; split; exact Hpos | exact Hle]. }
      pose proof (frac_zero_integral v Hfr) as Hi. rewrite (round_integral v Hi). exact Hi. }
  assert (Et : inject_Z (plan_total (build_solution 0 cols x)) == lp).
  { unfold build_solution. change (fold_left _ (combine cols x) []) with (fold_left bstep (combine cols x) []).
    rewrite (build_total cols x [] Hnd); [|intros k []|exact Hx].
    rewrite <- Hl, firstn_all. cbn [plan_total fold_right]. rewrite qsuml_sumN. rewrite Hl. rewrite Hsum.
    change (inject_Z 0) with 0. ring. }
  unfold Qceil. rewrite <- Et. rewrite Qceiling_Z. apply Z.le_refl.
Qed.

Close Scope Q_scope.

Theorem bp_root_optimal_sound : forall gap sizes width demands max_iter sol obj it,
  b_out (solve_bp_root 0 gap sizes width demands max_iter) = BpDone OPTIMAL (Some sol) (Some obj) it ->
  gap_ok gap obj = true ->
  is_min (fits sizes width) demands obj.
Proof.
  intros gap sizes width demands mi sol obj it H Hg.
  assert (He0 : (0 <= 0)%Q) by apply Qle_refl. assert (He1 : (0 < 1)%Q) by reflexivity.
  pose proof (solve_bp_root_gate 0 gap sizes width demands mi OPTIMAL sol obj it He0 He1 H) as Hok.
  destruct (solve_bp_root_cases 0 gap sizes width demands mi) as [[_ E]|[E|[E|[El [Ev [Hw [Hd [En Eout]]]]]]]]; cbv zeta in *.
  - rewrite E in H. injection H as <- <- _. apply (certified_min _ _ _ _ _ [] Hok). reflexivity.
  - rewrite E in H. discriminate.
  - rewrite E in H. discriminate.
  - set (R := solve_bp_root 0 gap sizes width demands mi) in *. rewrite Eout in H.
    destruct (b_lp R) as [lp|]; [|discriminate].
    destruct (root_decision_optimal _ _ _ _ _ _ _ _ _ _ H) as [Ec Hcase]. rewrite Ec in En.
    apply (min_of_root_bound sizes width demands mi _ _ _ _ _ _ sol obj El Ev Hw En Hok).
    destruct Hcase as [Hp|[Hmf ->]]; [exact (proven_ceil gap lp obj Hg Hp)|].
    destruct (solve_node_lp_conv _ _ _ _ _ _ _ _ _ _ _ En) as [Em _].
    destruct (solve_node_lp_pool_ok _ _ _ _ _ _ _ _ _ _ _ _ He0 He1 Hw (initial_patterns_ok _ _ demands Ev) En) as [_ Hnd].
    apply (integral_bound _ _ _ _ _ Em Hnd Hd Hmf).
Qed.
