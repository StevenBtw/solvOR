(* C17 deep - simplex_phase (eps = 0): what find_enter and the ratio test return, one induction over the phase for any
   invariant kept by the pivots it chooses (`phase_ind`), and its instances for the invariants of DeepInv.  Of the two
   exits, "no entering column" gives non-negative reduced costs on all x and surplus columns, and the silent
   "no leaving row" exit (unbounded direction) cannot happen while O2 holds for a non-negative cost row. *)
From Coq Require Import List Qabs Lia Lqa.
From SV Require Import C17.Cg C17.PoolProofs C17.DeepSum C17.DeepInv.
Import ListNotations.
Open Scope Q_scope.

Lemma find_enter_some : forall eps basis k oc j e,
  find_enter eps basis k j oc = Some e ->
  (j <= e < j + k)%nat /\ mem_nat e basis = false /\ Qltb (nth (e - j) oc 0) (- eps) = true.
Proof.
  intros eps basis k. induction k as [|k IH]; intros oc j e H; simpl in H; [discriminate|].
  destruct oc as [|x oc]; [discriminate|].
  destruct (negb (mem_nat j basis) && Qltb x (- eps))%bool eqn:E.
  - inversion H; subst. apply andb_true_iff in E. destruct E as [E1 E2]. apply negb_true_iff in E1.
    rewrite Nat.sub_diag. simpl. repeat split; try assumption; lia.
  - apply IH in H. destruct H as [H1 [H2 H3]]. split; [lia|]. split; [exact H2|].
    replace (e - j)%nat with (S (e - S j)) by lia. simpl. exact H3.
Qed.

Lemma find_enter_none : forall eps basis k oc j,
  find_enter eps basis k j oc = None ->
  forall t, (t < k)%nat -> (t < length oc)%nat -> mem_nat (j + t) basis = true \/ Qltb (nth t oc 0) (- eps) = false.
Proof.
  intros eps basis k. induction k as [|k IH]; intros oc j H t Ht Hl; [lia|]. simpl in H.
  destruct oc as [|x oc]; [simpl in Hl; lia|].
  destruct (negb (mem_nat j basis) && Qltb x (- eps))%bool eqn:E; [discriminate|].
  destruct t as [|t].
  - rewrite Nat.add_0_r. simpl. apply andb_false_iff in E. destruct E as [E|E]; [left; apply negb_false_iff; exact E | right; exact E].
  - simpl in Hl. replace (j + S t)%nat with (S j + t)%nat by lia. simpl nth. apply (IH oc (S j) H t); lia.
Qed.

Section Ratio.
Variables (basis : list nat) (e : nat) (rows : list row).
Let Ae (t : nat) : Q := ent rows t e.
Let Re (t : nat) : Q := lastq (nth t rows []) / Ae t.

(* state of the loop before row i: the candidate, its ratio, minimal among the rows seen *)
Definition RInv (i : nat) (st : option nat * option Q) : Prop :=
  match st with
  | (Some l, Some mr) => (l < i)%nat /\ 0 < Ae l /\ mr == Re l /\ forall t, (t < i)%nat -> 0 < Ae t -> mr <= Re t
  | (None, None) => forall t, (t < i)%nat -> ~ 0 < Ae t
  | _ => False
  end.

Lemma ratio_step_RInv : forall i st, RInv i st -> RInv (S i) (ratio_step 0 basis e i (nth i rows []) st).
Proof.
  intros i [ol omr] H. unfold ratio_step. cbn [fst snd]. fold (ent rows i e). fold (Ae i).
  assert (Hlt : forall t, (t < S i)%nat -> t = i \/ (t < i)%nat) by (intros; lia).
  destruct (Qltb 0 (Ae i)) eqn:Ea.
  - apply Qltb_lt in Ea.
    assert (Er : Qred (lastq (nth i rows []) / Ae i) == Re i) by (unfold Re; apply Qred_correct).
    destruct omr as [mr|].
    + destruct ol as [l|]; [|contradiction]. destruct H as [Hl [Hal [Hmr Hmin]]].
      destruct (Qltb (Qred (lastq (nth i rows []) / Ae i)) (mr - 0)) eqn:E1.
      * apply Qltb_lt in E1. cbn [RInv]. split; [lia|]. split; [exact Ea|]. split; [exact Er|].
        intros t Ht Hat. destruct (Hlt t Ht) as [->|Ht']; [rewrite Er; apply Qle_refl|].
        specialize (Hmin t Ht' Hat). lra.
      * apply Qltb_false in E1.
        destruct (Qleb (Qabs (Qred (lastq (nth i rows []) / Ae i) - mr)) 0) eqn:E2.
        -- apply Qleb_le, Qabs_nonpos in E2.
           assert (Hmi : mr == Re i) by (rewrite <- Er; lra).
           assert (Hmin' : forall t, (t < S i)%nat -> 0 < Ae t -> mr <= Re t).
           { intros t Ht Hat. destruct (Hlt t Ht) as [->|Ht']; [rewrite Hmi; apply Qle_refl | apply Hmin; assumption]. }
           destruct (Nat.ltb (nth i basis O) (nth l basis O)); cbn [RInv snd].
           ++ split; [lia|]. split; [exact Ea|]. split; [exact Hmi | exact Hmin'].
           ++ split; [lia|]. split; [exact Hal|]. split; [exact Hmr | exact Hmin'].
        -- cbn [RInv]. split; [lia|]. split; [exact Hal|]. split; [exact Hmr|].
           intros t Ht Hat. destruct (Hlt t Ht) as [->|Ht']; [rewrite <- Er; lra | apply Hmin; assumption].
    + destruct ol as [l|]; [contradiction|]. cbn [RInv]. split; [lia|]. split; [exact Ea|]. split; [exact Er|].
      intros t Ht Hat. destruct (Hlt t Ht) as [->|Ht']; [rewrite Er; apply Qle_refl | exfalso; apply (H t Ht' Hat)].
  - apply Qltb_false in Ea.
    destruct ol as [l|]; destruct omr as [mr|]; cbn [RInv] in *; try contradiction.
    + destruct H as [Hl [Hal [Hmr Hmin]]]. split; [lia|]. split; [exact Hal|]. split; [exact Hmr|].
      intros t Ht Hat. destruct (Hlt t Ht) as [->|Ht']; [exfalso; lra | apply Hmin; assumption].
    + intros t Ht Hat. destruct (Hlt t Ht) as [->|Ht']; [lra | apply (H t Ht' Hat)].
Qed.

Lemma ratio_loop_RInv : forall rs i st,
  (forall t, (t < length rs)%nat -> nth t rs [] = nth (i + t) rows []) ->
  RInv i st -> RInv (i + length rs) (ratio_loop 0 basis e i rs st).
Proof.
  intros rs. induction rs as [|r rs IH]; intros i st Hrs H; cbn [ratio_loop length].
  - rewrite Nat.add_0_r. exact H.
  - replace (i + S (length rs))%nat with (S i + length rs)%nat by lia. apply IH.
    + intros t Ht. replace (S i + t)%nat with (i + S t)%nat by lia. rewrite <- (Hrs (S t)) by (simpl; lia). reflexivity.
    + assert (Er : r = nth i rows []) by (rewrite <- (Nat.add_0_r i); rewrite <- (Hrs O) by (simpl; lia); reflexivity).
      rewrite Er. apply ratio_step_RInv. exact H.
Qed.

Lemma find_leave_spec : forall obj,
  match find_leave 0 basis (mkT rows obj) e with
  | Some l => (l < length rows)%nat /\ 0 < ent rows l e /\
              forall t, (t < length rows)%nat -> 0 < ent rows t e ->
                        lastq (nth l rows []) / ent rows l e <= lastq (nth t rows []) / ent rows t e
  | None => forall t, (t < length rows)%nat -> ent rows t e <= 0
  end.
Proof.
  intros obj. unfold find_leave. cbn [t_rows].
  assert (H0 : RInv 0 (None, None)) by (intros t0 Ht0; lia).
  pose proof (ratio_loop_RInv rows 0 (None, None) (fun t _ => eq_refl) H0) as HI. cbn [Nat.add] in HI.
  destruct (ratio_loop 0 basis e 0 rows (None, None)) as [[l|] [mr|]]; cbn [fst RInv] in *; try contradiction.
  - destruct HI as [Hl [Hal [Hmr Hmin]]]. split; [exact Hl|]. split; [exact Hal|].
    intros t Ht Hat. change (Re l <= Re t). rewrite <- Hmr. apply Hmin; assumption.
  - intros t Ht. apply Qnot_lt_le. apply HI. exact Ht.
Qed.

End Ratio.

(* the pivots of a phase: a column with negative reduced cost, a row of minimum ratio with positive pivot element *)
Definition chosen (n_orig : nat) (T : tableau) (l e : nat) : Prop :=
  (e < n_orig)%nat /\ getq (t_obj T) e < 0 /\ (l < length (t_rows T))%nat /\ 0 < ent (t_rows T) l e /\
  forall t, (t < length (t_rows T))%nat -> 0 < ent (t_rows T) t e ->
            lastq (nth l (t_rows T) []) / ent (t_rows T) l e <= lastq (nth t (t_rows T) []) / ent (t_rows T) t e.

Lemma phase_ind : forall n_orig (P : tableau -> list nat -> Prop),
  (forall T basis l e T' basis', P T basis -> chosen n_orig T l e -> pivot 0 T basis l e = (T', basis') -> P T' basis') ->
  forall fuel T basis T' basis' ok, P T basis -> simplex_phase 0 fuel n_orig T basis = (T', basis', ok) ->
  P T' basis' /\
  (ok = true -> find_enter 0 basis' n_orig 0 (t_obj T') = None \/
                exists e, getq (t_obj T') e < 0 /\ forall k, (k < length (t_rows T'))%nat -> ent (t_rows T') k e <= 0).
Proof.
  intros n_orig P Hstep. induction fuel as [|fuel IH]; intros T basis T' basis' ok HP H; cbn [simplex_phase] in H.
  - inversion H; subst. split; [exact HP | discriminate].
  - destruct (find_enter 0 basis n_orig 0 (t_obj T)) as [e|] eqn:Efe.
    2:{ inversion H; subst. split; [exact HP | intros _; left; exact Efe]. }
    destruct (find_enter_some _ _ _ _ _ _ Efe) as [[_ He] [_ Hq]]. apply Qltb_lt in Hq. rewrite Nat.sub_0_r in Hq.
    assert (Hneg : getq (t_obj T) e < 0) by (unfold getq; lra).
    pose proof (find_leave_spec basis e (t_rows T) (t_obj T)) as Hfl.
    replace (mkT (t_rows T) (t_obj T)) with T in Hfl by (destruct T; reflexivity).
    destruct (find_leave 0 basis T e) as [l|].
    + destruct Hfl as [Hl [Hpos Hmin]]. destruct (pivot 0 T basis l e) as [T1 b1] eqn:Ep.
      apply (IH T1 b1 T' basis' ok); [|exact H].
      apply (Hstep T basis l e T1 b1 HP); [|exact Ep]. repeat split; assumption.
    + inversion H; subst. split; [exact HP|]. intros _. right. exists e. split; [exact Hneg | exact Hfl].
Qed.

Section Phase.
Variables (n m : nat) (A : nat -> nat -> Q) (D : nat -> Q).
Notation NN := (NN n m).
Notation rowsInv := (rowsInv n m A D).
Notation ObjInv := (ObjInv n m A D).
Notation objInv2 := (objInv2 m).

(* R1, R2 and O2 for the cost row c *)
Definition tabInv (c : nat -> Q) (T : tableau) (basis : list nat) : Prop :=
  rowsInv (t_rows T) basis /\ length (t_obj T) = S NN /\ objInv2 c (t_rows T) basis (t_obj T).

Lemma chosen_pivot : forall T basis l e, rowsInv (t_rows T) basis -> chosen (n + m) T l e ->
  (l < m)%nat /\ ~ ent (t_rows T) l e == 0.
Proof.
  intros T basis l e [Hlen _] [_ [_ [Hl [Hpos _]]]]. split; [lia|].
  intros Hz. rewrite Hz in Hpos. apply (Qlt_irrefl 0). exact Hpos.
Qed.

(* under O2 with c >= 0 a column with negative reduced cost has a positive entry *)
Lemma no_unbounded : forall c rows basis obj e, (forall j, 0 <= c j) ->
  objInv2 c rows basis obj -> getq obj e < 0 -> (forall k, (k < m)%nat -> ent rows k e <= 0) -> False.
Proof.
  intros c rows basis obj e Hc HO Hneg Hcol.
  assert (HS : sumN (fun k => c (nth k basis O) * ent rows k e) 0 m <= 0).
  { apply sumN_nonpos. intros k Hk. assert (Hk' : (k < m)%nat) by lia. specialize (Hcol k Hk').
    pose proof (Hc (nth k basis O)) as H0.
    assert (Hm : ent rows k e * c (nth k basis O) <= 0 * c (nth k basis O)) by (apply Qmult_le_compat_r; assumption).
    lra. }
  pose proof (HO e) as He. pose proof (Hc e). lra.
Qed.

Lemma phase_obj : forall c fuel T basis T' basis' ok,
  tabInv c T basis -> simplex_phase 0 fuel (n + m) T basis = (T', basis', ok) ->
  tabInv c T' basis' /\ (ok = true -> (forall j, 0 <= c j) -> find_enter 0 basis' (n + m) 0 (t_obj T') = None).
Proof.
  intros c fuel T basis T' basis' ok HI H.
  destruct (phase_ind (n + m) (tabInv c)) with (2 := HI) (3 := H) as [HI' Hexit].
  - clear. intros [rows obj] basis l e T' basis' [HR [Lo HO]] Hch Ep. cbn [t_rows t_obj] in *.
    destruct (chosen_pivot (mkT rows obj) _ _ _ HR Hch) as [Hl Hp]. split.
    + apply (pivot_rows n m A D _ _ _ _ _ _ _ Ep HR Hl Hp).
    + apply (pivot_obj n m A D _ _ _ _ _ _ _ Ep HR Hl Hp c Lo HO).
  - split; [exact HI'|]. intros Hok Hc. destruct (Hexit Hok) as [Hfe|[e [Hneg Hcol]]]; [exact Hfe|].
    exfalso. destruct HI' as [[Hlen _] [_ HO]]. rewrite Hlen in Hcol. apply (no_unbounded c _ _ _ e Hc HO Hneg Hcol).
Qed.

Lemma phase_ObjInv : forall fuel T basis T' basis' ok,
  rowsInv (t_rows T) basis -> ObjInv (t_obj T) -> simplex_phase 0 fuel (n + m) T basis = (T', basis', ok) ->
  ObjInv (t_obj T').
Proof.
  intros fuel T basis T' basis' ok HR HO H.
  apply (phase_ind (n + m) (fun T basis => rowsInv (t_rows T) basis /\ ObjInv (t_obj T))) with (2 := conj HR HO) (3 := H).
  clear. intros [rows obj] basis l e T' basis' [HR HO] Hch Ep. cbn [t_rows t_obj] in *.
  destruct (chosen_pivot (mkT rows obj) _ _ _ HR Hch) as [Hl Hp]. split.
  - apply (pivot_rows n m A D _ _ _ _ _ _ _ Ep HR Hl Hp).
  - apply (pivot_ObjInv n m A D _ _ _ _ _ _ _ Ep HR Hl Hp HO).
Qed.

Lemma phase_primal : forall fuel T basis T' basis' ok,
  rowsInv (t_rows T) basis -> primal n m (t_rows T) -> basisBound n m basis ->
  simplex_phase 0 fuel (n + m) T basis = (T', basis', ok) ->
  primal n m (t_rows T') /\ basisBound n m basis'.
Proof.
  intros fuel T basis T' basis' ok HR HP HB H.
  apply (phase_ind (n + m) (fun T basis => rowsInv (t_rows T) basis /\ primal n m (t_rows T) /\ basisBound n m basis))
    with (2 := conj HR (conj HP HB)) (3 := H).
  clear. intros [rows obj] basis l e T' basis' [HR [HP HB]] Hch Ep. cbn [t_rows t_obj] in *.
  destruct (chosen_pivot (mkT rows obj) _ _ _ HR Hch) as [Hl Hp]. destruct Hch as [He [_ [_ [Hpos Hmin]]]]. cbn [t_rows] in *.
  pose proof HR as [Hlen [_ [HL _]]].
  split; [apply (pivot_rows n m A D _ _ _ _ _ _ _ Ep HR Hl Hp)|]. split.
  - apply (pivot_primal n m A D _ _ _ _ _ _ _ Ep HR Hl Hp HP Hpos). intros k Hk Hak.
    rewrite <- !(Lin_lastq n m A D rows) by (try exact HL; lia). apply Hmin; [lia | exact Hak].
  - apply (pivot_basisBound n m A D _ _ _ _ _ _ _ Ep HR Hl HB). lia.
Qed.

Lemma mem_nat_nth : forall j l, mem_nat j l = true -> exists k, (k < length l)%nat /\ nth k l O = j.
Proof.
  intros j l H. unfold mem_nat in H. apply existsb_exists in H. destruct H as [x [Hin Hx]].
  apply Nat.eqb_eq in Hx. subst x. destruct (In_nth l j O Hin) as [k [Hk Hn]]. exists k. split; assumption.
Qed.

Lemma basic_obj_zero : forall c rows basis obj k,
  rowsInv rows basis -> objInv2 c rows basis obj -> (k < m)%nat -> getq obj (nth k basis O) == 0.
Proof.
  intros c rows basis obj k [Hlen [Hbl [HL Hc]]] HO Hk. rewrite (HO (nth k basis O)).
  rewrite (sumN_ext _ (fun k' => if Nat.eqb k' k then c (nth k basis O) else 0)).
  - rewrite sumN_delta by lia. ring.
  - intros k' Hk'. assert (Hk2 : (k' < m)%nat) by lia. rewrite (Hc k k' Hk Hk2). rewrite (Nat.eqb_sym k k').
    destruct (Nat.eqb k' k) eqn:E; [apply Nat.eqb_eq in E; subst k'; ring | ring].
Qed.

Lemma optimal_obj_nonneg : forall c T basis,
  tabInv c T basis -> find_enter 0 basis (n + m) 0 (t_obj T) = None ->
  forall j, (j < n + m)%nat -> 0 <= getq (t_obj T) j.
Proof.
  intros c T basis [HR [Lo HO2]] Hfe j Hj.
  assert (Hjl : (j < length (t_obj T))%nat) by (rewrite Lo; unfold DeepInv.NN; lia).
  destruct (find_enter_none 0 basis (n + m) (t_obj T) 0 Hfe j Hj Hjl) as [Hm|Hq].
  - simpl in Hm. destruct (mem_nat_nth _ _ Hm) as [k [Hk Hn]]. pose proof HR as [_ [Hbl _]]. rewrite <- Hn.
    rewrite (basic_obj_zero c (t_rows T) basis (t_obj T) k HR HO2) by lia. apply Qle_refl.
  - apply Qltb_false in Hq. unfold getq. lra.
Qed.

End Phase.
