(* C17 - the knapsack DP as a whole (eps = 0, scaled integer sizes >= 1): the value it returns is that of the pattern it
   returns and is the maximum of y.a over the patterns within the per-item copy bounds `Bfun` (knap_dp_spec). *)
From Coq Require Import List ZArith QArith Bool Arith Lia.
From SV Require Import C17.Cg C17.CgSpec C17.GateProofs C17.PoolProofs C17.KnapPass.
Import ListNotations.

Lemma skipn_S_nth : forall {A} (l : list A) i d, (i < length l)%nat -> skipn i l = nth i l d :: skipn (S i) l.
Proof.
  induction l as [|x l IH]; intros [|i] d Hi; simpl in Hi; try lia; [reflexivity | apply IH; lia].
Qed.

Section KnapMain.
Variable n : nat.
Variable ss : list Z.
Variable vs : list Q.
Hypothesis Hss : length ss = n.
Hypothesis Hvs : length vs = n.
Hypothesis Hpos : Forall (fun x => (1 <= x)%Z) ss.
Variable cap : nat.
Variable copies : list Z.
Hypothesis Hcopies : length copies = n.

Notation dpI := (dp_inv n ss vs cap).
Notation D0 := (d0 n).

(* Bfun j: the copy bound for item j once it has been processed; boundI i: the bounds after items 0..i-1 (0 for the others) *)
Definition Bfun (j : nat) : Z := if Qleb (getq vs j) 0 then 0%Z else Z.max 0 (getz copies j).
Definition boundI (i : nat) : nat -> Z := fun j => if Nat.ltb j i then Bfun j else 0%Z.

Lemma Bfun_nonneg : forall j, (0 <= Bfun j)%Z.
Proof. intros j. unfold Bfun. destruct (Qleb (getq vs j) 0); lia. Qed.

Lemma boundI_S : forall i j, boundI (S i) j = setb (boundI i) i (Bfun i) j.
Proof.
  intros i j. unfold boundI, setb.
  destruct (Nat.eqb_spec j i), (Nat.ltb_spec j (S i)), (Nat.ltb_spec j i); subst; try lia; reflexivity.
Qed.

(* item i: skipped when its value is not positive, otherwise copies[i] passes *)
Lemma item_inv : forall i dp, (i < n)%nat -> dpI (boundI i) dp ->
  dpI (boundI (S i)) (if Qleb (getq vs i) 0 then dp
                      else iter_n (Z.to_nat (getz copies i)) (knap_pass 0 (getq vs i) i (Z.to_nat (getz ss i))) dp).
Proof.
  intros i dp Hi Hd.
  assert (H0 : boundI i i = 0%Z) by (unfold boundI; rewrite Nat.ltb_irrefl; reflexivity).
  destruct (Qleb (getq vs i) 0) eqn:Eq.
  - eapply dp_inv_weaken; [|exact Hd].
    intros j _. rewrite boundI_S. unfold setb, Bfun. rewrite Eq. destruct (Nat.eqb_spec j i) as [E|_]; [subst j|]; lia.
  - eapply dp_inv_weaken; [|apply (iter_inv n ss vs Hss Hvs Hpos cap i _ dp (boundI i) Hi); [lia | exact Hd]].
    intros j _. rewrite boundI_S. unfold setb, Bfun. rewrite Eq, H0. destruct (Nat.eqb j i); lia.
Qed.

Lemma items_inv : forall k i dp, (i + k = n)%nat -> dpI (boundI i) dp ->
  dpI (boundI n) (knap_items 0 i (skipn i ss) (skipn i copies) (skipn i vs) dp).
Proof.
  induction k as [|k IH]; intros i dp Hik Hd.
  - assert (i = n) as -> by lia. rewrite (skipn_all2 ss) by lia. exact Hd.
  - rewrite (skipn_S_nth ss i 0%Z), (skipn_S_nth copies i 0%Z), (skipn_S_nth vs i 0%Q) by lia.
    cbn [knap_items]. apply (IH (S i)); [lia|]. apply item_inv; [lia | exact Hd].
Qed.

Definition dp_init : list cell := (Some 0%Q, repeat 0%Z n) :: repeat (None, repeat 0%Z n) cap.

Lemma dp_init_inv : dpI (boundI 0) dp_init.
Proof.
  split; [|split; [|simpl; rewrite repeat_length; reflexivity]].
  - intros [|w] Hw u Hu; simpl in Hu.
    + replace u with 0%Q by congruence.
      split; [apply zeros_ok|]. split; [apply dotz_zeros | symmetry; apply dotq_zeros].
    + unfold d0 in Hu. rewrite nth_repeat in Hu. discriminate.
  - intros a [Hl Hf] Hb _.
    assert (Ha : a = repeat 0%Z n).
    { rewrite <- Hl. apply Forall_eq_repeat, Forall_nth. intros j d Hj. rewrite (nth_indep _ d 0%Z Hj).
      pose proof (getz_nonneg a j Hf). rewrite Hl in Hj. specialize (Hb j Hj). unfold boundI, getz in *. simpl in Hb. lia. }
    rewrite Ha, dotz_zeros. simpl. rewrite dotq_zeros. apply Qle_refl.
Qed.

Definition best_upd (best : Q * nat) (w : nat) (o : option Q) : Q * nat :=
  match o with Some v => if Qltb (fst best + 0) v then (v, w) else best | None => best end.

Lemma knap_best_cons : forall o p dp w best,
  knap_best 0 ((o, p) :: dp) w best = knap_best 0 dp (S w) (best_upd best w o).
Proof. intros [v|] p dp w best; reflexivity. Qed.

Lemma best_upd_spec : forall best w o,
  (fst best <= fst (best_upd best w o))%Q /\ vle o (Some (fst (best_upd best w o))) /\
  (best_upd best w o = best \/ o = Some (fst (best_upd best w o)) /\ snd (best_upd best w o) = w).
Proof.
  intros best w [v|]; unfold best_upd; [|split; [apply Qle_refl | split; [exact I | left; reflexivity]]].
  destruct (Qltb (fst best + 0) v) eqn:E.
  - apply Qltb_lt in E. rewrite Qplus_0_r in E. cbn [fst snd vle].
    split; [apply Qlt_le_weak; exact E|]. split; [apply Qle_refl | right; split; reflexivity].
  - apply Qltb_false in E. rewrite Qplus_0_r in E. cbn [vle].
    split; [apply Qle_refl|]. split; [exact E | left; reflexivity].
Qed.

Lemma knap_best_spec : forall dp w0 best,
  let r := knap_best 0 dp w0 best in
  (fst best <= fst r)%Q /\
  (forall k u, (k < length dp)%nat -> fst (nth k dp D0) = Some u -> (u <= fst r)%Q) /\
  (r = best \/ exists k, (k < length dp)%nat /\ snd r = (w0 + k)%nat /\ fst (nth k dp D0) = Some (fst r)).
Proof.
  induction dp as [|[o p] dp IH]; intros w0 best; cbn zeta.
  - split; [apply Qle_refl|]. split; [intros k u Hk; inversion Hk | left; reflexivity].
  - rewrite knap_best_cons. destruct (best_upd_spec best w0 o) as [Hb1 [Hb2 Hb3]].
    destruct (IH (S w0) (best_upd best w0 o)) as [H1 [H2 H3]]. cbn zeta in *.
    split; [eapply Qle_trans; eassumption|]. split.
    + intros [|k] u Hk Hu; simpl in Hu; [|apply (H2 k u); [apply Nat.succ_lt_mono; exact Hk | exact Hu]].
      subst o. eapply Qle_trans; [exact Hb2 | exact H1].
    + destruct H3 as [H3|[k [Hk [Hw Hv]]]].
      * rewrite H3. destruct Hb3 as [Hb3|[Ho Hw]]; [left; exact Hb3|].
        right. exists O. split; [apply Nat.lt_0_succ|]. split; [rewrite Nat.add_0_r; exact Hw | exact Ho].
      * right. exists (S k). split; [apply -> Nat.succ_lt_mono; exact Hk|]. split; [rewrite Nat.add_succ_r; exact Hw | exact Hv].
Qed.

Theorem knap_dp_spec : forall capz pat v,
  (0 <= capz)%Z -> cap = Z.to_nat capz ->
  knap_dp 0 ss capz copies vs = (pat, v) ->
  (v == dotq vs pat)%Q /\ (dotz ss pat <= capz)%Z /\
  forall a, pat_ok n a -> (forall j, (j < n)%nat -> (getz a j <= Bfun j)%Z) -> (dotz ss a <= capz)%Z ->
            (dotq vs a <= v)%Q.
Proof.
  intros capz pat v Hc0 Hcap H. unfold knap_dp in H. rewrite Hss, <- Hcap in H.
  change ((Some 0%Q, repeat 0%Z n) :: repeat (None, repeat 0%Z n) cap) with dp_init in H.
  destruct (items_inv n 0 dp_init eq_refl dp_init_inv) as [Hsd [Hcd Hlen]]. cbn [skipn] in Hsd, Hcd, Hlen.
  set (dp := knap_items 0 0 ss copies vs dp_init) in *.
  pose proof (knap_best_spec dp 0 (0%Q, O)) as Hb. cbn zeta in Hb.
  destruct (knap_best 0 dp 0 (0%Q, O)) as [bv bw]. cbn [fst snd] in Hb. destruct Hb as [Hb0 [Hbmax Hbarg]].
  assert (Hmax : forall a, pat_ok n a -> (forall j, (j < n)%nat -> (getz a j <= Bfun j)%Z) -> (dotz ss a <= capz)%Z ->
                           (dotq vs a <= bv)%Q).
  { intros a Ha Hbound Hw.
    assert (Hnn : (0 <= dotz ss a)%Z) by (apply dotz_nonneg; [eapply ss_nonneg; eassumption | apply Ha]).
    assert (Hcell : vle (Some (dotq vs a)) (fst (nth (Z.to_nat (dotz ss a)) dp D0))).
    { apply Hcd; [exact Ha | | lia]. intros j Hj. unfold boundI. rewrite (proj2 (Nat.ltb_lt j n) Hj). apply Hbound. exact Hj. }
    destruct (fst (nth (Z.to_nat (dotz ss a)) dp D0)) as [u|] eqn:Hu; [|contradiction].
    eapply Qle_trans; [exact Hcell|]. eapply Hbmax; [|exact Hu]. lia. }
  destruct (Qltb 0 bv) eqn:Epos; injection H as <- <-.
  - apply Qltb_lt in Epos. destruct Hbarg as [Hbarg|[k [Hk [Hw Hv]]]].
    + injection Hbarg as -> _. exfalso. exact (Qlt_irrefl 0 Epos).
    + simpl in Hw. subst bw. destruct (Hsd k Hk bv Hv) as [_ [Hwt Hval]].
      split; [exact Hval|]. split; [|exact Hmax]. change (dotz ss (snd (nth k dp D0)) <= capz)%Z. lia.
  - apply Qltb_false in Epos.
    split; [rewrite dotq_zeros; apply Qle_antisym; assumption|]. split; [rewrite dotz_zeros; exact Hc0 | exact Hmax].
Qed.
End KnapMain.
