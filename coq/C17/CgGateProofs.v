(* C17_gate for the solve_cg model: every plan returned with status OPTIMAL / FEASIBLE (`usable_status`) passes the boolean gate.
   The rounding lemmas (rs_step, rs_fold_ok) also serve `_round_solution` of solve_bp. *)
From Coq Require Import List ZArith QArith Qabs Qround Bool Arith Lia.
From SV Require Import C17.Cg C17.CgSpec C17.GateProofs C17.PoolProofs.
Import ListNotations.

Lemma cs_loop_pool_ok : forall eps sizes width demands fuel it pool pool' it' conv,
  (0 <= eps)%Q -> (eps < 1)%Q -> (0 <= width)%Z ->
  pool_ok sizes width pool ->
  cs_loop eps sizes width demands fuel it pool = Some (pool', it', conv) ->
  pool_ok sizes width pool'.
Proof.
  intros eps sizes width demands fuel. induction fuel as [|fuel IH]; intros it pool pool' it' conv He0 He1 Hw Hp H; cbn [cs_loop] in H.
  - injection H as <- _ _. exact Hp.
  - destruct (master_lp false eps pool demands) as [[[x duals] lp]|]; [|discriminate].
    destruct (knapsack_pricing eps sizes width duals) as [[np pv]|] eqn:Ek; [|discriminate].
    destruct (Qleb pv (1 + eps)).
    + injection H as <- _ _. exact Hp.
    + apply (IH _ _ _ _ _ He0 He1 Hw) in H; [exact H|].
      apply pool_ok_add; [exact Hp|]. apply (knapsack_pricing_fits eps sizes width duals np pv); assumption.
Qed.

(* rounding over a duplicate-free pool.  Both round-up loops (`round_up` here, `_round_solution` of bp.py) walk the
   columns with their rounded counts and enter the positive ones into the dictionary; no key comes twice, so the
   dictionary is the list of positive entries in pool order. *)
Definition rs_step (st : plan * Z) (cr : pattern * Z) : plan * Z :=
  if Z.ltb 0 (snd cr) then (dict_set (fst cr) (snd cr) (fst st), (snd st + snd cr)%Z) else st.
Definition positive (l : plan) : plan := filter (fun cr => Z.ltb 0 (snd cr)) l.

Lemma rs_fold : forall l sol total, NoDup (map fst sol ++ map fst l) ->
  fold_left rs_step l (sol, total) = (sol ++ positive l, (total + rolls (positive l))%Z).
Proof.
  induction l as [|[p c] l IH]; intros sol total Hnd; simpl.
  - rewrite app_nil_r, Z.add_0_r. reflexivity.
  - unfold rs_step at 2. cbn [fst snd]. destruct (Z.ltb 0 c).
    + rewrite dict_set_fresh by (intros Hin; apply (NoDup_remove_2 _ _ _ Hnd), in_or_app; left; exact Hin).
      rewrite IH by (rewrite map_app, <- app_assoc; exact Hnd). rewrite <- app_assoc. f_equal. simpl. lia.
    + apply IH. exact (NoDup_remove_1 _ _ _ Hnd).
Qed.

Lemma NoDup_combine_fst : forall {A B} (l : list A) (l' : list B), NoDup l -> NoDup (map fst (combine l l')).
Proof.
  intros A B l. induction l as [|a l IH]; intros l' Hn; simpl; [constructor|].
  destruct l' as [|b l']; simpl; [constructor|].
  apply NoDup_cons_iff in Hn. destruct Hn as [Ha Hn]. constructor; [|apply IH; exact Hn].
  intros Hin. apply in_map_iff in Hin. destruct Hin as [[a' b'] [He Hin]]. simpl in He. subst a'.
  apply in_combine_l in Hin. contradiction.
Qed.

Lemma produced_positive : forall l i, Forall (fun cr => Forall (fun x => (0 <= x)%Z) (fst cr)) l ->
  (produced l i <= produced (positive l) i)%Z.
Proof.
  intros l i Hl. induction Hl as [|[p c] l Hp _ IH]; simpl; [lia|].
  pose proof (getz_nonneg p i Hp). destruct (Z.ltb_spec 0 c); simpl; nia.
Qed.

Lemma rs_fold_ok : forall (F : pattern -> Prop) pats cs, NoDup pats -> Forall F pats ->
  exists sol, fold_left rs_step (combine pats cs) ([], 0%Z) = (sol, rolls sol) /\
    Forall (fun pc => F (fst pc) /\ (0 <= snd pc)%Z) sol /\
    (Forall (Forall (fun x => (0 <= x)%Z)) pats -> forall i, (produced (combine pats cs) i <= produced sol i)%Z).
Proof.
  intros F pats cs Hn HF. exists (positive (combine pats cs)).
  split; [apply rs_fold, NoDup_combine_fst, Hn|]. split.
  - apply Forall_forall. intros [p c] Hin. apply filter_In in Hin. destruct Hin as [Hin Hc].
    apply in_combine_l in Hin. rewrite Forall_forall in HF. apply Z.ltb_lt in Hc. simpl in *. split; [apply HF; exact Hin | lia].
  - intros Hnn i. apply produced_positive, Forall_forall. intros [p c] Hin. apply in_combine_l in Hin.
    rewrite Forall_forall in Hnn. apply Hnn. exact Hin.
Qed.

Lemma round_up_fold : forall eps pats xs st,
  fold_left (round_step eps) (combine pats xs) st =
  fold_left rs_step (combine pats (map (fun x => if Qltb eps x then Qceil (x - eps) else 0%Z) xs)) st.
Proof.
  induction pats as [|p pats IH]; intros [|x xs] st; try reflexivity. simpl. rewrite <- IH. f_equal.
  unfold round_step, rs_step. cbn [fst snd]. destruct (Qltb eps x); reflexivity.
Qed.

Lemma round_up_ok : forall eps sizes width pats xs,
  pool_ok sizes width pats ->
  snd (round_up eps pats xs) = rolls (fst (round_up eps pats xs)) /\
  Forall (fun pc => fits sizes width (fst pc) /\ (0 <= snd pc)%Z) (fst (round_up eps pats xs)).
Proof.
  intros eps sizes width pats xs [Hf Hn]. unfold round_up. rewrite round_up_fold.
  destruct (rs_fold_ok _ pats (map (fun x => if Qltb eps x then Qceil (x - eps) else 0%Z) xs) Hn Hf) as [sol [-> [Hs _]]].
  split; [reflexivity | exact Hs].
Qed.

Lemma covers_nil_zero : forall demands, forallb (Z.eqb 0) demands = true -> covers [] demands = true.
Proof.
  intros demands H. apply covers_spec. intros i Hi. simpl.
  rewrite forallb_forall in H. assert (Hin : In (getz demands i) demands) by (unfold getz; apply nth_In; exact Hi).
  specialize (H _ Hin). apply Z.eqb_eq in H. lia.
Qed.

Definition usable_status (s : status) : bool := match s with INFEASIBLE => false | _ => true end.

Lemma plan_ok_intro : forall sizes width demands P obj,
  Forall (fun pc => fits sizes width (fst pc) /\ (0 <= snd pc)%Z) P -> covers P demands = true -> obj = rolls P ->
  plan_ok sizes width demands P obj = true.
Proof.
  intros sizes width demands P obj Hf Hc Ho. apply plan_ok_iff. split; [|exact Ho].
  split; [exact Hf | apply covers_spec; exact Hc].
Qed.

(* What a run of solve_cg that returns a result has gone through. *)
Lemma solve_cg_cases : forall eps sizes width demands max_iter r,
  solve_cg eps sizes width demands max_iter = Done r ->
  (forallb (Z.eqb 0) demands = true /\ trivial_result = Done r) \/
  (length sizes = length demands /\ valid_sizes sizes width = true /\ (0 <= width)%Z /\
   exists pats it conv x duals lp,
     cs_loop eps sizes width demands max_iter 0 (initial_patterns sizes width demands) = Some (pats, it, conv) /\
     master_lp false eps pats demands = Some (x, duals, lp) /\
     let sol := fst (round_up eps pats x) in
     let total := snd (round_up eps pats x) in
     (r_status r = INFEASIBLE \/
      covers sol demands = true /\
      exists o, lp = Some o /\
        r = mkR (if conv && Z.leb total (Qceil (o - eps)) then OPTIMAL else FEASIBLE) sol total it pats duals lp conv)).
Proof.
  intros eps sizes width demands max_iter r H. unfold solve_cg in H.
  destruct demands as [|d0 demands'] eqn:Ed; [left; split; [reflexivity | exact H]|]. rewrite <- Ed in *.
  destruct (forallb (Z.leb 0) demands); cbn [negb] in H; [|discriminate].
  destruct (forallb (Z.eqb 0) demands); [left; split; [reflexivity | exact H]|].
  right. unfold solve_cutting_stock in H.
  destruct (Nat.eqb (length sizes) (length demands)) eqn:El; cbn [negb] in H; [|discriminate].
  destruct (valid_sizes sizes width) eqn:Ev; cbn [negb] in H; [|discriminate].
  apply Nat.eqb_eq in El. split; [exact El|]. split; [reflexivity|].
  split; [apply (valid_sizes_width sizes width Ev); rewrite El, Ed; simpl; lia|].
  destruct (cs_loop eps sizes width demands max_iter 0 (initial_patterns sizes width demands)) as [[[pats it] conv]|] eqn:Eloop;
    [|discriminate].
  destruct (master_lp false eps pats demands) as [[[x duals] lp]|] eqn:Em; [|discriminate].
  exists pats, it, conv, x, duals, lp. split; [reflexivity|]. split; [exact Em|].
  destruct (round_up eps pats x) as [sol total]. cbn [fst snd].
  destruct (covers sol demands); cbn [negb] in H; [|left; injection H as <-; reflexivity].
  right. split; [reflexivity|]. unfold finish in H. destruct lp as [o|]; [|discriminate].
  exists o. split; [reflexivity|]. injection H as <-. reflexivity.
Qed.

Theorem solve_cg_gate : forall eps sizes width demands max_iter r,
  (0 <= eps)%Q -> (eps < 1)%Q ->
  solve_cg eps sizes width demands max_iter = Done r ->
  usable_status (r_status r) = true ->
  plan_ok sizes width demands (r_plan r) (r_obj r) = true.
Proof.
  intros eps sizes width demands max_iter r He0 He1 H Hu.
  destruct (solve_cg_cases _ _ _ _ _ _ H)
    as [[Hz Ht]|(_ & Ev & Hw & pats & it & conv & x & duals & lp & Eloop & _ & [Hs|(Hc & o & _ & ->)])].
  - injection Ht as <-. apply plan_ok_intro; [constructor | apply covers_nil_zero; exact Hz | reflexivity].
  - rewrite Hs in Hu. discriminate.
  - assert (Hpool : pool_ok sizes width pats).
    { apply (cs_loop_pool_ok _ _ _ _ _ _ _ _ _ _ He0 He1 Hw (initial_patterns_ok _ _ demands Ev) Eloop). }
    destruct (round_up_ok eps sizes width pats x Hpool) as [Hr Hf].
    apply plan_ok_intro; assumption.
Qed.
