(* C17 - the instance on which the pinned solve_bp labelled a 5-roll plan OPTIMAL. *)
From Coq Require Import List ZArith QArith Qround Bool Lia.
From SV Require Import C17.Cg C17.CgSpec C17.GateProofs C17.OptimalProofs.
Import ListNotations.
Open Scope Z_scope.

Definition witness_plan : plan := [([0;1;0], 1); ([3;0;0], 1); ([1;0;2], 1); ([0;0;2], 1)].
Definition witness_duals : list Q := [1 # 3; 1%Q; 1 # 3]%Q.

Lemma witness_gate : plan_ok [2;6;2] 7 [4;1;4] witness_plan 4 = true.
Proof. vm_compute. reflexivity. Qed.

Lemma witness_cert : dual_cert_check [2;6;2] 7 [4;1;4] witness_duals 4 = true.
Proof. vm_compute. reflexivity. Qed.

Lemma bp_pinned_refuted :
  covering (fits [2;6;2] 7) [4;1;4] witness_plan /\ rolls witness_plan = 4 /\
  is_min (fits [2;6;2] 7) [4;1;4] 4 /\ ~ is_min (fits [2;6;2] 7) [4;1;4] 5.
Proof.
  destruct (plan_ok_sound _ _ _ _ _ witness_gate) as [Hc Hr].
  split; [exact Hc|]. split; [reflexivity|]. split.
  - exact (certified_min _ _ _ _ _ _ witness_gate witness_cert).
  - intros [_ Hmin]. specialize (Hmin witness_plan Hc). vm_compute in Hmin. apply Hmin. reflexivity.
Qed.
