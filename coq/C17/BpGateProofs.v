(* C17_gate for the solve_bp models.  The node LP with column bounds (DeepBpTree.v) is the root's node LP when there are
   none, and keeps the pool a duplicate-free list of fitting patterns; solve_bp_root unfolded once into its cases (trivial,
   invalid, out of fuel, or root LP solved and the outcome decided by `root_decision`); every plan returned before the tree
   search, and the incumbent handed to it, passes the gate. *)
From Coq Require Import List Qabs Lia.
From SV Require Import C17.Cg C17.CgSpec C17.Bp C17.DeepBpTree C17.GateProofs C17.PoolProofs C17.CgGateProofs.
Import ListNotations.

Lemma bounded_master_nil : forall eps columns demands,
  bounded_master_lp eps columns demands [] = master_lp true eps columns demands.
Proof.
  intros eps columns demands. unfold bounded_master_lp, master_lp.
  destruct columns as [|c cs]; [reflexivity|].
  cbn [filter]. change (length (@nil cbound)) with O. change (repeat 0%Q 0) with (@nil Q).
  cbn [app mapi mapi_from]. rewrite !Nat.add_0_r. rewrite !app_nil_r. reflexivity.
Qed.

Lemma bnode_loop_nil : forall eps is_cs pricing demands fuel it cols,
  bnode_loop eps is_cs pricing demands [] fuel it cols = node_loop eps is_cs pricing demands fuel it cols.
Proof.
  intros eps is_cs pricing demands fuel. induction fuel as [|fuel IH]; intros it cols; cbn [bnode_loop node_loop]; [reflexivity|].
  rewrite bounded_master_nil.
  destruct (master_lp true eps cols demands) as [[[x duals] [lp|]]|]; try reflexivity.
  destruct (pricing duals) as [[nc v]|]; [|reflexivity].
  destruct (if is_cs then Qleb v (1 + eps) else match nc with None => true | Some _ => Qleb (- eps) v end); [reflexivity|].
  apply IH.
Qed.

Lemma bsolve_node_nil : forall eps is_cs pricing demands mi cols,
  bsolve_node_lp eps is_cs pricing demands [] mi cols = solve_node_lp eps is_cs pricing demands mi cols.
Proof.
  intros. unfold bsolve_node_lp, solve_node_lp. rewrite bnode_loop_nil.
  destruct (node_loop eps is_cs pricing demands mi 0 cols) as [[r|[[c i] b]]|]; try reflexivity.
  rewrite bounded_master_nil. reflexivity.
Qed.

Lemma bnode_loop_pool_ok : forall eps sizes width demands cb fuel it cols res,
  (0 <= eps)%Q -> (eps < 1)%Q -> (0 <= width)%Z ->
  pool_ok sizes width cols ->
  bnode_loop eps true (cs_pricing eps sizes width) demands cb fuel it cols = Some res ->
  match res with
  | inl (cols', _, _, _, _, _) => pool_ok sizes width cols'
  | inr (cols', _, _) => pool_ok sizes width cols'
  end.
Proof.
  intros eps sizes width demands cb fuel. induction fuel as [|fuel IH]; intros it cols res He0 He1 Hw Hp H; cbn [bnode_loop] in H.
  - inversion H; subst. exact Hp.
  - destruct (bounded_master_lp eps cols demands cb) as [[[x duals] [lp|]]|]; [| |discriminate].
    + unfold cs_pricing in H at 1.
      destruct (knapsack_pricing eps sizes width duals) as [[np pv]|] eqn:Ek; [|discriminate].
      destruct (Qleb pv (1 + eps)).
      * inversion H; subst. exact Hp.
      * apply (IH _ _ _ He0 He1 Hw) in H; [exact H|].
        apply pool_ok_add; [exact Hp|]. apply (knapsack_pricing_fits eps sizes width duals np pv); assumption.
    + inversion H; subst. exact Hp.
Qed.

Lemma bsolve_node_lp_pool_ok : forall eps sizes width demands cb max_iter cols cols' x duals lp it conv,
  (0 <= eps)%Q -> (eps < 1)%Q -> (0 <= width)%Z ->
  pool_ok sizes width cols ->
  bsolve_node_lp eps true (cs_pricing eps sizes width) demands cb max_iter cols = Some (cols', x, duals, lp, it, conv) ->
  pool_ok sizes width cols'.
Proof.
  intros eps sizes width demands cb max_iter cols cols' x duals lp it conv He0 He1 Hw Hp H. unfold bsolve_node_lp in H.
  destruct (bnode_loop eps true (cs_pricing eps sizes width) demands cb max_iter 0 cols) as [res|] eqn:En; [|discriminate].
  pose proof (bnode_loop_pool_ok _ _ _ _ _ _ _ _ _ He0 He1 Hw Hp En) as Hres.
  destruct res as [[[[[[c1 x1] d1] l1] i1] b1]|[[c2 i2] b2]].
  - inversion H; subst. exact Hres.
  - destruct (bounded_master_lp eps c2 demands cb) as [[[x2 d2] l2]|]; [|discriminate].
    inversion H; subst. exact Hres.
Qed.

Lemma solve_node_lp_pool_ok : forall eps sizes width demands max_iter cols cols' x duals lp it conv,
  (0 <= eps)%Q -> (eps < 1)%Q -> (0 <= width)%Z ->
  pool_ok sizes width cols ->
  solve_node_lp eps true (cs_pricing eps sizes width) demands max_iter cols = Some (cols', x, duals, lp, it, conv) ->
  pool_ok sizes width cols'.
Proof. intros until conv. rewrite <- bsolve_node_nil. apply bsolve_node_lp_pool_ok. Qed.

Lemma dict_set_Forall : forall (Q : pattern * Z -> Prop) k v d, Forall Q d -> Q (k, v) -> Forall Q (dict_set k v d).
Proof.
  intros Q k v d. induction d as [|[k' v'] d IH]; intros Hd Hq; simpl.
  - constructor; [exact Hq | constructor].
  - apply Forall_cons_iff in Hd. destruct Hd as [H1 Hd]. destruct (pat_eqb k k') eqn:E.
    + apply pat_eqb_eq in E. subst k'. constructor; assumption.
    + constructor; [exact H1 | apply IH; assumption].
Qed.

Lemma fold_left_inv : forall {A B} (P : A -> Prop) (f : A -> B -> A) l a,
  P a -> (forall a b, P a -> In b l -> P (f a b)) -> P (fold_left f l a).
Proof.
  intros A B P f. induction l as [|b l IH]; intros a Ha Hf; simpl; [exact Ha|].
  apply IH; [apply Hf; [exact Ha | left; reflexivity] | intros a' b' Ha' Hb'; apply Hf; [exact Ha' | right; exact Hb']].
Qed.

Lemma build_solution_ok : forall eps (F : pattern -> Prop) cols x,
  Forall F cols -> Forall (fun pc => F (fst pc) /\ (0 <= snd pc)%Z) (build_solution eps cols x).
Proof.
  intros eps F cols x HF. unfold build_solution. apply fold_left_inv; [constructor|].
  intros sol [p q] Hs Hin. apply in_combine_l in Hin. cbn [fst snd].
  destruct (Qltb eps q); [|exact Hs].
  destruct (Z.ltb_spec 0 (round_nearest q)) as [Hc|_]; [|exact Hs].
  apply dict_set_Forall; [exact Hs|]. rewrite Forall_forall in HF. split; [apply HF; exact Hin | simpl; lia].
Qed.

Lemma round_solution_ok : forall eps sizes width cols x demands sol total,
  pool_ok sizes width cols ->
  round_solution eps cols x demands = Some (sol, total) ->
  plan_ok sizes width demands sol total = true.
Proof.
  intros eps sizes width cols x demands sol total [Hf Hn] H. unfold round_solution in H.
  set (cr := combine cols (map (fun v => if Qltb eps v then Qceil (v - eps) else 0%Z) x)) in H.
  destruct (forallb _ (seq 0 (length demands))) eqn:Ecov; [|discriminate].
  change (fold_left _ cr ([], 0%Z)) with (fold_left rs_step cr ([], 0%Z)) in H.
  destruct (rs_fold_ok _ cols (map (fun v => if Qltb eps v then Qceil (v - eps) else 0%Z) x) Hn Hf) as [sol' [E [Hs Hp]]].
  fold cr in E, Hp. rewrite E in H. injection H as <- <-.
  apply plan_ok_intro; [exact Hs | | reflexivity].
  apply covers_spec. intros i Hi. eapply Z.le_trans; [|apply Hp].
  - rewrite forallb_forall in Ecov. apply Z.leb_le, (Ecov i), in_seq. lia.
  - eapply Forall_impl; [|exact Hf]. intros p Hp'. apply Hp'.
Qed.

(* what `_branch_and_price` does with a solved root LP, up to the creation of the search tree *)
Definition root_decision (eps gap : Q) (demands : list Z) (cols : list pattern) (x : list Q) (lp : Q) (it : nat) (conv : bool)
  : bp_outcome :=
  let rb := if conv then Some (Qceil (lp - eps)) else None in
  let after :=
    match round_solution eps cols x demands with
    | Some (sol, total) =>
        if proven gap rb (inject_Z total) then BpDone OPTIMAL (Some sol) (Some total) it else BpTree rb (Some (sol, total))
    | None => BpTree rb None
    end in
  match most_fractional eps 0 x (None, 0%Q) with
  | None =>
      let sol := build_solution eps cols x in
      if covers sol demands
      then BpDone (if proven gap rb lp then OPTIMAL else FEASIBLE) (Some sol) (Some (plan_total sol)) it
      else after
  | Some _ => after
  end.

Lemma branch_and_price_root_eq : forall eps gap is_cs pricing demands cols0 mi,
  branch_and_price_root eps gap is_cs pricing demands cols0 mi =
  match solve_node_lp eps is_cs pricing demands mi cols0 with
  | None => None
  | Some (cols, x, duals, lp, it, conv) =>
      Some (mkB (match lp with
                 | None => BpDone INFEASIBLE None None it
                 | Some lp_obj => root_decision eps gap demands cols x lp_obj it conv
                 end) cols x duals lp it conv)
  end.
Proof.
  intros. unfold branch_and_price_root, root_decision.
  destruct (solve_node_lp eps is_cs pricing demands mi cols0) as [[[[[[cols x] duals] lp] it] conv]|]; [|reflexivity].
  destruct lp as [lp|]; [|reflexivity].
  destruct (most_fractional eps 0 x (None, 0%Q)); [|destruct (covers (build_solution eps cols x) demands); [reflexivity|]];
    (destruct (round_solution eps cols x demands) as [[sol total]|]; [|reflexivity]);
    destruct (proven gap _ (inject_Z total)); reflexivity.
Qed.

Lemma solve_bp_root_cases : forall eps gap sizes width demands mi,
  let R := solve_bp_root eps gap sizes width demands mi in
  (forallb (Z.eqb 0) demands = true /\ R = bp_trivial) \/
  b_out R = BpInvalid \/ b_out R = BpNoFuel \/
  (length sizes = length demands /\ valid_sizes sizes width = true /\ (0 <= width)%Z /\
   forallb (Z.leb 0) demands = true /\
   solve_node_lp eps true (cs_pricing eps sizes width) demands mi (initial_patterns sizes width demands)
   = Some (b_pool R, b_x R, b_duals R, b_lp R, b_iters R, b_conv R) /\
   b_out R = match b_lp R with
             | None => BpDone INFEASIBLE None None (b_iters R)
             | Some lp => root_decision eps gap demands (b_pool R) (b_x R) lp (b_iters R) (b_conv R)
             end).
Proof.
  intros eps gap sizes width demands mi. cbv zeta. unfold solve_bp_root.
  destruct demands as [|d0 demands'] eqn:Ed; [left; split; reflexivity|]. rewrite <- Ed.
  destruct (forallb (Z.leb 0) demands) eqn:Enn; cbn [negb]; [|right; left; reflexivity].
  destruct (forallb (Z.eqb 0) demands) eqn:Ez; [left; split; reflexivity|].
  destruct (Nat.eqb (length sizes) (length demands)) eqn:El; cbn [negb]; [|right; left; reflexivity].
  destruct (valid_sizes sizes width) eqn:Ev; cbn [negb]; [|right; left; reflexivity].
  apply Nat.eqb_eq in El.
  assert (Hw : (0 <= width)%Z) by (apply (valid_sizes_width sizes width Ev); rewrite El, Ed; simpl; lia).
  rewrite branch_and_price_root_eq.
  destruct (solve_node_lp eps true (cs_pricing eps sizes width) demands mi (initial_patterns sizes width demands))
    as [[[[[[cols x] duals] lp] it] conv]|]; [|right; right; left; reflexivity].
  right. right. right. repeat (split; [assumption || reflexivity|]). reflexivity.
Qed.

Definition best_ok (sizes : list Z) (width : Z) (demands : list Z) (best : option (plan * Z)) : Prop :=
  match best with None => True | Some (sol, obj) => plan_ok sizes width demands sol obj = true end.

(* `plan_total` of bp.py and the specification's `rolls` are the same sum *)
Lemma plan_total_rolls : forall sol, plan_total sol = rolls sol.
Proof. reflexivity. Qed.

Lemma build_plan_ok : forall eps sizes width demands cols x,
  pool_ok sizes width cols -> covers (build_solution eps cols x) demands = true ->
  plan_ok sizes width demands (build_solution eps cols x) (plan_total (build_solution eps cols x)) = true.
Proof.
  intros eps sizes width demands cols x [Hf _] Hc. apply plan_ok_intro; [|exact Hc | reflexivity].
  apply build_solution_ok. exact Hf.
Qed.

(* whatever the root decides, the plan it returns or hands to the tree search as incumbent passes the gate *)
Lemma root_decision_ok : forall eps gap sizes width demands cols x lp it conv,
  pool_ok sizes width cols ->
  match root_decision eps gap demands cols x lp it conv with
  | BpDone st sol obj _ => st <> INFEASIBLE /\ exists s o, sol = Some s /\ obj = Some o /\ plan_ok sizes width demands s o = true
  | BpTree rb inc => rb = (if conv then Some (Qceil (lp - eps)) else None) /\ best_ok sizes width demands inc
  | _ => False
  end.
Proof.
  intros eps gap sizes width demands cols x lp it conv Hp. unfold root_decision.
  destruct (most_fractional eps 0 x (None, 0%Q)); [|destruct (covers (build_solution eps cols x) demands) eqn:Ec].
  2: { split; [destruct (proven gap _ lp); discriminate|]. eexists _, _. repeat split. apply build_plan_ok; assumption. }
  all: destruct (round_solution eps cols x demands) as [[s t]|] eqn:Er; [|split; [reflexivity | exact I]].
  all: pose proof (round_solution_ok eps sizes width cols x demands s t Hp Er) as Hok.
  all: destruct (proven gap _ (inject_Z t)); [|split; [reflexivity | exact Hok]].
  all: split; [discriminate|]; eexists _, _; repeat split; exact Hok.
Qed.

Theorem solve_bp_root_gate : forall eps gap sizes width demands max_iter st sol obj it,
  (0 <= eps)%Q -> (eps < 1)%Q ->
  b_out (solve_bp_root eps gap sizes width demands max_iter) = BpDone st (Some sol) (Some obj) it ->
  plan_ok sizes width demands sol obj = true.
Proof.
  intros eps gap sizes width demands mi st sol obj it He0 He1 H.
  destruct (solve_bp_root_cases eps gap sizes width demands mi) as [[Hz E]|[E|[E|(El & Ev & Hw & Hd & En & Eout)]]]; cbv zeta in *.
  - rewrite E in H. injection H as _ <- <- _. apply plan_ok_intro; [constructor | apply covers_nil_zero; exact Hz | reflexivity].
  - rewrite E in H. discriminate.
  - rewrite E in H. discriminate.
  - rewrite Eout in H. destruct (b_lp (solve_bp_root eps gap sizes width demands mi)) as [lp|]; [|discriminate].
    pose proof (solve_node_lp_pool_ok _ _ _ _ _ _ _ _ _ _ _ _ He0 He1 Hw (initial_patterns_ok _ _ demands Ev) En) as Hp.
    pose proof (root_decision_ok eps gap sizes width demands _ (b_x (solve_bp_root eps gap sizes width demands mi)) lp
                  (b_iters (solve_bp_root eps gap sizes width demands mi)) (b_conv (solve_bp_root eps gap sizes width demands mi)) Hp) as Hok.
    rewrite H in Hok. destruct Hok as [_ (s & o & Es & Eo & Hok)]. congruence.
Qed.
