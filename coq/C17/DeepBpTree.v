(* C17 deep, second round - model of the WHOLE of solvor/bp.py: on top of the root part (Bp.v) the best-first tree search of
   `_branch_and_price` (heap of (lp_obj, counter, node), pruning, incumbent updates, branching on the most fractional
   column), node records with their column bounds, `_solve_node_lp` with its column-generation loop at every node and
   `_solve_bounded_master_lp` WITH column bounds.  Definitions only; over Q with `eps` a parameter like Cg.v / Bp.v.

   How the code is read.
   * A node is `_BPNode(bound, column_bounds, depth)`; `depth` is never read, `bound` is always equal to the heap key it is
     pushed with, so a heap entry is `(lp_obj, counter, column_bounds)` (`hentry`).  `column_bounds` is a tuple of
     (col_idx, lower, upper) in the order the branchings were made along the path (`cbound`; upper None = float("inf")).
   * `col_bounds = {idx: (lo, hi) for idx, lo, hi in node.column_bounds}` : a LATER bound on the same column REPLACES the
     earlier one (it is not intersected with it) - `cb_dict` keeps that; the dictionary is only ever walked through
     `sorted(col_bounds.keys())`, so it is kept sorted by column index.
   * `_solve_bounded_master_lp`: variables x (n) | demand surplus (m) | slack of the upper-bound rows (n_upper) | surplus of the
     lower-bound rows (n_lower) | artificials (m + n_lower); rows = demand rows, then one row  x_idx - s + a = lo  per bound
     with lo > eps, then one row  x_idx + s = hi  per bound with hi < inf (both in increasing idx).  The phase-1 objective
     is built by looking for the row r with abs(tab[r][art_col] - 1.0) < eps: for eps > 0 that is row i for artificial i
     (demand rows and lower-bound rows come first, in the order of their artificials), which is what the model hard-wires
     (same convention as Bp.v: eps = 0 is the eps -> 0 limit of the model).  simplex_phase / drive_out_artificials /
     _pivot are the ones of Cg.v.  With no bounds the tableau is the one of `master_lp true` (proved:
     BpGateProofs.bounded_master_nil).
   * the column pool `columns` / `column_set` is ONE mutable list shared by all nodes: every node LP may append to it and
     column indices stored in bounds stay valid; the model threads it through the loop.
   * `heappop` returns the least entry for the tuple order (lp_obj, counter); counters are distinct, so the node record is
     never compared and the result does not depend on the heap's internal layout: the heap is a list, `heap_min` finds the
     least (key, counter), `heap_remove` deletes it.
   * best_obj is float("inf") or an integer-valued float: `option (plan * Z)`.
   * `while tree and nodes_explored < max_nodes` : every iteration pops one entry and an explored node pushes at most two, so
     at most 2 * max_nodes + 1 iterations happen; the model runs on that fuel (+1) and answers None should it run out
     (as it does when a simplex_phase call uses up its 100000 iterations or knapsack_pricing takes its greedy fallback).
   * on_progress is None. *)
From Coq Require Import List ZArith QArith Qabs Qround Bool Arith.
From SV Require Import C17.Cg C17.Bp.
Import ListNotations.
Open Scope Q_scope.

(* ---------------------------------------------------------------- column bounds *)
Definition cbound := (nat * Q * option Q)%type.
Definition cb_idx (e : cbound) : nat := fst (fst e).
Definition cb_lo (e : cbound) : Q := snd (fst e).
Definition cb_hi (e : cbound) : option Q := snd e.

Fixpoint cb_insert (e : cbound) (d : list cbound) : list cbound :=
  match d with
  | [] => [e]
  | e' :: d' => if Nat.ltb (cb_idx e) (cb_idx e') then e :: d
                else if Nat.eqb (cb_idx e) (cb_idx e') then e :: d'
                else e' :: cb_insert e d'
  end.
(* {idx: (lo, hi) for idx, lo, hi in node.column_bounds}, in the order of sorted(col_bounds.keys()) *)
Definition cb_dict (nb : list cbound) : list cbound := fold_left (fun d e => cb_insert e d) nb [].

Definition has_upper (e : cbound) : bool := match cb_hi e with Some _ => true | None => false end.
Definition upper_val (e : cbound) : Q := match cb_hi e with Some h => h | None => 0 end.

(* ---------------------------------------------------------------- _solve_bounded_master_lp(columns, demands, col_bounds, eps)
   `cb` is the dictionary (sorted by column index).  None = a simplex_phase call used up its 100000 iterations. *)
Definition bounded_master_lp (eps : Q) (columns : list pattern) (demands : list Z) (cb : list cbound) : option lp_result :=
  let m := length demands in
  let n := length columns in
  match columns with
  | [] => Some ([], repeat 0 m, None)
  | _ =>
      let lows := filter (fun e => Qltb eps (cb_lo e)) cb in          (* if lo > eps *)
      let ups := filter has_upper cb in                               (* if hi < float("inf") *)
      let nl := length lows in
      let nu := length ups in
      let n_orig := (n + m + nu + nl)%nat in
      let n_art := (m + nl)%nat in
      let n_rows := (m + nl + nu)%nat in
      let drows := mapi (fun i d => map (fun c => z2q (getz c i)) columns ++ unitq m i (-(1)) ++ repeat 0 nu ++ repeat 0 nl
                                      ++ unitq n_art i 1 ++ [z2q d]) demands in
      let lrows := mapi (fun k e => unitq n (cb_idx e) 1 ++ repeat 0 m ++ repeat 0 nu ++ unitq nl k (-(1))
                                      ++ unitq n_art (m + k) 1 ++ [cb_lo e]) lows in
      let urows := mapi (fun k e => unitq n (cb_idx e) 1 ++ repeat 0 m ++ unitq nu k 1 ++ repeat 0 nl
                                      ++ repeat 0 n_art ++ [upper_val e]) ups in
      let rows := drows ++ lrows ++ urows in
      (* phase 1 objective: for each artificial i: tab[-1][j] -= tab[row of i][j] for all j; tab[-1][art_col] = 0 *)
      let obj1 := fst (fold_left (fun (st : list Q * nat) r => (set_nth (n_orig + snd st) 0 (vsub (fst st) r), S (snd st)))
                                 (drows ++ lrows) (repeat 0 (S (n_orig + n_art)), O)) in
      let basis0 := seq n_orig n_art ++ seq (n + m) nu in
      let '(T1, basis1, ok1) := simplex_phase eps simplex_fuel n_orig (mkT rows obj1) basis0 in
      if negb ok1 then None
      else if Qltb (lastq (t_obj T1)) (- eps) then Some (repeat 0 n, repeat 0 m, None)
      else
        let '(T1d, basis1d) := drive_out_artificials eps n_orig n_rows T1 basis1 in
        let obj2_0 := repeat 1 n ++ repeat 0 (S (m + nu + nl + n_art)) in
        let obj2 := fst (fold_left (fun (st : list Q * nat) r =>
                                      let b := nth (snd st) basis1d O in
                                      let cost := if Nat.ltb b n then 1 else 0 in
                                      ((if Qltb eps (Qabs cost) then vsubmul cost (fst st) r else fst st), S (snd st)))
                                   (t_rows T1d) (obj2_0, O)) in
        let '(T2, basis2, ok2) := simplex_phase eps simplex_fuel n_orig (mkT (t_rows T1d) obj2) basis1d in
        if negb ok2 then None
        else
          let x := fst (fold_left (fun (st : list Q * nat) r =>
                                     let b := nth (snd st) basis2 O in
                                     ((if Nat.ltb b n then set_nth b (Qred (qmax 0 (lastq r))) (fst st) else fst st), S (snd st)))
                                  (t_rows T2) (repeat 0 n, O)) in
          let duals := map (fun i => getq (t_obj T2) (n + i)) (seq 0 m) in
          Some (x, duals, Some (Qred (- lastq (t_obj T2))))
  end.

(* ---------------------------------------------------------------- _solve_node_lp(columns, column_set, demands, col_bounds, ...)
   Same loop as Bp.node_loop, over the bounded master LP.  Result as in Bp.v: (columns, x_vals, duals, lp_obj, cg_iters,
   converged). *)
Fixpoint bnode_loop (eps : Q) (is_cs : bool) (pricing : list Q -> option (option pattern * Q)) (demands : list Z)
         (cb : list cbound) (fuel : nat) (cg_iters : nat) (columns : list pattern)
  : option (node_result + (list pattern * nat * bool)) :=
  match fuel with
  | O => Some (inr (columns, cg_iters, false))
  | S fuel' =>
      match bounded_master_lp eps columns demands cb with
      | None => None
      | Some (x, duals, None) => Some (inl (columns, x, duals, None, cg_iters, false))     (* if lp_obj == inf: return *)
      | Some (x, duals, Some _) =>
          match pricing duals with
          | None => None
          | Some (new_col, value) =>
              let stop := if is_cs then Qleb value (1 + eps)
                          else match new_col with None => true | Some _ => Qleb (- eps) value end in
              if stop then Some (inr (columns, cg_iters, true))
              else bnode_loop eps is_cs pricing demands cb fuel' (S cg_iters)
                              (match new_col with
                               | Some c => if pat_mem c columns then columns else columns ++ [c]
                               | None => columns
                               end)
          end
      end
  end.

Definition bsolve_node_lp (eps : Q) (is_cs : bool) (pricing : list Q -> option (option pattern * Q)) (demands : list Z)
           (cb : list cbound) (max_iter : nat) (columns : list pattern) : option node_result :=
  match bnode_loop eps is_cs pricing demands cb max_iter 0 columns with
  | None => None
  | Some (inl r) => Some r
  | Some (inr (cols, it, conv)) =>
      match bounded_master_lp eps cols demands cb with
      | None => None
      | Some (x, duals, lp) => Some (cols, x, duals, lp, it, conv)
      end
  end.

(* ---------------------------------------------------------------- the heap *)
Definition hentry := (Q * nat * list cbound)%type.          (* (lp_obj, counter, node.column_bounds) *)
Definition h_key (e : hentry) : Q := fst (fst e).
Definition h_cnt (e : hentry) : nat := snd (fst e).
Definition h_nb (e : hentry) : list cbound := snd e.

(* tuple order of Python on (lp_obj, counter, ...) *)
Definition hentry_lt (a b : hentry) : bool :=
  if Qeq_bool (h_key a) (h_key b) then Nat.ltb (h_cnt a) (h_cnt b) else Qltb (h_key a) (h_key b).
Fixpoint heap_min (best : hentry) (l : list hentry) : hentry :=
  match l with
  | [] => best
  | e :: l' => heap_min (if hentry_lt e best then e else best) l'
  end.
Definition heap_remove (c : nat) (l : list hentry) : list hentry := filter (fun e => negb (Nat.eqb (h_cnt e) c)) l.

(* ---------------------------------------------------------------- answers *)
Record bp_ans := mkBA {
  ba_status : Cg.status; ba_sol : option plan; ba_obj : option Z;
  ba_nodes : nat;          (* Result.iterations  = nodes_explored *)
  ba_iters : nat }.        (* Result.evaluations = total_cg_iters *)

(* what the model returns besides the answer: the final column pool and the explored nodes (column_bounds, node LP value),
   most recent first - neither is part of solve_bp's result; they are there for debugging a correspondence failure *)
Record tree_out := mkTO { to_ans : bp_ans; to_pool : list pattern; to_trace : list (list cbound * option Q) }.

(* v >= best_obj - eps *)
Definition dominated (eps : Q) (best : option (plan * Z)) (v : Q) : bool :=
  match best with None => false | Some (_, b) => Qleb (inject_Z b - eps) v end.
(* obj < best_obj - eps *)
Definition improves (eps : Q) (best : option (plan * Z)) (obj : Z) : bool :=
  match best with None => true | Some (_, b) => Qltb (inject_Z obj) (inject_Z b - eps) end.

(* the two `return`s after the loop *)
Definition tree_finish (gap_tol : Q) (rb : option Z) (cols : list pattern) (best : option (plan * Z)) (nodes total : nat)
           (trace : list (list cbound * option Q)) : tree_out :=
  match best with
  | None => mkTO (mkBA INFEASIBLE None None nodes total) cols trace
  | Some (sol, obj) =>
      mkTO (mkBA (if proven gap_tol rb (inject_Z obj) then OPTIMAL else FEASIBLE) (Some sol) (Some obj) nodes total) cols trace
  end.

(* while tree and nodes_explored < max_nodes: ... *)
Fixpoint tree_loop (eps gap_tol : Q) (is_cs : bool) (pricing : list Q -> option (option pattern * Q)) (demands : list Z)
         (max_iter max_nodes : nat) (rb : option Z) (fuel : nat)
         (cols : list pattern) (best : option (plan * Z)) (heap : list hentry) (counter nodes total : nat)
         (trace : list (list cbound * option Q)) : option tree_out :=
  match fuel with
  | O => None
  | S fuel' =>
      match heap with
      | [] => Some (tree_finish gap_tol rb cols best nodes total trace)
      | e0 :: rest =>
          if Nat.leb max_nodes nodes then Some (tree_finish gap_tol rb cols best nodes total trace)
          else
            let e := heap_min e0 rest in                                  (* _, _, node = heappop(tree) *)
            let heap' := heap_remove (h_cnt e) heap in
            let again := tree_loop eps gap_tol is_cs pricing demands max_iter max_nodes rb fuel' in
            if dominated eps best (h_key e)                               (* if node.bound >= best_obj - eps: continue *)
            then again cols best heap' counter nodes total trace
            else
              match bsolve_node_lp eps is_cs pricing demands (cb_dict (h_nb e)) max_iter cols with
              | None => None
              | Some (cols', x, _, lp, it, _) =>
                  let total' := (total + it)%nat in
                  let nodes' := S nodes in
                  let trace' := (h_nb e, lp) :: trace in
                  match lp with
                  | None => again cols' best heap' counter nodes' total' trace'           (* lp_obj == inf: continue *)
                  | Some lpv =>
                      if dominated eps best lpv then again cols' best heap' counter nodes' total' trace'
                      else
                        match most_fractional eps 0 x (None, 0) with
                        | None =>
                            let sol := build_solution eps cols' x in
                            let obj := plan_total sol in
                            if improves eps best obj && covers sol demands then
                              if proven gap_tol rb (inject_Z obj)
                              then Some (mkTO (mkBA OPTIMAL (Some sol) (Some obj) nodes' total') cols' trace')
                              else again cols' (Some (sol, obj)) heap' counter nodes' total' trace'
                            else again cols' best heap' counter nodes' total' trace'
                        | Some fi =>
                            let val := getq x fi in
                            let left := (lpv, counter, h_nb e ++ [(fi, 0, Some (inject_Z (Qfloor val)))]) in
                            let right := (lpv, S counter, h_nb e ++ [(fi, inject_Z (Qceiling val), None)]) in
                            again cols' best (heap' ++ [left; right]) (S (S counter)) nodes' total' trace'
                        end
                  end
              end
      end
  end.

Definition tree_fuel (max_nodes : nat) : nat := S (S (2 * max_nodes)).

(* def _branch_and_price(demands, columns, column_set, pricing_fn, is_cutting_stock, max_iter, max_nodes, gap_tol, eps, ...) *)
Definition branch_and_price (eps gap_tol : Q) (is_cs : bool) (pricing : list Q -> option (option pattern * Q))
           (demands : list Z) (columns0 : list pattern) (max_iter max_nodes : nat) : option tree_out :=
  match bsolve_node_lp eps is_cs pricing demands [] max_iter columns0 with
  | None => None
  | Some (cols, x, _, lp, cg_iters, conv) =>
      match lp with
      | None => Some (mkTO (mkBA INFEASIBLE None None 0 cg_iters) cols [])
      | Some lp_obj =>
          let rb := if conv then Some (Qceil (lp_obj - eps)) else None in
          let enter best := tree_loop eps gap_tol is_cs pricing demands max_iter max_nodes rb (tree_fuel max_nodes)
                                      cols best [(lp_obj, O, [])] 1 0 cg_iters [] in
          let after_integral :=
            match round_solution eps cols x demands with
            | Some (sol, total) =>
                if proven gap_tol rb (inject_Z total)
                then Some (mkTO (mkBA OPTIMAL (Some sol) (Some total) 0 cg_iters) cols [])
                else enter (Some (sol, total))
            | None => enter None
            end in
          match most_fractional eps 0 x (None, 0) with
          | None =>
              let sol := build_solution eps cols x in
              if covers sol demands
              then Some (mkTO (mkBA (if proven gap_tol rb lp_obj then OPTIMAL else FEASIBLE) (Some sol) (Some (plan_total sol))
                                    0 cg_iters) cols [])
              else after_integral
          | Some _ => after_integral
          end
      end
  end.

Inductive tree_outcome :=
| TAns (o : tree_out)
| TInvalid            (* ValueError from input validation *)
| TNoFuel.            (* not modelled: simplex_phase ran 100000 iterations / knapsack fallback / loop fuel *)

Definition tree_trivial : tree_out := mkTO (mkBA OPTIMAL (Some []) (Some 0%Z) 0 0) [] [].

(* solve_bp(demands, roll_width=, piece_sizes=, max_iter=, max_nodes=) *)
Definition solve_bp_tree (eps gap_tol : Q) (sizes : list Z) (width : Z) (demands : list Z) (max_iter max_nodes : nat)
  : tree_outcome :=
  match demands with
  | [] => TAns tree_trivial
  | _ =>
      if negb (forallb (Z.leb 0) demands) then TInvalid
      else if forallb (Z.eqb 0) demands then TAns tree_trivial
      else if negb (Nat.eqb (length sizes) (length demands)) then TInvalid
      else if negb (valid_sizes sizes width) then TInvalid
      else match branch_and_price eps gap_tol true (cs_pricing eps sizes width) demands
                                  (initial_patterns sizes width demands) max_iter max_nodes with
           | None => TNoFuel
           | Some r => TAns r
           end
  end.

(* solve_bp(demands, pricing_fn=, initial_columns=, max_iter=, max_nodes=) *)
Definition solve_bp_tree_custom (eps gap_tol : Q) (pricing : pricing_fn) (demands : list Z) (init : list pattern)
           (max_iter max_nodes : nat) : tree_outcome :=
  match demands with
  | [] => TAns tree_trivial
  | _ =>
      if negb (forallb (Z.leb 0) demands) then TInvalid
      else if forallb (Z.eqb 0) demands then TAns tree_trivial
      else if negb (forallb (fun c => Nat.eqb (length c) (length demands)) init) then TInvalid
      else match branch_and_price eps gap_tol false (fun y => Some (pricing y)) demands init max_iter max_nodes with
           | None => TNoFuel
           | Some r => TAns r
           end
  end.
