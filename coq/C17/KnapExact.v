(* C17_pricing_exact: knapsack_pricing (eps = 0, positive integer sizes) never takes the unmodelled greedy
   fallback, returns a fitting pattern together with its exact value, and that value is the maximum over ALL fitting patterns. *)
From Coq Require Import List ZArith QArith Bool Arith Lia.
From SV Require Import C17.Cg C17.CgSpec C17.GateProofs C17.PoolProofs C17.KnapPass C17.KnapProofs.
Import ListNotations.

Lemma dotz_ge_term : forall s a i, Forall (fun x => (0 <= x)%Z) s -> Forall (fun x => (0 <= x)%Z) a ->
  (getz s i * getz a i <= dotz s a)%Z.
Proof.
  induction s as [|sv s IH]; intros a i Hs Ha; simpl.
  - unfold getz. destruct i; simpl; lia.
  - destruct a as [|x a].
    + unfold getz. destruct i; simpl; lia.
    + inversion Hs; subst. inversion Ha; subst. destruct i as [|i]; unfold getz; simpl.
      * pose proof (dotz_nonneg s a H2 H4). lia.
      * specialize (IH a i H2 H4). unfold getz in IH. nia.
Qed.

Lemma dotz_scale : forall s a k, dotz (map (fun x => (x * k)%Z) s) a = (dotz s a * k)%Z.
Proof.
  induction s as [|sv s IH]; intros a k; simpl; [reflexivity|]. destruct a as [|x a]; [reflexivity|]. rewrite IH. lia.
Qed.

(* a with the entries of non-positive value removed *)
Fixpoint zeroneg (y : list Q) (a : list Z) : list Z :=
  match y, a with
  | v :: y', x :: a' => (if Qleb v 0 then 0%Z else x) :: zeroneg y' a'
  | _, _ => []
  end.

Lemma zeroneg_length : forall y a, length y = length a -> length (zeroneg y a) = length a.
Proof.
  induction y as [|v y IH]; intros a Hl; destruct a as [|x a]; simpl in *; try discriminate; [reflexivity|].
  rewrite IH by lia. reflexivity.
Qed.

Lemma zeroneg_nonneg : forall y a, Forall (fun x => (0 <= x)%Z) a -> Forall (fun x => (0 <= x)%Z) (zeroneg y a).
Proof.
  induction y as [|v y IH]; intros a Ha; destruct a as [|x a]; simpl; try constructor.
  - inversion Ha; subst. destruct (Qleb v 0); lia.
  - inversion Ha; subst. apply IH. assumption.
Qed.

Lemma zeroneg_getz : forall y a j, length y = length a -> (j < length a)%nat ->
  getz (zeroneg y a) j = if Qleb (getq y j) 0 then 0%Z else getz a j.
Proof.
  induction y as [|v y IH]; intros a j Hl Hj; destruct a as [|x a]; simpl in *; try discriminate; [lia|].
  destruct j as [|j]; unfold getz, getq; simpl; [reflexivity|]. apply IH; lia.
Qed.

Lemma zeroneg_dotq : forall y a, Forall (fun x => (0 <= x)%Z) a -> (dotq y a <= dotq y (zeroneg y a))%Q.
Proof.
  induction y as [|v y IH]; intros a Ha; destruct a as [|x a]; simpl; try apply Qle_refl.
  inversion Ha; subst. apply Qplus_le_compat; [|apply IH; assumption].
  destruct (Qleb v 0) eqn:E; [|apply Qle_refl].
  apply Qleb_le in E. unfold z2q. simpl (inject_Z 0). rewrite Qmult_0_r.
  setoid_replace 0%Q with (0 * inject_Z x)%Q by ring.
  apply Qmult_le_compat_r; [exact E|]. change 0%Q with (inject_Z 0). rewrite <- Zle_Qle. assumption.
Qed.

Lemma zeroneg_dotz : forall y s a, Forall (fun x => (0 <= x)%Z) s -> Forall (fun x => (0 <= x)%Z) a ->
  (dotz s (zeroneg y a) <= dotz s a)%Z.
Proof.
  induction y as [|v y IH]; intros s a Hs Ha.
  - simpl. destruct s; simpl; [|]; pose proof (dotz_nonneg _ _ Hs Ha); simpl in *; lia.
  - destruct a as [|x a]; [destruct s; simpl; lia|].
    destruct s as [|sv s]; simpl; [lia|].
    inversion Hs; subst. inversion Ha; subst. specialize (IH s a H2 H4).
    destruct (Qleb v 0); nia.
Qed.

Lemma valid_sizes_scaled : forall sizes cap, valid_sizes sizes cap = true ->
  map (fun s => Z.max 1 (s * knap_scale)) sizes = map (fun s => (s * knap_scale)%Z) sizes.
Proof.
  intros sizes cap Hv. apply map_ext_in. intros s Hin. pose proof (valid_sizes_In _ _ _ Hv Hin). unfold knap_scale. lia.
Qed.

Lemma valid_sizes_pos : forall sizes cap, valid_sizes sizes cap = true -> Forall (fun x => (1 <= x)%Z) sizes.
Proof. intros sizes cap Hv. apply Forall_forall. intros s Hin. pose proof (valid_sizes_In _ _ _ Hv Hin). lia. Qed.

Lemma max_copies_nth : forall sizes cap j, (j < length sizes)%nat ->
  getz (max_copies sizes cap) j = (if Z.ltb 0 (getz sizes j) then cap / getz sizes j else 0)%Z.
Proof.
  induction sizes as [|s sizes IH]; intros cap j Hj; simpl in Hj; [lia|].
  destruct j as [|j]; unfold getz; simpl; [reflexivity|]. apply IH. lia.
Qed.

(* a fitting pattern never holds more than cap / size_j copies of piece j *)
Lemma fits_le_copies : forall sizes cap a j,
  valid_sizes sizes cap = true -> fits sizes cap a -> (j < length sizes)%nat ->
  (getz a j <= Z.max 0 (getz (max_copies sizes cap) j))%Z.
Proof.
  intros sizes cap a j Hv [_ [Hfa Hwa]] Hj. destruct (valid_sizes_nth _ _ _ Hv Hj) as [Hsj _].
  rewrite max_copies_nth, (proj2 (Z.ltb_lt 0 _) Hsj) by exact Hj.
  assert (Hnn : Forall (fun x => (0 <= x)%Z) sizes).
  { eapply Forall_impl; [|exact (valid_sizes_pos _ _ Hv)]. intros x Hx. simpl in Hx. lia. }
  pose proof (dotz_ge_term sizes a j Hnn Hfa) as Hterm.
  assert (getz a j <= cap / getz sizes j)%Z by (apply Z.div_le_lower_bound; lia). lia.
Qed.

Lemma knapsack_pricing_unfold : forall eps sizes cap values, sizes <> [] ->
  knapsack_pricing eps sizes cap values =
  (let '(best_pat, best_val) := knap_dp eps (map (fun s => Z.max 1 (s * knap_scale)) sizes) (cap * knap_scale)
                                        (max_copies sizes cap) values in
   if Qltb (z2q cap + eps) (z2q (dotz sizes best_pat)) then None else Some (best_pat, best_val)).
Proof. intros eps sizes cap values Hne. destruct sizes; [contradiction | reflexivity]. Qed.

Theorem knapsack_pricing_exact : forall sizes cap y,
  valid_sizes sizes cap = true -> length y = length sizes -> (0 <= cap)%Z ->
  exists pat v, knapsack_pricing 0 sizes cap y = Some (pat, v) /\
    fits sizes cap pat /\ (v == dotq y pat)%Q /\
    forall a, fits sizes cap a -> (dotq y a <= v)%Q.
Proof.
  intros sizes cap y Hv Hly Hcap0.
  destruct (list_eq_dec Z.eq_dec sizes []) as [Hnil|Hne].
  - subst sizes. destruct y; [|discriminate]. exists [], 0%Q. simpl.
    split; [reflexivity|]. split; [unfold fits; simpl; repeat split; [constructor | exact Hcap0]|].
    split; [reflexivity|]. intros a [Hl _]. destruct a; [|discriminate]. simpl. apply Qle_refl.
  - rewrite (knapsack_pricing_unfold 0 sizes cap y Hne), (valid_sizes_scaled sizes cap Hv).
    set (ssi := map (fun s => (s * knap_scale)%Z) sizes). set (n := length sizes).
    assert (Hss : length ssi = n) by apply map_length.
    assert (Hpos0 : Forall (fun x => (1 <= x)%Z) sizes) by (apply (valid_sizes_pos sizes cap Hv)).
    assert (Hpos : Forall (fun x => (1 <= x)%Z) ssi).
    { apply Forall_map. eapply Forall_impl; [|exact Hpos0]. intros x Hx. simpl in Hx. unfold knap_scale. lia. }
    assert (Hnn0 : Forall (fun x => (0 <= x)%Z) sizes) by (eapply Forall_impl; [|exact Hpos0]; intros x Hx; simpl in Hx; lia).
    assert (Hcop : length (max_copies sizes cap) = n) by apply map_length.
    assert (Hcz : (0 <= cap * knap_scale)%Z) by (unfold knap_scale; lia).
    destruct (knap_dp 0 ssi (cap * knap_scale) (max_copies sizes cap) y) as [bp bv] eqn:Edp.
    pose proof (knap_dp_ok 0 ssi (cap * knap_scale) (max_copies sizes cap) y) as Hok. rewrite Edp, Hss in Hok.
    destruct (knap_dp_spec n ssi y Hss Hly Hpos (Z.to_nat (cap * knap_scale)) (max_copies sizes cap) Hcop
                           (cap * knap_scale)%Z bp bv Hcz eq_refl Edp) as [Hval [Hwt Hmax]].
    unfold ssi in Hwt, Hmax. setoid_rewrite dotz_scale in Hmax. rewrite dotz_scale in Hwt. unfold knap_scale in Hwt, Hmax.
    assert (Hwt' : (dotz sizes bp <= cap)%Z) by lia.
    assert (Hchk : Qltb (z2q cap + 0) (z2q (dotz sizes bp)) = false).
    { apply Qltb_false. rewrite Qplus_0_r. unfold z2q. rewrite <- Zle_Qle. exact Hwt'. }
    rewrite Hchk. exists bp, bv. split; [reflexivity|].
    split; [destruct Hok as [Hl Hf]; unfold fits; repeat split; assumption|].
    split; [exact Hval|].
    (* a fitting pattern is dominated by itself with the entries of non-positive value removed, which the DP covers *)
    intros a Ha. pose proof Ha as [Hla [Hfa Hwa]].
    eapply Qle_trans; [apply (zeroneg_dotq y a Hfa)|].
    assert (Hlya : length y = length a) by (rewrite Hla; exact Hly).
    apply Hmax.
    + split; [rewrite zeroneg_length by exact Hlya; exact Hla | apply zeroneg_nonneg; exact Hfa].
    + intros j Hj. rewrite zeroneg_getz by (rewrite ?Hla; auto).
      unfold Bfun. destruct (Qleb (getq y j) 0); [lia | exact (fits_le_copies _ _ _ _ Hv Ha Hj)].
    + pose proof (zeroneg_dotz y sizes a Hnn0 Hfa). lia.
Qed.
