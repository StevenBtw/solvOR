(* C17_weak_duality: a dual vector y >= 0 with y.a <= 1 for every admissible pattern bounds the number of rolls of
   every (even fractional) covering plan from below by y.d; hence ceil(y.d) <= true minimum. *)
From Coq Require Import List ZArith QArith Qabs Qround Bool Arith Lia Lqa.
From SV Require Import C17.Cg C17.CgSpec C17.GateProofs.
Import ListNotations.
Open Scope Q_scope.

(* sum_p c_p * (y . a_p) *)
Definition wsum (y : list Q) (P : fplan) : Q := fold_right (fun pc acc => snd pc * dotq y (fst pc) + acc) 0 P.
Definition tlplan (P : fplan) : fplan := map (fun pc => (tl (fst pc), snd pc)) P.

Lemma dotq_nil_r : forall y, dotq y [] = 0.
Proof. destruct y; reflexivity. Qed.

Lemma wsum_nil : forall P, wsum [] P == 0.
Proof. induction P as [|pc P IH]; simpl; [reflexivity|]. rewrite IH. ring. Qed.

Lemma wsum_cons : forall v y P, wsum (v :: y) P == v * fproduced P 0 + wsum y (tlplan P).
Proof.
  intros v y. induction P as [|[a c] P IH]; simpl.
  - ring.
  - rewrite IH. destruct a as [|x a]; simpl.
    + rewrite dotq_nil_r. unfold getz, z2q. simpl. ring.
    + unfold getz. simpl. ring.
Qed.

Lemma fproduced_tl : forall P i, fproduced (tlplan P) i = fproduced P (S i).
Proof.
  induction P as [|[a c] P IH]; intros i; simpl; [reflexivity|].
  rewrite IH. f_equal. destruct a as [|x a]; unfold getz; simpl; [destruct i; reflexivity | reflexivity].
Qed.

Lemma dot_le_wsum : forall y d P,
  Forall (fun v => 0 <= v) y -> length d = length y ->
  (forall i, (i < length d)%nat -> z2q (getz d i) <= fproduced P i) ->
  dotq y d <= wsum y P.
Proof.
  induction y as [|v y IH]; intros d P Hy Hl Hc.
  - simpl. rewrite wsum_nil. apply Qle_refl.
  - destruct d as [|x d]; [discriminate|]. simpl in Hl. injection Hl as Hl.
    apply Forall_cons_iff in Hy. destruct Hy as [Hv Hy].
    simpl dotq. rewrite wsum_cons.
    apply Qplus_le_compat.
    + rewrite (Qmult_comm v (z2q x)), (Qmult_comm v (fproduced P 0)).
      apply Qmult_le_compat_r; [|exact Hv]. apply (Hc O). simpl. lia.
    + apply IH; [exact Hy | exact Hl |]. intros i Hi. rewrite fproduced_tl.
      apply (Hc (S i)). simpl. lia.
Qed.

Lemma wsum_le_frolls : forall y P,
  Forall (fun pc => dotq y (fst pc) <= 1 /\ 0 <= snd pc) P -> wsum y P <= frolls P.
Proof.
  intros y. induction P as [|[a c] P IH]; intros H; simpl.
  - apply Qle_refl.
  - apply Forall_cons_iff in H. destruct H as [[H1 H2] H]. simpl in H1, H2.
    apply Qplus_le_compat; [|apply IH; exact H].
    setoid_replace c with (c * 1) at 2 by ring.
    rewrite (Qmult_comm c (dotq y a)), (Qmult_comm c 1).
    apply Qmult_le_compat_r; assumption.
Qed.

Theorem weak_duality_frac : forall (feas : pattern -> Prop) y d P,
  dual_feasible feas y -> length d = length y -> fcovering feas d P ->
  dotq y d <= frolls P.
Proof.
  intros feas y d P [Hy Hf] Hl [HP Hc].
  apply Qle_trans with (wsum y P).
  - apply dot_le_wsum; assumption.
  - apply wsum_le_frolls. apply Forall_forall. intros pc Hin. rewrite Forall_forall in HP.
    destruct (HP pc Hin) as [H1 H2]. split; [apply Hf; exact H1 | exact H2].
Qed.

Definition to_fplan (P : plan) : fplan := map (fun pc => (fst pc, z2q (snd pc))) P.

Lemma frolls_to_fplan : forall P, frolls (to_fplan P) == z2q (rolls P).
Proof.
  induction P as [|[a c] P IH]; simpl; [reflexivity|].
  rewrite IH. unfold z2q. rewrite inject_Z_plus. reflexivity.
Qed.

Lemma fproduced_to_fplan : forall P i, fproduced (to_fplan P) i == z2q (produced P i).
Proof.
  intros P i. induction P as [|[a c] P IH]; simpl; [reflexivity|].
  rewrite IH. unfold z2q. rewrite inject_Z_plus, inject_Z_mult. reflexivity.
Qed.

Lemma covering_to_fplan : forall feas d P, covering feas d P -> fcovering feas d (to_fplan P).
Proof.
  intros feas d P [HP Hc]. split.
  - unfold to_fplan. apply Forall_forall. intros pc Hin. apply in_map_iff in Hin. destruct Hin as [[a c] [He Hin]].
    subst pc. simpl. rewrite Forall_forall in HP. destruct (HP _ Hin) as [H1 H2]. simpl in H1, H2.
    split; [exact H1|]. unfold z2q. change 0 with (inject_Z 0). rewrite <- Zle_Qle. exact H2.
  - intros i Hi. rewrite fproduced_to_fplan. unfold z2q. rewrite <- Zle_Qle. apply Hc. exact Hi.
Qed.

Theorem weak_duality : forall (feas : pattern -> Prop) y d P,
  dual_feasible feas y -> length d = length y -> covering feas d P ->
  dotq y d <= z2q (rolls P).
Proof.
  intros feas y d P Hy Hl Hc. rewrite <- frolls_to_fplan.
  apply (weak_duality_frac feas); [exact Hy | exact Hl | apply covering_to_fplan; exact Hc].
Qed.

Theorem dual_bound_ceil : forall (feas : pattern -> Prop) y d P,
  dual_feasible feas y -> length d = length y -> covering feas d P ->
  (Qceiling (dotq y d) <= rolls P)%Z.
Proof.
  intros feas y d P Hy Hl Hc. pose proof (weak_duality feas y d P Hy Hl Hc) as H.
  apply Qceiling_resp_le in H. unfold z2q in H. rewrite Qceiling_Z in H. exact H.
Qed.

Corollary dual_bound_min : forall (feas : pattern -> Prop) y d r,
  dual_feasible feas y -> length d = length y -> is_min feas d r ->
  (Qceiling (dotq y d) <= r)%Z.
Proof.
  intros feas y d r Hy Hl [[P [Hc Hr]] _]. subst r. apply (dual_bound_ceil feas); assumption.
Qed.
