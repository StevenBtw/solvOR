(* C17 deep - the master LP (eps = 0; cg's `_solve_master_lp`, drive = false; bp's root LP, drive = true): one walk through
   master_lp gives the final tableau with all invariants (`master_run`).  From it: the dual vector y is non-negative, prices
   every pool column at most 1, and y.d equals the reported LP objective; for non-negative demands the primal vector x the
   model reads off the tableau is non-negative and sums to the LP objective; the per-run hypothesis `simplex_residue` of
   OptimalProofs.optimal_partial_eps0 holds of every run. *)
From Coq Require Import List Qabs Lia Lqa.
From SV Require Import C17.Cg C17.CgSpec C17.PoolProofs C17.CgGateProofs C17.OptimalProofs C17.DeepSum C17.DeepInv C17.DeepPhase C17.DeepInit.
Import ListNotations.
Open Scope Q_scope.

Definition m_x (n : nat) (basis2 : list nat) (T2 : tableau) : list Q :=
  fst (fold_left (fun (st : list Q * nat) r =>
                    let b := nth (snd st) basis2 O in
                    ((if Nat.ltb b n then set_nth b (Qred (qmax 0 (lastq r))) (fst st) else fst st), S (snd st)))
                 (t_rows T2) (repeat 0 n, O)).

Lemma master_lp_eq : forall drive eps (columns : list pattern) demands, columns <> [] ->
  master_lp drive eps columns demands =
  let m := length demands in
  let n := length columns in
  let rows := m_rows columns demands in
  let '(T1, basis1, ok1) := simplex_phase eps simplex_fuel (n + m) (mkT rows (m_obj1 n m rows)) (seq (n + m) m) in
  if negb ok1 then None
  else if Qltb (lastq (t_obj T1)) (- eps) then Some (repeat 0 n, repeat 0 m, None)
  else
    let '(T1d, basis1d) := if drive then drive_out_artificials eps (n + m) m T1 basis1 else (T1, basis1) in
    let '(T2, basis2, ok2) := simplex_phase eps simplex_fuel (n + m)
                                (mkT (t_rows T1d) (m_obj2 eps n m basis1d (t_rows T1d))) basis1d in
    if negb ok2 then None
    else Some (m_x n basis2 T2, map (fun i => getq (t_obj T2) (n + i)) (seq 0 m), Some (Qred (- lastq (t_obj T2)))).
Proof. intros drive eps columns demands H. destruct columns as [|c cs]; [congruence | reflexivity]. Qed.

(* at a feasible exit of phase 1 (cost row c1, objective cell not below 0) the basic artificials sit at 0 *)
Lemma phase1_DInv : forall n m A D fuel T b T1 b1 ok,
  rowsInv n m A D (t_rows T) b -> primal n m (t_rows T) -> basisBound n m b ->
  simplex_phase 0 fuel (n + m) T b = (T1, b1, ok) ->
  tabInv n m A D (c1 n m) T1 b1 -> Qltb (lastq (t_obj T1)) (- 0) = false ->
  DInv n m A D (t_rows T1) b1.
Proof.
  intros n m A D fuel T b T1 b1 ok HR HP HB E [HR1 [Lo1 HO1]] Einf.
  destruct (phase_primal n m A D _ _ _ _ _ _ HR HP HB E) as [HP1 HB1].
  split; [exact HR1|]. split; [exact HP1|]. split; [exact HB1|].
  apply (art_zero n m (t_rows T1) b1 (t_obj T1) HP1 HB1 HO1).
  apply Qltb_false in Einf. rewrite (lastq_getq _ _ Lo1) in Einf. intros Hneg. lra.
Qed.

Lemma drive_opt_inv : forall (drive : bool) n m A D T b Td bd,
  (if drive then drive_out_artificials 0 (n + m) m T b else (T, b)) = (Td, bd) ->
  (rowsInv n m A D (t_rows T) b -> rowsInv n m A D (t_rows Td) bd) /\
  (DInv n m A D (t_rows T) b -> DInv n m A D (t_rows Td) bd).
Proof.
  intros drive n m A D T b Td bd E. destruct drive.
  - pose proof (drive_rows n m A D T b) as Hr. pose proof (drive_DInv n m A D T b) as Hd.
    rewrite E in Hr, Hd. split; [exact Hr | exact Hd].
  - injection E as <- <-. split; intros H; exact H.
Qed.

Lemma master_run : forall drive (cols : list pattern) demands x y lp,
  master_lp drive 0 cols demands = Some (x, y, lp) ->
  let n := length cols in
  let m := length demands in
  (y = repeat 0 m /\ lp = None) \/
  exists T2 b2,
    tabInv n m (colA cols) (demD demands) (c0 n) T2 b2 /\ ObjInv n m (colA cols) (demD demands) (t_obj T2) /\
    find_enter 0 b2 (n + m) 0 (t_obj T2) = None /\
    (forallb (Z.leb 0) demands = true -> primal n m (t_rows T2)) /\
    x = m_x n b2 T2 /\ y = map (fun i => getq (t_obj T2) (n + i)) (seq 0 m) /\ lp = Some (Qred (- lastq (t_obj T2))).
Proof.
  intros drive cols demands x y lp H. cbv zeta.
  destruct cols as [|c cs] eqn:Ec; [cbn in H; inversion H; left; split; reflexivity|].
  rewrite <- Ec in *. rewrite master_lp_eq in H by (rewrite Ec; discriminate). cbv zeta in H. clear c cs Ec.
  set (n := length cols) in *. set (m := length demands) in *. set (A := colA cols). set (D := demD demands).
  (* phase 1: R1, R2 and O2 for the cost row c1 *)
  pose proof (tab0_inv cols demands) as HI0. fold n m A D in HI0.
  destruct (simplex_phase 0 simplex_fuel (n + m) (mkT (m_rows cols demands) (m_obj1 n m (m_rows cols demands))) (seq (n + m) m))
    as [[T1 b1] ok1] eqn:E1.
  destruct (phase_obj n m A D (c1 n m) _ _ _ _ _ _ HI0 E1) as [HI1 _]. pose proof HI1 as [HR1 _].
  destruct ok1; cbn [negb] in H; [|discriminate].
  destruct (Qltb (lastq (t_obj T1)) (- 0)) eqn:Einf; [inversion H; left; split; reflexivity|].
  (* drive-out keeps R1, R2; for non-negative demands phase 1 kept P, its basic artificials are at 0, drive-out keeps P *)
  destruct (if drive then drive_out_artificials 0 (n + m) m T1 b1 else (T1, b1)) as [T1d b1d] eqn:Ed.
  destruct (drive_opt_inv drive n m A D _ _ _ _ Ed) as [Hdr Hdd]. pose proof (Hdr HR1) as HR1d.
  (* phase 2: O1 and O2 for c0; its exit is "no entering column" *)
  destruct (m_obj2_inv n m A D _ _ HR1d) as [HOa HOb].
  assert (HI2 : tabInv n m A D (c0 n) (mkT (t_rows T1d) (m_obj2 0 n m b1d (t_rows T1d))) b1d)
    by (split; [exact HR1d | split; [destruct HOa as [L _]; exact L | exact HOb]]).
  destruct (simplex_phase 0 simplex_fuel (n + m) (mkT (t_rows T1d) (m_obj2 0 n m b1d (t_rows T1d))) b1d)
    as [[T2 b2] ok2] eqn:E2.
  destruct (phase_obj n m A D (c0 n) _ _ _ _ _ _ HI2 E2) as [HI2' Hexit].
  destruct ok2; cbn [negb] in H; [|discriminate].
  right. exists T2, b2. split; [exact HI2'|].
  split; [exact (phase_ObjInv n m A D _ (mkT _ _) _ _ _ _ HR1d HOa E2)|].
  split; [apply Hexit; [reflexivity | apply c0_nonneg]|]. split.
  - intros Hd. destruct HI0 as [HR0 _].
    destruct (Hdd (phase1_DInv n m A D _ _ _ _ _ _ HR0 (rows0_primal cols demands Hd) (basis0_bound cols demands) E1 HI1 Einf))
      as [_ [HP [HB _]]].
    apply (phase_primal n m A D _ (mkT _ _) _ _ _ _ HR1d HP HB E2).
  - inversion H. repeat split.
Qed.

Lemma dotq_repeat0 : forall k p, dotq (repeat 0 k) p == 0.
Proof.
  induction k as [|k IH]; intros p; [reflexivity|]. destruct p as [|x p]; [reflexivity|].
  cbn [repeat dotq]. rewrite IH. ring.
Qed.

Lemma Forall_repeat0 : forall k, Forall (fun v => 0 <= v) (repeat 0 k).
Proof. intros k. apply Forall_forall. intros v Hv. apply repeat_spec in Hv. subst. apply Qle_refl. Qed.

Lemma duals_sum : forall n m obj (W : nat -> Q),
  (forall i, (i < m)%nat -> getq obj (n + i) == - mu n m obj i) ->
  sumN (fun i => getq obj (n + i) * W i) 0 m == - sumN (fun i => mu n m obj i * W i) 0 m.
Proof.
  intros n m obj W H. rewrite (sumN_ext _ (fun i => (-(1)) * (mu n m obj i * W i))).
  - rewrite sumN_scal. ring.
  - intros i Hi. rewrite H by lia. ring.
Qed.

Theorem master_lp_duals_ok : forall drive (cols : list pattern) demands x y lp,
  master_lp drive 0 cols demands = Some (x, y, lp) ->
  Forall (fun v => 0 <= v) y /\
  (forall p, In p cols -> dotq y p <= 1) /\
  (forall o, lp = Some o -> o == dotq y demands).
Proof.
  intros drive cols demands x y lp H.
  destruct (master_run drive cols demands x y lp H) as [[-> ->]|[T2 [b2 [HI [HO1 [Hfe [_ [_ [-> ->]]]]]]]]].
  - split; [apply Forall_repeat0|]. split; [|intros o Ho; discriminate].
    intros p _. rewrite dotq_repeat0. lra.
  - set (n := length cols) in *. set (m := length demands) in *.
    pose proof (optimal_obj_nonneg n m _ _ _ T2 b2 HI Hfe) as Hnn.
    destruct HO1 as [Lo [H1 [H2 H3]]].
    split; [|split].
    + apply Forall_forall. intros v Hv. apply in_map_iff in Hv. destruct Hv as [i [Hv Hi]]. subst v.
      apply in_seq in Hi. apply Hnn. lia.
    + intros p Hp. destruct (In_nth cols p [] Hp) as [j [Hj Ej]]. fold n in Hj.
      rewrite dotq_tab0.
      rewrite (sumN_ext _ (fun i => getq (t_obj T2) (n + i) * colA cols j i))
        by (intros i _; unfold colA; rewrite Ej; reflexivity).
      rewrite (duals_sum n m _ _ H2).
      pose proof (H1 j Hj) as E. assert (Hj' : (j < n + m)%nat) by lia. pose proof (Hnn j Hj'). lra.
    + intros o Ho. assert (Eo : o = Qred (- lastq (t_obj T2))) by congruence. rewrite Eo. rewrite Qred_correct.
      rewrite (lastq_getq _ _ Lo). rewrite H3. rewrite dotq_tab0.
      symmetry. exact (duals_sum n m (t_obj T2) (demD demands) H2).
Qed.

Lemma qmax0_nonneg : forall v, 0 <= v -> qmax 0 v = v.
Proof. intros v Hv. unfold qmax. apply Qleb_le in Hv. rewrite Hv. reflexivity. Qed.

Section ReadX.
Variables (n m : nat) (A : nat -> nat -> Q) (D : nat -> Q).
Variables (rows : list row) (basis : list nat).
Hypothesis HR : rowsInv n m A D rows basis.
Hypothesis HP : primal n m rows.

Definition xstep (st : list Q * nat) (r : row) : list Q * nat :=
  let b := nth (snd st) basis O in
  ((if Nat.ltb b n then set_nth b (Qred (qmax 0 (lastq r))) (fst st) else fst st), S (snd st)).

Lemma basis_distinct : forall k k', (k < m)%nat -> (k' < m)%nat -> k <> k' -> nth k basis O <> nth k' basis O.
Proof.
  intros k k' Hk Hk' Hne Heq. destruct HR as [_ [_ [_ Hc]]].
  pose proof (Hc k k' Hk Hk') as E1. pose proof (Hc k' k' Hk' Hk') as E2.
  rewrite Heq in E1. rewrite E1 in E2. rewrite Nat.eqb_refl in E2.
  apply Nat.eqb_neq in Hne. rewrite Hne in E2. lra.
Qed.

Lemma readx_prefix : forall t, (t <= m)%nat ->
  let st := fold_left xstep (firstn t rows) (repeat 0 n, O) in
  snd st = t /\ length (fst st) = n /\
  (forall p, (forall k, (k < t)%nat -> nth k basis O <> p) -> getq (fst st) p == 0) /\
  (forall p, 0 <= getq (fst st) p) /\
  sumN (getq (fst st)) 0 n == sumN (fun k => c0 n (nth k basis O) * ent rows k (NN n m)) 0 t.
Proof.
  pose proof HR as [Hlen [Hbl [HL Hc]]].
  induction t as [|t IH]; intros Ht; cbn zeta.
  - cbn [firstn fold_left fst snd sumN]. split; [reflexivity|]. split; [apply repeat_length|].
    split; [intros p _; rewrite getq_repeat0; reflexivity|]. split; [intros p; rewrite getq_repeat0; apply Qle_refl|].
    rewrite (sumN_ext _ (fun _ => 0)) by (intros i _; rewrite getq_repeat0; reflexivity). apply sumN_zero.
  - destruct IH as [Hs [Hl [Hz [Hnn Hsum]]]]; [lia|].
    rewrite (firstn_snoc rows t []) by lia. rewrite fold_left_app.
    set (st := fold_left xstep (firstn t rows) (repeat 0 n, O)) in *.
    cbn [fold_left]. unfold xstep at 1 2 3 4 5. cbn [fst snd]. rewrite Hs.
    assert (Er : lastq (nth t rows []) = ent rows t (NN n m)) by (apply (Lin_lastq n m A D); [exact HL | lia]).
    assert (Hrt : 0 <= ent rows t (NN n m)) by (apply HP; lia).
    rewrite sumN_snoc. cbn [Nat.add]. unfold c0 at 2.
    destruct (Nat.ltb (nth t basis O) n) eqn:Eb.
    + apply Nat.ltb_lt in Eb.
      assert (Ev : Qred (qmax 0 (lastq (nth t rows []))) == ent rows t (NN n m)).
      { rewrite Qred_correct, Er, qmax0_nonneg by exact Hrt. reflexivity. }
      assert (Hzb : getq (fst st) (nth t basis O) == 0).
      { apply Hz. intros k Hk. apply basis_distinct; lia. }
      split; [reflexivity|]. split; [rewrite set_nth_length; exact Hl|]. split; [|split].
      * intros p Hp. rewrite getq_set_nth by lia.
        destruct (Nat.eqb p (nth t basis O)) eqn:Ep.
        -- apply Nat.eqb_eq in Ep. exfalso. apply (Hp t); [lia | symmetry; exact Ep].
        -- apply Hz. intros k Hk. apply Hp. lia.
      * intros p. rewrite getq_set_nth by lia. destruct (Nat.eqb p (nth t basis O)); [rewrite Ev; exact Hrt | apply Hnn].
      * rewrite (sumN_ext _ (fun p => getq (fst st) p + (if Nat.eqb p (nth t basis O) then ent rows t (NN n m) else 0))).
        -- rewrite sumN_plus, sumN_delta by lia. rewrite Hsum. ring.
        -- intros p Hp. rewrite getq_set_nth by lia. destruct (Nat.eqb p (nth t basis O)) eqn:Ep.
           ++ apply Nat.eqb_eq in Ep. subst p. rewrite Ev, Hzb. ring.
           ++ ring.
    + split; [reflexivity|]. split; [exact Hl|]. split; [|split].
      * intros p Hp. apply Hz. intros k Hk. apply Hp. lia.
      * exact Hnn.
      * rewrite Hsum. ring.
Qed.

Lemma readx_spec : forall obj,
  length (m_x n basis (mkT rows obj)) = n /\
  (forall p, 0 <= getq (m_x n basis (mkT rows obj)) p) /\
  sumN (getq (m_x n basis (mkT rows obj))) 0 n == sumN (fun k => c0 n (nth k basis O) * ent rows k (NN n m)) 0 m.
Proof.
  intros obj. pose proof HR as [Hlen _].
  destruct (readx_prefix m (le_n _)) as [_ [Hl [_ [Hnn Hsum]]]].
  assert (Ef : firstn m rows = rows) by (apply firstn_all2; lia). rewrite Ef in Hl, Hnn, Hsum.
  unfold m_x. cbn [t_rows]. change (fold_left _ rows (repeat 0 n, O)) with (fold_left xstep rows (repeat 0 n, O)).
  split; [exact Hl|]. split; [exact Hnn | exact Hsum].
Qed.

End ReadX.

Theorem master_lp_primal_ok : forall drive (cols : list pattern) demands x y lp,
  master_lp drive 0 cols demands = Some (x, y, Some lp) ->
  forallb (Z.leb 0) demands = true ->
  length x = length cols /\ (forall p, 0 <= getq x p) /\ sumN (getq x) 0 (length cols) == lp.
Proof.
  intros drive cols demands x y lp H Hd.
  destruct (master_run drive cols demands x y (Some lp) H) as [[_ E]|[T2 [b2 [[HR [Lo HO2]] [_ [_ [HP [-> [_ Elp]]]]]]]]];
    [discriminate|].
  assert (E : lp = Qred (- lastq (t_obj T2))) by congruence. subst lp. clear Elp. specialize (HP Hd). destruct T2 as [rows obj]. cbn [t_rows t_obj] in *.
  destruct (readx_spec _ _ _ _ rows b2 HR HP obj) as [Hl [Hnn Hsum]].
  split; [exact Hl|]. split; [exact Hnn|].
  rewrite Hsum. rewrite Qred_correct. rewrite (lastq_getq _ _ Lo). rewrite (HO2 (NN (length cols) (length demands))).
  assert (Ec : c0 (length cols) (NN (length cols) (length demands)) = 0).
  { unfold c0. replace (Nat.ltb (NN (length cols) (length demands)) (length cols)) with false; [reflexivity|].
    symmetry. apply Nat.ltb_ge. unfold NN. lia. }
  rewrite Ec. ring.
Qed.

Close Scope Q_scope.

Theorem simplex_residue_holds : forall sizes width demands max_iter r,
  solve_cg 0 sizes width demands max_iter = Done r -> r_status r = OPTIMAL ->
  simplex_residue demands r = true.
Proof.
  intros sizes width demands max_iter r H Hs. unfold simplex_residue.
  destruct (solve_cg_cases _ _ _ _ _ _ H)
    as [[_ Ht]|(_ & _ & _ & pats & it & conv & x & duals & lp & _ & Em & [Hi|(_ & o & -> & ->)])].
  - injection Ht as <-. cbn [r_duals r_lp forallb andb]. destruct demands; reflexivity.
  - rewrite Hi in Hs. discriminate.
  - cbn [r_duals r_lp]. destruct (master_lp_duals_ok false pats demands x duals (Some o) Em) as [Hy [_ Hlp]].
    apply andb_true_iff. split.
    + apply forallb_Qleb0_intro. exact Hy.
    + apply Qleb_le. rewrite (Hlp o eq_refl). apply Qle_refl.
Qed.
