(* C17 - one pass of the knapsack DP (eps = 0) and its iteration: soundness of the stored patterns, completeness
   w.r.t. all patterns that respect the per-item bounds processed so far. *)
From Coq Require Import List ZArith QArith Bool Arith Lia Lqa.
From SV Require Import C17.Cg C17.CgSpec C17.GateProofs C17.PoolProofs.
Import ListNotations.

Lemma dotz_nonneg : forall s a, Forall (fun x => (0 <= x)%Z) s -> Forall (fun x => (0 <= x)%Z) a -> (0 <= dotz s a)%Z.
Proof.
  induction s as [|sv s IH]; intros a Hs Ha; simpl; [lia|]. destruct a as [|x a]; [lia|].
  inversion Hs; subst. inversion Ha; subst. specialize (IH a H2 H4). nia.
Qed.

(* <= on cell values, None = -inf *)
Definition vle (a b : option Q) : Prop :=
  match a, b with
  | None, _ => True
  | Some x, Some y => (x <= y)%Q
  | Some _, None => False
  end.

Lemma vle_refl : forall a, vle a a.
Proof. destruct a; simpl; [apply Qle_refl | exact I]. Qed.

Lemma vle_trans : forall a b c, vle a b -> vle b c -> vle a c.
Proof.
  intros [x|] [y|] [z|]; simpl; intros H1 H2; try exact I; try contradiction.
  eapply Qle_trans; eassumption.
Qed.

Lemma upd_ge_cur : forall v i cur prev, vle (fst cur) (fst (knap_upd 0 v i cur prev)).
Proof.
  intros v i cur prev. unfold knap_upd. destruct prev as [[[pv|] pp]|]; try apply vle_refl.
  destruct (fst cur) as [cv|] eqn:Ec; [|exact I].
  destruct (Qltb (cv + 0) (Qred (pv + v))) eqn:E.
  - apply Qltb_lt in E. cbn [fst vle]. lra.
  - rewrite Ec. apply vle_refl.
Qed.

Lemma upd_ge_prev : forall v i cur pv pp, vle (Some (pv + v)%Q) (fst (knap_upd 0 v i cur (Some (Some pv, pp)))).
Proof.
  intros v i cur pv pp. unfold knap_upd. pose proof (Qred_correct (pv + v)) as Hr.
  destruct (fst cur) as [cv|] eqn:Ec; [|cbn [fst vle]; lra].
  destruct (Qltb (cv + 0) (Qred (pv + v))) eqn:E; [cbn [fst vle]; lra|].
  apply Qltb_false in E. rewrite Ec. cbn [vle]. lra.
Qed.

Section Knap.
Variable n : nat.
Variable ss : list Z.          (* integer sizes of the DP *)
Variable vs : list Q.          (* values *)
Hypothesis Hss : length ss = n.
Hypothesis Hvs : length vs = n.
Hypothesis Hpos : Forall (fun x => (1 <= x)%Z) ss.

(* default cell for `nth`: unreachable *)
Definition d0 : cell := (None, repeat 0%Z n).

Lemma ss_nonneg : Forall (fun x => (0 <= x)%Z) ss.
Proof. eapply Forall_impl; [|exact Hpos]. intros x Hx. simpl in Hx. lia. Qed.

Lemma ss_nth_pos : forall i, (i < n)%nat -> (1 <= getz ss i)%Z.
Proof.
  intros i Hi. rewrite Forall_forall in Hpos. apply Hpos. unfold getz. apply nth_In. rewrite Hss. exact Hi.
Qed.

(* the stored pattern of a reachable cell has exactly the weight of its index and the value of the cell *)
Definition cell_sound (w : nat) (c : cell) : Prop :=
  forall u, fst c = Some u -> pat_ok n (snd c) /\ dotz ss (snd c) = Z.of_nat w /\ (u == dotq vs (snd c))%Q.
Definition dp_sound (dp : list cell) : Prop := forall w, (w < length dp)%nat -> cell_sound w (nth w dp d0).

Lemma upd_sound : forall i s w cur prevc,
  (i < n)%nat -> Z.of_nat s = getz ss i -> (s <= w)%nat ->
  cell_sound w cur -> cell_sound (w - s) prevc ->
  cell_sound w (knap_upd 0 (getq vs i) i cur (Some prevc)).
Proof.
  intros i s w cur prevc Hi Hs Hsw Hc Hp. unfold knap_upd.
  destruct prevc as [[pv|] pp]; [|exact Hc].
  assert (Hnew : cell_sound w (Some (Qred (pv + getq vs i)), incr_at i pp)).
  { intros u Hu. replace u with (Qred (pv + getq vs i)) by (cbn [fst] in Hu; congruence). clear u Hu.
    destruct (Hp pv eq_refl) as [Hok [Hw Hval]]. cbn [fst snd] in *.
    split; [apply incr_at_ok; exact Hok|]. destruct Hok as [Hl _].
    rewrite incr_at_add. split.
    - rewrite dotz_add_at by lia. lia.
    - rewrite dotq_add_at by lia. rewrite Qred_correct, Hval. change (z2q 1) with 1%Q. ring. }
  destruct (fst cur) as [cv|]; [|exact Hnew].
  destruct (Qltb (cv + 0) (Qred (pv + getq vs i))); [exact Hnew | exact Hc].
Qed.

(* completeness: every pattern within the bounds is dominated by the cell of its weight *)
Variable cap : nat.
Definition dp_complete (bound : nat -> Z) (dp : list cell) : Prop :=
  forall a, pat_ok n a -> (forall j, (j < n)%nat -> (getz a j <= bound j)%Z) -> (dotz ss a <= Z.of_nat cap)%Z ->
  vle (Some (dotq vs a)) (fst (nth (Z.to_nat (dotz ss a)) dp d0)).

Definition setb (bound : nat -> Z) (i : nat) (x : Z) : nat -> Z := fun j => if Nat.eqb j i then x else bound j.

Definition dp_inv (bound : nat -> Z) (dp : list cell) : Prop :=
  dp_sound dp /\ dp_complete bound dp /\ length dp = S cap.

Lemma dp_inv_weaken : forall b b' dp,
  (forall j, (j < n)%nat -> (b' j <= b j)%Z) -> dp_inv b dp -> dp_inv b' dp.
Proof.
  intros b b' dp Hb [Hs [Hc Hl]]. split; [exact Hs|]. split; [|exact Hl].
  intros a Ha Hab Hw. apply Hc; [exact Ha | | exact Hw].
  intros j Hj. eapply Z.le_trans; [apply Hab | apply Hb]; exact Hj.
Qed.

(* One pass for item i allows one more copy of it. *)
Lemma pass_inv : forall i dp bound,
  (i < n)%nat -> (0 <= bound i)%Z -> dp_inv bound dp ->
  dp_inv (setb bound i (bound i + 1)%Z) (knap_pass 0 (getq vs i) i (Z.to_nat (getz ss i)) dp).
Proof.
  intros i dp bound Hi Hb0 [Hd [Hc Hlen]]. set (s := Z.to_nat (getz ss i)).
  assert (Hs : Z.of_nat s = getz ss i) by (pose proof (ss_nth_pos i Hi); apply Z2Nat.id; lia).
  split; [|split; [|rewrite knap_pass_length; exact Hlen]].
  - intros w Hw. rewrite knap_pass_length in Hw. rewrite (knap_pass_nth _ _ _ _ _ _ d0 Hw).
    destruct (Nat.ltb_spec w s) as [Hlt|Hge]; [apply Hd; exact Hw|].
    apply (upd_sound i s w _ _ Hi Hs Hge); apply Hd; lia.
  - intros a Ha Hb Hw.
    assert (Hnn : (0 <= dotz ss a)%Z) by (apply dotz_nonneg; [apply ss_nonneg | apply Ha]).
    rewrite knap_pass_nth by lia.
    destruct (Z_le_gt_dec (getz a i) (bound i)) as [Hle|Hgt].
    + (* within the old bounds: the old cell dominates, and a pass only raises a cell *)
      eapply vle_trans; [|apply upd_ge_cur]. apply Hc; [exact Ha | | exact Hw].
      intros j Hj. specialize (Hb j Hj). unfold setb in Hb. destruct (Nat.eqb_spec j i) as [E|_]; [subst j; exact Hle | exact Hb].
    + (* one more copy of item i than before: remove it and use the cell s below *)
      assert (Hai : getz a i = (bound i + 1)%Z).
      { specialize (Hb i Hi). unfold setb in Hb. rewrite Nat.eqb_refl in Hb. lia. }
      set (a' := add_at (-1) i a).
      assert (Hok' : pat_ok n a') by (apply pat_ok_add_at; [exact Ha | lia]).
      destruct Ha as [Hl _].
      assert (Hw' : dotz ss a' = (dotz ss a - Z.of_nat s)%Z) by (unfold a'; rewrite dotz_add_at by lia; lia).
      assert (Hnn' : (0 <= dotz ss a')%Z) by (apply dotz_nonneg; [apply ss_nonneg | apply Hok']).
      assert (Hcell : vle (Some (dotq vs a')) (fst (nth (Z.to_nat (dotz ss a')) dp d0))).
      { apply Hc; [exact Hok' | | lia]. intros j Hj. unfold a'. rewrite getz_add_at by lia.
        specialize (Hb j Hj). unfold setb in Hb. destruct (Nat.eqb_spec j i) as [E|_]; [subst j|]; lia. }
      replace (Nat.ltb (Z.to_nat (dotz ss a)) s) with false by (symmetry; apply Nat.ltb_ge; lia).
      replace (Z.to_nat (dotz ss a) - s)%nat with (Z.to_nat (dotz ss a')) by lia.
      destruct (nth (Z.to_nat (dotz ss a')) dp d0) as [[pv|] pp]; cbn [fst vle] in Hcell; [|contradiction].
      unfold a' in Hcell. rewrite dotq_add_at in Hcell by lia.
      change (z2q (-1)) with (-1)%Q in Hcell.
      eapply vle_trans; [|apply upd_ge_prev]. cbn [vle]. lra.
Qed.

(* k passes allow k more copies. *)
Lemma iter_inv : forall i k dp bound,
  (i < n)%nat -> (0 <= bound i)%Z -> dp_inv bound dp ->
  dp_inv (setb bound i (bound i + Z.of_nat k)%Z) (iter_n k (knap_pass 0 (getq vs i) i (Z.to_nat (getz ss i))) dp).
Proof.
  intros i k. induction k as [|k IH]; intros dp bound Hi Hb0 Hd; simpl iter_n.
  - eapply dp_inv_weaken; [|exact Hd]. intros j _. unfold setb. destruct (Nat.eqb_spec j i) as [E|_]; [subst j|]; lia.
  - eapply dp_inv_weaken; [|apply IH; [exact Hi | | apply pass_inv; eassumption]].
    + intros j _. unfold setb. destruct (Nat.eqb_spec j i) as [E|_]; [subst j; rewrite Nat.eqb_refl|]; lia.
    + unfold setb. rewrite Nat.eqb_refl. lia.
Qed.
End Knap.
