(* _phase1 after the run of _phase2 on the auxiliary tableau (exact arithmetic): driving the artificial variables
   out of the basis, deleting the artificial columns, putting the original objective row back and pricing out the
   basic columns; then _phase1 as a whole, any iteration limit, for an abstract start tableau whose basis0 columns
   are unit columns and in which some rhs is negative:
   - it never answers UNBOUNDED;
   - OPTIMAL: the tableau handed to the second _phase2 satisfies the (generalised) phase-2 invariant and has, on
     vectors of the original length, the same solutions (objective row included) as the start tableau;
   - INFEASIBLE: the start rows have no non-negative solution. *)
From Coq Require Import List QArith Qabs Bool Arith Lia Lqa.
From SV Require Import C03.Simplex C03.LPSpec C03.LinAlgProofs C03.PivotProofs
  C03.Phase2Inv C03.DeepInv C03.DeepExtract C03.DeepArts C03.DeepAux.
Import ListNotations.
Open Scope Q_scope.

Lemma find_drive_col_some basis : forall cs k j0 j,
  find_drive_col 0 basis j0 k cs = Some j ->
  (j0 <= j < j0 + k)%nat /\ mem_nat j basis = false /\ ~ nth (j - j0) cs 0 == 0.
Proof.
  induction cs as [|x cs IH]; intros k j0 j H; destruct k as [|k]; simpl in H; try discriminate.
  destruct (negb (mem_nat j0 basis) && Qltb 0 (Qabs x)) eqn:E.
  - inversion H; subst. apply andb_true_iff in E. destruct E as [E1 E2]. apply negb_true_iff in E1.
    rewrite Nat.sub_diag. simpl. repeat split; [lia | lia | exact E1 | apply Qabs_pos_true; exact E2].
  - apply IH in H. destruct H as [H1 [H2 H3]]. repeat split; try lia; try assumption.
    replace (j - j0)%nat with (S (j - S j0)) by lia. exact H3.
Qed.

Lemma find_drive_col_none basis : forall cs k j0,
  find_drive_col 0 basis j0 k cs = None ->
  forall i, (i < k)%nat -> (i < length cs)%nat -> mem_nat (j0 + i) basis = true \/ nth i cs 0 == 0.
Proof.
  induction cs as [|x cs IH]; intros k j0 H i Hi Hl; simpl in Hl; [lia|].
  destruct k as [|k]; [lia|]. simpl in H.
  destruct (negb (mem_nat j0 basis) && Qltb 0 (Qabs x)) eqn:E; [discriminate|].
  destruct i as [|i].
  - rewrite Nat.add_0_r. apply andb_false_iff in E. destruct E as [E|E].
    + left. apply negb_false_iff in E. exact E.
    + right. simpl. apply Qabs_pos_false. exact E.
  - replace (j0 + S i)%nat with (S j0 + i)%nat by lia. cbn [nth]. apply (IH k (S j0) H i); lia.
Qed.

Definition drive_step (arts : list nat) (N : nat) (i : nat) (st : tableau * list nat * list (nat * nat)) :=
  let '(T, basis, piv) := st in
  if mem_nat (nth i basis O) arts then
    match find_drive_col 0 basis 0 N (fst (nth i (t_rows T) row0)) with
    | Some j => (pivot 0 T i j, set_nth i j basis, piv ++ [(i, j)])
    | None => st
    end
  else st.

Lemma drive_out_S arts N k i st :
  drive_out 0 arts N (S k) i st = drive_out 0 arts N k (S i) (drive_step arts N i st).
Proof. destruct st as [[T basis] piv]. reflexivity. Qed.

Section Drive.
  Variables (N a : nat) (T2 : tableau).
  Let W := (N + a)%nat.
  Let arts := seq N a.

  Definition drive_inv (i : nat) (st : tableau * list nat * list (nat * nat)) : Prop :=
    let '(T, basis, _) := st in
    g_str W T basis /\ rhs_nonneg T
    /\ (forall i', (i' < length basis)%nat -> (nth i' basis 0 < W)%nat)
    /\ (forall i', (i' < length basis)%nat -> (N <= nth i' basis 0)%nat -> rhs T i' == 0)
    /\ (forall v, rows_sat v (t_rows T) <-> rows_sat v (t_rows T2))
    /\ (forall i' j, (i' < i)%nat -> (i' < length basis)%nat -> (N <= nth i' basis 0)%nat -> (j < N)%nat ->
                     mem_nat j basis = false -> entry T i' j == 0).

  Lemma drive_inv_skip i T basis piv : drive_inv i (T, basis, piv) ->
    ((N <= nth i basis 0)%nat -> forall j, (j < N)%nat -> mem_nat j basis = false -> entry T i j == 0) ->
    drive_inv (S i) (T, basis, piv).
  Proof.
    intros [Hs [Hr [Hlt [Hz [Heq Hdone]]]]] Hrow. repeat (split; [assumption|]).
    intros i' j Hi' Hi'b Hge Hj Hm.
    destruct (Nat.eq_dec i' i) as [->|Hne]; [apply Hrow; assumption | apply Hdone; try assumption; lia].
  Qed.

  Lemma drive_step_inv i st : drive_inv i st -> (i < length (snd (fst st)))%nat ->
    drive_inv (S i) (drive_step arts N i st).
  Proof.
    destruct st as [[T basis] piv]. cbn [fst snd]. intros Hinv Hi.
    pose proof Hinv as [Hs [Hr [Hlt [Hz [Heq Hdone]]]]]. unfold drive_step.
    pose proof (g_wf _ _ _ Hs) as Hwf. pose proof (g_len _ _ _ Hs) as Hlen.
    assert (Hik : (i < length (t_rows T))%nat) by lia.
    unfold arts. rewrite (mem_nat_seq_tail N a) by (apply Hlt; exact Hi).
    destruct (Nat.ltb_spec (nth i basis 0%nat) N) as [Elive|Elive]; cbn [negb].
    - apply drive_inv_skip; [exact Hinv | intro; lia].
    - destruct (find_drive_col 0 basis 0 N (fst (nth i (t_rows T) row0))) as [j|] eqn:Ef.
      + (* pivot (i, j): the rhs of row i is 0, so no rhs changes *)
        apply find_drive_col_some in Ef. destruct Ef as [Hj [Hjm Hjne]]. rewrite Nat.sub_0_r in Hjne.
        fold (get (fst (nth i (t_rows T) row0)) j) in Hjne. fold (entry T i j) in Hjne.
        assert (Hri : rhs T i == 0) by (apply Hz; assumption).
        assert (Hrhs_same : forall k, (k < length (t_rows T))%nat -> rhs (pivot 0 T i j) k == rhs T k).
        { intros k Hk. destruct (Nat.eq_dec k i) as [->|Hne].
          - rewrite (rhs_pivot_l T i j Hik), Hri. ring.
          - rewrite (rhs_pivot_other T i j k) by assumption. rewrite Hri. ring. }
        split; [|split; [|split; [|split; [|split]]]].
        * apply pivot_str; try assumption. unfold W. lia.
        * intros k Hk. rewrite pivot0_rows_length in Hk. rewrite Hrhs_same by exact Hk. apply Hr. exact Hk.
        * intros i' Hi'. rewrite set_nth_length in Hi'. destruct (Nat.eq_dec i' i) as [->|Hne].
          -- rewrite set_nth_same by exact Hi. unfold W. lia.
          -- rewrite set_nth_other by exact Hne. apply Hlt. exact Hi'.
        * intros i' Hi' Hge. rewrite set_nth_length in Hi'. destruct (Nat.eq_dec i' i) as [->|Hne].
          -- rewrite set_nth_same in Hge by exact Hi. lia.
          -- rewrite set_nth_other in Hge by exact Hne. rewrite Hrhs_same by lia. apply Hz; assumption.
        * intro v. rewrite <- Heq. symmetry. apply tab_equiv_rows. intro z.
          apply (pivot_equiv W); assumption.
        * (* a finished row has 0 in column j, so the pivot leaves it as it is *)
          intros i' j' Hi' Hi'b Hge Hj' Hm. rewrite set_nth_length in Hi'b.
          destruct (Nat.eq_dec i' i) as [->|Hne]; [rewrite set_nth_same in Hge by exact Hi; lia|].
          rewrite set_nth_other in Hge by exact Hne.
          destruct (pivot_row_fixed W T i j Hwf Hik i' ltac:(lia) Hne) as [Hsame _].
          -- apply Hdone; try assumption; lia.
          -- rewrite Hsame. apply Hdone; try assumption; [lia|].
             apply (mem_nat_set_nth_false j' i j basis Hi Hm). lia.
      + (* nothing to pivot on: the row is zero on every non-basic column < N *)
        apply drive_inv_skip; [exact Hinv|]. intros _ j Hj Hm.
        pose proof (find_drive_col_none basis _ _ _ Ef j Hj) as Hn.
        rewrite (row_len W T Hwf i Hik) in Hn. unfold W in Hn. specialize (Hn ltac:(lia)).
        simpl in Hn. destruct Hn as [Hn|Hn]; [congruence | exact Hn].
  Qed.

  Lemma drive_step_len i st : length (snd (fst (drive_step arts N i st))) = length (snd (fst st)).
  Proof.
    destruct st as [[T basis] piv]. unfold drive_step. cbn [fst snd].
    destruct (mem_nat (nth i basis 0%nat) arts); [|reflexivity].
    destruct (find_drive_col 0 basis 0 N (fst (nth i (t_rows T) row0))); [|reflexivity].
    cbn [fst snd]. apply set_nth_length.
  Qed.

  Lemma drive_out_inv k : forall i st, (i + k = length (snd (fst st)))%nat -> drive_inv i st ->
    drive_inv (length (snd (fst (drive_out 0 arts N k i st)))) (drive_out 0 arts N k i st).
  Proof.
    induction k as [|k IH]; intros i st Hik Hinv.
    - simpl. rewrite <- Hik, Nat.add_0_r. exact Hinv.
    - rewrite drive_out_S. apply IH.
      + rewrite drive_step_len. lia.
      + apply drive_step_inv; [exact Hinv | lia].
  Qed.

  Lemma drive_out_spec basis2 piv2 T3 basis3 piv3 :
    g_str W T2 basis2 -> rhs_nonneg T2 -> Forall (fun j => (j < W)%nat) basis2 ->
    (forall i, (i < length basis2)%nat -> (N <= nth i basis2 0)%nat -> rhs T2 i == 0) ->
    drive_out 0 arts N (length basis2) 0 (T2, basis2, piv2) = (T3, basis3, piv3) ->
    drive_inv (length basis3) (T3, basis3, piv3).
  Proof.
    intros Hs Hr Hall Hz E.
    pose proof (drive_out_inv (length basis2) 0 (T2, basis2, piv2) eq_refl) as Hd.
    rewrite E in Hd. apply Hd.
    split; [exact Hs|]. split; [exact Hr|].
    split; [intros i Hi; rewrite Forall_forall in Hall; apply Hall, nth_In, Hi|]. split; [exact Hz|].
    split; [intro v; reflexivity|]. intros i j Hi. lia.
  Qed.
End Drive.

Lemma dot_drop N a l v : length l = (N + a)%nat -> length v = N ->
  dot (drop_last a l) v == dot l (v ++ zeros a).
Proof.
  intros Hl Hv. unfold drop_last. replace (length l - a)%nat with N by lia.
  rewrite <- (firstn_skipn N l) at 2. rewrite dot_app by (rewrite firstn_length; lia).
  rewrite dot_zeros_r. ring.
Qed.

Lemma get_drop N a l j : length l = (N + a)%nat -> (j < N)%nat -> get (drop_last a l) j = get l j.
Proof. intros Hl Hj. unfold drop_last. apply get_firstn. lia. Qed.

Lemma drop_length N a l : length l = (N + a)%nat -> length (drop_last a l) = N.
Proof. intro H. unfold drop_last. rewrite firstn_length. lia. Qed.

(* pricing out the basic columns of the restored objective row: one step eliminates column basis[s] of the
   objective row with row s, exactly as _pivot does *)
Definition restore_step (basis : list nat) (s : nat) (r o : row) : row :=
  if Nat.ltb (nth s basis O) (length (fst o)) then elim_row 0 (nth s basis O) r o else o.

Lemma restore_obj_cons basis s r rows o :
  restore_obj 0 basis s (r :: rows) o = restore_obj 0 basis (S s) rows (restore_step basis s r o).
Proof. reflexivity. Qed.

Lemma restore_step_length basis s r o : length (fst (restore_step basis s r o)) = length (fst o).
Proof. unfold restore_step. destruct (Nat.ltb _ _); [apply elim_row_length | reflexivity]. Qed.

Lemma restore_length basis rows : forall s o, length (fst (restore_obj 0 basis s rows o)) = length (fst o).
Proof.
  induction rows as [|r rows IH]; intros s o; [reflexivity|]. rewrite restore_obj_cons, IH. apply restore_step_length.
Qed.

Lemma restore_rval basis v rows : forall s o,
  Forall (fun r : row => length (fst r) = length (fst o)) rows -> Forall (fun r => rval v r == 0) rows ->
  rval v (restore_obj 0 basis s rows o) == rval v o.
Proof.
  induction rows as [|r rows IH]; intros s o Hl Hs; [reflexivity|].
  rewrite restore_obj_cons. inversion Hl; subst. inversion Hs; subst.
  rewrite IH; [| rewrite restore_step_length; assumption | assumption].
  unfold restore_step. destruct (Nat.ltb _ _); [apply rval_elim_row; assumption | reflexivity].
Qed.

Lemma restore_zero N basis M rows : forall s o,
  length (fst o) = N -> Forall (fun r : row => length (fst r) = N) rows -> (s + length rows = M)%nat ->
  (forall i' k, (i' < M)%nat -> (nth i' basis 0 < N)%nat -> (s <= k < M)%nat ->
                get (fst (nth (k - s) rows row0)) (nth i' basis 0%nat) == if Nat.eqb k i' then 1 else 0) ->
  (forall i', (i' < s)%nat -> (nth i' basis 0 < N)%nat -> get (fst o) (nth i' basis 0%nat) == 0) ->
  forall i', (i' < M)%nat -> (nth i' basis 0 < N)%nat ->
             get (fst (restore_obj 0 basis s rows o)) (nth i' basis 0%nat) == 0.
Proof.
  induction rows as [|r rows IH]; intros s o Lo Hl HsM Hu Hdone i' Hi' Hlive.
  - simpl in *. apply Hdone; [lia | exact Hlive].
  - rewrite restore_obj_cons. pose proof (Forall_inv Hl) as Hr1. pose proof (Forall_inv_tail Hl) as Hr2.
    cbn beta in Hr1. simpl in HsM.
    (* of the seven premises of IH the row lengths, i' < M and the liveness of column basis[i'] are at hand *)
    apply (IH (S s)); try assumption.
    + rewrite restore_step_length. exact Lo.
    + lia.
    + intros i1 k Hi1 Hl1 Hk. specialize (Hu i1 k Hi1 Hl1 ltac:(lia)).
      replace (k - s)%nat with (S (k - S s)) in Hu by lia. exact Hu.
    + intros i1 Hi1 Hl1. unfold restore_step.
      destruct (Nat.ltb (nth s basis 0%nat) (length (fst o))) eqn:Es.
      * rewrite get_elim_row by (rewrite Lo; exact Hr1).
        pose proof (Hu i1 s ltac:(lia) Hl1 ltac:(lia)) as H1. rewrite Nat.sub_diag in H1. cbn [nth] in H1.
        destruct (Nat.eq_dec i1 s) as [->|Hne].
        -- rewrite Nat.eqb_refl in H1. rewrite H1. ring.
        -- assert (E : Nat.eqb s i1 = false) by (apply Nat.eqb_neq; lia). rewrite E in H1.
           rewrite H1, (Hdone i1) by (try assumption; lia). ring.
      * apply Nat.ltb_ge in Es. destruct (Nat.eq_dec i1 s) as [->|Hne]; [lia|].
        apply Hdone; [lia | exact Hl1].
Qed.

Section Drop.
  Variables (N a : nat) (T3 : tableau) (basis3 : list nat) (obj0 : row).
  Hypothesis Hs3 : g_str (N + a) T3 basis3.
  Hypothesis Hr3 : rhs_nonneg T3.
  (* a row whose artificial could not be driven out is 0 = 0 on the columns that stay *)
  Hypothesis Hz3 : forall i, (i < length basis3)%nat -> (N <= nth i basis3 0)%nat -> rhs T3 i == 0.
  Hypothesis Hdone3 : forall i j, (i < length basis3)%nat -> (N <= nth i basis3 0)%nat -> (j < N)%nat ->
    mem_nat j basis3 = false -> entry T3 i j == 0.
  Hypothesis Hobj0 : length (fst obj0) = N.

  Let rows4 := map (drop_cols a) (t_rows T3).
  Let obj4 := restore_obj 0 basis3 0 rows4 obj0.
  Let T4 := mkT rows4 obj4.

  Lemma drop_nth k : (k < length (t_rows T3))%nat -> nth k rows4 row0 = drop_cols a (nth k (t_rows T3) row0).
  Proof. intro Hk. unfold rows4. apply nth_map_in. exact Hk. Qed.

  Lemma drop_entry k j : (k < length (t_rows T3))%nat -> (j < N)%nat -> entry T4 k j = entry T3 k j.
  Proof.
    intros Hk Hj. unfold entry, T4. cbn [t_rows]. rewrite drop_nth by exact Hk. unfold drop_cols. cbn [fst].
    apply (get_drop N a); [apply (row_len _ _ (g_wf _ _ _ Hs3)), Hk | exact Hj].
  Qed.

  Lemma drop_rhs k : (k < length (t_rows T3))%nat -> rhs T4 k = rhs T3 k.
  Proof. intro Hk. unfold rhs, T4. cbn [t_rows]. rewrite drop_nth by exact Hk. reflexivity. Qed.

  Lemma drop_rows_len : Forall (fun r : row => length (fst r) = N) rows4.
  Proof.
    apply Forall_rows. unfold rows4 at 1. rewrite map_length. intros k Hk. rewrite drop_nth by exact Hk.
    apply (drop_length N a), (row_len _ _ (g_wf _ _ _ Hs3)), Hk.
  Qed.

  Lemma drop_unit i k : (i < length basis3)%nat -> (nth i basis3 0 < N)%nat -> (k < length (t_rows T3))%nat ->
    entry T4 k (nth i basis3 0%nat) == if Nat.eqb k i then 1 else 0.
  Proof. intros Hi Hlive Hk. rewrite drop_entry by assumption. apply (g_unit _ _ _ Hs3); [exact Hi | lia | exact Hk]. Qed.

  Lemma drop_inv : g_inv N T4 basis3.
  Proof.
    pose proof (g_len _ _ _ Hs3) as Hlen3.
    assert (L4 : length (t_rows T4) = length (t_rows T3)) by apply map_length.
    assert (L4' : length rows4 = length (t_rows T3)) by apply map_length.
    split; [constructor|].
    - split; [exact drop_rows_len | unfold T4, obj4; cbn [t_obj]; rewrite restore_length; exact Hobj0].
    - rewrite L4. exact Hlen3.
    - intros i k Hi Hlive Hk. rewrite L4 in Hk. apply drop_unit; assumption.
    - intros i Hi Hge. assert (Hik : (i < length (t_rows T3))%nat) by lia. split.
      + intro j. destruct (Nat.lt_ge_cases j N) as [Hj|Hj].
        * rewrite drop_entry by assumption. destruct (mem_nat j basis3) eqn:Em.
          -- (* j is the basic column of another row p: a unit column, 0 in row i *)
             apply mem_nat_true in Em. destruct Em as [p [Hp Hpj]].
             assert (Hpi : i <> p) by (intro; subst p; lia).
             pose proof (g_unit _ _ _ Hs3 p i Hp ltac:(lia) Hik) as Hu. rewrite Hpj in Hu.
             apply Nat.eqb_neq in Hpi. rewrite Hpi in Hu. exact Hu.
          -- apply Hdone3; assumption.
        * unfold entry. rewrite get_overflow; [reflexivity|].
          change (t_rows T4) with rows4. rewrite (proj1 (Forall_rows _ _) drop_rows_len i) by lia. exact Hj.
      + rewrite drop_rhs by exact Hik. apply Hz3; assumption.
    - intros i Hi. unfold objc, T4. cbn [t_obj].
      destruct (Nat.lt_ge_cases (nth i basis3 0%nat) N) as [Hlive|Hge].
      + (* left after the hypotheses at hand and 0 + length rows4 = length rows4: row lengths, unit columns, nothing done yet, i in range *)
        unfold obj4. apply (restore_zero N basis3 (length rows4) rows4 0 obj0); try assumption; try reflexivity.
        * exact drop_rows_len.
        * intros i' k Hi' Hl' Hk. rewrite Nat.sub_0_r. apply (drop_unit i' k); try assumption; lia.
        * intros i' Hi'. lia.
        * lia.
      + rewrite get_overflow; [reflexivity|]. unfold obj4. rewrite restore_length, Hobj0. exact Hge.
    - intros k Hk. rewrite L4 in Hk. rewrite drop_rhs by exact Hk. apply Hr3. exact Hk.
  Qed.

  Lemma drop_rows v : length v = N -> (rows_sat v rows4 <-> rows_sat (v ++ zeros a) (t_rows T3)).
  Proof.
    intro Lv. unfold rows_sat, rows4. rewrite Forall_map.
    split; intro HF; apply Forall_forall; intros r Hr; rewrite Forall_forall in HF; specialize (HF r Hr);
      pose proof (proj1 (Forall_forall _ _) (proj1 (g_wf _ _ _ Hs3)) r Hr) as Hlr;
      unfold row_sat, drop_cols in *; cbn [fst snd] in *.
    - rewrite <- (dot_drop N a) by assumption. exact HF.
    - rewrite (dot_drop N a) by assumption. exact HF.
  Qed.

  (* pricing out only adds multiples of satisfied rows *)
  Lemma drop_obj v : rows_sat v rows4 -> rval v obj4 == rval v obj0.
  Proof.
    intro Hs4. unfold obj4. apply restore_rval.
    - rewrite Hobj0. exact drop_rows_len.
    - eapply Forall_impl; [|exact Hs4]. intros r. apply row_sat_rval.
  Qed.

  (* on vectors of the kept length T4 says what the rows of T3 say of the padded vector, and obj0 *)
  Lemma drop_sat v z : length v = N ->
    (tab_sat v z T4 <-> rows_sat (v ++ zeros a) (t_rows T3) /\ obj_sat v z obj0).
  Proof.
    intro Lv. unfold tab_sat, T4. cbn [t_rows t_obj]. fold (rows_sat v rows4).
    rewrite <- (drop_rows v Lv), !obj_sat_rval. split; intros [H1 H2].
    - split; [exact H1|]. rewrite <- (drop_obj v H1). exact H2.
    - split; [exact H1|]. rewrite (drop_obj v H1). exact H2.
  Qed.
End Drop.

Section Phase1.
  Variables (n m : nat) (T0 : tableau) (basis0 : list nat).
  Let N := (n + m)%nat.
  Hypothesis Hwf0 : tab_wf N T0.
  Hypothesis Hm : length (t_rows T0) = m.
  Hypothesis Hb0 : length basis0 = m.
  Hypothesis Hlt0 : forall i, (i < m)%nat -> (nth i basis0 0 < N)%nat.
  Hypothesis Hunit0 : forall i k, (i < m)%nat -> (k < m)%nat ->
    get (fst (nth k (t_rows T0) row0)) (nth i basis0 0%nat) == if Nat.eqb k i then 1 else 0.
  Hypothesis Hneg : exists k, (k < m)%nat /\ snd (nth k (t_rows T0) row0) < 0.

  Theorem phase1_spec fuel st iters T1 basis1 piv1 :
    phase1 0 fuel m n T0 basis0 = (st, iters, T1, basis1, piv1) ->
    st <> UNBOUNDED
    /\ (st = OPTIMAL ->
        g_inv N T1 basis1 /\ forall v z, length v = N -> (tab_sat v z T0 <-> tab_sat v z T1))
    /\ (st = INFEASIBLE ->
        forall v, length v = N -> Forall (fun q => 0 <= q) v -> ~ rows_sat v (t_rows T0)).
  Proof.
    intro H. unfold phase1 in H. cbv zeta in H. fold N in H.
    destruct Hwf0 as [Hrows0 Hobj0].
    destruct (add_arts 0 N m 0 (t_rows T0, t_obj T0, basis0, [])) as [[[rows1 obj1] bas1] arts] eqn:Ea.
    pose proof (add_arts_spec N m (t_rows T0) basis0 Hm Hb0 Hlt0 (t_obj T0) rows1 obj1 bas1 arts Ea) as Hinv.
    assert (Ha : arts <> []).
    { destruct Hneg as [k [Hk Hlt]]. destruct Hinv as [_ [_ [_ [Hspec _]]]].
      destruct (Hspec k Hk) as [ext [_ [[_ [_ [Hpos _]]]|[p [Hp _]]]]].
      - specialize (Hpos Hk). lra.
      - intro; subst arts; simpl in Hp; lia. }
    assert (Hmatch : forall X Y : p2_result, match arts with [] => X | _ :: _ => Y end = Y)
      by (intros X Y; destruct arts; [contradiction | reflexivity]).
    rewrite Hmatch in H. clear Hmatch Ha.
    set (a := length arts) in *.
    assert (Hw : length (fst obj1) = (N + a)%nat).
    { pose proof (add_arts_obj N m 0 _ _ _ _ _ _ _ _ Ea) as [Hw _]. cbn [length fst] in Hw. rewrite Hobj0 in Hw.
      fold a in Hw. lia. }
    rewrite Hw in H. clear Hw Ea.
    pose proof (A_arts N m (t_rows T0) basis0 rows1 obj1 bas1 arts Hinv) as Harts. fold a in Harts.
    set (aux := aux_obj_loop arts bas1 0 rows1 (aux_obj0 (N + a) arts)) in *.
    set (Tx := mkT rows1 aux) in *.
    destruct (phase2 0 fuel 0 Tx bas1 []) as [[[[st2 it2] T2] basis2] piv2] eqn:E2.
    (* the code's threshold  eps * max(1, total initial infeasibility)  is 0 for eps = 0 *)
    set (tol := 0 * (if Qltb 1 (- snd aux) then - snd aux else 1)) in *.
    assert (Htol : tol == 0) by (unfold tol; ring).
    destruct (Qltb (snd (t_obj T2)) (- tol)) eqn:Einf.
    - (* the auxiliary optimum is positive *)
      apply Qltb_lt in Einf. rewrite Htol in Einf. inversion H; subst st iters T1 basis1 piv1. clear H.
      split; [destruct st2; discriminate|]. split; [destruct st2; discriminate|].
      intros Hst v.
      apply (aux_infeasible N m (t_rows T0) basis0 Hrows0 Hm Hb0 Hlt0 Hunit0 rows1 obj1 bas1 arts Hinv
               fuel st2 it2 T2 basis2 piv2 v E2); [lra | destruct st2; congruence].
    - (* artificials are zero: drive them out, drop their columns, restore the objective *)
      apply Qltb_false in Einf. rewrite Htol in Einf.
      destruct (drive_out 0 arts N m 0 (T2, basis2, piv2)) as [[T3 basis3] piv3] eqn:E3.
      inversion H; subst st iters T1 basis1 piv1. clear H.
      split; [discriminate|]. split; [|discriminate]. intros _.
      destruct (aux_run_inv N m (t_rows T0) basis0 Hrows0 Hm Hb0 Hlt0 Hunit0 rows1 obj1 bas1 arts Hinv
                  fuel st2 it2 T2 basis2 piv2 E2) as [[Hs2 Hr2] [Hall2 [Lb2 _]]].
      destruct (aux_feasible N m (t_rows T0) basis0 Hrows0 Hm Hb0 Hlt0 Hunit0 rows1 obj1 bas1 arts Hinv
                  fuel st2 it2 T2 basis2 piv2 E2 ltac:(lra)) as [Hz2 Hrows2].
      fold a in Hs2, Hall2, Hrows2. rewrite Harts, <- Lb2 in E3.
      destruct (drive_out_spec N a T2 basis2 piv2 T3 basis3 piv3 Hs2 Hr2 Hall2 Hz2 E3)
        as [Hs3 [Hr3 [_ [Hz3 [Heq3 Hdone3]]]]].
      split.
      + apply (drop_inv N a); try assumption. intros i j Hi. apply Hdone3; exact Hi.
      + (* same solutions as the start tableau on vectors of length N *)
        intros v z Lv.
        rewrite (drop_sat N a T3 basis3 (t_obj T0) Hs3 Hobj0 v z Lv), Heq3, (Hrows2 v Lv). reflexivity.
  Qed.
End Phase1.
