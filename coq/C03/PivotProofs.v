(* pivot_equiv: with exact arithmetic (eps = 0) a pivot on a non-zero element does not change the
   solution set of the tableau, objective row included.
   The tableau is read as a system of equations over (v, z): every constraint row  coeffs . v = rhs,
   and the objective row  coeffs . v - z = rhs  (initially  w . v - z = 0, i.e. z is the objective). *)
From Coq Require Import List QArith Qabs Bool Arith Lia Lqa.
From SV Require Import C03.Simplex C03.LPSpec C03.LinAlgProofs.
Import ListNotations.
Open Scope Q_scope.

Definition row_sat (v : list Q) (r : row) : Prop := dot (fst r) v == snd r.
Definition obj_sat (v : list Q) (z : Q) (r : row) : Prop := dot (fst r) v - z == snd r.
Definition tab_sat (v : list Q) (z : Q) (T : tableau) : Prop :=
  Forall (row_sat v) (t_rows T) /\ obj_sat v z (t_obj T).
Definition tab_wf (k : nat) (T : tableau) : Prop :=
  Forall (fun r => length (fst r) = k) (t_rows T) /\ length (fst (t_obj T)) = k.

Lemma dot_map_Qred a v : dot (map Qred a) v == dot a v.
Proof.
  revert v. induction a as [|x a IH]; intros [|y v]; simpl; try reflexivity.
  rewrite IH, Qred_correct. reflexivity.
Qed.

Lemma dot_scale_each k a v : dot (map (fun x => x * k) a) v == dot a v * k.
Proof.
  revert v. induction a as [|x a IH]; intros [|y v]; simpl; try ring.
  rewrite IH. ring.
Qed.

Lemma dot_vsubmul f a p v : length p = length a -> dot (vsubmul f a p) v == dot a v - f * dot p v.
Proof.
  revert p v. induction a as [|x a IH]; intros p v H.
  - destruct p; [|discriminate]. simpl. ring.
  - destruct p as [|y p]; [discriminate|]. simpl in H. destruct v as [|u v]; simpl; [ring|].
    rewrite IH by lia. ring.
Qed.

Lemma vsubmul_length f a p : length (vsubmul f a p) = length a.
Proof. revert p. induction a as [|x a IH]; intros p; simpl; [reflexivity|]. f_equal. apply IH. Qed.

(* value of a row as an affine form:  coeffs . v - rhs *)
Definition rval (v : list Q) (r : row) : Q := dot (fst r) v - snd r.

Lemma rval_rnorm v r : rval v (rnorm r) == rval v r.
Proof. unfold rval, rnorm. simpl. rewrite dot_map_Qred, Qred_correct. reflexivity. Qed.

Lemma rval_rscale v k r : rval v (rscale k r) == rval v r * k.
Proof. unfold rval, rscale. simpl. rewrite dot_scale_each. ring. Qed.

Lemma rval_rsubmul v f r p : length (fst p) = length (fst r) ->
  rval v (rsubmul f r p) == rval v r - f * rval v p.
Proof. intro H. unfold rval, rsubmul. simpl. rewrite dot_vsubmul by exact H. ring. Qed.

Lemma row_sat_rval v r : row_sat v r <-> rval v r == 0.
Proof. unfold row_sat, rval. split; intro H; lra. Qed.

Lemma obj_sat_rval v z r : obj_sat v z r <-> rval v r == z.
Proof. unfold obj_sat, rval. split; intro H; lra. Qed.

Lemma rval_elim_row v c p x : length (fst p) = length (fst x) -> rval v p == 0 ->
  rval v (elim_row 0 c p x) == rval v x.
Proof.
  intros Hl Hp. unfold elim_row. destruct (Qltb 0 (Qabs (get (fst x) c))); [|reflexivity].
  rewrite rval_rnorm, rval_rsubmul by exact Hl. rewrite Hp. ring.
Qed.

Lemma elim_row_length eps c p x : length (fst (elim_row eps c p x)) = length (fst x).
Proof.
  unfold elim_row. destruct (Qltb eps (Qabs (get (fst x) c))); [|reflexivity].
  simpl. rewrite map_length. apply vsubmul_length.
Qed.

Lemma Qabs_lt0_false pv : Qltb (Qabs pv) 0 = false.
Proof. apply Qltb_false. apply Qabs_nonneg. Qed.

Definition prow_of (T : tableau) (r c : nat) : row :=
  let prow := nth r (t_rows T) row0 in rnorm (rscale (/ get (fst prow) c) prow).

Lemma pivot0_unfold T r c :
  pivot 0 T r c =
  mkT (mapi (fun i x => if Nat.eqb i r then prow_of T r c else elim_row 0 c (prow_of T r c) x) (t_rows T))
      (elim_row 0 c (prow_of T r c) (t_obj T)).
Proof. unfold pivot, prow_of. rewrite Qabs_lt0_false. reflexivity. Qed.

Lemma rval_prow v T r c :
  rval v (prow_of T r c) == rval v (nth r (t_rows T) row0) * / get (fst (nth r (t_rows T) row0)) c.
Proof. unfold prow_of. cbv zeta. rewrite rval_rnorm, rval_rscale. reflexivity. Qed.

Lemma prow_length T r c : length (fst (prow_of T r c)) = length (fst (nth r (t_rows T) row0)).
Proof. unfold prow_of. simpl. rewrite !map_length. reflexivity. Qed.

Lemma Forall_rows (P : row -> Prop) l : Forall P l <-> forall i, (i < length l)%nat -> P (nth i l row0).
Proof.
  rewrite Forall_nth. split; intros H i; [intro Hi; apply H; exact Hi|].
  intros d Hi. rewrite (nth_indep _ d row0) by exact Hi. apply H. exact Hi.
Qed.

Lemma Forall_mapi (P : row -> Prop) (f : nat -> row -> row) l :
  Forall P (mapi f l) <-> forall i, (i < length l)%nat -> P (f i (nth i l row0)).
Proof.
  rewrite Forall_rows, mapi_length. split; intros H i Hi; specialize (H i Hi).
  - rewrite (mapi_nth _ _ i row0 row0) in H by exact Hi. exact H.
  - rewrite (mapi_nth _ _ i row0 row0) by exact Hi. exact H.
Qed.

Theorem pivot_equiv k T r c v z :
  tab_wf k T -> (r < length (t_rows T))%nat ->
  ~ get (fst (nth r (t_rows T) row0)) c == 0 ->
  (tab_sat v z T <-> tab_sat v z (pivot 0 T r c)).
Proof.
  intros [Hwf Hwo] Hr Hpv. rewrite pivot0_unfold.
  set (p := prow_of T r c).
  set (old := nth r (t_rows T) row0) in *.
  rewrite Forall_rows in Hwf.
  assert (Hlp : length (fst p) = k) by (unfold p; rewrite prow_length; apply Hwf; exact Hr).
  (* the scaled pivot row holds iff the old one does; given that, elimination changes no other row's value *)
  assert (Hp : rval v p == 0 <-> rval v old == 0).
  { unfold p. rewrite rval_prow. fold old. split; intro H.
    - assert (rval v old == rval v old * / get (fst old) c * get (fst old) c) by (field; exact Hpv).
      rewrite H0, H. ring.
    - rewrite H. ring. }
  unfold tab_sat. cbn [t_rows t_obj]. rewrite Forall_mapi, Forall_rows. split; intros [Hrows Hobj].
  - assert (Hp0 : rval v p == 0) by (apply Hp, row_sat_rval, Hrows, Hr).
    split.
    + intros i Hi. apply row_sat_rval. destruct (Nat.eqb i r); [exact Hp0|].
      rewrite rval_elim_row; [apply row_sat_rval, Hrows, Hi | rewrite Hlp; symmetry; apply Hwf; exact Hi | exact Hp0].
    + apply obj_sat_rval. rewrite rval_elim_row; [apply obj_sat_rval; exact Hobj | rewrite Hlp, Hwo; reflexivity | exact Hp0].
  - assert (Hp0 : rval v p == 0) by (apply row_sat_rval; specialize (Hrows r Hr); rewrite Nat.eqb_refl in Hrows; exact Hrows).
    split.
    + intros i Hi. apply row_sat_rval. specialize (Hrows i Hi). destruct (Nat.eqb_spec i r) as [E|Hne].
      * rewrite E. apply Hp, Hp0.
      * apply row_sat_rval in Hrows.
        rewrite rval_elim_row in Hrows; [exact Hrows | rewrite Hlp; symmetry; apply Hwf; exact Hi | exact Hp0].
    + apply obj_sat_rval. apply obj_sat_rval in Hobj.
      rewrite rval_elim_row in Hobj; [exact Hobj | rewrite Hlp, Hwo; reflexivity | exact Hp0].
Qed.

Lemma pivot0_wf k T r c : tab_wf k T -> (r < length (t_rows T))%nat -> tab_wf k (pivot 0 T r c).
Proof.
  intros [Hwf Hwo] Hr. rewrite pivot0_unfold. split; cbn [t_rows t_obj].
  - rewrite Forall_rows in Hwf. apply Forall_mapi. intros i Hi. destruct (Nat.eqb i r).
    + rewrite prow_length. apply Hwf. exact Hr.
    + rewrite elim_row_length. apply Hwf. exact Hi.
  - rewrite elim_row_length. exact Hwo.
Qed.

Lemma pivot0_rows_length T r c : length (t_rows (pivot 0 T r c)) = length (t_rows T).
Proof. rewrite pivot0_unfold. simpl. apply mapi_length. Qed.
