(* Generalised phase-2 invariant (exact arithmetic, eps = 0).
   After _phase1 has dropped the artificial columns, a row whose artificial could not be driven out keeps a
   basis entry >= N (N = number of remaining columns): such a row is 0 = 0 ("dead").  g_inv is p2_inv with dead
   rows allowed; every pivot chosen by _phase2 keeps it and the solution set. *)
From Coq Require Import List QArith Qabs Bool Arith Lia Lqa.
From SV Require Import C03.Simplex C03.LinAlgProofs C03.PivotProofs C03.Phase2Inv.
Import ListNotations.
Open Scope Q_scope.

(* structural part: shape, unit basic columns, dead rows, reduced cost 0 on basic columns *)
Record g_str (N : nat) (T : tableau) (basis : list nat) : Prop := mk_g_str {
  g_wf : tab_wf N T;
  g_len : length basis = length (t_rows T);
  g_unit : forall i k, (i < length basis)%nat -> (nth i basis 0 < N)%nat -> (k < length (t_rows T))%nat ->
           entry T k (nth i basis 0%nat) == if Nat.eqb k i then 1 else 0;
  g_dead : forall i, (i < length basis)%nat -> (N <= nth i basis 0)%nat ->
           (forall j, entry T i j == 0) /\ rhs T i == 0;
  g_obj : forall i, (i < length basis)%nat -> objc T (nth i basis 0%nat) == 0
}.

Definition rhs_nonneg (T : tableau) : Prop := forall k, (k < length (t_rows T))%nat -> 0 <= rhs T k.

Definition g_inv (N : nat) (T : tableau) (basis : list nat) : Prop := g_str N T basis /\ rhs_nonneg T.

Lemma p2_inv_g N T basis : p2_inv N T basis -> g_inv N T basis.
Proof.
  intros [Hwf Hlen Hlt Hunit Hobj Hrhs]. split; [|exact Hrhs]. constructor; auto.
  intros i Hi Hge. specialize (Hlt i Hi). lia.
Qed.

Lemma pivot_str N T basis l e :
  g_str N T basis -> (l < length (t_rows T))%nat -> (e < N)%nat -> ~ entry T l e == 0 ->
  g_str N (pivot 0 T l e) (set_nth l e basis).
Proof.
  intros [Hwf Hlen Hunit Hdead Hobj] Hl HeN Hpv0.
  (* the basic column of another row has a 0 in row l (beyond N every entry is 0), so the pivot leaves it alone *)
  assert (Hz : forall i, (i < length basis)%nat -> i <> l -> entry T l (nth i basis 0%nat) == 0).
  { intros i Hi Hne. destruct (Nat.lt_ge_cases (nth i basis 0%nat) N) as [Hlive|Hge].
    - rewrite (Hunit i l Hi Hlive Hl). apply Nat.eqb_neq in Hne. rewrite Nat.eqb_sym, Hne. reflexivity.
    - unfold entry. rewrite get_overflow by (rewrite (row_len N T Hwf l Hl); exact Hge). reflexivity. }
  constructor.
  - apply pivot0_wf; assumption.
  - rewrite set_nth_length, pivot0_rows_length. exact Hlen.
  - intros i k Hi Hlive Hk. rewrite set_nth_length in Hi. rewrite pivot0_rows_length in Hk.
    destruct (Nat.eq_dec i l) as [->|Hne].
    + rewrite set_nth_same by lia. apply (pivot_col_unit N); assumption.
    + rewrite set_nth_other in Hlive |- * by exact Hne. rewrite (pivot_col_fixed N) by auto. apply Hunit; assumption.
  - intros i Hi Hge. rewrite set_nth_length in Hi.
    destruct (Nat.eq_dec i l) as [->|Hne]; [rewrite set_nth_same in Hge by lia; lia|].
    rewrite set_nth_other in Hge by exact Hne. destruct (Hdead i Hi Hge) as [Hzi Hri].
    (* a zero row has a 0 in the pivot column: it stays as it is *)
    destruct (pivot_row_fixed N T l e Hwf Hl i ltac:(lia) Hne (Hzi e)) as [He Hr].
    split; [intro j; rewrite He; apply Hzi | rewrite Hr; exact Hri].
  - intros i Hi. rewrite set_nth_length in Hi. destruct (Nat.eq_dec i l) as [->|Hne].
    + rewrite set_nth_same by lia. apply (pivot_col_objc N); assumption.
    + rewrite set_nth_other by exact Hne. rewrite (pivot_objc_fixed N) by auto. apply Hobj. exact Hi.
Qed.

Lemma g_step N T basis e l :
  g_inv N T basis -> find_enter 0 basis T = Some e -> find_leave 0 basis T e = Some l ->
  g_inv N (pivot 0 T l e) (set_nth l e basis) /\ (e < N)%nat
  /\ forall v z, tab_sat v z T <-> tab_sat v z (pivot 0 T l e).
Proof.
  intros [Hs Hr] He Hlv.
  apply find_enter_some in He. destruct He as [HeN _].
  pose proof (g_wf _ _ _ Hs) as Hwf. rewrite (proj2 Hwf) in HeN.
  apply find_leave_some in Hlv. destruct Hlv as [Hl [Hpv Hmin]]. fold (entry T l e) in Hpv.
  assert (Hpv0 : ~ entry T l e == 0) by lra.
  split; [split|split; [exact HeN|]].
  - apply pivot_str; assumption.
  - intros k Hk. apply (pivot_rhs_ratio N T l e); assumption.
  - intros v z. apply (pivot_equiv N); assumption.
Qed.

Theorem phase2_ginv N fuel it T basis piv st it' T' basis' piv' :
  g_inv N T basis ->
  phase2 0 fuel it T basis piv = (st, it', T', basis', piv') ->
  g_inv N T' basis'
  /\ (forall v z, tab_sat v z T <-> tab_sat v z T')
  /\ (st = OPTIMAL -> find_enter 0 basis' T' = None)
  /\ (st = UNBOUNDED -> exists e, find_enter 0 basis' T' = Some e /\ find_leave 0 basis' T' e = None)
  /\ (Forall (fun j => (j < N)%nat) basis -> Forall (fun j => (j < N)%nat) basis').
Proof.
  intros Hinv H.
  (* the invariant carried through the loop: g_inv, and the basis stays below N if it started there *)
  pose (I := fun T1 basis1 => g_inv N T1 basis1
                              /\ (Forall (fun j => (j < N)%nat) basis -> Forall (fun j => (j < N)%nat) basis1)).
  assert (Hstep : forall T1 basis1 e l, I T1 basis1 ->
            find_enter 0 basis1 T1 = Some e -> find_leave 0 basis1 T1 e = Some l ->
            I (pivot 0 T1 l e) (set_nth l e basis1) /\ forall v z, tab_sat v z T1 <-> tab_sat v z (pivot 0 T1 l e)).
  { intros T1 basis1 e l [Hg HF] He Hl. destruct (g_step N T1 basis1 e l Hg He Hl) as [Hg' [HeN Heq]].
    split; [split|exact Heq]; [exact Hg'|]. intro HF0. apply Forall_set_nth; [apply HF; exact HF0 | exact HeN]. }
  destruct (phase2_loop I Hstep _ _ _ _ _ _ _ _ _ _ (conj Hinv (fun HF => HF)) H) as [[H1 H5] [H2 [H3 H4]]].
  split; [exact H1|]. split; [exact H2|]. split; [exact H3|]. split; [exact H4 | exact H5].
Qed.
