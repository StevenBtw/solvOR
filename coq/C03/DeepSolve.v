(* solve_lp, exact arithmetic (eps = 0), every LP accepted by valid_lp, any iteration limit:
   OPTIMAL, INFEASIBLE and UNBOUNDED answers are sound; a verdict other than MAX_ITER is the true class of the LP. *)
From Coq Require Import List QArith Qabs Bool Arith Lia Lqa.
From SV Require Import C03.Simplex C03.LPSpec C03.LinAlgProofs C03.PivotProofs
  C03.Phase2Inv C03.OptimalProofs C03.DeepInv C03.DeepExtract C03.DeepPhase1.
Import ListNotations.
Open Scope Q_scope.

Section Solve.
  Variables (minimize : bool) (c : list Q) (A : list (list Q)) (b : list Q).
  Hypothesis Hvalid : valid_lp c A b = true.

  Let n := length c.
  Let m := length b.
  Let N := (n + m)%nat.
  Let w := weights minimize c.
  Let T0 := init_tableau minimize c A b.
  Let basis0 := seq n m.

  Lemma S_rows_length : length (t_rows T0) = m.
  Proof. apply (T0_rows_length minimize c A b Hvalid). Qed.

  Lemma S_str : g_str N T0 basis0.
  Proof.
    pose proof S_rows_length as Lr.
    assert (Lb : length basis0 = m) by apply seq_length.
    constructor.
    - apply (T0_wf minimize c A b Hvalid).
    - rewrite Lb, Lr. reflexivity.
    - intros i k Hi _ Hk. rewrite Lb in Hi. rewrite Lr in Hk. apply (T0_unit minimize c A b Hvalid); assumption.
    - intros i Hi Hge. rewrite Lb in Hi. pose proof (T0_basis_lt c b i Hi) as Hlt. change (nth i basis0 0 < N)%nat in Hlt. lia.
    - intros i Hi. rewrite Lb in Hi. apply (T0_objc minimize c A b i Hi).
  Qed.

  Lemma sol_feasible v z : length v = N -> Forall (fun q => 0 <= q) v -> tab_sat v z T0 ->
    feasible A b (firstn n v) /\ dot w (firstn n v) == row_scale w * z.
  Proof.
    intros Lv Hv Hs. set (x := firstn n v). set (s := skipn n v).
    assert (Ev : v = x ++ s) by (symmetry; apply firstn_skipn).
    assert (Lx : length x = n) by (unfold x; rewrite firstn_length; unfold N in Lv; lia).
    rewrite Ev in Hs, Hv. apply Forall_app in Hv. destruct Hv as [Hx Hsn].
    apply (T0_sat minimize c A b Hvalid) in Hs; [|exact Lx]. destruct Hs as [Hrows Hobj].
    split; [|exact Hobj]. split; [exact Hx|].
    pose proof (valid_len c A b Hvalid) as HlenA.
    apply Forall2_mv; [exact HlenA|]. intros k Hk. rewrite HlenA in Hk. specialize (Hrows k Hk).
    (* row equilibration: the slack of row k is rescaled by row_scale > 0 *)
    pose proof (Qmult_le_0_compat _ _ (Qlt_le_weak _ _ (row_scale_pos (nth k A []))) (get_nonneg s k Hsn)). lra.
  Qed.

  Lemma feasible_sol y : feasible A b y ->
    exists v, length v = N /\ Forall (fun q => 0 <= q) v /\ tab_sat v (dot w y / row_scale w) T0.
  Proof.
    intros [Hyn Hyb].
    pose proof (valid_len c A b Hvalid) as HlenA.
    set (y' := firstn n (y ++ zeros n)).
    set (s' := map (fun k => (nth k b 0 - dot (nth k A []) y') / row_scale (nth k A [])) (seq 0 m)).
    assert (Ly : length y' = n) by (apply pad_length; lia).
    assert (Hrow_eq : forall k, (k < m)%nat -> dot (nth k A []) y' == dot (nth k A []) y).
    { intros k Hk. apply dot_pad; [|lia]. rewrite (valid_rows c A b Hvalid k Hk). fold n. lia. }
    exists (y' ++ s'). split; [|split].
    - rewrite app_length, Ly. unfold s'. rewrite map_length, seq_length. reflexivity.
    - apply Forall_app. split; [apply pad_nonneg; exact Hyn|].
      apply Forall_forall. intros q Hq. unfold s' in Hq. apply in_map_iff in Hq. destruct Hq as [k [Hq Hk]].
      apply in_seq in Hk. subst q. apply div_nonneg; [|apply row_scale_pos]. rewrite Hrow_eq by lia.
      pose proof (Forall2_mv_nth A b y k Hyb) as H. rewrite HlenA in H. specialize (H ltac:(lia)). lra.
    - apply (T0_sat minimize c A b Hvalid); [exact Ly|]. split.
      + intros k Hk. fold m in Hk. unfold s', get. rewrite nth_map_seq by exact Hk. cbn [Nat.add].
        pose proof (row_scale_pos (nth k A [])). field. lra.
      + (* the objective row is the weight vector divided by row_scale w > 0 *)
        fold w. rewrite mul_div_cancel by apply row_scale_pos.
        apply dot_pad; [|lia]. unfold w. rewrite weights_length. fold n. lia.
  Qed.

  (* what is claimed of an answer that comes out of _extract after the last _phase2 run *)
  Definition answer_ok (r : lp_result) : Prop :=
    r_status r <> INFEASIBLE
    /\ feasible A b (r_solution r) /\ r_objective r == dot c (r_solution r)
    /\ (r_status r = OPTIMAL -> lp_optimal minimize c A b (r_solution r))
    /\ (r_status r = UNBOUNDED -> lp_unbounded minimize c A b).

  (* what the last _phase2 run proves, given the invariant and the equivalence with the start tableau *)
  Section Final.
    Variables (T4 : tableau) (basis4 : list nat).
    Hypothesis Hg4 : g_inv N T4 basis4.
    Hypothesis Heq4 : forall v z, length v = N -> (tab_sat v z T0 <-> tab_sat v z T4).
    Variables (fuel' : nat) (piv0 : list (nat * nat)) (st2 : lp_status) (it2 : nat) (T5 : tableau)
              (basis5 : list nat) (piv5 : list (nat * nat)) (k : nat).
    Hypothesis Hrun : phase2 0 fuel' 0 T4 basis4 piv0 = (st2, it2, T5, basis5, piv5).

    Let r := extract T5 basis5 n st2 k c piv5.

    Lemma final_point :
      feasible A b (r_solution r) /\ dot w (r_solution r) == row_scale w * - snd (t_obj T5)
      /\ r_objective r == dot c (r_solution r).
    Proof.
      destruct (phase2_ginv N _ _ _ _ _ _ _ _ _ _ Hg4 Hrun) as [[Hs5 Hr5] [Heq5 _]].
      set (v := bsol N T5 basis5).
      assert (Lv : length v = N) by apply bsol_length.
      assert (Hx : firstn n v = r_solution r).
      { unfold v, bsol, r, extract. cbn [r_solution]. rewrite firstn_extract_loop by (unfold N; lia).
        rewrite firstn_zeros by (unfold N; lia). reflexivity. }
      assert (Hsat : tab_sat v (- snd (t_obj T5)) T0).
      { apply (Heq4 _ _ Lv). apply Heq5. apply bsol_sat. exact Hs5. }
      destruct (sol_feasible v _ Lv (bsol_nonneg T5 N basis5 Hr5) Hsat) as [Hf Ho].
      rewrite Hx in Hf, Ho. split; [exact Hf|]. split; [exact Ho|].
      (* _extract reports c . x of the point it returns *)
      unfold r, extract. cbn [r_objective r_solution]. apply Qred_correct.
    Qed.

    Lemma final_optimal : st2 = OPTIMAL -> lp_optimal minimize c A b (r_solution r).
    Proof.
      intro Hst. destruct final_point as [Hf [Ho _]]. split; [exact Hf|].
      destruct (phase2_ginv N _ _ _ _ _ _ _ _ _ _ Hg4 Hrun) as [Hg5 [Heq5 [Hopt _]]].
      intros y Hy. destruct (feasible_sol y Hy) as [v [Lv [Hvn Hvs]]].
      apply (Heq4 _ _ Lv) in Hvs. apply Heq5 in Hvs.
      pose proof (optimal_lower_bound N T5 basis5 v _ Hg5 (Hopt Hst) Hvs Hvn) as Hlb.
      assert (Hwx : dot w (r_solution r) <= dot w y).
      { assert (Hz : - snd (t_obj T5) <= dot w y / row_scale w) by lra.
        pose proof (le_scale _ _ _ (row_scale_pos w) Hz). lra. }
      unfold w in Hwx. rewrite !weights_dot in Hwx. destruct minimize; lra.
    Qed.

    Lemma final_unbounded : st2 = UNBOUNDED -> lp_unbounded minimize c A b.
    Proof.
      intro Hst.
      destruct (phase2_ginv N _ _ _ _ _ _ _ _ _ _ Hg4 Hrun) as [Hg5 [Heq5 [_ [Hunb _]]]].
      destruct (Hunb Hst) as [e [He Hl]].
      apply unbounded_weights. intro M.
      destruct (unbounded_below N T5 basis5 e (M / row_scale w) Hg5 He Hl) as [v [z [Lv [Hvn [Hvs Hz]]]]].
      apply Heq5 in Hvs. apply (Heq4 _ _ Lv) in Hvs.
      destruct (sol_feasible v z Lv Hvn Hvs) as [Hf Ho].
      exists (firstn n v). split; [exact Hf|].
      pose proof (lt_scale _ _ _ (row_scale_pos w) Hz). fold w. lra.
    Qed.
    Lemma final_ok : answer_ok r.
    Proof.
      destruct final_point as [Hf [_ Ho]]. destruct (phase2_status _ _ _ _ _ _ _ _ _ _ Hrun) as [Hne _].
      split; [exact Hne|]. split; [exact Hf|]. split; [exact Ho|]. split; [exact final_optimal | exact final_unbounded].
    Qed.
  End Final.

  Lemma neg_row_exists : existsb (fun r => Qltb (snd r) (- 0)) (t_rows T0) = true ->
    exists k, (k < m)%nat /\ snd (nth k (t_rows T0) row0) < 0.
  Proof.
    intro E. apply existsb_exists in E. destruct E as [r [Hin Hlt]].
    apply (In_nth _ _ row0) in Hin. destruct Hin as [k [Hk Hr]]. rewrite S_rows_length in Hk.
    exists k. split; [exact Hk|]. rewrite Hr. apply Qltb_lt in Hlt. lra.
  Qed.

  Lemma no_neg_row : existsb (fun r => Qltb (snd r) (- 0)) (t_rows T0) = false -> rhs_nonneg T0.
  Proof.
    intros E k Hk. unfold rhs.
    destruct (Qlt_le_dec (snd (nth k (t_rows T0) row0)) 0) as [Hlt|Hge]; [|exact Hge]. exfalso.
    assert (Ht : existsb (fun r => Qltb (snd r) (- 0)) (t_rows T0) = true).
    { apply existsb_exists. exists (nth k (t_rows T0) row0). split; [apply nth_In; exact Hk|]. apply Qltb_lt. lra. }
    congruence.
  Qed.

  (* without a negative right-hand side there is no phase 1: whatever the status, the answer comes out of _extract *)
  Lemma solve_lp_direct fuel :
    existsb (fun r => Qltb (snd r) (- 0)) (t_rows T0) = false -> answer_ok (solve_lp 0 minimize fuel c A b).
  Proof.
    intro Eneg. unfold solve_lp. cbv zeta. fold n m T0 basis0. rewrite Eneg.
    destruct (phase2 0 fuel 0 T0 basis0 []) as [[[[st2 it2] T2] basis2] piv2] eqn:E2.
    apply (final_ok T0 basis0 (conj S_str (no_neg_row Eneg)) (fun v z _ => iff_refl _) _ _ _ _ _ _ _ it2 E2).
  Qed.

  Lemma solve_lp_cases fuel r : solve_lp 0 minimize fuel c A b = r ->
    (r_status r = INFEASIBLE /\ lp_infeasible A b) \/ r_status r = MAX_ITER \/ answer_ok r.
  Proof.
    intros <-.
    destruct (existsb (fun r => Qltb (snd r) (- 0)) (t_rows T0)) eqn:Eneg; [|right; right; apply solve_lp_direct; exact Eneg].
    unfold solve_lp. cbv zeta. fold n m T0 basis0. rewrite Eneg.
    destruct (phase1 0 fuel m n T0 basis0) as [[[[st it1] T1] basis1] piv1] eqn:E1.
    destruct (phase1_spec n m T0 basis0 (T0_wf minimize c A b Hvalid) S_rows_length
                (seq_length m n) (T0_basis_lt c b) (T0_unit minimize c A b Hvalid) (neg_row_exists Eneg)
                fuel st it1 T1 basis1 piv1 E1) as [Hnu [Hopt Hinf]].
    destruct st.
    - (* OPTIMAL: second phase *)
      destruct (Hopt eq_refl) as [Hg1 Heq1].
      destruct (phase2 0 (fuel - it1) 0 T1 basis1 piv1) as [[[[st2 it2] T2] basis2] piv2] eqn:E2.
      right. right. apply (final_ok T1 basis1 Hg1 Heq1 _ _ _ _ _ _ _ (it1 + it2)%nat E2).
    - left. split; [reflexivity|].
      intros y Hy. destruct (feasible_sol y Hy) as [v [Lv [Hvn [Hrows _]]]].
      apply (Hinf eq_refl v Lv Hvn). exact Hrows.
    - congruence.
    - right. left. reflexivity.
  Qed.
End Solve.

(* the three classes of an LP exclude each other, so a sound verdict is the true class *)
Definition lp_has_optimum (minimize : bool) (c : list Q) (A : list (list Q)) (b : list Q) : Prop :=
  exists x, lp_optimal minimize c A b x.

Lemma optimum_not_infeasible minimize c A b : lp_has_optimum minimize c A b -> ~ lp_infeasible A b.
Proof. intros [x [Hf _]] Hi. apply (Hi x Hf). Qed.

Lemma optimum_not_unbounded minimize c A b : lp_has_optimum minimize c A b -> ~ lp_unbounded minimize c A b.
Proof.
  intros [x [Hf Hopt]] Hu. destruct (Hu (dot c x)) as [y [Hy Hlt]]. specialize (Hopt y Hy).
  destruct minimize; lra.
Qed.

Lemma unbounded_not_infeasible minimize c A b : lp_unbounded minimize c A b -> ~ lp_infeasible A b.
Proof. intros Hu Hi. destruct (Hu 0) as [y [Hy _]]. apply (Hi y Hy). Qed.

Theorem optimal_sound_all : forall minimize fuel c A b r,
  valid_lp c A b = true ->
  solve_lp 0 minimize fuel c A b = r -> r_status r = OPTIMAL ->
  lp_optimal minimize c A b (r_solution r) /\ r_objective r == dot c (r_solution r).
Proof.
  intros minimize fuel c A b r Hv Hr Hst.
  destruct (solve_lp_cases minimize c A b Hv fuel r Hr) as [[H _]|[H|H]]; [congruence | congruence |].
  destruct H as [_ [_ [Ho [Hopt _]]]]. split; [apply Hopt; exact Hst | exact Ho].
Qed.

Theorem infeasible_sound_all : forall minimize fuel c A b r,
  valid_lp c A b = true ->
  solve_lp 0 minimize fuel c A b = r -> r_status r = INFEASIBLE -> lp_infeasible A b.
Proof.
  intros minimize fuel c A b r Hv Hr Hst.
  destruct (solve_lp_cases minimize c A b Hv fuel r Hr) as [[_ H]|[H|[H _]]]; [exact H | congruence | contradiction].
Qed.

Theorem unbounded_sound_all : forall minimize fuel c A b r,
  valid_lp c A b = true ->
  solve_lp 0 minimize fuel c A b = r -> r_status r = UNBOUNDED -> lp_unbounded minimize c A b.
Proof.
  intros minimize fuel c A b r Hv Hr Hst.
  destruct (solve_lp_cases minimize c A b Hv fuel r Hr) as [[H _]|[H|H]]; [congruence | congruence |].
  destruct H as [_ [_ [_ [_ Hunb]]]]. apply Hunb. exact Hst.
Qed.

Theorem verdicts_exclusive_exact minimize fuel c A b r :
  valid_lp c A b = true ->
  solve_lp 0 minimize fuel c A b = r -> r_status r <> MAX_ITER ->
  (r_status r = OPTIMAL <-> lp_has_optimum minimize c A b)
  /\ (r_status r = INFEASIBLE <-> lp_infeasible A b)
  /\ (r_status r = UNBOUNDED <-> lp_unbounded minimize c A b).
Proof.
  intros Hvalid Hr Hne.
  assert (Ho : r_status r = OPTIMAL -> lp_has_optimum minimize c A b).
  { intro H. exists (r_solution r). apply (optimal_sound_all minimize fuel c A b r Hvalid Hr H). }
  pose proof (infeasible_sound_all minimize fuel c A b r Hvalid Hr) as Hi.
  pose proof (unbounded_sound_all minimize fuel c A b r Hvalid Hr) as Hu.
  pose proof (optimum_not_infeasible minimize c A b) as X1.
  pose proof (optimum_not_unbounded minimize c A b) as X2.
  pose proof (unbounded_not_infeasible minimize c A b) as X3.
  (* each verdict implies its class, the classes exclude each other, and the verdict is one of the three *)
  destruct (r_status r); [| | |congruence].
  - pose proof (Ho eq_refl) as Hc. split; [split; auto|].
    split; split; intro H; try discriminate H; exfalso; [exact (X1 Hc H) | exact (X2 Hc H)].
  - pose proof (Hi eq_refl) as Hc. split; [split; intro H; [discriminate H | exfalso; exact (X1 H Hc)]|].
    split; [split; auto|]. split; intro H; [discriminate H | exfalso; exact (X3 H Hc)].
  - pose proof (Hu eq_refl) as Hc. split; [split; intro H; [discriminate H | exfalso; exact (X2 H Hc)]|].
    split; [|split; auto]. split; intro H; [discriminate H | exfalso; exact (X3 Hc H)].
Qed.
