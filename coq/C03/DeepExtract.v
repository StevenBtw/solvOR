(* The loop of _extract and the basic solution of a tableau satisfying g_inv (dead rows allowed): it satisfies
   every row, is non-negative and has reduced-cost value 0; its coordinate on a basic column is that row's rhs.
   Consequences at the two stops of _phase2: at OPTIMAL no non-negative solution has a smaller objective value; at
   UNBOUNDED the entering column is an improving ray.  The phase-1 files use these too: _phase1 runs _phase2 on its
   auxiliary tableau. *)
From Coq Require Import List QArith Qabs Bool Arith Lia Lqa.
From SV Require Import C03.Simplex C03.LPSpec C03.LinAlgProofs C03.PivotProofs C03.Phase2Inv C03.DeepInv.
Import ListNotations.
Open Scope Q_scope.

Fixpoint isum (f : nat -> row -> Q) (s : nat) (rows : list row) : Q :=
  match rows with
  | [] => 0
  | r :: rs => f s r + isum f (S s) rs
  end.

Lemma isum_zero f rows : forall s,
  (forall i, (s <= i < s + length rows)%nat -> f i (nth (i - s) rows row0) == 0) -> isum f s rows == 0.
Proof.
  induction rows as [|r rows IH]; intros s H; simpl; [reflexivity|].
  pose proof (H s ltac:(simpl; lia)) as H0. rewrite Nat.sub_diag in H0. simpl in H0. rewrite H0, IH; [ring|].
  intros i Hi. specialize (H i ltac:(simpl; lia)). replace (i - s)%nat with (S (i - S s)) in H by lia. exact H.
Qed.

Lemma isum_pick f k rows : forall s, (s <= k < s + length rows)%nat ->
  (forall i, (s <= i < s + length rows)%nat -> i <> k -> f i (nth (i - s) rows row0) == 0) ->
  isum f s rows == f k (nth (k - s) rows row0).
Proof.
  induction rows as [|r rows IH]; intros s Hk H; simpl in *; [lia|].
  destruct (Nat.eq_dec s k) as [->|Hne].
  - rewrite Nat.sub_diag. rewrite isum_zero; [ring|].
    intros i Hi. specialize (H i ltac:(lia) ltac:(lia)). replace (i - k)%nat with (S (i - S k)) in H by lia. exact H.
  - pose proof (H s ltac:(lia) Hne) as H0. rewrite Nat.sub_diag in H0. rewrite H0.
    replace (k - s)%nat with (S (k - S s)) by lia. rewrite <- (IH (S s)); [ring | lia |].
    intros i Hi Hik. specialize (H i ltac:(lia) Hik). replace (i - s)%nat with (S (i - S s)) in H by lia. exact H.
Qed.

(* bsum: what the loop of _extract adds to a product  a . sol *)
Definition bsum (a : list Q) (basis : list nat) : nat -> list row -> Q :=
  isum (fun i r => get a (nth i basis 0%nat) * snd r).

Lemma extract_loop_length n basis s rows sol :
  length (extract_loop n basis s rows sol) = length sol.
Proof.
  revert s sol. induction rows as [|r rows IH]; intros s sol; simpl; [reflexivity|].
  rewrite IH. destruct (Nat.ltb (nth s basis 0%nat) n); [apply set_nth_length | reflexivity].
Qed.

Lemma extract_loop_nonneg n basis rows : forall s sol,
  Forall (fun q => 0 <= q) sol -> Forall (fun r => 0 <= snd r) rows ->
  Forall (fun q => 0 <= q) (extract_loop n basis s rows sol).
Proof.
  induction rows as [|r rows IH]; intros s sol Hs Hr; simpl; [exact Hs|].
  inversion Hr; subst. apply IH; [|assumption].
  destruct (Nat.ltb (nth s basis 0%nat) n); [apply Forall_set_nth; assumption | exact Hs].
Qed.

(* the code's _extract (first n columns) is the restriction of the full basic solution *)
Lemma firstn_extract_loop n N basis rows : forall s sol, (n <= N)%nat ->
  firstn n (extract_loop N basis s rows sol) = extract_loop n basis s rows (firstn n sol).
Proof.
  induction rows as [|r rows IH]; intros s sol Hn; simpl; [reflexivity|].
  rewrite IH by exact Hn. f_equal.
  destruct (Nat.ltb (nth s basis 0%nat) N) eqn:E1; destruct (Nat.ltb (nth s basis 0%nat) n) eqn:E2.
  - apply firstn_set_nth_lt. apply Nat.ltb_lt. exact E2.
  - apply firstn_set_nth_ge. apply Nat.ltb_ge. exact E2.
  - apply Nat.ltb_lt in E2. apply Nat.ltb_ge in E1. lia.
  - reflexivity.
Qed.

Lemma dot_extract_loop a N basis rows : forall s sol,
  length sol = N ->
  (forall i i', (s <= i < s + length rows)%nat -> (s <= i' < s + length rows)%nat -> i <> i' ->
                (nth i basis 0 < N)%nat -> nth i basis 0%nat <> nth i' basis 0%nat) ->
  (forall i, (s <= i < s + length rows)%nat -> get sol (nth i basis 0%nat) == 0) ->
  (forall i, (s <= i < s + length rows)%nat -> (N <= nth i basis 0)%nat -> snd (nth (i - s) rows row0) == 0) ->
  dot a (extract_loop N basis s rows sol) == dot a sol + bsum a basis s rows.
Proof.
  unfold bsum. induction rows as [|r rows IH]; intros s sol Hlen Hnd Hz Hd; simpl; [ring|].
  assert (Hnd' : forall i i', (S s <= i < S s + length rows)%nat -> (S s <= i' < S s + length rows)%nat -> i <> i' ->
                   (nth i basis 0 < N)%nat -> nth i basis 0%nat <> nth i' basis 0%nat)
    by (intros i i' Hi Hi' Hne; apply Hnd; simpl; lia).
  assert (Hd' : forall i, (S s <= i < S s + length rows)%nat -> (N <= nth i basis 0)%nat ->
                  snd (nth (i - S s) rows row0) == 0).
  { intros i Hi Hge. specialize (Hd i). simpl in Hd.
    replace (i - s)%nat with (S (i - S s)) in Hd by lia. apply Hd; [lia | exact Hge]. }
  destruct (Nat.ltb_spec (nth s basis 0%nat) N) as [Es|Es].
  - (* a live row writes its rhs into a coordinate that was 0 and that no later row touches *)
    rewrite IH; [| rewrite set_nth_length; exact Hlen | exact Hnd' | | exact Hd'].
    + rewrite dot_set_nth by lia. rewrite (Hz s) by (simpl; lia). ring.
    + intros i Hi. rewrite get_set_nth_other; [apply Hz; simpl; lia|].
      intro Heq. apply (Hnd s i); simpl; lia.
  - (* a dead row writes nothing and its term of the sum is 0 *)
    rewrite IH; [| exact Hlen | exact Hnd' | intros i Hi; apply Hz; simpl; lia | exact Hd'].
    pose proof (Hd s) as H0. simpl in H0. rewrite Nat.sub_diag in H0. rewrite H0 by (try lia; exact Es). ring.
Qed.

(* the basic solution: _extract run over all N columns *)
Definition bsol (N : nat) (T : tableau) (basis : list nat) : list Q :=
  extract_loop N basis 0 (t_rows T) (zeros N).

Lemma bsol_length N T basis : length (bsol N T basis) = N.
Proof. unfold bsol. rewrite extract_loop_length. apply zeros_length. Qed.

Lemma g_basis_distinct N T basis i i' : g_str N T basis ->
  (i < length basis)%nat -> (i' < length basis)%nat -> i <> i' -> (nth i basis 0 < N)%nat ->
  nth i basis 0%nat <> nth i' basis 0%nat.
Proof.
  intros Hs Hi Hi' Hne Hlive Heq.
  assert (Hik : (i < length (t_rows T))%nat) by (rewrite <- (g_len _ _ _ Hs); exact Hi).
  pose proof (g_unit _ _ _ Hs i i Hi Hlive Hik) as H1.
  assert (Hlive' : (nth i' basis 0 < N)%nat) by (rewrite <- Heq; exact Hlive).
  pose proof (g_unit _ _ _ Hs i' i Hi' Hlive' Hik) as H2.
  rewrite Nat.eqb_refl in H1. assert (E : Nat.eqb i i' = false) by (apply Nat.eqb_neq; exact Hne).
  rewrite E, <- Heq in H2. rewrite H1 in H2. discriminate H2.
Qed.

Lemma dot_bsol a N T basis : g_str N T basis ->
  dot a (bsol N T basis) == bsum a basis 0 (t_rows T).
Proof.
  intro Hs. unfold bsol. rewrite (dot_extract_loop a N).
  - rewrite dot_zeros_r. ring.
  - apply zeros_length.
  - intros i i' Hi Hi' Hne Hlive. apply (g_basis_distinct N T basis); try assumption; rewrite (g_len _ _ _ Hs); lia.
  - intros i Hi. rewrite get_zeros. reflexivity.
  - intros i Hi Hge. rewrite Nat.sub_0_r. apply (g_dead _ _ _ Hs i); [rewrite (g_len _ _ _ Hs); lia | exact Hge].
Qed.

Lemma bsol_rows N T basis k : g_str N T basis -> (k < length (t_rows T))%nat ->
  row_sat (bsol N T basis) (nth k (t_rows T) row0).
Proof.
  intros Hs Hk. unfold row_sat.
  assert (Hkb : (k < length basis)%nat) by (rewrite (g_len _ _ _ Hs); exact Hk).
  destruct (Nat.lt_ge_cases (nth k basis 0%nat) N) as [Hlive|Hge].
  - (* row k has a 1 in its own basic column and a 0 in every other basic column *)
    rewrite dot_bsol by exact Hs. unfold bsum. rewrite (isum_pick _ k); [|lia|].
    + rewrite Nat.sub_0_r. fold (entry T k (nth k basis 0%nat)). rewrite (g_unit _ _ _ Hs k k Hkb Hlive Hk), Nat.eqb_refl. ring.
    + intros i Hi Hne. assert (Hib : (i < length basis)%nat) by (rewrite (g_len _ _ _ Hs); lia).
      assert (E : entry T k (nth i basis 0%nat) == 0).
      { destruct (Nat.lt_ge_cases (nth i basis 0%nat) N) as [Hli|Hgi].
        - rewrite (g_unit _ _ _ Hs i k Hib Hli Hk). apply Nat.eqb_neq in Hne. rewrite Nat.eqb_sym, Hne. reflexivity.
        - unfold entry. rewrite get_overflow by (rewrite (row_len N T (g_wf _ _ _ Hs) k Hk); exact Hgi). reflexivity. }
      unfold entry in E. rewrite E. ring.
  - destruct (g_dead _ _ _ Hs k Hkb Hge) as [Hz Hr]. unfold rhs in Hr. rewrite Hr.
    apply dot_all_zero. exact Hz.
Qed.

Lemma bsol_obj N T basis : g_str N T basis -> dot (fst (t_obj T)) (bsol N T basis) == 0.
Proof.
  intro Hs. rewrite dot_bsol by exact Hs. apply isum_zero.
  intros i Hi. fold (objc T (nth i basis 0%nat)). rewrite (g_obj _ _ _ Hs i) by (rewrite (g_len _ _ _ Hs); lia). ring.
Qed.

Lemma bsol_nonneg T N basis : rhs_nonneg T -> Forall (fun q => 0 <= q) (bsol N T basis).
Proof.
  intro Hr. unfold bsol. apply extract_loop_nonneg.
  - apply zeros_nonneg.
  - apply Forall_rows. exact Hr.
Qed.

Lemma bsol_sat N T basis : g_str N T basis ->
  tab_sat (bsol N T basis) (- snd (t_obj T)) T.
Proof.
  intro Hs. split.
  - apply Forall_rows. intros k Hk. apply bsol_rows; assumption.
  - unfold obj_sat. rewrite bsol_obj by exact Hs. ring.
Qed.

(* a coordinate is the product with a unit vector *)
Lemma get_bsol_basic N T basis i : g_str N T basis -> (i < length basis)%nat -> (nth i basis 0 < N)%nat ->
  get (bsol N T basis) (nth i basis 0%nat) == rhs T i.
Proof.
  intros Hs Hi Hlive. rewrite <- (dot_unit_vec N) by exact Hlive. rewrite dot_bsol by exact Hs.
  unfold bsum. rewrite (isum_pick _ i); [|rewrite <- (g_len _ _ _ Hs); lia|].
  - rewrite Nat.sub_0_r, get_unit_vec, Nat.eqb_refl by exact Hlive. unfold rhs. ring.
  - intros k Hk Hne. rewrite get_unit_vec by exact Hlive.
    destruct (Nat.eqb_spec (nth k basis 0%nat) (nth i basis 0%nat)) as [E|_]; [|ring].
    exfalso. apply (g_basis_distinct N T basis i k Hs Hi); [rewrite (g_len _ _ _ Hs); lia | auto | exact Hlive | auto].
Qed.

Lemma get_bsol_nonbasic N T basis j : g_str N T basis -> (j < N)%nat -> mem_nat j basis = false ->
  get (bsol N T basis) j == 0.
Proof.
  intros Hs Hj Hm. rewrite <- (dot_unit_vec N) by exact Hj. rewrite dot_bsol by exact Hs. apply isum_zero.
  intros i Hi. rewrite get_unit_vec by exact Hj.
  destruct (Nat.eqb_spec (nth i basis 0%nat) j) as [E|_]; [|ring].
  exfalso. apply (mem_nat_false j basis i Hm); [rewrite (g_len _ _ _ Hs); lia | exact E].
Qed.

Lemma objc_nonneg N T basis : g_inv N T basis -> find_enter 0 basis T = None ->
  Forall (fun q => 0 <= q) (fst (t_obj T)).
Proof.
  intros [Hs _] Hn. apply Forall_nth. intros j d Hj. rewrite (nth_indep _ d 0) by exact Hj.
  destruct (find_enter_none basis T Hn j Hj) as [Hm|H]; [|exact H].
  unfold mem_nat in Hm. apply existsb_exists in Hm. destruct Hm as [x [Hin Hx]]. apply Nat.eqb_eq in Hx. subst x.
  apply (In_nth _ _ 0%nat) in Hin. destruct Hin as [i [Hi Hnth]].
  pose proof (g_obj _ _ _ Hs i Hi) as H0. rewrite Hnth in H0. unfold objc, get in H0. lra.
Qed.

Lemma optimal_lower_bound N T basis w z : g_inv N T basis -> find_enter 0 basis T = None ->
  tab_sat w z T -> Forall (fun q => 0 <= q) w -> - snd (t_obj T) <= z.
Proof.
  intros Hg Hn [_ Ho] Hw. unfold obj_sat in Ho.
  pose proof (dot_nonneg _ _ (objc_nonneg N T basis Hg Hn) Hw). lra.
Qed.

(* the ray.  T with every rhs_k replaced by rhs_k - t * entry_k_e *)
Definition shift_rhs (t : Q) (e : nat) (T : tableau) : tableau :=
  mkT (map (fun r => (fst r, snd r - t * get (fst r) e)) (t_rows T)) (t_obj T).

Lemma shift_rows_length t e T : length (t_rows (shift_rhs t e T)) = length (t_rows T).
Proof. unfold shift_rhs. simpl. apply map_length. Qed.

Lemma shift_nth t e T k : (k < length (t_rows T))%nat ->
  nth k (t_rows (shift_rhs t e T)) row0 =
  (fst (nth k (t_rows T) row0), snd (nth k (t_rows T) row0) - t * get (fst (nth k (t_rows T) row0)) e).
Proof.
  intro Hk. unfold shift_rhs. simpl. rewrite (nth_map_in _ _ k row0 row0) by exact Hk. reflexivity.
Qed.

Lemma shift_entry t e T k j : (k < length (t_rows T))%nat -> entry (shift_rhs t e T) k j = entry T k j.
Proof. intro Hk. unfold entry. rewrite shift_nth by exact Hk. reflexivity. Qed.

Lemma shift_rhs_val t e T k : (k < length (t_rows T))%nat -> rhs (shift_rhs t e T) k = rhs T k - t * entry T k e.
Proof. intro Hk. unfold rhs, entry. rewrite shift_nth by exact Hk. reflexivity. Qed.

Lemma shift_str N T basis t e : g_str N T basis -> g_str N (shift_rhs t e T) basis.
Proof.
  intros Hs. pose proof Hs as [Hwf Hlen Hunit Hdead Hobj]. constructor.
  - destruct Hwf as [Hwr Hwo]. split; [|exact Hwo]. unfold shift_rhs. simpl.
    apply Forall_forall. intros r Hr. apply in_map_iff in Hr. destruct Hr as [r0 [Hr Hin]]. subst r. simpl.
    rewrite Forall_forall in Hwr. auto.
  - rewrite shift_rows_length. exact Hlen.
  - intros i k Hi Hlive Hk. rewrite shift_rows_length in Hk. rewrite shift_entry by exact Hk. apply Hunit; assumption.
  - intros i Hi Hge. assert (Hk : (i < length (t_rows T))%nat) by lia.
    destruct (Hdead i Hi Hge) as [Hz Hr]. split.
    + intro j. rewrite shift_entry by exact Hk. apply Hz.
    + rewrite shift_rhs_val by exact Hk. rewrite Hr, Hz. ring.
  - intros i Hi. unfold objc, shift_rhs. simpl. apply Hobj. exact Hi.
Qed.

Theorem ray_point N T basis e t :
  g_inv N T basis -> find_enter 0 basis T = Some e -> find_leave 0 basis T e = None -> 0 <= t ->
  exists v, length v = N /\ Forall (fun q => 0 <= q) v /\ tab_sat v (t * objc T e - snd (t_obj T)) T.
Proof.
  intros [Hs Hr] He Hlv Ht.
  apply find_enter_some in He. destruct He as [HeN [Hmem Hneg]].
  pose proof (g_wf _ _ _ Hs) as Hwf. pose proof Hwf as [Hwr Hwo]. rewrite Hwo in HeN.
  pose proof (find_leave_none basis T e Hlv) as Hcol.
  set (Tt := shift_rhs t e T).
  assert (Hst : g_str N Tt basis) by (apply shift_str; exact Hs).
  assert (Hrt : rhs_nonneg Tt).
  { intros k Hk. unfold Tt in Hk. rewrite shift_rows_length in Hk. unfold Tt. rewrite shift_rhs_val by exact Hk.
    specialize (Hcol k Hk). fold (entry T k e) in Hcol. specialize (Hr k Hk).
    pose proof (Qmult_nonneg_nonpos t (entry T k e) Ht Hcol). lra. }
  set (u := bsol N Tt basis).
  assert (Lu : length u = N) by apply bsol_length.
  assert (Hue : get u e == 0) by (apply get_bsol_nonbasic; assumption).
  exists (set_nth e t u). split; [rewrite set_nth_length; exact Lu|]. split.
  - apply Forall_set_nth; [apply bsol_nonneg; exact Hrt | exact Ht].
  - split.
    + apply Forall_rows. intros k Hk. unfold row_sat. rewrite dot_set_nth by lia. rewrite Hue.
      pose proof (bsol_rows N Tt basis k Hst) as Hrow. unfold Tt in Hrow at 1. rewrite shift_rows_length in Hrow.
      specialize (Hrow Hk). unfold Tt in Hrow. rewrite shift_nth in Hrow by exact Hk. unfold row_sat in Hrow.
      simpl in Hrow. fold Tt in Hrow. fold u in Hrow. rewrite Hrow. ring.
    + unfold obj_sat. rewrite dot_set_nth by lia. rewrite Hue.
      pose proof (bsol_obj N Tt basis Hst) as Ho. unfold Tt in Ho at 1. simpl in Ho. fold Tt in Ho. fold u in Ho.
      rewrite Ho. unfold objc. ring.
Qed.

Lemma unbounded_below N T basis e M : g_inv N T basis ->
  find_enter 0 basis T = Some e -> find_leave 0 basis T e = None ->
  exists w z, length w = N /\ Forall (fun q => 0 <= q) w /\ tab_sat w z T /\ z < M.
Proof.
  intros Hg He Hl. pose proof (find_enter_some basis T e He) as [_ [_ Hneg]]. fold (objc T e) in Hneg.
  destruct (far_enough (M + snd (t_obj T)) _ Hneg) as [t [Ht Hlt]].
  destruct (ray_point N T basis e t Hg He Hl Ht) as [w [Lw [Hw Hs]]].
  exists w, (t * objc T e - snd (t_obj T)). split; [exact Lw|]. split; [exact Hw|]. split; [exact Hs | lra].
Qed.
