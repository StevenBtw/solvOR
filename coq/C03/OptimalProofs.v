(* The initial tableau of solve_lp (exact arithmetic, eps = 0): its shape, its slack basis (unit columns, reduced
   cost 0), what it means for a vector (x ++ slacks) to satisfy it - row equilibration divides every row by a
   positive number and rescales the slack - and the padding of a point to n coordinates.
   When b >= 0 no right-hand side is negative, so solve_lp skips phase 1. *)
From Coq Require Import List QArith Qabs Bool Arith Lia Lqa.
From SV Require Import C03.Simplex C03.LPSpec C03.LinAlgProofs C03.PivotProofs C03.Phase2Inv.
Import ListNotations.
Open Scope Q_scope.

Lemma Forall2_mv A b x : length A = length b ->
  (forall k, (k < length A)%nat -> dot (nth k A []) x <= nth k b 0) -> Forall2 Qle (mv A x) b.
Proof.
  revert b. induction A as [|r A IH]; intros [|bi b] Hl H; simpl in *; try discriminate; constructor.
  - apply (H 0%nat). lia.
  - apply IH; [lia|]. intros k Hk. apply (H (S k)). lia.
Qed.

(* row equilibration: dividing a constraint row by a positive number keeps the feasible set; the slack is rescaled *)
Lemma fold_max_nonneg r : 0 <= fold_right (fun v acc => if Qltb acc (Qabs v) then Qabs v else acc) 0 r.
Proof.
  induction r as [|v r IH]; simpl; [lra|].
  destruct (Qltb _ (Qabs v)); [apply Qabs_nonneg | exact IH].
Qed.

Lemma row_scale_pos r : 0 < row_scale r.
Proof.
  unfold row_scale. pose proof (fold_max_nonneg r) as H.
  set (mx := fold_right (fun v acc => if Qltb acc (Qabs v) then Qabs v else acc) 0 r) in *.
  destruct (Qeq_bool mx 0) eqn:E; [lra|]. apply Qeq_bool_neq in E.
  destruct (Qlt_le_dec 0 mx) as [Hp|Hn]; [exact Hp|]. exfalso. apply E. lra.
Qed.

Lemma scaled_row_length r : length (scaled_row r) = length r.
Proof. unfold scaled_row. apply map_length. Qed.

Lemma dot_scaled_row r x : dot (scaled_row r) x == dot r x / row_scale r.
Proof. unfold scaled_row, Qdiv. rewrite (dot_scale_each (/ row_scale r)). reflexivity. Qed.

Lemma row_scale_equiv sc ax s b : 0 < sc -> (ax / sc + s == b / sc <-> ax + sc * s == b).
Proof.
  intro Hsc. split; intro H.
  - assert (E : ax + sc * s == (ax / sc + s) * sc) by (field; lra). rewrite E, H. field. lra.
  - assert (E : ax / sc + s == (ax + sc * s) / sc) by (field; lra). rewrite E, H. reflexivity.
Qed.

Lemma mul_div_cancel sc a : 0 < sc -> sc * (a / sc) == a.
Proof. intro H. field. lra. Qed.

Lemma le_scale sc z a : 0 < sc -> z <= a / sc -> sc * z <= a.
Proof.
  intros Hsc H. rewrite <- (mul_div_cancel sc a Hsc). rewrite (Qmult_comm sc z), (Qmult_comm sc (a / sc)).
  apply Qmult_le_compat_r; [exact H | lra].
Qed.

Lemma lt_scale sc z a : 0 < sc -> z < a / sc -> sc * z < a.
Proof.
  intros Hsc H. rewrite <- (mul_div_cancel sc a Hsc). rewrite (Qmult_comm sc z), (Qmult_comm sc (a / sc)).
  apply Qmult_lt_compat_r; assumption.
Qed.

Lemma div_nonneg a sc : 0 <= a -> 0 < sc -> 0 <= a / sc.
Proof. intros Ha Hsc. apply Qle_shift_div_l; [exact Hsc | lra]. Qed.

Section Init.
  Variables (minimize : bool) (c : list Q) (A : list (list Q)) (b : list Q).
  Hypothesis Hvalid : valid_lp c A b = true.

  Let n := length c.
  Let m := length b.
  Let w := weights minimize c.
  Let T0 := init_tableau minimize c A b.

  Lemma valid_len : length A = m.
  Proof.
    pose proof Hvalid as Hv. unfold valid_lp in Hv. apply andb_true_iff in Hv. destruct Hv as [H _].
    apply andb_true_iff in H. destruct H as [_ H]. apply Nat.eqb_eq in H. exact H.
  Qed.

  Lemma valid_rows k : (k < m)%nat -> length (nth k A []) = n.
  Proof.
    intro Hk. pose proof Hvalid as Hv. unfold valid_lp in Hv. apply andb_true_iff in Hv. destruct Hv as [_ H].
    rewrite forallb_forall in H. apply Nat.eqb_eq. apply H. apply nth_In. rewrite valid_len. exact Hk.
  Qed.

  Lemma valid_wf : well_formed c A b.
  Proof.
    split; [apply valid_len|]. apply Forall_forall. intros r Hr.
    pose proof Hvalid as Hv. unfold valid_lp in Hv. apply andb_true_iff in Hv. destruct Hv as [_ H].
    rewrite forallb_forall in H. apply Nat.eqb_eq. apply H. exact Hr.
  Qed.

  Lemma T0_rows_length : length (t_rows T0) = m.
  Proof.
    unfold T0, init_tableau. simpl. rewrite mapi_length. rewrite firstn_all2 by (rewrite valid_len; lia).
    apply valid_len.
  Qed.

  Lemma T0_row k : (k < m)%nat ->
    nth k (t_rows T0) row0
    = rnorm (scaled_row (nth k A []) ++ unit_vec m k, nth k b 0 / row_scale (nth k A [])).
  Proof.
    intro Hk. unfold T0, init_tableau. simpl. rewrite firstn_all2 by (rewrite valid_len; lia).
    rewrite (mapi_nth _ _ k [] row0) by (rewrite valid_len; exact Hk). reflexivity.
  Qed.

  Lemma T0_obj : t_obj T0 = (map Qred (scaled_row w) ++ zeros m, 0).
  Proof. reflexivity. Qed.

  Lemma unit_vec_length k i : length (unit_vec k i) = k.
  Proof. unfold unit_vec. rewrite map_length. apply seq_length. Qed.

  Lemma w_length : length w = n.
  Proof. apply weights_length. Qed.

  Lemma T0_wf : tab_wf (n + m) T0.
  Proof.
    split.
    - apply Forall_rows. rewrite T0_rows_length. intros k Hk. rewrite T0_row by exact Hk. cbn [rnorm fst]. rewrite map_length, app_length, unit_vec_length, scaled_row_length, valid_rows by exact Hk. reflexivity.
    - rewrite T0_obj. cbn [fst]. rewrite app_length, map_length, scaled_row_length, zeros_length, w_length. reflexivity.
  Qed.

  Lemma T0_sat x s z : length x = n ->
    (tab_sat (x ++ s) z T0 <->
     (forall k, (k < m)%nat -> dot (nth k A []) x + row_scale (nth k A []) * get s k == nth k b 0)
     /\ dot w x == row_scale w * z).
  Proof.
    intro Hx. unfold tab_sat. rewrite T0_obj.
    assert (Hobj : obj_sat (x ++ s) z (map Qred (scaled_row w) ++ zeros m, 0) <-> dot w x == row_scale w * z).
    { unfold obj_sat. cbn [fst snd]. rewrite dot_app by (rewrite map_length, scaled_row_length, w_length; lia).
      rewrite dot_map_Qred, dot_zeros_l, dot_scaled_row. pose proof (row_scale_pos w) as Hsc. split; intro H.
      - rewrite <- (mul_div_cancel (row_scale w) (dot w x) Hsc). assert (E : dot w x / row_scale w == z) by lra. rewrite E. reflexivity.
      - rewrite H. assert (E : row_scale w * z / row_scale w == z) by (field; lra). lra. }
    assert (Hrow : forall k, (k < m)%nat ->
              (row_sat (x ++ s) (nth k (t_rows T0) row0)
               <-> dot (nth k A []) x + row_scale (nth k A []) * get s k == nth k b 0)).
    { intros k Hk. rewrite T0_row by exact Hk. rewrite row_sat_rval, rval_rnorm. unfold rval. cbn [fst snd].
      rewrite dot_app by (rewrite scaled_row_length, valid_rows by exact Hk; lia). rewrite dot_unit_vec by exact Hk.
      rewrite dot_scaled_row.
      rewrite <- (row_scale_equiv (row_scale (nth k A [])) (dot (nth k A []) x) (get s k) (nth k b 0) (row_scale_pos _)).
      split; intro H; lra. }
    rewrite Forall_rows, T0_rows_length.
    split; intros [H1 H2]; (split; [|apply Hobj; exact H2]); intros k Hk; apply (Hrow k Hk), H1, Hk.
  Qed.

  Lemma T0_basis_lt i : (i < m)%nat -> (nth i (seq n m) 0 < n + m)%nat.
  Proof. intro Hi. rewrite seq_nth by exact Hi. lia. Qed.

  Lemma T0_unit i k : (i < m)%nat -> (k < m)%nat ->
    get (fst (nth k (t_rows T0) row0)) (nth i (seq n m) 0%nat) == if Nat.eqb k i then 1 else 0.
  Proof.
    intros Hi Hk. rewrite seq_nth by exact Hi. rewrite T0_row by exact Hk. rewrite get_rnorm. cbn [fst].
    rewrite <- (valid_rows k Hk), <- (scaled_row_length (nth k A [])), get_app_r, get_unit_vec by exact Hk.
    rewrite Nat.eqb_sym. reflexivity.
  Qed.

  Lemma T0_objc i : (i < m)%nat -> objc T0 (nth i (seq n m) 0%nat) == 0.
  Proof.
    intro Hi. rewrite seq_nth by exact Hi. unfold objc. rewrite T0_obj. cbn [fst].
    replace n with (length (map Qred (scaled_row w))) by (rewrite map_length, scaled_row_length; apply w_length).
    rewrite get_app_r, get_zeros. reflexivity.
  Qed.

  Hypothesis Hb : forallb (Qleb 0) b = true.

  Lemma b_nonneg k : 0 <= nth k b 0.
  Proof.
    destruct (Nat.lt_ge_cases k (length b)) as [H|H].
    - rewrite forallb_forall in Hb. apply Qleb_le. apply Hb. apply nth_In. exact H.
    - rewrite nth_overflow by exact H. lra.
  Qed.

  Lemma no_phase1 : existsb (fun r => Qltb (snd r) (- 0)) (t_rows T0) = false.
  Proof.
    destruct (existsb _ _) eqn:E; [|reflexivity]. exfalso.
    apply existsb_exists in E. destruct E as [r [Hin Hlt]].
    apply (In_nth _ _ row0) in Hin. destruct Hin as [k [Hk Hr]]. rewrite T0_rows_length in Hk.
    rewrite T0_row in Hr by exact Hk. subst r. apply Qltb_lt in Hlt. rewrite snd_rnorm in Hlt. cbn [snd] in Hlt.
    pose proof (div_nonneg _ _ (b_nonneg k) (row_scale_pos (nth k A []))). lra.
  Qed.

End Init.

(* padding / truncating a point to n coordinates does not change products with n-vectors *)
Lemma dot_pad a : forall n k y, (length a <= n)%nat -> (n <= k)%nat ->
  dot a (firstn n (y ++ zeros k)) == dot a y.
Proof.
  induction a as [|u a IH]; intros n k y Hn Hk; [reflexivity|].
  destruct n as [|n]; [simpl in Hn; lia|]. destruct k as [|k]; [lia|].
  destruct y as [|v y].
  - change ([] ++ zeros (S k)) with (0 :: ([] ++ zeros k)). cbn [firstn dot].
    rewrite IH by (simpl in Hn; lia). rewrite dot_nil_r. simpl. ring.
  - cbn [app firstn dot]. rewrite IH by (simpl in Hn; lia). reflexivity.
Qed.

Lemma pad_nonneg : forall n k y, Forall (fun q => 0 <= q) y ->
  Forall (fun q => 0 <= q) (firstn n (y ++ zeros k)).
Proof.
  induction n as [|n IH]; intros k y Hy; [constructor|].
  destruct y as [|v y].
  - destruct k as [|k]; [constructor|]. change ([] ++ zeros (S k)) with (0 :: ([] ++ zeros k)).
    cbn [firstn]. constructor; [lra|]. apply IH. constructor.
  - inversion Hy; subst. cbn [app firstn]. constructor; [assumption|]. apply IH. assumption.
Qed.

Lemma pad_length n k y : (n <= k)%nat -> length (firstn n (y ++ zeros k)) = n.
Proof. intro H. rewrite firstn_length, app_length, zeros_length. lia. Qed.

Lemma Forall2_mv_nth A b y k : Forall2 Qle (mv A y) b -> (k < length A)%nat ->
  dot (nth k A []) y <= nth k b 0.
Proof.
  revert b k. induction A as [|r A IH]; intros b k H Hk; simpl in *; [lia|].
  inversion H; subst. destruct k as [|k]; simpl; [assumption|]. apply IH; [assumption | lia].
Qed.
