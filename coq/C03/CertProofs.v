(* Soundness of the certificate checkers of Cert.v: weak duality, Farkas, improving ray. *)
From Coq Require Import List QArith Qabs Bool Arith Lia Lqa.
From SV Require Import C03.Simplex C03.SimplexCorr C03.LPSpec C03.Cert C03.LinAlgProofs.
Import ListNotations.
Open Scope Q_scope.

(* weak duality: dual feasible y gives the lower bound -y.b on the objective of every feasible point *)
Lemma weak_duality w A b y x :
  length A = length b -> Forall (fun r => length r = length w) A ->
  Forall (fun q => 0 <= q) y -> Forall (fun q => 0 <= q) (vadd w (vm (length w) y A)) ->
  feasible A b x -> - dot y b <= dot w x.
Proof.
  intros HAb HA Hy Hd [Hx HAx].
  pose proof (dot_nonneg _ _ Hd Hx) as H0.
  rewrite dot_vadd_l in H0 by (rewrite vm_length by exact HA; reflexivity).
  rewrite dot_vm in H0 by exact HA.
  pose proof (dot_mono_r y _ _ Hy HAx) as H1. lra.
Qed.

Lemma primal_check_spec tol A b x : primal_check tol A b x = true -> feasible_tol tol A b x.
Proof.
  unfold primal_check. intro H. apply andb_true_iff in H as [H1 H2].
  split; [apply all_ge_spec; exact H1 | apply all_le2_spec; exact H2].
Qed.

Lemma cert_optimal_sound tol minimize c A b x obj y :
  cert_optimal_check tol minimize c A b x obj y = true ->
  lp_optimal_tol tol minimize c A b x /\ Qabs (obj - dot c x) <= tol.
Proof.
  unfold cert_optimal_check, dual_check. intro H.
  apply andb_true_iff in H as [H H0]. apply andb_true_iff in H as [H H1]. apply andb_true_iff in H as [H Hdu].
  apply andb_true_iff in H as [Hdim Hp]. apply andb_true_iff in Hdu as [Hy Hd].
  apply all_ge_spec in Hy, Hd. apply Qleb_le in H1, H0.
  apply dims_ok_spec in Hdim. destruct Hdim as [HAb HA]. apply primal_check_spec in Hp.
  split; [|exact H0]. split; [exact Hp|].
  intros x' Hx'.
  assert (HA' : Forall (fun r => length r = length (weights minimize c)) A)
    by (rewrite weights_length; exact HA).
  pose proof (weak_duality _ A b y x' HAb HA' Hy Hd Hx') as Hwd.
  rewrite weights_dot in H1, Hwd. destruct minimize; lra.
Qed.

Lemma feasible_tol_0 A b x : feasible_tol 0 A b x -> feasible A b x.
Proof.
  intros [H1 H2]. split.
  - eapply Forall_impl; [|exact H1]. intros a Ha. simpl in Ha. lra.
  - eapply Forall2_impl'; [|exact H2]. intros p q Hpq. simpl in Hpq. lra.
Qed.

Lemma cert_optimal_sound_exact minimize c A b x obj y :
  cert_optimal_check 0 minimize c A b x obj y = true ->
  lp_optimal minimize c A b x /\ obj == dot c x.
Proof.
  intro H. apply cert_optimal_sound in H. destruct H as [[Hf Hopt] Hobj]. split.
  - split; [apply feasible_tol_0; exact Hf|].
    intros x' Hx'. specialize (Hopt x' Hx'). destruct minimize; lra.
  - apply Qabs_Qle_condition in Hobj. lra.
Qed.

Lemma farkas_sound c A b y : farkas_check c A b y = true -> lp_infeasible A b.
Proof.
  unfold farkas_check. intro H.
  apply andb_true_iff in H as [H H0]. apply andb_true_iff in H as [H H1]. apply andb_true_iff in H as [Hdim H2].
  apply all_ge_spec in H1, H2. apply Qltb_lt in H0.
  apply dims_ok_spec in Hdim. destruct Hdim as [HAb HA].
  intros x [Hx HAx].
  pose proof (dot_nonneg _ _ H1 Hx) as H3. rewrite dot_vm in H3 by exact HA.
  pose proof (dot_mono_r y _ _ H2 HAx). lra.
Qed.

Lemma nonneg_ray x r t : 0 <= t -> length x = length r ->
  Forall (fun q => 0 <= q) x -> Forall (fun q => 0 <= q) r ->
  Forall (fun q => 0 <= q) (vadd x (map (Qmult t) r)).
Proof.
  intros Ht. revert r. induction x as [|a x IH]; intros [|d r] Hl Hx Hr; simpl in *;
    try discriminate; constructor.
  - inversion Hx; inversion Hr; subst. pose proof (Qmult_le_0_compat t d Ht). lra.
  - inversion Hx; inversion Hr; subst. apply IH; [lia|assumption|assumption].
Qed.

Lemma rows_ray A b x r t : 0 <= t -> length x = length r ->
  Forall2 Qle (mv A x) b -> Forall (fun v => v <= 0) (mv A r) ->
  Forall2 Qle (mv A (vadd x (map (Qmult t) r))) b.
Proof.
  intros Ht Hl. revert b. induction A as [|a A IH]; intros b H1 H2; simpl in *.
  - inversion H1. constructor.
  - inversion H1; subst. inversion H2; subst. constructor; [|apply IH; assumption].
    rewrite dot_vadd_r by (rewrite map_length; exact Hl). rewrite dot_scale_r.
    assert (t * dot a r <= 0).
    { setoid_replace 0 with (t * 0) by ring. rewrite (Qmult_comm t (dot a r)), (Qmult_comm t 0).
      apply Qmult_le_compat_r; assumption. }
    lra.
Qed.

Lemma ray_sound minimize c A b x r : ray_check minimize c A b x r = true -> lp_unbounded minimize c A b.
Proof.
  unfold ray_check. intro H.
  apply andb_true_iff in H as [H H0]. apply andb_true_iff in H as [H H1]. apply andb_true_iff in H as [H H2].
  apply andb_true_iff in H as [H H3]. apply andb_true_iff in H as [_ Hp].
  apply all_ge_spec in H2. apply Nat.eqb_eq in H3. apply Qltb_lt in H0.
  apply primal_check_spec, feasible_tol_0 in Hp. destruct Hp as [Hx0 HAx0].
  assert (HAr : Forall (fun v => v <= 0) (mv A r)).
  { apply Forall_forall. intros v Hv. rewrite forallb_forall in H1. apply Qleb_le. auto. }
  apply unbounded_weights. intro M.
  destruct (far_enough (M - dot (weights minimize c) x) _ H0) as [t [Ht Hlt]].
  exists (vadd x (map (Qmult t) r)). split.
  - split; [apply nonneg_ray; assumption | apply rows_ray; assumption].
  - rewrite dot_vadd_r by (rewrite map_length; exact H3). rewrite dot_scale_r. lra.
Qed.

(* what a successful `cert_*` lemma of a check run establishes about the IMPLEMENTATION's answer *)
Definition case_claim (k : lp_case) : Prop :=
  match k_status k with
  | OPTIMAL => lp_optimal_tol tol6 (k_min k) (k_c k) (k_A k) (k_b k) (k_sol k)
               /\ Qabs (k_obj k - dot (k_c k) (k_sol k)) <= tol6
  | INFEASIBLE => lp_infeasible (k_A k) (k_b k)
  | UNBOUNDED => lp_unbounded (k_min k) (k_c k) (k_A k) (k_b k)
  | MAX_ITER => True
  end.

Lemma cert_case_sound k : cert_case_check k = true -> case_claim k.
Proof.
  unfold cert_case_check, case_claim. destruct (k_status k); intro H.
  - apply andb_true_iff in H. destruct H as [H _]. apply cert_optimal_sound in H. exact H.
  - eapply farkas_sound. exact H.
  - eapply ray_sound. exact H.
  - exact I.
Qed.
