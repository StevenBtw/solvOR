(* First loop of _phase1 (exact arithmetic): rows with negative rhs are negated and receive one artificial
   column each.  Closed description of the state after the loop. *)
From Coq Require Import List QArith Qabs Bool Arith Lia Lqa.
From SV Require Import C03.Simplex C03.LinAlgProofs C03.PivotProofs.
Import ListNotations.
Open Scope Q_scope.

(* the objective row only gets zeros appended *)
Lemma add_arts_obj N k : forall i rows obj basis arts rows' obj' basis' arts',
  add_arts 0 N k i (rows, obj, basis, arts) = (rows', obj', basis', arts') ->
  length (fst obj') = (length (fst obj) + (length arts' - length arts))%nat /\ (length arts <= length arts')%nat.
Proof.
  induction k as [|k IH]; intros i rows obj basis arts rows' obj' basis' arts' H.
  - simpl in H. inversion H; subst. lia.
  - cbn [add_arts] in H.
    assert (Hstep : exists rows1 obj1 basis1 arts1,
               add_art_step 0 N i (rows, obj, basis, arts) = (rows1, obj1, basis1, arts1)
               /\ length (fst obj1) = (length (fst obj) + (length arts1 - length arts))%nat
               /\ (length arts <= length arts1)%nat).
    { unfold add_art_step. destruct (Qltb (snd (nth i rows row0)) (- 0)).
      - eexists _, _, _, _. split; [reflexivity|]. cbn [fst]. rewrite !app_length. simpl. lia.
      - eexists _, _, _, _. split; [reflexivity|]. lia. }
    destruct Hstep as [rows1 [obj1 [basis1 [arts1 [E [H1 H2]]]]]]. rewrite E in H. apply IH in H. lia.
Qed.

Section Arts.
  Variables (N m : nat) (rows0 : list row) (basis0 : list nat).
  Hypothesis Hrows0 : Forall (fun r => length (fst r) = N) rows0.
  Hypothesis Hm : length rows0 = m.
  Hypothesis Hb0 : length basis0 = m.
  Hypothesis Hlt0 : forall i, (i < m)%nat -> (nth i basis0 0 < N)%nat.

  (* row k of the current state (a artificial columns so far, rows < i processed) against row k of the start *)
  Definition row_spec (a i k : nat) (r : row) (bk : nat) : Prop :=
    let r0 := nth k rows0 row0 in
    exists ext, length ext = a /\
      ((bk = nth k basis0 0%nat /\ r = (fst r0 ++ ext, snd r0) /\ ((k < i)%nat -> 0 <= snd r0)
        /\ forall p, get ext p == 0)
       \/ (exists p, (p < a)%nat /\ (k < i)%nat /\ bk = (N + p)%nat /\ r = (map Qopp (fst r0) ++ ext, - snd r0)
           /\ snd r0 < 0 /\ forall p', get ext p' == if Nat.eqb p' p then 1 else 0)).

  Definition arts_inv (i : nat) (st : p1_state) : Prop :=
    let '(rows, obj, basis, arts) := st in
    arts = seq N (length arts) /\ length rows = m /\ length basis = m
    /\ (forall k, (k < m)%nat -> row_spec (length arts) i k (nth k rows row0) (nth k basis 0%nat))
    /\ (forall k k', (k < m)%nat -> (k' < m)%nat -> (N <= nth k basis 0)%nat ->
                     nth k basis 0%nat = nth k' basis 0%nat -> k = k').

  Lemma row0_len k : (k < m)%nat -> length (fst (nth k rows0 row0)) = N.
  Proof. intro Hk. rewrite Forall_forall in Hrows0. apply Hrows0. apply nth_In. lia. Qed.

  Lemma row_spec_basis_lt a i k r bk : (k < m)%nat -> row_spec a i k r bk -> (bk < N + a)%nat.
  Proof.
    intros Hk [ext [_ [[Hb _]|[p [Hp [_ [Hb _]]]]]]]; subst bk; [pose proof (Hlt0 k Hk)|]; lia.
  Qed.

  Lemma row_spec_next a i k r bk : k <> i -> row_spec a i k r bk -> row_spec a (S i) k r bk.
  Proof.
    intros Hne [ext [Lext H]]. exists ext. split; [exact Lext|].
    destruct H as [[Hbk [Hrk [Hpos Hz]]]|[p [Hp [Hlt Hrest]]]].
    - left. split; [exact Hbk|]. split; [exact Hrk|]. split; [intro; apply Hpos; lia | exact Hz].
    - right. exists p. split; [exact Hp|]. split; [lia | exact Hrest].
  Qed.

  (* get reads 0 beyond the end, so an appended 0 is not seen *)
  Lemma get_pad0 l p : get (l ++ [0]) p = get l p.
  Proof.
    rewrite get_snoc. destruct (Nat.ltb p (length l)) eqn:E1; [reflexivity|].
    apply Nat.ltb_ge in E1. rewrite get_overflow by exact E1. destruct (Nat.eqb p (length l)); reflexivity.
  Qed.

  Lemma row_spec_pad a i k r bk : row_spec a i k r bk -> row_spec (S a) i k (fst r ++ [0], snd r) bk.
  Proof.
    intros [ext [Lext H]]. exists (ext ++ [0]). split; [rewrite app_length; simpl; lia|].
    destruct H as [[Hbk [Hrk [Hpos Hz]]]|[p [Hp [Hlt [Hbk [Hrk [Hneg Hu]]]]]]].
    - left. split; [exact Hbk|]. split; [rewrite Hrk; cbn [fst snd]; rewrite <- app_assoc; reflexivity|].
      split; [exact Hpos|]. intro p. rewrite get_pad0. apply Hz.
    - right. exists p. split; [lia|]. split; [exact Hlt|]. split; [exact Hbk|].
      split; [rewrite Hrk; cbn [fst snd]; rewrite <- app_assoc; reflexivity|]. split; [exact Hneg|].
      intro p'. rewrite get_pad0. apply Hu.
  Qed.

  Lemma arts_step i st : (i < m)%nat -> arts_inv i st -> arts_inv (S i) (add_art_step 0 N i st).
  Proof.
    intros Hi. destruct st as [[[rows obj] basis] arts]. intros [Harts [Hlr [Hlb [Hspec Hinj]]]].
    unfold add_art_step. set (a := length arts) in *.
    destruct (Hspec i Hi) as [exti [Lexti [[Hbi [Hri [_ Hzi]]]|[p [_ [Hlt _]]]]]]; [|lia].
    rewrite Hri. cbn [snd].
    destruct (Qltb (snd (nth i rows0 row0)) (- 0)) eqn:Eneg.
    - (* flip row i, new artificial column N + a *)
      apply Qltb_lt in Eneg.
      unfold arts_inv. rewrite app_length. cbn [length]. fold a. replace (a + 1)%nat with (S a) by lia.
      split; [rewrite seq_S; rewrite <- Harts; reflexivity|].
      split; [rewrite mapi_length; exact Hlr|].
      split; [rewrite set_nth_length; exact Hlb|].
      split.
      + intros k Hk. rewrite (mapi_nth _ _ k row0 row0) by lia.
        destruct (Nat.eq_dec k i) as [->|Hne].
        * rewrite Nat.eqb_refl. rewrite set_nth_same by lia. rewrite Hri. cbn [fst snd].
          exists (map Qopp exti ++ [1]). split; [rewrite app_length, map_length; simpl; lia|].
          right. exists a. split; [lia|]. split; [lia|]. split; [reflexivity|].
          split; [rewrite map_app, <- app_assoc; reflexivity|]. split; [lra|].
          intro p'. rewrite get_snoc, map_length, Lexti.
          destruct (Nat.eqb_spec p' a) as [->|_].
          -- rewrite Nat.ltb_irrefl. reflexivity.
          -- destruct (Nat.ltb p' a); [|reflexivity]. rewrite get_map_opp, Hzi. reflexivity.
        * rewrite (proj2 (Nat.eqb_neq k i) Hne). rewrite set_nth_other by exact Hne.
          apply row_spec_next; [exact Hne|]. apply row_spec_pad. exact (Hspec k Hk).
      + intros k k' Hk Hk' Hge Heq.
        assert (Hnew : forall k1, (k1 < m)%nat -> nth k1 (set_nth i (N + a)%nat basis) 0%nat = (N + a)%nat -> k1 = i).
        { intros k1 Hk1 Hbad. destruct (Nat.eq_dec k1 i) as [|Hne]; [assumption|].
          rewrite set_nth_other in Hbad by exact Hne.
          pose proof (row_spec_basis_lt _ _ _ _ _ Hk1 (Hspec k1 Hk1)). lia. }
        destruct (Nat.eq_dec k i) as [->|Hne].
        * symmetry. apply Hnew; [exact Hk'|]. rewrite <- Heq. apply set_nth_same. lia.
        * destruct (Nat.eq_dec k' i) as [->|Hne'].
          -- apply Hnew; [exact Hk|]. rewrite Heq. apply set_nth_same. lia.
          -- rewrite set_nth_other in Heq, Hge by assumption. rewrite set_nth_other in Heq by assumption.
             apply Hinj; assumption.
    - apply Qltb_false in Eneg. unfold arts_inv. fold a.
      split; [exact Harts|]. split; [exact Hlr|]. split; [exact Hlb|]. split; [|exact Hinj].
      intros k Hk. destruct (Nat.eq_dec k i) as [->|Hne].
      + exists exti. split; [exact Lexti|]. left. split; [exact Hbi|]. split; [exact Hri|].
        split; [intro; lra | exact Hzi].
      + apply row_spec_next; [exact Hne | exact (Hspec k Hk)].
  Qed.

  Lemma arts_loop k : forall i st, (i + k = m)%nat -> arts_inv i st -> arts_inv m (add_arts 0 N k i st).
  Proof.
    induction k as [|k IH]; intros i st Hik Hinv; simpl.
    - replace m with i by lia. exact Hinv.
    - apply IH; [lia|]. apply arts_step; [lia | exact Hinv].
  Qed.

  Lemma arts_init obj0 : arts_inv 0 (rows0, obj0, basis0, []).
  Proof.
    unfold arts_inv. cbn [length]. split; [reflexivity|]. split; [exact Hm|]. split; [exact Hb0|]. split.
    - intros k Hk. exists []. split; [reflexivity|]. left. split; [reflexivity|].
      split; [rewrite app_nil_r; destruct (nth k rows0 row0); reflexivity|]. split; [intro; lia|].
      intro p. rewrite get_nil. reflexivity.
    - intros k k' Hk Hk' Hge _. pose proof (Hlt0 k Hk). lia.
  Qed.

  Theorem add_arts_spec obj0 rows obj basis arts :
    add_arts 0 N m 0 (rows0, obj0, basis0, []) = (rows, obj, basis, arts) ->
    arts_inv m (rows, obj, basis, arts).
  Proof. intro H. rewrite <- H. apply arts_loop; [lia | apply arts_init]. Qed.

End Arts.
