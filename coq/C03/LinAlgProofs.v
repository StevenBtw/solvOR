(* Lemmas shared by the C03 proofs: reflection of the boolean comparisons, vectors over Q (dot, mv, vadd, vm,
   unit_vec) and the list helpers of Simplex.v (get, set_nth, mapi, mem_nat, zeros, firstn). *)
From Coq Require Import List QArith Qabs Bool Arith Lia Lqa.
From SV Require Import C03.Simplex C03.LPSpec C03.Cert.
Import ListNotations.
Open Scope Q_scope.

Lemma Qleb_le a b : Qleb a b = true <-> a <= b.
Proof. unfold Qleb. apply Qle_bool_iff. Qed.

Lemma Qleb_false a b : Qleb a b = false <-> b < a.
Proof.
  unfold Qleb. split; intro H.
  - apply Qnot_le_lt. intro Hle. apply Qle_bool_iff in Hle. congruence.
  - destruct (Qle_bool a b) eqn:E; [|reflexivity].
    apply Qle_bool_iff in E. exfalso. apply (Qlt_not_le _ _ H E).
Qed.

Lemma Qltb_lt a b : Qltb a b = true <-> a < b.
Proof. unfold Qltb. rewrite negb_true_iff. apply Qleb_false. Qed.

Lemma Qltb_false a b : Qltb a b = false <-> b <= a.
Proof. unfold Qltb. rewrite negb_false_iff. apply Qleb_le. Qed.

Lemma Qabs_pos_false f : Qltb 0 (Qabs f) = false -> f == 0.
Proof.
  intro H. apply Qltb_false in H. pose proof (Qabs_nonneg f).
  assert (Qabs f == 0) by lra.
  destruct (Qabs_Qle_condition f 0) as [H2 _]. assert (Qabs f <= 0) by lra. specialize (H2 H3). lra.
Qed.

Lemma Qabs_pos_true x : Qltb 0 (Qabs x) = true -> ~ x == 0.
Proof.
  intros H Hx. apply Qltb_lt in H. rewrite Hx in H. simpl in H. apply (Qlt_irrefl 0). exact H.
Qed.

Lemma Qabs_le0 d : Qleb (Qabs d) 0 = true -> d == 0.
Proof.
  intro H. apply Qleb_le in H. apply Qabs_Qle_condition in H. lra.
Qed.

Lemma Qmult_nonneg_nonpos t x : 0 <= t -> x <= 0 -> t * x <= 0.
Proof.
  intros Ht Hx. assert (H : 0 <= t * - x) by (apply Qmult_le_0_compat; lra).
  assert (E : t * - x == - (t * x)) by ring. lra.
Qed.

Lemma all_ge_spec lo l : all_ge lo l = true <-> Forall (fun v => lo <= v) l.
Proof.
  unfold all_ge. rewrite forallb_forall, Forall_forall.
  split; intros H x Hx; apply Qleb_le; auto.
Qed.

Lemma all_le2_spec tol l r : all_le2 tol l r = true <-> Forall2 (fun a b => a <= b + tol) l r.
Proof.
  revert r. induction l as [|x l IH]; intros [|y r]; simpl; split; intro H;
    try discriminate; try constructor; try (inversion H; fail).
  - apply andb_true_iff in H. destruct H as [H1 H2]. apply Qleb_le. exact H1.
  - apply andb_true_iff in H. destruct H as [H1 H2]. apply IH. exact H2.
  - inversion H; subst. apply andb_true_iff. split; [apply Qleb_le; assumption | apply IH; assumption].
Qed.

Lemma dot_nil_r a : dot a [] = 0.
Proof. destruct a; reflexivity. Qed.

Lemma dot_comm a v : dot a v == dot v a.
Proof.
  revert v. induction a as [|x a IH]; intros [|y v]; simpl; try reflexivity.
  rewrite IH. ring.
Qed.

Lemma dot_nonneg a v : Forall (fun q => 0 <= q) a -> Forall (fun q => 0 <= q) v -> 0 <= dot a v.
Proof.
  intros Ha. revert v. induction Ha as [|x a Hx Ha IH]; intros v Hv; simpl; [lra|].
  destruct Hv as [|y v Hy Hv]; [lra|].
  specialize (IH v Hv). pose proof (Qmult_le_0_compat _ _ Hx Hy). lra.
Qed.

Lemma dot_zeros_l k v : dot (zeros k) v == 0.
Proof.
  revert v. induction k as [|k IH]; intros v; simpl; [reflexivity|].
  destruct v as [|y v]; [reflexivity|]. unfold zeros in IH. rewrite IH. ring.
Qed.

Lemma dot_scale_l k a v : dot (map (Qmult k) a) v == k * dot a v.
Proof.
  revert v. induction a as [|x a IH]; intros [|y v]; simpl; try ring.
  rewrite IH. ring.
Qed.

Lemma dot_opp_l a v : dot (map Qopp a) v == - dot a v.
Proof.
  revert v. induction a as [|x a IH]; intros [|y v]; simpl; try ring.
  rewrite IH. ring.
Qed.

Lemma vadd_length a b : length a = length b -> length (vadd a b) = length a.
Proof.
  revert b. induction a as [|x a IH]; intros [|y b] H; simpl in *; try reflexivity; try discriminate.
  f_equal. apply IH. lia.
Qed.

Lemma dot_vadd_l a b v : length a = length b -> dot (vadd a b) v == dot a v + dot b v.
Proof.
  revert b v. induction a as [|x a IH]; intros [|y b] v H; simpl in *; try discriminate; try ring.
  destruct v as [|z v]; [ring|]. rewrite IH by lia. ring.
Qed.

Lemma dot_vadd_r a x r : length x = length r -> dot a (vadd x r) == dot a x + dot a r.
Proof.
  intro H. rewrite dot_comm, dot_vadd_l by exact H. rewrite (dot_comm x a), (dot_comm r a). reflexivity.
Qed.

Lemma dot_scale_r k a v : dot a (map (Qmult k) v) == k * dot a v.
Proof. rewrite dot_comm, dot_scale_l, dot_comm. reflexivity. Qed.

Lemma zeros_length k : length (zeros k) = k.
Proof. apply repeat_length. Qed.

Lemma vm_length n y A : Forall (fun r => length r = n) A -> length (vm n y A) = n.
Proof.
  intro HA. revert y. induction HA as [|r A Hr HA IH]; intros [|yi y]; simpl; try apply zeros_length.
  rewrite vadd_length; rewrite map_length; [exact Hr|]. rewrite IH. exact Hr.
Qed.

Lemma dot_vm n y A x : Forall (fun r => length r = n) A -> dot (vm n y A) x == dot y (mv A x).
Proof.
  intro HA. revert y. induction HA as [|r A Hr HA IH]; intros [|yi y]; simpl; try apply dot_zeros_l.
  rewrite dot_vadd_l.
  - rewrite dot_scale_l, IH. reflexivity.
  - rewrite map_length, vm_length by exact HA. exact Hr.
Qed.

Lemma dot_mono_r y u v : Forall (fun q => 0 <= q) y -> Forall2 Qle u v -> dot y u <= dot y v.
Proof.
  intros Hy. revert u v. induction Hy as [|yi y Hyi Hy IH]; intros u v Huv; simpl; [lra|].
  destruct Huv as [|a b u v Hab Huv]; [lra|].
  specialize (IH u v Huv). pose proof (Qmult_le_compat_r _ _ yi Hab Hyi). lra.
Qed.

Lemma Forall_Qle_weaken (lo lo' : Q) l : lo' <= lo -> Forall (fun v => lo <= v) l -> Forall (fun v => lo' <= v) l.
Proof. intros H. apply Forall_impl. intros a Ha. lra. Qed.

Lemma dims_ok_spec c A b : dims_ok c A b = true -> well_formed c A b.
Proof.
  unfold dims_ok, well_formed. intro H. apply andb_true_iff in H. destruct H as [H1 H2].
  split; [apply Nat.eqb_eq; exact H1|].
  apply Forall_forall. intros r Hr. rewrite forallb_forall in H2. apply Nat.eqb_eq. auto.
Qed.

Lemma weights_dot minimize c x :
  dot (weights minimize c) x == if minimize then dot c x else - dot c x.
Proof. destruct minimize; simpl; [reflexivity | apply dot_opp_l]. Qed.

Lemma unbounded_weights minimize c A b :
  (forall M, exists x, feasible A b x /\ dot (weights minimize c) x < M) -> lp_unbounded minimize c A b.
Proof.
  intros H M. destruct (H (if minimize then M else - M)) as [x [Hf Hlt]]. exists x. split; [exact Hf|].
  rewrite weights_dot in Hlt. destruct minimize; lra.
Qed.

Lemma far_enough D u : u < 0 -> exists t, 0 <= t /\ t * u < D.
Proof.
  intro Hu. exists (Qabs D / - u + 1). pose proof (Qabs_nonneg D).
  pose proof (Qle_Qabs (- D)) as H1. rewrite Qabs_opp in H1. split.
  - assert (0 <= Qabs D / - u) by (apply Qle_shift_div_l; lra). lra.
  - assert (E : (Qabs D / - u + 1) * u == - Qabs D + u) by (field; lra). lra.
Qed.

Lemma weights_length minimize c : length (weights minimize c) = length c.
Proof. destruct minimize; simpl; [reflexivity | apply map_length]. Qed.

Lemma Forall2_impl' {A B} (P Q : A -> B -> Prop) l r :
  (forall a b, P a b -> Q a b) -> Forall2 P l r -> Forall2 Q l r.
Proof. intros H H2. induction H2; constructor; auto. Qed.

Lemma get_nil j : get [] j = 0.
Proof. unfold get. destruct j; reflexivity. Qed.

Lemma get_overflow l j : (length l <= j)%nat -> get l j = 0.
Proof. intro H. unfold get. apply nth_overflow. exact H. Qed.

Lemma get_map f l j : f 0 == 0 -> get (map f l) j == f (get l j).
Proof.
  intro H0. unfold get. revert j. induction l as [|x l IH]; intros j; simpl.
  - destruct j; symmetry; exact H0.
  - destruct j; [reflexivity | apply IH].
Qed.

Lemma get_app_l a b j : (j < length a)%nat -> get (a ++ b) j = get a j.
Proof. intro H. unfold get. apply app_nth1. exact H. Qed.

Lemma get_app_r a1 a2 j : get (a1 ++ a2) (length a1 + j) = get a2 j.
Proof. unfold get. apply app_nth2_plus. Qed.

Lemma get_snoc l x p :
  get (l ++ [x]) p = if Nat.ltb p (length l) then get l p else if Nat.eqb p (length l) then x else 0.
Proof.
  destruct (Nat.ltb p (length l)) eqn:E1.
  - apply Nat.ltb_lt in E1. apply get_app_l. exact E1.
  - apply Nat.ltb_ge in E1. destruct (Nat.eqb p (length l)) eqn:E2.
    + apply Nat.eqb_eq in E2. subst p. pose proof (get_app_r l [x] 0) as H. rewrite Nat.add_0_r in H. exact H.
    + apply Nat.eqb_neq in E2. apply get_overflow. rewrite app_length. simpl. lia.
Qed.

Lemma get_map_opp l j : get (map Qopp l) j == - get l j.
Proof. apply (get_map Qopp). reflexivity. Qed.

Lemma get_nonneg l j : Forall (fun q => 0 <= q) l -> 0 <= get l j.
Proof.
  unfold get. intro H. revert j. induction H as [|x l Hx Hl IH]; intros [|j]; simpl; try lra; auto.
Qed.

Lemma mapi_from_length {A B} (f : nat -> A -> B) l s : length (mapi_from s f l) = length l.
Proof. revert s. induction l as [|x l IH]; intros s; simpl; [reflexivity|]. f_equal. apply IH. Qed.

Lemma mapi_from_nth {A B} (f : nat -> A -> B) l s i d d' :
  (i < length l)%nat -> nth i (mapi_from s f l) d' = f (s + i)%nat (nth i l d).
Proof.
  revert s i. induction l as [|x l IH]; intros s i H; simpl in *; [lia|].
  destruct i as [|i]; [rewrite Nat.add_0_r; reflexivity|].
  rewrite IH by lia. f_equal. lia.
Qed.

Lemma mapi_length {A B} (f : nat -> A -> B) l : length (mapi f l) = length l.
Proof. apply mapi_from_length. Qed.

Lemma mapi_nth {A B} (f : nat -> A -> B) l i d d' :
  (i < length l)%nat -> nth i (mapi f l) d' = f i (nth i l d).
Proof. intro H. unfold mapi. rewrite (mapi_from_nth f l 0 i d d') by exact H. reflexivity. Qed.

Lemma nth_map_in {A B} (f : A -> B) l k d d' : (k < length l)%nat -> nth k (map f l) d' = f (nth k l d).
Proof.
  revert k. induction l as [|x l IH]; intros k H; simpl in *; [lia|]. destruct k; [reflexivity|]. apply IH. lia.
Qed.

Lemma get_firstn n l j : (j < n)%nat -> get (firstn n l) j = get l j.
Proof.
  unfold get. revert n j. induction l as [|x l IH]; intros n j H.
  - rewrite firstn_nil. reflexivity.
  - destruct n as [|n]; [lia|]. destruct j as [|j]; simpl; [reflexivity|]. apply IH. lia.
Qed.

Lemma set_nth_length {A} i (v : A) l : length (set_nth i v l) = length l.
Proof. revert i. induction l as [|x l IH]; intros [|i]; simpl; try reflexivity. f_equal. apply IH. Qed.

Lemma set_nth_same {A} i (v : A) l d : (i < length l)%nat -> nth i (set_nth i v l) d = v.
Proof.
  revert i. induction l as [|x l IH]; intros [|i] H; simpl in *; try lia; try reflexivity. apply IH. lia.
Qed.

Lemma set_nth_other {A} i k (v : A) l d : k <> i -> nth k (set_nth i v l) d = nth k l d.
Proof.
  revert i k. induction l as [|x l IH]; intros [|i] [|k] H; simpl; try reflexivity; try lia.
  apply IH. lia.
Qed.

Lemma get_set_nth_other j k x l : k <> j -> get (set_nth j x l) k = get l k.
Proof. apply set_nth_other. Qed.

Lemma Forall_set_nth {A} (P : A -> Prop) j x l : Forall P l -> P x -> Forall P (set_nth j x l).
Proof.
  intros Hl Hx. revert j. induction Hl as [|y l Hy Hl IH]; intros [|j]; simpl; constructor; auto.
Qed.

Lemma mem_nat_false e l i : mem_nat e l = false -> (i < length l)%nat -> nth i l 0%nat <> e.
Proof.
  unfold mem_nat. intros H Hi Heq.
  assert (existsb (Nat.eqb e) l = true).
  { apply existsb_exists. exists (nth i l 0%nat). split; [apply nth_In; exact Hi|]. apply Nat.eqb_eq. auto. }
  congruence.
Qed.

Lemma mem_nat_true x l : mem_nat x l = true <-> exists p, (p < length l)%nat /\ nth p l 0%nat = x.
Proof.
  unfold mem_nat. rewrite existsb_exists. split.
  - intros [y [Hin Hy]]. apply Nat.eqb_eq in Hy. subst y. apply (In_nth _ _ 0%nat) in Hin. exact Hin.
  - intros [p [Hp Hn]]. exists x. split; [rewrite <- Hn; apply nth_In; exact Hp | apply Nat.eqb_refl].
Qed.

Lemma mem_nat_set_nth_false x i y l : (i < length l)%nat ->
  mem_nat x (set_nth i y l) = false -> x <> nth i l 0%nat -> mem_nat x l = false.
Proof.
  intros Hi Hf Hne. destruct (mem_nat x l) eqn:E; [|reflexivity]. exfalso.
  apply mem_nat_true in E. destruct E as [p [Hp Hn]].
  assert (Hpi : p <> i) by (intro; subst p; auto).
  assert (Ht : mem_nat x (set_nth i y l) = true).
  { apply mem_nat_true. exists p. split; [rewrite set_nth_length; exact Hp|]. rewrite set_nth_other by exact Hpi. exact Hn. }
  congruence.
Qed.

Lemma mem_nat_seq j s k : mem_nat j (seq s k) = (Nat.leb s j && Nat.ltb j (s + k)).
Proof.
  unfold mem_nat. destruct (Nat.leb s j && Nat.ltb j (s + k)) eqn:E.
  - apply andb_true_iff in E. destruct E as [E1 E2]. apply Nat.leb_le in E1. apply Nat.ltb_lt in E2.
    apply existsb_exists. exists j. split; [apply in_seq; lia | apply Nat.eqb_refl].
  - destruct (existsb (Nat.eqb j) (seq s k)) eqn:E'; [|reflexivity].
    apply existsb_exists in E'. destruct E' as [x [Hin Hx]]. apply Nat.eqb_eq in Hx. subst x. apply in_seq in Hin.
    apply andb_false_iff in E. destruct E as [E|E]; [apply Nat.leb_gt in E | apply Nat.ltb_ge in E]; lia.
Qed.

Lemma mem_nat_seq_tail N a j : (j < N + a)%nat -> mem_nat j (seq N a) = negb (Nat.ltb j N).
Proof.
  intro H. rewrite mem_nat_seq. apply Nat.ltb_lt in H. rewrite H, andb_true_r.
  destruct (Nat.leb_spec N j), (Nat.ltb_spec j N); try reflexivity; lia.
Qed.

Lemma get_zeros N j : get (zeros N) j = 0.
Proof.
  unfold get, zeros. revert j. induction N as [|N IH]; intros [|j]; simpl; try reflexivity. apply IH.
Qed.

Lemma zeros_nonneg k : Forall (fun q => 0 <= q) (zeros k).
Proof. apply Forall_forall. intros x Hx. apply repeat_spec in Hx. subst. lra. Qed.

Lemma dot_zeros_r a N : dot a (zeros N) == 0.
Proof. rewrite dot_comm. apply dot_zeros_l. Qed.

Lemma dot_all_zero a v : (forall j, get a j == 0) -> dot a v == 0.
Proof.
  revert v. induction a as [|x a IH]; intros v H; [reflexivity|].
  destruct v as [|y v]; [reflexivity|]. simpl.
  rewrite IH by (intro j; apply (H (S j))). pose proof (H 0%nat) as H0. unfold get in H0. simpl in H0. rewrite H0. ring.
Qed.

Lemma dot_app a1 a2 x s : length a1 = length x -> dot (a1 ++ a2) (x ++ s) == dot a1 x + dot a2 s.
Proof.
  revert x. induction a1 as [|u a1 IH]; intros [|y x] H; simpl in *; try discriminate; [ring|].
  rewrite IH by lia. ring.
Qed.

Lemma dot_zero_terms a : forall w, (forall j, get a j == 0 \/ get w j == 0) -> dot a w == 0.
Proof.
  induction a as [|x a IH]; intros w H; [reflexivity|].
  destruct w as [|y w]; [reflexivity|]. simpl.
  rewrite IH by (intro j; apply (H (S j))).
  destruct (H 0%nat) as [H0|H0]; unfold get in H0; simpl in H0; rewrite H0; ring.
Qed.

Lemma dot_ge_term a : forall w j, Forall (fun q => 0 <= q) a -> Forall (fun q => 0 <= q) w ->
  get a j * get w j <= dot a w.
Proof.
  induction a as [|x a IH]; intros w j Ha Hw.
  - rewrite get_nil. simpl. lra.
  - destruct w as [|y w]; [rewrite get_nil; simpl; lra|].
    inversion Ha; subst. inversion Hw; subst. simpl.
    pose proof (dot_nonneg a w H2 H4) as Hd. pose proof (Qmult_le_0_compat _ _ H1 H3) as Hxy.
    destruct j as [|j]; unfold get; simpl.
    + lra.
    + specialize (IH w j H2 H4). unfold get in IH. lra.
Qed.

Lemma dot_unit_like ext : forall p u,
  (forall p', get ext p' == if Nat.eqb p' p then 1 else 0) -> dot ext u == get u p.
Proof.
  induction ext as [|x ext IH]; intros p u H.
  - specialize (H p). rewrite get_nil, Nat.eqb_refl in H. discriminate H.
  - destruct u as [|y u]; [rewrite dot_nil_r, get_nil; reflexivity|].
    destruct p as [|q].
    + pose proof (H 0%nat) as H0. unfold get in H0. simpl in H0.
      assert (Hz : forall j, get ext j == 0) by (intro j; apply (H (S j))).
      simpl. rewrite (dot_all_zero ext u Hz), H0. unfold get. simpl. ring.
    + pose proof (H 0%nat) as H0. unfold get in H0. simpl in H0.
      assert (Hq : forall j, get ext j == if Nat.eqb j q then 1 else 0) by (intro j; apply (H (S j))).
      simpl. rewrite (IH q u Hq), H0. unfold get. simpl. ring.
Qed.

Lemma dot_set_nth a j x sol : (j < length sol)%nat ->
  dot a (set_nth j x sol) == dot a sol + get a j * (x - get sol j).
Proof.
  unfold get. revert a j. induction sol as [|y sol IH]; intros a j H; simpl in H; [lia|].
  destruct a as [|u a]; destruct j as [|j]; simpl; try ring.
  rewrite IH by lia. ring.
Qed.

Lemma nth_map_seq (f : nat -> Q) : forall m st j, (j < m)%nat -> nth j (map f (seq st m)) 0 = f (st + j)%nat.
Proof.
  induction m as [|m IH]; intros st j H; [lia|]. simpl. destruct j as [|j].
  - rewrite Nat.add_0_r. reflexivity.
  - rewrite IH by lia. f_equal. lia.
Qed.

Lemma get_unit_vec m i j : (i < m)%nat -> get (unit_vec m i) j == if Nat.eqb j i then 1 else 0.
Proof.
  intro Hi. destruct (Nat.lt_ge_cases j m) as [Hj|Hj].
  - unfold get, unit_vec. rewrite nth_map_seq by exact Hj. reflexivity.
  - rewrite get_overflow by (unfold unit_vec; rewrite map_length, seq_length; exact Hj).
    assert (E : Nat.eqb j i = false) by (apply Nat.eqb_neq; lia). rewrite E. reflexivity.
Qed.

Lemma dot_unit_vec m i s : (i < m)%nat -> dot (unit_vec m i) s == get s i.
Proof. intro H. apply dot_unit_like. intro j. apply get_unit_vec. exact H. Qed.

Lemma firstn_set_nth_lt n j (x : Q) l : (j < n)%nat -> firstn n (set_nth j x l) = set_nth j x (firstn n l).
Proof.
  revert n j. induction l as [|y l IH]; intros [|n] [|j] H; simpl; try reflexivity; try lia.
  f_equal. apply IH. lia.
Qed.

Lemma firstn_set_nth_ge n j (x : Q) l : (n <= j)%nat -> firstn n (set_nth j x l) = firstn n l.
Proof.
  revert n j. induction l as [|y l IH]; intros [|n] [|j] H; simpl; try reflexivity; try lia.
  f_equal. apply IH. lia.
Qed.

Lemma firstn_zeros n N : (n <= N)%nat -> firstn n (zeros N) = zeros n.
Proof.
  unfold zeros. revert N. induction n as [|n IH]; intros N H; [reflexivity|].
  destruct N as [|N]; [lia|]. simpl. f_equal. apply IH. lia.
Qed.
