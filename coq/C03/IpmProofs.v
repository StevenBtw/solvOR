(* C03_ipm_gate: the convergence test of solve_lp_interior (Ipm.gate) implies that the structural
   part of the iterate is eps-feasible and within an explicit bound of the optimum (weak duality with
   residuals).  No statement is made about the Newton step: the theorem holds for ANY iterate that
   passes the gate. *)
From Coq Require Import List QArith Qabs Bool Arith Lia Lqa.
From SV Require Import C03.Simplex C03.LPSpec C03.Cert C03.Ipm C03.LinAlgProofs.
Import ListNotations.
Open Scope Q_scope.

Lemma vsub_length a b : length a = length b -> length (vsub a b) = length a.
Proof.
  revert b. induction a as [|x a IH]; intros [|y b] H; simpl in *; try reflexivity; try discriminate.
  f_equal. apply IH. lia.
Qed.

Lemma dot_vsub_l a b v : length a = length b -> dot (vsub a b) v == dot a v - dot b v.
Proof.
  revert b v. induction a as [|x a IH]; intros [|y b] v H; simpl in *; try discriminate; try ring.
  destruct v as [|z v]; [ring|]. rewrite IH by lia. ring.
Qed.

Lemma dot_vsub_r a x r : length x = length r -> dot a (vsub x r) == dot a x - dot a r.
Proof.
  intro H. rewrite dot_comm, dot_vsub_l by exact H. rewrite (dot_comm x a), (dot_comm r a). reflexivity.
Qed.

Lemma mv_length A x : length (mv A x) = length A.
Proof. apply map_length. Qed.

Lemma sumsq_nonneg l : 0 <= sumsq l.
Proof. induction l as [|x l IH]; simpl; [lra|]. nra. Qed.

Lemma sumsq_small e l : 0 < e -> sumsq l < e * e -> Forall (fun q => Qabs q <= e) l.
Proof.
  intros He. induction l as [|x l IH]; intro H; simpl in *; constructor.
  - pose proof (sumsq_nonneg l). apply Qabs_Qle_condition. split; nra.
  - apply IH. assert (0 <= x * x) by nra. lra.
Qed.

Lemma norm1_nonneg l : 0 <= norm1 l.
Proof. induction l as [|x l IH]; simpl; [lra|]. pose proof (Qabs_nonneg x). lra. Qed.

Lemma dot_abs_bound e r v : 0 <= e -> Forall (fun q => Qabs q <= e) r -> Qabs (dot r v) <= e * norm1 v.
Proof.
  intros He Hr. revert v. induction Hr as [|x r Hx Hr IH]; intros v.
  - cbn [dot]. pose proof (norm1_nonneg v). change (Qabs 0) with 0. nra.
  - destruct v as [|y v]; cbn [dot norm1 fold_right].
    + change (Qabs 0) with 0. lra.
    + fold (norm1 v). eapply Qle_trans; [apply Qabs_triangle|]. rewrite Qabs_Qmult.
      specialize (IH v). pose proof (Qabs_nonneg x). pose proof (Qabs_nonneg y). nra.
Qed.

Lemma dot_le_bound e r v : 0 <= e -> Forall (fun q => Qabs q <= e) r -> dot r v <= e * norm1 v.
Proof. intros He Hr. pose proof (dot_abs_bound e r v He Hr). pose proof (Qle_Qabs (dot r v)). lra. Qed.

Lemma dot_ge_bound e r v : 0 <= e -> Forall (fun q => Qabs q <= e) r -> - (e * norm1 v) <= dot r v.
Proof.
  intros He Hr. pose proof (dot_abs_bound e r v He Hr). apply Qabs_Qle_condition in H. lra.
Qed.

Lemma nat_Q_pos k : (k <> 0)%nat -> 0 < nat_Q k.
Proof. intro H. unfold nat_Q, Qlt. simpl. lia. Qed.

Lemma slack_nonneg u b : Forall2 Qle u b -> Forall (fun q => 0 <= q) (vsub b u).
Proof. intro H. induction H; simpl; constructor; [lra | assumption]. Qed.

Lemma rows_tol e u s b : length u = length s -> length u = length b ->
  Forall (fun q => 0 <= q) s -> Forall (fun q => Qabs q <= e) (vsub (vadd u s) b) ->
  Forall2 (fun l r => l <= r + e) u b.
Proof.
  revert s b. induction u as [|x u IH]; intros [|y s] [|z b] H1 H2 Hs Hr; simpl in *;
    try discriminate; constructor.
  - inversion Hs; inversion Hr; subst. apply Qabs_Qle_condition in H7. lra.
  - inversion Hs; inversion Hr; subst. apply IH with (s := s); try lia; assumption.
Qed.

Theorem ipm_gate_sound eps A b w xs ss y zx zs :
  gate eps A b w xs ss y zx zs = true ->
  feasible_tol eps A b xs /\
  forall xstar, feasible A b xstar ->
    dot w xs - dot w xstar <= gap_bound eps A b xs ss y xstar.
Proof.
  unfold gate. cbv zeta. intro H.
  apply andb_true_iff in H as [H Hmu]. apply andb_true_iff in H as [H Hrc]. apply andb_true_iff in H as [H Hrb].
  apply andb_true_iff in H as [H Hzs]. apply andb_true_iff in H as [H Hzx]. apply andb_true_iff in H as [H Hss].
  apply andb_true_iff in H as [H Hxs]. apply andb_true_iff in H as [H Heps]. apply andb_true_iff in H as [H HN].
  apply andb_true_iff in H as [H Lyl]. apply andb_true_iff in H as [H Lzs]. apply andb_true_iff in H as [H Lss].
  apply andb_true_iff in H as [H Lzx]. apply andb_true_iff in H as [Hd Lxs].
  apply Nat.eqb_eq in Lxs, Lzx, Lss, Lzs, Lyl.
  apply negb_true_iff in HN. apply Nat.eqb_neq in HN.
  apply Qltb_lt in Heps, Hrb, Hrc, Hmu.
  apply all_ge_spec in Hxs, Hss, Hzx, Hzs.
  apply dims_ok_spec in Hd. destruct Hd as [HAb HA].
  assert (He0 : 0 <= eps) by lra.
  apply (sumsq_small eps _ Heps) in Hrb.
  pose proof (sumsq_nonneg (res_cx w A y zx)) as Hn1.
  pose proof (sumsq_nonneg (res_cs y zs)) as Hn2.
  assert (Hrcx : Forall (fun q => Qabs q <= eps) (res_cx w A y zx)) by (apply sumsq_small; [exact Heps | lra]).
  assert (Hrcs : Forall (fun q => Qabs q <= eps) (res_cs y zs)) by (apply sumsq_small; [exact Heps | lra]).
  split.
  - split.
    + eapply Forall_impl; [|exact Hxs]. intros a Ha. simpl in Ha. lra.
    + apply rows_tol with (s := ss); try assumption; rewrite mv_length; lia.
  - intros xstar [Hxn HAx].
    set (sstar := vsub b (mv A xstar)).
    assert (Hsn : Forall (fun q => 0 <= q) sstar) by (apply slack_nonneg; exact HAx).
    assert (Lvm : length (vm (length w) y A) = length w) by (apply vm_length; exact HA).
    assert (Hw : forall u, dot w u == dot y (mv A u) + dot zx u - dot (res_cx w A y zx) u).
    { intro u. unfold res_cx. rewrite dot_vsub_l by (rewrite vadd_length; lia).
      rewrite dot_vadd_l by lia. rewrite dot_vm by exact HA. ring. }
    assert (Hyb : dot y (res_b A b xs ss) == dot y (mv A xs) + dot y ss - dot y b).
    { unfold res_b. rewrite dot_vsub_r by (rewrite vadd_length; rewrite mv_length; lia).
      rewrite dot_vadd_r by (rewrite mv_length; lia). reflexivity. }
    assert (Hys : dot y sstar == dot y b - dot y (mv A xstar)).
    { unfold sstar. rewrite dot_vsub_r by (rewrite mv_length; lia). reflexivity. }
    assert (Hy : forall u, dot y u == dot (res_cs y zs) u - dot zs u).
    { intro u. unfold res_cs. rewrite dot_vadd_l by lia. ring. }
    assert (Hcomp : dot xs zx + dot ss zs < eps * nat_Q (length xs + length ss)).
    { unfold mu_of in Hmu. assert (HNp : 0 < nat_Q (length xs + length ss)) by (apply nat_Q_pos; lia).
      set (N := nat_Q (length xs + length ss)) in *. set (S := dot xs zx + dot ss zs) in *.
      assert (E : S == S / N * N) by (field; lra).
      assert (L : S / N * N < eps * N) by (apply Qmult_lt_compat_r; assumption).
      lra. }
    (* weak duality with residuals, x' = xstar and s' = sstar:
         w.xs - w.x' = y.rb + [zx.xs + zs.ss] - [zx.x' + zs.s'] - rcx.(xs - x') - rcs.(ss - s')
       the second bracket is >= 0, the first is below eps (n + m) by complementarity, and every product with a
       residual is bounded by eps times a 1-norm *)
    pose proof (dot_nonneg _ _ Hzx Hxn) as P1.
    pose proof (dot_nonneg _ _ Hzs Hsn) as P2.
    pose proof (dot_le_bound eps _ y He0 Hrb) as B1.
    pose proof (dot_ge_bound eps _ xs He0 Hrcx) as B2.
    pose proof (dot_le_bound eps _ xstar He0 Hrcx) as B3.
    pose proof (dot_ge_bound eps _ ss He0 Hrcs) as B4.
    pose proof (dot_le_bound eps _ sstar He0 Hrcs) as B5.
    rewrite (dot_comm (res_b A b xs ss) y) in B1.
    rewrite (Hw xs), (Hw xstar).
    pose proof (Hy ss) as E1. pose proof (Hy sstar) as E2.
    pose proof (dot_comm zx xs) as C1. pose proof (dot_comm zs ss) as C2.
    unfold gap_bound. fold sstar.
    lra.
Qed.
