(* The auxiliary tableau of _phase1 (exact arithmetic): rows after the artificial-column loop + auxiliary
   objective.  It satisfies the phase-2 invariant; its solutions with artificials = 0 are the solutions of the
   original rows; the auxiliary objective value of any solution is the sum of its artificial coordinates.  Then what the run of
   _phase2 on it establishes, according to the sign of the auxiliary optimum. *)
From Coq Require Import List QArith Qabs Bool Arith Lia Lqa.
From SV Require Import C03.Simplex C03.LPSpec C03.LinAlgProofs C03.PivotProofs
  C03.Phase2Inv C03.DeepInv C03.DeepExtract C03.DeepArts.
Import ListNotations.
Open Scope Q_scope.

Definition rows_sat (v : list Q) (rows : list row) : Prop := Forall (row_sat v) rows.

Lemma tab_equiv_rows T T' v :
  (forall z, tab_sat v z T <-> tab_sat v z T') -> (rows_sat v (t_rows T) <-> rows_sat v (t_rows T')).
Proof.
  intro H. split; intro Hr.
  - assert (Hs : tab_sat v (rval v (t_obj T)) T) by (split; [exact Hr | apply obj_sat_rval; reflexivity]).
    apply H in Hs. destruct Hs as [Hs _]. exact Hs.
  - assert (Hs : tab_sat v (rval v (t_obj T')) T') by (split; [exact Hr | apply obj_sat_rval; reflexivity]).
    apply H in Hs. destruct Hs as [Hs _]. exact Hs.
Qed.

(* asum: sum over the rows whose basic variable is artificial (the loop building the auxiliary objective) *)
Definition asum (arts basis : list nat) (F : row -> Q) : nat -> list row -> Q :=
  isum (fun i r => if mem_nat (nth i basis 0%nat) arts then F r else 0).

Lemma aux_loop_length arts basis rows : forall s o,
  length (fst (aux_obj_loop arts basis s rows o)) = length (fst o).
Proof.
  induction rows as [|r rows IH]; intros s o; simpl; [reflexivity|]. rewrite IH.
  destruct (mem_nat (nth s basis 0%nat) arts); [|reflexivity]. simpl. rewrite map_length. apply vsubmul_length.
Qed.

Lemma aux_loop_F (F : row -> Q) arts basis :
  (forall r, F (rnorm r) == F r) ->
  (forall o r, length (fst r) = length (fst o) -> F (rsubmul 1 o r) == F o - F r) ->
  forall rows s o, Forall (fun r => length (fst r) = length (fst o)) rows ->
  F (aux_obj_loop arts basis s rows o) == F o - asum arts basis F s rows.
Proof.
  intros HFn HFs. unfold asum. induction rows as [|r rows IH]; intros s o Hl; simpl; [ring|].
  inversion Hl; subst. destruct (mem_nat (nth s basis 0%nat) arts).
  - rewrite IH.
    + rewrite HFn, HFs by assumption. ring.
    + simpl. rewrite map_length, vsubmul_length. assumption.
  - rewrite IH by assumption. ring.
Qed.

Section Aux.
  Variables (N m : nat) (rows0 : list row) (basis0 : list nat).
  Hypothesis Hrows0 : Forall (fun r => length (fst r) = N) rows0.
  Hypothesis Hm : length rows0 = m.
  Hypothesis Hb0 : length basis0 = m.
  Hypothesis Hlt0 : forall i, (i < m)%nat -> (nth i basis0 0 < N)%nat.
  Hypothesis Hunit0 : forall i k, (i < m)%nat -> (k < m)%nat ->
    get (fst (nth k rows0 row0)) (nth i basis0 0%nat) == if Nat.eqb k i then 1 else 0.

  Variables (rows1 : list row) (obj1 : row) (basis1 arts : list nat).
  Hypothesis Hinv : arts_inv N m rows0 basis0 m (rows1, obj1, basis1, arts).

  Let a := length arts.
  Let r0 (k : nat) := nth k rows0 row0.
  Let r1 (k : nat) := nth k rows1 row0.
  Let b1 (k : nat) := nth k basis1 0%nat.

  Lemma A_arts : arts = seq N a.
  Proof. destruct Hinv as [H _]. exact H. Qed.
  Lemma A_lr : length rows1 = m.
  Proof. destruct Hinv as [_ [H _]]. exact H. Qed.
  Lemma A_lb : length basis1 = m.
  Proof. destruct Hinv as [_ [_ [H _]]]. exact H. Qed.
  Lemma A_spec k : (k < m)%nat -> row_spec N rows0 basis0 a m k (r1 k) (b1 k).
  Proof. destruct Hinv as [_ [_ [_ [H _]]]]. apply H. Qed.
  Lemma A_inj k k' : (k < m)%nat -> (k' < m)%nat -> (N <= b1 k)%nat -> b1 k = b1 k' -> k = k'.
  Proof. destruct Hinv as [_ [_ [_ [_ H]]]]. apply H. Qed.

  Lemma r0_len k : (k < m)%nat -> length (fst (r0 k)) = N.
  Proof. apply (row0_len N m rows0 basis0 Hrows0 Hm Hb0). Qed.

  Lemma A_len k : (k < m)%nat -> length (fst (r1 k)) = (N + a)%nat.
  Proof.
    intro Hk. pose proof (r0_len k Hk) as H0. unfold r0 in H0.
    destruct (A_spec k Hk) as [ext [Lext [[_ [Hr _]]|[p [_ [_ [_ [Hr _]]]]]]]]; rewrite Hr; cbn [fst];
      rewrite app_length, ?map_length, H0, Lext; reflexivity.
  Qed.

  Lemma A_blt k : (k < m)%nat -> (b1 k < N + a)%nat.
  Proof. intro Hk. apply (row_spec_basis_lt N m rows0 basis0 Hm Hb0 Hlt0 a m k (r1 k) (b1 k) Hk (A_spec k Hk)). Qed.

  Lemma A_rhs k : (k < m)%nat -> 0 <= snd (r1 k).
  Proof.
    intro Hk. destruct (A_spec k Hk) as [ext [Lext [[_ [Hr [Hpos _]]]|[p [_ [_ [_ [Hr [Hneg _]]]]]]]]];
      rewrite Hr; cbn [snd]; [apply Hpos; exact Hk | lra].
  Qed.

  Lemma A_mem k : (k < m)%nat -> mem_nat (b1 k) arts = negb (Nat.ltb (b1 k) N).
  Proof. intro Hk. rewrite A_arts. apply mem_nat_seq_tail. apply A_blt. exact Hk. Qed.

  Lemma A_unit i k : (i < m)%nat -> (k < m)%nat -> get (fst (r1 k)) (b1 i) == if Nat.eqb k i then 1 else 0.
  Proof.
    intros Hi Hk. pose proof (r0_len k Hk) as Hl0. unfold r0 in Hl0.
    destruct (A_spec i Hi) as [exti [Lexti [[Hbi [Hri [Hposi Hzi]]]|[p [Hp [_ [Hbi [Hri [Hnegi Hui]]]]]]]]].
    - (* column of an untouched basic variable, < N *)
      pose proof (Hlt0 i Hi) as Hj. rewrite Hbi.
      destruct (A_spec k Hk) as [ext [Lext [[Hbk [Hr _]]|[q [Hq [_ [Hbk [Hr _]]]]]]]]; rewrite Hr; cbn [fst].
      + rewrite get_app_l by lia. apply Hunit0; assumption.
      + rewrite get_app_l by (rewrite map_length; lia). rewrite get_map_opp, (Hunit0 i k Hi Hk).
        assert (E : Nat.eqb k i = false).
        { apply Nat.eqb_neq. intro; subst k. unfold b1 in *. lia. }
        rewrite E. reflexivity.
    - (* artificial column N + p *)
      rewrite Hbi.
      destruct (A_spec k Hk) as [ext [Lext [[Hbk [Hr [_ Hz]]]|[q [Hq [_ [Hbk [Hr [_ Hu]]]]]]]]]; rewrite Hr; cbn [fst].
      + rewrite <- Hl0 at 1. rewrite get_app_r, Hz.
        assert (E : Nat.eqb k i = false).
        { apply Nat.eqb_neq. intro; subst k. pose proof (Hlt0 i Hi). unfold b1 in *. lia. }
        rewrite E. reflexivity.
      + replace (N + p)%nat with (length (map Qopp (fst (nth k rows0 row0))) + p)%nat by (rewrite map_length; lia).
        rewrite get_app_r, Hu.
        destruct (Nat.eq_dec k i) as [->|Hne].
        * assert (q = p) by (unfold b1 in *; lia). subst q. rewrite !Nat.eqb_refl. reflexivity.
        * assert (E : Nat.eqb k i = false) by (apply Nat.eqb_neq; exact Hne). rewrite E.
          assert (E' : Nat.eqb p q = false).
          { apply Nat.eqb_neq. intro; subst q. apply Hne. apply A_inj; try assumption; unfold b1 in *; lia. }
          rewrite E'. reflexivity.
  Qed.

  Lemma A_rval_plain k v u : (k < m)%nat -> length v = N -> (b1 k < N)%nat ->
    rval (v ++ u) (r1 k) == rval v (r0 k).
  Proof.
    intros Hk Lv Hlt. pose proof (r0_len k Hk) as Hl0. unfold r0 in *.
    destruct (A_spec k Hk) as [ext [Lext [[_ [Hr [_ Hz]]]|[q [_ [_ [Hbk _]]]]]]]; [|unfold b1 in *; lia].
    rewrite Hr. unfold rval. cbn [fst snd]. rewrite dot_app by lia. rewrite (dot_all_zero ext u Hz). ring.
  Qed.

  Lemma A_rval_art k v u : (k < m)%nat -> length v = N -> (N <= b1 k)%nat ->
    rval (v ++ u) (r1 k) == - rval v (r0 k) + get u (b1 k - N).
  Proof.
    intros Hk Lv Hge. pose proof (r0_len k Hk) as Hl0. unfold r0 in *.
    destruct (A_spec k Hk) as [ext [Lext [[Hbk _]|[q [_ [_ [Hbk [Hr [_ Hu]]]]]]]]].
    - pose proof (Hlt0 k Hk). unfold b1 in *. lia.
    - rewrite Hr. unfold rval. cbn [fst snd]. rewrite dot_app by (rewrite map_length; lia).
      rewrite dot_opp_l, (dot_unit_like ext q u Hu). replace (b1 k - N)%nat with q by (unfold b1 in *; lia). ring.
  Qed.

  Lemma A_rows_equiv v : length v = N -> (rows_sat (v ++ zeros a) rows1 <-> rows_sat v rows0).
  Proof.
    intro Lv.
    assert (Hrow : forall k, (k < m)%nat -> (row_sat (v ++ zeros a) (r1 k) <-> row_sat v (r0 k))).
    { intros k Hk. rewrite !row_sat_rval. destruct (Nat.lt_ge_cases (b1 k) N) as [Hlt|Hge].
      - rewrite A_rval_plain by assumption. tauto.
      - rewrite A_rval_art by assumption. rewrite get_zeros. split; intro H; lra. }
    unfold rows_sat. rewrite !Forall_rows, A_lr, Hm. split; intros H k Hk; apply (Hrow k Hk), H, Hk.
  Qed.

  Let W := (N + a)%nat.
  Let aux0 := aux_obj0 W arts.
  Let aux := aux_obj_loop arts basis1 0 rows1 aux0.
  Let T1 := mkT rows1 aux.

  Lemma aux0_length : length (fst aux0) = W.
  Proof. unfold aux0, aux_obj0. cbn [fst]. rewrite map_length, seq_length. reflexivity. Qed.

  Lemma aux0_get j : (j < W)%nat -> get (fst aux0) j = if mem_nat j arts then 1 else 0.
  Proof. intro H. unfold aux0, aux_obj0, get. cbn [fst]. rewrite nth_map_seq by exact H. reflexivity. Qed.

  Lemma aux0_nonneg : Forall (fun q => 0 <= q) (fst aux0).
  Proof.
    unfold aux0, aux_obj0. cbn [fst]. apply Forall_forall. intros q Hq. apply in_map_iff in Hq.
    destruct Hq as [j [Hq _]]. subst q. destruct (mem_nat j arts); lra.
  Qed.

  Lemma rows1_lenW : Forall (fun r => length (fst r) = length (fst aux0)) rows1.
  Proof.
    apply Forall_rows. rewrite A_lr, aux0_length. exact A_len.
  Qed.

  Lemma aux_length : length (fst aux) = W.
  Proof. unfold aux. rewrite aux_loop_length. apply aux0_length. Qed.

  Lemma T1_wf : tab_wf W T1.
  Proof.
    split; [|apply aux_length]. simpl. pose proof rows1_lenW as H. rewrite aux0_length in H. exact H.
  Qed.

  Lemma aux_objc i : (i < m)%nat -> get (fst aux) (b1 i) == 0.
  Proof.
    intro Hi. unfold aux.
    rewrite (aux_loop_F (fun r => get (fst r) (b1 i)) arts basis1).
    - (* of the rows subtracted only row i has a non-zero entry in column b1 i, namely 1 *)
      unfold asum. rewrite (isum_pick _ i); [|rewrite A_lr; lia|].
      + rewrite Nat.sub_0_r. change (nth i rows1 row0) with (r1 i). change (nth i basis1 0%nat) with (b1 i).
        rewrite aux0_get by (apply A_blt; exact Hi).
        destruct (mem_nat (b1 i) arts); [rewrite (A_unit i i Hi Hi), Nat.eqb_refl|]; ring.
      + intros k Hk Hne. rewrite A_lr in Hk. rewrite Nat.sub_0_r. change (nth k rows1 row0) with (r1 k).
        destruct (mem_nat (nth k basis1 0%nat) arts); [|reflexivity].
        rewrite (A_unit i k Hi) by lia. apply Nat.eqb_neq in Hne. rewrite Hne. reflexivity.
    - intro r. apply get_rnorm.
    - intros o r Hl. unfold rsubmul. cbn [fst]. rewrite get_vsubmul by exact Hl. ring.
    - apply rows1_lenW.
  Qed.

  Lemma aux_rval w : rows_sat w rows1 -> rval w aux == dot (fst aux0) w.
  Proof.
    intro Hs. unfold aux. rewrite (aux_loop_F (rval w) arts basis1).
    - unfold asum. rewrite isum_zero.
      + unfold rval, aux0, aux_obj0. cbn [fst snd]. ring.
      + intros i Hi. rewrite Nat.sub_0_r. destruct (mem_nat (nth i basis1 0%nat) arts); [|reflexivity].
        apply row_sat_rval. unfold rows_sat in Hs. rewrite Forall_forall in Hs. apply Hs, nth_In. lia.
    - intro r. apply rval_rnorm.
    - intros o r Hl. rewrite rval_rsubmul by exact Hl. ring.
    - apply rows1_lenW.
  Qed.

  Theorem T1_inv : g_inv W T1 basis1 /\ Forall (fun j => (j < W)%nat) basis1.
  Proof.
    assert (Hall : forall i, (i < length basis1)%nat -> (nth i basis1 0 < W)%nat).
    { intros i Hi. rewrite A_lb in Hi. apply (A_blt i Hi). }
    split; [split|].
    - constructor.
      + apply T1_wf.
      + simpl. rewrite A_lb, A_lr. reflexivity.
      + intros i k Hi _ Hk. simpl in Hk. rewrite A_lr in Hk. rewrite A_lb in Hi. unfold entry. simpl.
        apply A_unit; assumption.
      + intros i Hi Hge. specialize (Hall i Hi). lia.
      + intros i Hi. rewrite A_lb in Hi. unfold objc. simpl. apply aux_objc. exact Hi.
    - intros k Hk. simpl in Hk. rewrite A_lr in Hk. unfold rhs. simpl. apply A_rhs. exact Hk.
    - apply Forall_nth. intros i d Hi. rewrite (nth_indep _ d 0%nat) by exact Hi. apply Hall. exact Hi.
  Qed.

  (* the objective value of any solution of the auxiliary tableau is the sum of its artificial coordinates *)
  Lemma T1_obj_val w z : tab_sat w z T1 -> z == dot (fst aux0) w.
  Proof.
    intros [Hr Ho]. simpl in Hr, Ho. apply obj_sat_rval in Ho. rewrite <- Ho. apply aux_rval. exact Hr.
  Qed.

  Lemma T1_obj_nonneg w z : tab_sat w z T1 -> Forall (fun q => 0 <= q) w -> 0 <= z.
  Proof.
    intros Hs Hw. rewrite (T1_obj_val w z Hs). apply dot_nonneg; [apply aux0_nonneg | exact Hw].
  Qed.

  Lemma T1_art_zero w z j : tab_sat w z T1 -> Forall (fun q => 0 <= q) w -> z <= 0 ->
    (N <= j < W)%nat -> get w j == 0.
  Proof.
    intros Hs Hw Hz Hj. pose proof (T1_obj_val w z Hs) as Hv.
    pose proof (dot_ge_term (fst aux0) w j aux0_nonneg Hw) as Hge.
    rewrite aux0_get in Hge by lia. rewrite A_arts, mem_nat_seq in Hge.
    assert (E1 : Nat.leb N j = true) by (apply Nat.leb_le; lia).
    assert (E2 : Nat.ltb j (N + a) = true) by (apply Nat.ltb_lt; unfold W in Hj; lia).
    rewrite E1, E2 in Hge. cbn [andb] in Hge.
    pose proof (get_nonneg w j Hw). lra.
  Qed.

  Lemma T1_embed v : length v = N -> rows_sat v rows0 -> tab_sat (v ++ zeros a) 0 T1.
  Proof.
    intros Lv Hs. apply (A_rows_equiv v Lv) in Hs. split; [exact Hs|]. simpl.
    apply obj_sat_rval. rewrite (aux_rval _ Hs). apply dot_zero_terms. intro j.
    destruct (Nat.lt_ge_cases j N) as [Hlt|Hge].
    - left. rewrite aux0_get by (unfold W; lia). rewrite A_arts, mem_nat_seq.
      assert (E : Nat.leb N j = false) by (apply Nat.leb_gt; exact Hlt). rewrite E. reflexivity.
    - right. replace j with (length v + (j - N))%nat by lia. rewrite get_app_r, get_zeros. reflexivity.
  Qed.

  Lemma aux_run_inv fuel st2 it2 T2 basis2 piv2 :
    phase2 0 fuel 0 T1 basis1 [] = (st2, it2, T2, basis2, piv2) ->
    g_inv W T2 basis2 /\ Forall (fun j => (j < W)%nat) basis2 /\ length basis2 = m
    /\ forall v z, tab_sat v z T1 <-> tab_sat v z T2.
  Proof.
    intro Hrun. destruct T1_inv as [Hg1 Hall1].
    destruct (phase2_ginv W _ _ _ _ _ _ _ _ _ _ Hg1 Hrun) as [Hg2 [Heq2 [_ [_ Hall2]]]].
    destruct (phase2_status _ _ _ _ _ _ _ _ _ _ Hrun) as [_ Hlen2].
    split; [exact Hg2|]. split; [exact (Hall2 Hall1)|]. split; [rewrite Hlen2; exact A_lb | exact Heq2].
  Qed.

  Lemma aux_infeasible fuel st2 it2 T2 basis2 piv2 v :
    phase2 0 fuel 0 T1 basis1 [] = (st2, it2, T2, basis2, piv2) ->
    snd (t_obj T2) < 0 -> st2 <> MAX_ITER ->
    length v = N -> Forall (fun q => 0 <= q) v -> ~ rows_sat v rows0.
  Proof.
    intros Hrun Hneg Hst Lv Hv Hsat.
    destruct T1_inv as [Hg1 _].
    destruct (phase2_ginv W _ _ _ _ _ _ _ _ _ _ Hg1 Hrun) as [Hg2 [Heq2 [Hopt2 [Hunb2 _]]]].
    destruct (phase2_status _ _ _ _ _ _ _ _ _ _ Hrun) as [Hst2 _].
    pose proof (proj1 (Heq2 _ _) (T1_embed v Lv Hsat)) as Hemb.
    assert (Hvn : Forall (fun q => 0 <= q) (v ++ zeros a)) by (apply Forall_app; split; [exact Hv | apply zeros_nonneg]).
    destruct st2; try congruence.
    - (* stopped at an optimum: - snd (t_obj T2) > 0 bounds every non-negative solution from below, but the
         embedded one has value 0 *)
      pose proof (optimal_lower_bound _ _ _ _ _ Hg2 (Hopt2 eq_refl) Hemb Hvn). lra.
    - (* claimed an unbounded auxiliary objective: impossible, it is a sum of non-negative coordinates *)
      destruct (Hunb2 eq_refl) as [e [He Hl]].
      destruct (unbounded_below _ _ _ e 0 Hg2 He Hl) as [w [z [_ [Hwn [Hws Hz]]]]].
      apply Heq2 in Hws. pose proof (T1_obj_nonneg w z Hws Hwn). lra.
  Qed.

  (* auxiliary optimum 0: every artificial coordinate of the basic solution is 0, so a row whose basic variable is
     still artificial has rhs 0; and the rows are those of the start, on vectors with the artificials at 0 *)
  Lemma aux_feasible fuel st2 it2 T2 basis2 piv2 :
    phase2 0 fuel 0 T1 basis1 [] = (st2, it2, T2, basis2, piv2) -> 0 <= snd (t_obj T2) ->
    (forall i, (i < length basis2)%nat -> (N <= nth i basis2 0)%nat -> rhs T2 i == 0)
    /\ forall v, length v = N -> (rows_sat (v ++ zeros a) (t_rows T2) <-> rows_sat v rows0).
  Proof.
    intros Hrun Hpos. destruct (aux_run_inv _ _ _ _ _ _ Hrun) as [[Hs2 Hr2] [Hall2 [_ Heq2]]].
    split.
    - intros i Hi Hge.
      assert (Hlt : (nth i basis2 0 < W)%nat) by (rewrite Forall_forall in Hall2; apply Hall2, nth_In, Hi).
      rewrite <- (get_bsol_basic W T2 basis2 i Hs2 Hi Hlt).
      apply (T1_art_zero (bsol W T2 basis2) (- snd (t_obj T2))); [|apply bsol_nonneg; exact Hr2 | lra | lia].
      apply Heq2. apply bsol_sat. exact Hs2.
    - intros v Lv. rewrite <- (A_rows_equiv v Lv). symmetry.
      apply (tab_equiv_rows T1 T2). intro z. apply Heq2.
  Qed.
End Aux.
