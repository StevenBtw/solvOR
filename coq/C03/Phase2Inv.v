(* phase2_inv: with exact arithmetic, every pivot chosen by _phase2 (Bland entering column, ratio
   test) preserves "basic columns are unit columns, reduced cost 0 on basic columns, rhs >= 0",
   and the solution set of the tableau; so these hold for whatever tableau _phase2 returns.
   On the way: the exact pivot (eps = 0) entry by entry and column by column, the specifications of the
   entering / leaving choices, and the loop of _phase2 for any invariant that the chosen pivots keep. *)
From Coq Require Import List QArith Qabs Bool Arith Lia Lqa.
From SV Require Import C03.Simplex C03.LinAlgProofs C03.PivotProofs.
Import ListNotations.
Open Scope Q_scope.

Definition entry (T : tableau) (k j : nat) : Q := get (fst (nth k (t_rows T) row0)) j.
Definition rhs (T : tableau) (k : nat) : Q := snd (nth k (t_rows T) row0).
Definition objc (T : tableau) (j : nat) : Q := get (fst (t_obj T)) j.

Record p2_inv (N : nat) (T : tableau) (basis : list nat) : Prop := mk_p2_inv {
  inv_wf : tab_wf N T;
  inv_len : length basis = length (t_rows T);
  inv_lt : forall i, (i < length basis)%nat -> (nth i basis 0 < N)%nat;
  inv_unit : forall i k, (i < length basis)%nat -> (k < length (t_rows T))%nat ->
             entry T k (nth i basis 0%nat) == if Nat.eqb k i then 1 else 0;
  inv_obj : forall i, (i < length basis)%nat -> objc T (nth i basis 0%nat) == 0;
  inv_rhs : forall k, (k < length (t_rows T))%nat -> 0 <= rhs T k
}.

Lemma get_vsubmul f a p j : length p = length a ->
  get (vsubmul f a p) j == get a j - f * get p j.
Proof.
  unfold get. revert p j. induction a as [|x a IH]; intros p j H.
  - destruct p; [|discriminate]. destruct j; simpl; ring.
  - destruct p as [|y p]; [discriminate|]. simpl in H. destruct j; simpl; [ring|]. apply IH. lia.
Qed.

Lemma get_rnorm r j : get (fst (rnorm r)) j == get (fst r) j.
Proof. unfold rnorm. simpl. rewrite get_map by reflexivity. apply Qred_correct. Qed.

Lemma snd_rnorm r : snd (rnorm r) == snd r.
Proof. unfold rnorm. simpl. apply Qred_correct. Qed.

Lemma get_rscale k r j : get (fst (rscale k r)) j == get (fst r) j * k.
Proof. unfold rscale. simpl. rewrite (get_map (fun a => a * k)) by ring. reflexivity. Qed.

(* entries of an eliminated row:  x_j - x_c * p_j  (whether or not the code skips a zero factor) *)
Lemma get_elim_row c p x j : length (fst p) = length (fst x) ->
  get (fst (elim_row 0 c p x)) j == get (fst x) j - get (fst x) c * get (fst p) j.
Proof.
  intro Hl. unfold elim_row. destruct (Qltb 0 (Qabs (get (fst x) c))) eqn:E.
  - rewrite get_rnorm. unfold rsubmul. simpl. apply get_vsubmul. exact Hl.
  - apply Qabs_pos_false in E. rewrite E. ring.
Qed.

Lemma snd_elim_row c p x :
  snd (elim_row 0 c p x) == snd x - get (fst x) c * snd p.
Proof.
  unfold elim_row. destruct (Qltb 0 (Qabs (get (fst x) c))) eqn:E.
  - rewrite snd_rnorm. reflexivity.
  - apply Qabs_pos_false in E. rewrite E. ring.
Qed.

Lemma get_prow T r c j :
  get (fst (prow_of T r c)) j
  == get (fst (nth r (t_rows T) row0)) j * / get (fst (nth r (t_rows T) row0)) c.
Proof. unfold prow_of. cbv zeta. rewrite get_rnorm, get_rscale. reflexivity. Qed.

Lemma snd_prow T r c :
  snd (prow_of T r c) == snd (nth r (t_rows T) row0) * / get (fst (nth r (t_rows T) row0)) c.
Proof. unfold prow_of. cbv zeta. rewrite snd_rnorm. reflexivity. Qed.

Section PivotEntries.
  Variables (N : nat) (T : tableau) (l e : nat).
  Hypothesis Hwf : tab_wf N T.
  Hypothesis Hl : (l < length (t_rows T))%nat.

  Let q (j : nat) : Q := entry T l j * / entry T l e.

  Lemma row_len k : (k < length (t_rows T))%nat -> length (fst (nth k (t_rows T) row0)) = N.
  Proof. intro Hk. destruct Hwf as [H _]. rewrite Forall_forall in H. apply H. apply nth_In. exact Hk. Qed.

  Lemma entry_pivot_l j : entry (pivot 0 T l e) l j == q j.
  Proof.
    unfold entry. rewrite pivot0_unfold. simpl. rewrite (mapi_nth _ _ l row0 row0) by exact Hl.
    rewrite Nat.eqb_refl. apply get_prow.
  Qed.

  Lemma entry_pivot_other k j : (k < length (t_rows T))%nat -> k <> l ->
    entry (pivot 0 T l e) k j == entry T k j - entry T k e * q j.
  Proof.
    intros Hk Hne. unfold entry. rewrite pivot0_unfold. simpl. rewrite (mapi_nth _ _ k row0 row0) by exact Hk.
    apply Nat.eqb_neq in Hne. rewrite Hne.
    rewrite get_elim_row by (rewrite prow_length, !row_len by assumption; reflexivity).
    rewrite get_prow. reflexivity.
  Qed.

  Lemma rhs_pivot_l : rhs (pivot 0 T l e) l == rhs T l * / entry T l e.
  Proof.
    unfold rhs. rewrite pivot0_unfold. simpl. rewrite (mapi_nth _ _ l row0 row0) by exact Hl.
    rewrite Nat.eqb_refl. apply snd_prow.
  Qed.

  Lemma rhs_pivot_other k : (k < length (t_rows T))%nat -> k <> l ->
    rhs (pivot 0 T l e) k == rhs T k - entry T k e * (rhs T l * / entry T l e).
  Proof.
    intros Hk Hne. unfold rhs. rewrite pivot0_unfold. simpl. rewrite (mapi_nth _ _ k row0 row0) by exact Hk.
    apply Nat.eqb_neq in Hne. rewrite Hne. rewrite snd_elim_row, snd_prow. reflexivity.
  Qed.

  Lemma objc_pivot j : objc (pivot 0 T l e) j == objc T j - objc T e * q j.
  Proof.
    unfold objc. rewrite pivot0_unfold. simpl.
    rewrite get_elim_row by (rewrite prow_length, row_len by assumption; destruct Hwf as [_ H]; rewrite H; reflexivity).
    rewrite get_prow. reflexivity.
  Qed.

  (* from here on the pivot element is not 0 *)
  Hypothesis Hpv : ~ entry T l e == 0.

  Lemma pivot_col_unit k : (k < length (t_rows T))%nat ->
    entry (pivot 0 T l e) k e == if Nat.eqb k l then 1 else 0.
  Proof.
    intro Hk. destruct (Nat.eqb_spec k l) as [->|Hne].
    - rewrite entry_pivot_l. unfold q. field. exact Hpv.
    - rewrite entry_pivot_other by assumption. unfold q. field. exact Hpv.
  Qed.

  Lemma pivot_col_objc : objc (pivot 0 T l e) e == 0.
  Proof. rewrite objc_pivot. unfold q. field. exact Hpv. Qed.

  Lemma pivot_col_fixed j k : entry T l j == 0 -> (k < length (t_rows T))%nat ->
    entry (pivot 0 T l e) k j == entry T k j.
  Proof.
    intros Hz Hk. destruct (Nat.eq_dec k l) as [->|Hne].
    - rewrite entry_pivot_l. unfold q. rewrite Hz. ring.
    - rewrite entry_pivot_other by assumption. unfold q. rewrite Hz. ring.
  Qed.

  Lemma pivot_objc_fixed j : entry T l j == 0 -> objc (pivot 0 T l e) j == objc T j.
  Proof. intro Hz. rewrite objc_pivot. unfold q. rewrite Hz. ring. Qed.

  Lemma pivot_row_fixed k : (k < length (t_rows T))%nat -> k <> l -> entry T k e == 0 ->
    (forall j, entry (pivot 0 T l e) k j == entry T k j) /\ rhs (pivot 0 T l e) k == rhs T k.
  Proof.
    intros Hk Hne Hz. split.
    - intro j. rewrite entry_pivot_other by assumption. rewrite Hz. ring.
    - rewrite rhs_pivot_other by assumption. rewrite Hz. ring.
  Qed.
End PivotEntries.

Lemma find_enter_from_some basis j oc e :
  find_enter_from 0 basis j oc = Some e ->
  (j <= e < j + length oc)%nat /\ mem_nat e basis = false /\ nth (e - j) oc 0 < 0.
Proof.
  revert j. induction oc as [|x oc IH]; intros j H; simpl in H; [discriminate|].
  destruct (negb (mem_nat j basis) && Qltb x (- 0)) eqn:E.
  - inversion H; subst. apply andb_true_iff in E. destruct E as [E1 E2].
    apply negb_true_iff in E1. apply Qltb_lt in E2. rewrite Nat.sub_diag. simpl.
    repeat split; [lia | lia | exact E1 | lra].
  - apply IH in H. destruct H as [H1 [H2 H3]]. simpl. repeat split; try lia; try assumption.
    replace (e - j)%nat with (S (e - S j)) by lia. exact H3.
Qed.

Lemma find_enter_from_none basis j oc :
  find_enter_from 0 basis j oc = None ->
  forall i, (i < length oc)%nat -> mem_nat (j + i) basis = true \/ 0 <= nth i oc 0.
Proof.
  revert j. induction oc as [|x oc IH]; intros j H i Hi; simpl in *; [lia|].
  destruct (negb (mem_nat j basis) && Qltb x (- 0)) eqn:E; [discriminate|].
  destruct i as [|i].
  - rewrite Nat.add_0_r. apply andb_false_iff in E. destruct E as [E|E].
    + left. apply negb_false_iff in E. exact E.
    + right. apply Qltb_false in E. lra.
  - replace (j + S i)%nat with (S j + i)%nat by lia. apply IH; [exact H | lia].
Qed.

Lemma find_enter_some basis T e :
  find_enter 0 basis T = Some e ->
  (e < length (fst (t_obj T)))%nat /\ mem_nat e basis = false /\ get (fst (t_obj T)) e < 0.
Proof.
  unfold find_enter. intro H. apply find_enter_from_some in H. destruct H as [H1 [H2 H3]].
  rewrite Nat.sub_0_r in H3. repeat split; [lia | exact H2 | exact H3].
Qed.

Lemma find_enter_none basis T :
  find_enter 0 basis T = None ->
  forall j, (j < length (fst (t_obj T)))%nat -> mem_nat j basis = true \/ 0 <= get (fst (t_obj T)) j.
Proof. unfold find_enter. intros H j Hj. apply (find_enter_from_none basis 0 _ H j Hj). Qed.

Definition ratio_of (e : nat) (r : row) : Q := snd r / get (fst r) e.

(* state of the loop: either nothing chosen yet, or (leave, min_ratio) with min_ratio the ratio of
   row `leave`, which is a lower bound of the ratios of all rows seen so far with positive entry *)
Definition ratio_inv (e : nat) (rows : list row) (seen : nat) (st : option nat * option Q) : Prop :=
  match st with
  | (None, None) => forall k, (k < seen)%nat -> get (fst (nth k rows row0)) e <= 0
  | (Some l, Some mr) =>
      (l < seen)%nat /\ 0 < get (fst (nth l rows row0)) e /\ mr == ratio_of e (nth l rows row0) /\
      forall k, (k < seen)%nat -> 0 < get (fst (nth k rows row0)) e -> mr <= ratio_of e (nth k rows row0)
  | _ => False
  end.

Lemma min_extend e rows i mr :
  (forall k, (k < i)%nat -> 0 < get (fst (nth k rows row0)) e -> mr <= ratio_of e (nth k rows row0)) ->
  (0 < get (fst (nth i rows row0)) e -> mr <= ratio_of e (nth i rows row0)) ->
  forall k, (k < S i)%nat -> 0 < get (fst (nth k rows row0)) e -> mr <= ratio_of e (nth k rows row0).
Proof. intros H Hi k Hk. destruct (Nat.eq_dec k i) as [->|Hne]; [exact Hi | apply H; lia]. Qed.

Lemma ratio_step_inv basis e rows i st :
  (i < length rows)%nat -> ratio_inv e rows i st ->
  ratio_inv e rows (S i) (ratio_step 0 basis e i (nth i rows row0) st).
Proof.
  intros Hi Hinv. unfold ratio_step. destruct st as [leave minr]. unfold ratio_inv in Hinv.
  set (r := nth i rows row0) in *.
  destruct (Qltb 0 (get (fst r) e)) eqn:Epos.
  - apply Qltb_lt in Epos.
    assert (Hred : Qred (snd r / get (fst r) e) == ratio_of e r) by (apply Qred_correct).
    destruct minr as [mr|].
    + destruct leave as [l|]; [|destruct Hinv].
      destruct Hinv as [Hl [Hlp [Hmr Hmin]]].
      destruct (Qltb (Qred (snd r / get (fst r) e)) (mr - 0)) eqn:E1.
      * (* a smaller ratio: row i is the new candidate *)
        apply Qltb_lt in E1. repeat split; [lia | exact Epos | exact Hred |].
        apply min_extend; [|fold r; lra]. intros k Hk Hkp. specialize (Hmin k Hk Hkp). lra.
      * (* not smaller: the old minimum also bounds the ratio of row i *)
        apply Qltb_false in E1.
        assert (Hmin' : forall k, (k < S i)%nat -> 0 < get (fst (nth k rows row0)) e ->
                                  mr <= ratio_of e (nth k rows row0))
          by (apply min_extend; [exact Hmin | fold r; lra]).
        destruct (Qleb (Qabs (Qred (snd r / get (fst r) e) - mr)) 0) eqn:E2.
        -- apply Qabs_le0 in E2.
           destruct (Nat.ltb (nth i basis 0%nat) (nth l basis 0%nat)); unfold ratio_inv.
           ++ repeat split; [lia | exact Epos | fold r; lra | exact Hmin'].
           ++ repeat split; [lia | exact Hlp | exact Hmr | exact Hmin'].
        -- unfold ratio_inv. repeat split; [lia | exact Hlp | exact Hmr | exact Hmin'].
    + destruct leave as [l|]; [destruct Hinv|]. unfold ratio_inv.
      repeat split; [lia | exact Epos | exact Hred |].
      apply min_extend; [|fold r; lra]. intros k Hk Hkp. specialize (Hinv k Hk). lra.
  - apply Qltb_false in Epos. destruct leave as [l|]; destruct minr as [mr|]; unfold ratio_inv; try contradiction.
    + destruct Hinv as [Hl [Hlp [Hmr Hmin]]]. repeat split; [lia | exact Hlp | exact Hmr |].
      apply min_extend; [exact Hmin | fold r; lra].
    + intros k Hk. destruct (Nat.eq_dec k i) as [->|Hne]; [exact Epos | apply Hinv; lia].
Qed.

Lemma ratio_loop_inv basis e rows : forall seen st,
  ratio_inv e (seen ++ rows) (length seen) st ->
  ratio_inv e (seen ++ rows) (length (seen ++ rows)) (ratio_loop 0 basis e (length seen) rows st).
Proof.
  induction rows as [|r rows IH]; intros seen st Hinv; simpl.
  - rewrite app_nil_r in *. exact Hinv.
  - specialize (IH (seen ++ [r])). rewrite <- app_assoc, app_length, Nat.add_1_r in IH. apply IH.
    rewrite <- (nth_middle seen rows r row0) at 2. apply ratio_step_inv; [rewrite app_length; simpl; lia | exact Hinv].
Qed.

Lemma find_leave_inv basis T e :
  ratio_inv e (t_rows T) (length (t_rows T)) (ratio_loop 0 basis e 0 (t_rows T) (None, None)).
Proof. apply (ratio_loop_inv basis e (t_rows T) []). simpl. intros k Hk. lia. Qed.

Lemma find_leave_some basis T e l :
  find_leave 0 basis T e = Some l ->
  (l < length (t_rows T))%nat /\ 0 < get (fst (nth l (t_rows T) row0)) e /\
  forall k, (k < length (t_rows T))%nat -> 0 < get (fst (nth k (t_rows T) row0)) e ->
            ratio_of e (nth l (t_rows T) row0) <= ratio_of e (nth k (t_rows T) row0).
Proof.
  unfold find_leave. intro H. pose proof (find_leave_inv basis T e) as H0.
  destruct (ratio_loop 0 basis e 0 (t_rows T) (None, None)) as [lv mr]. simpl in H. subst lv.
  destruct mr as [mr|]; [|destruct H0]. destruct H0 as [H1 [H2 [H3 H4]]].
  repeat split; [exact H1 | exact H2 |]. intros k Hk Hkp. specialize (H4 k Hk Hkp). lra.
Qed.

Lemma find_leave_none basis T e :
  find_leave 0 basis T e = None ->
  forall k, (k < length (t_rows T))%nat -> get (fst (nth k (t_rows T) row0)) e <= 0.
Proof.
  unfold find_leave. intro H. pose proof (find_leave_inv basis T e) as H0.
  destruct (ratio_loop 0 basis e 0 (t_rows T) (None, None)) as [lv mr]. simpl in H. subst lv.
  destruct mr as [mr|]; [destruct H0|]. exact H0.
Qed.

Lemma pivot_rhs_ratio N T l e :
  tab_wf N T -> (forall k, (k < length (t_rows T))%nat -> 0 <= rhs T k) ->
  (l < length (t_rows T))%nat -> 0 < entry T l e ->
  (forall k, (k < length (t_rows T))%nat -> 0 < entry T k e ->
             ratio_of e (nth l (t_rows T) row0) <= ratio_of e (nth k (t_rows T) row0)) ->
  forall k, (k < length (t_rows (pivot 0 T l e)))%nat -> 0 <= rhs (pivot 0 T l e) k.
Proof.
  intros Hwf Hrhs Hl Hpv Hmin k Hk. rewrite pivot0_rows_length in Hk.
  assert (Hq : 0 <= rhs T l * / entry T l e).
  { apply Qmult_le_0_compat; [apply Hrhs; exact Hl|]. apply Qlt_le_weak. apply Qinv_lt_0_compat. exact Hpv. }
  destruct (Nat.eq_dec k l) as [->|Hkl].
  - rewrite (rhs_pivot_l T l e Hl). exact Hq.
  - rewrite (rhs_pivot_other T l e k) by assumption.
    destruct (Qlt_le_dec 0 (entry T k e)) as [Hpos|Hnp].
    + (* the ratio of row l is minimal *)
      specialize (Hmin k Hk Hpos). unfold ratio_of in Hmin. fold (rhs T l) (rhs T k) (entry T l e) (entry T k e) in Hmin.
      unfold Qdiv in Hmin.
      assert (H1 : entry T k e * (rhs T l * / entry T l e) <= entry T k e * (rhs T k * / entry T k e))
        by (apply Qmult_le_l; assumption).
      assert (H2 : entry T k e * (rhs T k * / entry T k e) == rhs T k) by (field; lra).
      lra.
    + assert (entry T k e * (rhs T l * / entry T l e) <= 0).
      { setoid_replace 0 with (0 * (rhs T l * / entry T l e)) by ring.
        apply Qmult_le_compat_r; assumption. }
      specialize (Hrhs k Hk). lra.
Qed.

Lemma p2_step N T basis e l :
  p2_inv N T basis -> find_enter 0 basis T = Some e -> find_leave 0 basis T e = Some l ->
  p2_inv N (pivot 0 T l e) (set_nth l e basis).
Proof.
  intros [Hwf Hlen Hlt Hunit Hobj Hrhs] He Hlv.
  apply find_enter_some in He. destruct He as [HeN _]. rewrite (proj2 Hwf) in HeN.
  apply find_leave_some in Hlv. destruct Hlv as [Hl [Hpv Hmin]]. fold (entry T l e) in Hpv.
  assert (Hpv0 : ~ entry T l e == 0) by lra.
  (* the basic column of another row has a 0 in row l, so the pivot leaves it alone *)
  assert (Hz : forall i, (i < length basis)%nat -> i <> l -> entry T l (nth i basis 0%nat) == 0).
  { intros i Hi Hne. rewrite (Hunit i l Hi Hl). apply Nat.eqb_neq in Hne. rewrite Nat.eqb_sym, Hne. reflexivity. }
  constructor.
  - apply pivot0_wf; assumption.
  - rewrite set_nth_length, pivot0_rows_length. exact Hlen.
  - intros i Hi. rewrite set_nth_length in Hi. destruct (Nat.eq_dec i l) as [->|Hne].
    + rewrite set_nth_same by lia. exact HeN.
    + rewrite set_nth_other by exact Hne. apply Hlt. exact Hi.
  - intros i k Hi Hk. rewrite set_nth_length in Hi. rewrite pivot0_rows_length in Hk.
    destruct (Nat.eq_dec i l) as [->|Hne].
    + rewrite set_nth_same by lia. apply (pivot_col_unit N); assumption.
    + rewrite set_nth_other by exact Hne. rewrite (pivot_col_fixed N) by auto. apply Hunit; assumption.
  - intros i Hi. rewrite set_nth_length in Hi. destruct (Nat.eq_dec i l) as [->|Hne].
    + rewrite set_nth_same by lia. apply (pivot_col_objc N); assumption.
    + rewrite set_nth_other by exact Hne. rewrite (pivot_objc_fixed N) by auto. apply Hobj. exact Hi.
  - apply (pivot_rhs_ratio N); assumption.
Qed.

Lemma phase2_loop (I : tableau -> list nat -> Prop) :
  (forall T basis e l, I T basis -> find_enter 0 basis T = Some e -> find_leave 0 basis T e = Some l ->
     I (pivot 0 T l e) (set_nth l e basis) /\ forall v z, tab_sat v z T <-> tab_sat v z (pivot 0 T l e)) ->
  forall fuel it T basis piv st it' T' basis' piv',
  I T basis ->
  phase2 0 fuel it T basis piv = (st, it', T', basis', piv') ->
  I T' basis'
  /\ (forall v z, tab_sat v z T <-> tab_sat v z T')
  /\ (st = OPTIMAL -> find_enter 0 basis' T' = None)
  /\ (st = UNBOUNDED -> exists e, find_enter 0 basis' T' = Some e /\ find_leave 0 basis' T' e = None).
Proof.
  intros Hstep fuel. induction fuel as [|fuel IH]; intros it T basis piv st it' T' basis' piv' Hinv H; simpl in H.
  - inversion H; subst. split; [exact Hinv|]. split; [intros; tauto|]. split; intro; discriminate.
  - destruct (find_enter 0 basis T) as [e|] eqn:He.
    + destruct (find_leave 0 basis T e) as [l|] eqn:Hl.
      * destruct (Hstep T basis e l Hinv He Hl) as [Hinv' Heq].
        destruct (IH _ _ _ _ _ _ _ _ _ Hinv' H) as [H1 [H2 H34]].
        split; [exact H1|]. split; [|exact H34].
        intros v z. rewrite (Heq v z). apply H2.
      * inversion H; subst. split; [exact Hinv|]. split; [intros; tauto|]. split; [intro; discriminate|].
        intros _. exists e. split; assumption.
    + inversion H; subst. split; [exact Hinv|]. split; [intros; tauto|]. split; [intros _; exact He|].
      intro; discriminate.
Qed.

Theorem phase2_inv N fuel it T basis piv st it' T' basis' piv' :
  p2_inv N T basis ->
  phase2 0 fuel it T basis piv = (st, it', T', basis', piv') ->
  p2_inv N T' basis'
  /\ (forall v z, tab_sat v z T <-> tab_sat v z T')
  /\ (st = OPTIMAL -> find_enter 0 basis' T' = None)
  /\ (st = UNBOUNDED -> exists e, find_enter 0 basis' T' = Some e /\ find_leave 0 basis' T' e = None).
Proof.
  apply (phase2_loop (p2_inv N)). intros T0 basis0 e l Hinv He Hl. split; [apply p2_step; assumption|].
  (* the leaving row has a positive, hence non-zero, entry in the entering column *)
  intros v z. apply find_leave_some in Hl. destruct Hl as [Hl [Hpv _]].
  apply (pivot_equiv N); [apply (inv_wf _ _ _ Hinv) | exact Hl | lra].
Qed.

Lemma phase2_status fuel : forall it T basis piv st it' T' basis' piv',
  phase2 0 fuel it T basis piv = (st, it', T', basis', piv') ->
  st <> INFEASIBLE /\ length basis' = length basis.
Proof.
  induction fuel as [|fuel IH]; intros it T basis piv st it' T' basis' piv' H; simpl in H.
  - inversion H; subst. split; [discriminate | reflexivity].
  - destruct (find_enter 0 basis T) as [e|].
    + destruct (find_leave 0 basis T e) as [l|].
      * apply IH in H. rewrite set_nth_length in H. exact H.
      * inversion H; subst. split; [discriminate | reflexivity].
    + inversion H; subst. split; [discriminate | reflexivity].
Qed.
