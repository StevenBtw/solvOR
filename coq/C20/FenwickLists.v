(* List-level lemmas for the Fenwick proofs: prefix sums `pre`, zget / zadd_at algebra. *)
From Coq Require Import List ZArith Bool Lia.
From SV Require Import C20.UFBasics C20.Fenwick.
Import ListNotations.
Open Scope Z_scope.

Definition sumz (l : list Z) : Z := fold_right Z.add 0 l.

(* sum of the first k entries *)
Definition pre (a : list Z) (k : Z) : Z := sumz (firstn (Z.to_nat k) a).

Lemma ref_prefix_pre : forall a i, 0 <= i -> ref_prefix a i = pre a (i + 1).
Proof.
  intros a i Hi. unfold ref_prefix, pre, sumz.
  replace (Z.to_nat (i + 1)) with (S (Z.to_nat i)) by lia. reflexivity.
Qed.

Lemma sumz_firstn_S : forall l m, sumz (firstn (S m) l) = sumz (firstn m l) + nth m l 0.
Proof.
  induction l as [|x xs IH]; intros m.
  - rewrite !firstn_nil. destruct m; reflexivity.
  - destruct m as [|m].
    + cbn. lia.
    + change (firstn (S (S m)) (x :: xs)) with (x :: firstn (S m) xs).
      change (firstn (S m) (x :: xs)) with (x :: firstn m xs).
      cbn [sumz fold_right nth]. fold (sumz (firstn (S m) xs)). fold (sumz (firstn m xs)).
      rewrite IH. lia.
Qed.

Lemma pre_0 : forall a, pre a 0 = 0.
Proof. reflexivity. Qed.

Lemma pre_succ : forall a k, 0 <= k -> pre a (k + 1) = pre a k + zget a k.
Proof.
  intros a k Hk. unfold pre, zget.
  replace (Z.to_nat (k + 1)) with (S (Z.to_nat k)) by lia.
  apply sumz_firstn_S.
Qed.

(* the model's set_nthZ is UF.set_nth at type Z; its lemmas are those of UFBasics *)
Lemma set_nthZ_eq : forall l i v, set_nthZ i v l = UF.set_nth i v l.
Proof. induction l as [|x xs IH]; intros [|i] v; cbn; congruence. Qed.

Lemma sumz_firstn_set : forall l i v m, (i < length l)%nat ->
  sumz (firstn m (set_nthZ i v l)) = sumz (firstn m l) + (if (i <? m)%nat then v - nth i l 0 else 0).
Proof.
  induction l as [|x xs IH]; intros i v m Hi; cbn in Hi; [lia|].
  destruct m as [|m].
  - cbn. destruct i; reflexivity.
  - destruct i as [|i].
    + cbn. fold (sumz (firstn m xs)). lia.
    + cbn [set_nthZ firstn sumz fold_right nth].
      fold (sumz (firstn m (set_nthZ i v xs))). fold (sumz (firstn m xs)).
      rewrite IH by lia.
      change (S i <? S m)%nat with (i <? m)%nat. lia.
Qed.

Lemma zn_zadd_at : forall l i d, zn (zadd_at l i d) = zn l.
Proof. intros. unfold zn, zadd_at. now rewrite set_nthZ_eq, length_set_nth. Qed.

Lemma length_zadd_at : forall l i d, length (zadd_at l i d) = length l.
Proof. intros. unfold zadd_at. now rewrite set_nthZ_eq, length_set_nth. Qed.

Lemma zget_zadd_at : forall l i d j, 0 <= i < zn l -> 0 <= j ->
  zget (zadd_at l i d) j = if j =? i then zget l i + d else zget l j.
Proof.
  intros l i d j Hi Hj. unfold zn in Hi. unfold zadd_at, zget at 1.
  destruct (j =? i) eqn:E.
  - assert (j = i) by lia. subst j. rewrite set_nthZ_eq. apply nth_set_nth_eq. lia.
  - rewrite set_nthZ_eq, nth_set_nth_neq by lia. reflexivity.
Qed.

Lemma pre_zadd_at : forall l i d k, 0 <= i < zn l -> 0 <= k ->
  pre (zadd_at l i d) k = pre l k + if i <? k then d else 0.
Proof.
  intros l i d k Hi Hk. unfold zn in Hi. unfold pre, zadd_at.
  rewrite sumz_firstn_set by lia. unfold zget.
  destruct (Z.to_nat i <? Z.to_nat k)%nat eqn:E1; destruct (i <? k) eqn:E2; try lia.
  - apply Nat.ltb_lt in E1. lia.
  - apply Nat.ltb_ge in E1. lia.
Qed.

Lemma pre_range_zadd_at : forall l i d a b, 0 <= i < zn l -> 0 <= a <= b ->
  pre (zadd_at l i d) (b + 1) - pre (zadd_at l i d) a =
  pre l (b + 1) - pre l a + if (a <=? i) && (i <=? b) then d else 0.
Proof.
  intros l i d a b Hi Hab. rewrite !pre_zadd_at by lia.
  replace (i <? b + 1) with (i <=? b) by lia. replace (i <? a) with (negb (a <=? i)) by lia.
  destruct (a <=? i) eqn:E1; destruct (i <=? b) eqn:E2; cbn [andb negb]; lia.
Qed.
