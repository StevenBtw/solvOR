(* Forest abstraction of the UnionFind parent array, well-formedness, and correctness of the
   path-compressing find (fuel sufficiency, returns the root, keeps every node's root). *)
From Coq Require Import List Arith Bool Lia.
From SV Require Import C20.UF.
Import ListNotations.

Lemma length_set_nth {A} : forall (l : list A) i v, length (set_nth i v l) = length l.
Proof.
  induction l as [|x xs IH]; intros i v; [destruct i; reflexivity|].
  destruct i; cbn; [reflexivity|]. now rewrite IH.
Qed.

Lemma nth_set_nth_eq {A} : forall (l : list A) i v d, i < length l -> nth i (set_nth i v l) d = v.
Proof.
  induction l as [|x xs IH]; intros i v d Hi; cbn in Hi; [lia|].
  destruct i; cbn; [reflexivity|]. apply IH. lia.
Qed.

Lemma nth_set_nth_neq {A} : forall (l : list A) i j v d, i <> j -> nth j (set_nth i v l) d = nth j l d.
Proof.
  induction l as [|x xs IH]; intros i j v d Hij; [destruct i; reflexivity|].
  destruct i, j; cbn; try reflexivity; try lia. apply IH. lia.
Qed.

Inductive root_of (p : list nat) : nat -> nat -> Prop :=
| ro_root : forall x, nth x p x = x -> root_of p x x
| ro_step : forall x r, nth x p x <> x -> root_of p (nth x p x) r -> root_of p x r.

Lemma root_of_is_root : forall p x r, root_of p x r -> nth r p r = r.
Proof. intros p x r H. induction H as [x Hx|x r Hx H IH]; assumption. Qed.

Lemma root_of_det : forall p x r r', root_of p x r -> root_of p x r' -> r = r'.
Proof.
  intros p x r r' H. revert r'. induction H as [x Hx|x r Hx H IH]; intros r' H'.
  - inversion H' as [y Hy|y r0 Hy H0]; subst; [reflexivity|contradiction].
  - inversion H' as [y Hy|y r0 Hy H0]; subst; [contradiction|]. apply IH. exact H0.
Qed.

Lemma root_of_self : forall p x r, nth x p x = x -> root_of p x r -> r = x.
Proof. intros p x r Hx H. symmetry. eapply root_of_det; [apply ro_root; exact Hx|exact H]. Qed.

Definition same (p : list nat) (x y : nat) : Prop := exists r, root_of p x r /\ root_of p y r.

Definition is_root (p : list nat) (i : nat) : bool := nth i p i =? i.
Definition nroots (n : nat) (p : list nat) : nat := length (filter (is_root p) (seq 0 n)).

(* well-formed forest: ranks strictly increase towards the root; rank bound for the fuel argument *)
Definition wf (n : nat) (p rk : list nat) : Prop :=
  length p = n /\ length rk = n /\
  (forall i, i < n -> nth i p i < n) /\
  (forall i, i < n -> nth i p i <> i -> nth i rk 0 < nth (nth i p i) rk 0) /\
  (forall i, i < n -> nth i rk 0 + nroots n p <= n).

Lemma root_of_lt : forall n p rk x r, wf n p rk -> root_of p x r -> x < n -> r < n.
Proof.
  intros n p rk x r (_ & _ & Hp & _) H. induction H as [x Hx|x r Hx H IH]; intros Hlt; [exact Hlt|].
  apply IH. apply Hp. exact Hlt.
Qed.

Lemma root_of_rank : forall n p rk x r, wf n p rk -> root_of p x r -> x < n ->
  nth x p x <> x -> nth x rk 0 < nth r rk 0.
Proof.
  intros n p rk x r Hwf H. pose proof Hwf as (_ & _ & Hp & Hr & _).
  induction H as [x Hx|x r Hx H IH]; intros Hlt Hnr; [contradiction|].
  specialize (Hr x Hlt Hx). specialize (Hp x Hlt).
  destruct (Nat.eq_dec (nth (nth x p x) p (nth x p x)) (nth x p x)) as [E|E].
  - rewrite (root_of_self _ _ _ E H). exact Hr.
  - specialize (IH Hp E). lia.
Qed.

Definition same_roots (p p' : list nat) : Prop := forall y r, root_of p y r <-> root_of p' y r.

Lemma same_roots_refl : forall p, same_roots p p.
Proof. intros p y r. reflexivity. Qed.

Lemma same_roots_sym : forall p p', same_roots p p' -> same_roots p' p.
Proof. intros p p' H y r. symmetry. apply H. Qed.

Lemma same_roots_trans : forall p q s, same_roots p q -> same_roots q s -> same_roots p s.
Proof. intros p q s H1 H2 y r. rewrite (H1 y r). apply H2. Qed.

Lemma same_roots_same : forall p p' x y, same_roots p p' -> (same p x y <-> same p' x y).
Proof.
  intros p p' x y H. unfold same. split; intros [r [Hx Hy]]; exists r; split; apply H; assumption.
Qed.

Lemma is_root_iff : forall p i, is_root p i = true <-> root_of p i i.
Proof.
  intros p i. unfold is_root. rewrite Nat.eqb_eq. split; [apply ro_root|apply root_of_is_root].
Qed.

Lemma same_roots_fix : forall p p' i, same_roots p p' -> nth i p i = i -> nth i p' i = i.
Proof. intros p p' i H E. eapply root_of_is_root, H, ro_root, E. Qed.

Lemma same_roots_is_root : forall p p' i, same_roots p p' -> is_root p' i = is_root p i.
Proof. intros p p' i H. apply eq_true_iff_eq. rewrite !is_root_iff. symmetry. apply H. Qed.

Lemma same_roots_nroots : forall n p p', same_roots p p' -> nroots n p' = nroots n p.
Proof.
  intros n p p' H. unfold nroots. f_equal. apply filter_ext. intros i. apply same_roots_is_root. exact H.
Qed.

Lemma shortcut_same_roots : forall p x r, x < length p -> nth x p x <> x -> root_of p x r ->
  same_roots p (set_nth x r p).
Proof.
  intros p x r Hx Hnx Hr.
  pose proof (root_of_is_root _ _ _ Hr) as Hrr.
  assert (Hrx : r <> x) by congruence.
  assert (Hx' : nth x (set_nth x r p) x = r) by (apply nth_set_nth_eq; exact Hx).
  assert (Hy' : forall y, y <> x -> nth y (set_nth x r p) y = nth y p y)
    by (intros y Hy; apply nth_set_nth_neq; auto).
  intros y s. split; intros H.
  - induction H as [y Hy|y s Hy H IH].
    + apply ro_root. rewrite Hy' by congruence. exact Hy.
    + destruct (Nat.eq_dec y x) as [->|Hyx].
      * rewrite <- (root_of_det _ _ _ _ Hr (ro_step _ _ _ Hy H)).
        apply ro_step; rewrite Hx'; [exact Hrx|]. apply ro_root. rewrite Hy' by exact Hrx. exact Hrr.
      * apply ro_step; rewrite Hy' by exact Hyx; assumption.
  - induction H as [y Hy|y s Hy H IH].
    + apply ro_root. rewrite <- Hy' by congruence. exact Hy.
    + destruct (Nat.eq_dec y x) as [->|Hyx].
      * rewrite Hx' in IH. rewrite (root_of_self _ _ _ Hrr IH). exact Hr.
      * rewrite Hy' in * by exact Hyx. apply ro_step; assumption.
Qed.

Lemma shortcut_wf : forall n p rk x r, wf n p rk -> x < n -> nth x p x <> x -> root_of p x r ->
  wf n (set_nth x r p) rk.
Proof.
  intros n p rk x r Hwf Hx Hnx Hr. pose proof Hwf as (HL & HLr & Hp & Hrank & Hb).
  split; [rewrite length_set_nth; exact HL|]. split; [exact HLr|]. split; [|split].
  - intros i Hi. destruct (Nat.eq_dec i x) as [->|Hix].
    + rewrite nth_set_nth_eq by lia. eapply root_of_lt; eassumption.
    + rewrite nth_set_nth_neq by auto. apply Hp. exact Hi.
  - intros i Hi. destruct (Nat.eq_dec i x) as [->|Hix].
    + rewrite nth_set_nth_eq by lia. intros _. eapply root_of_rank; eassumption.
    + rewrite nth_set_nth_neq by auto. apply Hrank. exact Hi.
  - intros i Hi. rewrite (same_roots_nroots n p); [apply Hb; exact Hi|].
    apply shortcut_same_roots; [lia|exact Hnx|exact Hr].
Qed.

(* ranks grow along parent links and are at most n, so fuel n - rank x + 1 is enough at x *)
Lemma find_enough_fuel : forall n p rk, wf n p rk ->
  forall f x, x < n -> n - nth x rk 0 < f ->
  exists p' r, find f p x = Some (p', r) /\ root_of p x r /\ wf n p' rk /\ same_roots p p'.
Proof.
  intros n p rk Hwf. pose proof Hwf as (_ & _ & Hp & Hr & Hb).
  induction f as [|f IH]; intros x Hx Hf; [lia|].
  cbn [find]. destruct (Nat.eqb_spec (nth x p x) x) as [E|E].
  - exists p, x. split; [reflexivity|]. split; [apply ro_root; exact E|].
    split; [exact Hwf|apply same_roots_refl].
  - specialize (Hr x Hx E). specialize (Hp x Hx). pose proof (Hb _ Hp) as Hbp.
    destruct (IH (nth x p x) Hp ltac:(lia)) as (p' & r & -> & Hroot & Hwf' & Hs).
    assert (Hxr : root_of p x r) by (apply ro_step; assumption).
    assert (E' : nth x p' x <> x)
      by (intros E'; exact (E (same_roots_fix _ _ _ (same_roots_sym _ _ Hs) E'))).
    apply Hs in Hxr as Hxr'.
    exists (set_nth x r p'), r. split; [reflexivity|]. split; [exact Hxr|].
    split; [eapply shortcut_wf; eassumption|].
    apply (same_roots_trans _ _ _ Hs). apply shortcut_same_roots; [|exact E'|exact Hxr'].
    destruct Hwf' as (HL' & _). lia.
Qed.

Lemma wf_rank_le : forall n p rk i, wf n p rk -> i < n -> nth i rk 0 <= n.
Proof. intros n p rk i (_ & _ & _ & _ & Hb) Hi. specialize (Hb i Hi). lia. Qed.

Lemma root_total : forall n p rk x, wf n p rk -> exists r, root_of p x r.
Proof.
  intros n p rk x Hwf. destruct (Nat.lt_ge_cases x n) as [Hlt|Hge].
  - destruct (find_enough_fuel n p rk Hwf (S n) x Hlt ltac:(lia)) as (p' & r & _ & Hr & _).
    exists r. exact Hr.
  - exists x. apply ro_root. apply nth_overflow. destruct Hwf as (HL & _). lia.
Qed.

Lemma find_root : forall n p rk x r, wf n p rk -> x < n -> root_of p x r ->
  exists p', find (S n) p x = Some (p', r) /\ wf n p' rk /\ same_roots p p'.
Proof.
  intros n p rk x r Hwf Hx Hr.
  destruct (find_enough_fuel n p rk Hwf (S n) x Hx ltac:(lia)) as (p' & r' & Hf & Hr' & Hwf' & Hs).
  rewrite (root_of_det _ _ _ _ Hr Hr'). exists p'. auto.
Qed.

(* what the reads do to a state: a new parent array p, well formed for the same ranks and with the
   same roots; ranks and count stay *)
Definition compression (n : nat) (u : uf) (p : list nat) : Prop :=
  wf n p (rank u) /\ same_roots (parent u) p.

Definition with_parent (u : uf) (p : list nat) : uf :=
  {| parent := p; rank := rank u; count := count u |}.

Lemma fuel_of_wf : forall n u, wf n (parent u) (rank u) -> fuel_of u = S n.
Proof. intros n u (HL & _). unfold fuel_of. now rewrite HL. Qed.
