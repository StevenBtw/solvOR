(* Linking two roots (union by rank): forest, rank and root-count bookkeeping, and the refinement
   of the `joined` relation. *)
From Coq Require Import List Arith Lia Relations.
From SV Require Export C20.UFSpec.
From SV Require Import C20.UF C20.UFBasics.
Import ListNotations.

Lemma same_sym : forall p x y, same p x y -> same p y x.
Proof. intros p x y [r [H1 H2]]. exists r. split; assumption. Qed.

Lemma same_trans : forall p x y z, same p x y -> same p y z -> same p x z.
Proof.
  intros p x y z [r [H1 H2]] [r' [H3 H4]].
  rewrite <- (root_of_det _ _ _ _ H2 H3) in H4. exists r. split; assumption.
Qed.

(* refinement relation between the parent forest and the united pairs *)
Definition Rep (pre : list (nat * nat)) (p : list nat) : Prop :=
  forall x y, same p x y <-> joined pre x y.

Lemma Rep_same_roots : forall pre p p', same_roots p p' -> Rep pre p -> Rep pre p'.
Proof.
  intros pre p p' Hs HR x y. rewrite <- (same_roots_same p p' x y Hs). apply HR.
Qed.

Lemma Rep_root : forall pre p x r, Rep pre p -> root_of p x r -> joined pre x r.
Proof.
  intros pre p x r HR H. apply HR. exists r. split; [exact H|].
  apply ro_root. eapply root_of_is_root. exact H.
Qed.

Lemma filter_flip : forall n (f f' : nat -> bool) y, y < n -> f y = true -> f' y = false ->
  (forall i, i <> y -> f' i = f i) ->
  length (filter f' (seq 0 n)) + 1 = length (filter f (seq 0 n)).
Proof.
  induction n as [|m IH]; intros f f' y Hy Hfy Hfy' Hext; [lia|].
  rewrite seq_S, !filter_app, !app_length. cbn [plus filter].
  destruct (Nat.eq_dec y m) as [->|Hne].
  - rewrite Hfy, Hfy'. cbn [length].
    rewrite (filter_ext_in f' f (seq 0 m)).
    + lia.
    + intros i Hi. apply in_seq in Hi. apply Hext. lia.
  - rewrite (Hext m) by auto. rewrite <- (IH f f' y) by (auto; lia). lia.
Qed.

Definition link_rank (rk : list nat) (r c : nat) : list nat :=
  if nth r rk 0 =? nth c rk 0 then set_nth r (S (nth r rk 0)) rk else rk.

Lemma link_rank_other : forall rk r c j, j <> r -> nth j (link_rank rk r c) 0 = nth j rk 0.
Proof.
  intros rk r c j H. unfold link_rank. destruct (_ =? _); [|reflexivity].
  apply nth_set_nth_neq. auto.
Qed.

Lemma link_rank_ge : forall rk r c j, nth j rk 0 <= nth j (link_rank rk r c) 0 <= S (nth j rk 0).
Proof.
  intros rk r c j. destruct (Nat.eq_dec j r) as [->|Hne]; [|rewrite link_rank_other by exact Hne; lia].
  unfold link_rank. destruct (_ =? _); [|lia].
  destruct (Nat.lt_ge_cases r (length rk)) as [Hlt|Hge].
  - rewrite nth_set_nth_eq by exact Hlt. lia.
  - rewrite !nth_overflow; try lia. rewrite length_set_nth. exact Hge.
Qed.

(* c and r are two different roots of a well-formed forest; c becomes a child of r *)
Section Link.
Variables (n : nat) (p rk : list nat) (c r : nat).
Hypotheses (Hwf : wf n p rk) (Hc : c < n) (Hcr : nth c p c = c) (Hrr : nth r p r = r) (Hne : c <> r).

Lemma link_root : forall z rz, root_of p z rz ->
  root_of (set_nth c r p) z (if rz =? c then r else rz).
Proof.
  intros z rz H. assert (Hc' : c < length p) by (destruct Hwf as (HL & _); lia).
  assert (Hr3 : root_of (set_nth c r p) r r).
  { apply ro_root. rewrite nth_set_nth_neq by exact Hne. exact Hrr. }
  induction H as [x Hx|x rz Hx H IH].
  - destruct (x =? c) eqn:E.
    + apply Nat.eqb_eq in E. subst x. apply ro_step.
      * rewrite nth_set_nth_eq by exact Hc'. auto.
      * rewrite nth_set_nth_eq by exact Hc'. exact Hr3.
    + apply Nat.eqb_neq in E. apply ro_root. rewrite nth_set_nth_neq by auto. exact Hx.
  - assert (x <> c) by (intros ->; contradiction).
    apply ro_step; rewrite nth_set_nth_neq by auto; assumption.
Qed.

Lemma link_wf : r < n -> nth c rk 0 <= nth r rk 0 ->
  wf n (set_nth c r p) (link_rank rk r c) /\ nroots n (set_nth c r p) + 1 = nroots n p.
Proof.
  intros Hr Hrk. pose proof Hwf as (HL & HLr & Hp & Hrank & Hb).
  assert (Hnr : nroots n (set_nth c r p) + 1 = nroots n p).
  { unfold nroots. apply (filter_flip n _ _ c Hc).
    - unfold is_root. apply Nat.eqb_eq. exact Hcr.
    - unfold is_root. rewrite nth_set_nth_eq by lia. apply Nat.eqb_neq. auto.
    - intros i Hi. unfold is_root. rewrite nth_set_nth_neq by auto. reflexivity. }
  split; [|exact Hnr].
  split; [rewrite length_set_nth; exact HL|].
  split; [unfold link_rank; destruct (_ =? _); [rewrite length_set_nth|]; exact HLr|].
  split; [|split].
  - intros i Hi. destruct (Nat.eq_dec i c) as [->|Hic].
    + rewrite nth_set_nth_eq by lia. exact Hr.
    + rewrite nth_set_nth_neq by auto. apply Hp. exact Hi.
  - intros i Hi. destruct (Nat.eq_dec i c) as [->|Hic].
    + rewrite nth_set_nth_eq by lia. intros _.
      rewrite link_rank_other by exact Hne.
      unfold link_rank. destruct (nth r rk 0 =? nth c rk 0) eqn:E.
      * apply Nat.eqb_eq in E. rewrite nth_set_nth_eq by lia. lia.
      * apply Nat.eqb_neq in E. lia.
    + rewrite nth_set_nth_neq by auto. intros Hnr'.
      assert (i <> r) by (intros ->; contradiction).
      rewrite link_rank_other by assumption.
      pose proof (Hrank i Hi Hnr'). pose proof (link_rank_ge rk r c (nth i p i)). lia.
  - intros i Hi. pose proof (Hb i Hi). pose proof (link_rank_ge rk r c i). lia.
Qed.

Lemma link_rep : forall pre x y rx ry, Rep pre p ->
  root_of p x rx -> root_of p y ry -> ((rx = r /\ ry = c) \/ (rx = c /\ ry = r)) ->
  Rep (pre ++ [(x, y)]) (set_nth c r p).
Proof.
  intros pre x y rx ry HR Hx Hy Hcase. pose proof link_root as HL.
  assert (Hmono : forall a b, joined pre a b -> joined (pre ++ [(x, y)]) a b)
    by (intros a b; apply joined_mono, incl_appl, incl_refl).
  assert (Hcr' : joined (pre ++ [(x, y)]) c r).
  { assert (J : joined (pre ++ [(x, y)]) rx ry).
    { apply joined_trans with x; [apply joined_sym, Hmono, (Rep_root pre p); assumption|].
      apply joined_trans with y; [apply rst_step, in_or_app; right; left; reflexivity|].
      apply Hmono, (Rep_root pre p); assumption. }
    destruct Hcase as [[-> ->]|[-> ->]]; [apply joined_sym|]; exact J. }
  (* every node is joined to its new root *)
  assert (HJ : forall z rz, root_of p z rz -> joined (pre ++ [(x, y)]) z (if rz =? c then r else rz)).
  { intros z rz Hz. pose proof (Hmono _ _ (Rep_root pre p z rz HR Hz)) as J.
    destruct (Nat.eqb_spec rz c) as [->|_]; [apply joined_trans with c; assumption|exact J]. }
  intros a b. split.
  - intros [r3 [Ha3 Hb3]].
    destruct (root_total n p rk a Hwf) as [ra Hra]. destruct (root_total n p rk b Hwf) as [rb Hrb].
    apply joined_trans with r3; [|apply joined_sym].
    + rewrite (root_of_det _ _ _ _ Ha3 (HL a ra Hra)). apply HJ. exact Hra.
    + rewrite (root_of_det _ _ _ _ Hb3 (HL b rb Hrb)). apply HJ. exact Hrb.
  - assert (Hold : forall a b, same p a b -> same (set_nth c r p) a b).
    { intros a' b' [r0 [Ha Hb]]. exists (if r0 =? c then r else r0). split; apply HL; assumption. }
    apply joined_least; [intros z; apply Hold, HR, joined_refl|apply same_sym|apply same_trans|].
    intros a' b' Hab. apply in_app_or in Hab. destruct Hab as [Hab|[Hab|[]]]; [apply Hold, HR, rst_step, Hab|].
    inversion Hab; subst a' b'. exists r. apply HL in Hx, Hy.
    assert (Hrc : (r =? c) = false) by (apply Nat.eqb_neq; auto).
    destruct Hcase as [[-> ->]|[-> ->]]; rewrite Nat.eqb_refl, Hrc in *; split; assumption.
Qed.

End Link.

Lemma link_same_roots : forall n p p' rk rk' c r, wf n p rk -> wf n p' rk' -> same_roots p p' ->
  c < n -> nth c p c = c -> nth r p r = r -> c <> r ->
  same_roots (set_nth c r p) (set_nth c r p').
Proof.
  intros n p p' rk rk' c r Hwf Hwf' Hs Hc Hcr Hrr Hne.
  pose proof (same_roots_fix _ _ _ Hs Hcr) as Hcr'. pose proof (same_roots_fix _ _ _ Hs Hrr) as Hrr'.
  pose proof (link_root n p rk c r Hwf Hc Hcr Hrr Hne) as L.
  pose proof (link_root n p' rk' c r Hwf' Hc Hcr' Hrr' Hne) as L'.
  intros z w. split; intros H.
  - destruct (root_total n p rk z Hwf) as [rz Hrz].
    rewrite (root_of_det _ _ _ _ H (L z rz Hrz)). apply L'. apply Hs. exact Hrz.
  - destruct (root_total n p' rk' z Hwf') as [rz Hrz].
    rewrite (root_of_det _ _ _ _ H (L' z rz Hrz)). apply L. apply Hs. exact Hrz.
Qed.

(* the tail of `union`, after the two finds *)
Definition link (p rk : list nat) (cnt rx ry : nat) : uf * bool :=
  if rx =? ry then ({| parent := p; rank := rk; count := cnt |}, false)
  else
    let '(r, c) := if nth rx rk 0 <? nth ry rk 0 then (ry, rx) else (rx, ry) in
    ({| parent := set_nth c r p; rank := link_rank rk r c; count := cnt - 1 |}, true).

Lemma link_eq : forall p rk cnt r, link p rk cnt r r = ({| parent := p; rank := rk; count := cnt |}, false).
Proof. intros. unfold link. now rewrite Nat.eqb_refl. Qed.

(* which root becomes the child c of which root r is decided by the ranks alone; whatever holds of
   rx and ry (P: being a root below n, say) holds of c and r *)
Lemma link_neq : forall rk rx ry (P : nat -> Prop), rx <> ry -> P rx -> P ry ->
  exists c r, ((rx = r /\ ry = c) \/ (rx = c /\ ry = r)) /\ c <> r /\ P c /\ P r /\
    nth c rk 0 <= nth r rk 0 /\
    forall p cnt, link p rk cnt rx ry =
      ({| parent := set_nth c r p; rank := link_rank rk r c; count := cnt - 1 |}, true).
Proof.
  intros rk rx ry P Hne Hx Hy. unfold link. rewrite (proj2 (Nat.eqb_neq _ _) Hne).
  destruct (Nat.ltb_spec (nth rx rk 0) (nth ry rk 0)) as [Hlt|Hge].
  - exists rx, ry. split; [right; auto|]. split; [exact Hne|]. split; [exact Hx|]. split; [exact Hy|].
    split; [lia|reflexivity].
  - exists ry, rx. split; [left; auto|]. split; [auto|]. split; [exact Hy|]. split; [exact Hx|].
    split; [exact Hge|reflexivity].
Qed.
