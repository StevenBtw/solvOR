(* get_components / component_sizes: the find loop over 0..n-1 and the insertion-ordered grouping.
   The grouping of the roots is the partition into classes (GInv_partition), with member lists ascending
   and components in order of their smallest member (Python dict insertion order over
   `for i in range(n)`; get_components_ordered).  Partition and order together pin the answer down
   uniquely (comps_unique). *)
From Coq Require Import List Arith Lia Sorted Permutation.
From SV Require Import C20.UF C20.UFSpec C20.UFBasics C20.UFUnion.
Import ListNotations.

Definition comps_ordered (cs : list (list nat)) : Prop :=
  Forall (fun c => StronglySorted lt c) cs /\ StronglySorted lt (map (hd 0) cs).

Lemma Forall2_imp {A B} (R R' : A -> B -> Prop) : (forall a b, R a b -> R' a b) ->
  forall l l', Forall2 R l l' -> Forall2 R' l l'.
Proof. intros H l l' HF. induction HF; constructor; auto. Qed.

Lemma roots_exist : forall n p rk is, wf n p rk -> exists rs, Forall2 (root_of p) is rs.
Proof.
  intros n p rk is Hwf. induction is as [|i is [rs IH]]; [exists []; constructor|].
  destruct (root_total n p rk i Hwf) as [r Hr]. exists (r :: rs). constructor; assumption.
Qed.

Lemma roots_loop_ok : forall n rk is rs p, wf n p rk -> (forall i, In i is -> i < n) ->
  Forall2 (root_of p) is rs ->
  exists p', roots_loop (S n) p is = Some (p', rs) /\ wf n p' rk /\ same_roots p p'.
Proof.
  intros n rk. induction is as [|i rest IH]; intros rs p Hwf Hin HF;
    inversion HF as [|? r ? rs' Hr HF']; subst.
  - exists p. split; [reflexivity|]. split; [exact Hwf|apply same_roots_refl].
  - destruct (find_root n p rk i r Hwf (Hin i (or_introl eq_refl)) Hr) as (p1 & Hf & Hwf1 & Hs1).
    destruct (IH rs' p1 Hwf1 (fun j Hj => Hin j (or_intror Hj))) as (p2 & Hl & Hwf2 & Hs2).
    { eapply Forall2_imp; [|exact HF']. intros a b. apply Hs1. }
    exists p2. cbn [roots_loop]. rewrite Hf, Hl.
    split; [reflexivity|]. split; [exact Hwf2|eapply same_roots_trans; eassumption].
Qed.

Lemma comps_shape : forall n u rs, wf n (parent u) (rank u) ->
  Forall2 (root_of (parent u)) (seq 0 n) rs ->
  exists p, get_components u = Some (with_parent u p, map snd (group_roots 0 rs [])) /\
            compression n u p.
Proof.
  intros n u rs Hwf HF. unfold get_components. rewrite (fuel_of_wf n u Hwf).
  pose proof Hwf as (HL & _). rewrite HL.
  destruct (roots_loop_ok n (rank u) (seq 0 n) rs (parent u) Hwf) as (p & -> & Hc);
    [intros i Hi; apply in_seq in Hi; lia|exact HF|].
  exists p. split; [reflexivity|exact Hc].
Qed.

(* the insertion-ordered dict of the grouping loop: root -> members so far *)
Definition grp := list (nat * list nat).

(* grouping invariant after i nodes: one group per root seen, holding exactly nodes with that root;
   together the groups enumerate 0..i-1 *)
Definition GInv (p : list nat) (i : nat) (g : grp) : Prop :=
  NoDup (map fst g) /\
  (forall k ms, In (k, ms) g -> ms <> [] /\ forall j, In j ms -> root_of p j k) /\
  Permutation (concat (map snd g)) (seq 0 i).

Lemma group_add_spec : forall r i g,
  (~ In r (map fst g) /\ group_add r i g = g ++ [(r, [i])]) \/
  exists g1 ms g2, g = g1 ++ (r, ms) :: g2 /\ group_add r i g = g1 ++ (r, ms ++ [i]) :: g2.
Proof.
  intros r i. induction g as [|[k ms] rest IH]; [left; split; [intros []|reflexivity]|].
  cbn [group_add]. destruct (k =? r) eqn:E.
  - apply Nat.eqb_eq in E. subst k. right. exists [], ms, rest. split; reflexivity.
  - apply Nat.eqb_neq in E. destruct IH as [[Hnin E1]|(g1 & ms' & g2 & E1 & E2)].
    + left. split; [intros [E'|H]; [exact (E E')|exact (Hnin H)]|]. now rewrite E1.
    + right. exists ((k, ms) :: g1), ms', g2. split; [now rewrite E1|now rewrite E2].
Qed.

Lemma group_add_GInv : forall p r i g, GInv p i g -> root_of p i r -> GInv p (S i) (group_add r i g).
Proof.
  intros p r i g (Hnd & Hent & Hperm) Hr. unfold GInv. rewrite seq_S. cbn [plus].
  destruct (group_add_spec r i g) as [[Hnin ->]|(g1 & ms & g2 & -> & ->)].
  - rewrite !map_app, concat_app. cbn. split; [|split].
    + apply (Permutation_NoDup (Permutation_cons_append _ _)). constructor; assumption.
    + intros k ms H. apply in_app_or in H. destruct H as [H|[H|[]]]; [apply Hent; exact H|].
      inversion H; subst k ms. split; [discriminate|]. intros j [<-|[]]. exact Hr.
    + apply Permutation_app_tail. exact Hperm.
  - destruct (Hent r ms (in_elt _ _ _)) as [Hne Hroots].
    rewrite !map_app, !concat_app in *. cbn in *. split; [exact Hnd|]. split.
    + intros k ms' H. apply in_app_or in H. destruct H as [H|[H|H]].
      * apply Hent, in_or_app. left. exact H.
      * inversion H; subst k ms'. split; [destruct ms; discriminate|].
        intros j Hj. apply in_app_or in Hj. destruct Hj as [Hj|[<-|[]]]; [apply Hroots; exact Hj|exact Hr].
      * apply Hent, in_or_app. right. right. exact H.
    + eapply Permutation_trans; [|apply Permutation_app_tail; exact Hperm].
      rewrite <- !app_assoc. do 2 apply Permutation_app_head. apply Permutation_app_comm.
Qed.

Lemma group_roots_GInv : forall p rs i k g, GInv p i g -> Forall2 (root_of p) (seq i k) rs ->
  GInv p (i + k) (group_roots i rs g).
Proof.
  intros p. induction rs as [|r rs IH]; intros i k g HG HF.
  - inversion HF as [E|]. destruct k; [|discriminate]. rewrite Nat.add_0_r. exact HG.
  - destruct k as [|k]; [inversion HF|]. cbn [seq] in HF. inversion HF as [|a b l l' Hab HF']; subst.
    cbn [group_roots]. replace (i + S k) with (S i + k) by lia.
    apply IH; [|exact HF']. apply group_add_GInv; assumption.
Qed.

Lemma concat_seq_members : forall n (cs : list (list nat)) x, Permutation (concat cs) (seq 0 n) ->
  (x < n <-> exists c, In c cs /\ In x c).
Proof.
  intros n cs x H. rewrite <- in_concat. split; intros Hx.
  - apply (Permutation_in _ (Permutation_sym H)), in_seq. lia.
  - apply (Permutation_in _ H), in_seq in Hx. lia.
Qed.

Lemma keys_functional : forall (g : grp) k a b, NoDup (map fst g) -> In (k, a) g -> In (k, b) g -> a = b.
Proof.
  induction g as [|[k0 m0] rest IH]; intros k a b Hnd Ha Hb; [destruct Ha|].
  cbn in Hnd. inversion Hnd as [|x l Hnin Hnd']; subst.
  destruct Ha as [Ha|Ha]; destruct Hb as [Hb|Hb].
  - congruence.
  - inversion Ha; subst. exfalso. apply Hnin. apply (in_map fst) in Hb. exact Hb.
  - inversion Hb; subst. exfalso. apply Hnin. apply (in_map fst) in Ha. exact Ha.
  - eapply IH; eassumption.
Qed.

Lemma GInv_partition : forall n p rk pre g, wf n p rk -> Rep pre p -> GInv p n g ->
  is_partition n (joined pre) (map snd g).
Proof.
  intros n p rk pre g Hwf HR (Hnd & Hent & Hperm).
  split; [exact Hperm|]. split.
  - intros c Hc. apply in_map_iff in Hc. destruct Hc as [[k ms] [<- Hin]]. apply (Hent k ms Hin).
  - intros c x y Hc Hx. apply in_map_iff in Hc. destruct Hc as [[k ms] [<- Hin]]. cbn [snd] in *.
    destruct (Hent k ms Hin) as [_ Hroots]. pose proof (Hroots x Hx) as Hxk. split.
    + intros Hy. split.
      * apply (concat_seq_members n _ y Hperm). exists ms. split; [|exact Hy]. apply (in_map snd _ _ Hin).
      * apply HR. exists k. split; [exact Hxk|apply Hroots; exact Hy].
    + intros [Hyn HJ]. apply HR in HJ. destruct HJ as [r0 [Hx0 Hy0]].
      rewrite <- (root_of_det _ _ _ _ Hxk Hx0) in Hy0.
      apply (concat_seq_members n _ y Hperm) in Hyn. destruct Hyn as [c' [Hc' Hyc']].
      apply in_map_iff in Hc'. destruct Hc' as [[k' ms'] [<- Hin']]. cbn [snd] in *.
      pose proof (proj2 (Hent k' ms' Hin') y Hyc') as Hyk'.
      rewrite <- (root_of_det _ _ _ _ Hy0 Hyk') in Hin'.
      rewrite (keys_functional g k ms ms' Hnd Hin Hin'). exact Hyc'.
Qed.

Lemma GInv_nil : forall p, GInv p 0 [].
Proof. intros p. split; [constructor|]. split; [intros k ms []|constructor]. Qed.

Definition entry_ok (i : nat) (e : nat * list nat) : Prop :=
  snd e <> [] /\ StronglySorted lt (snd e) /\ Forall (fun j => j < i) (snd e).

Definition heads (g : grp) : list nat := map (fun e => hd 0 (snd e)) g.

(* grouping order after i nodes: members ascending and below i, groups in order of their first member *)
Definition GO (i : nat) (g : grp) : Prop :=
  Forall (entry_ok i) g /\ StronglySorted lt (heads g).

Lemma SSorted_snoc : forall l i, StronglySorted lt l -> Forall (fun j => j < i) l ->
  StronglySorted lt (l ++ [i]).
Proof.
  induction l as [|x xs IH]; intros i Hs Hf; cbn.
  - constructor; constructor.
  - inversion Hs as [|a l Hs' Hfa]; subst. inversion Hf as [|a l Hx Hf']; subst.
    constructor; [apply IH; assumption|].
    apply Forall_app. split; [exact Hfa|]. constructor; [exact Hx|constructor].
Qed.

Lemma entry_ok_weaken : forall i e, entry_ok i e -> entry_ok (S i) e.
Proof.
  intros i e (Hne & Hs & Hf). split; [exact Hne|]. split; [exact Hs|].
  eapply Forall_impl; [|exact Hf]. intros a Ha. cbn in Ha. lia.
Qed.

Lemma entry_ok_hd_lt : forall i e, entry_ok i e -> hd 0 (snd e) < i.
Proof.
  intros i [k ms] (Hne & _ & Hf). cbn in *. destruct ms as [|x xs]; [contradiction|].
  inversion Hf; subst. assumption.
Qed.

Lemma group_add_GO : forall r i g, GO i g -> GO (S i) (group_add r i g).
Proof.
  intros r i g [Hok Hh]. unfold GO, heads in *.
  destruct (group_add_spec r i g) as [[_ ->]|(g1 & ms & g2 & -> & ->)].
  - rewrite map_app. cbn. split.
    + apply Forall_app. split; [eapply Forall_impl; [apply entry_ok_weaken|exact Hok]|].
      constructor; [|constructor]. split; [discriminate|]. split; [repeat constructor|].
      constructor; [lia|constructor].
    + apply SSorted_snoc; [exact Hh|]. apply Forall_map.
      eapply Forall_impl; [apply entry_ok_hd_lt|exact Hok].
  - apply Forall_app in Hok. destruct Hok as [H1 H2]. inversion H2 as [|e l (Hne & Hs & Hf) H2']; subst e l.
    cbn [snd] in *. rewrite map_app in *. cbn in *. split.
    + apply Forall_app. split; [eapply Forall_impl; [apply entry_ok_weaken|exact H1]|].
      constructor; [|eapply Forall_impl; [apply entry_ok_weaken|exact H2']].
      split; [destruct ms; discriminate|]. split; [apply SSorted_snoc; assumption|].
      apply Forall_app. split; [eapply Forall_impl; [|exact Hf]; intros a Ha; cbn in Ha; lia|].
      repeat constructor.
    + destruct ms as [|m ms']; [contradiction|exact Hh].
Qed.

Lemma group_roots_GO : forall rs i g, GO i g -> GO (i + length rs) (group_roots i rs g).
Proof.
  induction rs as [|r rs IH]; intros i g H; cbn [group_roots length].
  - rewrite Nat.add_0_r. exact H.
  - replace (i + S (length rs)) with (S i + length rs) by lia. apply IH. apply group_add_GO. exact H.
Qed.

Lemma GO_ordered : forall i g, GO i g -> comps_ordered (map snd g).
Proof.
  intros i g [Hok Hh]. split.
  - apply Forall_map. eapply Forall_impl; [|exact Hok]. intros e (_ & Hs & _). exact Hs.
  - unfold heads in Hh. rewrite map_map. exact Hh.
Qed.

Theorem get_components_ordered : forall u u' cs, get_components u = Some (u', cs) -> comps_ordered cs.
Proof.
  intros u u' cs H. unfold get_components in H.
  destruct (roots_loop _ _ _) as [[p' rs]|]; [|discriminate]. inversion H; subst.
  apply (GO_ordered (0 + length rs)). apply group_roots_GO. split; constructor.
Qed.

(* strengthened output specification: adds the ordering to UFSpec.out_ok *)
Definition out_ok_ord (n : nat) (pre : list (nat * nat)) (o : op) (r : out) : Prop :=
  out_ok n pre o r /\
  match o, r with
  | OComps, RSets cs => comps_ordered cs
  | OSizes, RNats l => exists cs, is_partition n (joined pre) cs /\ comps_ordered cs /\ l = map (@length nat) cs
  | _, _ => True
  end.

Fixpoint spec_ok_ord (n : nat) (pre : list (nat * nat)) (ops : list op) (outs : list out) : Prop :=
  match ops, outs with
  | [], [] => True
  | o :: ops', r :: outs' => out_ok_ord n pre o r /\ spec_ok_ord n (pre ++ pairs_of o) ops' outs'
  | _, _ => False
  end.

Lemma spec_ok_ord_spec_ok : forall n ops pre outs, spec_ok_ord n pre ops outs -> spec_ok n pre ops outs.
Proof.
  intros n. induction ops as [|o ops IH]; intros pre [|r outs] H; try exact H.
  destruct H as [[H1 _] H2]. split; [exact H1|apply IH; exact H2].
Qed.

Lemma keysorted_ext {A} (f : A -> nat) : forall l l',
  StronglySorted lt (map f l) -> StronglySorted lt (map f l') ->
  (forall x, In x l <-> In x l') -> l = l'.
Proof.
  induction l as [|a l IH]; intros l' Hs Hs' Hext.
  - destruct l' as [|b l']; [reflexivity|]. exfalso. apply (proj2 (Hext b)). left. reflexivity.
  - destruct l' as [|b l']; [exfalso; apply (proj1 (Hext a)); left; reflexivity|].
    inversion Hs as [|x xs Hs1 Hf1]; subst. inversion Hs' as [|x xs Hs2 Hf2]; subst.
    rewrite Forall_map, Forall_forall in Hf1, Hf2.
    assert (Eab : a = b).
    { destruct (proj1 (Hext a) (or_introl eq_refl)) as [E|Hin]; [auto|].
      destruct (proj2 (Hext b) (or_introl eq_refl)) as [E|Hin']; [auto|].
      pose proof (Hf2 a Hin). pose proof (Hf1 b Hin'). lia. }
    subst b. f_equal. apply IH; [exact Hs1|exact Hs2|].
    intros x. split; intros Hx.
    + destruct (proj1 (Hext x) (or_intror Hx)) as [E|H]; [|exact H].
      subst x. pose proof (Hf1 a Hx). lia.
    + destruct (proj2 (Hext x) (or_intror Hx)) as [E|H]; [|exact H].
      subst x. pose proof (Hf2 a Hx). lia.
Qed.

Lemma partition_members_incl : forall n R cs cs', is_partition n R cs -> comps_ordered cs ->
  is_partition n R cs' -> comps_ordered cs' -> forall c, In c cs -> In c cs'.
Proof.
  intros n R cs cs' HP [HO _] HP' [HO' _] c Hc.
  pose proof HP as (_ & Hne & Hcls). pose proof HP' as (_ & _ & Hcls').
  destruct c as [|x xs] eqn:Ec; [exfalso; exact (Hne [] Hc eq_refl)|]. rewrite <- Ec in *.
  assert (Hx : In x c) by (rewrite Ec; left; reflexivity).
  assert (Hxn : x < n) by (apply (concat_seq_members n cs x (proj1 HP)); eauto).
  destruct (proj1 (concat_seq_members n cs' x (proj1 HP')) Hxn) as [c' [Hc' Hx']].
  assert (E : c = c'); [|rewrite E; exact Hc'].
  rewrite Forall_forall in HO, HO'.
  apply (keysorted_ext (fun a => a)); [rewrite map_id; apply HO; exact Hc|rewrite map_id; apply HO'; exact Hc'|].
  intros y. rewrite (Hcls c x y Hc Hx), (Hcls' c' x y Hc' Hx'). reflexivity.
Qed.

Theorem comps_unique : forall n R cs cs', is_partition n R cs -> comps_ordered cs ->
  is_partition n R cs' -> comps_ordered cs' -> cs = cs'.
Proof.
  intros n R cs cs' HP HO HP' HO'.
  apply (keysorted_ext (hd 0)); [exact (proj2 HO)|exact (proj2 HO')|].
  intros c. split; apply (partition_members_incl n R); assumption.
Qed.
