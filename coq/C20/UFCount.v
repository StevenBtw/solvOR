(* num_classes determines the count: two duplicate-free systems of representatives of an
   equivalence relation have the same length. *)
From Coq Require Import List Arith Lia.
From SV Require Import C20.UFSpec C20.UFUnion.
Import ListNotations.

Lemma reps_inj_le : forall (R : nat -> nat -> Prop) reps reps',
  NoDup reps ->
  (forall r, In r reps -> exists r', In r' reps' /\ R r r') ->
  (forall r1 r2 r', In r1 reps -> In r2 reps -> R r1 r' -> R r2 r' -> r1 = r2) ->
  length reps <= length reps'.
Proof.
  intros R. induction reps as [|r rest IH]; intros reps' Hnd Hex Hinj; [cbn; lia|].
  inversion Hnd as [|a l Hnin Hnd']; subst.
  destruct (Hex r (or_introl eq_refl)) as [r' [Hin' Hrr']].
  destruct (in_split _ _ Hin') as [l1 [l2 ->]].
  rewrite app_length. cbn [length].
  assert (length rest <= length (l1 ++ l2)); [|rewrite app_length in *; lia].
  apply IH; [exact Hnd'| |].
  - intros r2 Hr2. destruct (Hex r2 (or_intror Hr2)) as [r2' [Hin2 HR2]].
    exists r2'. split; [|exact HR2].
    apply in_app_or in Hin2. destruct Hin2 as [H|[H|H]].
    + apply in_or_app. left. exact H.
    + subst r2'. exfalso. apply Hnin.
      rewrite (Hinj r r2 r' (or_introl eq_refl) (or_intror Hr2) Hrr' HR2). exact Hr2.
    + apply in_or_app. right. exact H.
  - intros r1 r2 x H1 H2. apply Hinj; right; assumption.
Qed.

Theorem num_classes_unique : forall n pre c c',
  num_classes n (joined pre) c -> num_classes n (joined pre) c' -> c = c'.
Proof.
  assert (Hle : forall n pre c c', num_classes n (joined pre) c -> num_classes n (joined pre) c' -> c <= c').
  { intros n pre c c' (reps & Hnd & HL & Hlt & Hcov & Hsep) (reps' & Hnd' & HL' & Hlt' & Hcov' & Hsep').
    subst c c'. apply (reps_inj_le (joined pre)); [exact Hnd| |].
    - intros r Hr. apply Hcov'. apply Hlt. exact Hr.
    - intros r1 r2 r' H1 H2 J1 J2. apply Hsep; [exact H1|exact H2|].
      eapply joined_trans; [exact J1|apply joined_sym; exact J2]. }
  intros n pre c c' H H'. apply Nat.le_antisymm; eapply Hle; eassumption.
Qed.
