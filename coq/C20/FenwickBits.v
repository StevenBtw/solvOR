(* Bit-level facts about the Fenwick index walks  g(j) = j & (j+1)  and  h(j) = j | (j+1) = up j.
   All bit reasoning of C20 lives in the four recursion equations g_even/g_odd/h_even/h_odd
   (proved by Z.testbit extensionality); everything else is binary induction + lia. *)
From Coq Require Import List ZArith Bool Lia.
From SV Require Import C20.Fenwick.
Open Scope Z_scope.

Definition g (j : Z) : Z := Z.land j (j + 1).
Definition h (j : Z) : Z := Z.lor j (j + 1).

Lemma up_is_h : forall i, up i = h i. Proof. reflexivity. Qed.
Lemma down_is_g : forall i, down i = g i - 1. Proof. reflexivity. Qed.

Lemma g_even : forall k, g (2 * k) = 2 * k.
Proof.
  intros k. unfold g. apply Z.bits_inj'. intros n Hn.
  rewrite Z.land_spec.
  destruct (Z.eq_dec n 0) as [->|Hz].
  - rewrite Z.testbit_even_0, Z.testbit_odd_0. reflexivity.
  - replace n with (Z.succ (n - 1)) by lia.
    rewrite Z.testbit_even_succ, Z.testbit_odd_succ by lia.
    apply andb_diag.
Qed.

Lemma g_odd : forall k, g (2 * k + 1) = 2 * g k.
Proof.
  intros k. unfold g. apply Z.bits_inj'. intros n Hn.
  replace (2 * k + 1 + 1) with (2 * (k + 1)) by lia.
  rewrite Z.land_spec.
  destruct (Z.eq_dec n 0) as [->|Hz].
  - rewrite Z.testbit_even_0, Z.testbit_odd_0, Z.testbit_even_0. reflexivity.
  - replace n with (Z.succ (n - 1)) by lia.
    rewrite !Z.testbit_even_succ, Z.testbit_odd_succ by lia.
    rewrite Z.land_spec. reflexivity.
Qed.

Lemma h_even : forall k, h (2 * k) = 2 * k + 1.
Proof.
  intros k. unfold h. apply Z.bits_inj'. intros n Hn.
  rewrite Z.lor_spec.
  destruct (Z.eq_dec n 0) as [->|Hz].
  - rewrite Z.testbit_even_0, !Z.testbit_odd_0. reflexivity.
  - replace n with (Z.succ (n - 1)) by lia.
    rewrite Z.testbit_even_succ, !Z.testbit_odd_succ by lia.
    apply orb_diag.
Qed.

Lemma h_odd : forall k, h (2 * k + 1) = 2 * h k + 1.
Proof.
  intros k. unfold h. apply Z.bits_inj'. intros n Hn.
  replace (2 * k + 1 + 1) with (2 * (k + 1)) by lia.
  rewrite Z.lor_spec.
  destruct (Z.eq_dec n 0) as [->|Hz].
  - rewrite Z.testbit_even_0, !Z.testbit_odd_0. reflexivity.
  - replace n with (Z.succ (n - 1)) by lia.
    rewrite Z.testbit_even_succ, !Z.testbit_odd_succ by lia.
    rewrite Z.lor_spec. reflexivity.
Qed.

Lemma bin_ind (P : Z -> Prop) :
  P 0 ->
  (forall k, 0 < k -> P k -> P (2 * k)) ->
  (forall k, 0 <= k -> P k -> P (2 * k + 1)) ->
  forall j, 0 <= j -> P j.
Proof.
  intros H0 He Ho [|p|p] Hj; [exact H0| |lia]. clear Hj. induction p as [p IH|p IH|].
  - rewrite Pos2Z.inj_xI. apply Ho; [lia|exact IH].
  - rewrite Pos2Z.inj_xO. apply He; [lia|exact IH].
  - exact (Ho 0 (Z.le_refl 0) H0).
Qed.

Lemma parity_cases : forall i, 0 <= i -> exists m, 0 <= m /\ (i = 2 * m \/ i = 2 * m + 1).
Proof. apply bin_ind; [exists 0; lia|intros k Hk _; exists k; lia ..]. Qed.

Lemma g_0 : g 0 = 0. Proof. reflexivity. Qed.
Lemma h_0 : h 0 = 1. Proof. reflexivity. Qed.

Lemma g_bounds : forall j, 0 <= j -> 0 <= g j <= j.
Proof.
  apply bin_ind.
  - rewrite g_0; lia.
  - intros k Hk IH. rewrite g_even. lia.
  - intros k Hk IH. rewrite g_odd. lia.
Qed.

Lemma h_gt : forall j, 0 <= j -> j < h j.
Proof.
  apply bin_ind.
  - rewrite h_0; lia.
  - intros k Hk IH. rewrite h_even. lia.
  - intros k Hk IH. rewrite h_odd. lia.
Qed.

Lemma h_is_odd : forall i, 0 <= i -> exists q, h i = 2 * q + 1.
Proof.
  intros i Hi. destruct (parity_cases i Hi) as [m [Hm [->| ->]]].
  - exists m. apply h_even.
  - exists (h m). apply h_odd.
Qed.

(* covering lemma: for i < j, h i lies in j's range exactly when i does *)
Lemma cover_iff : forall j, 0 <= j -> forall i, 0 <= i < j -> (g j <= h i <= j <-> g j <= i).
Proof.
  apply (bin_ind (fun j => forall i, 0 <= i < j -> (g j <= h i <= j <-> g j <= i))).
  - intros i Hi. lia.
  - intros k Hk IH i Hi. rewrite g_even. destruct (h_is_odd i (proj1 Hi)) as [q ->]. lia.
  - intros k Hk IH i Hi. rewrite g_odd.
    destruct (parity_cases i (proj1 Hi)) as [m [Hm [->| ->]]].
    + rewrite h_even. lia.
    + rewrite h_odd. specialize (IH m ltac:(lia)). lia.
Qed.

(* laminarity: the ranges [g j, j] are nested or disjoint *)
Lemma g_nested : forall j, 0 <= j -> forall i, 0 <= i <= j -> g j <= i -> g j <= g i.
Proof.
  apply (bin_ind (fun j => forall i, 0 <= i <= j -> g j <= i -> g j <= g i)).
  - intros i Hi _. assert (i = 0) by lia. subst. rewrite g_0. lia.
  - intros k Hk IH i Hi Hg. rewrite g_even in *. assert (i = 2 * k) by lia. subst. rewrite g_even. lia.
  - intros k Hk IH i Hi Hg. rewrite g_odd in *.
    destruct (parity_cases i (proj1 Hi)) as [m [Hm [->| ->]]].
    + rewrite g_even. lia.
    + rewrite g_odd. assert (g k <= g m) by (apply IH; lia). lia.
Qed.

(* tiling: the children of j = h c have adjacent ranges *)
Lemma child_adjacent : forall c, 0 <= c -> g (h c) < g c -> h (g c - 1) = h c.
Proof.
  apply (bin_ind (fun c => g (h c) < g c -> h (g c - 1) = h c)).
  - rewrite h_0, g_0. change (g 1) with 0. lia.
  - intros k Hk IH Hlt. rewrite h_even, g_even, g_odd in *.
    (* g k < k forces k odd *)
    destruct (parity_cases k (Z.lt_le_incl _ _ Hk)) as [m [Hm [E|E]]]; subst k.
    + rewrite g_even in Hlt. lia.
    + replace (2 * (2 * m + 1) - 1) with (2 * (2 * m) + 1) by lia.
      rewrite h_odd, h_even. lia.
  - intros k Hk IH Hlt. rewrite h_odd, !g_odd in *.
    pose proof (g_bounds k Hk) as Hb.
    pose proof (h_gt k Hk) as Hh.
    pose proof (g_bounds (h k) ltac:(lia)) as Hb2.
    replace (2 * g k - 1) with (2 * (g k - 1) + 1) by lia.
    rewrite h_odd. rewrite IH by lia. reflexivity.
Qed.

(* cover relation: j's range contains i *)
Definition cover (i j : Z) : bool := (g j <=? i) && (i <=? j).

Lemma cover_self : forall i, 0 <= i -> cover i i = true.
Proof. intros i Hi. unfold cover. pose proof (g_bounds i Hi). lia. Qed.

Lemma cover_step : forall i j, 0 <= i < j -> cover (h i) j = cover i j.
Proof.
  intros i j Hij. unfold cover. pose proof (h_gt i (proj1 Hij)) as Hh.
  pose proof (cover_iff j ltac:(lia) i Hij). lia.
Qed.

Lemma cover_gt : forall c j, j < c -> cover c j = false.
Proof. intros c j H. unfold cover. rewrite (proj2 (Z.leb_gt c j) H). apply andb_false_r. Qed.
