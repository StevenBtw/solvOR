(* State invariant of UnionFind histories and the refinement theorems. *)
From Coq Require Import List Arith Bool Lia Relations.
From SV Require Import C20.UF C20.UFSpec C20.UFBasics C20.UFUnion C20.UFOrder.
Import ListNotations.

Definition SInv (n : nat) (pre : list (nat * nat)) (u : uf) : Prop :=
  wf n (parent u) (rank u) /\ count u = nroots n (parent u) /\ Rep pre (parent u).

Lemma nth_seq_id : forall n i, nth i (seq 0 n) i = i.
Proof.
  intros n i. destruct (Nat.lt_ge_cases i n) as [H|H].
  - rewrite seq_nth by exact H. reflexivity.
  - apply nth_overflow. rewrite seq_length. exact H.
Qed.

Lemma filter_all : forall (f : nat -> bool) l, (forall x, In x l -> f x = true) -> filter f l = l.
Proof.
  intros f. induction l as [|x xs IH]; intros H; [reflexivity|].
  cbn. rewrite (H x (or_introl eq_refl)). f_equal. apply IH. intros y Hy. apply H. right. exact Hy.
Qed.

Lemma nroots_init : forall n, nroots n (seq 0 n) = n.
Proof.
  intros n. unfold nroots. rewrite filter_all; [apply seq_length|].
  intros x _. unfold is_root. rewrite nth_seq_id. apply Nat.eqb_refl.
Qed.

Lemma init_SInv : forall n, SInv n [] (uf_init n).
Proof.
  intros n. unfold SInv, uf_init. cbn [parent rank count]. split; [|split].
  - split; [apply seq_length|]. split; [apply repeat_length|]. split; [|split].
    + intros i Hi. rewrite nth_seq_id. exact Hi.
    + intros i Hi Hne. rewrite nth_seq_id in Hne. contradiction.
    + intros i Hi. rewrite nth_repeat, nroots_init. lia.
  - symmetry. apply nroots_init.
  - intros x y. split.
    + intros [r [Hx Hy]].
      rewrite (root_of_self _ _ _ (nth_seq_id n x) Hx) in Hy.
      rewrite (root_of_self _ _ _ (nth_seq_id n y) Hy). apply rst_refl.
    + intros H. apply joined_nil in H. subst y. exists x.
      split; apply ro_root; apply nth_seq_id.
Qed.

(* Each operation compresses some paths - the state keeps rank and count and gets a parent array p
   that is well formed and has the same roots - and answers from the roots; union then links. *)
Lemma find_op_shape : forall n u x r, wf n (parent u) (rank u) -> x < n -> root_of (parent u) x r ->
  exists p, find_op u x = Some (with_parent u p, r) /\ compression n u p.
Proof.
  intros n u x r Hwf Hx Hr. unfold find_op. rewrite (fuel_of_wf n u Hwf).
  destruct (find_root n _ _ x r Hwf Hx Hr) as (p & -> & Hc). exists p. split; [reflexivity|exact Hc].
Qed.

(* connected and union both start with find x; find y *)
Lemma pair_shape : forall n u x y rx ry, wf n (parent u) (rank u) -> x < n -> y < n ->
  root_of (parent u) x rx -> root_of (parent u) y ry ->
  exists p, connected u x y = Some (with_parent u p, rx =? ry) /\
            union u x y = Some (link p (rank u) (count u) rx ry) /\ compression n u p.
Proof.
  intros n u x y rx ry Hwf Hx Hy Hrx Hry. unfold connected, union, link. rewrite (fuel_of_wf n u Hwf).
  destruct (find_root n _ _ x rx Hwf Hx Hrx) as (p1 & -> & Hwf1 & Hs1).
  destruct (find_root n _ _ y ry Hwf1 Hy (proj1 (Hs1 _ _) Hry)) as (p2 & -> & Hwf2 & Hs2).
  exists p2. split; [reflexivity|]. split.
  - destruct (rx =? ry); [reflexivity|]. destruct (_ <? _); reflexivity.
  - split; [exact Hwf2|exact (same_roots_trans _ _ _ Hs1 Hs2)].
Qed.

Lemma SInv_compression : forall n pre u p, SInv n pre u -> compression n u p ->
  SInv n pre (with_parent u p).
Proof.
  intros n pre u p (Hwf & Hc & HR) [Hwf' Hs]. split; [exact Hwf'|]. cbn [with_parent parent rank count].
  split; [|eapply Rep_same_roots; eassumption]. rewrite Hc. symmetry. apply same_roots_nroots. exact Hs.
Qed.

Lemma roots_eq_iff_joined : forall pre p x y rx ry, Rep pre p -> root_of p x rx -> root_of p y ry ->
  (rx = ry <-> joined pre x y).
Proof.
  intros pre p x y rx ry HR Hx Hy. split.
  - intros <-. apply HR. exists rx. split; assumption.
  - intros HJ. apply HR in HJ. destruct HJ as [r [Hx' Hy']].
    rewrite (root_of_det _ _ _ _ Hx Hx'), (root_of_det _ _ _ _ Hy Hy'). reflexivity.
Qed.

Lemma union_ok : forall n pre u x y, SInv n pre u -> x < n -> y < n ->
  exists u' b, union u x y = Some (u', b) /\ (b = true <-> ~ joined pre x y) /\
               SInv n (pre ++ [(x, y)]) u'.
Proof.
  intros n pre u x y HS Hx Hy. pose proof HS as (Hwf & _).
  destruct (root_total n _ _ x Hwf) as [rx Hrx]. destruct (root_total n _ _ y Hwf) as [ry Hry].
  pose proof (root_of_lt n _ _ x rx Hwf Hrx Hx) as Hrxn.
  pose proof (root_of_lt n _ _ y ry Hwf Hry Hy) as Hryn.
  destruct (pair_shape n u x y rx ry Hwf Hx Hy Hrx Hry) as (p & _ & -> & Hc).
  destruct (SInv_compression n pre u p HS Hc) as (Hwp & Hcnt & HR).
  cbn [with_parent parent rank count] in Hwp, Hcnt, HR. apply (proj2 Hc) in Hrx, Hry.
  pose proof (roots_eq_iff_joined pre p x y rx ry HR Hrx Hry) as Hiff.
  destruct (Nat.eq_dec rx ry) as [E|E].
  - rewrite E, link_eq. eexists _, false. split; [reflexivity|].
    apply Hiff in E. split; [split; [discriminate|contradiction]|].
    split; [exact Hwp|]. split; [exact Hcnt|].
    intros a b. rewrite (joined_add_redundant pre x y E a b). apply HR.
  - destruct (link_neq (rank u) rx ry (fun z => z < n /\ nth z p z = z) E
                (conj Hrxn (root_of_is_root _ _ _ Hrx)) (conj Hryn (root_of_is_root _ _ _ Hry)))
      as (c & r & Hcase & Hne & [Hcn Hcc] & [Hrn Hrr] & Hrk & Hl). rewrite Hl.
    eexists _, true. split; [reflexivity|]. split; [split; [intros _ HJ; apply E, Hiff, HJ|reflexivity]|].
    destruct (link_wf n p (rank u) c r Hwp Hcn Hcc Hrr Hne Hrn Hrk) as [Hwf' Hnr].
    split; [exact Hwf'|]. cbn [parent rank count]. split; [lia|]. eapply link_rep; eassumption.
Qed.

Lemma connected_ok : forall n pre u x y, SInv n pre u -> x < n -> y < n ->
  exists u' b, connected u x y = Some (u', b) /\ (b = true <-> joined pre x y) /\ SInv n pre u'.
Proof.
  intros n pre u x y HS Hx Hy. pose proof HS as (Hwf & _ & HR).
  destruct (root_total n _ _ x Hwf) as [rx Hrx]. destruct (root_total n _ _ y Hwf) as [ry Hry].
  destruct (pair_shape n u x y rx ry Hwf Hx Hy Hrx Hry) as (p & -> & _ & Hc).
  eexists _, _. split; [reflexivity|]. split; [|apply SInv_compression; assumption].
  rewrite Nat.eqb_eq. eapply roots_eq_iff_joined; eassumption.
Qed.

Lemma find_op_ok : forall n pre u x, SInv n pre u -> x < n ->
  exists u' r, find_op u x = Some (u', r) /\ r < n /\ root_of (parent u) x r /\
               joined pre x r /\ SInv n pre u' /\ same_roots (parent u) (parent u').
Proof.
  intros n pre u x HS Hx. pose proof HS as (Hwf & _ & HR).
  destruct (root_total n _ _ x Hwf) as [r Hr].
  destruct (find_op_shape n u x r Hwf Hx Hr) as (p & -> & Hc).
  eexists _, r. split; [reflexivity|]. split; [exact (root_of_lt n _ _ x r Hwf Hr Hx)|]. split; [exact Hr|].
  split; [eapply Rep_root; eassumption|]. split; [apply SInv_compression; assumption|exact (proj2 Hc)].
Qed.

Lemma count_ok : forall n pre u, SInv n pre u -> num_classes n (joined pre) (count u).
Proof.
  intros n pre u (Hwf & Hc & HR).
  exists (filter (is_root (parent u)) (seq 0 n)).
  split; [apply NoDup_filter; apply seq_NoDup|]. split; [symmetry; exact Hc|]. split; [|split].
  - intros r Hr. apply filter_In in Hr. destruct Hr as [Hr _]. apply in_seq in Hr. lia.
  - intros x Hx. destruct (root_total n _ _ x Hwf) as [r Hr]. exists r.
    split; [|eapply Rep_root; eassumption]. apply filter_In. split.
    + apply in_seq. pose proof (root_of_lt n _ _ x r Hwf Hr Hx). lia.
    + apply is_root_iff, ro_root, (root_of_is_root _ _ _ Hr).
  - intros r r' Hr Hr' HJ. apply filter_In in Hr, Hr'.
    apply (roots_eq_iff_joined pre (parent u) r r' r r' HR); [apply is_root_iff, Hr|apply is_root_iff, Hr'|exact HJ].
Qed.

Lemma comps_ok : forall n pre u, SInv n pre u ->
  exists u' cs, get_components u = Some (u', cs) /\ is_partition n (joined pre) cs /\
                comps_ordered cs /\ SInv n pre u'.
Proof.
  intros n pre u HS. pose proof HS as (Hwf & _ & HR).
  destruct (roots_exist n _ _ (seq 0 n) Hwf) as [rs HF].
  destruct (comps_shape n u rs Hwf HF) as (p & Hg & Hc).
  eexists _, _. split; [exact Hg|]. split; [|split].
  - apply (GInv_partition n (parent u) (rank u) pre _ Hwf HR).
    apply (group_roots_GInv (parent u) rs 0 n [] (GInv_nil _) HF).
  - eapply get_components_ordered. exact Hg.
  - apply SInv_compression; assumption.
Qed.

Definition op_in_range (n : nat) (o : op) : bool :=
  match o with
  | OUnion x y | OConnected x y => (x <? n) && (y <? n)
  | OFind x => x <? n
  | _ => true
  end.

Lemma ops_in_range_cons : forall n o ops, ops_in_range n (o :: ops) = true ->
  op_in_range n o = true /\ ops_in_range n ops = true.
Proof. intros n o ops H. apply andb_true_iff. destruct o; exact H. Qed.

Lemma pair_in_range : forall n x y, (x <? n) && (y <? n) = true -> x < n /\ y < n.
Proof. intros n x y H. rewrite andb_true_iff, !Nat.ltb_lt in H. exact H. Qed.

Lemma run_cons : forall u o ops,
  run u (o :: ops) = (fst (run (fst (step u o)) ops), snd (step u o) :: snd (run (fst (step u o)) ops)).
Proof.
  intros u o ops. cbn [run]. destruct (step u o) as [u' r]. cbn [fst snd].
  destruct (run u' ops). reflexivity.
Qed.

Lemma step_ok : forall n pre u o, SInv n pre u -> op_in_range n o = true ->
  out_ok_ord n pre o (snd (step u o)) /\ SInv n (pre ++ pairs_of o) (fst (step u o)).
Proof.
  intros n pre u o HS Hr. destruct o as [x y|x|x y| | |]; cbn [op_in_range] in Hr;
    unfold out_ok_ord; cbn [step pairs_of]; rewrite ?app_nil_r.
  - apply pair_in_range in Hr as [Hx Hy].
    destruct (union_ok n pre u x y HS Hx Hy) as (u' & b & -> & Hb & HS'). cbn. auto.
  - apply Nat.ltb_lt in Hr.
    destruct (find_op_ok n pre u x HS Hr) as (u' & r & -> & Hrn & _ & HJ & HS' & _). cbn. auto.
  - apply pair_in_range in Hr as [Hx Hy].
    destruct (connected_ok n pre u x y HS Hx Hy) as (u' & b & -> & Hb & HS'). cbn. auto.
  - cbn. split; [split; [apply count_ok; exact HS|exact I]|exact HS].
  - destruct (comps_ok n pre u HS) as (u' & cs & Hg & Hp & Ho & HS').
    unfold component_sizes. rewrite Hg. cbn.
    split; [|exact HS']. split; [exists cs; split; [exact Hp|reflexivity]|].
    exists cs. split; [exact Hp|]. split; [exact Ho|reflexivity].
  - destruct (comps_ok n pre u HS) as (u' & cs & -> & Hp & Ho & HS'). cbn. auto.
Qed.

Lemma run_spec : forall n ops pre u, SInv n pre u -> ops_in_range n ops = true ->
  spec_ok_ord n pre ops (snd (run u ops)) /\ SInv n (pre ++ united ops) (fst (run u ops)).
Proof.
  intros n. induction ops as [|o ops IH]; intros pre u HS Hr.
  - cbn. rewrite app_nil_r. auto.
  - apply ops_in_range_cons in Hr as [Ho Hr].
    destruct (step_ok n pre u o HS Ho) as [Hout HS'].
    destruct (IH (pre ++ pairs_of o) _ HS' Hr) as [Hspec HS''].
    rewrite run_cons. cbn [fst snd united spec_ok_ord]. rewrite app_assoc. auto.
Qed.

Theorem uf_refines : forall n ops, ops_in_range n ops = true -> spec_ok n [] ops (run_from n ops).
Proof.
  intros n ops Hr. apply spec_ok_ord_spec_ok, (run_spec n ops [] (uf_init n) (init_SInv n) Hr).
Qed.

Lemma spec_ok_no_fail : forall n ops pre outs, spec_ok n pre ops outs -> ~ In RFail outs.
Proof.
  intros n. induction ops as [|o ops IH]; intros pre outs H Hin.
  - destruct outs; [exact Hin|exact H].
  - destruct outs as [|r outs]; [exact Hin|]. destruct H as [H1 H2]. destruct Hin as [->|Hin].
    + destruct o; exact H1.
    + exact (IH _ _ H2 Hin).
Qed.

Theorem uf_find_agree : forall n ops x y u1 rx u2 ry, ops_in_range n ops = true -> x < n -> y < n ->
  find_op (fst (run (uf_init n) ops)) x = Some (u1, rx) -> find_op u1 y = Some (u2, ry) ->
  (rx = ry <-> joined (united ops) x y).
Proof.
  intros n ops x y u1 rx u2 ry Hr Hx Hy Hf1 Hf2.
  pose proof (proj2 (run_spec n ops [] (uf_init n) (init_SInv n) Hr)) as HS. cbn [app] in HS.
  destruct (find_op_ok n _ _ x HS Hx) as (u1' & rx' & Hf1' & _ & Hrx & _ & HS1 & Hs1).
  rewrite Hf1 in Hf1'. inversion Hf1'; subst u1' rx'.
  destruct (find_op_ok n _ _ y HS1 Hy) as (u2' & ry' & Hf2' & _ & Hry & _).
  rewrite Hf2 in Hf2'. inversion Hf2'; subst u2' ry'.
  apply (roots_eq_iff_joined _ (parent u1) x y rx ry (proj2 (proj2 HS1))); [apply Hs1; exact Hrx|exact Hry].
Qed.
