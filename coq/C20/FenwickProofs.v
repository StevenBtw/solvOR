(* Refinement proof: the Fenwick tree model answers like a plain array. *)
From Coq Require Import List ZArith Bool Lia.
From SV Require Import C20.Fenwick C20.FenwickBits C20.FenwickLists.
Import ListNotations.
Open Scope Z_scope.

(* representation invariant: tree[j] = sum a[g j .. j] *)
Definition Inv (a t : list Z) : Prop :=
  length t = length a /\
  forall j, 0 <= j < zn a -> zget t j = pre a (j + 1) - pre a (g j).

Lemma Inv_zn : forall a t, Inv a t -> zn t = zn a.
Proof. intros a t [H _]. unfold zn. now rewrite H. Qed.

Lemma prefix_correct : forall a t, Inv a t ->
  forall fuel i acc, -1 <= i < zn a -> i + 1 < Z.of_nat fuel ->
  prefix fuel t i acc = Some (acc + pre a (i + 1)).
Proof.
  intros a t [HL HI]. induction fuel as [|f IH]; intros i acc Hi Hf.
  - lia.
  - cbn [prefix]. destruct (0 <=? i) eqn:E.
    + assert (H0 : 0 <= i) by lia.
      pose proof (g_bounds i H0) as Hg.
      rewrite down_is_g. rewrite IH by lia.
      rewrite HI by lia. f_equal. replace (g i - 1 + 1) with (g i) by lia. lia.
    + assert (i = -1) by lia. subst i. cbn. f_equal. lia.
Qed.

(* t' is t with d added to every cell whose range covers c *)
Definition added (c d : Z) (t t' : list Z) : Prop :=
  length t' = length t /\
  forall j, 0 <= j < zn t -> zget t' j = zget t j + if cover c j then d else 0.

Lemma update_past_end : forall fuel t c d, zn t <= c -> update fuel t c d = Some t /\ added c d t t.
Proof.
  intros fuel t c d Hge. split.
  - destruct fuel; cbn [update]; rewrite (proj2 (Z.ltb_ge _ _) Hge); reflexivity.
  - split; [reflexivity|]. intros j Hj. rewrite cover_gt by lia. lia.
Qed.

(* the walk c, h c, h (h c), ... visits exactly the cells covering c *)
Lemma update_spec : forall fuel t c d, 0 <= c -> zn t - c < Z.of_nat fuel ->
  exists t', update fuel t c d = Some t' /\ added c d t t'.
Proof.
  induction fuel as [|f IH]; intros t c d Hc Hf; [exists t; apply update_past_end; lia|].
  destruct (Z_lt_le_dec c (zn t)) as [Hlt|Hge]; [|exists t; apply update_past_end; exact Hge].
  cbn [update]. rewrite (proj2 (Z.ltb_lt _ _) Hlt), up_is_h. pose proof (h_gt c Hc) as Hh.
  destruct (IH (zadd_at t c d) (h c) d) as [t' [Hu [HL Hz]]]; [lia|rewrite zn_zadd_at; lia|].
  exists t'. split; [exact Hu|]. split; [rewrite HL; apply length_zadd_at|].
  intros j Hj. rewrite Hz by (rewrite zn_zadd_at; lia). rewrite zget_zadd_at by lia.
  destruct (Z.eqb_spec j c) as [->|Hjc].
  - rewrite cover_self, cover_gt by lia. lia.
  - destruct (Z_lt_le_dec c j) as [Hcj|Hjc'].
    + rewrite cover_step by lia. reflexivity.
    + rewrite !cover_gt by lia. lia.
Qed.

Lemma update_correct : forall a t i d, Inv a t -> 0 <= i < zn a ->
  exists t', update (fuel_of t) t i d = Some t' /\ Inv (zadd_at a i d) t'.
Proof.
  intros a t i d HInv Hi. pose proof (Inv_zn a t HInv) as Hzn. destruct HInv as [HL HI].
  destruct (update_spec (fuel_of t) t i d) as [t' [Hu [HL' Hz]]]; [lia| unfold fuel_of, zn; lia |].
  exists t'. split; [exact Hu|]. split.
  - rewrite HL', HL. symmetry. apply length_zadd_at.
  - intros j Hj. rewrite zn_zadd_at in Hj. rewrite Hz, HI by lia.
    pose proof (g_bounds j (proj1 Hj)) as Hg.
    rewrite pre_range_zadd_at by lia. reflexivity.
Qed.

(* x is where the children of j processed before time c end: the left end g j, or one past the last
   such child; no later child of j has been processed *)
Definition frontier (j c x : Z) : Prop :=
  (x = g j \/ (0 < x <= c /\ h (x - 1) = j)) /\ forall i, x <= i < c -> h i <> j.

Lemma frontier_bounds : forall j c x, 0 <= j -> frontier j c x -> g j <= x <= j.
Proof.
  intros j c x Hj [[->|[Hx Hh]] _].
  - pose proof (g_bounds j Hj). lia.
  - pose proof (h_gt (x - 1) ltac:(lia)) as Hgt.
    assert (Hc : cover (x - 1) j = true).
    { rewrite <- cover_step by lia. rewrite Hh. apply cover_self. lia. }
    unfold cover in Hc. lia.
Qed.

(* from time j on, all children of j are in *)
Lemma frontier_done : forall j c x, 0 <= j <= c -> frontier j c x -> x = j.
Proof.
  intros j c x Hj Hf. pose proof (frontier_bounds j c x (proj1 Hj) Hf) as Hb. destruct Hf as [Hbd Hno].
  destruct (parity_cases j (proj1 Hj)) as [q [Hq [E|E]]]; subst j.
  - destruct Hbd as [->|[Hx Hh]]; [apply g_even|].
    destruct (h_is_odd (x - 1) ltac:(lia)) as [q' Hq']. lia.
  - destruct (Z_le_gt_dec x (2 * q)) as [Hle|Hgt]; [|lia].
    exfalso. apply (Hno (2 * q)); [lia|apply h_even].
Qed.

(* when c is reached, the children of h c seen so far end just below c's own range *)
Lemma frontier_before_child : forall c x, 0 <= c -> frontier (h c) c x -> x = g c.
Proof.
  intros c x Hc Hf.
  pose proof (h_gt c Hc) as Hh. pose proof (g_bounds c Hc) as Hgc.
  pose proof (frontier_bounds (h c) c x ltac:(lia) Hf) as Hbb. destruct Hf as [Hbd Hno].
  assert (Hcov : cover c (h c) = true) by (rewrite <- cover_step by lia; apply cover_self; lia).
  assert (Hgjc : g (h c) <= c) by (unfold cover in Hcov; lia).
  assert (Hnest : g (h c) <= g c) by (apply g_nested; lia).
  assert (Hle : x <= g c).
  { destruct Hbd as [->|[Hx0 Hhx]]; [exact Hnest|].
    destruct (Z_le_gt_dec x (g c)) as [Hl|Hg]; [exact Hl|].
    pose proof (proj2 (cover_iff c Hc (x - 1) ltac:(lia)) ltac:(lia)). lia. }
  destruct (Z.eq_dec (g (h c)) (g c)) as [Eg|Eg]; [lia|].
  destruct (Z_le_gt_dec x (g c - 1)) as [Hl|Hg]; [|lia].
  exfalso. apply (Hno (g c - 1)); [lia|]. apply child_adjacent; lia.
Qed.

(* build-loop invariant at time c: every cell holds its own value plus its range up to its frontier *)
Definition BInv (a t : list Z) (c : Z) : Prop :=
  length t = length a /\
  forall j, 0 <= j < zn a -> exists x,
    frontier j c x /\ zget t j = zget a j + pre a x - pre a (g j).

Lemma BInv_step : forall a t c, BInv a t c -> 0 <= c < zn a ->
  BInv a (if h c <? zn t then zadd_at t (h c) (zget t c) else t) (c + 1).
Proof.
  intros a t c [HL HB] Hc.
  assert (Hzn : zn t = zn a) by (unfold zn; now rewrite HL).
  pose proof (h_gt c (proj1 Hc)) as Hh.
  (* tree[c] is final *)
  assert (Htc : zget t c = pre a (c + 1) - pre a (g c)).
  { destruct (HB c Hc) as [x [Hf Hz]].
    rewrite (frontier_done c c x) in Hz by (assumption || lia). rewrite Hz, pre_succ by lia. lia. }
  split.
  { destruct (h c <? zn t); [rewrite length_zadd_at|]; exact HL. }
  intros j Hj. destruct (HB j Hj) as [x [Hf Hz]].
  destruct (Z.eq_dec j (h c)) as [->|Ej].
  - (* h c receives tree[c]: its frontier moves from g c to c + 1 *)
    rewrite (frontier_before_child c x) in Hz by (assumption || lia).
    rewrite (proj2 (Z.ltb_lt _ _)) by lia.
    exists (c + 1). split; [split; [right; split; [lia|f_equal; lia]|intros i Hi; lia]|].
    rewrite zget_zadd_at, Z.eqb_refl by lia. rewrite Hz, Htc. lia.
  - exists x. split.
    + destruct Hf as [Hbd Hno]. split; [destruct Hbd as [E|[Hx E]]; [left; exact E|right; split; [lia|exact E]]|].
      intros i Hi. destruct (Z.eq_dec i c) as [->|Hic]; [congruence|]. apply Hno. lia.
    + destruct (h c <? zn t) eqn:E; [|exact Hz].
      rewrite zget_zadd_at by lia. rewrite (proj2 (Z.eqb_neq _ _) Ej). exact Hz.
Qed.

Lemma build_loop_BInv : forall a k c t, BInv a t (Z.of_nat c) -> (c + k = length a)%nat ->
  BInv a (build_loop (map Z.of_nat (seq c k)) t) (zn a).
Proof.
  intros a. induction k as [|k IH]; intros c t HB Hck.
  - cbn. replace (zn a) with (Z.of_nat c) by (unfold zn; lia). exact HB.
  - cbn [seq map build_loop]. apply IH; [|lia].
    rewrite up_is_h. replace (Z.of_nat (S c)) with (Z.of_nat c + 1) by lia.
    apply BInv_step; [exact HB| unfold zn; lia].
Qed.

Lemma build_Inv : forall a, Inv a (build a).
Proof.
  intros a. unfold build.
  assert (HB : BInv a (build_loop (map Z.of_nat (seq 0 (length a))) a) (zn a)).
  { apply build_loop_BInv; [|lia]. split; [reflexivity|].
    intros j Hj. exists (g j). split; [|lia]. split; [left; reflexivity|].
    intros i Hi. pose proof (g_bounds j (proj1 Hj)). lia. }
  destruct HB as [HL HB]. split; [exact HL|].
  intros j Hj. destruct (HB j Hj) as [x [Hf Hz]].
  rewrite (frontier_done j (zn a) x) in Hz by (assumption || lia). rewrite Hz, pre_succ by lia. lia.
Qed.

Lemma run_cons : forall t o ops,
  run t (o :: ops) = (fst (run (fst (step t o)) ops), snd (step t o) :: snd (run (fst (step t o)) ops)).
Proof.
  intros t o ops. cbn [run]. destruct (step t o) as [t' r]. cbn [fst snd].
  destruct (run t' ops). reflexivity.
Qed.

Lemma prefix_ok : forall a t i, Inv a t -> -1 <= i < zn a ->
  prefix (fuel_of t) t i 0 = Some (pre a (i + 1)).
Proof.
  intros a t i HInv Hi. apply (prefix_correct a t HInv); [exact Hi|].
  pose proof (Inv_zn a t HInv). unfold fuel_of, zn in *. lia.
Qed.

Lemma run_refines : forall ops a t, Inv a t -> ops_in_range (zn a) ops = true ->
  snd (run t ops) = ref_run a ops.
Proof.
  induction ops as [|o rest IH]; intros a t HInv Hr; [reflexivity|].
  cbn [ops_in_range forallb] in Hr. apply andb_true_iff in Hr. destruct Hr as [Ho Hr].
  fold (ops_in_range (zn a) rest) in Hr.
  rewrite run_cons. cbn [snd ref_run]. destruct o as [i d|i|l r]; cbn [step ref_step].
  - destruct (update_correct a t i d HInv ltac:(lia)) as [t' [-> HInv']]. cbn [fst snd]. f_equal.
    apply IH; [exact HInv'|]. rewrite zn_zadd_at. exact Hr.
  - rewrite (prefix_ok a t i HInv), ref_prefix_pre by lia. cbn [fst snd]. f_equal. apply IH; assumption.
  - unfold range_sum. rewrite (prefix_ok a t r HInv), ref_prefix_pre by lia. destruct (0 <? l) eqn:El.
    + rewrite (prefix_ok a t (l - 1) HInv), ref_prefix_pre by lia. cbn [fst snd].
      replace (l - 1 + 1) with l by lia. f_equal. apply IH; assumption.
    + cbn [fst snd]. rewrite Z.sub_0_r. f_equal. apply IH; assumption.
Qed.

Lemma ref_run_no_fail : forall ops a, ~ In RFail (ref_run a ops).
Proof.
  induction ops as [|o rest IH]; intros a Hin; [exact Hin|].
  cbn [ref_run] in Hin. destruct o; cbn [ref_step] in Hin; destruct Hin as [H|H];
    try discriminate; exact (IH _ H).
Qed.

Definition is_update (o : op) : bool := match o with OUpdate _ _ => true | _ => false end.

Theorem fenwick_queries_pure : forall ops t,
  fst (run t ops) = fst (run t (filter is_update ops)).
Proof.
  induction ops as [|o rest IH]; intros t; [reflexivity|].
  rewrite run_cons. cbn [fst filter]. destruct o as [i d|i|l r]; cbn [is_update].
  - rewrite run_cons. cbn [fst]. apply IH.
  - cbn [step]. destruct (prefix (fuel_of t) t i 0); apply IH.
  - cbn [step]. destruct (range_sum t l r); apply IH.
Qed.
