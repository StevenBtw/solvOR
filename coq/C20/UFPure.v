(* "Queries never change later answers": removing the read operations (find / connected / sizes /
   components, which do compress paths, and count, which does not touch the state) from any prefix
   of a history leaves every later output unchanged.  Proved by a simulation between states with equal ranks, counts and roots. *)
From Coq Require Import List Arith Bool.
From SV Require Import C20.UF C20.UFBasics C20.UFUnion C20.UFOrder C20.UFProofs.
Import ListNotations.

Definition sim (n : nat) (u u' : uf) : Prop :=
  wf n (parent u) (rank u) /\ wf n (parent u') (rank u') /\
  rank u = rank u' /\ count u = count u' /\ same_roots (parent u) (parent u').

Definition is_union (o : op) : bool := match o with OUnion _ _ => true | _ => false end.

Lemma sim_refl : forall n u, wf n (parent u) (rank u) -> sim n u u.
Proof.
  intros n u H. split; [exact H|]. split; [exact H|]. split; [reflexivity|].
  split; [reflexivity|apply same_roots_refl].
Qed.

Lemma sim_sym : forall n a b, sim n a b -> sim n b a.
Proof.
  intros n a b (Ha & Hb & Hr & Hc & Hs). split; [exact Hb|]. split; [exact Ha|].
  split; [congruence|]. split; [congruence|apply same_roots_sym; exact Hs].
Qed.

Lemma sim_trans : forall n a b c, sim n a b -> sim n b c -> sim n a c.
Proof.
  intros n a b c (Ha & _ & Hr1 & Hc1 & Hs1) (_ & Hc & Hr2 & Hc2 & Hs2).
  split; [exact Ha|]. split; [exact Hc|]. split; [congruence|]. split; [congruence|].
  eapply same_roots_trans; eassumption.
Qed.

Lemma compression_sim : forall n u p, wf n (parent u) (rank u) -> compression n u p ->
  sim n u (with_parent u p).
Proof. intros n u p Hwf [Hwf' Hs]. unfold sim. cbn. auto. Qed.

Lemma link_sim : forall n p p' rk cnt x y rx ry, wf n p rk -> wf n p' rk -> same_roots p p' ->
  x < n -> y < n -> root_of p x rx -> root_of p y ry ->
  exists v v' b, link p rk cnt rx ry = (v, b) /\ link p' rk cnt rx ry = (v', b) /\ sim n v v'.
Proof.
  intros n p p' rk cnt x y rx ry Hwf Hwf' Hs Hxn Hyn Hrox Hroy.
  pose proof (root_of_lt n p rk x rx Hwf Hrox Hxn) as Hrx. apply root_of_is_root in Hrox as Hx.
  pose proof (root_of_lt n p rk y ry Hwf Hroy Hyn) as Hry. apply root_of_is_root in Hroy as Hy.
  destruct (Nat.eq_dec rx ry) as [<-|E].
  - rewrite !link_eq. eexists _, _, _. split; [reflexivity|]. split; [reflexivity|].
    unfold sim. cbn. auto.
  - destruct (link_neq rk rx ry (fun z => z < n /\ nth z p z = z) E (conj Hrx Hx) (conj Hry Hy))
      as (c & r & Hcase & Hne & [Hcn Hcc] & [Hrn Hrr] & Hrk & Hl). rewrite !Hl.
    destruct (link_wf n p rk c r Hwf Hcn Hcc Hrr Hne Hrn Hrk) as [W _].
    destruct (link_wf n p' rk c r Hwf' Hcn (same_roots_fix _ _ _ Hs Hcc)
                (same_roots_fix _ _ _ Hs Hrr) Hne Hrn Hrk) as [W' _].
    eexists _, _, _. split; [reflexivity|]. split; [reflexivity|].
    unfold sim. cbn. split; [exact W|]. split; [exact W'|]. split; [reflexivity|].
    split; [reflexivity|]. eapply link_same_roots; eassumption.
Qed.

Lemma read_sim : forall n u u' o, sim n u u' -> is_union o = false -> op_in_range n o = true ->
  snd (step u o) = snd (step u' o) /\ sim n u (fst (step u o)) /\ sim n u' (fst (step u' o)).
Proof.
  intros n u u' o Hsim Hq Hr. pose proof Hsim as (Hwf & Hwf' & Hrk & Hcnt & Hs).
  destruct o as [x y|x|x y| | |]; try discriminate; cbn [op_in_range] in Hr; cbn [step].
  - apply Nat.ltb_lt in Hr. destruct (root_total n _ _ x Hwf) as [r Hr0].
    destruct (find_op_shape n u x r Hwf Hr Hr0) as (p & -> & Hc).
    destruct (find_op_shape n u' x r Hwf' Hr (proj1 (Hs _ _) Hr0)) as (p' & -> & Hc').
    split; [reflexivity|]. split; apply compression_sim; assumption.
  - apply pair_in_range in Hr as [Hx Hy].
    destruct (root_total n _ _ x Hwf) as [rx Hrx]. destruct (root_total n _ _ y Hwf) as [ry Hry].
    destruct (pair_shape n u x y rx ry Hwf Hx Hy Hrx Hry) as (p & -> & _ & Hc).
    destruct (pair_shape n u' x y rx ry Hwf' Hx Hy (proj1 (Hs _ _) Hrx) (proj1 (Hs _ _) Hry))
      as (p' & -> & _ & Hc').
    split; [reflexivity|]. split; apply compression_sim; assumption.
  - cbn. split; [congruence|]. split; apply sim_refl; assumption.
  - destruct (roots_exist n _ _ (seq 0 n) Hwf) as [rs HF].
    destruct (comps_shape n u rs Hwf HF) as (p & Hg & Hc).
    destruct (comps_shape n u' rs Hwf' (Forall2_imp _ _ (fun a b => proj1 (Hs a b)) _ _ HF))
      as (p' & Hg' & Hc').
    unfold component_sizes. rewrite Hg, Hg'. split; [reflexivity|]. split; apply compression_sim; assumption.
  - destruct (roots_exist n _ _ (seq 0 n) Hwf) as [rs HF].
    destruct (comps_shape n u rs Hwf HF) as (p & -> & Hc).
    destruct (comps_shape n u' rs Hwf' (Forall2_imp _ _ (fun a b => proj1 (Hs a b)) _ _ HF))
      as (p' & -> & Hc').
    split; [reflexivity|]. split; apply compression_sim; assumption.
Qed.

Lemma step_sim : forall n u u' o, sim n u u' -> op_in_range n o = true ->
  snd (step u o) = snd (step u' o) /\ sim n (fst (step u o)) (fst (step u' o)).
Proof.
  intros n u u' o Hsim Hr. destruct (is_union o) eqn:Eu.
  - destruct o as [x y| | | | |]; try discriminate.
    cbn [op_in_range] in Hr. apply pair_in_range in Hr as [Hx Hy].
    pose proof Hsim as (Hwf & Hwf' & Hrk & Hcnt & Hs).
    destruct (root_total n _ _ x Hwf) as [rx Hrx]. destruct (root_total n _ _ y Hwf) as [ry Hry].
    destruct (pair_shape n u x y rx ry Hwf Hx Hy Hrx Hry) as (p & _ & Hu & Hwp & Hsp).
    destruct (pair_shape n u' x y rx ry Hwf' Hx Hy (proj1 (Hs _ _) Hrx) (proj1 (Hs _ _) Hry))
      as (p' & _ & Hu' & Hwp' & Hsp').
    rewrite <- Hrk, <- Hcnt in *.
    destruct (link_sim n p p' (rank u) (count u) x y rx ry Hwp Hwp') as (v & v' & b & Hl & Hl' & Hv);
      [|exact Hx|exact Hy|apply Hsp; exact Hrx|apply Hsp; exact Hry|].
    + apply same_roots_trans with (parent u); [apply same_roots_sym; exact Hsp|].
      apply same_roots_trans with (parent u'); assumption.
    + cbn [step]. rewrite Hu, Hu', Hl, Hl'. cbn. auto.
  - destruct (read_sim n u u' o Hsim Eu Hr) as (Hout & H1 & H2). split; [exact Hout|].
    apply sim_trans with u; [apply sim_sym; exact H1|]. apply sim_trans with u'; assumption.
Qed.

Lemma run_sim : forall n ops u u', sim n u u' -> ops_in_range n ops = true ->
  snd (run u ops) = snd (run u' ops).
Proof.
  intros n. induction ops as [|o ops IH]; intros u u' Hsim Hr; [reflexivity|].
  apply ops_in_range_cons in Hr as [Ho Hr].
  destruct (step_sim n u u' o Hsim Ho) as [Hout Hsim'].
  rewrite !run_cons. cbn [snd]. rewrite Hout. f_equal. apply IH; assumption.
Qed.

Lemma prefix_sim : forall n ops u u', sim n u u' -> ops_in_range n ops = true ->
  sim n (fst (run u ops)) (fst (run u' (filter is_union ops))).
Proof.
  intros n. induction ops as [|o ops IH]; intros u u' Hsim Hr; [exact Hsim|].
  apply ops_in_range_cons in Hr as [Ho Hr].
  cbn [filter]. destruct (is_union o) eqn:Eu.
  - rewrite !run_cons. cbn [fst]. apply IH; [|exact Hr]. apply (step_sim n u u' o Hsim Ho).
  - rewrite run_cons. cbn [fst]. apply IH; [|exact Hr]. pose proof Hsim as (Hwf & _).
    destruct (read_sim n u u o (sim_refl n u Hwf) Eu Ho) as (_ & Hq & _).
    apply sim_trans with u; [apply sim_sym; exact Hq|exact Hsim].
Qed.

Lemma ops_in_range_app : forall n a b,
  ops_in_range n (a ++ b) = ops_in_range n a && ops_in_range n b.
Proof. intros. unfold ops_in_range. apply forallb_app. Qed.

Lemma run_app : forall a b u,
  snd (run u (a ++ b)) = snd (run u a) ++ snd (run (fst (run u a)) b).
Proof.
  induction a as [|o a IH]; intros b u; [reflexivity|].
  rewrite <- app_comm_cons, !run_cons. cbn [fst snd app]. now rewrite IH.
Qed.

Lemma run_length : forall a u, length (snd (run u a)) = length a.
Proof.
  induction a as [|o a IH]; intros u; [reflexivity|]. rewrite run_cons. cbn. now rewrite IH.
Qed.

Lemma skipn_len_app {A} : forall (a b : list A) k, length a = k -> skipn k (a ++ b) = b.
Proof.
  induction a as [|x a IH]; intros b k H; cbn in H; subst k; [reflexivity|]. cbn. apply IH. reflexivity.
Qed.

Theorem uf_queries_pure_state : forall n ops1 ops2, ops_in_range n (ops1 ++ ops2) = true ->
  snd (run (fst (run (uf_init n) ops1)) ops2) =
  snd (run (fst (run (uf_init n) (filter is_union ops1))) ops2).
Proof.
  intros n ops1 ops2 Hr. rewrite ops_in_range_app in Hr. apply andb_true_iff in Hr.
  destruct Hr as [H1 H2]. apply (run_sim n); [|exact H2].
  apply prefix_sim; [|exact H1]. apply sim_refl. apply (init_SInv n).
Qed.
