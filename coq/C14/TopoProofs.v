(* topological_sort: soundness of the order, never out of fuel, INFEASIBLE iff the in-set graph has a cycle. *)
From Coq Require Import List Arith ZArith Bool Lia.
From SV Require Import C14.Scc C14.SccSpec C14.SccLemmas C14.KahnProofs.
Import ListNotations.

Lemma topo_order_path1 g nodes order u w :
  topo_order g nodes order -> path1 g nodes u w -> pos u order < pos w order.
Proof.
  intros (_ & _ & _ & Hf) Hp. induction Hp as [u w He | u v w He _ IH].
  - apply Hf. exact He.
  - specialize (Hf u v He). lia.
Qed.

Lemma topo_order_acyclic g nodes order : topo_order g nodes order -> ~ has_cycle g nodes.
Proof.
  intros Ho [v Hp]. pose proof (topo_order_path1 g nodes order v v Ho Hp). lia.
Qed.

Fixpoint chain (g : graph) (nodes : list nat) (l : list nat) : Prop :=
  match l with
  | a :: (b :: _) as r => edge g nodes a b /\ chain g nodes r
  | _ => True
  end.

Lemma chain_app_r g nodes l1 l2 : chain g nodes (l1 ++ l2) -> chain g nodes l2.
Proof.
  induction l1 as [|a [|b t] IH]; simpl; [tauto | destruct l2; tauto | tauto].
Qed.

Lemma chain_app_l g nodes l1 l2 : chain g nodes (l1 ++ l2) -> chain g nodes l1.
Proof.
  induction l1 as [|a [|b t] IH]; simpl; tauto.
Qed.

Lemma chain_path1 g nodes l : forall a b, chain g nodes (a :: l ++ [b]) -> path1 g nodes a b.
Proof.
  induction l as [|x r IH]; intros a b H; simpl in H.
  - apply path1_one. tauto.
  - destruct H as [He H]. eapply path1_cons; [exact He|]. apply IH. exact H.
Qed.

Lemma backward_chain g nodes (S : nat -> Prop) x :
  (forall w, S w -> exists u, S u /\ edge g nodes u w) -> S x ->
  forall n, exists l, length l = Datatypes.S n /\ chain g nodes l /\ Forall S l.
Proof.
  intros Hpred Hx. induction n as [|n [l [Hl [Hc Hs]]]].
  - exists [x]. repeat split. constructor; [exact Hx | constructor].
  - destruct l as [|h l]; [discriminate|]. destruct (Hpred h (Forall_inv Hs)) as [u [Hu He]].
    exists (u :: h :: l). split; [simpl in *; lia|]. split; [split; assumption | constructor; assumption].
Qed.

Lemma cycle_from_predecessors g nodes (S : nat -> Prop) x :
  (forall w, S w -> In w nodes) ->
  (forall w, S w -> exists u, S u /\ edge g nodes u w) ->
  S x -> has_cycle g nodes.
Proof.
  intros Hin Hpred Hx.
  destruct (backward_chain g nodes S x Hpred Hx (length nodes)) as [l [Hl [Hc Hs]]].
  assert (Hnd : ~ NoDup l).
  { intros Hnd. assert (Hi : incl l nodes).
    { intros y Hy. apply Hin. rewrite Forall_forall in Hs. apply Hs. exact Hy. }
    pose proof (NoDup_incl_length Hnd Hi). lia. }
  destruct (dup_split l Hnd) as [a [l1 [l2 [l3 ->]]]].
  (* l1 ++ a :: l2 ++ a :: l3: keep the segment a :: l2 ++ [a] *)
  exists a. apply (chain_path1 g nodes l2 a a), (chain_app_l g nodes _ l3). apply chain_app_r in Hc.
  simpl. rewrite <- app_assoc. exact Hc.
Qed.

Lemma kinv_final g nodes deg res : NoDup nodes -> kinv g nodes deg [] res ->
  topo_spec g nodes (if length res =? length nodes then Some res else None).
Proof.
  intros Hnd [I1 I2 I3 I4 I5]. rewrite app_nil_r in *.
  destruct (Nat.eqb_spec (length res) (length nodes)) as [El | El]; simpl.
  - (* every node is in the output: a valid order *)
    assert (Hall : incl nodes res) by (apply NoDup_length_incl; [exact I1 | lia | exact I2]).
    split; [exact I1|]. split; [|split; [exact El|]].
    + intros x. split; [apply I2 | apply Hall].
    + intros u w He. apply (I5 u w (proj1 He) (Hall w (proj1 (proj2 He)))), adjf_edge, He. apply He.
  - (* a node is missing, and every missing node has a missing predecessor: walking backwards closes a cycle *)
    destruct (incl_or_missing nodes res) as [Hi | [x [Hx Hxr]]].
    { pose proof (NoDup_incl_length Hnd Hi). pose proof (NoDup_incl_length I1 I2). lia. }
    apply (cycle_from_predecessors g nodes (fun w => In w nodes /\ ~ In w res) x).
    + intros w [Hw _]. exact Hw.
    + intros w [Hw Hwr].
      assert (Hnz : zget deg w <> 0%Z) by (intros Hz; apply Hwr; apply I4; assumption).
      rewrite I3 in Hnz. apply indeg_rem_nonzero_ex in Hnz. destruct Hnz as [u [Hu [Hur Hadj]]].
      exists u. split; [split; assumption|]. apply adjf_edge; assumption.
    + split; assumption.
Qed.

Theorem topological_sort_spec g nodes : NoDup nodes ->
  exists out, topological_sort g nodes = Some out /\ topo_spec g nodes out /\ (out = None <-> has_cycle g nodes).
Proof.
  intros Hnd. destruct (kahn_result_inv g nodes Hnd) as [res [deg [Hr Hinv]]].
  unfold topological_sort. rewrite Hr. eexists. split; [reflexivity|].
  pose proof (kinv_final g nodes deg res Hnd Hinv) as Hs. split; [exact Hs|].
  destruct (length res =? length nodes); simpl in Hs; split.
  - discriminate.
  - intros Hc. destruct (topo_order_acyclic g nodes res Hs Hc).
  - intros _. exact Hs.
  - reflexivity.
Qed.
