(* Soundness of the boolean checkers of SccSpec.v w.r.t. the inductive specification:
     scc_check  g nodes cs  = true -> scc_spec  g nodes cs
     topo_check g nodes out = true -> topo_spec g nodes out
     cond_check g nodes out = true -> cond_spec g nodes out
   They rest on the correctness of the transitive closure: [reach_closure] is sound for [reach], and |nodes|
   rounds always reach a closed set, so  reachb g nodes s x = true <-> reach g nodes s x  (the test
   [closures_ok] of the checkers always succeeds). *)
From Coq Require Import List Arith Bool Lia.
From SV Require Import C14.Scc C14.SccSpec C14.SccLemmas.
Import ListNotations.

Lemma add_new_In ws : forall acc x, In x (add_new ws acc) <-> In x acc \/ In x ws.
Proof.
  induction ws as [|w r IH]; intros acc x; simpl; [tauto|].
  destruct (mem w acc) eqn:E.
  - apply mem_In in E. rewrite IH. split; [tauto|]. intros [H | [<- | H]]; auto.
  - rewrite IH, in_app_iff. simpl. split; [tauto|]. intros [H | [<- | H]]; auto.
Qed.

Lemma closure_step_In g nodes acc x :
  In x (closure_step g nodes acc) <-> In x acc \/ exists u, In u acc /\ edge g nodes u x.
Proof.
  unfold closure_step. rewrite add_new_In, in_flat_map. setoid_rewrite succs_in_edge. reflexivity.
Qed.

Lemma closure_iter_sound g nodes k : forall acc x,
  In x (closure_iter k g nodes acc) -> exists u, In u acc /\ reach g nodes u x.
Proof.
  induction k as [|k IH]; intros acc x H; simpl in H.
  - exists x. split; [exact H | apply reach_refl].
  - apply IH in H. destruct H as [u [Hu Hr]]. apply closure_step_In in Hu.
    destruct Hu as [Hu | [u0 [Hu0 He]]].
    + exists u. auto.
    + exists u0. split; [exact Hu0|]. eapply reach_step; eassumption.
Qed.

Lemma closure_iter_incl g nodes k : forall acc x, In x acc -> In x (closure_iter k g nodes acc).
Proof.
  induction k as [|k IH]; intros acc x H; simpl; [exact H|].
  apply IH. apply closure_step_In. left. exact H.
Qed.

Lemma reach_closure_sound g nodes s x : In x (reach_closure g nodes s) -> reach g nodes s x.
Proof.
  intros H. apply closure_iter_sound in H. destruct H as [u [[<- | []] Hr]]. exact Hr.
Qed.

Lemma closed_complete g nodes acc s x :
  closedb g nodes acc = true -> In s acc -> reach g nodes s x -> In x acc.
Proof.
  intros Hc Hs Hr. induction Hr as [u | u v w He _ IH]; [exact Hs|].
  apply IH. unfold closedb in Hc. rewrite forallb_forall in Hc. specialize (Hc u Hs).
  apply inclb_incl in Hc. apply Hc. apply succs_in_edge. exact He.
Qed.

Lemma add_new_length_ge ws : forall acc, length acc <= length (add_new ws acc).
Proof.
  induction ws as [|w r IH]; intros acc; simpl; [lia|].
  destruct (mem w acc); [apply IH|]. specialize (IH (acc ++ [w])). rewrite app_length in IH. simpl in IH. lia.
Qed.

Lemma add_new_length_eq ws : forall acc, length (add_new ws acc) = length acc -> incl ws acc.
Proof.
  induction ws as [|w r IH]; intros acc H; simpl in H; [intros x []|].
  destruct (mem w acc) eqn:E.
  - apply mem_In in E. intros x [<- | Hx]; [exact E | apply (IH acc H); exact Hx].
  - exfalso. pose proof (add_new_length_ge r (acc ++ [w])) as Hg. rewrite app_length in Hg. simpl in Hg. lia.
Qed.

Lemma add_new_incl_id ws : forall acc, incl ws acc -> add_new ws acc = acc.
Proof.
  induction ws as [|w r IH]; intros acc H; simpl; [reflexivity|].
  assert (Hw : mem w acc = true) by (apply mem_In; apply H; left; reflexivity).
  rewrite Hw. apply IH. intros x Hx. apply H. right. exact Hx.
Qed.

Lemma add_new_NoDup ws : forall acc, NoDup acc -> NoDup (add_new ws acc).
Proof.
  induction ws as [|w r IH]; intros acc H; simpl; [exact H|].
  destruct (mem w acc) eqn:E; apply IH; [exact H|]. apply mem_false in E.
  apply NoDup_app_intro; [exact H | constructor; [intros [] | constructor] | intros x Hx [<- | []]; contradiction].
Qed.

Lemma closedb_iff g nodes acc :
  closedb g nodes acc = true <-> incl (flat_map (succs_in g nodes) acc) acc.
Proof.
  unfold closedb. rewrite forallb_forall. split.
  - intros H x Hx. apply in_flat_map in Hx. destruct Hx as [u [Hu Hx]].
    specialize (H u Hu). apply inclb_incl in H. apply H. exact Hx.
  - intros H u Hu. apply inclb_incl. intros x Hx. apply H. apply in_flat_map. exists u. auto.
Qed.

Lemma closed_iter_id g nodes k : forall acc,
  closedb g nodes acc = true -> closure_iter k g nodes acc = acc.
Proof.
  induction k as [|k IH]; intros acc H; simpl; [reflexivity|].
  assert (E : closure_step g nodes acc = acc).
  { unfold closure_step. apply add_new_incl_id. apply closedb_iff. exact H. }
  rewrite E. apply IH. exact H.
Qed.

Lemma closure_iter_progress g nodes k : forall acc,
  closedb g nodes (closure_iter k g nodes acc) = true \/ length acc + k <= length (closure_iter k g nodes acc).
Proof.
  induction k as [|k IH]; intros acc; [right; simpl; lia|].
  pose proof (add_new_length_ge (flat_map (succs_in g nodes) acc) acc : length acc <= length (closure_step g nodes acc)) as Hg.
  destruct (Nat.eq_dec (length (closure_step g nodes acc)) (length acc)) as [E | E].
  - left. assert (Hc : closedb g nodes acc = true) by (apply closedb_iff, add_new_length_eq, E).
    rewrite closed_iter_id by exact Hc. exact Hc.
  - destruct (IH (closure_step g nodes acc)) as [H | H]; [left; exact H | right; cbn [closure_iter]; lia].
Qed.

Lemma closure_iter_NoDup g nodes k : forall acc, NoDup acc -> NoDup (closure_iter k g nodes acc).
Proof.
  induction k as [|k IH]; intros acc H; simpl; [exact H|].
  apply IH. unfold closure_step. apply add_new_NoDup. exact H.
Qed.

Lemma reach_in_nodes g nodes s x : reach g nodes s x -> x = s \/ In x nodes.
Proof.
  intros H. induction H as [u | u v w He _ IH]; [left; reflexivity|].
  destruct IH as [-> | IH]; [right; apply He | right; exact IH].
Qed.

Theorem reach_closure_closed g nodes s : closedb g nodes (reach_closure g nodes s) = true.
Proof.
  unfold reach_closure.
  destruct (in_dec Nat.eq_dec s nodes) as [Hs | Hs].
  - destruct (closure_iter_progress g nodes (length nodes) [s]) as [H | H]; [exact H | exfalso].
    assert (Hnd : NoDup (closure_iter (length nodes) g nodes [s])).
    { apply closure_iter_NoDup. constructor; [intros [] | constructor]. }
    assert (Hi : incl (closure_iter (length nodes) g nodes [s]) nodes).
    { intros x Hx. apply reach_closure_sound in Hx. apply reach_in_nodes in Hx.
      destruct Hx as [-> | Hx]; assumption. }
    pose proof (NoDup_incl_length Hnd Hi). simpl in H. lia.
  - assert (Hc : closedb g nodes [s] = true).
    { unfold closedb. simpl. unfold succs_in. apply mem_false in Hs. rewrite Hs. reflexivity. }
    rewrite closed_iter_id by exact Hc. exact Hc.
Qed.

Theorem reachb_reach g nodes s x : reachb g nodes s x = true <-> reach g nodes s x.
Proof.
  unfold reachb. rewrite mem_In. split; [apply reach_closure_sound|].
  apply closed_complete; [apply reach_closure_closed | apply closure_iter_incl; left; reflexivity].
Qed.

Theorem closures_ok_always g nodes : closures_ok g nodes = true.
Proof. unfold closures_ok. apply forallb_forall. intros x _. apply reach_closure_closed. Qed.

Lemma partitionb_sound nodes cs : partitionb nodes cs = true -> is_partition nodes cs.
Proof.
  unfold partitionb. rewrite !andb_true_iff. intros [[H1 H2] H3]. split; [|split].
  - apply Forall_forall. intros c Hc. rewrite forallb_forall in H1. specialize (H1 c Hc).
    destruct c; discriminate.
  - apply nodupb_NoDup. exact H2.
  - apply seteqb_iff. exact H3.
Qed.

Lemma same_compb_iff cs x y : same_compb cs x y = true <-> same_comp cs x y.
Proof.
  unfold same_compb, same_comp. rewrite existsb_exists. setoid_rewrite andb_true_iff. setoid_rewrite mem_In.
  reflexivity.
Qed.

Lemma classesb_sound g nodes cs : classesb g nodes cs = true -> scc_classes g nodes cs.
Proof.
  intros H x y Hx Hy. apply (forallb2_In _ _ (fun _ => nodes) H x y Hx), eqb_prop in Hy.
  rewrite <- same_compb_iff, Hy, andb_true_iff, !reachb_reach. reflexivity.
Qed.

Lemma sinks_firstb_sound g nodes cs : sinks_firstb g nodes cs = true -> sinks_first g nodes cs.
Proof.
  unfold sinks_first. induction cs as [|c r IH]; intros H i j ci cj u w Hi Hj Hij Hu Hw.
  - destruct i; discriminate.
  - simpl in H. apply andb_true_iff in H. destruct H as [H1 H2].
    destruct j as [|j]; [lia|]. simpl in Hj. destruct i as [|i]; simpl in Hi.
    + inversion Hi; subst ci. rewrite forallb_forall in H1. specialize (H1 u Hu).
      rewrite forallb_forall in H1. specialize (H1 cj (nth_error_In _ _ Hj)).
      rewrite forallb_forall in H1. specialize (H1 w Hw). apply negb_true_iff in H1.
      intros He. apply edgeb_edge in He. congruence.
    + apply (IH H2 i j ci cj u w); try assumption. lia.
Qed.

Theorem scc_check_sound g nodes cs : scc_check g nodes cs = true -> scc_spec g nodes cs.
Proof.
  unfold scc_check. rewrite !andb_true_iff. intros [[[H1 _] H3] H4]. split; [|split].
  - apply partitionb_sound. exact H1.
  - apply classesb_sound. exact H3.
  - apply sinks_firstb_sound. exact H4.
Qed.

Lemma reach1b_iff g nodes u v : reach1b g nodes u v = true <-> path1 g nodes u v.
Proof.
  unfold reach1b. rewrite existsb_exists, path1_iff. setoid_rewrite succs_in_edge. setoid_rewrite reachb_reach.
  reflexivity.
Qed.

(* the checkers are also complete for the cycle test: INFEASIBLE answers are accepted iff a cycle exists *)
Theorem has_cycleb_iff g nodes : has_cycleb g nodes = true <-> has_cycle g nodes.
Proof.
  unfold has_cycleb, has_cycle. rewrite existsb_exists. setoid_rewrite reach1b_iff. split.
  - intros [v [_ H]]. exists v. exact H.
  - intros [v H]. exists v. split; [|exact H]. apply path1_iff in H. destruct H as [w [He _]]. apply He.
Qed.

Lemma topo_orderb_sound g nodes order : topo_orderb g nodes order = true -> topo_order g nodes order.
Proof.
  unfold topo_orderb. rewrite !andb_true_iff. intros [[[H1 H2] H3] H4]. split; [|split; [|split]].
  - apply nodupb_NoDup. exact H1.
  - apply seteqb_iff. exact H2.
  - apply Nat.eqb_eq. exact H3.
  - intros u w He. apply Nat.ltb_lt.
    apply (forallb2_In (fun u w => pos u order <? pos w order) _ _ H4 u w (proj1 He)), succs_in_edge, He.
Qed.

Theorem topo_check_sound g nodes out : topo_check g nodes out = true -> topo_spec g nodes out.
Proof.
  destruct out as [order|]; simpl; [apply topo_orderb_sound | apply has_cycleb_iff].
Qed.

Lemma aget_combine_seq {A} (l : list A) : forall a i,
  aget (combine (seq a (length l)) l) (a + i) = nth_error l i.
Proof.
  induction l as [|x r IH]; intros a i; simpl.
  - destruct i; reflexivity.
  - destruct i as [|i]; simpl.
    + rewrite Nat.add_0_r, Nat.eqb_refl. reflexivity.
    + assert (E : (a =? a + S i) = false) by (apply Nat.eqb_neq; lia). rewrite E.
      replace (a + S i) with (S a + i) by lia. apply IH.
Qed.

Lemma nbr_cgraph succs i : nbr (cgraph succs) i = nth i succs [].
Proof.
  unfold nbr, cgraph, agetd. pose proof (aget_combine_seq succs 0 i) as Hc. simpl in Hc. rewrite Hc. clear Hc.
  destruct (nth_error succs i) as [l|] eqn:E.
  - symmetry. apply nth_error_nth. exact E.
  - apply nth_error_None in E. symmetry. apply nth_overflow. exact E.
Qed.

Lemma comp_edgeb_iff g nodes ci cj :
  comp_edgeb g nodes ci cj = true <-> exists u w, In u ci /\ In w cj /\ edge g nodes u w.
Proof.
  unfold comp_edgeb. rewrite existsb_exists. split.
  - intros [u [Hu H]]. apply existsb_exists in H. destruct H as [w [Hw He]].
    exists u, w. repeat split; try assumption; apply edgeb_edge in He; apply He.
  - intros [u [w [Hu [Hw He]]]]. exists u. split; [exact Hu|]. apply existsb_exists.
    exists w. split; [exact Hw | apply edgeb_edge; exact He].
Qed.

Lemma cond_edgesb_sound g nodes cs succs : cond_edgesb g nodes cs succs = true ->
  cond_edges_spec g nodes cs succs /\ forall i l j, nth_error succs i = Some l -> In j l -> j < length succs.
Proof.
  unfold cond_edgesb. rewrite !andb_true_iff. intros [[Hlen Hall] Hbound]. apply Nat.eqb_eq in Hlen.
  assert (Hb : forall i l j, nth_error succs i = Some l -> In j l -> j < length cs).
  { intros i l j Hl Hj. apply Nat.ltb_lt.
    exact (forallb2_In (fun _ j => j <? length cs) _ (fun l => l) Hbound l j (nth_error_In _ _ Hl) Hj). }
  assert (Hij : forall i j, i < length cs -> j < length cs ->
            (In j (nth i succs []) <->
             i <> j /\ exists u w, In u (nth i cs []) /\ In w (nth j cs []) /\ edge g nodes u w)).
  { intros i j Hi Hj.
    assert (Hi' : In i (seq 0 (length cs))) by (apply in_seq; lia).
    assert (Hj' : In j (seq 0 (length cs))) by (apply in_seq; lia).
    apply (forallb2_In _ _ (fun _ => seq 0 (length cs)) Hall i j Hi'), eqb_prop in Hj'.
    rewrite <- mem_In, Hj', andb_true_iff, negb_true_iff, Nat.eqb_neq, comp_edgeb_iff.
    reflexivity. }
  split; [|rewrite Hlen; exact Hb]. split; [exact Hlen|]. intros i j. unfold cedge. split.
  - intros [l [Hl Hj]].
    assert (Hi : i < length cs) by (rewrite <- Hlen; apply nth_error_Some; congruence).
    pose proof (Hb i l j Hl Hj) as Hj2.
    rewrite <- (nth_error_nth succs i [] Hl) in Hj. apply (Hij i j Hi Hj2) in Hj.
    destruct Hj as [Hn [u [w [Hu [Hw He]]]]]. split; [exact Hn|].
    exists (nth i cs []), (nth j cs []), u, w.
    split; [apply nth_error_nth'; exact Hi|]. split; [apply nth_error_nth'; exact Hj2|].
    split; [exact Hu|]. split; [exact Hw | exact He].
  - intros [Hn [ci [cj [u [w [Hci [Hcj [Hu [Hw He]]]]]]]]].
    assert (Hi : i < length cs) by (apply nth_error_Some; congruence).
    assert (Hj : j < length cs) by (apply nth_error_Some; congruence).
    exists (nth i succs []). split; [apply nth_error_nth'; lia|].
    apply (Hij i j Hi Hj). split; [exact Hn|]. exists u, w.
    rewrite (nth_error_nth cs i [] Hci), (nth_error_nth cs j [] Hcj). split; [exact Hu|]. split; [exact Hw | exact He].
Qed.

(* a closed walk of the condensed graph is a cycle of cgraph, which the closure test excludes *)
Lemma cond_acyclicb_sound succs :
  (forall i l j, nth_error succs i = Some l -> In j l -> j < length succs) ->
  cond_acyclicb succs = true -> cond_acyclic succs.
Proof.
  unfold cond_acyclicb. rewrite andb_true_iff, negb_true_iff. intros Hb [_ Hnc] i Hp.
  assert (Hedge : forall a b, cedge succs a b -> edge (cgraph succs) (seq 0 (length succs)) a b).
  { intros a b [l [Hl Hb']]. repeat split.
    - apply in_seq. assert (a < length succs) by (apply nth_error_Some; congruence). lia.
    - apply in_seq. pose proof (Hb a l b Hl Hb'). lia.
    - rewrite nbr_cgraph, (nth_error_nth succs a [] Hl). exact Hb'. }
  assert (Hwalk : forall a b, cpath1 succs a b -> path1 (cgraph succs) (seq 0 (length succs)) a b).
  { intros a b Hw. induction Hw as [a b He | a b c He _ IH]; [apply path1_one | eapply path1_cons; [|exact IH]];
      apply Hedge; exact He. }
  assert (Hcyc : has_cycle (cgraph succs) (seq 0 (length succs))) by (exists i; apply Hwalk; exact Hp).
  apply has_cycleb_iff in Hcyc. congruence.
Qed.

Theorem cond_check_sound g nodes out : cond_check g nodes out = true -> cond_spec g nodes out.
Proof.
  destruct out as [cs succs]. unfold cond_check. simpl. rewrite andb_true_iff. intros [He Ha].
  apply cond_edgesb_sound in He. destruct He as [He Hb].
  split; [exact He | exact (cond_acyclicb_sound succs Hb Ha)].
Qed.
