(* condense (model [condense]): the condensed graph has an edge exactly where an original edge joins two different
   components, and, the components being listed sinks first, is acyclic. *)
From Coq Require Import List Arith Bool Lia.
From SV Require Import C14.Scc C14.SccSpec C14.SccLemmas.
Import ListNotations.

Lemma fold_aset_get (c : list nat) (i : nat) : forall (m : list (nat * nat)) x,
  aget (fold_left (fun m x => aset m x i) c m) x = if mem x c then Some i else aget m x.
Proof.
  induction c as [|a r IH]; intros m x; simpl; [reflexivity|].
  rewrite IH. destruct (Nat.eq_dec a x) as [->|Hn].
  - rewrite Nat.eqb_refl. simpl. rewrite aget_aset_eq. destruct (mem x r); reflexivity.
  - assert (E : (x =? a) = false) by (apply Nat.eqb_neq; congruence). rewrite E. simpl.
    rewrite aget_aset_neq by exact Hn. reflexivity.
Qed.

Lemma comp_map_spec : forall cs i0 m x i,
  NoDup (concat cs) ->
  (aget (comp_map i0 cs m) x = Some i <->
   (exists k c, nth_error cs k = Some c /\ In x c /\ i = i0 + k) \/ (~ In x (concat cs) /\ aget m x = Some i)).
Proof.
  induction cs as [|c r IH]; intros i0 m x i Hnd; simpl.
  - split.
    + intros H. right. split; [tauto | exact H].
    + intros [[k [c [H _]]] | [_ H]]; [destruct k; discriminate | exact H].
  - simpl in Hnd. destruct (NoDup_app_r c (concat r) Hnd) as [Hr Hdisj].
    rewrite (IH (S i0) _ x i Hr), fold_aset_get. split.
    + intros [[k [c' [H1 [H2 H3]]]] | [H1 H2]].
      * left. exists (S k), c'. simpl. repeat split; try assumption. lia.
      * destruct (mem x c) eqn:E.
        -- apply mem_In in E. left. exists 0, c. simpl. repeat split; try assumption.
           inversion H2. lia.
        -- apply mem_false in E. right. split; [|exact H2]. intros H. apply in_app_or in H. tauto.
    + intros [[k [c' [H1 [H2 H3]]]] | [H1 H2]].
      * destruct k as [|k]; simpl in H1.
        -- inversion H1; subst c'. right. split; [apply Hdisj; exact H2|].
           apply mem_In in H2. rewrite H2. f_equal. lia.
        -- left. exists k, c'. repeat split; try assumption. lia.
      * right. assert (Hc : ~ In x c) by (intros H; apply H1; apply in_or_app; left; exact H).
        split; [intros H; apply H1; apply in_or_app; right; exact H|].
        apply mem_false in Hc. rewrite Hc. exact H2.
Qed.

Lemma n2c_spec (cs : list (list nat)) (x i : nat) :
  NoDup (concat cs) ->
  (aget (comp_map 0 cs []) x = Some i <-> exists c, nth_error cs i = Some c /\ In x c).
Proof.
  intros Hnd. rewrite (comp_map_spec cs 0 [] x i Hnd). simpl. split.
  - intros [[k [c [H1 [H2 H3]]]] | [_ H]]; [|discriminate]. subst i. exists c. tauto.
  - intros [c [H1 H2]]. left. exists i, c. tauto.
Qed.

Lemma n2c_In (cs : list (list nat)) x i c :
  NoDup (concat cs) -> nth_error cs i = Some c -> In x c -> aget (comp_map 0 cs []) x = Some i.
Proof. intros Hnd Hi Hx. apply n2c_spec; [exact Hnd | exists c; split; assumption]. Qed.

Lemma set_add_In x l y : In y (set_add x l) <-> y = x \/ In y l.
Proof.
  unfold set_add. destruct (mem x l) eqn:E.
  - apply mem_In in E. split; [auto | intros [-> | H]; assumption].
  - rewrite in_app_iff. simpl. split; intros H.
    + destruct H as [H | [H | []]]; auto.
    + destruct H as [H | H]; auto.
Qed.

Lemma ex_In_cons {A} (P : A -> Prop) a r : (exists w, In w (a :: r) /\ P w) <-> P a \/ exists w, In w r /\ P w.
Proof.
  split.
  - intros [w [[<- | H] Hp]]; [left; exact Hp | right; exists w; auto].
  - intros [H | [w [H Hp]]]; [exists a | exists w]; simpl; auto.
Qed.

(* one neighbour a adds its component wc to the row of vc, unless wc = vc or a has no component *)
Lemma cond_inner_spec n2c vc ws : forall e i j,
  In j (agetd [] (cond_inner n2c vc ws e) i) <->
  In j (agetd [] e i) \/ (i = vc /\ vc <> j /\ exists w, In w ws /\ aget n2c w = Some j).
Proof.
  induction ws as [|a r IH]; intros e i j; cbn [cond_inner].
  - split; [auto | intros [H | [_ [_ [w [[] _]]]]]; exact H].
  - rewrite ex_In_cons. destruct (aget n2c a) as [wc|] eqn:Ea; [destruct (Nat.eqb_spec vc wc) as [<- | E]|]; rewrite IH.
    + apply or_iff_compat_l, and_iff_compat_l. split; intros [Hj H]; split; auto.
      destruct H as [H | H]; [congruence | exact H].
    + destruct (Nat.eq_dec i vc) as [-> | Hn].
      * rewrite agetd_aset_eq, set_add_In. split.
        (* each case is the matching disjunct on the other side; j = wc is the neighbour a itself *)
        -- intros [[-> | H] | (_ & Hj & H)]; eauto 8.
        -- intros [H | (_ & Hj & [[= ->] | H])]; auto 8.
      * rewrite agetd_aset_neq by congruence. split; intros [H | [H _]]; auto; contradiction.
    + apply or_iff_compat_l, and_iff_compat_l, and_iff_compat_l.
      split; [auto | intros [H | H]; [discriminate | exact H]].
Qed.

Lemma cond_outer_spec g n2c vs : forall e,
  (forall v, In v vs -> aget n2c v <> None) ->
  exists e', cond_outer g n2c vs e = Some e' /\
    forall i j, In j (agetd [] e' i) <->
      In j (agetd [] e i) \/
      (i <> j /\ exists v, In v vs /\ aget n2c v = Some i /\ exists w, In w (nbr g v) /\ aget n2c w = Some j).
Proof.
  induction vs as [|a r IH]; intros e Hk; cbn [cond_outer].
  - exists e. split; [reflexivity|]. intros i j. split; [auto | intros [H | [_ [v [[] _]]]]; exact H].
  - destruct (aget n2c a) as [vc|] eqn:Ea; [|exfalso; apply (Hk a); [left; reflexivity | exact Ea]].
    destruct (IH (cond_inner n2c vc (nbr g a) e)) as [e' [E1 E2]].
    { intros v Hv. apply Hk. right. exact Hv. }
    exists e'. split; [exact E1|]. intros i j. rewrite E2, cond_inner_spec, ex_In_cons, Ea.
    split.
    (* each case is the matching disjunct on the other side; i = vc is the node a itself *)
    + intros [[H | (-> & Hj & H)] | (Hij & H)]; auto 8.
    + intros [H | (Hij & [([= ->] & H) | H])]; auto 8.
Qed.

Lemma nth_error_map_seq {A} (f : nat -> A) n i :
  nth_error (map f (seq 0 n)) i = if i <? n then Some (f i) else None.
Proof.
  destruct (i <? n) eqn:E.
  - apply Nat.ltb_lt in E. rewrite nth_error_map.
    rewrite (nth_error_nth' (seq 0 n) 0) by (rewrite seq_length; exact E).
    rewrite seq_nth by exact E. reflexivity.
  - apply Nat.ltb_ge in E. apply nth_error_None. rewrite map_length, seq_length. exact E.
Qed.

Section Condense.
  Variable g : graph.
  Variable nodes : list nat.
  Variable cs : list (list nat).
  Hypothesis Hscc : scc g nodes = Some cs.
  Hypothesis Hpart : is_partition nodes cs.

  Lemma comp_in_nodes i ci x : nth_error cs i = Some ci -> In x ci -> In x nodes.
  Proof.
    intros Hi Hx. destruct Hpart as [_ [_ Hcov]]. apply Hcov. apply in_concat.
    exists ci. split; [eapply nth_error_In; exact Hi | exact Hx].
  Qed.

  Lemma condense_edges :
    exists succs, condense g nodes = Some (cs, succs) /\ cond_edges_spec g nodes cs succs.
  Proof.
    destruct Hpart as [Hne [Hnd Hcov]].
    unfold condense. rewrite Hscc.
    destruct (cond_outer_spec g (comp_map 0 cs []) nodes []) as [e [E1 E2]].
    { intros v Hv. apply Hcov in Hv. apply in_concat in Hv. destruct Hv as [c [Hc Hvc]].
      apply In_nth_error in Hc. destruct Hc as [i Hi]. rewrite (n2c_In cs v i c Hnd Hi Hvc). discriminate. }
    rewrite E1. eexists. split; [reflexivity|].
    split; [rewrite map_length, seq_length; reflexivity|].
    intros i j. unfold cedge. rewrite nth_error_map_seq. split.
    - intros [l [Hl Hj]]. destruct (i <? length cs) eqn:Ei; [|discriminate].
      inversion Hl; subst l. apply E2 in Hj. destruct Hj as [[] | [Hij [v [Hv [Hvi [w [Hw Hwj]]]]]]].
      split; [exact Hij|].
      apply n2c_spec in Hvi; [|exact Hnd]. apply n2c_spec in Hwj; [|exact Hnd].
      destruct Hvi as [ci [Hci Hvci]]. destruct Hwj as [cj [Hcj Hwcj]].
      exists ci, cj, v, w. split; [exact Hci|]. split; [exact Hcj|]. split; [exact Hvci|]. split; [exact Hwcj|].
      split; [exact Hv|]. split; [exact (comp_in_nodes j cj w Hcj Hwcj) | exact Hw].
    - intros [Hij [ci [cj [u [w [Hci [Hcj [Hu [Hw [He1 [He2 He3]]]]]]]]]]].
      assert (Hi : i < length cs) by (apply nth_error_Some; congruence).
      apply Nat.ltb_lt in Hi. rewrite Hi. eexists. split; [reflexivity|].
      apply E2. right. split; [exact Hij|]. exists u. split; [exact He1|]. split; [exact (n2c_In cs u i ci Hnd Hci Hu)|].
      exists w. split; [exact He3 | exact (n2c_In cs w j cj Hnd Hcj Hw)].
  Qed.

  (* an edge leaving a component enters the same or an earlier one (what Tarjan's order gives): the condensed
     edges lead to strictly smaller indices, so there is no closed walk *)
  Hypothesis Hclosed : forall i ci x w, nth_error cs i = Some ci -> In x ci -> edge g nodes x w ->
                         exists j cj, j <= i /\ nth_error cs j = Some cj /\ In w cj.

  Variable succs : list (list nat).
  Hypothesis Hedges : cond_edges_spec g nodes cs succs.

  Lemma cedge_down i j : cedge succs i j -> j < i.
  Proof.
    intros H. apply (proj2 Hedges) in H. destruct H as [Hij [ci [cj [u [w [Hci [Hcj [Hu [Hw He]]]]]]]]].
    destruct (Hclosed i ci u w Hci Hu He) as [j' [cj' [Hle [Hcj' Hw']]]].
    assert (j = j') by (apply (comp_unique cs j j' cj cj' w); try assumption; apply Hpart). lia.
  Qed.

  Lemma condense_acyclic : cond_acyclic succs.
  Proof.
    assert (G : forall a b, cpath1 succs a b -> b < a).
    { intros a b Hp. induction Hp as [a b He | a b c He _ IH]; apply cedge_down in He; lia. }
    intros i Hp. specialize (G i i Hp). lia.
  Qed.
End Condense.
