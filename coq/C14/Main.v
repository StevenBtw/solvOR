(* C14: the forms of the theorems that Props/C14.v and C12 use (boolean-checkable hypotheses, _edges variants). *)
From Coq Require Import List.
From SV Require Import C14.Scc C14.SccSpec C14.SccLemmas C14.TopoProofs C14.TarjanProofs C14.CondenseProofs
     C14.SccSpecProofs.
Import ListNotations.

(* topological_sort, for duplicate-free node lists: never out of fuel (the model always returns Some _), and both
   directions in the form of the property text *)
Lemma topo_spec_holds g nodes :
  nodupb nodes = true -> exists out, topological_sort g nodes = Some out /\ topo_spec g nodes out /\
                                     (out = None <-> has_cycle g nodes).
Proof. intros H. apply topological_sort_spec, nodupb_NoDup, H. Qed.

(* condense; acyclicity follows from the order of the components, the hypothesis on the classes is not used *)
Lemma condense_correct g nodes cs :
  scc g nodes = Some cs -> scc_classes g nodes cs ->
  exists succs, condense g nodes = Some (cs, succs) /\ cond_spec g nodes (cs, succs).
Proof.
  intros Hs _. destruct (scc_partition g nodes) as [cs' [H1 Hpart]]. rewrite Hs in H1. injection H1 as <-.
  destruct (condense_edges g nodes cs Hs Hpart) as [succs [E1 E2]]. exists succs. split; [exact E1|].
  split; [exact E2 | exact (condense_acyclic g nodes cs Hpart (scc_closed g nodes cs Hs) succs E2)].
Qed.

Lemma topo_edges_spec n edges :
  exists out, topo_edges n edges = Some out /\ topo_spec (graph_of_edges n edges) (seq 0 n) out /\
              (out = None <-> has_cycle (graph_of_edges n edges) (seq 0 n)).
Proof. apply topological_sort_spec, seq_NoDup. Qed.

Lemma scc_components_strongly_connected_thm g nodes cs :
  scc g nodes = Some cs -> forall x y, same_comp cs x y -> mutual g nodes x y.
Proof. apply scc_components_strongly_connected. Qed.

Lemma scc_spec_holds g nodes : exists cs, scc g nodes = Some cs /\ scc_spec g nodes cs.
Proof.
  destruct (scc_partition g nodes) as [cs [H1 H2]]. exists cs. split; [exact H1|].
  split; [exact H2|]. split; [apply scc_classes_holds; exact H1 | apply scc_sinks_first; exact H1].
Qed.

Lemma scc_edges_spec n edges :
  exists cs, scc_edges n edges = Some cs /\ scc_spec (graph_of_edges n edges) (seq 0 n) cs.
Proof. apply scc_spec_holds. Qed.

Lemma scc_check_certifies g nodes cs :
  scc_check g nodes cs = true -> is_partition nodes cs /\ scc_classes g nodes cs /\ sinks_first g nodes cs.
Proof. apply scc_check_sound. Qed.
