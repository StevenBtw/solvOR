(* Kahn's algorithm (model [topological_sort]): the loop invariant and termination within the fuel. *)
From Coq Require Import List Arith ZArith Bool Lia.
From SV Require Import C14.Scc C14.SccSpec C14.SccLemmas.
Import ListNotations.

Definition cnt (l : list nat) (w : nat) : Z := Z.of_nat (count_occ Nat.eq_dec l w).
Definition sumz (l : list Z) : Z := fold_right Z.add 0%Z l.

Lemma cnt_nil w : cnt [] w = 0%Z.
Proof. reflexivity. Qed.

Lemma cnt_cons x l w : cnt (x :: l) w = ((if (x =? w)%nat then 1 else 0) + cnt l w)%Z.
Proof.
  unfold cnt. simpl. destruct (Nat.eq_dec x w) as [->|Hn].
  - rewrite Nat.eqb_refl. lia.
  - apply Nat.eqb_neq in Hn. rewrite Hn. lia.
Qed.

Lemma cnt_nonneg l w : (0 <= cnt l w)%Z.
Proof. unfold cnt. lia. Qed.

Lemma cnt_app l l' w : cnt (l ++ l') w = (cnt l w + cnt l' w)%Z.
Proof. unfold cnt. rewrite count_occ_app. lia. Qed.

Lemma cnt_pos_In l w : (0 < cnt l w)%Z <-> In w l.
Proof.
  unfold cnt. rewrite (count_occ_In Nat.eq_dec l w). lia.
Qed.

Lemma sumz_nonneg {A} (f : A -> Z) l : (forall x, In x l -> (0 <= f x)%Z) -> (0 <= sumz (map f l))%Z.
Proof.
  induction l as [|a r IH]; simpl; intros H; [lia|].
  assert (0 <= f a)%Z by (apply H; left; reflexivity).
  assert (0 <= sumz (map f r))%Z by (apply IH; intros x Hx; apply H; right; exact Hx). lia.
Qed.

Lemma sumz_ge_term {A} (f : A -> Z) l u :
  (forall x, In x l -> (0 <= f x)%Z) -> In u l -> (f u <= sumz (map f l))%Z.
Proof.
  induction l as [|a r IH]; simpl; intros H Hu; [contradiction|].
  assert (Ha : (0 <= f a)%Z) by (apply H; left; reflexivity).
  assert (Hr : forall x, In x r -> (0 <= f x)%Z) by (intros x Hx; apply H; right; exact Hx).
  pose proof (sumz_nonneg f r Hr). destruct Hu as [-> | Hu]; [lia|].
  specialize (IH Hr Hu). lia.
Qed.

Lemma sumz_nonzero_ex {A} (f : A -> Z) l : sumz (map f l) <> 0%Z -> exists u, In u l /\ f u <> 0%Z.
Proof.
  induction l as [|a r IH]; simpl; intros H; [contradiction H; reflexivity|].
  destruct (Z.eq_dec (f a) 0) as [E | E].
  - rewrite E in H. destruct IH as [u [Hu Hf]]; [lia|]. exists u. split; [right; exact Hu | exact Hf].
  - exists a. split; [left; reflexivity | exact E].
Qed.

(* the in-set adjacency the code builds *)
Definition adjf (g : graph) (nodes : list nat) (v : nat) : list nat :=
  filter (fun w => mem w nodes) (nbr g v).

Lemma adjf_edge g nodes u w : In u nodes -> (In w (adjf g nodes u) <-> edge g nodes u w).
Proof.
  intros Hu. unfold adjf, edge. rewrite filter_In, mem_In. tauto.
Qed.

Lemma build_inner_spec nodes v ws : forall adj deg adj' deg',
  build_inner nodes v ws adj deg = (adj', deg') ->
  agetd [] adj' v = agetd [] adj v ++ filter (fun w => mem w nodes) ws /\
  (forall u, u <> v -> agetd [] adj' u = agetd [] adj u) /\
  (forall w, zget deg' w = (zget deg w + cnt (filter (fun w => mem w nodes) ws) w)%Z).
Proof.
  induction ws as [|a r IH]; intros adj deg adj' deg' H; simpl in H.
  - inversion H; subst. rewrite app_nil_r. repeat split; intros; try reflexivity. rewrite cnt_nil. lia.
  - simpl. destruct (mem a nodes) eqn:E.
    + apply IH in H. destruct H as (H1 & H2 & H3). repeat split.
      * rewrite H1, agetd_aset_eq, <- app_assoc. reflexivity.
      * intros u Hu. rewrite H2 by exact Hu. apply agetd_aset_neq. congruence.
      * intros w. rewrite H3, cnt_cons. unfold zget. rewrite agetd_aset. destruct (Nat.eqb_spec a w) as [<- | _]; lia.
    + apply IH in H. exact H.
Qed.

Lemma build_outer_spec g nodes vs : NoDup vs -> forall adj deg adj' deg',
  build_outer g nodes vs adj deg = (adj', deg') ->
  (forall v, agetd [] adj' v = if mem v vs then agetd [] adj v ++ adjf g nodes v else agetd [] adj v) /\
  (forall w, zget deg' w = (zget deg w + sumz (map (fun v => cnt (adjf g nodes v) w) vs))%Z).
Proof.
  intros Hnd. induction Hnd as [|a r Hnin Hnd IH]; intros adj deg adj' deg' H; simpl in H.
  - inversion H; subst. split; intros; simpl; [reflexivity | lia].
  - destruct (build_inner nodes a (nbr g a) adj deg) as [adj1 deg1] eqn:E1.
    apply build_inner_spec in E1. destruct E1 as (A1 & A2 & A3).
    apply IH in H. destruct H as [B1 B2]. split.
    + intros v. rewrite B1. simpl. destruct (Nat.eq_dec a v) as [->|Hn].
      * rewrite Nat.eqb_refl. simpl. apply mem_false in Hnin. rewrite Hnin. exact A1.
      * assert (Hn' : (v =? a) = false) by (apply Nat.eqb_neq; congruence).
        rewrite Hn'. simpl. rewrite A2 by congruence. reflexivity.
    + intros w. rewrite B2, A3. simpl. unfold adjf. lia.
Qed.

(* the in-degree of w that remains once the nodes of R are removed: in-set edges into w from nodes outside R,
   with multiplicity *)
Definition indeg_rem g nodes (R : list nat) (w : nat) : Z :=
  sumz (map (fun v => if mem v R then 0%Z else cnt (adjf g nodes v) w) nodes).

Lemma indeg_rem_term_nonneg g nodes R w v :
  (0 <= (fun v => if mem v R then 0%Z else cnt (adjf g nodes v) w) v)%Z.
Proof. simpl. destruct (mem v R); [lia | apply cnt_nonneg]. Qed.

Lemma indeg_rem_ge g nodes R w u :
  In u nodes -> ~ In u R -> (cnt (adjf g nodes u) w <= indeg_rem g nodes R w)%Z.
Proof.
  intros Hu Hn. unfold indeg_rem.
  pose proof (sumz_ge_term (fun v => if mem v R then 0%Z else cnt (adjf g nodes v) w) nodes u
                (fun x _ => indeg_rem_term_nonneg g nodes R w x) Hu) as H.
  simpl in H. apply mem_false in Hn. rewrite Hn in H. exact H.
Qed.

Lemma indeg_rem_nonneg g nodes R w : (0 <= indeg_rem g nodes R w)%Z.
Proof. apply sumz_nonneg. intros x _. apply indeg_rem_term_nonneg. Qed.

Lemma indeg_rem_nonzero_ex g nodes R w :
  indeg_rem g nodes R w <> 0%Z -> exists u, In u nodes /\ ~ In u R /\ In w (adjf g nodes u).
Proof.
  intros H. apply sumz_nonzero_ex in H. destruct H as [u [Hu Hf]].
  exists u. destruct (mem u R) eqn:E; [contradiction Hf; reflexivity|].
  apply mem_false in E. repeat split; try assumption.
  apply cnt_pos_In. pose proof (cnt_nonneg (adjf g nodes u) w). lia.
Qed.

Lemma mem_app_single x R v : mem x (R ++ [v]) = mem x R || (x =? v).
Proof. unfold mem. rewrite existsb_app. simpl. rewrite orb_false_r. reflexivity. Qed.

Lemma indeg_sum_snoc g nodes R v w ns :
  NoDup ns -> ~ In v R ->
  sumz (map (fun x => if mem x (R ++ [v]) then 0%Z else cnt (adjf g nodes x) w) ns)
  = (sumz (map (fun x => if mem x R then 0%Z else cnt (adjf g nodes x) w) ns)
     - (if mem v ns then cnt (adjf g nodes v) w else 0))%Z.
Proof.
  intros Hnd HvR. induction Hnd as [|a r Hnin Hnd IH]; simpl; [lia|].
  rewrite IH. rewrite mem_app_single.
  destruct (Nat.eq_dec a v) as [->|Hn].
  - rewrite Nat.eqb_refl. simpl. apply mem_false in HvR. rewrite HvR. simpl.
    apply mem_false in Hnin. rewrite Hnin. lia.
  - assert (E1 : (a =? v) = false) by (apply Nat.eqb_neq; exact Hn).
    assert (E2 : (v =? a) = false) by (apply Nat.eqb_neq; congruence).
    rewrite E1, E2, orb_false_r. simpl. lia.
Qed.

Lemma indeg_rem_snoc g nodes R v w :
  NoDup nodes -> In v nodes -> ~ In v R ->
  indeg_rem g nodes (R ++ [v]) w = (indeg_rem g nodes R w - cnt (adjf g nodes v) w)%Z.
Proof.
  intros Hnd Hv HvR. unfold indeg_rem. rewrite indeg_sum_snoc by assumption.
  apply mem_In in Hv. rewrite Hv. reflexivity.
Qed.

(* w joins the queue iff its in-degree reaches 0 during the sweep *)
Lemma relax_spec ws : forall deg q deg' q',
  relax ws deg q = (deg', q') ->
  (forall w, zget deg' w = (zget deg w - cnt ws w)%Z) /\
  exists added, q' = q ++ added /\ NoDup added /\ forall w, In w added <-> (1 <= zget deg w <= cnt ws w)%Z.
Proof.
  induction ws as [|a r IH]; intros deg q deg' q' H; simpl in H.
  - inversion H; subst. split; [intros; rewrite cnt_nil; lia|].
    exists []. rewrite app_nil_r. split; [reflexivity|]. split; [constructor|].
    intros w. rewrite cnt_nil. simpl. lia.
  - set (d := (zget deg a - 1)%Z) in *.
    assert (Hdg : forall w, zget (aset deg a d) w = if a =? w then d else zget deg w) by (intros w; apply agetd_aset).
    destruct (d =? 0)%Z eqn:Ed; [apply Z.eqb_eq in Ed | apply Z.eqb_neq in Ed];
      apply IH in H; destruct H as [H1 [added [H2 [H3 H4]]]];
      (split; [intros w; rewrite H1, Hdg, cnt_cons; destruct (Nat.eqb_spec a w) as [<- | _]; unfold d; lia|]).
    + exists (a :: added). split; [rewrite H2, <- app_assoc; reflexivity|]. split.
      * constructor; [|exact H3]. intros Hin. apply H4 in Hin. rewrite Hdg, Nat.eqb_refl in Hin. lia.
      * intros w. pose proof (cnt_nonneg r w). simpl. rewrite H4, Hdg, cnt_cons.
        destruct (Nat.eqb_spec a w) as [<- | Hn]; unfold d in Ed; lia.
    + exists added. split; [exact H2|]. split; [exact H3|].
      intros w. pose proof (cnt_nonneg r w). rewrite H4, Hdg, cnt_cons.
      destruct (Nat.eqb_spec a w) as [<- | Hn]; unfold d in Ed; lia.
Qed.

(* result = the nodes popped so far, in order; deg = their remaining in-degrees; a node is popped or queued
   exactly when that degree is 0; every predecessor of a popped node was popped before it *)
Record kinv g nodes (deg : list (nat * Z)) (queue result : list nat) : Prop := {
  ki_nodup : NoDup (result ++ queue);
  ki_incl : incl (result ++ queue) nodes;
  ki_deg : forall w, zget deg w = indeg_rem g nodes result w;
  ki_zero : forall w, In w nodes -> (In w (result ++ queue) <-> zget deg w = 0%Z);
  ki_fwd : forall u w, In u nodes -> In w result -> In w (adjf g nodes u) ->
                       In u result /\ pos u result < pos w result
}.

Lemma kinv_step g nodes deg v q result deg' q' :
  NoDup nodes ->
  kinv g nodes deg (v :: q) result ->
  relax (adjf g nodes v) deg q = (deg', q') ->
  kinv g nodes deg' q' (result ++ [v]).
Proof.
  intros Hnd [I1 I2 I3 I4 I5] Hr.
  apply relax_spec in Hr. destruct Hr as [R1 [added [-> [R3 R4]]]].
  assert (Hv : In v nodes) by (apply I2; apply in_or_app; right; left; reflexivity).
  assert (HvR : ~ In v result).
  { apply NoDup_remove_2 in I1. intros H. apply I1. apply in_or_app. left. exact H. }
  assert (Hge : forall w, (cnt (adjf g nodes v) w <= zget deg w)%Z).
  { intros w. rewrite I3. apply indeg_rem_ge; assumption. }
  assert (Hadd_nodes : forall w, In w added -> In w nodes).
  { intros w Hw. apply R4 in Hw. assert (Hp : In w (adjf g nodes v)) by (apply cnt_pos_In; lia).
    apply filter_In in Hp. apply mem_In, Hp. }
  assert (Eq : (result ++ [v]) ++ q ++ added = (result ++ v :: q) ++ added) by (rewrite <- !app_assoc; reflexivity).
  constructor; rewrite ?Eq.
  - apply NoDup_app_intro; [exact I1 | exact R3|].
    intros w Hw Ha. pose proof (Hadd_nodes w Ha) as Hwn. apply R4 in Ha. apply (I4 w Hwn) in Hw. lia.
  - intros w Hw. apply in_app_or in Hw. destruct Hw as [Hw | Hw]; [apply I2 | apply Hadd_nodes]; exact Hw.
  - intros w. rewrite R1, I3. symmetry. apply indeg_rem_snoc; assumption.
  - intros w Hw. rewrite R1, in_app_iff, (I4 w Hw), R4.
    pose proof (Hge w). pose proof (cnt_nonneg (adjf g nodes v) w). lia.
  - intros u w Hu Hw Hadj. apply in_app_or in Hw. destruct Hw as [Hw | [<- | []]].
    + destruct (I5 u w Hu Hw Hadj) as [H1 H2]. split; [apply in_or_app; left; exact H1|].
      rewrite !pos_app_in by assumption. exact H2.
    + assert (HuR : In u result).
      { destruct (in_dec Nat.eq_dec u result) as [H | H]; [exact H | exfalso].
        assert (Hz : zget deg v = 0%Z).
        { apply I4; [exact Hv | apply in_or_app; right; left; reflexivity]. }
        pose proof (indeg_rem_ge g nodes result v u Hu H) as Hle. rewrite <- I3, Hz in Hle.
        apply cnt_pos_In in Hadj. lia. }
      split; [apply in_or_app; left; exact HuR|].
      rewrite pos_app_in by exact HuR. rewrite pos_app_notin by exact HvR. simpl.
      rewrite Nat.eqb_refl. pose proof (pos_lt_length u result HuR). lia.
Qed.

Lemma kahn_loop_inv g nodes adj :
  NoDup nodes -> (forall v, In v nodes -> agetd [] adj v = adjf g nodes v) ->
  forall fuel deg queue result,
    kinv g nodes deg queue result -> length nodes < fuel + length result ->
    exists res deg', kahn_loop fuel adj deg queue result = Some res /\ kinv g nodes deg' [] res.
Proof.
  intros Hnd Hadj. induction fuel as [|f IH]; intros deg queue result Hinv Hlen; destruct queue as [|v q].
  1,3: exists result, deg; split; [reflexivity | exact Hinv].
  - (* the work list and the result are duplicate free and within the nodes: the fuel cannot be used up *)
    exfalso. destruct Hinv as [I1 I2 _ _ _].
    pose proof (NoDup_incl_length I1 I2) as Hl. rewrite app_length in Hl. simpl in Hl, Hlen. lia.
  - simpl. assert (Hv : In v nodes).
    { apply (ki_incl _ _ _ _ _ Hinv). apply in_or_app. right. left. reflexivity. }
    rewrite (Hadj v Hv).
    destruct (relax (adjf g nodes v) deg q) as [deg' q'] eqn:Er.
    apply IH; [eapply kinv_step; eassumption | rewrite app_length; simpl; lia].
Qed.

Lemma kahn_result_inv g nodes :
  NoDup nodes -> exists res deg, kahn_result g nodes = Some res /\ kinv g nodes deg [] res.
Proof.
  intros Hnd. unfold kahn_result.
  destruct (build_outer g nodes nodes (init_map [] nodes) (init_map 0%Z nodes)) as [adj deg] eqn:Eb.
  apply (build_outer_spec g nodes nodes Hnd) in Eb. destruct Eb as [B1 B2].
  assert (Hadj : forall v, In v nodes -> agetd [] adj v = adjf g nodes v).
  { intros v Hv. rewrite B1. apply mem_In in Hv. rewrite Hv. rewrite agetd_init_map. reflexivity. }
  assert (Hdeg : forall w, zget deg w = indeg_rem g nodes [] w).
  { intros w. rewrite B2. unfold zget. rewrite agetd_init_map. unfold indeg_rem. simpl. reflexivity. }
  apply (kahn_loop_inv g nodes adj Hnd Hadj).
  - constructor.
    + simpl. apply NoDup_filter. exact Hnd.
    + simpl. intros w Hw. apply filter_In in Hw. tauto.
    + exact Hdeg.
    + intros w Hw. simpl. rewrite filter_In, Z.eqb_eq. tauto.
    + intros u w _ [].
  - unfold kahn_fuel. simpl. lia.
Qed.
