(* Generic lemmas used by the C14 proofs: membership and nested forallb, association lists, positions, duplicates and
   inclusion, paths. *)
From Coq Require Import List Arith Bool Lia.
From SV Require Import C14.Scc C14.SccSpec.
Import ListNotations.

Lemma mem_In x l : mem x l = true <-> In x l.
Proof.
  unfold mem. rewrite existsb_exists. split.
  - intros [y [Hy He]]. apply Nat.eqb_eq in He. subst. exact Hy.
  - intros H. exists x. split; [exact H | apply Nat.eqb_refl].
Qed.

Lemma mem_false x l : mem x l = false <-> ~ In x l.
Proof.
  split.
  - intros H Hin. apply mem_In in Hin. congruence.
  - intros H. destruct (mem x l) eqn:E; [|reflexivity]. apply mem_In in E. contradiction.
Qed.

Lemma nodupb_NoDup l : nodupb l = true <-> NoDup l.
Proof.
  induction l as [|x r IH]; simpl.
  - split; [constructor | reflexivity].
  - rewrite andb_true_iff, negb_true_iff, mem_false, IH. split.
    + intros [H1 H2]. constructor; assumption.
    + intros H. inversion H; subst. split; assumption.
Qed.

Lemma inclb_incl a b : inclb a b = true <-> incl a b.
Proof.
  unfold inclb. rewrite forallb_forall. split.
  - intros H x Hx. apply mem_In. apply H. exact Hx.
  - intros H x Hx. apply mem_In. apply H. exact Hx.
Qed.

Lemma seteqb_iff a b : seteqb a b = true <-> (forall x, In x a <-> In x b).
Proof.
  unfold seteqb. rewrite andb_true_iff, !inclb_incl. split.
  - intros [H1 H2] x. split; [apply H1 | apply H2].
  - intros H. split; intros x Hx; apply H; exact Hx.
Qed.

Lemma forallb2_In {A B} (f : A -> B -> bool) (la : list A) (lb : A -> list B) :
  forallb (fun a => forallb (f a) (lb a)) la = true -> forall a b, In a la -> In b (lb a) -> f a b = true.
Proof.
  intros H a b Ha Hb. rewrite forallb_forall in H. specialize (H a Ha). rewrite forallb_forall in H. exact (H b Hb).
Qed.

Section AssocLemmas.
  Context {A : Type}.
  Implicit Types m : list (nat * A).

  Lemma aget_aset m k k' a : aget (aset m k a) k' = if k =? k' then Some a else aget m k'.
  Proof.
    induction m as [|[k0 a0] r IH]; simpl; [reflexivity|].
    destruct (Nat.eqb_spec k0 k) as [-> | Hn]; simpl; [destruct (k =? k'); reflexivity|].
    rewrite IH. destruct (Nat.eqb_spec k k') as [<- | _]; [|reflexivity].
    apply Nat.eqb_neq in Hn. rewrite Hn. reflexivity.
  Qed.

  Lemma aget_aset_eq m k a : aget (aset m k a) k = Some a.
  Proof. rewrite aget_aset, Nat.eqb_refl. reflexivity. Qed.

  Lemma aget_aset_neq m k k' a : k <> k' -> aget (aset m k a) k' = aget m k'.
  Proof. intros Hn. apply Nat.eqb_neq in Hn. rewrite aget_aset, Hn. reflexivity. Qed.

  Lemma agetd_aset d m k k' a : agetd d (aset m k a) k' = if k =? k' then a else agetd d m k'.
  Proof. unfold agetd. rewrite aget_aset. destruct (k =? k'); reflexivity. Qed.

  Lemma agetd_aset_eq d m k a : agetd d (aset m k a) k = a.
  Proof. rewrite agetd_aset, Nat.eqb_refl. reflexivity. Qed.

  Lemma agetd_aset_neq d m k k' a : k <> k' -> agetd d (aset m k a) k' = agetd d m k'.
  Proof. intros Hn. apply Nat.eqb_neq in Hn. rewrite agetd_aset, Hn. reflexivity. Qed.

  Lemma aget_In_keys m k a : aget m k = Some a -> In k (map fst m).
  Proof.
    induction m as [|[k' a'] r IH]; simpl; [discriminate|].
    destruct (k' =? k) eqn:E.
    - apply Nat.eqb_eq in E. intros _. left. exact E.
    - intros H. right. apply IH. exact H.
  Qed.

  Lemma aget_None_keys m k : aget m k = None <-> ~ In k (map fst m).
  Proof.
    induction m as [|[k' a'] r IH]; simpl.
    - split; [intros _ [] | reflexivity].
    - destruct (k' =? k) eqn:E.
      + apply Nat.eqb_eq in E. split; [discriminate | intros H; exfalso; apply H; left; exact E].
      + apply Nat.eqb_neq in E. rewrite IH. split.
        * intros H [H1 | H1]; [contradiction | apply H; exact H1].
        * intros H H1. apply H. right. exact H1.
  Qed.

  Lemma keys_aset m k a x : In x (map fst (aset m k a)) <-> (x = k \/ In x (map fst m)).
  Proof.
    induction m as [|[k' a'] r IH]; simpl.
    - split; intros [H | H]; auto.
    - destruct (k' =? k) eqn:E; simpl.
      + apply Nat.eqb_eq in E. subst k'. split; intros H; [right; exact H|].
        destruct H as [H | H]; [left; symmetry; exact H | exact H].
      + rewrite IH. split; intros H.
        * destruct H as [H | [H | H]]; auto.
        * destruct H as [H | [H | H]]; auto.
  Qed.

  Lemma agetd_init_map (d : A) nodes k : agetd d (init_map d nodes) k = d.
  Proof.
    unfold init_map.
    assert (G : forall m, agetd d m k = d -> agetd d (fold_left (fun m v => aset m v d) nodes m) k = d).
    { induction nodes as [|v r IH]; intros m Hm; simpl; [exact Hm|].
      apply IH. destruct (Nat.eq_dec v k) as [->|Hn].
      - apply agetd_aset_eq.
      - rewrite agetd_aset_neq by exact Hn. exact Hm. }
    apply G. reflexivity.
  Qed.
End AssocLemmas.

Lemma pos_app_in x l l' : In x l -> pos x (l ++ l') = pos x l.
Proof.
  induction l as [|y r IH]; simpl; [intros []|].
  intros H. destruct (y =? x) eqn:E; [reflexivity|].
  f_equal. apply IH. destruct H as [H | H]; [|exact H].
  apply Nat.eqb_neq in E. contradiction.
Qed.

Lemma pos_app_notin x l l' : ~ In x l -> pos x (l ++ l') = length l + pos x l'.
Proof.
  induction l as [|y r IH]; simpl; [reflexivity|].
  intros H. destruct (y =? x) eqn:E.
  - apply Nat.eqb_eq in E. exfalso. apply H. left. exact E.
  - f_equal. apply IH. intros H1. apply H. right. exact H1.
Qed.

Lemma pos_lt_length x l : In x l -> pos x l < length l.
Proof.
  induction l as [|y r IH]; simpl; [intros []|].
  intros H. destruct (y =? x) eqn:E; [lia|].
  apply Nat.eqb_neq in E. destruct H as [H | H]; [contradiction|].
  specialize (IH H). lia.
Qed.

Lemma dup_split (l : list nat) :
  ~ NoDup l -> exists a l1 l2 l3, l = l1 ++ a :: l2 ++ a :: l3.
Proof.
  induction l as [|a r IH]; intros H.
  - exfalso. apply H. constructor.
  - destruct (in_dec Nat.eq_dec a r) as [Hin | Hnin].
    + apply in_split in Hin. destruct Hin as [l2 [l3 ->]].
      exists a, [], l2, l3. reflexivity.
    + assert (Hr : ~ NoDup r) by (intros Hr; apply H; constructor; assumption).
      destruct (IH Hr) as [b [l1 [l2 [l3 ->]]]].
      exists b, (a :: l1), l2, l3. reflexivity.
Qed.

Lemma NoDup_app_r (a b : list nat) : NoDup (a ++ b) -> NoDup b /\ forall x, In x a -> ~ In x b.
Proof.
  induction a as [|y r IH]; simpl; intros H; [split; [exact H | intros x []]|].
  inversion H as [|? ? Hy Hr]; subst. destruct (IH Hr) as [H1 H2]. split; [exact H1|].
  intros x [<- | Hx]; [intros Hb; apply Hy, in_or_app; right; exact Hb | apply H2; exact Hx].
Qed.

Lemma NoDup_app_intro (a b : list nat) :
  NoDup a -> NoDup b -> (forall x, In x a -> ~ In x b) -> NoDup (a ++ b).
Proof.
  intros Ha Hb Hd. induction Ha as [|x a Hx Ha IH]; simpl; [exact Hb|]. constructor.
  - intros Hin. apply in_app_or in Hin. destruct Hin as [Hin | Hin]; [contradiction|].
    apply (Hd x); [left; reflexivity | exact Hin].
  - apply IH. intros w Hw. apply Hd. right. exact Hw.
Qed.

Lemma comp_unique (cs : list (list nat)) i k ci ck (x : nat) :
  NoDup (concat cs) -> nth_error cs i = Some ci -> nth_error cs k = Some ck -> In x ci -> In x ck -> i = k.
Proof.
  revert i k. induction cs as [|c r IH]; intros i k Hnd Hi Hk Hxi Hxk; [destruct i; discriminate|].
  simpl in Hnd. destruct (NoDup_app_r c (concat r) Hnd) as [Hr Hdisj].
  assert (Hin : forall j cj, nth_error r j = Some cj -> In x cj -> In x (concat r)).
  { intros j cj Hj Hx. apply in_concat. exists cj. split; [eapply nth_error_In; exact Hj | exact Hx]. }
  destruct i as [|i], k as [|k]; simpl in Hi, Hk.
  - reflexivity.
  - injection Hi as <-. destruct (Hdisj x Hxi (Hin k ck Hk Hxk)).
  - injection Hk as <-. destruct (Hdisj x Hxk (Hin i ci Hi Hxi)).
  - f_equal. apply (IH i k Hr Hi Hk Hxi Hxk).
Qed.

Lemma incl_or_missing (l l' : list nat) : incl l l' \/ exists x, In x l /\ ~ In x l'.
Proof.
  induction l as [|a r IH]; [left; intros x []|].
  destruct (in_dec Nat.eq_dec a l') as [Ha | Ha]; [|right; exists a; split; [left; reflexivity | exact Ha]].
  destruct IH as [Hi | [x [Hx Hn]]].
  - left. intros x [<- | Hx]; [exact Ha | apply Hi; exact Hx].
  - right. exists x. split; [right; exact Hx | exact Hn].
Qed.

Lemma path1_trans g nodes u v w : path1 g nodes u v -> path1 g nodes v w -> path1 g nodes u w.
Proof.
  intros H1 H2. induction H1 as [u v He | u x v He _ IH].
  - eapply path1_cons; eassumption.
  - eapply path1_cons; [exact He | apply IH; exact H2].
Qed.

Lemma path1_reach g nodes u w : path1 g nodes u w -> reach g nodes u w.
Proof.
  intros H. induction H as [u w He | u v w He _ IH].
  - eapply reach_step; [exact He | apply reach_refl].
  - eapply reach_step; eassumption.
Qed.

Lemma reach_trans g nodes u v w : reach g nodes u v -> reach g nodes v w -> reach g nodes u w.
Proof.
  intros H1 H2. induction H1 as [u | u x v He _ IH]; [exact H2|].
  eapply reach_step; [exact He | apply IH; exact H2].
Qed.

Lemma reach_path1 g nodes u w : reach g nodes u w -> u = w \/ path1 g nodes u w.
Proof.
  intros H. induction H as [u | u v w He _ IH]; [left; reflexivity|].
  right. destruct IH as [-> | IH]; [apply path1_one; exact He | eapply path1_cons; eassumption].
Qed.

Lemma path1_iff g nodes u v : path1 g nodes u v <-> exists w, edge g nodes u w /\ reach g nodes w v.
Proof.
  split.
  - intros H. destruct H as [u v He | u w v He Hp].
    + exists v. split; [exact He | apply reach_refl].
    + exists w. split; [exact He | apply path1_reach; exact Hp].
  - intros [w [He Hr]]. apply reach_path1 in Hr. destruct Hr as [<- | Hp].
    + apply path1_one. exact He.
    + eapply path1_cons; eassumption.
Qed.

Lemma succs_in_edge g nodes u w : In w (succs_in g nodes u) <-> edge g nodes u w.
Proof.
  unfold succs_in, edge. destruct (mem u nodes) eqn:E.
  - apply mem_In in E. rewrite filter_In, mem_In. tauto.
  - apply mem_false in E. simpl. tauto.
Qed.

Lemma edgeb_edge g nodes u w : edgeb g nodes u w = true <-> edge g nodes u w.
Proof. unfold edgeb. rewrite mem_In. apply succs_in_edge. Qed.
