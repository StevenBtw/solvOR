(* Tarjan (model [strongconnect]): the invariant of the state, in three layers (structure, reachability,
   closure under edges), and its preservation by the elementary steps enter / set_low / finish.
   TarjanProofs.v carries it through the recursion. *)
From Coq Require Import List Arith Bool Lia Permutation.
From SV Require Import C14.Scc C14.SccSpec C14.SccLemmas.
Import ListNotations.

Definition keys (s : st) : list nat := map fst (idx s).
Definition ix (s : st) (x : nat) : nat := agetd 0 (idx s) x.
Definition lw (s : st) (x : nat) : nat := agetd 0 (low s) x.

(* indices strictly decrease from the top of the stack to its bottom *)
Fixpoint stk_sorted (f : nat -> nat) (l : list nat) : Prop :=
  match l with
  | [] => True
  | x :: r => (forall y, In y r -> f y < f x) /\ stk_sorted f r
  end.

Lemma stk_sorted_ext f f' l : (forall x, In x l -> f x = f' x) -> stk_sorted f l -> stk_sorted f' l.
Proof.
  induction l as [|a r IH]; simpl; [tauto|].
  intros He [H1 H2]. split.
  - intros y Hy. rewrite <- (He y), <- (He a) by auto. apply H1. exact Hy.
  - apply IH; [intros x Hx; apply He; right; exact Hx | exact H2].
Qed.

Lemma stk_sorted_app f a b :
  stk_sorted f (a ++ b) -> stk_sorted f b /\ forall x y, In x a -> In y b -> f y < f x.
Proof.
  induction a as [|x r IH]; simpl.
  - intros H. split; [exact H | intros x y []].
  - intros [H1 H2]. destruct (IH H2) as [H3 H4]. split; [exact H3|].
    intros x' y [<- | Hx] Hy.
    + apply H1. apply in_or_app. right. exact Hy.
    + apply H4; assumption.
Qed.

Lemma stk_sorted_inj f l x y : stk_sorted f l -> In x l -> In y l -> f x = f y -> x = y.
Proof.
  induction l as [|a r IH]; simpl; [intros _ []|].
  intros [H1 H2] [<- | Hx] [<- | Hy] E; try reflexivity.
  - specialize (H1 y Hy). lia.
  - specialize (H1 x Hx). lia.
  - apply IH; assumption.
Qed.

Record tinv (nodes : list nat) (s : st) : Prop := {
  t_keys : forall x, In x (keys s) <-> In x (stk s) \/ In x (concat (comps s));
  t_nodup : NoDup (stk s ++ concat (comps s));
  t_nonempty : Forall (fun c => c <> []) (comps s);
  t_nodes : forall x, In x (keys s) -> In x nodes;
  t_on : forall x, In x (onstk s) <-> In x (stk s);
  t_sorted : stk_sorted (ix s) (stk s);
  t_ctr : forall x, In x (stk s) -> ix s x < ctr s
}.

(* s' extends s: the stack grew on top by nodes that had no index, old indices are unchanged *)
Record ext (s s' : st) : Prop := {
  e_stk : exists T, stk s' = T ++ stk s;
  e_idx : forall x, In x (keys s) -> aget (idx s') x = aget (idx s) x;
  e_new : forall y, In y (stk s') -> ~ In y (stk s) -> ~ In y (keys s)
}.

Lemma ext_keys s s' x : ext s s' -> In x (keys s) -> In x (keys s').
Proof.
  intros He Hx. pose proof (e_idx _ _ He x Hx) as H.
  destruct (aget (idx s) x) as [a|] eqn:Ha.
  - eapply aget_In_keys. exact H.
  - apply aget_None_keys in Ha. contradiction.
Qed.

Lemma ext_ix s s' x : ext s s' -> In x (keys s) -> ix s' x = ix s x.
Proof. intros He Hx. unfold ix, agetd. rewrite (e_idx _ _ He x Hx). reflexivity. Qed.

Lemma ext_refl s : ext s s.
Proof. constructor; [exists []; reflexivity | reflexivity | intros y H1 H2; contradiction]. Qed.

Lemma ext_trans s1 s2 s3 : ext s1 s2 -> ext s2 s3 -> ext s1 s3.
Proof.
  intros H12 H23. constructor.
  - destruct (e_stk _ _ H12) as [T1 E1]. destruct (e_stk _ _ H23) as [T2 E2].
    exists (T2 ++ T1). rewrite E2, E1, app_assoc. reflexivity.
  - intros x Hx. rewrite (e_idx _ _ H23) by (eapply ext_keys; eassumption).
    apply (e_idx _ _ H12). exact Hx.
  - intros y Hy Hn. destruct (in_dec Nat.eq_dec y (stk s2)) as [H2 | H2].
    + apply (e_new _ _ H12); assumption.
    + intros Hk. apply (e_new _ _ H23 y Hy H2). eapply ext_keys; eassumption.
Qed.

Lemma ext_stk_in s s' x : ext s s' -> In x (stk s) -> In x (stk s').
Proof.
  intros He Hx. destruct (e_stk _ _ He) as [T E]. rewrite E. apply in_or_app. right. exact Hx.
Qed.

Lemma stk_in_keys nodes s x : tinv nodes s -> In x (stk s) -> In x (keys s).
Proof. intros Hi Hx. apply (t_keys _ _ Hi). left. exact Hx. Qed.

Lemma stk_split nodes s T v S0 : tinv nodes s -> stk s = T ++ v :: S0 ->
  (forall y, In y T -> ix s v < ix s y) /\ (forall y, In y S0 -> ix s y < ix s v) /\ ~ In v T.
Proof.
  intros Hi Hstk. pose proof (t_sorted _ _ Hi) as Hs. rewrite Hstk in Hs.
  apply stk_sorted_app in Hs. destruct Hs as [[Hb _] Ha].
  assert (Hab : forall y, In y T -> ix s v < ix s y) by (intros y Hy; apply Ha; [exact Hy | left; reflexivity]).
  split; [exact Hab|]. split; [exact Hb|]. intros H. specialize (Hab v H). lia.
Qed.

Fixpoint remove_all (xs : list nat) (l : list nat) : list nat :=
  match xs with
  | [] => l
  | x :: r => remove_all r (remove Nat.eq_dec x l)
  end.

Lemma remove_all_In xs : forall l y, In y (remove_all xs l) <-> In y l /\ ~ In y xs.
Proof.
  induction xs as [|x r IH]; intros l y; simpl; [tauto|].
  rewrite IH. split.
  - intros [H1 H2]. apply in_remove in H1. destruct H1 as [H1 H3]. split; [exact H1|].
    intros [H | H]; [congruence | contradiction].
  - intros [H1 H2]. split; [apply in_in_remove; [intros -> | exact H1] | intros H]; apply H2; auto.
Qed.

Lemma pop_until_spec v T : forall S0 on acc,
  ~ In v T ->
  pop_until v (T ++ v :: S0) on acc = Some (S0, remove_all (T ++ [v]) on, acc ++ T ++ [v]).
Proof.
  induction T as [|w r IH]; intros S0 on acc Hv; simpl.
  - rewrite Nat.eqb_refl. reflexivity.
  - destruct (w =? v) eqn:E.
    + apply Nat.eqb_eq in E. exfalso. apply Hv. left. exact E.
    + rewrite IH by (intros H; apply Hv; right; exact H). rewrite <- app_assoc. reflexivity.
Qed.

Section Layers.
  Variable g : graph.
  Variable nodes : list nat.
  Notation R := (reach g nodes).

  (* a stack node reaches every stack node entered after it; its low_link is the index of a stack node, not
     entered after it, that it reaches; the popped components are strongly connected *)
  Record rinv (s : st) : Prop := {
    r_up : forall x y, In x (stk s) -> In y (stk s) -> ix s x <= ix s y -> R x y;
    r_low : forall y, In y (stk s) -> lw s y <= ix s y /\ exists z, In z (stk s) /\ ix s z = lw s y /\ R y z;
    r_comp : forall c x y, In c (comps s) -> In x c -> In y c -> R x y
  }.

  (* the neighbours dn of the stack node v have been handled by its loop: they have an index, and low_link[v] is
     at most the index of those still on the stack *)
  Definition done_nbrs (s : st) (v : nat) (dn : list nat) : Prop :=
    forall w, In w dn -> In w nodes -> In w (keys s) /\ (In w (stk s) -> lw s v <= ix s w).

  (* A = the active nodes (the DFS path): every other node on the stack has finished its neighbour loop.
     An edge from a component goes to the same or an EARLIER component. *)
  Record cinv (A : list nat) (s : st) : Prop := {
    c_closed : forall i ci x w, nth_error (comps s) i = Some ci -> In x ci -> edge g nodes x w ->
                 exists j cj, j <= i /\ nth_error (comps s) j = Some cj /\ In w cj;
    c_done : forall x, In x (stk s) -> ~ In x A -> done_nbrs s x (nbr g x)
  }.

  Record inv (A : list nat) (s : st) : Prop := {
    i_t : tinv nodes s;
    i_r : rinv s;
    i_c : cinv A s;
    i_A : incl A (stk s)
  }.

  (* nodes above the active node v: low_link between low_link[v] and their own index (strictly below it) *)
  Definition above_ok (s : st) (v : nat) : Prop :=
    forall y, In y (stk s) -> ix s v < ix s y -> lw s v <= lw s y /\ lw s y < ix s y.

  Lemma done_nbrs_snoc s v dn a :
    done_nbrs s v dn -> (In a nodes -> In a (keys s) /\ (In a (stk s) -> lw s v <= ix s a)) ->
    done_nbrs s v (dn ++ [a]).
  Proof.
    intros H Ha w Hw Hn. apply in_app_or in Hw.
    destruct Hw as [Hw | [<- | []]]; [apply H; assumption | apply Ha; exact Hn].
  Qed.

  (* the state inside the neighbour loop of the active node v; dn = the neighbours already handled *)
  Record linv (A : list nat) (v : nat) (dn : list nat) (s : st) : Prop := {
    l_inv : inv (v :: A) s;
    l_above : above_ok s v;
    l_dn : done_nbrs s v dn
  }.

  (* following low_links from a node above v leads down to v; v reaches the nodes below it *)
  Lemma all_reach_active s v : tinv nodes s -> rinv s -> In v (stk s) -> above_ok s v ->
    forall y, In y (stk s) -> R y v.
  Proof.
    intros Hi Hr Hv Hab.
    assert (G : forall n y, ix s y <= n -> In y (stk s) -> R y v); [|intros y; apply (G (ix s y)); lia].
    induction n as [|n IH]; intros y Hn Hy; destruct (lt_eq_lt_dec (ix s y) (ix s v)) as [[Hlt | E] | Hgt].
    1,4: apply (r_up _ Hr y v Hy Hv); lia.
    1,3: rewrite (stk_sorted_inj (ix s) (stk s) y v (t_sorted _ _ Hi) Hy Hv E); apply reach_refl.
    - lia.
    - destruct (Hab y Hy Hgt) as [_ H2]. destruct (r_low _ Hr y Hy) as [_ [z [Hz1 [Hz2 Hz3]]]].
      apply (reach_trans g nodes y z v); [exact Hz3 | apply IH; [lia | exact Hz1]].
  Qed.

  Lemma set_low_lw_other s v x y : y <> v -> lw (set_low s v x) y = lw s y.
  Proof. intros Hn. unfold lw. simpl. apply agetd_aset_neq. congruence. Qed.

  Lemma set_low_lw_same s v x : lw (set_low s v x) v = x.
  Proof. unfold lw. simpl. apply agetd_aset_eq. Qed.

  Lemma set_low_ext s v x : ext s (set_low s v x).
  Proof. constructor; simpl; [exists []; reflexivity | reflexivity | intros y H1 H2; contradiction]. Qed.

  (* low_link[v] := min(low_link[v], x), where x is the index of a stack node that v reaches: both uses of
     set_low in the neighbour loop have this form *)
  Lemma linv_set_low A s v dn a x :
    inv (v :: A) s ->
    (forall y, In y (stk s) -> ix s v < ix s y -> Nat.min (lw s v) x <= lw s y /\ lw s y < ix s y) ->
    (x < lw s v -> exists z, In z (stk s) /\ ix s z = x /\ R v z) ->
    done_nbrs s v dn -> In a (keys s) -> (In a (stk s) -> x <= ix s a) ->
    linv A v (dn ++ [a]) (set_low s v (Nat.min (lw s v) x)).
  Proof.
    intros [Ht Hr [C1 C2] HA] Hab Hx Hdn Hak Hxa.
    assert (Hv : In v (stk s)) by (apply HA; left; reflexivity).
    pose proof (Nat.le_min_l (lw s v) x) as Hm. set (m := Nat.min (lw s v) x) in *.
    assert (Hz : exists z, In z (stk s) /\ ix s z = m /\ R v z).
    { unfold m. destruct (le_lt_dec (lw s v) x) as [Hle | Hlt].
      - rewrite Nat.min_l by exact Hle. destruct (r_low _ Hr v Hv) as [_ Hz]. exact Hz.
      - rewrite Nat.min_r by lia. apply Hx. exact Hlt. }
    destruct Hz as [z [Hz1 [Hz2 Hz3]]].
    assert (Hlw : forall y, In y (stk s) -> y <> v -> lw (set_low s v m) y = lw s y).
    { intros y _ Hn. apply set_low_lw_other. exact Hn. }
    constructor.
    - destruct Hr as [R1 R2 R3].
      (* only the fields that mention low_link are affected: r_low, c_done *)
      constructor; [destruct Ht; constructor; assumption | constructor | constructor |]; try assumption; simpl.
      + intros y Hy. destruct (Nat.eq_dec y v) as [-> | Hn].
        * rewrite set_low_lw_same. change (ix (set_low s v m) v) with (ix s v).
          split; [destruct (R2 v Hv); lia | exists z; repeat split; assumption].
        * rewrite (Hlw y Hy Hn). apply R2. exact Hy.
      + intros y Hy Hn w Hw Hnw.
        rewrite (Hlw y Hy) by (intros ->; apply Hn; left; reflexivity). exact (C2 y Hy Hn w Hw Hnw).
    - intros y Hy Hlt. change (ix (set_low s v m) v) with (ix s v) in Hlt.
      change (ix (set_low s v m) y) with (ix s y) in *. simpl in Hy.
      rewrite set_low_lw_same, (Hlw y Hy) by (intros ->; lia). apply Hab; assumption.
    - apply done_nbrs_snoc.
      + intros w Hw Hn. destruct (Hdn w Hw Hn) as [H1 H2]. split; [exact H1|].
        intros Hs. rewrite set_low_lw_same. exact (Nat.le_trans _ _ _ Hm (H2 Hs)).
      + intros _. split; [exact Hak|]. intros Hs. rewrite set_low_lw_same.
        exact (Nat.le_trans _ _ _ (Nat.le_min_r (lw s v) x) (Hxa Hs)).
  Qed.

  Lemma enter_ext s v : aget (idx s) v = None -> ext s (enter v s).
  Proof.
    intros Hnone. apply aget_None_keys in Hnone. constructor; simpl.
    - exists [v]. reflexivity.
    - intros x Hx. apply aget_aset_neq. intros ->. contradiction.
    - intros y [<- | Hy] Hn; [exact Hnone | contradiction].
  Qed.

  Lemma enter_inv A s v :
    inv A s -> aget (idx s) v = None -> In v nodes -> (forall x, In x (stk s) -> R x v) ->
    inv (v :: A) (enter v s) /\ above_ok (enter v s) v.
  Proof.
    intros [Ht [R1 R2 R3] [C1 C2] HA] Hnone Hv Hpre. pose proof Ht as [T1 T2 T3 T4 T5 T6 T7].
    assert (Hvk : ~ In v (keys s)) by (apply aget_None_keys; exact Hnone).
    assert (Hsk : forall y, In y (stk s) -> y <> v).
    { intros y Hy ->. apply Hvk. apply T1. left. exact Hy. }
    assert (Hix : forall y, y <> v -> ix (enter v s) y = ix s y).
    { intros y Hy. unfold ix. simpl. apply agetd_aset_neq. congruence. }
    assert (Hlw : forall y, y <> v -> lw (enter v s) y = lw s y).
    { intros y Hy. unfold lw. simpl. apply agetd_aset_neq. congruence. }
    assert (Hixv : ix (enter v s) v = ctr s) by (unfold ix; simpl; apply agetd_aset_eq).
    assert (Hlwv : lw (enter v s) v = ctr s) by (unfold lw; simpl; apply agetd_aset_eq).
    assert (Hkeys : forall x, In x (keys (enter v s)) <-> x = v \/ In x (keys s)).
    { intros x. unfold keys. simpl. apply keys_aset. }
    split.
    - constructor.
      + constructor; simpl.
        * intros x. rewrite Hkeys, T1.
          split; intros H; [destruct H as [-> | [H | H]] | destruct H as [[<- | H] | H]]; auto.
        * constructor; [|exact T2]. intros H. apply Hvk. apply T1. apply in_app_or in H. exact H.
        * exact T3.
        * intros x Hx. apply Hkeys in Hx. destruct Hx as [-> | Hx]; [exact Hv | apply T4; exact Hx].
        * intros x. apply or_iff_compat_l, T5.
        * split.
          -- intros y Hy. rewrite Hixv, (Hix y (Hsk y Hy)). apply T7. exact Hy.
          -- apply (stk_sorted_ext (ix s)); [|exact T6]. intros x Hx. symmetry. apply Hix, Hsk, Hx.
        * intros x [<- | Hx]; [lia|]. rewrite (Hix x (Hsk x Hx)). specialize (T7 x Hx). lia.
      + constructor; simpl.
        * intros x y [<- | Hx] [<- | Hy] Hle.
          -- apply reach_refl.
          -- rewrite Hixv, (Hix y (Hsk y Hy)) in Hle. specialize (T7 y Hy). lia.
          -- apply Hpre. exact Hx.
          -- rewrite (Hix x (Hsk x Hx)), (Hix y (Hsk y Hy)) in Hle. apply R1; assumption.
        * intros y [<- | Hy].
          -- rewrite Hlwv, Hixv. split; [lia|]. exists v. split; [left; reflexivity|].
             split; [exact Hixv | apply reach_refl].
          -- rewrite (Hix y (Hsk y Hy)), (Hlw y (Hsk y Hy)). destruct (R2 y Hy) as [H1 [z [Hz1 [Hz2 Hz3]]]].
             split; [exact H1|]. exists z. split; [right; exact Hz1|].
             split; [rewrite (Hix z (Hsk z Hz1)); exact Hz2 | exact Hz3].
        * exact R3.
      + constructor; simpl.
        * exact C1.
        * intros x [<- | Hx] Hn w Hw Hnw; [exfalso; apply Hn; left; reflexivity|].
          destruct (C2 x Hx (fun H => Hn (or_intror H)) w Hw Hnw) as [Hk Hl].
          assert (Hwv : w <> v) by (intros ->; contradiction).
          split; [apply Hkeys; right; exact Hk|]. intros [Hs | Hs]; [congruence|].
          rewrite (Hlw x (Hsk x Hx)), (Hix w Hwv). exact (Hl Hs).
      + intros x [<- | Hx]; [left; reflexivity | right; apply HA; exact Hx].
    - intros y [<- | Hy] Hlt; [lia|]. rewrite Hixv, (Hix y (Hsk y Hy)) in Hlt. specialize (T7 y Hy). lia.
  Qed.

  (* the state after the component c has been popped, S0 = the rest of the stack *)
  Definition popped (s : st) (c S0 : list nat) : st :=
    mkst (ctr s) (idx s) (low s) S0 (remove_all c (onstk s)) (comps s ++ [c]).

  Lemma finish_eq s v T S0 : stk s = T ++ v :: S0 -> ~ In v T ->
    finish v s = Some (if lw s v =? ix s v then popped s (T ++ [v]) S0 else s).
  Proof.
    intros Hstk HvT. unfold finish. fold (lw s v). fold (ix s v).
    destruct (lw s v =? ix s v); [|reflexivity].
    rewrite Hstk, pop_until_spec by exact HvT. reflexivity.
  Qed.

  Lemma popped_ext s0 s c : ext s0 s -> ext s0 (popped s c (stk s0)).
  Proof.
    intros He. constructor; simpl.
    - exists []. reflexivity.
    - apply (e_idx _ _ He).
    - intros y H1 H2. contradiction.
  Qed.

  Section Pop.
    Variables (s : st) (T : list nat) (v : nat) (S0 : list nat).
    Hypothesis Ht : tinv nodes s.
    Hypothesis Hstk : stk s = T ++ v :: S0.

    Lemma pop_split : forall x, In x (stk s) <-> In x (T ++ [v]) \/ In x S0.
    Proof.
      intros x. rewrite Hstk. replace (T ++ v :: S0) with ((T ++ [v]) ++ S0) by (rewrite <- app_assoc; reflexivity).
      apply in_app_iff.
    Qed.

    Lemma pop_bot : forall x, In x (T ++ [v]) -> ix s v <= ix s x.
    Proof.
      destruct (stk_split nodes s T v S0 Ht Hstk) as [Ha _].
      intros x Hx. apply in_app_or in Hx. destruct Hx as [Hx | [<- | []]]; [specialize (Ha x Hx)|]; lia.
    Qed.

    Lemma pop_disj : forall x, In x (T ++ [v]) -> ~ In x S0.
    Proof.
      destruct (stk_split nodes s T v S0 Ht Hstk) as [_ [Hb _]].
      intros x Hx H0. pose proof (pop_bot x Hx). specialize (Hb x H0). lia.
    Qed.

    Lemma pop_tinv : tinv nodes (popped s (T ++ [v]) S0).
    Proof.
      pose proof Ht as [T1 T2 T3 T4 T5 T6 T7].
      assert (P : Permutation (stk s ++ concat (comps s)) (S0 ++ concat (comps s ++ [T ++ [v]]))).
      { rewrite concat_app. simpl. rewrite app_nil_r.
        replace (stk s) with ((T ++ [v]) ++ S0) by (rewrite Hstk, <- app_assoc; reflexivity).
        rewrite <- app_assoc, (app_assoc S0). apply Permutation_app_comm. }
      constructor; simpl.
      - intros x. change (keys (popped s (T ++ [v]) S0)) with (keys s).
        rewrite T1, <- !in_app_iff. split; apply Permutation_in; [exact P | symmetry; exact P].
      - exact (Permutation_NoDup P T2).
      - apply Forall_app. split; [exact T3|]. constructor; [|constructor]. destruct T; discriminate.
      - exact T4.
      - intros x. rewrite remove_all_In, T5, pop_split. split.
        + intros [[H | H] Hn]; [contradiction | exact H].
        + intros H. split; [right; exact H | intros Hx; exact (pop_disj x Hx H)].
      - rewrite Hstk in T6. apply stk_sorted_app in T6. apply T6.
      - intros x Hx. apply T7. apply pop_split. right. exact Hx.
    Qed.

    Hypothesis Hab : above_ok s v.

    (* the popped nodes reach v (by their low_links) and v reaches them (it lies below them on the stack) *)
    Lemma pop_rinv : rinv s -> rinv (popped s (T ++ [v]) S0).
    Proof.
      intros Hr. pose proof Hr as [R1 R2 R3].
      assert (Hin : forall x, In x S0 -> In x (stk s)) by (intros x Hx; apply pop_split; right; exact Hx).
      constructor; simpl.
      - intros x y Hx Hy. apply R1; apply Hin; assumption.
      - intros y Hy. destruct (R2 y (Hin y Hy)) as [H1 [z [Hz1 [Hz2 Hz3]]]].
        split; [exact H1|]. exists z. split; [|split; assumption].
        apply pop_split in Hz1. destruct Hz1 as [Hz1 | Hz1]; [exfalso | exact Hz1].
        destruct (stk_split nodes s T v S0 Ht Hstk) as [_ [Hb _]].
        pose proof (pop_bot z Hz1). specialize (Hb y Hy). lia.
      - intros c x y Hc Hx Hy. apply in_app_or in Hc. destruct Hc as [Hc | [<- | []]]; [apply (R3 c); assumption|].
        assert (Hv : In v (stk s)) by (apply pop_split; left; apply in_or_app; right; left; reflexivity).
        assert (Hxs : In x (stk s)) by (apply pop_split; left; exact Hx).
        assert (Hys : In y (stk s)) by (apply pop_split; left; exact Hy).
        apply (reach_trans g nodes x v y).
        + apply (all_reach_active s v Ht Hr Hv Hab x Hxs).
        + apply (R1 v y Hv Hys). apply pop_bot. exact Hy.
    Qed.

    (* v is a root (low_link = index): no edge leaves T ++ [v] towards the rest of the stack, since the target's
       index would be at least low_link[x] >= low_link[v] = index[v] *)
    Lemma pop_cinv A : cinv A s -> incl A S0 -> lw s v = ix s v -> cinv A (popped s (T ++ [v]) S0).
    Proof.
      intros [C1 C2] HA Hroot.
      assert (Hin : forall x, In x S0 -> In x (stk s)) by (intros x Hx; apply pop_split; right; exact Hx).
      destruct (stk_split nodes s T v S0 Ht Hstk) as [Habove [Hbelow _]].
      constructor; simpl.
      - intros i ci x w Hi Hx He.
        destruct (lt_dec i (length (comps s))) as [Hlt | Hge].
        + rewrite nth_error_app1 in Hi by exact Hlt.
          destruct (C1 i ci x w Hi Hx He) as [j [cj [Hj1 [Hj2 Hj3]]]].
          exists j, cj. split; [exact Hj1|]. split; [|exact Hj3].
          rewrite nth_error_app1; [exact Hj2 | apply nth_error_Some; congruence].
        + assert (Hi' : i = length (comps s)).
          { assert (H : i < length (comps s ++ [T ++ [v]])) by (apply nth_error_Some; congruence).
            rewrite app_length in H. simpl in H. lia. }
          subst i. rewrite nth_error_app2, Nat.sub_diag in Hi by lia. injection Hi as <-.
          assert (Hxs : In x (stk s)) by (apply pop_split; left; exact Hx).
          assert (HxA : ~ In x A) by (intros H; apply (pop_disj x Hx); apply HA; exact H).
          assert (Hlx : ix s v <= lw s x).
          { rewrite <- Hroot. apply in_app_or in Hx. destruct Hx as [Hx | [<- | []]]; [|lia].
            apply Hab; [exact Hxs | apply Habove; exact Hx]. }
          destruct (C2 x Hxs HxA w (proj2 (proj2 He)) (proj1 (proj2 He))) as [Hwk Hl].
          apply (t_keys _ _ Ht) in Hwk. destruct Hwk as [Hws | Hwc].
          * specialize (Hl Hws). apply pop_split in Hws. destruct Hws as [Hws | Hws]; [|specialize (Hbelow w Hws); lia].
            exists (length (comps s)), (T ++ [v]). split; [lia|]. split; [|exact Hws].
            rewrite nth_error_app2, Nat.sub_diag by lia. reflexivity.
          * apply in_concat in Hwc. destruct Hwc as [cj [Hcj Hwcj]].
            apply In_nth_error in Hcj. destruct Hcj as [j Hj].
            assert (j < length (comps s)) by (apply nth_error_Some; congruence).
            exists j, cj. split; [lia|]. split; [rewrite nth_error_app1 by assumption; exact Hj | exact Hwcj].
      - intros x Hx Hn w Hw Hnw. destruct (C2 x (Hin x Hx) Hn w Hw Hnw) as [Hk Hl].
        split; [exact Hk | intros Hs; apply Hl, Hin, Hs].
    Qed.
  End Pop.

  (* the loop of the active node v is over: v is as good as any other finished node *)
  Lemma cinv_done A s v : cinv (v :: A) s -> done_nbrs s v (nbr g v) -> cinv A s.
  Proof.
    intros [C1 C2] Hdn. constructor; [exact C1|].
    intros x Hx Hn. destruct (Nat.eq_dec x v) as [-> | Hxv]; [exact Hdn|].
    apply (C2 x Hx). intros [H | H]; [congruence | contradiction].
  Qed.
End Layers.
