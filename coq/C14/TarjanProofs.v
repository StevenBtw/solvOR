(* Tarjan (model [scc]): never out of fuel / never a Python error; the components form a partition of the node
   list, each is strongly connected, and an edge leaving one goes to an EARLIER one.  Consequences: sinks first,
   and mutually reachable nodes lie in the same component (components are maximal). *)
From Coq Require Import List Arith Bool Lia.
From SV Require Import C14.Scc C14.SccSpec C14.SccLemmas C14.TarjanInv.
Import ListNotations.

(* the number of indexed nodes: each call indexes a new one, and there are at most |nodes| *)
Definition mu (s : st) : nat := length (stk s ++ concat (comps s)).

Lemma mu_mono nodes s s' : tinv nodes s -> tinv nodes s' -> ext s s' -> mu s <= mu s'.
Proof.
  intros Ht Ht' He. apply NoDup_incl_length; [apply (t_nodup _ _ Ht)|].
  intros x Hx. apply in_or_app, (t_keys _ _ Ht'), (ext_keys s s' x He), (t_keys _ _ Ht), in_app_or, Hx.
Qed.

Lemma mu_fresh nodes s v : tinv nodes s -> aget (idx s) v = None -> In v nodes -> mu s < length nodes.
Proof.
  intros Ht Hn Hv. apply aget_None_keys in Hn.
  assert (Hnd : NoDup (v :: stk s ++ concat (comps s))).
  { constructor; [intros H; apply Hn, (t_keys _ _ Ht), in_app_or, H | apply (t_nodup _ _ Ht)]. }
  apply NoDup_incl_length with (l' := nodes) in Hnd; [exact Hnd|].
  intros x [<- | Hx]; [exact Hv | apply (t_nodes _ _ Ht), (t_keys _ _ Ht), in_app_or, Hx].
Qed.

Section Tarjan.
  Variable g : graph.
  Variable nodes : list nat.
  Notation R := (reach g nodes).
  Notation inv := (inv g nodes).

  (* what one call strongconnect(w) guarantees; A = the active nodes at the time of the call *)
  Record sc_post (A : list nat) (s : st) (w : nat) (s' : st) : Prop := {
    p_inv : inv A s';
    p_ext : ext s s';
    p_key : In w (keys s');
    p_old : forall y, In y (stk s) -> lw s' y = lw s y;
    p_new : forall y, In y (stk s') -> ~ In y (stk s) -> lw s' w <= lw s' y /\ lw s' y < ix s' y;
    (* w is popped only as a root, low_link[w] = index[w] = the counter at the call *)
    p_low : In w (stk s') \/ ctr s <= lw s' w;
    (* a call from the top level always pops its node *)
    p_empty : stk s = [] -> stk s' = []
  }.

  Definition rec_ok (rec : nat -> st -> option st) (f : nat) : Prop :=
    forall A s w, inv A s -> aget (idx s) w = None -> In w nodes -> length nodes < f + mu s ->
                  (forall x, In x (stk s) -> R x w) ->
                  exists s', rec w s = Some s' /\ sc_post A s w s'.

  Notation linv := (linv g nodes).

  (* low_link[v] = min(low_link[v], low_link[a]) after the call strongconnect(a) *)
  Lemma linv_call A v dn s a s1 :
    linv A v dn s -> edge g nodes v a -> sc_post (v :: A) s a s1 ->
    linv A v (dn ++ [a]) (set_low s1 v (Nat.min (lw s1 v) (lw s1 a))).
  Proof.
    intros [Hi Hab Hdn] Hedge [Pinv Pext Pkey Pold Pnew Plow _].
    pose proof (i_t _ _ _ _ Hi) as Ht.
    assert (Hv : In v (stk s)) by (apply (i_A _ _ _ _ Hi); left; reflexivity).
    assert (Hv1 : In v (stk s1)) by (eapply ext_stk_in; eassumption).
    assert (Hixs : forall y, In y (stk s) -> ix s1 y = ix s y).
    { intros y Hy. apply (ext_ix s s1 y Pext). apply (stk_in_keys nodes); assumption. }
    pose proof (Nat.le_min_l (lw s1 v) (lw s1 a)) as Hml. pose proof (Nat.le_min_r (lw s1 v) (lw s1 a)) as Hmr.
    pose proof (r_low _ _ _ (i_r _ _ _ _ Pinv)) as Hlow1.
    apply linv_set_low; [exact Pinv | | | | exact Pkey | intros Hs; apply (Hlow1 a Hs)].
    - (* old stack nodes kept their low_link, new ones have it above low_link[a] *)
      intros y Hy Hlt. destruct (in_dec Nat.eq_dec y (stk s)) as [Hys | Hys].
      + rewrite (Hixs y Hys), (Hixs v Hv) in Hlt. destruct (Hab y Hys Hlt) as [H1 H2].
        rewrite (Pold y Hys), (Hixs y Hys). pose proof (Pold v Hv). lia.
      + destruct (Pnew y Hy Hys) as [H1 H2]. lia.
    - (* low_link[a] < low_link[v] <= index[v] < the counter at the call: a is still on the stack *)
      intros Hlt. destruct Plow as [Plow | Plow].
      + destruct (Hlow1 a Plow) as [_ [z [Hz1 [Hz2 Hz3]]]]. exists z. split; [exact Hz1|]. split; [exact Hz2|].
        eapply reach_step; eassumption.
      + exfalso. destruct (Hlow1 v Hv1) as [Hl _]. rewrite (Hixs v Hv) in Hl.
        pose proof (t_ctr _ _ Ht v Hv). lia.
    - intros w Hw Hn. destruct (Hdn w Hw Hn) as [H1 H2]. split; [eapply ext_keys; eassumption|].
      intros Hs1. rewrite (Pold v Hv), (ext_ix s s1 w Pext H1). apply H2.
      destruct (in_dec Nat.eq_dec w (stk s)) as [H | H]; [exact H | destruct (e_new _ _ Pext w Hs1 H H1)].
  Qed.

  Definition loop_post (A : list nat) (v : nat) (s s' : st) : Prop :=
    linv A v (nbr g v) s' /\ ext s s' /\ forall y, In y (stk s) -> y <> v -> lw s' y = lw s y.

  Lemma loop_post_step A v s s1 s' :
    ext s s1 -> (forall y, In y (stk s) -> y <> v -> lw s1 y = lw s y) -> loop_post A v s1 s' -> loop_post A v s s'.
  Proof.
    intros He Hlw [Hl [He' Hlw']]. split; [exact Hl|]. split; [eapply ext_trans; eassumption|].
    intros y Hy Hn. rewrite (Hlw' y (ext_stk_in s s1 y He Hy) Hn). apply Hlw; assumption.
  Qed.

  Lemma sc_loop_spec rec f A v : rec_ok rec f -> In v nodes ->
    forall ws dn s, nbr g v = dn ++ ws -> linv A v dn s -> length nodes < f + mu s ->
      exists s', sc_loop rec nodes v ws s = Some s' /\ loop_post A v s s'.
  Proof.
    intros Hrec Hvn. induction ws as [|a r IH]; intros dn s Hnb Hl Hc; simpl.
    - exists s. rewrite app_nil_r in Hnb. rewrite <- Hnb in Hl.
      split; [reflexivity|]. split; [exact Hl|]. split; [apply ext_refl | reflexivity].
    - assert (Hnb' : nbr g v = (dn ++ [a]) ++ r) by (rewrite <- app_assoc; exact Hnb).
      pose proof Hl as [Hi Hab Hdn]. pose proof (i_t _ _ _ _ Hi) as Ht.
      assert (Hv : In v (stk s)) by (apply (i_A _ _ _ _ Hi); left; reflexivity).
      (* a is skipped: not a node, or indexed and already popped *)
      assert (Hskip : (In a nodes -> In a (keys s) /\ ~ In a (stk s)) ->
                      exists s', sc_loop rec nodes v r s = Some s' /\ loop_post A v s s').
      { intros Ha. apply (IH (dn ++ [a]) s Hnb'); [|exact Hc]. constructor; [exact Hi | exact Hab |].
        apply done_nbrs_snoc; [exact Hdn|]. intros Hn. destruct (Ha Hn) as [H1 H2].
        split; [exact H1 | intros H; contradiction]. }
      destruct (negb (mem a nodes)) eqn:Em.
      { apply negb_true_iff, mem_false in Em. apply Hskip. intros H. contradiction. }
      apply negb_false_iff, mem_In in Em.
      assert (Hedge : edge g nodes v a).
      { repeat split; try assumption. rewrite Hnb. apply in_or_app. right. left. reflexivity. }
      assert (Hva : R v a) by (eapply reach_step; [exact Hedge | apply reach_refl]).
      destruct (aget (idx s) a) as [iw|] eqn:Ea.
      + assert (Hak : In a (keys s)) by (eapply aget_In_keys; exact Ea).
        destruct (mem a (onstk s)) eqn:Eon.
        2:{ apply mem_false in Eon. apply Hskip. intros _. split; [exact Hak|]. intros H. apply Eon, (t_on _ _ Ht), H. }
        apply mem_In, (t_on _ _ Ht) in Eon.
        replace iw with (ix s a) by (unfold ix, agetd; rewrite Ea; reflexivity). fold (lw s v).
        assert (Hl1 : linv A v (dn ++ [a]) (set_low s v (Nat.min (lw s v) (ix s a)))).
        { apply linv_set_low; [exact Hi | | | exact Hdn | exact Hak | intros _; apply le_n].
          - intros y Hy Hlt. destruct (Hab y Hy Hlt). pose proof (Nat.le_min_l (lw s v) (ix s a)). lia.
          - intros _. exists a. split; [exact Eon|]. split; [reflexivity | exact Hva]. }
        destruct (IH (dn ++ [a]) _ Hnb' Hl1 Hc) as [s' [E Hp]].
        exists s'. split; [exact E|]. revert Hp. apply loop_post_step; [apply set_low_ext|].
        intros y _ Hn. apply set_low_lw_other. exact Hn.
      + destruct (Hrec (v :: A) s a Hi Ea Em Hc) as [s1 [E1 Hpost]].
        { intros x Hx. apply (reach_trans g nodes x v a); [|exact Hva].
          apply (all_reach_active g nodes s v); try assumption. apply Hi. }
        rewrite E1. fold (lw s1 v). fold (lw s1 a).
        pose proof (linv_call A v dn s a s1 Hl Hedge Hpost) as Hl2.
        destruct Hpost as [Pinv Pext _ Pold _ _ _].
        destruct (IH (dn ++ [a]) _ Hnb' Hl2) as [s' [E Hp]].
        { pose proof (mu_mono nodes s s1 Ht (i_t _ _ _ _ Pinv) Pext).
          change (mu (set_low s1 v (Nat.min (lw s1 v) (lw s1 a)))) with (mu s1). lia. }
        exists s'. split; [exact E|]. revert Hp. apply loop_post_step.
        * eapply ext_trans; [exact Pext | apply set_low_ext].
        * intros y Hy Hn. rewrite set_low_lw_other by exact Hn. apply Pold. exact Hy.
  Qed.

  Lemma strongconnect_spec : forall f, rec_ok (strongconnect f g nodes) f.
  Proof.
    induction f as [|f IH]; intros A s v Hi Hnone Hv Hc Hpre;
      [pose proof (mu_fresh nodes s v (i_t _ _ _ _ Hi) Hnone Hv); lia|].
    cbn [strongconnect].
    assert (Hvk : ~ In v (keys s)) by (apply aget_None_keys; exact Hnone).
    assert (HvS : ~ In v (stk s)) by (intros H; apply Hvk, (stk_in_keys nodes), H; apply Hi).
    assert (HA : incl A (stk s)) by apply Hi.
    destruct (enter_inv g nodes A s v Hi Hnone Hv Hpre) as [Hi1 Hab1].
    pose proof (enter_ext s v Hnone) as He1.
    destruct (sc_loop_spec _ f A v IH Hv (nbr g v) [] (enter v s) eq_refl)
      as [s2 [E2 [[Hi2 Hab2 Hdn2] [He2 Hlow2]]]].
    { constructor; [exact Hi1 | exact Hab1 | intros w []]. }
    { change (mu (enter v s)) with (S (mu s)). lia. }
    rewrite E2. pose proof (i_t _ _ _ _ Hi2) as Ht2.
    assert (He : ext s s2) by (eapply ext_trans; eassumption).
    destruct (e_stk _ _ He2) as [T HT]. simpl in HT.
    destruct (stk_split nodes s2 T v (stk s) Ht2 HT) as [HTabove [_ HvT]].
    rewrite (finish_eq s2 v T (stk s) HT HvT). eexists. split; [reflexivity|].
    assert (Hvs2 : In v (stk s2)) by (rewrite HT; apply in_or_app; right; left; reflexivity).
    assert (Hkey : In v (keys s2)) by (apply (stk_in_keys nodes); assumption).
    assert (Hix2 : ix s2 v = ctr s).
    { rewrite (ext_ix _ _ v He2).
      - unfold ix. simpl. apply agetd_aset_eq.
      - apply (stk_in_keys nodes); [apply Hi1 | left; reflexivity]. }
    assert (Hold : forall y, In y (stk s) -> lw s2 y = lw s y).
    { intros y Hy. assert (Hn : y <> v) by (intros ->; contradiction).
      rewrite (Hlow2 y (or_intror Hy) Hn). unfold lw. simpl. apply agetd_aset_neq. congruence. }
    pose proof (cinv_done g nodes A s2 v (i_c _ _ _ _ Hi2) Hdn2) as Hc2.
    destruct (r_low _ _ _ (i_r _ _ _ _ Hi2) v Hvs2) as [Hle [z [Hz1 [Hz2 _]]]].
    destruct (lw s2 v =? ix s2 v) eqn:E.
    - (* v is a root: the component T ++ [v] is popped *)
      apply Nat.eqb_eq in E. constructor.
      + constructor; [apply pop_tinv | apply pop_rinv; [| | |apply Hi2] | apply pop_cinv | exact HA]; assumption.
      + apply popped_ext. exact He.
      + exact Hkey.
      + exact Hold.
      + intros y Hy Hn. contradiction.
      + right. change (ctr s <= lw s2 v). lia.
      + intros H. exact H.
    - (* nothing is popped; some older node has index low_link[v], so the stack was not empty *)
      apply Nat.eqb_neq in E. constructor.
      + constructor; [exact Ht2 | apply Hi2 | exact Hc2 |].
        intros x Hx. eapply ext_stk_in; [exact He | apply HA; exact Hx].
      + exact He.
      + exact Hkey.
      + exact Hold.
      + intros y Hy Hn. rewrite HT in Hy. apply in_app_or in Hy. destruct Hy as [Hy | [<- | Hy]]; [|lia|contradiction].
        apply Hab2; [rewrite HT; apply in_or_app; left; exact Hy | apply HTabove; exact Hy].
      + left. exact Hvs2.
      + intros Hempty. exfalso. rewrite HT, Hempty in Hz1. apply in_app_or in Hz1.
        destruct Hz1 as [Hz1 | [<- | []]]; [specialize (HTabove z Hz1)|]; lia.
  Qed.

  Lemma inv_st0 : inv [] st0.
  Proof.
    constructor.
    - constructor; simpl; try tauto; constructor.
    - constructor; simpl; intros; contradiction.
    - constructor; simpl; [intros [|i] ci x w Hi; discriminate | intros x []].
    - intros x [].
  Qed.

  Lemma scc_main_spec : forall vs s,
    incl vs nodes -> inv [] s -> stk s = [] ->
    exists s', scc_main (scc_fuel nodes) g nodes vs s = Some s' /\ inv [] s' /\ stk s' = [] /\
               forall x, In x vs \/ In x (keys s) -> In x (keys s').
  Proof.
    induction vs as [|v r IH]; intros s Hincl Hinv Hstk; cbn [scc_main].
    - exists s. split; [reflexivity|]. split; [exact Hinv|]. split; [exact Hstk|]. intros x [[] | H]. exact H.
    - assert (Hr : incl r nodes) by (intros x Hx; apply Hincl; right; exact Hx).
      destruct (aget (idx s) v) as [i|] eqn:Ea.
      + destruct (IH s Hr Hinv Hstk) as [s' [E1 [E2 [E3 E4]]]].
        exists s'. split; [exact E1|]. split; [exact E2|]. split; [exact E3|].
        intros x [[<- | Hx] | Hx]; apply E4; auto.
        right. eapply aget_In_keys. exact Ea.
      + destruct (strongconnect_spec (scc_fuel nodes) [] s v Hinv Ea) as [s1 [F1 [Pinv Pext Pkey _ _ _ Pempty]]].
        { apply Hincl. left. reflexivity. }
        { unfold scc_fuel. lia. }
        { rewrite Hstk. intros x []. }
        rewrite F1.
        destruct (IH s1 Hr Pinv (Pempty Hstk)) as [s' [E1 [E2 [E3 E4]]]].
        exists s'. split; [exact E1|]. split; [exact E2|]. split; [exact E3|].
        intros x [[<- | Hx] | Hx]; apply E4; auto.
        right. eapply ext_keys; eassumption.
  Qed.

  Lemma scc_final : exists s, scc g nodes = Some (comps s) /\ inv [] s /\ stk s = [] /\ incl nodes (keys s).
  Proof.
    destruct (scc_main_spec nodes st0 (incl_refl nodes) inv_st0 eq_refl) as [s [E1 [E2 [E3 E4]]]].
    exists s. split; [unfold scc, scc_state; rewrite E1; reflexivity|]. split; [exact E2|]. split; [exact E3|].
    intros x Hx. apply E4. left. exact Hx.
  Qed.

  Lemma scc_final_of cs : scc g nodes = Some cs ->
    exists s, comps s = cs /\ inv [] s /\ stk s = [] /\ incl nodes (keys s).
  Proof. destruct scc_final as [s [E H]]. rewrite E. intros [= <-]. exists s. split; [reflexivity | exact H]. Qed.

  Theorem scc_partition : exists cs, scc g nodes = Some cs /\ is_partition nodes cs.
  Proof.
    destruct scc_final as [s [E1 [[[T1 T2 T3 T4 _ _ _] _ _ _] [E3 E4]]]].
    exists (comps s). split; [exact E1|].
    rewrite E3 in *. simpl in *. split; [exact T3|]. split; [exact T2|].
    intros x. split.
    - intros H. apply T4, T1. right. exact H.
    - intros H. apply E4, T1 in H. destruct H as [[] | H]. exact H.
  Qed.

  Theorem scc_components_strongly_connected cs :
    scc g nodes = Some cs -> forall x y, same_comp cs x y -> mutual g nodes x y.
  Proof.
    intros H x y [c [Hc [Hx Hy]]]. destruct (scc_final_of cs H) as [s [<- [[_ Hr _ _] _]]].
    split; apply (r_comp _ _ _ Hr c); assumption.
  Qed.

  Theorem scc_closed cs : scc g nodes = Some cs ->
    forall i ci x w, nth_error cs i = Some ci -> In x ci -> edge g nodes x w ->
                     exists j cj, j <= i /\ nth_error cs j = Some cj /\ In w cj.
  Proof.
    intros H. destruct (scc_final_of cs H) as [s [<- [[_ _ Hc _] _]]]. apply (c_closed _ _ _ _ Hc).
  Qed.

  Lemma scc_NoDup cs : scc g nodes = Some cs -> NoDup (concat cs).
  Proof.
    intros H. destruct (scc_final_of cs H) as [s [<- [[Ht _ _ _] [E _]]]].
    pose proof (t_nodup _ _ Ht) as Hnd. rewrite E in Hnd. exact Hnd.
  Qed.

  Theorem scc_sinks_first cs : scc g nodes = Some cs -> sinks_first g nodes cs.
  Proof.
    intros H i j ci cj u w Hi Hj Hij Hu Hw He.
    destruct (scc_closed cs H i ci u w Hi Hu He) as [j' [cj' [Hle [Hj' Hw']]]].
    assert (j = j') by (apply (comp_unique cs j j' cj cj' w (scc_NoDup cs H)); assumption). lia.
  Qed.

  Lemma reach_comp_le cs : scc g nodes = Some cs ->
    forall x y, R x y -> forall i ci, nth_error cs i = Some ci -> In x ci ->
                exists j cj, j <= i /\ nth_error cs j = Some cj /\ In y cj.
  Proof.
    intros H x y Hr. induction Hr as [u | u v w He _ IH]; intros i ci Hi Hx.
    - exists i, ci. split; [lia|]. tauto.
    - destruct (scc_closed cs H i ci u v Hi Hx He) as [j [cj [Hle [Hj Hv]]]].
      destruct (IH j cj Hj Hv) as [k [ck [Hle2 [Hk Hw]]]].
      exists k, ck. split; [lia|]. tauto.
  Qed.

  Theorem scc_classes_holds cs : scc g nodes = Some cs -> scc_classes g nodes cs.
  Proof.
    intros H x y Hx Hy. split; [apply (scc_components_strongly_connected cs H)|].
    intros [Hxy Hyx].
    destruct scc_partition as [cs' [Hs [_ [_ Hcov]]]]. rewrite H in Hs. injection Hs as <-.
    apply Hcov, in_concat in Hx. destruct Hx as [ci [Hci Hxi]].
    apply In_nth_error in Hci. destruct Hci as [i Hi].
    destruct (reach_comp_le cs H x y Hxy i ci Hi Hxi) as [j [cj [Hji [Hj Hyj]]]].
    destruct (reach_comp_le cs H y x Hyx j cj Hj Hyj) as [k [ck [Hkj [Hk Hxk]]]].
    assert (i = k) by (apply (comp_unique cs i k ci ck x (scc_NoDup cs H)); assumption).
    assert (j = i) by lia. subst j k. rewrite Hi in Hj. injection Hj as <-.
    exists ci. split; [eapply nth_error_In; exact Hi | tauto].
  Qed.
End Tarjan.
