(* The greedy rule "scan the edges by non-decreasing weight, keep an edge iff its end points are not yet
   connected" produces a spanning forest of minimum total weight (exchange argument).  Pure graph theory
   over UFSpec.joined; the tie to the kruskal model is in KruskalProofs.v. *)
From Coq Require Import List ZArith Lia Permutation.
From SV Require Import C20.UFUnion.
From SV Require Import C13.Mst C13.MstSpec C13.GraphLemmas C13.ForestCount.
Import ListNotations.

Inductive greedy : list edge -> list edge -> list edge -> Prop :=
| gr_nil : forall acc, greedy acc [] acc
| gr_skip : forall acc e rest out, connects acc (eu e) (ev e) -> greedy acc rest out -> greedy acc (e :: rest) out
| gr_take : forall acc e rest out, ~ connects acc (eu e) (ev e) -> greedy (acc ++ [e]) rest out ->
            greedy acc (e :: rest) out.

Lemma greedy_all_connected : forall acc es, (forall e, In e es -> connects acc (eu e) (ev e)) -> greedy acc es acc.
Proof.
  intros acc es. induction es as [|e r IH]; intros H; [constructor|].
  apply gr_skip; [apply H; left; reflexivity|apply IH; intros x Hx; apply H; right; exact Hx].
Qed.

Fixpoint sortedw (l : list edge) : Prop :=
  match l with
  | [] => True
  | e :: r => (forall x, In x r -> (ew e <= ew x)%Z) /\ sortedw r
  end.

Lemma connects_perm : forall t t', Permutation t t' -> forall x y, connects t x y <-> connects t' x y.
Proof.
  intros t t' HP x y. split; apply connects_mono; intros z; apply Permutation_in;
    [exact HP|apply Permutation_sym, HP].
Qed.

Lemma weight_perm : forall a b, Permutation a b -> weight a = weight b.
Proof. intros a b H. unfold weight. induction H; cbn; lia. Qed.

Lemma acyclic_perm : forall t t', Permutation t t' -> acyclic t -> acyclic t'.
Proof.
  intros t t' HP H l1 x l2 E K. subst t'.
  destruct (in_split x t) as [m1 [m2 Et]]; [apply (Permutation_in x (Permutation_sym HP)), in_elt|]. subst t.
  apply (H m1 x m2 eq_refl). apply Permutation_app_inv in HP.
  apply (connects_perm _ _ (Permutation_sym HP)), K.
Qed.

Lemma sf_perm : forall es t t', Permutation t t' -> spanning_forest es t -> spanning_forest es t'.
Proof.
  intros es t t' HP (Hi & Ha & Hc). split; [|split].
  - intros z Hz. apply Hi, (Permutation_in z (Permutation_sym HP)), Hz.
  - exact (acyclic_perm _ _ HP Ha).
  - intros x y. rewrite (Hc x y). apply connects_perm, HP.
Qed.

Lemma sf_transfer : forall a b t, incl a b -> incl b a -> spanning_forest a t -> spanning_forest b t.
Proof.
  intros a b t Hab Hba (Hi & Ha & Hc). split; [intros z Hz; apply Hab, Hi, Hz|]. split; [exact Ha|].
  intros u v. rewrite <- (Hc u v). split; apply connects_mono; assumption.
Qed.

Lemma acyclic_not_in : forall l1 e l2, acyclic (l1 ++ e :: l2) -> ~ In e (l1 ++ l2).
Proof. intros l1 e l2 H K. apply (H l1 e l2 eq_refl). apply connects_edge. exact K. Qed.

Lemma greedy_forest : forall acc es out, greedy acc es out ->
  incl acc out /\ incl out (acc ++ es) /\ (incr_forest acc -> incr_forest out) /\
  forall e, In e es -> connects out (eu e) (ev e).
Proof.
  intros acc es out H. induction H as [acc|acc e rest out Hc H IH|acc e rest out Hn H IH].
  - split; [apply incl_refl|]. split; [apply incl_appl, incl_refl|]. split; [auto|intros e []].
  - destruct IH as (I1 & I2 & I3 & I4). split; [exact I1|]. split; [|split; [exact I3|]].
    + intros z Hz. apply incl_app_cons, I2, Hz.
    + intros x [<-|Hx]; [exact (connects_mono _ _ _ _ I1 Hc)|apply I4, Hx].
  - destruct IH as (I1 & I2 & I3 & I4). split; [|split; [|split]].
    + intros z Hz. apply I1, in_or_app. left. exact Hz.
    + rewrite <- app_assoc in I2. exact I2.
    + intros Hf. apply I3, if_snoc; assumption.
    + intros x [<-|Hx]; [apply connects_edge, I1, in_elt|apply I4, Hx].
Qed.

(* a forest with n - 1 edges on n nodes connects everything, so greedy adds nothing to it *)
Lemma greedy_full : forall n acc es, 1 <= n -> incr_forest acc -> in_range n (acc ++ es) ->
  length acc = n - 1 -> greedy acc es acc.
Proof.
  intros n acc es Hn Hf Hr Hl. apply greedy_all_connected. intros e He.
  destruct (forest_classes n acc Hf) as [Hc _]; [intros z Hz; apply Hr, in_or_app; left; exact Hz|].
  replace (n - length acc) with 1 in Hc by lia.
  destruct (Hr e) as [Hx Hy]; [apply in_or_app; right; exact He|].
  exact (num_classes_one _ _ Hc _ _ Hx Hy).
Qed.

Lemma connects_snoc_sub : forall B f t, incl B t -> connects t (eu f) (ev f) ->
  forall x y, connects (B ++ [f]) x y -> connects t x y.
Proof.
  intros B f t Hi Hf. apply connects_sub. intros g Hg. apply in_app_or in Hg.
  destruct Hg as [Hg|[<-|[]]]; [apply connects_edge, Hi, Hg|exact Hf].
Qed.

Lemma swap_last : forall B f e,
  ~ connects B (eu e) (ev e) -> connects (B ++ [f]) (eu e) (ev e) ->
  forall x y, connects (B ++ [f]) x y <-> connects (B ++ [e]) x y.
Proof.
  intros B f e Hn Hc.
  assert (Hf : connects (B ++ [e]) (eu f) (ev f)).
  { unfold connects in *. rewrite pairs_snoc, joined_add in *.
    destruct Hc as [Hc|[[X Y]|[X Y]]];
      [contradiction|right; left; split; apply joined_sym; assumption|right; right; split; assumption]. }
  intros x y. split; apply connects_snoc_sub;
    [apply incl_appl, incl_refl|exact Hf|apply incl_appl, incl_refl|exact Hc].
Qed.

Lemma exchange : forall n acc e F,
  in_range n (acc ++ F) -> acyclic (acc ++ F) ->
  ~ connects acc (eu e) (ev e) -> connects (acc ++ F) (eu e) (ev e) ->
  exists F1 f F2, F = F1 ++ f :: F2 /\ acyclic (acc ++ F1 ++ F2 ++ [e]) /\
    (forall x y, connects (acc ++ F) x y <-> connects (acc ++ F1 ++ F2 ++ [e]) x y).
Proof.
  intros n acc e F. induction F as [|f F' IH] using rev_ind; intros Hr Hac Hn Hc.
  - rewrite app_nil_r in Hc. contradiction.
  - rewrite app_assoc in Hr, Hac, Hc.
    destruct (acyclic_prefix _ _ Hac) as [HacB Hnf].
    assert (HrB : in_range n (acc ++ F')) by (intros z Hz; apply Hr, in_or_app; left; exact Hz).
    destruct (connects_dec n (acc ++ F') HrB (eu e) (ev e)) as [Hd|Hd].
    + (* the end points of e are connected before f: trade within F', then put f back *)
      destruct (IH HrB HacB Hn Hd) as (F1 & g & F2 & -> & HA & HC).
      exists F1, g, (F2 ++ [f]). split; [rewrite <- app_assoc; reflexivity|].
      assert (HPm : Permutation ((acc ++ F1 ++ F2 ++ [e]) ++ [f]) (acc ++ F1 ++ (F2 ++ [f]) ++ [e])).
      { rewrite <- !app_assoc. do 3 apply Permutation_app_head. apply Permutation_app_comm. }
      split.
      * apply (acyclic_perm _ _ HPm), incr_forest_acyclic, if_snoc; [apply acyclic_incr_forest, HA|].
        intros K. apply Hnf, HC, K.
      * intros x y. rewrite (app_assoc acc (F1 ++ g :: F2)), <- (connects_perm _ _ HPm x y).
        unfold connects. rewrite !pairs_snoc. apply joined_add_congr, HC.
    + (* f is the edge that connects them *)
      exists F', f, []. split; [reflexivity|]. cbn [app]. rewrite (app_assoc acc F' [e]). split.
      * apply incr_forest_acyclic, if_snoc; [apply acyclic_incr_forest, HacB|exact Hd].
      * intros x y. rewrite (app_assoc acc F' [f]). apply swap_last; assumption.
Qed.

Lemma sf_exchange : forall n es acc F e, in_range n es -> spanning_forest es (acc ++ F) -> In e es ->
  ~ connects acc (eu e) (ev e) ->
  exists f F', Permutation F (f :: F') /\ spanning_forest es ((acc ++ [e]) ++ F').
Proof.
  intros n es acc F e Hr (Hi & Ha & Hc) He Hn.
  destruct (exchange n acc e F) as (F1 & f & F2 & -> & HA & HC);
    [intros z Hz; apply Hr, Hi, Hz|exact Ha|exact Hn|apply Hc, connects_edge, He|].
  exists f, (F1 ++ F2). split; [apply Permutation_sym, Permutation_middle|].
  assert (HPm : Permutation (acc ++ F1 ++ F2 ++ [e]) ((acc ++ [e]) ++ F1 ++ F2)).
  { rewrite <- app_assoc. apply Permutation_app_head. rewrite app_assoc. apply Permutation_app_comm. }
  split; [|split].
  - intros z Hz. apply in_app_or in Hz. destruct Hz as [Hz|Hz].
    + apply in_app_or in Hz. destruct Hz as [Hz|[<-|[]]]; [apply Hi, in_or_app; left; exact Hz|exact He].
    + apply Hi, in_or_app. right. apply incl_app_cons, Hz.
  - exact (acyclic_perm _ _ HPm HA).
  - intros x y. rewrite (Hc x y), (HC x y). apply connects_perm, HPm.
Qed.

Definition competitor (acc es F : list edge) : Prop :=
  incl F es /\ acyclic (acc ++ F) /\ forall x y, connects (acc ++ es) x y -> connects (acc ++ F) x y.

Lemma competitor_skip : forall acc e rest F, connects acc (eu e) (ev e) ->
  competitor acc (e :: rest) F -> competitor acc rest F.
Proof.
  intros acc e rest F Hc (Hi & Ha & Hconn). split; [|split; [exact Ha|]].
  - intros x Hx. destruct (Hi x Hx) as [<-|K]; [exfalso|exact K].
    destruct (in_split _ _ Hx) as (F1 & F2 & ->). rewrite app_assoc in Ha.
    apply (Ha _ _ _ eq_refl). eapply connects_mono; [|exact Hc]. rewrite <- app_assoc. apply incl_appl, incl_refl.
  - intros x y K. apply Hconn. eapply connects_mono; [apply incl_app_cons|exact K].
Qed.

(* a competitor that does not use e trades one of its edges for e; one that does trades e for itself *)
Lemma competitor_take : forall n acc e rest F, in_range n (acc ++ e :: rest) ->
  ~ connects acc (eu e) (ev e) -> competitor acc (e :: rest) F ->
  exists f F', In f (e :: rest) /\ weight F = (ew f + weight F')%Z /\ competitor (acc ++ [e]) rest F'.
Proof.
  intros n acc e rest F Hr Hn (Hi & Ha & Hconn).
  destruct (sf_exchange n (acc ++ e :: rest) acc F e Hr) as (f & F' & HP & Hi' & Ha' & Hc');
    [|apply in_elt|exact Hn|].
  { split; [apply incl_app_app; [apply incl_refl|exact Hi]|]. split; [exact Ha|].
    intros x y. split; [apply Hconn|apply connects_mono, incl_app_app; [apply incl_refl|exact Hi]]. }
  exists f, F'. split; [apply Hi, (Permutation_in f (Permutation_sym HP)); left; reflexivity|].
  split; [exact (weight_perm _ _ HP)|]. rewrite <- app_assoc in Ha', Hc'. split; [|split].
  - intros x Hx. destruct (Hi x) as [<-|K]; [apply (Permutation_in x (Permutation_sym HP)); right; exact Hx| |exact K].
    destruct (acyclic_not_in _ _ _ Ha'). apply in_or_app. right. exact Hx.
  - rewrite <- app_assoc. exact Ha'.
  - intros x y. rewrite <- !app_assoc. apply Hc'.
Qed.

Theorem greedy_min : forall n es acc out, greedy acc es out -> sortedw es ->
  in_range n (acc ++ es) ->
  exists added, out = acc ++ added /\
    forall F, competitor acc es F -> (weight added <= weight F)%Z.
Proof.
  intros n es acc out H. induction H as [acc|acc e rest out Hc H IH|acc e rest out Hn H IH]; intros Hs Hr.
  - exists []. split; [rewrite app_nil_r; reflexivity|].
    intros F (Hi & _ & _). destruct F as [|x F]; [cbn; lia|]. destruct (Hi x (or_introl eq_refl)).
  - destruct IH as (added & Eo & Hmin'); [apply Hs|intros z Hz; apply Hr, incl_app_cons, Hz|].
    exists added. split; [exact Eo|]. intros F HF. apply Hmin', (competitor_skip acc e), HF. exact Hc.
  - destruct Hs as [Hmin Hs].
    destruct IH as (added & Eo & Hmin'); [exact Hs|rewrite <- app_assoc; exact Hr|].
    exists (e :: added). split; [rewrite Eo, <- app_assoc; reflexivity|]. intros F HF.
    destruct (competitor_take n acc e rest F Hr Hn HF) as (f & F' & Hf & -> & HF').
    specialize (Hmin' F' HF'). change (weight (e :: added)) with (ew e + weight added)%Z.
    destruct Hf as [<-|Hf]; [|specialize (Hmin f Hf)]; lia.
Qed.

Corollary greedy_minimum : forall n es out, greedy [] es out -> sortedw es -> in_range n es ->
  minimum es out.
Proof.
  intros n es out H Hs Hr. destruct (greedy_min n es [] out H Hs Hr) as (added & -> & Hmin).
  intros t' (Hi & Ha & Hc). apply Hmin. split; [exact Hi|]. split; [exact Ha|]. intros x y. apply Hc.
Qed.
