(* Soundness of the boolean checkers of MstSpec.v: kruskal_check and prim_check imply kruskal_spec / prim_spec
   (the label arrays decide UFSpec.joined: GraphLemmas.labels_ok).  Nothing here runs the kruskal or prim model;
   of the prim files only facts about graphs are used (arcs, nodes, reach versus connects, the membership tests). *)
From Coq Require Import List ZArith Bool Lia.
From SV Require Import C20.UFUnion.
From SV Require Import C13.Mst C13.MstSpec C13.GraphLemmas C13.ForestCount C13.PrimBasics C13.PrimProofs.
Import ListNotations.

Lemma forest_from_sound : forall n es acc ls,
  forest_from ls es = true -> LInv n (pairs acc) ls -> in_range n es -> incr_forest acc ->
  incr_forest (acc ++ es).
Proof.
  intros n es. induction es as [|e r IH]; intros acc ls H HI Hr Hf; cbn in H.
  - rewrite app_nil_r. exact Hf.
  - apply andb_true_iff in H. destruct H as [H1 H2].
    destruct (Hr e (or_introl eq_refl)) as [Ha Hb].
    change (acc ++ e :: r) with (acc ++ [e] ++ r). rewrite app_assoc.
    apply (IH (acc ++ [e]) (merge ls (eu e) (ev e))); [exact H2| | |].
    + rewrite pairs_snoc. apply LInv_merge; assumption.
    + intros e' He'. apply Hr. right. exact He'.
    + apply if_snoc; [exact Hf|]. intros K. destruct HI as (_ & _ & Hiff). apply Hiff in K.
      rewrite K, Nat.eqb_refl in H1. discriminate.
Qed.

Lemma forest_from_forest : forall n t, forest_from (seq 0 n) t = true -> in_range n t -> incr_forest t.
Proof. intros n t H Hr. exact (forest_from_sound n t [] (seq 0 n) H (LInv_init n) Hr if_nil). Qed.

Lemma connects_labels : forall n t, in_range n t ->
  forall x y, (lab (labels n (pairs t)) x =? lab (labels n (pairs t)) y) = true <-> connects t x y.
Proof. intros n t Hr x y. rewrite Nat.eqb_eq. apply labels_ok, in_range_pairs, Hr. Qed.

Lemma forest_check_sound : forall n edges t, in_range n edges -> forest_check n edges t = true ->
  spanning_forest edges t /\ incr_forest t /\ in_range n t.
Proof.
  intros n edges t Hr H. unfold forest_check in H. rewrite !andb_true_iff in H. destruct H as [[H1 H2] H3].
  pose proof (forallb_in_edges_incl _ _ H1) as Hin.
  assert (Hrt : in_range n t) by (intros e He; apply Hr, Hin, He).
  pose proof (forest_from_forest n t H2 Hrt) as Hf.
  split; [|split; [exact Hf|exact Hrt]].
  split; [exact Hin|]. split; [apply incr_forest_acyclic; exact Hf|].
  intros x y. split; [|apply connects_mono; exact Hin].
  apply connects_sub. intros e He. rewrite forallb_forall in H3. apply (connects_labels n t Hrt), H3, He.
Qed.

Lemma all_same_seq : forall n es, 1 <= n -> in_range n es ->
  (all_same (labels n (pairs es)) (seq 0 n) = true <-> connected_graph n es).
Proof.
  intros n es Hn Hr. pose proof (connects_labels n es Hr) as HL.
  destruct n as [|n]; [lia|]. cbn [seq all_same]. rewrite forallb_forall. split.
  - intros H x y Hx Hy.
    assert (K : forall z, z < S n -> connects es z 0).
    { intros z Hz. apply HL, H. change (In z (seq 0 (S n))). apply in_seq. lia. }
    eapply joined_trans; [apply K; exact Hx|apply joined_sym, K; exact Hy].
  - intros H x Hx. apply HL, H; [|lia].
    change (In x (seq 0 (S n))) in Hx. apply in_seq in Hx. lia.
Qed.

Theorem kruskal_check_sound : forall n edges af o,
  kruskal_check n edges af o = true -> kruskal_spec n edges af o.
Proof.
  intros n edges af [[st sol] obj] H. unfold kruskal_check in H.
  apply andb_true_iff in H. destruct H as [Hv H]. apply kruskal_valid_iff in Hv. destruct Hv as [Hn Hr].
  unfold kruskal_spec.
  destruct st; destruct sol as [t|]; destruct obj as [z|]; try discriminate;
    rewrite !andb_true_iff in H.
  - destruct H as [[[Hfc Hlen] Hz] Hsame]. apply Nat.eqb_eq in Hlen. apply Z.eqb_eq in Hz. subst z.
    destruct (forest_check_sound n edges t Hr Hfc) as (HF & Hf & Hrt).
    exists t. split; [reflexivity|]. split; [reflexivity|]. split; [exact HF|]. split; [exact Hlen|].
    intros x y Hx Hy. apply (proj2 (proj2 HF)). apply (proj1 (all_same_seq n t Hn Hrt)); assumption.
  - destruct H as [[[[Haf Hfc] Hlen] Hz] Hsame]. apply Nat.ltb_lt in Hlen. apply Z.eqb_eq in Hz. subst z.
    destruct (forest_check_sound n edges t Hr Hfc) as (HF & Hf & Hrt).
    split; [exact Haf|]. exists t. split; [reflexivity|]. split; [reflexivity|].
    split; [exact HF|]. split; [exact Hlen|]. split.
    + apply (num_classes_iff (connects t)); [intros x y; symmetry; apply (proj2 (proj2 HF))|].
      apply forest_classes; assumption.
    + intros Hc. assert (Hct : connected_graph n t).
      { intros x y Hx Hy. apply (proj2 (proj2 HF)). apply Hc; assumption. }
      apply (all_same_seq n t Hn Hrt) in Hct. rewrite Hct in Hsame. discriminate.
  - destruct H as [H1 H2].
    split; [destruct af; [discriminate|reflexivity]|]. split; [reflexivity|]. split; [reflexivity|].
    intros Hc. apply (all_same_seq n edges Hn Hr) in Hc. rewrite Hc in H2. discriminate.
Qed.

(* bound g s, the length of the label arrays of prim_check, exceeds s and every node of g *)
Lemma node_lt_bound : forall g s x, In x (s :: all_nodes g) -> x < bound g s.
Proof.
  intros g s x H. unfold bound.
  pose proof (proj1 (list_max_le (s :: all_nodes g) (list_max (s :: all_nodes g))) (Nat.le_refl _)) as F.
  rewrite Forall_forall in F. specialize (F x H). lia.
Qed.

Lemma arcs_in_range : forall g s, in_range (bound g s) (arcs g).
Proof.
  intros g s [[u v] w] He. destruct (arc_nodes g u v w He) as [K1 K2].
  split; apply node_lt_bound; right; assumption.
Qed.

Theorem prim_check_sound : forall g start o, prim_check g start o = true -> prim_spec g start o.
Proof.
  intros g start [[st sol] obj] H. unfold prim_check in H.
  rewrite !andb_true_iff in H. destruct H as [[Hv Hsym] H3].
  apply symmetricb_sound in Hsym. unfold prim_spec.
  destruct g as [|kn g'] eqn:Eg.
  - destruct st; destruct sol as [[|? ?]|]; destruct obj as [[| |]|]; try discriminate. auto.
  - rewrite <- Eg in *. assert (Hg : g <> []) by (rewrite Eg; discriminate).
    destruct (prim_start_node g start Hg Hv) as [Hnd Hs]. cbv zeta in *.
    set (s := prim_start g start) in *. set (N := bound g s) in *.
    pose proof (arcs_in_range g s : in_range N (arcs g)) as HrA.
    destruct st; destruct sol as [t|]; destruct obj as [z|]; try discriminate.
    + rewrite !andb_true_iff in H3. destruct H3 as [[[[H3 H2] H1] Hlen] Hz].
      apply Nat.eqb_eq in Hlen. apply Z.eqb_eq in Hz. subst z.
      pose proof (forallb_in_edges_incl _ _ H3) as Hin.
      assert (Hrt : in_range N t) by (intros e He; apply HrA, Hin, He).
      assert (Hconn : forall x, is_node g x -> connects t s x).
      { intros x Hx. rewrite forallb_forall in H1. apply joined_sym, (connects_labels N t Hrt), H1, Hx. }
      exists t. split; [reflexivity|]. split; [reflexivity|]. split; [exact Hin|].
      split; [apply incr_forest_acyclic, (forest_from_forest N); assumption|]. split; [exact Hconn|].
      split; [|split; [exact Hlen|]].
      * intros x K. destruct (connects_closed t (is_node g)) with (x := s) (y := x) as [<-|[_ K']];
          [intros [[u v] w] He; exact (arc_nodes g u v w (Hin _ He))|exact K|exact Hs|exact K'].
      * intros x Hx. exact (proj1 (connects_reach g Hsym _ _ (connects_mono _ _ _ _ Hin (Hconn x Hx)))).
    + split; [reflexivity|]. split; [reflexivity|].
      apply negb_true_iff, forallb_false in H3. destruct H3 as [x [Hx1 Hx2]].
      exists x. split; [exact Hx1|]. intros Hr. apply Nat.eqb_neq in Hx2. apply Hx2, Nat.eqb_eq.
      apply (connects_labels N (arcs g) HrA), joined_sym, reach_connects, Hr.
Qed.
