(* C13, kruskal: the accepted edges are a spanning forest of the input (structure, count, status,
   objective) of minimum total weight.  The loop is the greedy rule of Greedy.v; its test is decided by the
   union-find model, through the state invariant SInv of C20 (init_SInv, union_ok). *)
From Coq Require Import List ZArith Lia Permutation.
From SV Require Import C20.UF C20.UFSpec C20.UFUnion C20.UFCount C20.UFProofs.
From SV Require Import C13.Mst C13.MstSpec C13.GraphLemmas C13.ForestCount C13.Greedy.
Import ListNotations.

Lemma insert_edge_perm : forall e l, Permutation (insert_edge e l) (e :: l).
Proof.
  intros e l. induction l as [|y t IH]; cbn; [reflexivity|].
  destruct (ew e <=? ew y)%Z; [reflexivity|]. rewrite IH. apply perm_swap.
Qed.

Lemma sort_edges_perm : forall l, Permutation (sort_edges l) l.
Proof. induction l as [|e l IH]; cbn; [constructor|]. rewrite insert_edge_perm, IH. reflexivity. Qed.

Lemma In_sort_edges : forall l x, In x (sort_edges l) <-> In x l.
Proof. intros l x. split; apply Permutation_in; [|symmetry]; apply sort_edges_perm. Qed.

Lemma sortedw_insert : forall e l, sortedw l -> sortedw (insert_edge e l).
Proof.
  intros e l. induction l as [|y t IH]; intros H; cbn.
  - split; [intros x []|exact I].
  - destruct H as [Hy Ht]. destruct (Z.leb_spec (ew e) (ew y)) as [E|E].
    + split; [|split; assumption]. intros x [<-|Hx]; [exact E|]. specialize (Hy x Hx). lia.
    + split; [|apply IH; exact Ht]. intros x Hx. apply (Permutation_in x (insert_edge_perm e t)) in Hx.
      destruct Hx as [<-|Hx]; [lia|apply Hy; exact Hx].
Qed.

Lemma sortedw_sort : forall l, sortedw (sort_edges l).
Proof. induction l as [|e l IH]; [exact I|]. apply sortedw_insert, IH. Qed.

Lemma SInv_iff : forall n pre pre' u, (forall x y, joined pre' x y <-> joined pre x y) ->
  SInv n pre' u -> SInv n pre u.
Proof.
  intros n pre pre' u E (Hw & Hc & HR). split; [exact Hw|]. split; [exact Hc|].
  intros x y. rewrite <- (E x y). apply HR.
Qed.

(* the union-find state represents the connectivity of the accepted edges, so union answers the greedy test *)
Lemma kruskal_loop_greedy : forall n es acc u iters,
  1 <= n -> in_range n (acc ++ es) -> SInv n (pairs acc) u -> incr_forest acc ->
  exists acc' iters',
    kruskal_loop n u es acc (weight acc) iters = Some (acc', weight acc', iters') /\
    iters' <= iters + length es /\ greedy acc es acc'.
Proof.
  intros n es. induction es as [|e rest IH]; intros acc u iters Hn Hr HS Hf.
  - exists acc, iters. split; [reflexivity|]. split; [cbn; lia|constructor].
  - destruct (Hr e (in_elt e acc rest)) as [Hx Hy].
    destruct (union_ok n (pairs acc) u (eu e) (ev e) HS Hx Hy) as (u' & b & Hu & Hb & HS').
    cbn [kruskal_loop]. rewrite Hu. destruct b.
    + assert (Hnj : ~ connects acc (eu e) (ev e)) by (apply Hb; reflexivity).
      rewrite <- pairs_snoc in HS'. rewrite <- weight_snoc.
      assert (Hr' : in_range n ((acc ++ [e]) ++ rest)) by (rewrite <- app_assoc; exact Hr).
      pose proof (if_snoc acc e Hf Hnj) as Hf'.
      destruct (length (acc ++ [e]) =? n - 1) eqn:El.
      * exists (acc ++ [e]), (S iters). split; [reflexivity|]. split; [cbn; lia|].
        apply gr_take; [exact Hnj|]. apply (greedy_full n); [assumption..|apply Nat.eqb_eq, El].
      * destruct (IH (acc ++ [e]) u' (S iters) Hn Hr' HS' Hf') as (acc' & iters' & Hk & Hit & Hgr).
        exists acc', iters'. split; [exact Hk|]. split; [cbn; lia|]. apply gr_take; assumption.
    + assert (Hj : connects acc (eu e) (ev e)).
      { destruct (connects_dec n acc) with (x := eu e) (y := ev e) as [K|K];
          [intros z Hz; apply Hr, in_or_app; left; exact Hz|exact K|apply Hb in K; discriminate]. }
      apply (SInv_iff n (pairs acc)) in HS'; [|apply joined_add_redundant, Hj].
      destruct (IH acc u' (S iters) Hn) as (acc' & iters' & Hk & Hit & Hgr);
        [intros z Hz; apply Hr, incl_app_cons, Hz|assumption..|].
      exists acc', iters'. split; [exact Hk|]. split; [cbn; lia|]. apply gr_skip; assumption.
Qed.

Theorem kruskal_core_forest : forall n edges, kruskal_valid n edges = true ->
  exists acc tot iters,
    kruskal_core n edges = Some (acc, tot, iters) /\
    spanning_forest edges acc /\ incr_forest acc /\ tot = weight acc /\
    num_classes n (connects edges) (n - length acc) /\ length acc <= n - 1 /\
    iters <= length edges /\ greedy [] (sort_edges edges) acc.
Proof.
  intros n edges Hv. apply kruskal_valid_iff in Hv. destruct Hv as [Hn Hr].
  assert (Hrs : in_range n ([] ++ sort_edges edges)) by (intros e He; apply Hr, In_sort_edges, He).
  destruct (kruskal_loop_greedy n (sort_edges edges) [] (uf_init n) 0 Hn Hrs (init_SInv n) if_nil)
    as (acc & iters & Hk & Hit & Hgr).
  destruct (greedy_forest _ _ _ Hgr) as (_ & Hi & Hf & Hall). specialize (Hf if_nil). cbn [app] in Hi.
  assert (Hsub : incl acc edges) by (intros e He; apply In_sort_edges, Hi, He).
  assert (Hconn : forall x y, connects edges x y <-> connects acc x y).
  { intros x y. split; [|apply connects_mono, Hsub].
    apply connects_sub. intros e He. apply Hall, In_sort_edges, He. }
  destruct (forest_classes n acc Hf) as [Hnc _]; [intros e He; apply Hr, Hsub, He|].
  pose proof (num_classes_ge1 _ _ _ Hnc Hn) as Hc1.
  exists acc, (weight acc), iters. split; [exact Hk|].
  split; [|split; [exact Hf|split; [reflexivity|split; [|split; [lia|split; [|exact Hgr]]]]]].
  - split; [exact Hsub|]. split; [apply incr_forest_acyclic, Hf|exact Hconn].
  - apply (num_classes_iff (connects acc)); [intros x y; symmetry; apply Hconn|exact Hnc].
  - rewrite <- (Permutation_length (sort_edges_perm edges)). exact Hit.
Qed.

Theorem kruskal_core_min : forall n edges acc tot iters, kruskal_valid n edges = true ->
  kruskal_core n edges = Some (acc, tot, iters) ->
  spanning_forest edges acc /\ tot = weight acc /\ minimum edges acc.
Proof.
  intros n edges acc tot iters Hv Hk.
  destruct (kruskal_core_forest n edges Hv) as (acc' & tot' & iters' & Hk' & HSF & _ & Ht & _ & _ & _ & Hgr).
  rewrite Hk in Hk'. injection Hk' as <- <- <-.
  split; [exact HSF|]. split; [exact Ht|]. apply kruskal_valid_iff in Hv. destruct Hv as [_ Hr].
  assert (Hm : minimum (sort_edges edges) acc).
  { apply (greedy_minimum n); [exact Hgr|apply sortedw_sort|intros e He; apply Hr, In_sort_edges, He]. }
  intros t' Ht'. apply Hm. apply (sf_transfer edges); [| |exact Ht']; intros e He; apply In_sort_edges, He.
Qed.

Theorem kruskal_forest_min : forall n edges allow_forest, kruskal_valid n edges = true ->
  exists r, kruskal n edges allow_forest = Done r /\
            kruskal_spec_min n edges allow_forest (r_status r, r_solution r, r_objective r).
Proof.
  intros n edges af Hv.
  destruct (kruskal_core_forest n edges Hv) as (acc & tot & iters & Hk & HF & Hf & Ht & Hnc & Hle & Hit & _).
  destruct (kruskal_core_min n edges acc tot iters Hv Hk) as (_ & _ & Hm).
  unfold kruskal. rewrite Hv, Hk. eexists. split; [reflexivity|].
  apply kruskal_valid_iff in Hv. destruct Hv as [Hn Hr]. subst tot. unfold kruskal_result.
  destruct (Nat.ltb_spec (length acc) (n - 1)) as [El|El].
  - assert (Hnot : ~ connected_graph n edges).
    { intros Hc. pose proof (num_classes_connected (pairs edges) n Hn Hc) as H1.
      pose proof (num_classes_unique _ _ _ _ Hnc H1). lia. }
    destruct af; (split; [|cbn; intros t [= <-]; exact Hm]); cbn.
    + split; [reflexivity|]. exists acc. repeat split; try assumption; apply HF.
    + repeat split; assumption.
  - split; [|cbn; intros t [= <-]; exact Hm]. cbn.
    exists acc. split; [reflexivity|]. split; [reflexivity|]. split; [exact HF|]. split; [lia|].
    intros x y. apply (num_classes_one (pairs edges) n). replace 1 with (n - length acc) by lia. exact Hnc.
Qed.
