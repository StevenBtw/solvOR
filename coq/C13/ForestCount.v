(* Edge lists with end points below n (what kruskal's validators accept): connectivity is decidable; a forest
   with k edges on n nodes has n - k classes; acyclic (every edge a bridge) = built edge by edge. *)
From Coq Require Import List ZArith Bool Lia.
From SV Require Import C20.UFSpec C20.UFUnion C13.Mst C13.MstSpec C13.GraphLemmas.
Import ListNotations.

Definition in_range (n : nat) (es : list edge) : Prop := forall e, In e es -> eu e < n /\ ev e < n.

Lemma in_range_pairs : forall n es, in_range n es -> pairs_in_range n (pairs es).
Proof. intros n es H p Hp. apply in_map_iff in Hp. destruct Hp as [e [<- He]]. apply H, He. Qed.

Lemma connects_dec : forall n es, in_range n es -> forall x y, connects es x y \/ ~ connects es x y.
Proof. intros n es Hr. apply (joined_dec n), in_range_pairs, Hr. Qed.

Lemma forallb_edge_in_range : forall n es, forallb (edge_in_range n) es = true <-> in_range n es.
Proof.
  intros n es. rewrite forallb_forall. unfold edge_in_range.
  split; intros H e He; specialize (H e He); rewrite andb_true_iff, !Nat.ltb_lt in *; exact H.
Qed.

Lemma kruskal_valid_iff : forall n es, kruskal_valid n es = true <-> 1 <= n /\ in_range n es.
Proof. intros n es. unfold kruskal_valid. rewrite andb_true_iff, Nat.leb_le, forallb_edge_in_range. reflexivity. Qed.

Lemma num_classes_add : forall n ps a b c, a < n -> b < n -> ~ joined ps a b ->
  num_classes n (joined ps) c -> num_classes n (joined (ps ++ [(a, b)])) (c - 1) /\ 1 <= c.
Proof.
  intros n ps a b c Ha Hb Hn (reps & Hnd & HL & Hlt & Hcov & Hsep).
  destruct (Hcov a Ha) as [ra [Ira Ja]]. destruct (Hcov b Hb) as [rb [Irb Jb]].
  assert (Hne : ra <> rb).
  { intros E. subst. apply Hn. eapply joined_trans; [exact Ja|apply joined_sym; exact Jb]. }
  (* the representative of b goes *)
  destruct (in_split rb reps Irb) as (l1 & l2 & E). subst reps.
  pose proof (NoDup_remove_2 _ _ _ Hnd) as Hrb. rewrite app_length in HL. cbn in HL.
  assert (Hin : forall z, In z (l1 ++ rb :: l2) -> z = rb \/ In z (l1 ++ l2)).
  { intros z Hz. apply in_elt_inv in Hz. destruct Hz; [left; congruence|right; assumption]. }
  split; [|lia]. exists (l1 ++ l2). split; [exact (NoDup_remove_1 _ _ _ Hnd)|].
  split; [rewrite app_length; lia|]. split; [intros r Hr; apply Hlt, (incl_app_cons l1 l2 rb), Hr|]. split.
  - intros x Hx. destruct (Hcov x Hx) as [r [Ir Jr]]. destruct (Hin r Ir) as [->|Ir'].
    + exists ra. split; [destruct (Hin ra Ira); [contradiction|assumption]|].
      apply joined_add. right; right. split; [|exact Ja].
      eapply joined_trans; [exact Jr|apply joined_sym; exact Jb].
    + exists r. split; [exact Ir'|apply joined_app_l; exact Jr].
  - intros r r' Hr Hr' J.
    assert (Hb' : forall z, In z (l1 ++ l2) -> ~ joined ps z b).
    { intros z Hz K. apply Hrb. replace rb with z; [exact Hz|].
      apply Hsep; [apply incl_app_cons, Hz|exact Irb|]. eapply joined_trans; [exact K|exact Jb]. }
    apply joined_add in J. destruct J as [J|[[_ K]|[K _]]].
    + apply Hsep; [apply incl_app_cons, Hr|apply incl_app_cons, Hr'|exact J].
    + destruct (Hb' r' Hr'). apply joined_sym, K.
    + destruct (Hb' r Hr K).
Qed.

Lemma num_classes_nil : forall n, num_classes n (joined []) n.
Proof.
  intros n. exists (seq 0 n). split; [apply seq_NoDup|]. split; [apply seq_length|].
  split; [intros r Hr; apply in_seq in Hr; lia|]. split.
  - intros x Hx. exists x. split; [apply in_seq; lia|apply joined_refl].
  - intros r r' _ _ J. apply joined_nil in J. exact J.
Qed.

Theorem forest_classes : forall n t, incr_forest t -> in_range n t ->
  num_classes n (connects t) (n - length t) /\ length t <= n.
Proof.
  intros n t H. induction H as [|acc e H IH Hn]; intros Hr.
  - cbn. rewrite Nat.sub_0_r. split; [apply num_classes_nil|lia].
  - assert (Hra : in_range n acc). { intros e' He'. apply Hr, in_or_app. left. exact He'. }
    destruct (Hr e) as [Ha Hb]; [apply in_or_app; right; left; reflexivity|].
    destruct (IH Hra) as [IH1 IH2].
    destruct (num_classes_add n (pairs acc) (eu e) (ev e) _ Ha Hb Hn IH1) as [K1 K2].
    unfold connects. rewrite pairs_snoc, app_length. cbn [length].
    replace (n - (length acc + 1)) with (n - length acc - 1) by lia. split; [exact K1|lia].
Qed.

Lemma acyclic_prefix : forall acc e, acyclic (acc ++ [e]) -> acyclic acc /\ ~ connects acc (eu e) (ev e).
Proof.
  intros acc e H. split.
  - intros l1 e' l2 E K. subst acc. apply (H l1 e' (l2 ++ [e])).
    + rewrite <- app_assoc. reflexivity.
    + rewrite app_assoc. eapply connects_mono; [|exact K]. apply incl_appl, incl_refl.
  - intros K. apply (H acc e []); [reflexivity|]. rewrite app_nil_r. exact K.
Qed.

Theorem acyclic_incr_forest : forall t, acyclic t -> incr_forest t.
Proof.
  intros t. induction t as [|e acc IH] using rev_ind; intros H; [constructor|].
  destruct (acyclic_prefix acc e H) as [H1 H2]. apply if_snoc; [apply IH; exact H1|exact H2].
Qed.

Corollary acyclic_classes : forall n t, acyclic t -> in_range n t ->
  num_classes n (connects t) (n - length t) /\ length t <= n.
Proof. intros n t H. apply forest_classes, acyclic_incr_forest, H. Qed.
