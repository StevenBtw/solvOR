(* C13, prim: basic facts about the containers of the model (node set, lookup, arcs, heap pushes) and about the
   boolean tests of MstSpec on them (nodupb, in_edges, symmetricb). *)
From Coq Require Import List ZArith Bool Lia Permutation.
From SV Require Import C13.Mst C13.MstSpec.
Import ListNotations.

Lemma mem_In : forall x s, mem x s = true <-> In x s.
Proof.
  intros x s. unfold mem. rewrite existsb_exists. split.
  - intros [y [Hy E]]. apply Nat.eqb_eq in E. subst. exact Hy.
  - intros H. exists x. split; [exact H|apply Nat.eqb_refl].
Qed.

Lemma mem_false : forall x s, mem x s = false <-> ~ In x s.
Proof.
  intros x s. split.
  - intros H K. apply mem_In in K. congruence.
  - intros H. destruct (mem x s) eqn:E; [|reflexivity]. exfalso. apply H, mem_In, E.
Qed.

Lemma forallb_false : forall {A} (f : A -> bool) l, forallb f l = false -> exists x, In x l /\ f x = false.
Proof.
  intros A f l. induction l as [|a l IH]; cbn; [discriminate|].
  destruct (f a) eqn:E; [|intros _; exists a; auto]. intros H. destruct (IH H) as [x [H1 H2]]. exists x. auto.
Qed.

Lemma In_add_set : forall x y s, In x (add_set y s) <-> x = y \/ In x s.
Proof.
  intros x y s. unfold add_set. destruct (mem y s) eqn:E.
  - apply mem_In in E. split; [intros H; right; exact H|intros [->|H]; assumption].
  - cbn. split; intros [H|H]; auto.
Qed.

Lemma NoDup_add_set : forall y s, NoDup s -> NoDup (add_set y s).
Proof.
  intros y s H. unfold add_set. destruct (mem y s) eqn:E; [exact H|].
  constructor; [apply mem_false; exact E|exact H].
Qed.

Lemma fold_add_set : forall {A} (f : A -> nat) (l : list A) s,
  (NoDup s -> NoDup (fold_left (fun s a => add_set (f a) s) l s)) /\
  (forall x, In x (fold_left (fun s a => add_set (f a) s) l s) <-> In x s \/ In x (map f l)).
Proof.
  intros A f l. induction l as [|a l IH]; intros s; cbn.
  - split; [auto|]. intros x. tauto.
  - destruct (IH (add_set (f a) s)) as [IH1 IH2]. split.
    + intros H. apply IH1. apply NoDup_add_set. exact H.
    + intros x. rewrite IH2, In_add_set. split.
      * intros [[H|H]|H]; [right; left; symmetry; exact H|left; exact H|right; right; exact H].
      * intros [H|[H|H]]; [left; right; exact H|left; left; symmetry; exact H|right; exact H].
Qed.

Lemma fold_left_concat : forall {A B C} (f : A -> B -> A) (sel : C -> list B) (l : list C) s,
  fold_left (fun s c => fold_left f (sel c) s) l s = fold_left f (concat (map sel l)) s.
Proof.
  intros A B C f sel l. induction l as [|c l IH]; intros s; cbn; [reflexivity|].
  rewrite fold_left_app. apply IH.
Qed.

Definition heads (g : graph) : list nat := map (@fst nat Z) (concat (map (@snd nat (list (nat * Z))) g)).

Lemma all_nodes_NoDup : forall g, NoDup (all_nodes g).
Proof. intros g. unfold all_nodes. rewrite fold_left_concat. apply fold_add_set, fold_add_set. constructor. Qed.

Lemma In_all_nodes : forall g x, In x (all_nodes g) <-> In x (keys g) \/ In x (heads g).
Proof.
  intros g x. unfold all_nodes. rewrite fold_left_concat, !(proj2 (fold_add_set _ _ _)).
  cbn. unfold keys, heads. tauto.
Qed.

Lemma In_arcs : forall g u v w, In (u, v, w) (arcs g) <-> exists ns, In (u, ns) g /\ In (v, w) ns.
Proof.
  intros g u v w. unfold arcs. rewrite in_flat_map. split.
  - intros [[k ns] [Hk Hin]]. cbn in Hin. apply in_map_iff in Hin.
    destruct Hin as [[v' w'] [E Hin]]. cbn in E. inversion E; subst. exists ns. split; assumption.
  - intros [ns [Hk Hin]]. exists (u, ns). split; [exact Hk|]. cbn. apply in_map_iff.
    exists (v, w). split; [reflexivity|exact Hin].
Qed.

Lemma arc_nodes : forall g u v w, In (u, v, w) (arcs g) -> In u (all_nodes g) /\ In v (all_nodes g).
Proof.
  intros g u v w H. apply In_arcs in H. destruct H as [ns [Hk Hin]]. rewrite !In_all_nodes. split.
  - left. unfold keys. change u with (fst (u, ns)). apply in_map. exact Hk.
  - right. unfold heads. change v with (fst (v, w)). apply in_map. apply in_concat.
    exists ns. split; [|exact Hin]. change ns with (snd (u, ns)). apply in_map. exact Hk.
Qed.

Lemma lookup_arcs : forall g u v w, In (v, w) (lookup g u) -> In (u, v, w) (arcs g).
Proof.
  induction g as [|[k ns] g IH]; intros u v w H; cbn in H; [contradiction|].
  apply In_arcs. destruct (k =? u) eqn:E.
  - apply Nat.eqb_eq in E. subst. exists ns. split; [left; reflexivity|exact H].
  - apply IH in H. apply In_arcs in H. destruct H as [ns' [H1 H2]]. exists ns'. split; [right; exact H1|exact H2].
Qed.

Lemma lookup_NoDup : forall g u ns, NoDup (keys g) -> In (u, ns) g -> lookup g u = ns.
Proof.
  induction g as [|[k ns'] g IH]; intros u ns Hnd H; [contradiction|].
  cbn in Hnd. inversion Hnd as [|a l Hnin Hnd']; subst. cbn. destruct H as [H|H].
  - inversion H; subst. rewrite Nat.eqb_refl. reflexivity.
  - destruct (k =? u) eqn:E; [|apply IH; assumption].
    apply Nat.eqb_eq in E. subst. exfalso. apply Hnin. unfold keys.
    change u with (fst (u, ns)). apply in_map. exact H.
Qed.

Lemma arcs_lookup : forall g u v w, NoDup (keys g) -> In (u, v, w) (arcs g) -> In (v, w) (lookup g u).
Proof.
  intros g u v w Hnd H. apply In_arcs in H. destruct H as [ns [H1 H2]].
  rewrite (lookup_NoDup g u ns Hnd H1). exact H2.
Qed.

Lemma nodupb_NoDup : forall l, nodupb l = true -> NoDup l.
Proof.
  induction l as [|x r IH]; intros H; [constructor|].
  cbn in H. apply andb_true_iff in H. destruct H as [H1 H2].
  constructor; [apply mem_false; destruct (mem x r); [discriminate|reflexivity]|apply IH; exact H2].
Qed.

Lemma edge_eqb_eq : forall a b, edge_eqb a b = true -> a = b.
Proof.
  intros [[a1 a2] a3] [[b1 b2] b3] H. unfold edge_eqb, eu, ev, ew in H. cbn in H.
  rewrite !andb_true_iff, !Nat.eqb_eq, Z.eqb_eq in H. destruct H as [[-> ->] ->]. reflexivity.
Qed.

Lemma in_edges_In : forall es e, in_edges es e = true -> In e es.
Proof.
  intros es e H. apply existsb_exists in H. destruct H as [x [Hx E]].
  apply edge_eqb_eq in E. subst. exact Hx.
Qed.

Lemma forallb_in_edges_incl : forall es t, forallb (in_edges es) t = true -> incl t es.
Proof. intros es t H e He. rewrite forallb_forall in H. apply in_edges_In, H, He. Qed.

Lemma symmetricb_sound : forall g, symmetricb g = true -> symmetric g.
Proof.
  intros g H u v w Ha. unfold symmetricb in H. rewrite forallb_forall in H.
  exact (in_edges_In _ _ (H _ Ha)).
Qed.

(* adjacency entries of the keys not yet visited: what can still be pushed *)
Fixpoint rem (g : graph) (ins : list nat) : nat :=
  match g with
  | [] => 0
  | (k, ns) :: t => (if mem k ins then 0 else length ns) + rem t ins
  end.

Lemma rem_nil : forall g, rem g [] = total_entries g.
Proof. induction g as [|[k ns] g IH]; cbn; [reflexivity|]. rewrite IH. reflexivity. Qed.

Lemma mem_cons : forall k v ins, mem k (v :: ins) = (k =? v) || mem k ins.
Proof. reflexivity. Qed.

Lemma rem_mono : forall g v ins, rem g (v :: ins) <= rem g ins.
Proof.
  induction g as [|[k ns] g IH]; intros v ins; cbn [rem]; [lia|].
  specialize (IH v ins). rewrite mem_cons. destruct (k =? v); destruct (mem k ins); cbn; lia.
Qed.

Lemma rem_step : forall g v ins, mem v ins = false ->
  rem g (v :: ins) + length (lookup g v) <= rem g ins.
Proof.
  induction g as [|[k ns] g IH]; intros v ins Hm; cbn [rem lookup]; [cbn; lia|].
  rewrite mem_cons. destruct (k =? v) eqn:E.
  - apply Nat.eqb_eq in E. subst. rewrite Hm. cbn. pose proof (rem_mono g v ins). lia.
  - specialize (IH v ins Hm). cbn. destruct (mem k ins); lia.
Qed.

Lemma heap_push_perm : forall e h, Permutation (heap_push e h) (e :: h).
Proof.
  intros e h. induction h as [|y t IH]; cbn; [reflexivity|].
  destruct (h_lt e y); [reflexivity|]. rewrite IH. apply perm_swap.
Qed.

Lemma In_heap_push : forall e h x, In x (heap_push e h) <-> e = x \/ In x h.
Proof.
  intros e h x. change (e = x \/ In x h) with (In x (e :: h)).
  split; apply Permutation_in; [|symmetry]; apply heap_push_perm.
Qed.

Lemma push_all_spec : forall flt v ns s,
  let s' := push_all flt v ns s in
  p_in s' = p_in s /\ p_acc s' = p_acc s /\ p_tot s' = p_tot s /\
  (forall h, In h (p_heap s) -> In h (p_heap s')) /\
  (forall h, In h (p_heap s') -> In h (p_heap s) \/ (h_u h = v /\ In (h_v h, h_w h) ns)) /\
  (forall nb w, In (nb, w) ns ->
     (flt = true /\ In nb (p_in s)) \/ exists c, In (w, c, v, nb) (p_heap s')) /\
  length (p_heap s') <= length (p_heap s) + length ns.
Proof.
  intros flt v ns. induction ns as [|[nb w] rest IH]; intros s; cbn [push_all].
  - cbn. repeat split; auto; [intros nb w []|lia].
  - destruct (flt && mem nb (p_in s)) eqn:E.
    + destruct (IH s) as (I1 & I2 & I3 & I4 & I5 & I6 & I7). cbv zeta.
      repeat (split; [assumption|]). split; [|split; [|cbn [length]; lia]].
      * intros h Hh. destruct (I5 h Hh) as [K|[K1 K2]]; [left; exact K|right; split; [exact K1|right; exact K2]].
      * intros nb' w' [K|K]; [|apply I6, K]. inversion K; subst. left.
        apply andb_true_iff in E. split; [apply E|apply mem_In, E].
    + match goal with |- context [push_all flt v rest ?s1] =>
        destruct (IH s1) as (I1 & I2 & I3 & I4 & I5 & I6 & I7) end.
      cbn [p_in p_acc p_tot p_heap] in *. cbv zeta.
      repeat (split; [assumption|]). split; [|split; [|split]].
      * intros h Hh. apply I4, In_heap_push. right. exact Hh.
      * intros h Hh. destruct (I5 h Hh) as [K|[K1 K2]]; [|right; split; [exact K1|right; exact K2]].
        apply In_heap_push in K. destruct K as [<-|K]; [right; split; [reflexivity|left; reflexivity]|left; exact K].
      * intros nb' w' [K|K]; [|apply I6, K]. inversion K; subst. right.
        exists (p_counter s). apply I4, In_heap_push. left. reflexivity.
      * rewrite (Permutation_length (heap_push_perm _ _)) in I7. cbn [length] in *. lia.
Qed.
