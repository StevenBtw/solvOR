(* C13, prim: the returned edges grow a tree from start that spans every node (OPTIMAL) or some node is
   unreachable from start along the adjacency lists (INFEASIBLE); the loop never runs out of fuel. *)
From Coq Require Import List ZArith Bool Lia Relations.
From SV Require Import C20.UFUnion C13.Mst C13.MstSpec C13.GraphLemmas C13.PrimBasics.
Import ListNotations.

(* the tree grown so far: visited nodes, accepted edges, running total *)
Definition Tree (g : graph) (start : nat) (ins : list nat) (acc : list edge) (tot : Z) : Prop :=
  NoDup ins /\ In start ins /\ incl ins (all_nodes g) /\
  (forall x, In x ins -> connects acc start x /\ reach g start x) /\
  (forall e, In e acc -> In (eu e) ins /\ In (ev e) ins) /\
  incr_forest acc /\ incl acc (arcs g) /\ S (length acc) = length ins /\ tot = weight acc.

(* the heap holds arcs that leave visited nodes, among them every arc from a visited to an unvisited node *)
Definition Frontier (g : graph) (ins : list nat) (heap : list hentry) : Prop :=
  (forall h, In h heap -> In (h_u h, h_v h, h_w h) (arcs g) /\ In (h_u h) ins) /\
  (forall u v w, In u ins -> In (u, v, w) (arcs g) -> In v ins \/ exists c, In (w, c, u, v) heap).

(* prim's loop invariant *)
Definition PI (g : graph) (start : nat) (s : pstate) : Prop :=
  Tree g start (p_in s) (p_acc s) (p_tot s) /\ Frontier g (p_in s) (p_heap s).

Lemma Tree_init : forall g start, In start (all_nodes g) -> Tree g start [start] [] 0.
Proof.
  intros g start Hs. split; [repeat constructor; intros []|]. split; [left; reflexivity|].
  split; [intros x [<-|[]]; exact Hs|].
  split; [intros x [<-|[]]; split; [apply joined_refl|apply rt_refl]|].
  split; [intros e []|]. split; [constructor|]. split; [intros e []|]. split; reflexivity.
Qed.

Lemma Tree_grow : forall g start ins acc tot u v w, Tree g start ins acc tot ->
  In u ins -> ~ In v ins -> In (u, v, w) (arcs g) ->
  Tree g start (v :: ins) (acc ++ [(u, v, w)]) (tot + w).
Proof.
  intros g start ins acc tot u v w (T1 & T2 & T3 & T4 & T5 & T6 & T7 & T8 & T9) Hu Hv Ha.
  assert (Hne : ~ connects acc u v).
  { intros K. destruct (connects_closed acc (fun z => In z ins) T5 u v K) as [->|[_ K']]; [exact (Hv Hu)|exact (Hv K')]. }
  assert (M : forall x, connects acc start x -> connects (acc ++ [(u, v, w)]) start x).
  { intros x. apply connects_mono, incl_appl, incl_refl. }
  split; [constructor; assumption|]. split; [right; exact T2|].
  split; [intros x [<-|Hx]; [apply (arc_nodes g _ _ _ Ha)|apply T3, Hx]|].
  split; [|split; [|split; [|split; [|split]]]].
  - intros x [<-|Hx].
    + destruct (T4 u Hu) as [C R]. split.
      * eapply joined_trans; [apply M, C|]. apply (connects_edge _ (u, v, w)), in_elt.
      * eapply rt_trans; [exact R|]. apply rt_step. exists w. exact Ha.
    + destruct (T4 x Hx) as [C R]. split; [apply M, C|exact R].
  - intros e He. apply in_app_or in He. destruct He as [He|[<-|[]]].
    + destruct (T5 e He). split; right; assumption.
    + split; [right; exact Hu|left; reflexivity].
  - apply if_snoc; assumption.
  - apply incl_app; [exact T7|]. intros x [<-|[]]. exact Ha.
  - rewrite app_length. cbn. lia.
  - rewrite weight_snoc, T9. reflexivity.
Qed.

Lemma Frontier_skip : forall g ins h heap', Frontier g ins (h :: heap') -> In (h_v h) ins ->
  Frontier g ins heap'.
Proof.
  intros g ins h heap' [A B] Hv. split.
  - intros h' Hh'. apply A. right. exact Hh'.
  - intros u v w Hu Ha. destruct (B u v w Hu Ha) as [K|[c [K|K]]]; [left; exact K| |right; exists c; exact K].
    left. subst h. exact Hv.
Qed.

(* s satisfies the invariant except that arcs leaving v may be missing from the heap: pushing them restores it *)
Lemma PI_push : forall g start flt v s, NoDup (keys g) ->
  Tree g start (p_in s) (p_acc s) (p_tot s) -> In v (p_in s) ->
  (forall h, In h (p_heap s) -> In (h_u h, h_v h, h_w h) (arcs g) /\ In (h_u h) (p_in s)) ->
  (forall u x w, In u (p_in s) -> u <> v -> In (u, x, w) (arcs g) ->
     In x (p_in s) \/ exists c, In (w, c, u, x) (p_heap s)) ->
  PI g start (push_all flt v (lookup g v) s).
Proof.
  intros g start flt v s Hnd HT Hv A B.
  destruct (push_all_spec flt v (lookup g v) s) as (E1 & E2 & E3 & H4 & H5 & H6 & _). cbv zeta in *.
  unfold PI. rewrite E1, E2, E3. split; [exact HT|]. split.
  - intros h Hh. destruct (H5 h Hh) as [K|[K1 K2]]; [apply A, K|].
    rewrite K1. split; [apply lookup_arcs, K2|exact Hv].
  - intros u x w Hu Ha. destruct (Nat.eq_dec u v) as [->|Hne].
    + destruct (H6 x w (arcs_lookup g v x w Hnd Ha)) as [[_ K]|K]; [left|right]; exact K.
    + destruct (B u x w Hu Hne Ha) as [K|[c K]]; [left; exact K|right; exists c; apply H4, K].
Qed.

Lemma prim_init_PI : forall g start, NoDup (keys g) -> In start (all_nodes g) -> PI g start (prim_init g start).
Proof.
  intros g start Hnd Hs. unfold prim_init. apply PI_push; cbn [p_in p_acc p_tot p_heap].
  - exact Hnd.
  - apply Tree_init, Hs.
  - left. reflexivity.
  - intros h [].
  - intros u x w [<-|[]] Hne. destruct (Hne eq_refl).
Qed.

Definition skip_state (s : pstate) (heap' : list hentry) : pstate :=
  {| p_in := p_in s; p_acc := p_acc s; p_tot := p_tot s; p_counter := p_counter s;
     p_heap := heap'; p_iters := S (p_iters s); p_evals := p_evals s |}.
Definition take_state (g : graph) (s : pstate) (h : hentry) (heap' : list hentry) : pstate :=
  push_all true (h_v h) (lookup g (h_v h))
    {| p_in := h_v h :: p_in s; p_acc := p_acc s ++ [(h_u h, h_v h, h_w h)];
       p_tot := (p_tot s + h_w h)%Z; p_counter := p_counter s; p_heap := heap';
       p_iters := S (p_iters s); p_evals := p_evals s |}.

Definition steps_keep (g : graph) (Inv : pstate -> Prop) : Prop :=
  forall s h heap', Inv s -> p_heap s = h :: heap' ->
    Inv (if mem (h_v h) (p_in s) then skip_state s heap' else take_state g s h heap').

Lemma PI_steps : forall g start, NoDup (keys g) -> steps_keep g (PI g start).
Proof.
  intros g start Hnd s h heap' [HT [A B]] Eh. rewrite Eh in A, B.
  destruct (mem (h_v h) (p_in s)) eqn:Em.
  - split; [exact HT|]. apply (Frontier_skip g _ h heap' (conj A B)), mem_In, Em.
  - apply mem_false in Em. destruct (A h (or_introl eq_refl)) as [Harc Hu].
    unfold take_state. apply PI_push; cbn [p_in p_acc p_tot p_heap].
    + exact Hnd.
    + apply Tree_grow; assumption.
    + left. reflexivity.
    + intros h' Hh'. destruct (A h' (or_intror Hh')) as [K1 K2]. split; [exact K1|right; exact K2].
    + intros u x w [<-|Hu'] Hne Ha; [destruct (Hne eq_refl)|].
      destruct (B u x w Hu' Ha) as [K|[c [K|K]]]; [left; right; exact K| |right; exists c; exact K].
      left. left. subst h. reflexivity.
Qed.

(* every pop either shrinks the heap or visits a node, whose adjacency list is then spent *)
Definition measure (g : graph) (s : pstate) : nat := length (p_heap s) + rem g (p_in s).

Lemma measure_push : forall g flt v ins s, p_in s = v :: ins -> mem v ins = false ->
  measure g (push_all flt v (lookup g v) s) <= length (p_heap s) + rem g ins.
Proof.
  intros g flt v ins s Ei Hm.
  destruct (push_all_spec flt v (lookup g v) s) as (E1 & _ & _ & _ & _ & _ & H7). cbv zeta in *.
  unfold measure. rewrite E1, Ei. pose proof (rem_step g v ins Hm). lia.
Qed.

Lemma prim_loop_inv : forall g (Inv : pstate -> Prop), steps_keep g Inv ->
  forall fuel s, Inv s -> measure g s < fuel ->
  exists s', prim_loop fuel g (length (all_nodes g)) s = Some s' /\ Inv s' /\
             (p_heap s' = [] \/ length (all_nodes g) <= length (p_in s')).
Proof.
  intros g Inv Hstep. induction fuel as [|f IH]; intros s HI Hm; [lia|].
  cbn [prim_loop]. destruct (p_heap s) as [|h heap'] eqn:Eh.
  - exists s. split; [reflexivity|]. split; [exact HI|left; exact Eh].
  - destruct (Nat.ltb_spec (length (p_in s)) (length (all_nodes g))) as [El|El].
    2:{ exists s. split; [reflexivity|]. split; [exact HI|right; exact El]. }
    unfold measure in Hm. rewrite Eh in Hm. cbn [length] in Hm.
    specialize (Hstep s h heap' HI Eh). destruct (mem (h_v h) (p_in s)) eqn:Em; apply IH; try exact Hstep.
    + unfold measure. cbn [skip_state p_heap p_in]. lia.
    + unfold take_state. eapply Nat.le_lt_trans; [apply (measure_push g true _ (p_in s)); [reflexivity|exact Em]|].
      cbn [p_heap]. lia.
Qed.

Lemma prim_run : forall g start (Inv : pstate -> Prop), g <> [] -> steps_keep g Inv ->
  Inv (prim_init g (prim_start g start)) ->
  exists s', prim g start = Done (prim_result g s') /\ Inv s' /\
             (p_heap s' = [] \/ length (all_nodes g) <= length (p_in s')).
Proof.
  intros g start Inv Hg Hstep H0.
  destruct (prim_loop_inv g Inv Hstep (prim_fuel g) _ H0) as (s' & Hl & HI & Hexit).
  { unfold prim_init. eapply Nat.le_lt_trans; [apply (measure_push g false _ []); reflexivity|].
    cbn [p_heap length]. rewrite rem_nil. unfold prim_fuel. lia. }
  exists s'. split; [|split; assumption].
  unfold prim, prim_core. rewrite Hl. destruct g; [congruence|reflexivity].
Qed.

Lemma first_key_node : forall k ns g, In k (all_nodes ((k, ns) :: g)).
Proof. intros. apply In_all_nodes. left. left. reflexivity. Qed.

Lemma prim_start_node : forall g start, g <> [] -> prim_valid g start = true ->
  NoDup (keys g) /\ In (prim_start g start) (all_nodes g).
Proof.
  intros g start Hg Hv. unfold prim_valid in Hv. apply andb_true_iff in Hv. destruct Hv as [H1 H2].
  split; [apply nodupb_NoDup; exact H1|].
  destruct g as [|[k ns] g]; [congruence|]. destruct start as [s|]; cbn [prim_start].
  - apply mem_In. exact H2.
  - apply first_key_node.
Qed.

Theorem prim_tree : forall g start, prim_valid g start = true ->
  exists r, prim g start = Done r /\ prim_spec g start (r_status r, r_solution r, r_objective r).
Proof.
  intros g start Hv. destruct g as [|kn g'] eqn:Eg.
  - eexists. split; [reflexivity|]. cbn. auto.
  - rewrite <- Eg in *. assert (Hg : g <> []) by (rewrite Eg; discriminate).
    destruct (prim_start_node g start Hg Hv) as [Hnd Hs].
    destruct (prim_run g start (PI g (prim_start g start)) Hg (PI_steps g _ Hnd) (prim_init_PI g _ Hnd Hs))
      as (s' & Hprim & ((T1 & T2 & T3 & T4 & T5 & T6 & T7 & T8 & T9) & (_ & B)) & Hexit).
    exists (prim_result g s'). split; [exact Hprim|].
    unfold prim_spec. rewrite Eg. rewrite <- Eg. cbv zeta.
    pose proof (NoDup_incl_length T1 T3) as Hle.
    unfold prim_result. destruct (Nat.ltb_spec (length (p_in s')) (length (all_nodes g))) as [El|El]; cbn.
    + split; [reflexivity|]. split; [reflexivity|].
      destruct Hexit as [Hh|Hh]; [|lia].
      destruct (forallb (fun x => mem x (p_in s')) (all_nodes g)) eqn:Ef.
      { rewrite forallb_forall in Ef. assert (K : incl (all_nodes g) (p_in s')) by (intros x Hx; apply mem_In, Ef, Hx).
        pose proof (NoDup_incl_length (all_nodes_NoDup g) K). lia. }
      apply forallb_false in Ef. destruct Ef as [x [Hx1 Hx2]]. apply mem_false in Hx2.
      (* the heap is empty, so no arc leaves the visited set *)
      exists x. split; [exact Hx1|]. intros Hr. apply Hx2. clear Hx1 Hx2.
      apply clos_rt_rtn1 in Hr. induction Hr as [|y z [w Hyz] Hr IHr]; [exact T2|].
      destruct (B y z w IHr Hyz) as [K|[c K]]; [exact K|]. rewrite Hh in K. destruct K.
    + assert (Hall : incl (all_nodes g) (p_in s')) by (apply NoDup_length_incl; assumption).
      exists (p_acc s'). split; [reflexivity|]. split; [rewrite T9; reflexivity|].
      split; [exact T7|]. split; [apply incr_forest_acyclic; exact T6|].
      split; [intros x Hx; apply T4, Hall, Hx|]. split; [|split].
      * intros x K. destruct (connects_closed _ (fun z => In z (p_in s')) T5 _ _ K) as [<-|[_ K']]; apply T3; assumption.
      * lia.
      * intros x Hx. apply T4, Hall, Hx.
Qed.

Lemma reach_connects : forall g s x, reach g s x -> connects (arcs g) s x.
Proof.
  intros g s x H. induction H as [a b [w Hab]|a|a b c H1 IH1 H2 IH2].
  - apply (connects_edge (arcs g) (a, b, w)). exact Hab.
  - apply joined_refl.
  - eapply joined_trans; eassumption.
Qed.

Lemma connects_reach : forall g, symmetric g ->
  forall s x, connects (arcs g) s x -> reach g s x /\ reach g x s.
Proof.
  intros g Hsym. unfold connects. apply joined_least.
  - intros x. split; apply rt_refl.
  - intros x y [K1 K2]. split; assumption.
  - intros x y z [K1 K2] [K3 K4]. split; eapply rt_trans; eassumption.
  - intros a b Hab. apply In_pairs in Hab. destruct Hab as [w He].
    split; apply rt_step; exists w; [exact He|apply Hsym, He].
Qed.

(* on an undirected (symmetric) adjacency dict: OPTIMAL iff every node is connected to start *)
Theorem prim_tree_undirected : forall g start, prim_valid g start = true -> symmetricb g = true -> g <> [] ->
  exists r, prim g start = Done r /\
    prim_spec g start (r_status r, r_solution r, r_objective r) /\
    (r_status r = OPTIMAL <-> forall x, is_node g x -> connects (arcs g) (prim_start g start) x) /\
    (r_status r = INFEASIBLE <-> exists x, is_node g x /\ ~ connects (arcs g) (prim_start g start) x).
Proof.
  intros g start Hv Hsym Hg. apply symmetricb_sound in Hsym.
  destruct (prim_tree g start Hv) as [r [Hr Hspec]]. exists r. split; [exact Hr|]. split; [exact Hspec|].
  unfold prim_spec in Hspec. destruct g as [|kn g']; [congruence|]. cbv zeta in Hspec.
  set (G := kn :: g') in *.
  destruct (r_status r) eqn:Es.
  - destruct Hspec as (t & _ & _ & _ & _ & _ & _ & _ & Hreach). split; split; try discriminate; try reflexivity.
    + intros _ x Hx. apply reach_connects, Hreach, Hx.
    + intros [x [Hx Hn]]. exfalso. apply Hn. apply reach_connects, Hreach, Hx.
  - destruct Hspec.
  - destruct Hspec as (_ & _ & x & Hx & Hn). split; split; try discriminate; try reflexivity.
    + intros Hall. exfalso. apply Hn. exact (proj1 (connects_reach G Hsym _ _ (Hall x Hx))).
    + intros _. exists x. split; [exact Hx|]. intros K. apply Hn. exact (proj1 (connects_reach G Hsym _ _ K)).
Qed.
