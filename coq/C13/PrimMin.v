(* C13, prim: on an undirected (symmetric) adjacency dict the returned tree has minimum total weight.
   Invariant: the heap is sorted by weight and the tree grown so far is contained in some minimum spanning
   forest (which exists: kruskal's result); each step trades a crossing edge of that forest for the popped edge.
   Last: kruskal and prim agree on the objective of the same undirected graph (agree). *)
From Coq Require Import List ZArith Bool Lia Permutation.
From SV Require Import C20.UFUnion.
From SV Require Import C13.Mst C13.MstSpec C13.GraphLemmas C13.ForestCount C13.Greedy C13.PrimBasics C13.PrimProofs
  C13.MstSpecProofs C13.KruskalProofs C13.AgreeProofs.
Import ListNotations.

Fixpoint heap_sorted (h : list hentry) : Prop :=
  match h with
  | [] => True
  | x :: r => (forall y, In y r -> (h_w x <= h_w y)%Z) /\ heap_sorted r
  end.

Lemma h_lt_weight : forall a b, if h_lt a b then (h_w a <= h_w b)%Z else (h_w b <= h_w a)%Z.
Proof.
  intros a b. unfold h_lt. destruct (Z.ltb_spec (h_w a) (h_w b)); cbn [orb]; [lia|].
  destruct (Z.eqb_spec (h_w a) (h_w b)); cbn [andb]; [destruct (h_c a <? h_c b); lia|lia].
Qed.

Lemma heap_sorted_push : forall e h, heap_sorted h -> heap_sorted (heap_push e h).
Proof.
  intros e h. induction h as [|y t IH]; intros H; cbn.
  - split; [intros x []|exact I].
  - destruct H as [Hy Ht]. pose proof (h_lt_weight e y) as Hle. destruct (h_lt e y).
    + split; [|split; assumption]. intros x [<-|Hx]; [exact Hle|]. specialize (Hy x Hx). lia.
    + split; [|apply IH; exact Ht]. intros x Hx. apply In_heap_push in Hx.
      destruct Hx as [<-|Hx]; [exact Hle|apply Hy; exact Hx].
Qed.

Lemma heap_sorted_push_all : forall flt v ns s, heap_sorted (p_heap s) -> heap_sorted (p_heap (push_all flt v ns s)).
Proof.
  intros flt v ns. induction ns as [|[nb w] rest IH]; intros s H; cbn [push_all]; [exact H|].
  destruct (flt && mem nb (p_in s)); [apply IH; exact H|].
  apply IH. cbn [p_heap]. apply heap_sorted_push. exact H.
Qed.

Lemma filter_perm : forall {A} (f : A -> bool) l,
  Permutation l (filter (fun x => negb (f x)) l ++ filter f l).
Proof.
  intros A f l. induction l as [|a l IH]; cbn; [constructor|].
  destruct (f a); cbn; [apply Permutation_cons_app; exact IH|constructor; exact IH].
Qed.

Definition crossing (V : list nat) (e : edge) : bool := xorb (mem (eu e) V) (mem (ev e) V).

Lemma noncross_closed : forall V L, (forall e, In e L -> crossing V e = false) ->
  forall x y, connects L x y -> mem x V = mem y V.
Proof.
  intros V L H. unfold connects. apply joined_least; try congruence.
  intros a b Hab. apply In_pairs in Hab. destruct Hab as [w He]. exact (xorb_eq _ _ (H _ He)).
Qed.

(* an arc across the cut, or its mirror image, is on the heap, whose head is therefore a lightest one *)
Lemma heap_head_lightest : forall g V h heap', symmetric g -> Frontier g V (h :: heap') ->
  heap_sorted (h :: heap') -> forall f, In f (arcs g) -> crossing V f = true -> (h_w h <= ew f)%Z.
Proof.
  intros g V h heap' Hsym [_ B] [Hhd _] [[c d] wf] Hfa Hcross.
  unfold crossing in Hcross. cbn in Hcross. cbn [ew snd].
  assert (G : forall c d, In (c, d, wf) (arcs g) -> mem c V = true -> mem d V = false -> (h_w h <= wf)%Z).
  { intros c' d' Ha' Hc' Hd'. apply mem_In in Hc'.
    destruct (B c' d' wf Hc' Ha') as [K|[c0 [K|K]]].
    - apply mem_In in K. congruence.
    - subst h. cbn. lia.
    - exact (Hhd _ K). }
  destruct (mem c V) eqn:Ec; destruct (mem d V) eqn:Ed; try discriminate.
  - apply (G c d); assumption.
  - apply (G d c); [apply Hsym; exact Hfa|assumption|assumption].
Qed.

(* prim's minimality invariant *)
Definition PM (g : graph) (s : pstate) : Prop :=
  heap_sorted (p_heap s) /\
  exists F, spanning_forest (arcs g) (p_acc s ++ F) /\ minimum (arcs g) (p_acc s ++ F).

Lemma PM_push : forall g flt v ns s, PM g s -> PM g (push_all flt v ns s).
Proof.
  intros g flt v ns s [Hw HF]. destruct (push_all_spec flt v ns s) as (_ & E2 & _). cbv zeta in E2.
  split; [apply heap_sorted_push_all, Hw|rewrite E2; exact HF].
Qed.

Lemma PM_skip : forall g s h heap', PM g s -> p_heap s = h :: heap' -> PM g (skip_state s heap').
Proof. intros g s h heap' [Hw HF] Eh. split; [|exact HF]. rewrite Eh in Hw. apply Hw. Qed.

Lemma PM_take : forall g start s h heap', symmetric g -> PI g start s -> PM g s -> p_heap s = h :: heap' ->
  mem (h_v h) (p_in s) = false -> PM g (take_state g s h heap').
Proof.
  intros g start s h heap' Hsym [HT [A B]] [Hw (F & HSF & Hmin)] Eh Em.
  destruct HT as (_ & _ & _ & _ & T5 & _).
  rewrite Eh in A, B, Hw. destruct Hw as [Hhd Hw].
  destruct (A h (or_introl eq_refl)) as [Harc Hu].
  apply PM_push. split; [exact Hw|]. cbn [p_acc].
  set (e := (h_u h, h_v h, h_w h)) in *. set (acc := p_acc s) in *. set (V := p_in s) in *.
  (* reorder the completion F: edges inside or outside V first, edges crossing V last *)
  set (Fin := filter (fun x => negb (crossing V x)) F). set (FS := filter (crossing V) F).
  assert (HP1 : Permutation (acc ++ F) ((acc ++ Fin) ++ FS)).
  { rewrite <- app_assoc. apply Permutation_app_head, filter_perm. }
  assert (Hnc : ~ connects (acc ++ Fin) (eu e) (ev e)).
  { intros K. apply (noncross_closed V) in K.
    - cbn in K. rewrite Em, (proj2 (mem_In _ _) Hu) in K. discriminate.
    - intros z Hz. apply in_app_or in Hz. destruct Hz as [Hz|Hz].
      + destruct (T5 z Hz) as [K1 K2]. unfold crossing.
        rewrite (proj2 (mem_In _ _) K1), (proj2 (mem_In _ _) K2). reflexivity.
      + apply filter_In in Hz. apply negb_true_iff, Hz. }
  destruct (sf_exchange (bound g 0) (arcs g) (acc ++ Fin) FS e (arcs_in_range g 0)
              (sf_perm _ _ _ HP1 HSF) Harc Hnc) as (f & F' & HPf & HSF').
  assert (Hwf : (h_w h <= ew f)%Z).
  { assert (Hf : In f FS) by (apply (Permutation_in f (Permutation_sym HPf)); left; reflexivity).
    apply filter_In in Hf. destruct Hf as [HfF Hcross].
    apply (heap_head_lightest g V h heap' Hsym (conj A B) (conj Hhd Hw)); [|exact Hcross].
    apply (proj1 HSF), in_or_app. right. exact HfF. }
  exists (Fin ++ F').
  assert (HP2 : Permutation (((acc ++ Fin) ++ [e]) ++ F') ((acc ++ [e]) ++ Fin ++ F')).
  { rewrite <- !app_assoc. apply Permutation_app_head, (Permutation_app_swap_app Fin [e] F'). }
  split; [exact (sf_perm _ _ _ HP2 HSF')|].
  intros t' Ht'. specialize (Hmin t' Ht').
  rewrite (weight_perm _ _ HP1), (weight_app (acc ++ Fin)), (weight_perm _ _ HPf) in Hmin.
  rewrite <- (weight_perm _ _ HP2), (weight_app ((acc ++ Fin) ++ [e])), weight_snoc.
  change (weight (f :: F')) with (ew f + weight F')%Z in Hmin. change (ew e) with (h_w h). lia.
Qed.

Lemma min_forest_exists : forall g, exists F, spanning_forest (arcs g) F /\ minimum (arcs g) F.
Proof.
  intros g. assert (Hv : kruskal_valid (bound g 0) (arcs g) = true).
  { apply kruskal_valid_iff. split; [unfold bound; lia|apply arcs_in_range]. }
  destruct (kruskal_core_forest _ _ Hv) as (acc & tot & it & Hk & _).
  exists acc. destruct (kruskal_core_min _ _ _ _ _ Hv Hk) as (HSF & _ & Hm). split; assumption.
Qed.

Theorem prim_min : forall g start r t, prim_valid g start = true -> symmetricb g = true ->
  prim g start = Done r -> r_solution r = Some t -> minimum (arcs g) t.
Proof.
  intros g start r t Hv Hsym Hr Ht. apply symmetricb_sound in Hsym.
  destruct g as [|kn g'] eqn:Eg.
  - cbn in Hr. inversion Hr; subst r. cbn in Ht. inversion Ht; subst t.
    intros t' (Hi & _ & _). destruct t' as [|x t']; [cbn; lia|]. destruct (Hi x (or_introl eq_refl)).
  - rewrite <- Eg in *. assert (Hg : g <> []) by (rewrite Eg; discriminate).
    destruct (prim_start_node g start Hg Hv) as [Hnd Hs]. set (st := prim_start g start) in *.
    destruct (prim_run g start (fun s => PI g st s /\ PM g s) Hg)
      as (s' & Hprim & [[(T1 & _ & T3 & T4 & _) _] (_ & F & HSF & Hmin)] & _).
    { intros s h heap' [HP HM] Eh. pose proof (PI_steps g st Hnd s h heap' HP Eh) as HP'.
      destruct (mem (h_v h) (p_in s)) eqn:Em; (split; [exact HP'|]);
        [exact (PM_skip g s h heap' HM Eh)|exact (PM_take g st s h heap' Hsym HP HM Eh Em)]. }
    { split; [apply prim_init_PI; assumption|]. apply PM_push. split; [exact I|apply min_forest_exists]. }
    rewrite Hprim in Hr. inversion Hr; subst r. clear Hr. unfold prim_result in Ht.
    destruct (Nat.ltb_spec (length (p_in s')) (length (all_nodes g))) as [El|El]; cbn in Ht; [discriminate|].
    inversion Ht; subst t. clear Ht.
    assert (Hall : incl (all_nodes g) (p_in s')) by (apply NoDup_length_incl; assumption).
    (* the tree already connects all nodes, so the completion F is empty *)
    destruct F as [|f F]; [rewrite app_nil_r in Hmin; exact Hmin|exfalso].
    destruct HSF as (Hin & Hac & _).
    apply (Hac (p_acc s') f F eq_refl).
    assert (Hfa : In f (arcs g)) by (apply Hin, in_elt).
    destruct f as [[c d] w]. destruct (arc_nodes g c d w Hfa) as [K1 K2].
    eapply connects_mono; [apply incl_appl, incl_refl|]. cbn.
    eapply joined_trans; [apply joined_sym, T4, Hall, K1|apply T4, Hall, K2].
Qed.

Theorem agree : forall g start r t n edges acc tot iters,
  prim_valid g start = true -> symmetricb g = true -> g <> [] ->
  prim g start = Done r -> r_solution r = Some t ->
  incl edges (arcs g) -> incl (arcs g) edges ->
  kruskal_valid n edges = true -> kruskal_core n edges = Some (acc, tot, iters) ->
  r_objective r = Some tot /\ tot = weight acc /\ tot = weight t.
Proof.
  intros g start r t n edges acc tot iters Hv Hsym Hg Hr Ht H1 H2 Hkv Hk.
  destruct (prim_solution_spanning g start r t Hv Hg Hr Ht) as (_ & Ho & Hsf).
  pose proof (prim_min g start r t Hv Hsym Hr Ht) as Hpm.
  destruct (kruskal_core_min n edges acc tot iters Hkv Hk) as (HSF & -> & Hkm).
  assert (L1 : (weight acc <= weight t)%Z) by (apply Hkm; apply (sf_transfer (arcs g)); assumption).
  assert (L2 : (weight t <= weight acc)%Z) by (apply Hpm; apply (sf_transfer edges); assumption).
  split; [rewrite Ho; f_equal; lia|split; [reflexivity|lia]].
Qed.
