(* C13: a solution returned by prim is OPTIMAL, its objective is its weight and it is a spanning forest of the
   arc list (prim_solution_spanning); hence, without any symmetry assumption, kruskal's result on the same arcs is
   never heavier (kruskal_le_prim).  Equality on undirected graphs is PrimMin.agree. *)
From Coq Require Import List ZArith.
From SV Require Import C20.UFUnion.
From SV Require Import C13.Mst C13.MstSpec C13.GraphLemmas C13.PrimBasics C13.PrimProofs C13.KruskalProofs.
Import ListNotations.

Lemma prim_solution_spanning : forall g start r t, prim_valid g start = true -> g <> [] ->
  prim g start = Done r -> r_solution r = Some t ->
  r_status r = OPTIMAL /\ r_objective r = Some (weight t) /\ spanning_forest (arcs g) t.
Proof.
  intros g start r t Hv Hg Hr Ht. destruct (prim_tree g start Hv) as [r' [Hr' Hs]].
  rewrite Hr in Hr'. inversion Hr'; subst r'. clear Hr'.
  unfold prim_spec in Hs. destruct g as [|kn g']; [congruence|]. cbv zeta in Hs.
  set (G := kn :: g') in *. destruct (r_status r).
  - destruct Hs as (t' & E1 & E2 & Hin & Hac & Hc1 & Hc2 & _ & _). rewrite Ht in E1. inversion E1; subst t'.
    split; [reflexivity|]. split; [exact E2|]. split; [exact Hin|]. split; [exact Hac|].
    intros x y. split; [|apply connects_mono; exact Hin].
    intros K. destruct (connects_closed (arcs G) (is_node G)) with (x := x) (y := y) as [->|[Kx Ky]];
      [intros [[u v] w] He; exact (arc_nodes G u v w He)|exact K|apply joined_refl|].
    eapply joined_trans; [apply joined_sym, Hc1, Kx|apply Hc1, Ky].
  - destruct Hs.
  - destruct Hs as (E & _). rewrite Ht in E. discriminate.
Qed.

(* kruskal's objective on the arc list of the adjacency dict never exceeds prim's objective *)
Theorem kruskal_le_prim : forall g start r t n acc tot iters,
  prim_valid g start = true -> g <> [] -> prim g start = Done r -> r_solution r = Some t ->
  kruskal_valid n (arcs g) = true -> kruskal_core n (arcs g) = Some (acc, tot, iters) ->
  (tot <= weight t)%Z /\ r_objective r = Some (weight t).
Proof.
  intros g start r t n acc tot iters Hv Hg Hr Ht Hkv Hk.
  destruct (prim_solution_spanning g start r t Hv Hg Hr Ht) as (_ & Ho & Hsf).
  destruct (kruskal_core_min n (arcs g) acc tot iters Hkv Hk) as (_ & -> & Hm).
  split; [apply Hm; exact Hsf|exact Ho].
Qed.
