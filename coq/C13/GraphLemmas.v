(* Graph lemmas over UFSpec.joined used by the C13 proofs (beside those of C20.UFUnion): adding one pair,
   class counting, "built edge by edge between different classes" implies "every edge is a bridge" (acyclic),
   and the label arrays of MstSpec decide joined. *)
From Coq Require Import List ZArith Lia Relations.
From SV Require Import C20.UFSpec C20.UFUnion C13.Mst C13.MstSpec.
Import ListNotations.

Lemma joined_sub : forall ps qs, (forall a b, In (a, b) ps -> joined qs a b) ->
  forall x y, joined ps x y -> joined qs x y.
Proof. intros ps qs. exact (joined_least ps _ (joined_refl qs) (joined_sym qs) (joined_trans qs)). Qed.

Lemma joined_app_l : forall ps qs x y, joined ps x y -> joined (ps ++ qs) x y.
Proof. intros ps qs x y. apply joined_mono, incl_appl, incl_refl. Qed.

(* a walk crosses the new pair at most once, in one direction or the other *)
Lemma joined_add : forall ps a b x y,
  joined (ps ++ [(a, b)]) x y <->
  joined ps x y \/ (joined ps x a /\ joined ps b y) \/ (joined ps x b /\ joined ps a y).
Proof.
  intros ps a b x y. pose proof (joined_sym ps) as S. pose proof (joined_trans ps) as T. split.
  - revert x y. apply joined_least.
    + intros x. left. apply joined_refl.
    + intros x y [J|[[X Y]|[X Y]]]; [left|right; right; split|right; left; split]; apply S; assumption.
    + intros x y z [J1|[[X1 Y1]|[X1 Y1]]] [J2|[[X2 Y2]|[X2 Y2]]].
      * left. exact (T _ _ _ J1 J2).
      * right; left. split; [exact (T _ _ _ J1 X2)|exact Y2].
      * right; right. split; [exact (T _ _ _ J1 X2)|exact Y2].
      * right; left. split; [exact X1|exact (T _ _ _ Y1 J2)].
      * right; left. split; assumption.
      * left. exact (T _ _ _ X1 Y2).
      * right; right. split; [exact X1|exact (T _ _ _ Y1 J2)].
      * left. exact (T _ _ _ X1 Y2).
      * right; right. split; assumption.
    + intros c d H. apply in_app_or in H. destruct H as [H|[H|[]]].
      * left. apply rst_step, H.
      * inversion H; subst. right; left. split; apply joined_refl.
  - assert (Hab : joined (ps ++ [(a, b)]) a b) by (apply rst_step, in_elt).
    pose proof (fun u v => joined_app_l ps [(a, b)] u v) as M.
    intros [J|[[X Y]|[X Y]]]; [apply M, J| |]; (eapply joined_trans; [apply M, X|]).
    + eapply joined_trans; [exact Hab|apply M, Y].
    + eapply joined_trans; [apply joined_sym, Hab|apply M, Y].
Qed.

Lemma joined_add_congr : forall ps qs a b,
  (forall x y, joined ps x y <-> joined qs x y) ->
  forall x y, joined (ps ++ [(a, b)]) x y <-> joined (qs ++ [(a, b)]) x y.
Proof. intros ps qs a b E x y. rewrite !joined_add, !E. reflexivity. Qed.

Lemma joined_incl_eq : forall ps qs, incl ps qs -> incl qs ps ->
  forall x y, joined ps x y <-> joined qs x y.
Proof. intros ps qs H1 H2 x y. split; apply joined_mono; assumption. Qed.

Lemma num_classes_one : forall ps n, num_classes n (joined ps) 1 ->
  forall x y, x < n -> y < n -> joined ps x y.
Proof.
  intros ps n (reps & Hnd & HL & Hlt & Hcov & Hsep) x y Hx Hy.
  destruct reps as [|r [|r' rest]]; try discriminate.
  destruct (Hcov x Hx) as [r1 [[E1|[]] J1]]. destruct (Hcov y Hy) as [r2 [[E2|[]] J2]]. subst.
  eapply joined_trans; [exact J1|apply joined_sym; exact J2].
Qed.

Lemma num_classes_ge1 : forall (R : nat -> nat -> Prop) n c, num_classes n R c -> 1 <= n -> 1 <= c.
Proof.
  intros R n c (reps & Hnd & HL & Hlt & Hcov & Hsep) Hn.
  destruct (Hcov 0 Hn) as [r [I _]]. subst c. destruct reps; [contradiction|cbn; lia].
Qed.

Lemma num_classes_connected : forall ps n, 1 <= n ->
  (forall x y, x < n -> y < n -> joined ps x y) -> num_classes n (joined ps) 1.
Proof.
  intros ps n Hn Hc. exists [0]. split; [repeat constructor; intros []|]. split; [reflexivity|].
  split; [intros r [<-|[]]; exact Hn|]. split.
  - intros x Hx. exists 0. split; [left; reflexivity|apply Hc; [exact Hx|exact Hn]].
  - intros r r' [<-|[]] [<-|[]] _. reflexivity.
Qed.

Lemma num_classes_iff : forall (R R' : nat -> nat -> Prop) n c,
  (forall x y, R x y <-> R' x y) -> num_classes n R c -> num_classes n R' c.
Proof.
  intros R R' n c E (reps & Hnd & HL & Hlt & Hcov & Hsep).
  exists reps. split; [exact Hnd|]. split; [exact HL|]. split; [exact Hlt|]. split.
  - intros x Hx. destruct (Hcov x Hx) as [r [I J]]. exists r. split; [exact I|apply E; exact J].
  - intros r r' I I' J. apply Hsep; [exact I|exact I'|apply E; exact J].
Qed.

Lemma pairs_app : forall a b, pairs (a ++ b) = pairs a ++ pairs b.
Proof. intros. unfold pairs. apply map_app. Qed.

Lemma pairs_snoc : forall a e, pairs (a ++ [e]) = pairs a ++ [(eu e, ev e)].
Proof. intros a [[x y] w]. rewrite pairs_app. reflexivity. Qed.

Lemma weight_app : forall a b, (weight (a ++ b) = weight a + weight b)%Z.
Proof.
  induction a as [|x a IH]; intros b; cbn; [reflexivity|].
  unfold weight in *. cbn. rewrite IH. lia.
Qed.

Lemma weight_snoc : forall a e, (weight (a ++ [e]) = weight a + ew e)%Z.
Proof. intros. rewrite weight_app. unfold weight. cbn. lia. Qed.

Lemma pairs_incl : forall a b, incl a b -> incl (pairs a) (pairs b).
Proof. intros a b H p Hp. unfold pairs in *. apply in_map_iff in Hp. destruct Hp as [e [<- He]]. apply in_map, H, He. Qed.

Lemma connects_mono : forall a b x y, incl a b -> connects a x y -> connects b x y.
Proof. intros a b x y H. apply joined_mono, pairs_incl, H. Qed.

Lemma connects_edge : forall es e, In e es -> connects es (eu e) (ev e).
Proof.
  intros es [[x y] w] H. apply rst_step. unfold pairs, eu, ev. cbn [fst snd].
  change (x, y) with (fst (x, y, w)). apply in_map. exact H.
Qed.

Lemma In_pairs : forall es a b, In (a, b) (pairs es) <-> exists w, In (a, b, w) es.
Proof.
  intros es a b. unfold pairs. rewrite in_map_iff. split.
  - intros [[[a' b'] w] [E He]]. inversion E; subst. exists w. exact He.
  - intros [w He]. exists (a, b, w). split; [reflexivity|exact He].
Qed.

Lemma connects_sub : forall es t, (forall e, In e es -> connects t (eu e) (ev e)) ->
  forall x y, connects es x y -> connects t x y.
Proof. intros es t H. apply joined_sub. intros a b Hab. apply In_pairs in Hab. destruct Hab as [w He]. exact (H _ He). Qed.

Lemma connects_closed : forall es (P : nat -> Prop), (forall e, In e es -> P (eu e) /\ P (ev e)) ->
  forall x y, connects es x y -> x = y \/ (P x /\ P y).
Proof.
  intros es P H. unfold connects. apply joined_least.
  - intros x. left. reflexivity.
  - intros x y [->|[Hx Hy]]; [left; reflexivity|right; split; assumption].
  - intros x y z [->|[Hx Hy]] [->|[Hy' Hz]]; [left; reflexivity|right; split; assumption..].
  - intros a b Hab. apply In_pairs in Hab. destruct Hab as [w He]. right. exact (H _ He).
Qed.

Lemma incl_app_cons : forall {A} (l1 l2 : list A) x, incl (l1 ++ l2) (l1 ++ x :: l2).
Proof. intros. apply incl_app_app; [apply incl_refl|apply incl_tl, incl_refl]. Qed.

Inductive incr_forest : list edge -> Prop :=
| if_nil : incr_forest []
| if_snoc : forall acc e, incr_forest acc -> ~ connects acc (eu e) (ev e) -> incr_forest (acc ++ [e]).

Theorem incr_forest_acyclic : forall t, incr_forest t -> acyclic t.
Proof.
  intros t H. induction H as [|acc e H IH Hn].
  - intros l1 e l2 E. destruct l1; discriminate.
  - intros l1 e' l2 E. destruct l2 as [|x l2' _] using rev_ind.
    + apply app_inj_tail in E. destruct E as [-> ->]. rewrite app_nil_r. exact Hn.
    + rewrite app_comm_cons, app_assoc in E. apply app_inj_tail in E. destruct E as [-> ->].
      specialize (IH l1 e' l2' eq_refl).
      rewrite app_assoc. unfold connects. rewrite pairs_snoc, joined_add.
      (* a walk between the ends of e' through e, closed by e' itself, joins the ends of e without e *)
      assert (He' : connects (l1 ++ e' :: l2') (eu e') (ev e')) by apply connects_edge, in_elt.
      assert (M : forall u v, connects (l1 ++ l2') u v -> connects (l1 ++ e' :: l2') u v).
      { intros u v. apply connects_mono, incl_app_cons. }
      intros [K|[[K1 K2]|[K1 K2]]]; [exact (IH K)| |]; apply Hn.
      * eapply joined_trans; [apply joined_sym, M, K1|].
        eapply joined_trans; [exact He'|apply joined_sym, M, K2].
      * eapply joined_trans; [apply M, K2|].
        eapply joined_trans; [apply joined_sym, He'|apply M, K1].
Qed.

(* ls is a label array for ps: n labels below n, two nodes carry the same label iff ps joins them *)
Definition LInv (n : nat) (ps : list (nat * nat)) (ls : list nat) : Prop :=
  length ls = n /\ (forall x, x < n -> lab ls x < n) /\
  (forall x y, lab ls x = lab ls y <-> joined ps x y).

Definition pairs_in_range (n : nat) (ps : list (nat * nat)) : Prop :=
  forall p, In p ps -> fst p < n /\ snd p < n.

Lemma lab_seq : forall n x, lab (seq 0 n) x = x.
Proof.
  intros n x. unfold lab. destruct (Nat.lt_ge_cases x n) as [H|H].
  - rewrite seq_nth; [reflexivity|exact H].
  - apply nth_overflow. rewrite seq_length. exact H.
Qed.

Lemma LInv_init : forall n, LInv n [] (seq 0 n).
Proof.
  intros n. split; [apply seq_length|]. split.
  - intros x Hx. rewrite lab_seq. exact Hx.
  - intros x y. rewrite !lab_seq. split; [intros ->; apply joined_refl|apply joined_nil].
Qed.

Lemma lab_merge : forall n ps ls a b x, LInv n ps ls -> b < n ->
  lab (merge ls a b) x = if lab ls x =? lab ls b then lab ls a else lab ls x.
Proof.
  intros n ps ls a b x (HL & Hlt & _) Hb. unfold merge.
  set (f := fun l => if l =? lab ls b then lab ls a else l).
  destruct (Nat.lt_ge_cases x n) as [Hx|Hx]; unfold lab at 1.
  - rewrite (nth_indep _ x (f x)); [|rewrite map_length; lia]. rewrite map_nth. reflexivity.
  - rewrite nth_overflow; [|rewrite map_length; lia].
    assert (E : lab ls x = x) by (apply nth_overflow; lia). rewrite E.
    specialize (Hlt b Hb). destruct (Nat.eqb_spec x (lab ls b)); [lia|reflexivity].
Qed.

Lemma LInv_merge : forall n ps ls a b, LInv n ps ls -> a < n -> b < n ->
  LInv n (ps ++ [(a, b)]) (merge ls a b).
Proof.
  intros n ps ls a b HI Ha Hb. pose proof HI as (HL & Hlt & Hiff). split; [|split].
  - unfold merge. rewrite map_length. exact HL.
  - intros x Hx. rewrite (lab_merge n ps ls a b x HI Hb).
    destruct (lab ls x =? lab ls b); [apply Hlt, Ha|apply Hlt, Hx].
  - intros x y. rewrite !(lab_merge n ps ls a b _ HI Hb), joined_add, <- !Hiff.
    generalize (lab ls x) (lab ls y) (lab ls a) (lab ls b). clear. intros lx ly la lb.
    destruct (Nat.eqb_spec lx lb); destruct (Nat.eqb_spec ly lb); lia.
Qed.

Lemma LInv_labels_from : forall n qs ps ls, LInv n ps ls -> pairs_in_range n qs ->
  LInv n (ps ++ qs) (labels_from ls qs).
Proof.
  intros n qs. induction qs as [|[a b] qs IH]; intros ps ls HI Hr; cbn.
  - rewrite app_nil_r. exact HI.
  - destruct (Hr (a, b) (or_introl eq_refl)) as [Ha Hb].
    change (ps ++ (a, b) :: qs) with (ps ++ [(a, b)] ++ qs). rewrite app_assoc.
    apply IH; [apply LInv_merge; assumption|]. intros p Hp. apply Hr. right. exact Hp.
Qed.

Lemma labels_ok : forall n ps, pairs_in_range n ps ->
  forall x y, lab (labels n ps) x = lab (labels n ps) y <-> joined ps x y.
Proof. intros n ps Hr. exact (proj2 (proj2 (LInv_labels_from n ps [] (seq 0 n) (LInv_init n) Hr))). Qed.

Lemma joined_dec : forall n ps, pairs_in_range n ps -> forall x y, joined ps x y \/ ~ joined ps x y.
Proof.
  intros n ps Hr x y. rewrite <- (labels_ok n ps Hr).
  destruct (Nat.eq_dec (lab (labels n ps) x) (lab (labels n ps) y)); [left|right]; assumption.
Qed.
