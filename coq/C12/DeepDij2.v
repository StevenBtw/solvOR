(* C12_dijkstra, the Rust side (RsDij of RsShortest.v: binary heap ordered by cost, lazy deletion through the visited
   array, predecessor array) and the equivalence with the Python side.
   The visit order `ord` is the settled set of the invariant of DeepDij1.v; on top of it `rinv` ties the visited array to
   ord and says that predecessor chains descend into ord along tight edges, so that reconstruct_path ends and returns a
   walk of the reported weight.  The loop never runs out of fuel.
   Last: for in-range indices and non-negative weights both back-ends return the same status and the same distance(s),
   each with a walk of that weight, glued by uniqueness of the shortest-walk distance (C11.Paths.is_dist).  The two
   paths may differ (ties are broken differently). *)
From Coq Require Import List ZArith Bool Arith Lia.
From SV Require Import C11.Paths C11.PathsLemmas C12.RsShortest C12.PyDijkstra C12.BfsEquiv C12.DeepDij1 C12.DeepPyDij.
Import ListNotations.
Local Open Scope nat_scope.

Lemma rsd_adj_fold n u : u < n -> forall edges acc, evalidP n edges -> length acc = n ->
  nth u (fold_left (fun a (e : nat * nat * Z) => let '(u0, v, w) := e in
                        if Nat.ltb u0 n && Nat.ltb v n then set_nth u0 (nth u0 a [] ++ [(v, w)]) a else a) edges acc) []
  = nth u acc [] ++ wout edges u.
Proof.
  intros Hu. induction edges as [|e l IH]; intros acc HV Hacc; simpl.
  - now rewrite app_nil_r.
  - inversion HV as [|? ? He HV']; subst. destruct e as [[a b] c]. destruct He as [H1 [H2 _]]. simpl in H1, H2.
    apply Nat.ltb_lt in H1 as H1b. apply Nat.ltb_lt in H2 as H2b. rewrite H1b, H2b. simpl.
    rewrite IH; [|exact HV'|now rewrite length_set_nth].
    unfold wout. simpl. rewrite nth_set_nth by lia. destruct (Nat.eqb_spec a u) as [<-|E]; [|reflexivity].
    simpl. now rewrite <- app_assoc.
Qed.

Lemma rsd_adj n edges u : u < n -> evalidP n edges -> nth u (RsDij.build_adjacency n edges) [] = wout edges u.
Proof.
  intros Hu HV. unfold RsDij.build_adjacency. rewrite (rsd_adj_fold n u Hu edges _ HV (repeat_length _ _)).
  now rewrite nth_repeat_lt by exact Hu.
Qed.

(* the heap: new entries go behind equal ones *)
Definition cost_ltb (a b : Z * nat) : bool := (fst a <? fst b)%Z.

Lemma cost_ltb_true a b : cost_ltb a b = true -> (fst a <= fst b)%Z.
Proof. unfold cost_ltb. intros H. apply Z.ltb_lt in H. lia. Qed.

Lemma cost_ltb_false a b : cost_ltb a b = false -> (fst b <= fst a)%Z.
Proof. unfold cost_ltb. intros H. apply Z.ltb_ge. exact H. Qed.

Lemma rs_hpush_eq e h : RsDij.hpush e h = hins cost_ltb e h.
Proof. reflexivity. Qed.

Section RsLoop.
Variable n : nat.
Variable edges : wgraph.
Variable source : nat.
Hypothesis Hs : source < n.
Hypothesis HV : evalidP n edges.

Local Notation dget s v := (nth v (RsDij.dist s) None).

(* ord: the settled (visited) nodes, newest first (ghost) *)
Record rinv (ord : list nat) (dist : list (option Z)) (pd : list (option nat)) (vis : list bool) : Prop := {
  r_lp : length pd = n;
  r_lv : length vis = n;
  r_vis : forall v, nth v vis false = true <-> In v ord;
  r_ordlt : forall v, In v ord -> v < n;
  r_nodup : NoDup ord;
  (* the predecessor of v is settled and its edge to v is tight *)
  r_pred : forall v u, nth v pd None = Some u ->
             In u ord /\ exists w du, In (u, v, w) edges /\ nth u dist None = Some du /\ nth v dist None = Some (du + w)%Z;
  (* the predecessor of a settled node was settled earlier *)
  r_pord : forall l1 x l2 u, ord = l1 ++ x :: l2 -> nth x pd None = Some u -> In u l2;
  (* only the source has a finite entry and no predecessor *)
  r_root : forall v d, nth v dist None = Some d -> nth v pd None = None -> v = source;
  r_srcp : nth source pd None = None
}.

Definition inv (ord D : list nat) (s : RsDij.st) : Prop :=
  dinv n edges source ord D (RsDij.dist s) (RsDij.hp s) /\
  rinv ord (RsDij.dist s) (RsDij.pred s) (RsDij.visited s).

Definition s0 : RsDij.st :=
  RsDij.mk (set_nth source (Some 0%Z) (repeat None n)) (repeat None n) (repeat false n) [(0%Z, source)].

Lemma inv_s0 : inv [] [] s0.
Proof.
  split; [apply dinv_init; exact Hs|]. cbn [s0 RsDij.dist RsDij.pred RsDij.visited]. constructor.
  - apply repeat_length.
  - apply repeat_length.
  - intros v. rewrite nth_repeat. split; [discriminate | intros []].
  - intros v [].
  - constructor.
  - intros v u. rewrite nth_repeat. discriminate.
  - intros l1 x l2 u H. destruct l1; discriminate.
  - intros v d. rewrite start_nth by exact Hs. destruct (Nat.eqb_spec source v) as [<-|Hne]; [reflexivity|discriminate].
  - apply nth_repeat.
Qed.

Lemma ord_len ord dist pd vis : rinv ord dist pd vis -> length ord <= n.
Proof. intros HR. apply nodup_bound; [apply (r_nodup _ _ _ _ HR) | apply (r_ordlt _ _ _ _ HR)]. Qed.

Lemma rinv_settle ord dist pd vis u : rinv ord dist pd vis -> u < n -> ~ In u ord ->
  rinv (u :: ord) dist pd (set_nth u true vis).
Proof.
  intros [R1 R2 R3 R4 R5 R6 R7 R8 R9] Hun Hno.
  constructor; try assumption.   (* left: r_lv, r_vis, r_ordlt, r_nodup, r_pred, r_pord *)
  - rewrite length_set_nth. exact R2.
  - intros v. rewrite nth_set_nth by lia. destruct (Nat.eqb_spec u v) as [->|Hne].
    + split; [intros _; left; reflexivity | reflexivity].
    + rewrite R3. split; [intros H; right; exact H|]. intros [E|H]; [congruence | exact H].
  - intros v [<-|Hin]; [exact Hun | apply R4; exact Hin].
  - constructor; assumption.
  - intros v a Hp. destruct (R6 v a Hp) as [Ha Hr]. split; [right; exact Ha | exact Hr].
  - intros l1 x l2 a Ho Hp. destruct l1 as [|y l1]; simpl in Ho; injection Ho as -> ->.
    + apply (R6 x a Hp).
    + eapply R7; [reflexivity | exact Hp].
Qed.

Definition rs_scanning (ord D : list nat) (u : nat) (c : Z) (s : RsDij.st) : Prop :=
  inv ord D s /\ dget s u = Some c.

(* one out-edge: the hypothesis of relax_fold *)
Lemma explore_step ord D u c : In u ord -> forall s nb w,
  rs_scanning ord D u c s -> In (u, nb, w) edges ->
  let s' := RsDij.explore u c s (nb, w) in
  rs_scanning ord D u c s' /\ mono (RsDij.dist s) (RsDij.dist s') /\
  (exists dv, dget s' nb = Some dv /\ (dv <= c + w)%Z) /\ length (RsDij.hp s') <= S (length (RsDij.hp s)).
Proof.
  intros Hu s nb w HI Hin s'. pose proof HI as [[HD HR] Hdu].
  destruct (edge_lt _ _ _ _ _ HV Hin) as [_ [Hnb Hw0]].
  unfold s', RsDij.explore. destruct (nth nb (RsDij.visited s) false) eqn:Evis.
  { (* nb is settled: its entry is final *)
    destruct (d_walk _ _ _ _ _ _ _ HD u c Hdu) as [pu Hpu].
    destruct (d_fin _ _ _ _ _ _ _ HD nb (proj1 (r_vis _ _ _ _ HR nb) Evis)) as [dn [Hdn Hmin]].
    split; [exact HI|]. split; [apply mono_refl|]. split; [|lia].
    exists dn. split; [exact Hdn|]. apply (Hmin (pu ++ [nb])). eapply walk_snoc; eassumption. }
  destruct (flt (Some (c + w)%Z) (dget s nb)) eqn:F.
  2:{ split; [exact HI|]. split; [apply mono_refl|]. split; [apply flt_Some_false; exact F | lia]. }
  destruct (dinv_improve n edges source HV _ cost_ltb_true cost_ltb_false ord D _ _ u c nb w HD Hdu Hin F)
    as (HD' & M & Hno & Hns & Hnu).
  unfold rs_scanning, inv. cbn [RsDij.dist RsDij.pred RsDij.visited RsDij.hp].
  assert (Hd : forall v, nth v (set_nth nb (Some (c + w)%Z) (RsDij.dist s)) None
                         = if Nat.eqb nb v then Some (c + w)%Z else dget s v).
  { intros v. apply nth_set_nth. rewrite (d_len _ _ _ _ _ _ _ HD). exact Hnb. }
  assert (Hp : forall v, nth v (set_nth nb (Some u) (RsDij.pred s)) None
                         = if Nat.eqb nb v then Some u else nth v (RsDij.pred s) None).
  { intros v. apply nth_set_nth. rewrite (r_lp _ _ _ _ HR). exact Hnb. }
  assert (Hdo : forall v, In v ord -> nth v (set_nth nb (Some (c + w)%Z) (RsDij.dist s)) None = dget s v).
  { intros v Hv. rewrite Hd. destruct (Nat.eqb_spec nb v) as [->|_]; [contradiction|reflexivity]. }
  split; [split; [split; [exact HD'|] | rewrite (Hdo u Hu); exact Hdu]|].
  2:{ split; [exact M|]. split; [|rewrite rs_hpush_eq, hins_length; lia].
      exists (c + w)%Z. rewrite Hd, Nat.eqb_refl. split; [reflexivity | apply Z.le_refl]. }
  destruct HR as [R1 R2 R3 R4 R5 R6 R7 R8 R9].
  constructor; try assumption.   (* left: r_lp, r_pred, r_pord, r_root, r_srcp *)
  - rewrite length_set_nth. exact R1.
  - intros v a. rewrite Hp. destruct (Nat.eqb_spec nb v) as [<-|Hne]; intros H.
    + injection H as <-. split; [exact Hu|]. exists w, c. split; [exact Hin|]. split.
      * rewrite (Hdo u Hu). exact Hdu.
      * rewrite Hd, Nat.eqb_refl. reflexivity.
    + destruct (R6 v a H) as [Ha [w0 [du [H1 [H2 H3]]]]]. split; [exact Ha|]. exists w0, du.
      split; [exact H1|]. split; [rewrite (Hdo a Ha); exact H2|].
      rewrite Hd. destruct (Nat.eqb_spec nb v); [contradiction|exact H3].
  - intros l1 x l2 a Ho. rewrite Hp. destruct (Nat.eqb_spec nb x) as [<-|_]; [|apply (R7 l1 x l2 a Ho)].
    exfalso. apply Hno. rewrite Ho. apply in_or_app. right. left. reflexivity.
  - intros v d. rewrite Hd, Hp. destruct (Nat.eqb_spec nb v) as [<-|Hne]; [discriminate | apply R8].
  - rewrite Hp. destruct (Nat.eqb_spec nb source) as [Eq|_]; [contradiction | exact R9].
Qed.

Lemma rs_scan_inv ord u c s : inv (u :: ord) ord s -> dget s u = Some c ->
  let s' := fold_left (RsDij.explore u c) (wout edges u) s in
  inv (u :: ord) (u :: ord) s' /\ length (RsDij.hp s') <= length (wout edges u) + length (RsDij.hp s).
Proof.
  intros HI Hdu s'.
  destruct (relax_fold edges (rs_scanning (u :: ord) ord u c) RsDij.dist RsDij.hp (RsDij.explore u c) u c
              (explore_step (u :: ord) ord u c (or_introl eq_refl)) (wout edges u) s
              (fun v w H => proj1 (wout_In edges u v w) H) (conj HI Hdu))
    as [[[HD2 HR2] Hu2] [_ [Hall Hlen]]].
  split; [|exact Hlen]. split; [|exact HR2].
  apply (dinv_expanded n edges source _ u c _ _ HD2 Hu2). intros v w Hin. apply Hall, wout_In, Hin.
Qed.

Lemma recon_ok ord D s : inv ord D s ->
  forall f cur acc l1 l2 t dacc dc, ord = l1 ++ cur :: l2 -> length l2 < f ->
    walk edges cur t (cur :: acc) dacc -> dget s cur = Some dc ->
    exists path, RsDij.recon f (RsDij.pred s) source cur acc = Some path /\
                 walk edges source t path (dc + dacc).
Proof.
  intros [HD HR]. induction f as [|f IH]; intros cur acc l1 l2 t dacc dc Ho Hlen Hw Hdc; [lia|].
  cbn [RsDij.recon]. destruct (Nat.eqb_spec cur source) as [->|Hne].
  - exists (source :: acc). split; [reflexivity|]. rewrite (d_src _ _ _ _ _ _ _ HD) in Hdc. injection Hdc as <-.
    exact Hw.
  - destruct (nth cur (RsDij.pred s) None) as [q|] eqn:Ep.
    + destruct (r_pred _ _ _ _ HR cur q Ep) as [Hq [w [du [Hin [Hdq Hdcur]]]]].
      pose proof (r_pord _ _ _ _ HR l1 cur l2 q Ho Ep) as Hq2.
      apply in_split in Hq2. destruct Hq2 as [l3 [l4 Hl2]].
      rewrite Hdcur in Hdc. injection Hdc as <-.
      destruct (IH q (cur :: acc) (l1 ++ cur :: l3) l4 t (w + dacc)%Z du) as [path [H1 H2]].
      * rewrite Ho, Hl2, <- app_assoc. reflexivity.
      * rewrite Hl2, app_length in Hlen. simpl in Hlen. lia.
      * eapply walk_cons; eassumption.
      * exact Hdq.
      * exists path. split; [exact H1|]. replace (du + w + dacc)%Z with (du + (w + dacc))%Z by lia. exact H2.
    + exfalso. apply Hne. eapply (r_root _ _ _ _ HR); eassumption.
Qed.

Definition tgt_ok (target : option nat) (ord : list nat) : Prop := forall t, target = Some t -> ~ In t ord.

Definition post (target : option nat) (res : RsDij.kres) : Prop :=
  match res with
  | RsDij.KHang => False
  | RsDij.KReached path d _ =>
      exists t, target = Some t /\ walk edges source t path d /\
                forall p' d', walk edges source t p' d' -> (d <= d')%Z
  | RsDij.KDone s' => exists ord', inv ord' ord' s' /\ RsDij.hp s' = [] /\ tgt_ok target ord'
  end.

Lemma rs_loop_ok target : forall fuel ord s, inv ord ord s -> tgt_ok target ord ->
  length (RsDij.hp s) + wpend edges ord < fuel ->
  exists res, RsDij.loop fuel (RsDij.build_adjacency n edges) source target s = Some res /\ post target res.
Proof.
  induction fuel as [|fuel IH]; intros ord s [HD HR] HT Hphi; [lia|].
  cbn [RsDij.loop]. destruct (RsDij.hp s) as [|[c u] rest] eqn:Eh.
  - exists (RsDij.KDone s). split; [reflexivity|]. exists ord. rewrite <- Eh in HD. split; [split; assumption|]. split; [exact Eh | exact HT].
  - cbn [length] in Hphi. destruct (d_ub _ _ _ _ _ _ _ HD c u (or_introl eq_refl)) as [Hun _].
    destruct (nth u (RsDij.visited s) false) eqn:Ev.
    + (* u was settled through another entry *)
      apply (IH ord); [split; [|exact HR] | exact HT | cbn [RsDij.hp]; lia].
      eapply dinv_drop; [exact HD|]. left. apply (r_vis _ _ _ _ HR). exact Ev.
    + assert (Hno : ~ In u ord) by (rewrite <- (r_vis _ _ _ _ HR); congruence).
      pose proof (head_current _ _ _ _ _ _ _ _ _ HD Hno) as Hdu.
      set (s1 := RsDij.mk (RsDij.dist s) (RsDij.pred s) (set_nth u true (RsDij.visited s)) rest).
      assert (HI1 : inv (u :: ord) ord s1).
      { split; [exact (dinv_settle n edges source HV _ _ _ _ _ HD Hno) | apply rinv_settle; assumption]. }
      destruct (match target with Some t => Nat.eqb u t | None => false end) eqn:Et.
      * destruct target as [t|]; [|discriminate]. apply Nat.eqb_eq in Et. subst t.
        destruct (recon_ok (u :: ord) ord s1 HI1 (S (length (RsDij.pred s))) u [] [] ord u 0%Z c) as [path [H1 H2]].
        -- reflexivity.
        -- rewrite (r_lp _ _ _ _ HR). pose proof (ord_len _ _ _ _ HR). lia.
        -- apply walk_nil.
        -- exact Hdu.
        -- cbn [s1 RsDij.pred] in H1. rewrite H1. eexists. split; [reflexivity|].
           exists u. split; [reflexivity|]. rewrite Z.add_0_r in H2. split; [exact H2|].
           destruct (d_fin _ _ _ _ _ _ _ (proj1 HI1) u (or_introl eq_refl)) as [d [Hd Hmin]].
           cbn [s1 RsDij.dist] in Hd. rewrite Hdu in Hd. injection Hd as <-. exact Hmin.
      * rewrite Hdu. cbn [flt]. rewrite Z.ltb_irrefl. rewrite (rsd_adj n edges u Hun HV). fold s1.
        destruct (rs_scan_inv ord u c s1 HI1 Hdu) as [HI2 Hlen].
        apply (IH (u :: ord)); [exact HI2 | |].
        -- intros t Ht [E|Hin]; [|exact (HT t Ht Hin)]. subst target t. rewrite Nat.eqb_refl in Et. discriminate.
        -- pose proof (wpend_settle edges ord u Hno). cbn [s1 RsDij.hp] in Hlen. lia.
Qed.

Lemma loop_s0 target :
  exists res, RsDij.loop (RsDij.fuel_of edges) (RsDij.build_adjacency n edges) source target s0 = Some res /\
              post target res.
Proof.
  apply (rs_loop_ok target (RsDij.fuel_of edges) [] s0 inv_s0).
  - intros t _ [].
  - unfold RsDij.fuel_of. cbn [s0 RsDij.hp length]. pose proof (pend_le _ edges [] : wpend edges [] <= length edges). lia.
Qed.

Theorem rsdij_all_dists_correct :
  exists dv, RsDij.dijkstra n edges source None = Some (RsDij.Dists dv) /\ dists_ok n edges source dv.
Proof.
  destruct (loop_s0 None) as [res [Hl Hp]].
  unfold RsDij.dijkstra. fold s0. rewrite Hl.
  destruct res as [path d s'|s'|]; cbn [post] in Hp.
  - destruct Hp as [t [Ht _]]. discriminate.
  - destruct Hp as [ord' [[HD _] [Hh _]]]. exists (RsDij.dist s'). split; [reflexivity|].
    rewrite Hh in HD. exact (dinv_final_dists n edges source HV _ _ HD).
  - contradiction.
Qed.

Theorem rsdij_target_correct : forall t, target_ok edges source t (RsDij.dijkstra n edges source (Some t)).
Proof.
  intros t. destruct (loop_s0 (Some t)) as [res [Hl Hp]].
  unfold target_ok, RsDij.dijkstra. fold s0. rewrite Hl.
  destruct res as [path d s'|s'|]; cbn [post] in Hp.
  - destruct Hp as [t' [Et [Hw Hmin]]]. injection Et as <-. left. exists path, d.
    split; [reflexivity|]. split; [exact Hw|]. split; [exists path; exact Hw | exact Hmin].
  - destruct Hp as [ord' [[HD _] [Hh HT]]]. right. rewrite Hh in HD.
    pose proof (dinv_final n edges source HV _ _ HD t) as H.
    destruct (dget s' t) as [dt|].
    + exfalso. apply (HT t eq_refl). exact (proj1 H).
    + split; [reflexivity | exact H].
  - contradiction.
Qed.

End RsLoop.

Print Assumptions rsdij_all_dists_correct.
Print Assumptions rsdij_target_correct.

Theorem dijkstra_equiv_target : forall n edges source t, dij_valid n edges source (Some t) = true ->
  (exists p q d, RsDij.dijkstra n edges source (Some t) = Some (RsDij.Path p d) /\
                 PyDij.dijkstra_edges n edges source (Some t) = Some (RsDij.Path q d) /\
                 walk edges source t p d /\ walk edges source t q d /\ is_dist edges source t d)
  \/ (RsDij.dijkstra n edges source (Some t) = Some RsDij.Infeasible /\
      PyDij.dijkstra_edges n edges source (Some t) = Some RsDij.Infeasible /\
      ~ reachable edges source t).
Proof.
  intros n edges source t HVI. destruct (dij_valid_spec _ _ _ _ HVI) as [Hs [HV _]].
  destruct (rsdij_target_correct n edges source Hs HV t) as [[p [d [H1 [H2 H3]]]]|[H1 H2]];
  destruct (pydij_target_correct n edges HV source t Hs) as [[q [d' [G1 [G2 G3]]]]|[G1 G2]].
  - left. assert (d' = d) by (eapply is_dist_unique; eassumption). subst d'. exists p, q, d. auto.
  - exfalso. apply G2. eapply is_dist_reachable. exact H3.
  - exfalso. apply H2. eapply is_dist_reachable. exact G3.
  - right. auto.
Qed.

Theorem dijkstra_equiv_dists : forall n edges source, dij_valid n edges source None = true ->
  exists dv, RsDij.dijkstra n edges source None = Some (RsDij.Dists dv) /\
             PyDij.dijkstra_edges n edges source None = Some (RsDij.Dists dv) /\
             length dv = n /\
             forall v, v < n -> match nth v dv None with
                                | Some d => is_dist edges source v d
                                | None => ~ reachable edges source v
                                end.
Proof.
  intros n edges source HVI. destruct (dij_valid_spec _ _ _ _ HVI) as [Hs [HV _]].
  destruct (rsdij_all_dists_correct n edges source Hs HV) as [dv [H1 H2]].
  destruct (pydij_edges_none_correct n edges source Hs HV) as [dv' [G1 G2]].
  rewrite (dists_ok_unique _ _ _ _ _ G2 H2) in G1. exists dv. split; [exact H1|]. split; [exact G1 | exact H2].
Qed.

Print Assumptions dijkstra_equiv_target.
Print Assumptions dijkstra_equiv_dists.
