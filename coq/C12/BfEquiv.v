(* C12_bf: the Rust-side model of bellman_ford (kernel + adapter) and the Python-side model SV.C11.BellmanFord give
   the same result on every valid input: the kernels relax the edges in the same order with the same early exit,
   the detection pass is the same test, and the two path reconstructions walk the same predecessor chain. *)
From Coq Require Import List ZArith Bool Arith.
From SV Require Import C11.BellmanFord C12.RsShortest C12.BfsEquiv.
Import ListNotations.
Open Scope Z_scope.

Lemma relax_eq st e : RsBF.relax_edge st e = BF.relax st e.
Proof.
  destruct st as [[d p] upd]. destruct e as [[u v] w].
  unfold RsBF.relax_edge, BF.relax, RsBF.can_relax. change RsBF.getd with BF.getd.
  destruct (BF.getd d u) as [du|]; [|reflexivity].
  destruct (BF.getd d v) as [dv|]; simpl; [destruct (du + w <? dv)|]; reflexivity.
Qed.

Lemma round_eq edges d p : fold_left RsBF.relax_edge edges (d, p, false) = BF.round edges d p.
Proof. unfold BF.round. apply fold_left_ext_in. intros st e _. apply relax_eq. Qed.

Lemma rounds_eq k edges : forall d p, RsBF.rounds k edges d p = BF.rounds k edges d p.
Proof.
  induction k as [|k IH]; intros d p; simpl; [reflexivity|].
  rewrite round_eq. destruct (BF.round edges d p) as [[d' p'] upd].
  destruct upd; [apply IH | reflexivity].
Qed.

Lemma detect_eq edges d : RsBF.has_negative_cycle edges d = BF.detect edges d.
Proof.
  unfold RsBF.has_negative_cycle, BF.detect. induction edges as [|[[u v] w] l IH]; simpl; [reflexivity|].
  rewrite IH. reflexivity.
Qed.

Lemma recon_eq p : forall f c acc,
  RsBF.recon f p (nth c p None) (c :: acc) = BF.recon (S f) p c (c :: acc).
Proof.
  induction f as [|f IH]; intros c acc; simpl.
  - destruct (nth c p None); reflexivity.
  - destruct (nth c p None) as [u|]; [|reflexivity]. rewrite IH. reflexivity.
Qed.

Theorem bf_equiv : forall start edges n target, BF.valid_input start edges n target = true ->
  RsBF.bellman_ford start edges n target = BF.bellman_ford start edges n target.
Proof.
  intros start edges n target HV. unfold BF.bellman_ford. rewrite HV. simpl.
  unfold RsBF.bellman_ford, RsBF.kernel, BF.final_state, BF.init_dist, BF.init_parent.
  rewrite rounds_eq.
  change (@RsShortest.set_nth (option Z)) with (@BF.set_nth (option Z)).
  destruct (BF.rounds (n - 1) edges (BF.set_nth start (Some 0) (repeat None n)) (repeat None n)) as [d p].
  rewrite detect_eq. destruct (BF.detect edges d); [reflexivity|].
  destruct target as [t|]; [|reflexivity].
  change RsBF.getd with BF.getd. destruct (BF.getd d t) as [dt|]; [|reflexivity].
  unfold BF.reconstruct_indexed.
  change (RsBF.recon (S (length p)) p (Some t) []) with (RsBF.recon (length p) p (nth t p None) [t]).
  rewrite recon_eq. reflexivity.
Qed.
