(* C12 dfs_edges, the Rust side (rust/src/algorithms/bfs.rs dfs, RsSearch.dfs_loop): the kernel never runs out of fuel;
   when the target is popped reconstruct_path returns a valid path (predecessor chains descend into the visit order);
   when the stack runs empty the visited set is the reachable set. *)
From Coq Require Import List ZArith Bool Arith Lia.
From SV Require Import C11.Paths C11.PathsLemmas C11.BfsProofs1 C12.RsSearch C12.BfsEquiv.
Import ListNotations.
Import RsSearch.
Local Open Scope nat_scope.

Lemma path_nodes_lt (succ : nat -> list nat) n : (forall u w, u < n -> In w (succ u) -> w < n) ->
  forall p s, s < n -> path_in succ p -> hd_error p = Some s -> forall x, In x p -> x < n.
Proof.
  intros Hcl. induction p as [|u p IH]; intros s Hs Hp Hh x Hx; [destruct Hp|].
  injection Hh as ->. destruct p as [|v p].
  - destruct Hx as [<-|[]]. exact Hs.
  - destruct Hp as [Huv Hp]. destruct Hx as [<-|Hx]; [exact Hs|].
    apply (IH v); [eapply Hcl; eauto | exact Hp | reflexivity | exact Hx].
Qed.

Lemma reach_ext (succ succ' : nat -> list nat) n s t :
  (forall u, u < n -> succ u = succ' u) -> (forall u w, u < n -> In w (succ u) -> w < n) -> s < n ->
  reach succ s t -> reach succ' s t.
Proof.
  intros Hext Hcl Hs (p & Hp & Hh & Hr). exists p. split; [|auto].
  apply (path_in_ext succ succ'); [|exact Hp].
  intros u Hu. apply Hext. eapply path_nodes_lt; eauto.
Qed.

Lemma reach_lt (succ : nat -> list nat) n s t : (forall u w, u < n -> In w (succ u) -> w < n) -> s < n ->
  reach succ s t -> t < n.
Proof.
  intros Hcl Hs (p & Hp & Hh & Hl & Hne). subst t.
  apply (path_nodes_lt succ n Hcl p s Hs Hp Hh).
  destruct p as [|a p]; [congruence|]. rewrite (last_default (a :: p) s a) by discriminate.
  destruct (exists_last (l := a :: p)) as (q & z & E); [discriminate|]. rewrite E, last_last.
  apply in_or_app. right. left. reflexivity.
Qed.

Lemma reach_refl (succ : nat -> list nat) s : reach succ s s.
Proof. exists [s]. apply is_path_single. Qed.

Lemma reach_snoc (succ : nat -> list nat) s u c : reach succ s u -> In c (succ u) -> reach succ s c.
Proof. intros [p Hp] Hc. exists (p ++ [c]). eapply is_path_snoc; eauto. Qed.

Definition unv (vis : list bool) (x : nat) : bool := negb (nth x vis false).

Definition write_all {A} (v : A) (ys : list nat) (pd : list A) : list A :=
  fold_left (fun pd y => set_nth y v pd) ys pd.

Lemma write_all_length {A} (v : A) : forall ys pd, length (write_all v ys pd) = length pd.
Proof. unfold write_all. induction ys as [|y ys IH]; intros pd; cbn [fold_left]; [reflexivity|]. rewrite IH. apply length_set_nth. Qed.

Lemma write_all_out {A} (v d : A) x : forall ys pd, ~ In x ys -> nth x (write_all v ys pd) d = nth x pd d.
Proof.
  unfold write_all. induction ys as [|y ys IH]; intros pd Hx; cbn [fold_left]; [reflexivity|].
  rewrite IH by (intros H; apply Hx; right; exact H). apply nth_set_nth_neq. intros ->. apply Hx. left. reflexivity.
Qed.

Lemma write_all_in {A} (v d : A) x : forall ys pd, In x ys -> (forall y, In y ys -> y < length pd) ->
  nth x (write_all v ys pd) d = v.
Proof.
  induction ys as [|y ys IH]; intros pd Hx Hlt; [destruct Hx|].
  change (write_all v (y :: ys) pd) with (write_all v ys (set_nth y v pd)).
  destruct (in_dec Nat.eq_dec x ys) as [Hin|Hin].
  - apply IH; [exact Hin|]. intros z Hz. rewrite length_set_nth. apply Hlt. right. exact Hz.
  - destruct Hx as [->|Hx]; [|contradiction]. rewrite write_all_out by exact Hin.
    apply nth_set_nth_eq, Hlt. left. reflexivity.
Qed.

(* One neighbour loop in closed form: the unvisited neighbours are pushed (the last one on top) and get the expanded
   node as predecessor; nothing else changes. *)
Lemma explore_fold node : forall l s,
  fold_left (dfs_explore node) l s
  = mk (visited s) (write_all (Some node) (filter (unv (visited s)) l) (pred s))
       (rev (filter (unv (visited s)) l) ++ frontier s) (order s).
Proof.
  induction l as [|y r IH]; intros s; cbn [fold_left filter]; [destruct s; reflexivity|].
  rewrite IH. unfold dfs_explore, unv. destruct (nth y (visited s) false); cbn; [reflexivity|].
  rewrite <- app_assoc. reflexivity.
Qed.

Section Recon.
Variable succ : nat -> list nat.
Variable pd : list (option nat).
Variable source : nat.
Variable ord : list nat.      (* visit order, newest first *)
Hypothesis Hedge : forall x u, nth x pd None = Some u -> In x (succ u).
Hypothesis Hdesc : forall l1 x l2 u, ord = l1 ++ x :: l2 -> nth x pd None = Some u -> In u l2.
Hypothesis Hgood : forall x, In x ord -> x = source \/ nth x pd None <> None.

(* x is the source, or its predecessor lies in the part l of the order that is still to be walked through *)
Lemma recon_chain : forall fuel l0 l x acc, ord = l0 ++ l -> length l < fuel ->
  x = source \/ (exists u, nth x pd None = Some u /\ In u l) ->
  exists p, recon fuel pd source x acc = Some (p ++ acc) /\ is_path succ source x p.
Proof.
  induction fuel as [|f IH]; intros l0 l x acc Ho Hf Hx; [lia|].
  simpl. destruct (Nat.eqb_spec x source) as [->|Hne].
  - exists [source]. split; [reflexivity | apply is_path_single].
  - destruct Hx as [Hx|(u & Eu & Hu)]; [contradiction|]. rewrite Eu.
    apply in_split in Hu. destruct Hu as (l3 & l4 & ->).
    destruct (IH (l0 ++ l3 ++ [u]) l4 u (x :: acc)) as (p & Hp & Hpath).
    + rewrite Ho, <- !app_assoc. reflexivity.
    + rewrite app_length in Hf. simpl in Hf. lia.
    + assert (Hu : In u ord) by (rewrite Ho, !in_app_iff; right; right; left; reflexivity).
      destruct (Hgood u Hu) as [H|H]; [left; exact H|].
      right. destruct (nth u pd None) as [u'|] eqn:Eu'; [|congruence]. exists u'. split; [reflexivity|].
      apply (Hdesc (l0 ++ l3) u l4 u'); [rewrite Ho, <- app_assoc; reflexivity | exact Eu'].
    + exists (p ++ [x]). split; [rewrite Hp, <- app_assoc; reflexivity|].
      eapply is_path_snoc; [exact Hpath | apply Hedge; exact Eu].
Qed.

Lemma reconstruct_fresh x : length ord <= length pd -> (x = source \/ exists u, nth x pd None = Some u /\ In u ord) ->
  exists p, reconstruct_path pd source x = Some p /\ is_path succ source x p.
Proof.
  intros Hlen Hx. destruct (recon_chain (S (length pd)) [] ord x [] eq_refl) as (p & Hp & Hpath); [lia | exact Hx|].
  exists p. rewrite app_nil_r in Hp. split; assumption.
Qed.

End Recon.

Lemma nth_true_lt (l : list bool) v : nth v l false = true -> v < length l.
Proof.
  intros H. destruct (Nat.lt_ge_cases v (length l)) as [L|L]; [exact L|].
  rewrite nth_overflow in H by exact L. discriminate.
Qed.

Section Loop.
Variable n : nat.
Variable edges : list (nat * nat).
Variable source : nat.
Variable target : option nat.
Hypothesis HE : evalid n edges.
Hypothesis Hs : source < n.

Let succ := out_of edges.

Definition seen (s : st) (x : nat) : Prop := In x (order s) \/ In x (frontier s).

Record inv (s : st) : Prop := {
  i_lv : length (visited s) = n;
  i_lp : length (pred s) = n;
  i_vo : forall v, nth v (visited s) false = true <-> In v (order s);
  i_nd : NoDup (order s);
  i_flt : forall x, In x (frontier s) -> x < n;
  (* predecessors are visited and are real graph predecessors *)
  i_pr : forall x u, nth x (pred s) None = Some u -> In u (order s) /\ In x (succ u);
  i_gd : forall x, seen s x -> x = source \/ nth x (pred s) None <> None;
  (* the predecessor of a visited node was visited earlier *)
  i_ch : forall l1 x l2 u, order s = l1 ++ x :: l2 -> nth x (pred s) None = Some u -> In u l2;
  (* successors of visited nodes are visited or waiting on the stack *)
  i_cl : forall u, In u (order s) -> forall w, In w (succ u) -> seen s w;
  i_sr : seen s source;
  (* the loop returns as soon as the target is visited *)
  i_tg : forall t, target = Some t -> ~ In t (order s);
  i_rc : forall x, seen s x -> reach succ source x
}.

Lemma inv_order_len s : inv s -> length (order s) <= n.
Proof.
  intros HI. apply nodup_bound; [apply (i_nd s HI)|].
  intros v Hv. rewrite <- (i_lv s HI). apply nth_true_lt, (i_vo s HI), Hv.
Qed.

Lemma inv_init : inv (mk (repeat false n) (repeat None n) [source] []).
Proof.
  constructor; unfold seen; cbn [visited pred frontier order].
  - apply repeat_length.
  - apply repeat_length.
  - intros v. rewrite nth_repeat. split; [discriminate | intros []].
  - constructor.
  - intros x [<-|[]]. exact Hs.
  - intros x u H. rewrite nth_repeat in H. discriminate.
  - intros x [[]|[<-|[]]]. left. reflexivity.
  - intros l1 x l2 u H. destruct l1; discriminate.
  - intros u [].
  - right. left. reflexivity.
  - intros t _ [].
  - intros x [[]|[<-|[]]]. apply reach_refl.
Qed.

Lemma inv_skip s node rest : inv s -> frontier s = node :: rest -> nth node (visited s) false = true ->
  inv (mk (visited s) (pred s) rest (order s)).
Proof.
  intros HI Ef Hv. apply (i_vo s HI) in Hv.
  assert (Hseen : forall x, seen (mk (visited s) (pred s) rest (order s)) x <-> seen s x).
  { intros x. unfold seen. cbn [frontier order]. rewrite Ef. split; [intros [H|H]; [left|right; right]; exact H|].
    intros [H|[<-|H]]; [left; exact H | left; exact Hv | right; exact H]. }
  destruct HI as [I1 I2 I3 I4 I5 I6 I7 I8 I9 I10 I11 I12].
  constructor; cbn [visited pred frontier order]; try assumption.   (* left: i_flt, i_gd, i_cl, i_sr, i_rc *)
  - intros x Hx. apply I5. rewrite Ef. right. exact Hx.
  - intros x Hx. apply I7, Hseen, Hx.
  - intros u Hu w Hw. apply Hseen, (I9 u Hu w Hw).
  - apply Hseen, I10.
  - intros x Hx. apply I12, Hseen, Hx.
Qed.

Lemma inv_expand s node rest : inv s -> frontier s = node :: rest -> nth node (visited s) false = false ->
  target <> Some node ->
  inv (fold_left (dfs_explore node) (rev (succ node))
                 (mk (set_nth node true (visited s)) (pred s) rest (node :: order s))).
Proof.
  intros HI Ef Hv Ht. rewrite explore_fold. cbn [visited pred frontier order].
  set (vis1 := set_nth node true (visited s)).
  set (new := filter (unv vis1) (rev (succ node))).
  assert (Hnf : seen s node) by (right; rewrite Ef; left; reflexivity).
  assert (Hnode : node < n) by (apply (i_flt s HI); rewrite Ef; left; reflexivity).
  assert (Hno : ~ In node (order s)) by (intros H; apply (i_vo s HI) in H; congruence).
  assert (Hvis1 : forall v, nth v vis1 false = true <-> In v (node :: order s)).
  { intros v. unfold vis1. rewrite nth_set_nth by (rewrite (i_lv s HI); exact Hnode).
    destruct (Nat.eqb_spec node v) as [E|E]; [split; [left; exact E | reflexivity]|].
    rewrite (i_vo s HI). split; [right; assumption | intros [H|H]; [contradiction | exact H]]. }
  assert (Hnew : forall x, In x new <-> In x (succ node) /\ ~ In x (node :: order s)).
  { intros x. unfold new, unv. rewrite filter_In, <- in_rev, negb_true_iff, <- Hvis1.
    destruct (nth x vis1 false); split; intros [H1 H2]; (split; [exact H1|]); congruence. }
  assert (Hlt : forall y, In y new -> y < length (pred s)).
  { intros y Hy. rewrite (i_lp s HI). apply Hnew in Hy. eapply out_of_lt; [exact HE | apply Hy]. }
  assert (Hseen : forall x, seen (mk vis1 (write_all (Some node) new (pred s)) (rev new ++ rest) (node :: order s)) x
                            <-> seen s x \/ In x new).
  { intros x. unfold seen. cbn [order frontier]. rewrite in_app_iff, <- in_rev, Ef. cbn [In]. split.
    - intros [[H|H]|[H|H]]; auto.
    - intros [[H|[H|H]]|H]; auto. }
  constructor; cbn [visited pred frontier order].
  - unfold vis1. rewrite length_set_nth. apply (i_lv s HI).
  - rewrite write_all_length. apply (i_lp s HI).
  - exact Hvis1.
  - constructor; [exact Hno | apply (i_nd s HI)].
  - intros x Hx. apply in_app_or in Hx. destruct Hx as [Hx|Hx].
    + rewrite <- (i_lp s HI). apply Hlt, in_rev, Hx.
    + apply (i_flt s HI). rewrite Ef. right. exact Hx.
  - intros x u Hx. destruct (in_dec Nat.eq_dec x new) as [Hin|Hin].
    + rewrite (write_all_in _ _ _ _ _ Hin Hlt) in Hx. injection Hx as <-.
      split; [left; reflexivity | apply Hnew, Hin].
    + rewrite write_all_out in Hx by exact Hin. destruct (i_pr s HI x u Hx) as [H1 H2]. split; [right; exact H1 | exact H2].
  - intros x Hx. destruct (in_dec Nat.eq_dec x new) as [Hin|Hin].
    + right. rewrite (write_all_in _ _ _ _ _ Hin Hlt). discriminate.
    + rewrite write_all_out by exact Hin. apply (i_gd s HI). apply Hseen in Hx.
      destruct Hx as [Hx|Hx]; [exact Hx | contradiction].
  - intros l1 x l2 u Ho Hx.
    assert (Hxo : ~ In x new).
    { intros H. apply Hnew in H. apply (proj2 H). rewrite Ho. apply in_or_app. right. left. reflexivity. }
    rewrite write_all_out in Hx by exact Hxo.
    destruct l1 as [|a l1]; simpl in Ho; injection Ho as Ha Ho.
    + subst x l2. apply (i_pr s HI node u Hx).
    + apply (i_ch s HI l1 x l2 u Ho Hx).
  - intros u Hu w Hw. apply Hseen. destruct Hu as [<-|Hu]; [|left; apply (i_cl s HI u Hu w Hw)].
    destruct (in_dec Nat.eq_dec w (node :: order s)) as [[<-|H]|H]; [left; exact Hnf | left; left; exact H|].
    right. apply Hnew. split; assumption.
  - apply Hseen. left. apply (i_sr s HI).
  - intros t Et [<-|H]; [congruence | exact (i_tg s HI t Et H)].
  - intros x Hx. apply Hseen in Hx. destruct Hx as [Hx|Hx]; [apply (i_rc s HI); exact Hx|].
    apply reach_snoc with (u := node); [apply (i_rc s HI); exact Hnf | apply Hnew, Hx].
Qed.

Lemma inv_final s : inv s -> frontier s = [] -> forall v, In v (order s) <-> reach succ source v.
Proof.
  intros HI Ef v.
  assert (Hseen : forall x, seen s x -> In x (order s)) by (intros x [H|H]; [exact H | rewrite Ef in H; destruct H]).
  split; [intros Hv; apply (i_rc s HI); left; exact Hv|].
  intros (p & Hp & Hh & Hl & Hne). subst v.
  apply (closed_reach succ (order s)); [|  | exact Hp | exact Hh].
  - intros u Hu w Hw. apply Hseen, (i_cl s HI u Hu w Hw).
  - apply Hseen, (i_sr s HI).
Qed.

Lemma inv_recon s node rest : inv s -> frontier s = node :: rest ->
  exists p, reconstruct_path (pred s) source node = Some p /\ is_path succ source node p.
Proof.
  intros HI Ef.
  apply (reconstruct_fresh succ (pred s) source (order s)).
  - intros x u H. apply (i_pr s HI x u H).
  - apply (i_ch s HI).
  - intros x Hx. apply (i_gd s HI). left. exact Hx.
  - rewrite (i_lp s HI). apply inv_order_len. exact HI.
  - destruct (i_gd s HI node) as [H|H]; [right; rewrite Ef; left; reflexivity | left; exact H|].
    right. destruct (nth node (pred s) None) as [u|] eqn:E; [|congruence].
    exists u. split; [reflexivity | apply (i_pr s HI node u E)].
Qed.

Definition kpost (k : kres) : Prop :=
  match target with
  | Some t => (reach succ source t /\ exists p vo, k = K p true vo /\ is_path succ source t p)
              \/ (~ reach succ source t /\ exists vo, k = K [] false vo)
  | None => exists vo, k = K [] false vo /\ NoDup vo /\ forall v, In v vo <-> reach succ source v
  end.

Lemma dfs_loop_spec : forall fuel s, inv s -> length (frontier s) + pend fst edges (order s) < fuel ->
  exists k, dfs_loop fuel (build_adjacency n edges) source target s = Some k /\ kpost k.
Proof.
  induction fuel as [|f IH]; intros s HI Hm; [lia|].
  cbn [dfs_loop]. destruct (frontier s) as [|node rest] eqn:Ef.
  - eexists. split; [reflexivity|]. unfold kpost.
    pose proof (inv_final s HI Ef) as Hfin.
    destruct target as [t|] eqn:Et.
    + right. split; [|eexists; reflexivity].
      intros Hr. apply Hfin in Hr. exact (i_tg s HI t Et Hr).
    + eexists. split; [reflexivity|]. split; [apply NoDup_rev, (i_nd s HI)|].
      intros v. rewrite <- in_rev. apply Hfin.
  - assert (Hnode : node < n) by (apply (i_flt s HI); rewrite Ef; left; reflexivity).
    destruct (nth node (visited s) false) eqn:Hv.
    + apply IH; [eapply inv_skip; eauto|]. cbn [frontier order length] in *. lia.
    + destruct (match target with Some t => Nat.eqb node t | None => false end) eqn:Eg.
      * destruct target as [t|] eqn:Et; [|discriminate]. apply Nat.eqb_eq in Eg. subst t.
        destruct (inv_recon s node rest HI Ef) as (p & Hp & Hpath). rewrite Hp.
        eexists. split; [reflexivity|]. unfold kpost. rewrite Et. left.
        split; [exists p; exact Hpath|]. exists p. eexists. split; [reflexivity | exact Hpath].
      * rewrite rs_adj by assumption.
        apply IH.
        -- apply inv_expand; try assumption.
           destruct target as [t|]; [|discriminate]. intros E. injection E as ->.
           rewrite Nat.eqb_refl in Eg. discriminate.
        -- (* at most |out-edges of node| pushes, and those edges leave the count *)
           rewrite explore_fold. cbn [visited frontier order length] in *. rewrite app_length, rev_length.
           pose proof (filter_len_le (unv (set_nth node true (visited s))) (rev (out_of edges node))) as H1.
           rewrite rev_length in H1.
           assert (Hno : ~ In node (order s)) by (rewrite <- (i_vo s HI); congruence).
           pose proof (pend_out_of edges (order s) node Hno). lia.
Qed.

Theorem dfs_kernel_spec :
  exists k, dfs_kernel n edges source target = Some k /\ kpost k.
Proof.
  unfold dfs_kernel. apply dfs_loop_spec; [apply inv_init|].
  cbn [frontier order length]. pose proof (pend_le fst edges []). lia.
Qed.

End Loop.
