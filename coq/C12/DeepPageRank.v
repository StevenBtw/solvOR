(* C12_pagerank: the Rust-side model (RsPR.pagerank_edges, C12/RsPageRank.v) and the Python-side model
   (RsPR.py_pagerank_edges = C15 pagerank on py_graph) of PageRank over exact rationals perform IDENTICAL
   iterations: same scores (Leibniz-equal lists of Q), same converged flag, same iteration count.

   Why Leibniz: both sides store  Qred (value)  for every new score, the two pre-Qred values are Qeq
   (same multiset of summands: Python's incoming list (node order) is a Permutation of Rust's (edge-list
   order); fold_left vs fold_right sum), and  Qred_complete : p == q -> Qred p = Qred q.
   Once the score vectors are Leibniz-equal, the two stopping quantities (max |new-old| vs max |old-new|)
   are Leibniz-equal too (Qabs_Qminus), so the tests agree.

   Hypothesis (boolean, on the input): all edge endpoints are < n. *)
From Coq Require Import List Arith Bool ZArith QArith Qabs Qminmax Lia Permutation.
From SV Require Import C15.Graph C15.PageRank C15.PageRankLemmas C12.RsPageRank C12.BfsEquiv.
Import ListNotations.
Open Scope Q_scope.

Lemma flat_map_ext_in : forall (A B : Type) (f h : A -> list B) (l : list A),
  (forall x, In x l -> f x = h x) -> flat_map f l = flat_map h l.
Proof.
  intros A B f h l. induction l as [|a l IH]; intros Hf.
  - reflexivity.
  - cbn [flat_map]. rewrite (Hf a (or_introl eq_refl)). f_equal. apply IH.
    intros x Hx. apply Hf. right. exact Hx.
Qed.

Lemma flat_map_nil : forall (A B : Type) (f : A -> list B) (l : list A),
  (forall x, f x = []) -> flat_map f l = [].
Proof.
  intros A B f l Hf. induction l as [|a l IH].
  - reflexivity.
  - cbn [flat_map]. rewrite Hf, IH. reflexivity.
Qed.

Lemma sc_tabulate : forall (n : nat) (rs : list Q), length rs = n -> map (RsPR.sc rs) (seq 0 n) = rs.
Proof. intros n rs <-. symmetry. apply (list_as_map 0). Qed.

Lemma flat_map_insert : forall (F F' : nat -> list nat) (a : nat) (l : list nat),
  NoDup l -> In a l -> F' a = a :: F a -> (forall u, u <> a -> F' u = F u) ->
  Permutation (a :: flat_map F l) (flat_map F' l).
Proof.
  intros F F' a l Hnd. induction Hnd as [|x l Hx Hnd IH]; intros Ha Hhd Hoth.
  - destruct Ha.
  - cbn [flat_map]. destruct (Nat.eq_dec x a) as [Hxa|Hxa].
    + subst x. rewrite Hhd.
      rewrite (flat_map_ext_in _ _ F' F l).
      * apply Permutation_refl.
      * intros u Hu. apply Hoth. intros Hua. subst u. apply Hx. exact Hu.
    + rewrite (Hoth x Hxa). destruct Ha as [Ha|Ha]; [contradiction|].
      apply (perm_trans (Permutation_middle (F x) (flat_map F l) a)).
      apply Permutation_app_head. apply IH. exact Ha. exact Hhd. exact Hoth.
Qed.

Lemma rs_fold_left_plus : forall (l : list Q) (a : Q), fold_left Qplus l a == a + qsum l.
Proof.
  induction l as [|x l IH]; intros a.
  - cbn [fold_left]. change (qsum []) with 0. ring.
  - cbn [fold_left]. rewrite IH. rewrite qsum_cons. ring.
Qed.

Lemma rs_qsum_eq : forall l, RsPR.qsum l == qsum l.
Proof. intros l. unfold RsPR.qsum. rewrite rs_fold_left_plus. ring. Qed.

Lemma qsum_perm : forall l l', Permutation l l' -> qsum l == qsum l'.
Proof.
  intros l l' Hp. induction Hp as [|x l l' Hp IH|x y l|l l' l'' Hp1 IH1 Hp2 IH2].
  - reflexivity.
  - rewrite !qsum_cons, IH. reflexivity.
  - rewrite !qsum_cons. ring.
  - rewrite IH1. exact IH2.
Qed.

Lemma nodes_py_graph : forall n edges, nodes (RsPR.py_graph n edges) = seq 0 n.
Proof.
  intros n edges. unfold nodes, RsPR.py_graph. rewrite map_map. cbn [fst]. apply map_id.
Qed.

Lemma nbrs_map_key : forall (F : nat -> list nat) (l : list nat) (u : nat), In u l ->
  nbrs (map (fun w => (w, F w)) l) u = F u.
Proof.
  intros F l u. induction l as [|a l IH]; intros Hu.
  - destruct Hu.
  - cbn [map nbrs]. destruct (Nat.eqb a u) eqn:E.
    + apply Nat.eqb_eq in E. subst a. reflexivity.
    + destruct Hu as [Hu|Hu].
      * subst a. rewrite Nat.eqb_refl in E. discriminate E.
      * apply IH. exact Hu.
Qed.

Section Valid.
Variable n : nat.
Variable edges : list (nat * nat).
Hypothesis Hok : forallb (RsPR.edge_ok n) edges = true.

Lemma edge_ok_lt : forall e, In e edges -> (fst e < n)%nat /\ (snd e < n)%nat.
Proof.
  intros e He. pose proof (proj1 (forallb_forall _ _) Hok e He) as H.
  unfold RsPR.edge_ok in H. apply andb_true_iff in H. destruct H as [H1 H2].
  apply Nat.ltb_lt in H1. apply Nat.ltb_lt in H2. split; assumption.
Qed.

Lemma edge_ok_true : forall e, In e edges -> RsPR.edge_ok n e = true.
Proof. apply forallb_forall. exact Hok. Qed.

Lemma in_set_nbrs_py : forall u, (u < n)%nat ->
  in_set_nbrs (RsPR.py_graph n edges) u = map snd (filter (fun e => Nat.eqb (fst e) u) edges).
Proof.
  intros u Hu. unfold in_set_nbrs. rewrite nodes_py_graph. unfold RsPR.py_graph.
  rewrite nbrs_map_key by (apply in_seq; lia).
  apply filter_all. intros w Hw. apply in_map_iff in Hw. destruct Hw as [e [He1 He2]].
  apply filter_In in He2. destruct He2 as [He2 _].
  apply memb_In. apply in_seq. destruct (edge_ok_lt e He2) as [_ Hs]. subst w. lia.
Qed.

Lemma out_count_py : forall u, (u < n)%nat ->
  out_count (RsPR.py_graph n edges) u = RsPR.outgoing_count n edges u.
Proof.
  intros u Hu. unfold out_count. rewrite (in_set_nbrs_py u Hu).
  rewrite map_length. unfold RsPR.outgoing_count. f_equal. apply filter_ext_in.
  intros e He. rewrite (edge_ok_true e He). reflexivity.
Qed.

(* incoming lists: node order (Python) is a permutation of edge-list order (Rust) *)

Definition blk (E : list (nat * nat)) (v u : nat) : list nat :=
  map (fun _ : nat => u) (filter (Nat.eqb v) (map snd (filter (fun e => Nat.eqb (fst e) u) E))).

Lemma blk_cons : forall a b E v u,
  blk ((a, b) :: E) v u = if Nat.eqb a u && Nat.eqb b v then u :: blk E v u else blk E v u.
Proof.
  intros a b E v u. unfold blk. cbn [filter fst]. destruct (Nat.eqb a u) eqn:Ea.
  - cbn [map snd filter andb]. rewrite (Nat.eqb_sym v b). destruct (Nat.eqb b v); reflexivity.
  - reflexivity.
Qed.

Lemma bucket_perm : forall v E, (forall e, In e E -> (fst e < n)%nat) ->
  Permutation (map fst (filter (fun e => Nat.eqb (snd e) v) E)) (flat_map (blk E v) (seq 0 n)).
Proof.
  intros v E. induction E as [|[a b] E IH]; intros HE.
  - cbn [filter map]. rewrite flat_map_nil by (intros x; reflexivity). apply perm_nil.
  - assert (IH' : Permutation (map fst (filter (fun e => Nat.eqb (snd e) v) E)) (flat_map (blk E v) (seq 0 n))).
    { apply IH. intros e He. apply HE. right. exact He. }
    assert (Ha : (a < n)%nat). { apply (HE (a, b)). left. reflexivity. }
    cbn [filter snd]. destruct (Nat.eqb b v) eqn:Eb.
    + cbn [map fst].
      apply (perm_trans (perm_skip a IH')).
      apply flat_map_insert.
      * apply seq_NoDup.
      * apply in_seq. lia.
      * rewrite blk_cons. rewrite Nat.eqb_refl, Eb. reflexivity.
      * intros u Hu. rewrite blk_cons.
        assert (Hau : Nat.eqb a u = false). { apply Nat.eqb_neq. intros Hc. apply Hu. symmetry. exact Hc. }
        rewrite Hau. reflexivity.
    + rewrite (flat_map_ext_in _ _ (blk ((a, b) :: E) v) (blk E v)).
      * exact IH'.
      * intros u _. rewrite blk_cons. rewrite Eb. rewrite andb_false_r. reflexivity.
Qed.

Lemma incoming_perm : forall v,
  Permutation (RsPR.incoming n edges v) (incoming (RsPR.py_graph n edges) v).
Proof.
  intros v. unfold incoming, RsPR.incoming. rewrite nodes_py_graph.
  rewrite (flat_map_ext_in _ _ _ (blk edges v) (seq 0 n)).
  - rewrite (filter_ext_in _ (fun e => Nat.eqb (snd e) v)).
    + apply bucket_perm. intros e He. destruct (edge_ok_lt e He) as [Hf _]. exact Hf.
    + intros e He. rewrite (edge_ok_true e He). reflexivity.
  - intros u Hu. apply in_seq in Hu. rewrite (in_set_nbrs_py u) by lia. reflexivity.
Qed.

Lemma rs_incoming_In : forall v j, In j (RsPR.incoming n edges v) ->
  (j < n)%nat /\ (0 < RsPR.outgoing_count n edges j)%nat.
Proof.
  intros v j Hj. unfold RsPR.incoming in Hj. apply in_map_iff in Hj.
  destruct Hj as [e [Hfe He]]. apply filter_In in He. destruct He as [He Hc].
  apply andb_true_iff in Hc. destruct Hc as [Hc _]. split.
  - unfold RsPR.edge_ok in Hc. apply andb_true_iff in Hc. destruct Hc as [Hc _].
    apply Nat.ltb_lt in Hc. subst j. exact Hc.
  - unfold RsPR.outgoing_count.
    assert (Hin : In e (filter (fun e0 => RsPR.edge_ok n e0 && Nat.eqb (fst e0) j) edges)).
    { apply filter_In. split. exact He. rewrite Hc. subst j. rewrite Nat.eqb_refl. reflexivity. }
    destruct (filter (fun e0 => RsPR.edge_ok n e0 && Nat.eqb (fst e0) j) edges) as [|x l].
    + destruct Hin.
    + cbn [length]. lia.
Qed.

(* Python's score dict is the Rust score vector, keyed by node index *)
Definition srel (n : nat) (rs : list Q) (ps : list (nat * Q)) : Prop :=
  ps = map (fun v => (v, RsPR.sc rs v)) (seq 0 n) /\ length rs = n.

Lemma srel_score : forall rs ps v, srel n rs ps -> (v < n)%nat -> score ps v = RsPR.sc rs v.
Proof.
  intros rs ps v [Hps _] Hv. subst ps. unfold score, agetd.
  rewrite (aget_map_key (RsPR.sc rs) (seq 0 n) v) by (apply in_seq; lia). reflexivity.
Qed.

Lemma srel_obs : forall rs ps, srel n rs ps -> map (score ps) (seq 0 n) = rs.
Proof.
  intros rs ps Hrel. transitivity (map (RsPR.sc rs) (seq 0 n)); [|apply sc_tabulate; exact (proj2 Hrel)].
  apply map_ext_in. intros v Hv. apply in_seq in Hv. apply (srel_score rs ps v Hrel). lia.
Qed.

(* the pre-Qred value of the Rust sweep at node i *)
Definition rs_new (n : nat) (edges : list (nat * nat)) (d : Q) (s : list Q) (i : nat) : Q :=
  (1 - d) / RsPR.qn n
  + d * RsPR.qsum (map (fun j => RsPR.sc s j / RsPR.qn (RsPR.outgoing_count n edges j))
                       (filter (fun j => Nat.ltb 0 (RsPR.outgoing_count n edges j)) (RsPR.incoming n edges i)))
  + d * RsPR.qsum (map (RsPR.sc s) (filter (fun i0 => Nat.eqb (RsPR.outgoing_count n edges i0) 0) (seq 0 n)))
    / RsPR.qn n.

Lemma rs_step_unfold : forall n edges d s,
  RsPR.step n edges d s = map (fun i => Qred (rs_new n edges d s i)) (seq 0 n).
Proof. reflexivity. Qed.

Lemma dangling_equiv : forall rs ps, srel n rs ps ->
  dangling_sum (RsPR.py_graph n edges) ps
  == RsPR.qsum (map (RsPR.sc rs) (filter (fun i0 => Nat.eqb (RsPR.outgoing_count n edges i0) 0) (seq 0 n))).
Proof.
  intros rs ps Hrel. unfold dangling_sum. rewrite nodes_py_graph. rewrite rs_qsum_eq.
  rewrite (filter_ext_in _ (fun i0 => Nat.eqb (RsPR.outgoing_count n edges i0) 0)).
  - rewrite (map_ext_in (score ps) (RsPR.sc rs)).
    + reflexivity.
    + intros v Hv. apply filter_In in Hv. destruct Hv as [Hv _]. apply in_seq in Hv.
      apply (srel_score rs ps v Hrel). lia.
  - intros v Hv. apply in_seq in Hv. rewrite (out_count_py v) by lia. reflexivity.
Qed.

Lemma rank_equiv : forall rs ps v, srel n rs ps ->
  rank_sum (RsPR.py_graph n edges) ps v
  == RsPR.qsum (map (fun j => RsPR.sc rs j / RsPR.qn (RsPR.outgoing_count n edges j))
                    (filter (fun j => Nat.ltb 0 (RsPR.outgoing_count n edges j)) (RsPR.incoming n edges v))).
Proof.
  intros rs ps v Hrel. unfold rank_sum. rewrite rs_qsum_eq.
  rewrite filter_all.
  - rewrite (qsum_perm _ _ (Permutation_map _ (Permutation_sym (incoming_perm v)))).
    rewrite (map_ext_in _ (fun j => RsPR.sc rs j / RsPR.qn (RsPR.outgoing_count n edges j))).
    + reflexivity.
    + intros j Hj. destruct (rs_incoming_In v j Hj) as [Hjn _].
      rewrite (srel_score rs ps j Hrel Hjn). rewrite (out_count_py j Hjn). reflexivity.
  - intros j Hj. destruct (rs_incoming_In v j Hj) as [_ Hpos]. apply Nat.ltb_lt. exact Hpos.
Qed.

Lemma new_score_equiv : forall d rs ps v, srel n rs ps ->
  new_score (RsPR.py_graph n edges) d ps v == rs_new n edges d rs v.
Proof.
  intros d rs ps v Hrel. unfold new_score, rs_new.
  rewrite nodes_py_graph, seq_length.
  rewrite (rank_equiv rs ps v Hrel). rewrite (dangling_equiv rs ps Hrel).
  reflexivity.
Qed.

Lemma step_equiv : forall d rs ps, srel n rs ps ->
  srel n (RsPR.step n edges d rs) (step (RsPR.py_graph n edges) d ps).
Proof.
  intros d rs ps Hrel. split.
  - unfold step. rewrite nodes_py_graph. apply map_ext_in. intros v Hv. apply in_seq in Hv.
    f_equal. rewrite rs_step_unfold. unfold RsPR.sc. rewrite nth_map_seq by lia.
    apply Qred_complete. apply (new_score_equiv d rs ps v Hrel).
  - rewrite rs_step_unfold. rewrite map_length, seq_length. reflexivity.
Qed.

Lemma diff_combine_map : forall (f h : nat -> Q) (l : list nat) (m : Q),
  fold_left (fun m0 ab => Qmax m0 (Qabs (fst ab - snd ab))) (combine (map f l) (map h l)) m
  = fold_left (fun m0 v => Qmax m0 (Qabs (f v - h v))) l m.
Proof.
  intros f h l. induction l as [|a l IH]; intros m.
  - reflexivity.
  - cbn [map combine fold_left fst snd]. apply IH.
Qed.

Lemma diff_equiv : forall rs ps rs' ps', srel n rs ps -> srel n rs' ps' ->
  max_diff (RsPR.py_graph n edges) ps ps' = RsPR.diff rs rs'.
Proof.
  intros rs ps rs' ps' Hrel Hrel'.
  transitivity (RsPR.diff (map (RsPR.sc rs) (seq 0 n)) (map (RsPR.sc rs') (seq 0 n))).
  - unfold max_diff, RsPR.diff. rewrite nodes_py_graph. rewrite diff_combine_map.
    apply fold_left_ext_in. intros m v Hv. apply in_seq in Hv.
    rewrite (srel_score rs ps v Hrel) by lia. rewrite (srel_score rs' ps' v Hrel') by lia.
    rewrite Qabs_Qminus. reflexivity.
  - f_equal.
    + apply sc_tabulate. exact (proj2 Hrel).
    + apply sc_tabulate. exact (proj2 Hrel').
Qed.

Lemma loop_equiv : forall d tol fuel it rs ps last s it' cv, srel n rs ps ->
  RsPR.loop fuel it n edges d tol rs = (s, it', cv) ->
  srel n s (p_scores (pr_loop fuel it (RsPR.py_graph n edges) d tol ps last))
  /\ p_iterations (pr_loop fuel it (RsPR.py_graph n edges) d tol ps last) = it'
  /\ p_status (pr_loop fuel it (RsPR.py_graph n edges) d tol ps last)
     = (if cv then P_OPTIMAL else P_MAX_ITER).
Proof.
  intros d tol fuel. induction fuel as [|f IH]; intros it rs ps last s it' cv Hrel Hloop.
  - cbn [RsPR.loop] in Hloop. injection Hloop as Hs Hit Hcv. subst s it' cv.
    cbn [pr_loop p_scores p_iterations p_status]. split; [exact Hrel|]. split; reflexivity.
  - cbn [RsPR.loop] in Hloop. cbn [pr_loop].
    pose proof (step_equiv d rs ps Hrel) as Hrel'.
    rewrite (diff_equiv rs ps _ _ Hrel Hrel').
    change (qltb (Qred (RsPR.diff rs (RsPR.step n edges d rs))) tol)
      with (RsPR.qltb (Qred (RsPR.diff rs (RsPR.step n edges d rs))) tol).
    destruct (RsPR.qltb (Qred (RsPR.diff rs (RsPR.step n edges d rs))) tol) eqn:Et.
    + injection Hloop as Hs Hit Hcv. subst s it' cv.
      cbn [p_scores p_iterations p_status]. split; [exact Hrel'|]. split; reflexivity.
    + apply (IH (S it) _ _ _ s it' cv Hrel' Hloop).
Qed.
End Valid.

Lemma srel_init : forall n edges,
  srel n (repeat (Qred (1 / RsPR.qn n)) n) (init_scores (RsPR.py_graph n edges)).
Proof.
  intros n edges. split.
  - unfold init_scores. rewrite nodes_py_graph, seq_length. apply map_ext_in.
    intros v Hv. apply in_seq in Hv. f_equal. unfold RsPR.sc. rewrite nth_repeat_lt by lia. reflexivity.
  - apply repeat_length.
Qed.

Theorem pagerank_equiv : forall n edges d tol max_iter, forallb (RsPR.edge_ok n) edges = true ->
  let '(s, it, cv) := RsPR.pagerank_edges n edges d tol max_iter in
  RsPR.py_obs n (RsPR.py_pagerank_edges n edges d tol max_iter) = Some (s, cv) /\
  match RsPR.py_pagerank_edges n edges d tol max_iter with
  | PR_ok r => p_iterations r = it
  | PR_noiter _ => it = 0%nat
  | PR_empty => it = 0%nat
  end.
Proof.
  intros n edges d tol max_iter Hok.
  destruct (RsPR.pagerank_edges n edges d tol max_iter) as [[s it] cv] eqn:E.
  unfold RsPR.py_pagerank_edges, pagerank. rewrite nodes_py_graph.
  destruct n as [|k].
  - unfold RsPR.pagerank_edges in E. cbv beta iota in E. injection E as Hs Hit Hcv. subst s it cv.
    cbn [seq RsPR.py_obs]. split; reflexivity.
  - cbn [seq]. unfold RsPR.pagerank_edges in E. cbv beta iota in E.
    pose proof (srel_init (S k) edges) as Hinit.
    destruct max_iter as [|m].
    + cbn [RsPR.loop] in E. injection E as Hs Hit Hcv. subst s it cv.
      cbn [RsPR.py_obs]. split; [|reflexivity].
      rewrite (srel_obs (S k) _ _ Hinit). reflexivity.
    + destruct (loop_equiv (S k) edges Hok d tol (S m) 0%nat _ _ 0 s it cv Hinit E) as [Hr [Hi Hst]].
      cbn [RsPR.py_obs]. split; [|exact Hi].
      rewrite (srel_obs (S k) _ _ Hr). rewrite Hst. destruct cv; reflexivity.
Qed.

(* non-vacuity: a concrete input satisfying the hypothesis; both sides computed, equal, 5 sweeps done *)
Example pagerank_equiv_example :
  let n := 3%nat in
  let edges := [(0, 1); (1, 2); (2, 0); (0, 2)]%nat in
  let r := RsPR.pagerank_edges n edges (85 # 100) (1 # 1000) 5 in
  forallb (RsPR.edge_ok n) edges = true
  /\ RsPR.py_obs n (RsPR.py_pagerank_edges n edges (85 # 100) (1 # 1000) 5) = Some (fst (fst r), snd r)
  /\ snd (fst r) = 5%nat
  /\ length (fst (fst r)) = 3%nat.
Proof. vm_compute. repeat split. Qed.

Print Assumptions step_equiv.
Print Assumptions pagerank_equiv.
