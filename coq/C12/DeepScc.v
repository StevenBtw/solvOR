(* C12_scc: the Rust-side model of Tarjan's SCC (RsScc.scc_edges: arrays indexed by node) and the
   Python-side model (C14.Scc.scc_edges: insertion-ordered dicts / sets as lists) return the IDENTICAL component
   list on every valid edge-list input.  Proof: lock-step simulation.  Both are the same recursive algorithm
   (same neighbour order, same fuel S n); only the data representation differs.  The abstraction relation [R]
   relates dict look-ups to array reads for all nodes < n.  Python's `finish` compares low_link[v] with index[v]
   through [agetd 0], Rust unwraps indices[v]: we carry "indices[v] stays defined" ([defd_mono]) through the simulation.

   Corollaries: both sides satisfy the C14 specification (partition, classes = mutual reachability, sinks first). *)
From Coq Require Import List Arith Bool Lia.
From SV Require Import C12.BfsEquiv.
From SV Require Import C14.Scc C14.SccSpec C14.SccLemmas C14.Main C12.RsScc C12.TopoEquiv.
Import ListNotations.

Lemma mem_remove x w l : mem x (remove Nat.eq_dec w l) = negb (x =? w) && mem x l.
Proof.
  unfold mem. induction l as [|h t IH]; simpl.
  - now rewrite andb_false_r.
  - destruct (Nat.eq_dec w h) as [E|E].
    + subst h. rewrite IH. destruct (Nat.eqb_spec x w) as [E1|E1]; reflexivity.
    + simpl. rewrite IH. destruct (Nat.eqb_spec x w) as [E1|E1]; destruct (Nat.eqb_spec x h) as [E2|E2];
        simpl; try reflexivity. exfalso. apply E. congruence.
Qed.

Lemma mem_seq w n : w < n -> mem w (seq 0 n) = true.
Proof. intros H. apply mem_In. apply in_seq. lia. Qed.

Record R (n : nat) (ps : st) (rs : RsScc.st) : Prop := mkR {
  R_ctr : ctr ps = RsScc.counter rs;
  R_stk : stk ps = RsScc.stack rs;
  R_comps : comps ps = RsScc.components rs;
  R_li : length (RsScc.indices rs) = n;
  R_ll : length (RsScc.lowlinks rs) = n;
  R_lo : length (RsScc.on_stack rs) = n;
  R_idx : forall v, v < n -> aget (idx ps) v = nth v (RsScc.indices rs) None;
  R_low : forall v, v < n -> agetd 0 (low ps) v = nth v (RsScc.lowlinks rs) 0;
  R_on : forall v, v < n -> mem v (onstk ps) = nth v (RsScc.on_stack rs) false;
  R_lt : forall v, In v (RsScc.stack rs) -> v < n }.

Definition defd (rs : RsScc.st) (v : nat) : Prop := nth v (RsScc.indices rs) None <> None.
Definition defd_mono (rs rs' : RsScc.st) : Prop := forall v, defd rs v -> defd rs' v.

Definition osim (n : nat) (rs : RsScc.st) (op : option st) (orr : option RsScc.st) : Prop :=
  match op, orr with
  | Some ps', Some rs' => R n ps' rs' /\ defd_mono rs rs'
  | None, None => True
  | _, _ => False
  end.

Lemma defd_mono_refl rs : defd_mono rs rs.
Proof. intros v H. exact H. Qed.

(* Both models thread the state through `match _ with None => None | Some s => k s end`: the simulation of the first
   part and of the continuation compose, and so do the `defd_mono` facts. *)
Lemma osim_bind n rs rs0 op orr (kp : st -> option st) (kr : RsScc.st -> option RsScc.st) :
  osim n rs0 op orr -> defd_mono rs rs0 ->
  (forall ps' rs', R n ps' rs' -> defd_mono rs0 rs' -> osim n rs' (kp ps') (kr rs')) ->
  osim n rs (match op with Some p => kp p | None => None end) (match orr with Some r => kr r | None => None end).
Proof.
  intros H Hm K. destruct op as [p|], orr as [r|]; simpl in H; try contradiction; [|exact I].
  destruct H as [HR Hm0]. specialize (K p r HR Hm0). unfold osim in *.
  destruct (kp p), (kr r); try exact K. destruct K as [HR' Hm']. split; [exact HR'|].
  intros x Hx. apply Hm', Hm0, Hm, Hx.
Qed.

Lemma R_set_low n ps rs v x : R n ps rs -> v < n -> R n (set_low ps v x) (RsScc.set_low rs v x).
Proof.
  intros [H1 H2 H3 H4 H5 H6 H7 H8 H9 H10] Hv.
  constructor; simpl; try assumption.   (* left: R_ll, R_low *)
  - rewrite length_set_nth. exact H5.
  - intros y Hy. rewrite agetd_aset, nth_set_nth, H8 by lia. reflexivity.
Qed.

Lemma R_enter n ps rs v : R n ps rs -> v < n -> R n (enter v ps) (RsScc.enter v rs).
Proof.
  intros [H1 H2 H3 H4 H5 H6 H7 H8 H9 H10] Hv.
  constructor; simpl; try assumption.   (* R_comps stays; the other nine fields follow *)
  - f_equal. exact H1.
  - f_equal. exact H2.
  - rewrite length_set_nth. exact H4.
  - rewrite length_set_nth. exact H5.
  - rewrite length_set_nth. exact H6.
  - intros y Hy. rewrite aget_aset, nth_set_nth, H1, H7 by lia. reflexivity.
  - intros y Hy. rewrite agetd_aset, nth_set_nth, H1, H8 by lia. reflexivity.
  - intros y Hy. rewrite nth_set_nth, <- H9, (Nat.eqb_sym v y) by lia. reflexivity.
  - intros y [Hy|Hy]; [subst y; exact Hv | apply H10; exact Hy].
Qed.

Lemma defd_enter n ps rs v : R n ps rs -> v < n -> defd (RsScc.enter v rs) v.
Proof.
  intros HR Hv. unfold defd. simpl. rewrite nth_set_nth_eq by (rewrite (R_li _ _ _ HR); exact Hv). discriminate.
Qed.

Lemma defd_mono_enter rs v : defd_mono rs (RsScc.enter v rs).
Proof.
  intros x Hx. unfold defd in *. simpl. destruct (Nat.eq_dec v x) as [E|E].
  - subst x. destruct (Nat.lt_ge_cases v (length (RsScc.indices rs))) as [L|L].
    + rewrite nth_set_nth_eq by exact L. discriminate.
    + exfalso. apply Hx. apply nth_overflow. exact L.
  - rewrite nth_set_nth_neq by exact E. exact Hx.
Qed.

(* stack and component are the same lists on both sides, so the Rust result is determined by the Python one up to
   the representation of on_stack *)
Lemma pop_sim n v : forall stack onp onr acc,
  (forall x, In x stack -> x < n) -> length onr = n ->
  (forall x, x < n -> mem x onp = nth x onr false) ->
  match pop_until v stack onp acc with
  | Some (s, o, c) =>
      exists o', RsScc.pop_until v stack onr acc = Some (s, o', c) /\ length o' = n /\
                 (forall x, x < n -> mem x o = nth x o' false) /\ (forall x, In x s -> In x stack)
  | None => RsScc.pop_until v stack onr acc = None
  end.
Proof.
  induction stack as [|w r IH]; intros onp onr acc Hlt Hlen Hon; simpl; [reflexivity|].
  assert (Hon' : forall x, x < n -> mem x (remove Nat.eq_dec w onp) = nth x (RsScc.set_nth w false onr) false).
  { intros x Hx. pose proof (Hlt w (or_introl eq_refl)).
    rewrite mem_remove, nth_set_nth, (Nat.eqb_sym x w), Hon by lia. destruct (w =? x); reflexivity. }
  assert (Hlen' : length (RsScc.set_nth w false onr) = n) by (rewrite length_set_nth; exact Hlen).
  destruct (w =? v).
  - eexists. split; [reflexivity|]. split; [exact Hlen'|]. split; [exact Hon'|]. intros x Hx. right. exact Hx.
  - specialize (IH (remove Nat.eq_dec w onp) (RsScc.set_nth w false onr) (acc ++ [w])
                   (fun x Hx => Hlt x (or_intror Hx)) Hlen' Hon').
    destruct (pop_until v r (remove Nat.eq_dec w onp) (acc ++ [w])) as [[[s o] c]|]; [|exact IH].
    destruct IH as (o' & E & L & A & I). exists o'. split; [exact E|]. split; [exact L|]. split; [exact A|].
    intros x Hx. right. apply I, Hx.
Qed.

Lemma finish_sim n v ps rs : R n ps rs -> v < n -> defd rs v -> osim n rs (finish v ps) (RsScc.finish v rs).
Proof.
  intros HR Hv Hd. pose proof HR as [H1 H2 H3 H4 H5 H6 H7 H8 H9 H10].
  unfold finish, RsScc.finish, RsScc.low. unfold defd in Hd. pose proof (H7 v Hv) as Hi.
  destruct (nth v (RsScc.indices rs) None) as [iv|] eqn:E; [|exfalso; apply Hd; reflexivity].
  assert (Ha : agetd 0 (idx ps) v = iv) by (unfold agetd; rewrite Hi; reflexivity).
  rewrite Ha, (H8 v Hv). destruct (nth v (RsScc.lowlinks rs) 0 =? iv).
  - rewrite H2. pose proof (pop_sim n v (RsScc.stack rs) (onstk ps) (RsScc.on_stack rs) [] H10 H6 H9) as H.
    destruct (pop_until v (RsScc.stack rs) (onstk ps) []) as [[[s o] c]|]; [|rewrite H; exact I].
    destruct H as (o' & Er & L & A & F). rewrite Er. split; [|intros x Hx; exact Hx].
    constructor; simpl; try assumption; try reflexivity.   (* left: R_comps, R_lt *)
    + rewrite H3. reflexivity.
    + intros x Hx. apply H10. apply F. exact Hx.
  - split; [exact HR | apply defd_mono_refl].
Qed.

Definition sim (n : nat) (fp : nat -> st -> option st) (fr : nat -> RsScc.st -> option RsScc.st) : Prop :=
  forall w ps rs, w < n -> R n ps rs -> osim n rs (fp w ps) (fr w rs).

Lemma nbr_loop_sim n fp fr v : sim n fp fr -> v < n ->
  forall ws, (forall w, In w ws -> w < n) ->
  forall ps rs, R n ps rs -> osim n rs (sc_loop fp (seq 0 n) v ws ps) (RsScc.sc_loop fr v ws rs).
Proof.
  intros Hsim Hv. induction ws as [|w r IH]; intros Hws ps rs HR; simpl.
  - split; [exact HR | apply defd_mono_refl].
  - assert (Hw : w < n) by (apply Hws; left; reflexivity).
    assert (Hr : forall x, In x r -> x < n) by (intros x Hx; apply Hws; right; exact Hx).
    rewrite (mem_seq w n Hw). simpl. rewrite (R_idx _ _ _ HR w Hw).
    (* set_low leaves the indices alone, so `osim n (set_low rs ..)` is convertible with `osim n rs` *)
    destruct (nth w (RsScc.indices rs) None) as [iw|] eqn:E.
    + rewrite (R_on _ _ _ HR w Hw). destruct (nth w (RsScc.on_stack rs) false).
      * unfold RsScc.low. rewrite (R_low _ _ _ HR v Hv). exact (IH Hr _ _ (R_set_low n ps rs v _ HR Hv)).
      * apply (IH Hr). exact HR.
    + apply (osim_bind n rs rs); [apply Hsim; assumption | apply defd_mono_refl |].
      intros ps1 rs1 HR1 _. unfold RsScc.low. rewrite (R_low _ _ _ HR1 v Hv), (R_low _ _ _ HR1 w Hw).
      exact (IH Hr _ _ (R_set_low n ps1 rs1 v _ HR1 Hv)).
Qed.

Section Graph.
  Variable n : nat.
  Variable edges : list (nat * nat).
  Hypothesis HV : evalid n edges.
  Let g := graph_of_edges n edges.
  Let a := RsScc.build_adjacency n edges.

  Lemma sc_sim : forall fuel, sim n (strongconnect fuel g (seq 0 n)) (RsScc.strongconnect fuel a).
  Proof.
    induction fuel as [|f IH]; intros v ps rs Hv HR.
    - exact I.
    - cbn [strongconnect RsScc.strongconnect]. unfold g, a. rewrite py_nbr, (scc_rs_adj n edges v Hv HV).
      fold g. fold a.
      apply (osim_bind n rs (RsScc.enter v rs)).
      + apply (nbr_loop_sim n _ _ v IH Hv); [intros w Hw; exact (out_of_lt n edges v w HV Hw) | apply R_enter; assumption].
      + apply defd_mono_enter.
      + intros ps2 rs2 HR2 Hm2. apply finish_sim; [exact HR2 | exact Hv |]. apply Hm2, (defd_enter n ps rs v HR Hv).
  Qed.

  Lemma main_sim fuel : forall vs, (forall v, In v vs -> v < n) ->
    forall ps rs, R n ps rs -> osim n rs (scc_main fuel g (seq 0 n) vs ps) (RsScc.main fuel a vs rs).
  Proof.
    induction vs as [|v r IH]; intros Hvs ps rs HR; simpl.
    - split; [exact HR | apply defd_mono_refl].
    - assert (Hv : v < n) by (apply Hvs; left; reflexivity).
      assert (Hr : forall x, In x r -> x < n) by (intros x Hx; apply Hvs; right; exact Hx).
      rewrite (R_idx _ _ _ HR v Hv). destruct (nth v (RsScc.indices rs) None) as [iv|].
      + apply (IH Hr). exact HR.
      + apply (osim_bind n rs rs); [apply sc_sim; assumption | apply defd_mono_refl |].
        intros ps1 rs1 HR1 _. apply (IH Hr). exact HR1.
  Qed.
End Graph.

Lemma R_init n : R n st0 (RsScc.mk 0 (repeat None n) (repeat 0 n) (repeat false n) [] []).
Proof.
  constructor; simpl; try reflexivity; try apply repeat_length.
  - intros v Hv. rewrite nth_repeat_lt by exact Hv. reflexivity.
  - intros v Hv. rewrite nth_repeat_lt by exact Hv. reflexivity.
  - intros v Hv. rewrite nth_repeat_lt by exact Hv. reflexivity.
  - intros v [].
Qed.

Theorem scc_equiv : forall n edges, evalidb n edges = true ->
  RsScc.scc_edges n edges = Scc.scc_edges n edges.
Proof.
  intros n edges Hb. apply evalidb_evalid in Hb.
  unfold RsScc.scc_edges, scc_edges, scc, scc_state, scc_fuel. rewrite seq_length.
  pose proof (main_sim n edges Hb (S n) (seq 0 n)) as H.
  assert (Hs : forall v, In v (seq 0 n) -> v < n) by (intros v Hv; apply in_seq in Hv; lia).
  specialize (H Hs _ _ (R_init n)). revert H.
  destruct (scc_main (S n) (graph_of_edges n edges) (seq 0 n) (seq 0 n) st0) as [ps|];
    destruct (RsScc.main (S n) (RsScc.build_adjacency n edges) (seq 0 n)
                (RsScc.mk 0 (repeat None n) (repeat 0 n) (repeat false n) [] [])) as [rs|];
    intros H; simpl in *; try contradiction; try reflexivity.
  destruct H as [HR _]. f_equal. symmetry. apply (R_comps _ _ _ HR).
Qed.

Theorem scc_both_spec : forall n edges, evalidb n edges = true ->
  exists cs, RsScc.scc_edges n edges = Some cs /\ Scc.scc_edges n edges = Some cs /\
             scc_spec (graph_of_edges n edges) (seq 0 n) cs.
Proof.
  intros n edges Hb. destruct (scc_edges_spec n edges) as [cs [Hcs Hspec]].
  exists cs. split; [rewrite (scc_equiv n edges Hb); exact Hcs|]. split; [exact Hcs | exact Hspec].
Qed.

(* non-vacuity: a valid input with two non-trivial classes; both sides computed *)
Example scc_equiv_ex :
  evalidb 5 [(0,1);(1,2);(2,0);(2,3);(3,4);(4,3)] = true /\
  RsScc.scc_edges 5 [(0,1);(1,2);(2,0);(2,3);(3,4);(4,3)] = Some [[4;3];[2;1;0]] /\
  Scc.scc_edges 5 [(0,1);(1,2);(2,0);(2,3);(3,4);(4,3)] = Some [[4;3];[2;1;0]].
Proof. vm_compute. repeat split. Qed.

Print Assumptions scc_equiv.
