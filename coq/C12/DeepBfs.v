(* C12_bfs: the Rust-side model of bfs_edges and the Python-side model return the IDENTICAL result on every valid
   input, for every target; neither runs out of fuel.  With a target the common path is a valid walk
   source -> target of the graph and no walk is shorter (C11's BFS-shortest theorem); INFEASIBLE iff unreachable.
   Without a target both return the same list.
   BfsEquiv.bfs_edges_sim says that the Rust side returns whatever the Python side returns; here C11's theorems about
   bfs() (it terminates, its result meets result_spec) are read off for the graph `out_of edges` of the edge list. *)
From Coq Require Import List ZArith Bool Arith Lia.
From SV Require Import C11.Paths C11.Bfs C11.BfsProofs1 C11.BfsProofs2 C11.BfsTheorems.
From SV Require Import C12.RsSearch C12.BfsEquiv.
Import ListNotations.
Local Open Scope nat_scope.

Lemma bfs_edges_result n edges source target : ES.valid_input n edges source target = true ->
  exists r, Bfs.bfs (PyEdges.adj_of n edges) source (PyEdges.goal_of target) (PyEdges.max_iter_of n edges) = Some r /\
            result_spec (Bfs.succ_of (PyEdges.adj_of n edges)) source (PyEdges.goal_of target)
                        Bfs.Queue (PyEdges.max_iter_of n edges) r /\
            r <> Bfs.NotFound Bfs.MAX_ITER /\
            RsSearch.bfs_edges n edges source target = PyEdges.wrap (Some r) /\
            PyEdges.bfs_edges n edges source target = PyEdges.wrap (Some r).
Proof.
  intros HV.
  destruct (search_some (PyEdges.adj_of n edges) source Bfs.Queue (PyEdges.goal_of target) (PyEdges.max_iter_of n edges))
    as [r HS].
  pose proof (search_spec _ _ _ _ _ _ HS) as Hspec.
  destruct (bfs_edges_sim n edges source target r HV HS) as [Hmax Hrs].
  exists r. repeat split; try assumption.
  - apply Hrs. intros ->. exact Hspec.
  - unfold PyEdges.bfs_edges, PyEdges.search_edges. now rewrite HS.
Qed.

Theorem bfs_target_equiv : forall n edges source t,
  ES.valid_input n edges source (Some t) = true ->
  RsSearch.bfs_edges n edges source (Some t) = PyEdges.bfs_edges n edges source (Some t) /\
  ((exists p, PyEdges.bfs_edges n edges source (Some t)
              = Some (ES.Found ES.OPTIMAL p (Z.of_nat (length p) - 1)) /\
              is_path (out_of edges) source t p /\
              forall q, is_path (out_of edges) source t q -> length p <= length q)
   \/ (PyEdges.bfs_edges n edges source (Some t) = Some (ES.NotFound ES.INFEASIBLE) /\
       ~ reach (out_of edges) source t)).
Proof.
  intros n edges source t HV.
  destruct (bfs_edges_result n edges source (Some t) HV) as (r & HS & Hspec & Hmax & Hrs & Hpy).
  destruct (valid_input_spec _ _ _ _ HV) as (_ & HE & _).
  assert (Hext : forall u, Bfs.succ_of (PyEdges.adj_of n edges) u = out_of edges u)
    by (intros u; apply py_adj_all; exact HE).
  assert (Hext' : forall u, out_of edges u = Bfs.succ_of (PyEdges.adj_of n edges) u)
    by (intros u; symmetry; apply Hext).
  rewrite Hrs, Hpy. split; [reflexivity|].
  destruct r as [st p obj|[]|vs obj|]; cbn [result_spec] in Hspec; try contradiction.
  - left. destruct Hspec as [-> [t' [Hp [Hg ->]]]]. cbn [goal_test PyEdges.goal_of Bfs.goal_val] in Hg.
    apply Nat.eqb_eq in Hg. subst t'. exists p. split; [reflexivity|]. split.
    + apply (is_path_ext _ _ Hext). exact Hp.
    + intros q Hq. apply (is_path_ext _ _ Hext') in Hq.
      pose proof (bfs_shortest _ _ _ _ _ _ _ HS t q Hq (Nat.eqb_refl t)) as Hb.
      destruct Hp as [_ [_ [_ Hne]]]. destruct p as [|x p]; [congruence|]. simpl length in *. lia.
  - right. destruct Hspec as [_ Hu]. split; [reflexivity|]. intros Hr. apply (reach_succ_ext _ _ Hext') in Hr.
    specialize (Hu t Hr). cbn [goal_test PyEdges.goal_of Bfs.goal_val] in Hu. rewrite Nat.eqb_refl in Hu. discriminate.
  - destruct Hspec as [Hg _]. discriminate.
Qed.

Theorem bfs_reach_equiv : forall n edges source,
  ES.valid_input n edges source None = true ->
  RsSearch.bfs_edges n edges source None = PyEdges.bfs_edges n edges source None /\
  exists l, PyEdges.bfs_edges n edges source None = Some (ES.Reach l).
Proof.
  intros n edges source HV.
  destruct (bfs_edges_result n edges source None HV) as (r & _ & Hspec & Hmax & Hrs & Hpy).
  rewrite Hrs, Hpy. split; [reflexivity|].
  destruct r as [st p obj|[]|vs obj|]; cbn [result_spec] in Hspec; try contradiction.
  - destruct Hspec as [_ [t [_ [Hg _]]]]. discriminate.
  - destruct Hspec as [Hg _]. contradiction.
  - eexists. reflexivity.
Qed.

Theorem bfs_full_equiv : forall n edges source target, ES.valid_input n edges source target = true ->
  RsSearch.bfs_edges n edges source target = PyEdges.bfs_edges n edges source target /\
  exists r, PyEdges.bfs_edges n edges source target = Some r.
Proof.
  intros n edges source target HV.
  destruct (bfs_edges_result n edges source target HV) as (r & _ & _ & _ & Hrs & Hpy).
  rewrite Hrs, Hpy. split; [reflexivity|]. destruct r; eexists; reflexivity.
Qed.

Print Assumptions bfs_target_equiv.
Print Assumptions bfs_full_equiv.
