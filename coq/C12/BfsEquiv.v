(* What the C12 proofs share - facts about lists and array writes, the counting measure of the edge-scanning loops, the
   graph of an edge list (out_of, evalid) and the two adjacency builders - followed by
   C12_bfs, kernel level: lock-step simulation of the Rust-side BFS loop (RsSearch.bfs_loop, arrays indexed by node)
   by the Python-side one (Bfs.loop of SV.C11.Bfs on the adjacency list that solvor/bfs.py bfs_edges builds), for
   every target.  The Python visited list is, at every moment, rev(queue) ++ (nodes popped so far); the predecessor
   array agrees with the parent dict, which is what makes the two path reconstructions return the same path (Rust
   walks the array until it meets the source, Python walks the dict until a node without parent).
   The simulation starts from a Python run that returned `Some r`, so only the Rust fuel has to be accounted for:
   that the Python fuel suffices is C11's search_some.  (bfs_edges passes
   max_iter = max(1_000_000, n + |edges| + 1) to bfs(), /repo dd63c7e; the model carries it and the simulation shows that
   it is never reached.) *)
From Coq Require Import List ZArith Bool Arith Lia Permutation Sorted.
From SV Require Import C11.Paths C11.Bfs C12.RsSearch.
Import ListNotations.
Local Open Scope nat_scope.

(* Each Rust-side module, and C11's FW, carries its own copy of set_nth; they are one and the same fixpoint, so the
   lemmas below, stated for RsSearch.set_nth, serve all of them by conversion. *)
Lemma length_set_nth {A} (i : nat) (x : A) l : length (RsSearch.set_nth i x l) = length l.
Proof. revert i; induction l as [|h t IH]; intros [|i]; simpl; auto. Qed.

Lemma nth_set_nth_eq {A} (i : nat) (x d : A) l : i < length l -> nth i (RsSearch.set_nth i x l) d = x.
Proof. revert i; induction l as [|h t IH]; intros [|i] H; simpl in *; try lia; auto. apply IH; lia. Qed.

Lemma nth_set_nth_neq {A} (i j : nat) (x d : A) l : i <> j -> nth j (RsSearch.set_nth i x l) d = nth j l d.
Proof.
  revert i j; induction l as [|h t IH]; intros [|i] [|j] H; simpl; try reflexivity; try congruence.
  apply IH; congruence.
Qed.

Lemma nth_set_nth {A} (i j : nat) (x d : A) l : i < length l ->
  nth j (RsSearch.set_nth i x l) d = if Nat.eqb i j then x else nth j l d.
Proof.
  intros H. destruct (Nat.eqb_spec i j) as [<-|E]; [apply nth_set_nth_eq; exact H | apply nth_set_nth_neq; exact E].
Qed.

Lemma nth_repeat_lt {A} (x d : A) n i : i < n -> nth i (repeat x n) d = x.
Proof. revert i; induction n as [|n IH]; intros [|i] H; simpl; try lia; auto. apply IH; lia. Qed.

Lemma nth_map_seq {A} (f : nat -> A) (d : A) n i : i < n -> nth i (map f (seq 0 n)) d = f i.
Proof.
  intros Hi. rewrite (nth_indep _ d (f 0)) by (rewrite map_length, seq_length; exact Hi).
  rewrite map_nth, seq_nth by exact Hi. reflexivity.
Qed.

Lemma list_as_map {A} (d : A) (l : list A) : l = map (fun i => nth i l d) (seq 0 (length l)).
Proof.
  apply (nth_ext _ _ d d); [now rewrite map_length, seq_length|].
  intros i Hi. now rewrite nth_map_seq by exact Hi.
Qed.

Lemma filter_all {A} (f : A -> bool) l : (forall x, In x l -> f x = true) -> filter f l = l.
Proof.
  induction l as [|x l IH]; intros H; cbn [filter]; [reflexivity|].
  rewrite (H x (or_introl eq_refl)). f_equal. apply IH. intros y Hy. apply H. right. exact Hy.
Qed.

Lemma fold_left_ext_in {A B} (f g : A -> B -> A) l : forall a,
  (forall a b, In b l -> f a b = g a b) -> fold_left f l a = fold_left g l a.
Proof.
  induction l as [|x l IH]; intros a H; cbn [fold_left]; [reflexivity|].
  rewrite (H a x (or_introl eq_refl)). apply IH. intros a' b Hb. apply H. right. exact Hb.
Qed.

Lemma nodup_bound n (l : list nat) : NoDup l -> (forall v, In v l -> v < n) -> length l <= n.
Proof.
  intros Hnd Hlt. rewrite <- (seq_length n 0). apply NoDup_incl_length; [exact Hnd|].
  intros v Hv. apply in_seq. specialize (Hlt v Hv). lia.
Qed.

Lemma bfs_mem_In x l : Bfs.mem x l = true <-> In x l.
Proof.
  unfold Bfs.mem. split; intros H.
  - apply existsb_exists in H. destruct H as [y [Hy E]]. apply Nat.eqb_eq in E. now subst.
  - apply existsb_exists. exists x. split; [exact H | apply Nat.eqb_refl].
Qed.

Import ES.

Lemma insert_perm x l : Permutation (insert x l) (x :: l).
Proof.
  induction l as [|y r IH]; simpl; [apply Permutation_refl|].
  destruct (Nat.leb x y); [apply Permutation_refl|].
  eapply Permutation_trans; [apply perm_skip; exact IH | apply perm_swap].
Qed.

Lemma sort_perm l : Permutation (sort l) l.
Proof.
  induction l as [|x l IH]; simpl; [constructor|].
  eapply Permutation_trans; [apply insert_perm | apply perm_skip; exact IH].
Qed.

Lemma insert_sorted x l : Sorted le l -> Sorted le (insert x l).
Proof.
  induction l as [|y r IH]; intros H; simpl.
  - repeat constructor.
  - destruct (Nat.leb_spec x y) as [L|L].
    + constructor; [exact H | constructor; exact L].
    + inversion H as [|? ? Hs Hh]; subst. constructor; [apply IH; exact Hs|].
      destruct r as [|z r']; simpl.
      * constructor. lia.
      * destruct (Nat.leb x z); constructor; [lia | inversion Hh; subst; assumption].
Qed.

Lemma sort_sorted l : Sorted le (sort l).
Proof. induction l as [|x l IH]; simpl; [constructor | apply insert_sorted; exact IH]. Qed.

Lemma sorted_perm_eq : forall l l', Sorted le l -> Sorted le l' -> Permutation l l' -> l = l'.
Proof.
  induction l as [|x l IH]; intros l' Hs Hs' HP.
  - apply Permutation_nil in HP. now subst.
  - destruct l' as [|y l']; [apply Permutation_sym, Permutation_nil in HP; discriminate|].
    assert (Hxy : x = y).
    { (* each head is below the whole of its list and occurs in the other list *)
      pose proof (proj1 (Forall_forall _ _) (Sorted_extends Nat.le_trans Hs)) as Hfx.
      pose proof (proj1 (Forall_forall _ _) (Sorted_extends Nat.le_trans Hs')) as Hfy.
      destruct (Permutation_in x HP (or_introl eq_refl)) as [Hx|Hx]; [congruence|].
      destruct (Permutation_in y (Permutation_sym HP) (or_introl eq_refl)) as [Hy|Hy]; [congruence|].
      pose proof (Hfx y Hy). pose proof (Hfy x Hx). lia. }
    subst y. f_equal. apply IH.
    + apply (Sorted_inv Hs).
    + apply (Sorted_inv Hs').
    + apply (Permutation_cons_inv HP).
Qed.

Lemma sort_perm_eq l l' : Permutation l l' -> sort l = sort l'.
Proof.
  intros HP. apply sorted_perm_eq; try apply sort_sorted.
  eapply Permutation_trans; [apply sort_perm|].
  eapply Permutation_trans; [exact HP | apply Permutation_sym, sort_perm].
Qed.

Lemma filter_len_le {A} (f : A -> bool) l : length (filter f l) <= length l.
Proof. induction l as [|x l IH]; simpl; [lia|]. destruct (f x); simpl; lia. Qed.

(* Edges (tl gives the tail of one) whose tail is not in S.  In the Rust DFS and in both Dijkstra loops S is the set of
   nodes whose out-edges have been scanned: scanning those of u takes them off this count and adds at most as many
   stack / heap entries, so entries + pend decreases with every pop. *)
Definition pend {E} (tl : E -> nat) (edges : list E) (S : list nat) : nat :=
  length (filter (fun e => negb (existsb (Nat.eqb (tl e)) S)) edges).

Lemma pend_le {E} (tl : E -> nat) edges S : pend tl edges S <= length edges.
Proof. apply filter_len_le. Qed.

Lemma pend_settle {E} (tl : E -> nat) edges S u : ~ In u S ->
  pend tl edges (u :: S) + length (filter (fun e => Nat.eqb (tl e) u) edges) = pend tl edges S.
Proof.
  intros Hu. unfold pend. induction edges as [|e l IH]; [reflexivity|]. cbn [filter existsb] in *.
  destruct (Nat.eqb_spec (tl e) u) as [E0|E0]; cbn [orb negb].
  - assert (X : existsb (Nat.eqb (tl e)) S = false).
    { destruct (existsb _ S) eqn:X; [|reflexivity]. apply existsb_exists in X. destruct X as [y [Hy Ey]].
      apply Nat.eqb_eq in Ey. exfalso. apply Hu. congruence. }
    rewrite X. cbn [negb length]. lia.
  - destruct (negb (existsb _ S)); cbn [length]; lia.
Qed.

(* paths only see the successor function, and only at their own nodes *)
Lemma path_in_ext (succ succ' : nat -> list nat) : forall p,
  (forall u, In u p -> succ u = succ' u) -> path_in succ p -> path_in succ' p.
Proof.
  induction p as [|u p IH]; intros Hext Hp; [exact Hp|].
  destruct p as [|v p]; [exact I|].
  destruct Hp as [Huv Hp]. split.
  - rewrite <- (Hext u (or_introl eq_refl)). exact Huv.
  - apply IH; [|exact Hp]. intros w Hw. apply Hext. right. exact Hw.
Qed.

Lemma is_path_ext (s1 s2 : nat -> list nat) : (forall u, s1 u = s2 u) ->
  forall s t p, is_path s1 s t p -> is_path s2 s t p.
Proof. intros HE s t p [Hp H]. split; [apply (path_in_ext s1 s2 p (fun u _ => HE u) Hp) | exact H]. Qed.

Lemma reach_succ_ext (s1 s2 : nat -> list nat) : (forall u, s1 u = s2 u) -> forall s t, reach s1 s t -> reach s2 s t.
Proof. intros HE s t [p Hp]. exists p. exact (is_path_ext s1 s2 HE s t p Hp). Qed.

Definition out_of (edges : list (nat * nat)) (u : nat) : list nat :=
  map snd (filter (fun e => Nat.eqb (fst e) u) edges).

Lemma pend_out_of edges S u : ~ In u S -> pend fst edges (u :: S) + length (out_of edges u) = pend fst edges S.
Proof. intros Hu. unfold out_of. rewrite map_length. apply pend_settle. exact Hu. Qed.

Definition evalid (n : nat) (edges : list (nat * nat)) : Prop :=
  Forall (fun e => fst e < n /\ snd e < n) edges.

(* if u < n_nodes && v < n_nodes { adj[u].push(v); } *)
Definition push_edge (n : nat) (a : list (list nat)) (e : nat * nat) : list (list nat) :=
  if Nat.ltb (fst e) n && Nat.ltb (snd e) n then RsSearch.set_nth (fst e) (nth (fst e) a [] ++ [snd e]) a else a.

Lemma rs_adj_fold n u : u < n -> forall edges acc, evalid n edges -> length acc = n ->
  nth u (fold_left (push_edge n) edges acc) [] = nth u acc [] ++ out_of edges u.
Proof.
  intros Hu. induction edges as [|e l IH]; intros acc HV Hacc; simpl.
  - now rewrite app_nil_r.
  - inversion HV as [|? ? [H1 H2] HV']; subst. unfold push_edge at 2.
    apply Nat.ltb_lt in H1 as H1b. apply Nat.ltb_lt in H2 as H2b. rewrite H1b, H2b. simpl.
    rewrite IH; [|exact HV'|now rewrite length_set_nth].
    unfold out_of. simpl. destruct (Nat.eqb_spec (fst e) u) as [E|E].
    + subst u. rewrite nth_set_nth_eq by lia. simpl. now rewrite <- app_assoc.
    + rewrite nth_set_nth_neq by exact E. reflexivity.
Qed.

Lemma rs_adj n edges u : u < n -> evalid n edges -> nth u (RsSearch.build_adjacency n edges) [] = out_of edges u.
Proof.
  intros Hu HV. change (RsSearch.build_adjacency n edges) with (fold_left (push_edge n) edges (repeat [] n)).
  rewrite (rs_adj_fold n u Hu edges _ HV (repeat_length _ _)). now rewrite nth_repeat_lt by exact Hu.
Qed.

Lemma build_adjacency_length n edges : length (RsSearch.build_adjacency n edges) = n.
Proof.
  change (RsSearch.build_adjacency n edges) with (fold_left (push_edge n) edges (repeat [] n)).
  assert (G : forall acc, length (fold_left (push_edge n) edges acc) = length acc).
  { induction edges as [|e l IH]; intros acc; simpl; [reflexivity|]. rewrite IH. unfold push_edge.
    destruct (Nat.ltb (fst e) n && Nat.ltb (snd e) n); [apply length_set_nth | reflexivity]. }
  rewrite G. apply repeat_length.
Qed.

Lemma lookup_tabulate {A} (f : nat -> A) l u :
  Bfs.lookup u (map (fun i => (i, f i)) l) = if Bfs.mem u l then Some (f u) else None.
Proof.
  unfold Bfs.mem. induction l as [|a l IH]; simpl; [reflexivity|].
  rewrite (Nat.eqb_sym u a). destruct (Nat.eqb_spec a u) as [->|_]; [reflexivity | exact IH].
Qed.

Lemma py_adj n edges u : u < n -> Bfs.succ_of (PyEdges.adj_of n edges) u = out_of edges u.
Proof.
  intros Hu. unfold Bfs.succ_of, PyEdges.adj_of. rewrite lookup_tabulate.
  replace (Bfs.mem u (seq 0 n)) with true; [reflexivity|]. symmetry. apply bfs_mem_In, in_seq. lia.
Qed.

Lemma out_of_lt n edges u w : evalid n edges -> In w (out_of edges u) -> w < n.
Proof.
  intros HV Hw. unfold out_of in Hw. apply in_map_iff in Hw. destruct Hw as [e [<- He]].
  apply filter_In in He. destruct He as [He _]. apply (proj1 (Forall_forall _ _) HV e He).
Qed.

Lemma out_of_ge n edges u : evalid n edges -> n <= u -> out_of edges u = [].
Proof.
  intros HV Hu. destruct (out_of edges u) as [|w l] eqn:E; [reflexivity|]. exfalso.
  assert (Hw : In w (out_of edges u)) by (rewrite E; left; reflexivity).
  unfold out_of in Hw. apply in_map_iff in Hw. destruct Hw as [e [_ He]]. apply filter_In in He.
  destruct He as [He Hf]. apply Nat.eqb_eq in Hf.
  destruct (proj1 (Forall_forall _ _) HV e He) as [H1 _]. lia.
Qed.

(* nodes outside 0..n-1 have no entry in the Python adjacency list and no edge in a valid edge list *)
Lemma py_adj_all n edges u : evalid n edges -> Bfs.succ_of (PyEdges.adj_of n edges) u = out_of edges u.
Proof.
  intros HV. destruct (Nat.lt_ge_cases u n) as [Hu|Hu]; [apply py_adj; exact Hu|].
  unfold Bfs.succ_of, PyEdges.adj_of. rewrite lookup_tabulate, (out_of_ge n edges u HV Hu).
  destruct (Bfs.mem u (seq 0 n)) eqn:E; [|reflexivity]. apply bfs_mem_In, in_seq in E. lia.
Qed.

Lemma edge_okb_evalid n edges : forallb (ES.edge_ok n) edges = true -> evalid n edges.
Proof.
  intros H. apply Forall_forall. intros e Hin. apply (proj1 (forallb_forall _ _) H), andb_true_iff in Hin.
  destruct Hin as [A B]. split; apply Nat.ltb_lt; assumption.
Qed.

Lemma valid_input_spec n edges source target : ES.valid_input n edges source target = true ->
  source < n /\ evalid n edges /\ forall t, target = Some t -> t < n.
Proof.
  unfold ES.valid_input. intros H. apply andb_true_iff in H. destruct H as [H Ht].
  apply andb_true_iff in H. destruct H as [Hs He]. split; [apply Nat.ltb_lt; exact Hs|].
  split; [apply edge_okb_evalid; exact He|]. intros t ->. apply Nat.ltb_lt. exact Ht.
Qed.

Record rel (n source : nat) (ps : Bfs.state) (rs : RsSearch.st) : Prop := {
  r_front : Bfs.frontier ps = RsSearch.frontier rs;
  r_list : Bfs.visited ps = rev (RsSearch.frontier rs) ++ RsSearch.order rs;
  r_nodup : NoDup (Bfs.visited ps);
  r_lt : forall v, In v (Bfs.visited ps) -> v < n;
  r_len : length (RsSearch.visited rs) = n;
  r_vis : forall v, v < n -> nth v (RsSearch.visited rs) false = Bfs.mem v (Bfs.visited ps);
  r_plen : length (RsSearch.pred rs) = n;
  r_pred : forall v, v < n -> nth v (RsSearch.pred rs) None = Bfs.lookup v (Bfs.parent ps);
  (* the parent dict is a tree on the visited nodes, rooted at the source *)
  r_src : In source (Bfs.visited ps);
  r_root : forall v, In v (Bfs.visited ps) -> (Bfs.lookup v (Bfs.parent ps) = None <-> v = source);
  r_par : forall v p, Bfs.lookup v (Bfs.parent ps) = Some p -> In p (Bfs.visited ps);
  r_cnt : S (length (Bfs.parent ps)) = length (Bfs.visited ps)
}.

Lemma rel_init n source : source < n ->
  rel n source (Bfs.init source)
      (RsSearch.mk (RsSearch.set_nth source true (repeat false n)) (repeat None n) [source] []).
Proof.
  intros Hs. constructor; simpl; try reflexivity.
  - repeat constructor. intros [].
  - intros v [<-|[]]. exact Hs.
  - rewrite length_set_nth. apply repeat_length.
  - intros v Hv. rewrite nth_set_nth, (Nat.eqb_sym source v), nth_repeat_lt by (rewrite ?repeat_length; assumption).
    unfold Bfs.mem. simpl. now destruct (Nat.eqb v source).
  - apply repeat_length.
  - intros v Hv. apply nth_repeat_lt. exact Hv.
  - left. reflexivity.
  - intros v [<-|[]]. split; reflexivity.
  - discriminate.
Qed.

Lemma rel_visited_bound n source ps rs : rel n source ps rs -> length (Bfs.visited ps) <= n.
Proof. intros HR. apply nodup_bound; [apply (r_nodup _ _ _ _ HR) | apply (r_lt _ _ _ _ HR)]. Qed.

Lemma rel_pop n source ps rs cur rest : rel n source ps rs -> RsSearch.frontier rs = cur :: rest ->
  rel n source (Bfs.mk (Bfs.visited ps) (Bfs.parent ps) rest)
      (RsSearch.mk (RsSearch.visited rs) (RsSearch.pred rs) rest (cur :: RsSearch.order rs)).
Proof.
  intros [Hfr Hli Hnd Hlt Hvl Hvis Hpl Hpred Hsrc Hroot Hpar Hcnt] EF.
  constructor; simpl; try assumption; [reflexivity|].   (* left: r_front, r_list *)
  rewrite Hli, EF. simpl. now rewrite <- app_assoc.
Qed.

Lemma rel_push n source cur x ps rs : rel n source ps rs -> x < n -> In cur (Bfs.visited ps) ->
  Bfs.mem x (Bfs.visited ps) = false ->
  rel n source (Bfs.mk (x :: Bfs.visited ps) ((x, cur) :: Bfs.parent ps) (Bfs.frontier ps ++ [x]))
      (RsSearch.mk (RsSearch.set_nth x true (RsSearch.visited rs)) (RsSearch.set_nth x (Some cur) (RsSearch.pred rs))
                   (RsSearch.frontier rs ++ [x]) (RsSearch.order rs)).
Proof.
  intros [Hfr Hli Hnd Hlt Hvl Hvis Hpl Hpred Hsrc Hroot Hpar Hcnt] Hx Hcur Hm.
  assert (Hnx : ~ In x (Bfs.visited ps)) by (intros Hin; apply bfs_mem_In in Hin; congruence).
  constructor; cbn [Bfs.visited Bfs.parent Bfs.frontier RsSearch.visited RsSearch.pred RsSearch.frontier RsSearch.order Bfs.lookup].
  - now rewrite Hfr.
  - rewrite Hli, rev_app_distr. reflexivity.
  - constructor; assumption.
  - intros v [<-|Hv]; [exact Hx | apply Hlt; exact Hv].
  - now rewrite length_set_nth.
  - intros v Hv. rewrite nth_set_nth, Hvis, (Nat.eqb_sym x v) by lia. reflexivity.
  - now rewrite length_set_nth.
  - intros v Hv. rewrite nth_set_nth, Hpred by lia. reflexivity.
  - right. exact Hsrc.
  - intros v Hv. destruct (Nat.eqb_spec x v) as [<-|Hn].
    + split; [discriminate | intros ->; contradiction].
    + destruct Hv as [Hv|Hv]; [contradiction | apply Hroot; exact Hv].
  - intros v p Hl. right. destruct (Nat.eqb x v); [now injection Hl as <- | eapply Hpar; exact Hl].
  - simpl. now rewrite Hcnt.
Qed.

Lemma explore_sim n source cur ns : forall ps rs, (forall x, In x ns -> x < n) ->
  rel n source ps rs -> In cur (Bfs.visited ps) ->
  rel n source (Bfs.expand Bfs.Queue cur ns ps) (fold_left (RsSearch.bfs_explore cur) ns rs).
Proof.
  induction ns as [|x r IH]; intros ps rs Hlt HR Hcur; simpl; [exact HR|].
  assert (Hx : x < n) by (apply Hlt; left; reflexivity).
  assert (Hr : forall y, In y r -> y < n) by (intros y Hy; apply Hlt; right; exact Hy).
  unfold RsSearch.bfs_explore at 2. rewrite (r_vis _ _ _ _ HR x Hx).
  destruct (Bfs.mem x (Bfs.visited ps)) eqn:E.
  - apply IH; assumption.
  - apply IH; [exact Hr | apply rel_push; assumption | right; exact Hcur].
Qed.

Lemma order_fold cur : forall ns s0, RsSearch.order (fold_left (RsSearch.bfs_explore cur) ns s0) = RsSearch.order s0.
Proof.
  induction ns as [|x r IHn]; intros s0; simpl; [reflexivity|]. rewrite IHn. unfold RsSearch.bfs_explore.
  destruct (nth x (RsSearch.visited s0) false); reflexivity.
Qed.

Lemma recon_agree n source ps rs : rel n source ps rs ->
  forall fp cur acc r, In cur (Bfs.visited ps) ->
    Bfs.recon fp (Bfs.parent ps) cur (cur :: acc) = Some r ->
    forall fr, fp <= fr -> RsSearch.recon fr (RsSearch.pred rs) source cur acc = Some r.
Proof.
  intros HR. induction fp as [|fp IH]; intros cur acc r Hcur Hp fr Hf; [discriminate|].
  cbn [Bfs.recon] in Hp.
  pose proof (r_root _ _ _ _ HR cur Hcur) as Hroot.
  destruct (Bfs.lookup cur (Bfs.parent ps)) as [p|] eqn:El.
  - assert (Hne : cur <> source) by (intros E; apply Hroot in E; discriminate).
    destruct fr as [|fr]; [lia|]. cbn [RsSearch.recon].
    apply Nat.eqb_neq in Hne. rewrite Hne, (r_pred _ _ _ _ HR cur (r_lt _ _ _ _ HR cur Hcur)), El.
    apply (IH p (cur :: acc) r); [eapply (r_par _ _ _ _ HR); exact El | exact Hp | lia].
  - injection Hp as <-. rewrite (proj1 Hroot eq_refl).
    destruct fr as [|fr]; cbn [RsSearch.recon]; rewrite Nat.eqb_refl; reflexivity.
Qed.

(* Python's fuel is 1 + |parent| <= n, Rust's is 1 + n *)
Lemma reconstruct_agree n source ps rs cur p : rel n source ps rs -> In cur (Bfs.visited ps) ->
  Bfs.reconstruct_path (Bfs.parent ps) cur = Some p ->
  RsSearch.reconstruct_path (RsSearch.pred rs) source cur = Some p.
Proof.
  intros HR Hcur Hp. eapply (recon_agree n source ps rs HR); [exact Hcur | exact Hp|].
  rewrite (r_plen _ _ _ _ HR). pose proof (rel_visited_bound _ _ _ _ HR). pose proof (r_cnt _ _ _ _ HR). lia.
Qed.

(* Every pop adds a node to `order`, and queue and order together hold at most n distinct nodes: the Rust fuel
   2 + n suffices, and the iteration counter (= |order|) stays below any max_iter > n. *)
Lemma bfs_loop_sim n edges source target mi : evalid n edges -> (Z.of_nat n < mi)%Z ->
  (forall t, target = Some t -> t < n) ->
  forall fp fr ps rs r,
    rel n source ps rs ->
    (forall t, target = Some t -> ~ In t (RsSearch.order rs)) ->
    2 + n <= fr + length (RsSearch.order rs) ->
    Bfs.loop fp Bfs.Queue (Bfs.succ_of (PyEdges.adj_of n edges)) (PyEdges.goal_of target) mi
             (Z.of_nat (length (RsSearch.order rs))) ps = Some r ->
    r <> Bfs.NotFound Bfs.MAX_ITER /\
    (r <> Bfs.Hang ->
     RsSearch.adapter ES.OPTIMAL target (RsSearch.bfs_loop fr (RsSearch.build_adjacency n edges) source target rs)
     = PyEdges.wrap (Some r)).
Proof.
  intros HV Hcap Htn. induction fp as [|fp IH]; intros fr ps rs r HR Hnt Hfr Hloop; [discriminate|].
  pose proof (rel_visited_bound _ _ _ _ HR) as Hb.
  pose proof (r_list _ _ _ _ HR) as HL. rewrite HL, app_length, rev_length in Hb.
  destruct fr as [|fr]; [exfalso; lia|].
  cbn [Bfs.loop RsSearch.bfs_loop] in *. rewrite (r_front _ _ _ _ HR) in Hloop.
  destruct (RsSearch.frontier rs) as [|cur rest] eqn:EF.
  - injection Hloop as <-. simpl in HL. destruct target as [t|]; cbn [Bfs.finish PyEdges.goal_of Bfs.goal_val].
    + assert (Hm : (mi <=? Z.of_nat (length (RsSearch.order rs)))%Z = false) by (apply Z.leb_gt; lia).
      rewrite Hm. split; [discriminate|]. intros _.
      assert (Ht : Bfs.mem t (RsSearch.order rs) = false).
      { destruct (Bfs.mem t (RsSearch.order rs)) eqn:E; [|reflexivity]. apply bfs_mem_In in E. now apply Hnt in E. }
      rewrite (r_vis _ _ _ _ HR t (Htn t eq_refl)), HL, Ht. reflexivity.
    + split; [discriminate|]. intros _. rewrite HL. simpl. do 2 f_equal.
      apply sort_perm_eq, Permutation_sym, Permutation_rev.
  - assert (Hit : (Z.of_nat (length (RsSearch.order rs)) <? mi)%Z = true) by (apply Z.ltb_lt; simpl in Hb; lia).
    rewrite Hit in Hloop.
    assert (Hcv : In cur (Bfs.visited ps)).
    { rewrite HL. simpl. apply in_or_app. left. apply in_or_app. right. left. reflexivity. }
    assert (Hcur : cur < n) by (apply (r_lt _ _ _ _ HR); exact Hcv).
    assert (Hg : match PyEdges.goal_of target with Some isg => isg cur | None => false end
                 = match target with Some t => Nat.eqb cur t | None => false end)
      by (destruct target; [apply Nat.eqb_sym | reflexivity]).
    rewrite Hg in Hloop. destruct (match target with Some t => Nat.eqb cur t | None => false end) eqn:Eg.
    + destruct (Bfs.reconstruct_path (Bfs.parent ps) cur) as [p|] eqn:Ep; injection Hloop as <-.
      * split; [discriminate|]. intros _. rewrite (reconstruct_agree n source ps rs cur p HR Hcv Ep).
        destruct target; [reflexivity | discriminate].
      * split; [discriminate | congruence].
    + rewrite py_adj in Hloop by exact Hcur. rewrite rs_adj by assumption.
      pose proof (explore_sim n source cur (out_of edges cur) _ _
                    (fun x Hx => out_of_lt n edges cur x HV Hx) (rel_pop n source ps rs cur rest HR EF) Hcv) as HR2.
      apply (IH fr _ _ r HR2); rewrite order_fold; simpl.
      * intros t -> [E|Hin]; [subst t; now rewrite Nat.eqb_refl in Eg | now apply (Hnt t) in Hin].
      * lia.
      * rewrite Zpos_P_of_succ_nat, <- Z.add_1_r. exact Hloop.
Qed.

Theorem bfs_edges_sim n edges source target r : ES.valid_input n edges source target = true ->
  Bfs.bfs (PyEdges.adj_of n edges) source (PyEdges.goal_of target) (PyEdges.max_iter_of n edges) = Some r ->
  r <> Bfs.NotFound Bfs.MAX_ITER /\
  (r <> Bfs.Hang -> RsSearch.bfs_edges n edges source target = PyEdges.wrap (Some r)).
Proof.
  intros HV HS. destruct (valid_input_spec _ _ _ _ HV) as (Hs & HE & Ht).
  refine (bfs_loop_sim n edges source target _ HE _ Ht _ (S (S n)) _ _ r (rel_init n source Hs) _ _ HS).
  - unfold PyEdges.max_iter_of. lia.
  - intros t _ [].
  - simpl. lia.
Qed.
