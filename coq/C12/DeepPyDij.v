(* C12_dijkstra, the Python side (PyDij of PyDijkstra.v).
   Without a target dijkstra_edges runs its own "minimal Dijkstra" (no closed set: an entry is out of date when it is
   above the array): an instance of the invariant of DeepDij1.v; the loop ends within fuel_of and returns the exact
   shortest-walk distances.
   With a target it calls dijkstra() of C11.BestFirst with max_iter = max(1_000_000, n + |E| + 1).  The C11 theorems give
   path validity / optimality / soundness of INFEASIBLE; what is added here: the iteration counter equals the size of
   the duplicate-free closed set of nodes < n, so it never reaches max_iter and the status is never MAX_ITER. *)
From Coq Require Import List ZArith Bool Arith Lia.
From SV Require Import C11.Paths C11.PathsLemmas C11.BestFirst C11.BestGraph C11.BestHyps C11.BestProofs1
  C11.BestProofsInst C11.BestProofs5 C11.BestProofs6 C12.RsShortest C12.PyDijkstra C12.BfsEquiv C12.DeepDij1.
Import ListNotations.
Open Scope Z_scope.

Lemma py_adj_length n (E : wgraph) : length (PyDij.adj_of n E) = n.
Proof. unfold PyDij.adj_of. rewrite map_length, seq_length. reflexivity. Qed.

Lemma py_adj_nbrs_eq n (E : wgraph) u : (u < n)%nat -> adj_nbrs (PyDij.adj_of n E) u = wout E u.
Proof.
  intros Hu. unfold adj_nbrs, PyDij.adj_of.
  rewrite (nth_indep _ [] (wout E O)) by (rewrite map_length, seq_length; exact Hu).
  rewrite (map_nth (wout E)). rewrite seq_nth by exact Hu. reflexivity.
Qed.

Lemma py_adj_nbrs_out n (E : wgraph) u : (n <= u)%nat -> adj_nbrs (PyDij.adj_of n E) u = [].
Proof. intros Hu. unfold adj_nbrs. apply nth_overflow. rewrite py_adj_length. exact Hu. Qed.

Lemma py_adj_nbrs_In n (E : wgraph) u v w :
  In (v, w) (adj_nbrs (PyDij.adj_of n E) u) <-> (u < n)%nat /\ In (u, v, w) E.
Proof.
  destruct (Nat.lt_ge_cases u n) as [Hu|Hu].
  - rewrite py_adj_nbrs_eq, wout_In by exact Hu. tauto.
  - rewrite py_adj_nbrs_out by exact Hu. split; [intros []|]. intros [Hlt _]. lia.
Qed.

Lemma tuple_ltb_true_le a b : PyDij.tuple_ltb a b = true -> fst a <= fst b.
Proof.
  unfold PyDij.tuple_ltb. intros H. apply orb_true_iff in H. destruct H as [H|H].
  - apply Z.ltb_lt in H. lia.
  - apply andb_true_iff in H. destruct H as [H _]. apply Z.eqb_eq in H. lia.
Qed.

Lemma tuple_ltb_false_le a b : PyDij.tuple_ltb a b = false -> fst b <= fst a.
Proof. unfold PyDij.tuple_ltb. intros H. apply orb_false_iff in H. destruct H as [H _]. apply Z.ltb_ge. exact H. Qed.

(* PyDij in the vocabulary of DeepDij1.v: its set_nth and hpush are copies of set_nth and of hins tuple_ltb *)
Lemma py_set_nth_eq {A} i (x : A) l : PyDij.set_nth i x l = set_nth i x l.
Proof. reflexivity. Qed.

Lemma py_hpush_eq e h : PyDij.hpush e h = hins PyDij.tuple_ltb e h.
Proof. reflexivity. Qed.

Lemma py_relax_eq d dist heap v w :
  PyDij.relax d (dist, heap) (v, w)
  = if flt (Some (d + w)) (nth v dist None)
    then (set_nth v (Some (d + w)) dist, hins PyDij.tuple_ltb (d + w, v) heap) else (dist, heap).
Proof. cbn [PyDij.relax]. rewrite py_set_nth_eq, py_hpush_eq. reflexivity. Qed.

Section PyLoop.
Variable n : nat.
Variable E : wgraph.
Variable source : nat.
Hypothesis Hs : (source < n)%nat.
Hypothesis Hv : evalidP n E.

Notation dinv := (dinv n E source).
Notation a := (PyDij.adj_of n E).

Definition py_scanning (S D : list nat) (u : nat) (d : Z) (x : list (option Z) * list (Z * nat)) : Prop :=
  dinv S D (fst x) (snd x) /\ nth u (fst x) None = Some d.

(* one out-edge: the hypothesis of relax_fold *)
Lemma relax_step S D u d x v w : py_scanning S D u d x -> In (u, v, w) E ->
  let x' := PyDij.relax d x (v, w) in
  py_scanning S D u d x' /\ mono (fst x) (fst x') /\
  (exists dv, nth v (fst x') None = Some dv /\ dv <= d + w) /\ (length (snd x') <= Datatypes.S (length (snd x)))%nat.
Proof.
  destruct x as [dist heap]. unfold py_scanning. cbn [fst snd]. intros [I Hu] Hin. rewrite py_relax_eq.
  destruct (flt (Some (d + w)) (nth v dist None)) eqn:F; cbn [fst snd].
  - destruct (dinv_improve n E source Hv _ tuple_ltb_true_le tuple_ltb_false_le S D dist heap u d v w I Hu Hin F)
      as (I' & M & _ & _ & Hvu).
    pose proof (d_len _ _ _ _ _ _ _ I) as Hlen. destruct (edge_lt _ _ _ _ _ Hv Hin) as [_ [Hvn _]].
    split; [split; [exact I' | rewrite nth_set_nth_neq by exact Hvu; exact Hu]|]. split; [exact M|]. split.
    + exists (d + w). split; [apply nth_set_nth_eq; lia | apply Z.le_refl].
    + rewrite hins_length. lia.
  - split; [split; assumption|]. split; [apply mono_refl|]. split; [apply flt_Some_false; exact F | lia].
Qed.

Lemma py_scan_inv S u d dist rest : dinv (u :: S) S dist rest -> nth u dist None = Some d ->
  let x' := fold_left (PyDij.relax d) (wout E u) (dist, rest) in
  dinv (u :: S) (u :: S) (fst x') (snd x') /\ (length (snd x') <= length (wout E u) + length rest)%nat.
Proof.
  intros I Hu x'.
  destruct (relax_fold E (py_scanning (u :: S) S u d) fst snd (PyDij.relax d) u d (relax_step (u :: S) S u d)
              (wout E u) (dist, rest) (fun v w H => proj1 (wout_In E u v w) H) (conj I Hu))
    as [[I2 Hu2] [_ [Hall Hlen]]].
  split; [|exact Hlen].
  apply (dinv_expanded n E source _ u d _ _ I2 Hu2). intros v w Hin. apply Hall, wout_In, Hin.
Qed.

Lemma fold_relax_noop d : forall l dist heap,
  (forall v w, In (v, w) l -> exists dv, nth v dist None = Some dv /\ dv <= d + w) ->
  fold_left (PyDij.relax d) l (dist, heap) = (dist, heap).
Proof.
  induction l as [|[v w] l IH]; intros dist heap H; cbn [fold_left]; [reflexivity|].
  rewrite py_relax_eq. destruct (H v w (or_introl eq_refl)) as [dv [Hdv Lv]]. rewrite Hdv. cbn [flt].
  rewrite (proj2 (Z.ltb_ge _ _) Lv). apply IH. intros v0 w0 H0. apply H. right. exact H0.
Qed.

Lemma loop_correct : forall fuel S dist heap, dinv S S dist heap -> (length heap + wpend E S <= fuel)%nat ->
  exists dv S', PyDij.loop fuel a dist heap = Some dv /\ dinv S' S' dv [].
Proof.
  induction fuel as [|f IH]; intros S dist heap I Hmu.
  - destruct heap as [|x r]; [|simpl in Hmu; lia]. exists dist, S. split; [reflexivity|exact I].
  - destruct heap as [|[d u] rest].
    { exists dist, S. split; [reflexivity|exact I]. }
    cbn [PyDij.loop length] in *.
    destruct (d_ub _ _ _ _ _ _ _ I d u (or_introl eq_refl)) as [Hun [du [Hdu Ldu]]].
    destruct (flt (nth u dist None) (Some d)) eqn:F.
    + (* the entry is above the array: out of date *)
      rewrite Hdu in F. simpl in F. apply Z.ltb_lt in F.
      apply (IH S); [|lia]. eapply dinv_drop; [exact I|]. right. rewrite Hdu. intros Heq. injection Heq as ->. lia.
    + rewrite Hdu in F. simpl in F. apply Z.ltb_ge in F. assert (du = d) by lia. subst du.
      rewrite py_adj_nbrs_eq by exact Hun.
      destruct (in_dec Nat.eq_dec u S) as [HuS|HuS].
      * (* u is settled already and its out-edges are relaxed: the scan changes nothing *)
        rewrite (fold_relax_noop d (wout E u) dist rest).
        -- apply (IH S); [|lia]. eapply dinv_drop; [exact I|]. left. exact HuS.
        -- intros v w Hin. apply wout_In in Hin. apply (d_edge _ _ _ _ _ _ _ I u v w d HuS Hin Hdu).
      * destruct (py_scan_inv S u d dist rest (dinv_settle n E source Hv _ _ _ _ _ I HuS) Hdu) as [I2 Hlen].
        destruct (fold_left (PyDij.relax d) (wout E u) (dist, rest)) as [dist' heap'].
        apply (IH (u :: S)); [exact I2|]. pose proof (wpend_settle E S u HuS). cbn [snd] in Hlen. lia.
Qed.

Lemma fuel_enough : (length [(0, source)] + wpend E [] <= PyDij.fuel_of n E)%nat.
Proof. pose proof (pend_le _ E [] : (wpend E [] <= length E)%nat). unfold PyDij.fuel_of. cbn [length Nat.mul]. lia. Qed.

Theorem pydij_all_dists_correct : exists dv, PyDij.all_dists n E source = Some dv /\ dists_ok n E source dv.
Proof.
  destruct (loop_correct (PyDij.fuel_of n E) [] _ _ (dinv_init n E source Hs) fuel_enough) as [dv [S' [Hl I]]].
  exists dv. split; [exact Hl | exact (dinv_final_dists n E source Hv _ _ I)].
Qed.
End PyLoop.

Print Assumptions pydij_all_dists_correct.

Corollary pydij_edges_none_correct : forall n edges source, (source < n)%nat -> evalidP n edges ->
  exists dv, PyDij.dijkstra_edges n edges source None = Some (RsDij.Dists dv) /\ dists_ok n edges source dv.
Proof.
  intros n edges source Hs Hv. destruct (pydij_all_dists_correct n edges source Hs Hv) as [dv [H1 H2]].
  exists dv. split; [|exact H2]. unfold PyDij.dijkstra_edges. rewrite H1. reflexivity.
Qed.

(* the best-first loop of C11 never reports MAX_ITER when its nodes are < n < max_iter *)
Section NoMaxIter.
  Context {C K : Type}.
  Variable cadd : C -> C -> C.
  Variable cltb : C -> C -> bool.
  Variable kltb : K -> K -> bool.
  Variable mkkey : C -> nat -> K.
  Variable limit_of : K -> C -> C.
  Variable found : status.
  Variable nbrs : nat -> list (nat * C).
  Variable is_goal : nat -> bool.
  Variable M : Z.
  Variable mc : option C.
  Variable n : nat.
  Hypothesis Hfound : found <> MAX_ITER.
  Hypothesis Hnb : forall u v w, In (v, w) (nbrs u) -> (v < n)%nat.
  Hypothesis HM : Z.of_nat n < M.

  Notation state := (@st nat C K).

  Definition invB (s : state) (iters : Z) : Prop :=
    iters = Z.of_nat (length (s_closed s)) /\ NoDup (s_closed s)
    /\ (forall x, In x (s_closed s) -> (x < n)%nat)
    /\ (forall k c v, In (k, c, v) (s_heap s) -> (v < n)%nat).

  Lemma relax_heap_B : forall cur gcur (s : state) v w, (v < n)%nat ->
    (forall k c x, In (k, c, x) (s_heap s) -> (x < n)%nat) ->
    forall k c x, In (k, c, x) (s_heap (relax Nat.eqb cadd cltb kltb mkkey cur gcur s (v, w))) -> (x < n)%nat.
  Proof.
    intros cur gcur s v w Hvn Hh k c x. unfold relax.
    destruct (memb Nat.eqb v (s_closed s)); [apply Hh|].
    destruct (match lookup Nat.eqb v (s_g s) with Some gv => cltb (cadd gcur w) gv | None => true end); [|apply Hh].
    cbn [s_heap]. intros Hin. apply hinsert_In in Hin. destruct Hin as [Hin|Hin].
    - inversion Hin; subst. exact Hvn.
    - eapply Hh. exact Hin.
  Qed.

  Lemma closed_bound : forall (s : state) iters, invB s iters -> iters < M.
  Proof.
    intros s iters [Hi [Hnd [Hcl _]]]. pose proof (nodup_bound n _ Hnd Hcl). lia.
  Qed.

  Lemma finish_B : forall (s : state) iters, invB s iters -> r_status (finish M iters s) = INFEASIBLE.
  Proof.
    intros s iters I. pose proof (closed_bound s iters I) as Hlt. unfold finish. cbn [r_status].
    destruct (M <=? iters) eqn:Ele; [apply Z.leb_le in Ele; lia|reflexivity].
  Qed.

  Lemma loop_not_maxiter : forall fuel (s : state) iters r, invB s iters ->
    loop Nat.eqb cadd cltb kltb mkkey limit_of found nbrs is_goal M mc fuel s iters = Some r ->
    r_status r <> MAX_ITER.
  Proof.
    induction fuel as [|f IH]; intros s iters r I Hl; [discriminate|].
    cbn [loop] in Hl.
    destruct (s_heap s) as [|[[k c] cur] h'] eqn:Eh.
    { inversion Hl; subst r. rewrite (finish_B s iters I). discriminate. }
    destruct (negb (iters <? M)).
    { inversion Hl; subst r. rewrite (finish_B s iters I). discriminate. }
    destruct I as [Hi [Hnd [Hcl Hh]]].
    assert (Hcur : (cur < n)%nat) by (apply (Hh k c cur); rewrite Eh; left; reflexivity).
    assert (Hh' : forall k0 c0 x, In (k0, c0, x) h' -> (x < n)%nat)
      by (intros k0 c0 x Hx; apply (Hh k0 c0 x); rewrite Eh; right; exact Hx).
    destruct (memb Nat.eqb cur (s_closed s)) eqn:Em.
    { eapply IH; [|exact Hl]. repeat split; cbn [s_closed s_heap]; assumption. }
    assert (Hnin : ~ In cur (s_closed s)).
    { intros Hin. apply (memb_In Nat.eqb Nat.eqb_eq) in Hin. congruence. }
    assert (I2 : invB (mkSt (s_g s) (s_parent s) (cur :: s_closed s) (s_counter s) h' (s_evals s)) (iters + 1)).
    { repeat split; cbn [s_closed s_heap].
      - cbn [length]. lia.
      - constructor; assumption.
      - intros x [Hx|Hx]; [subst x; exact Hcur|apply Hcl; exact Hx].
      - exact Hh'. }
    destruct (lookup Nat.eqb cur (s_g s)) as [gcur|]; [|discriminate].
    destruct (is_goal cur).
    { destruct (reconstruct_path Nat.eqb (s_parent s) cur); [|discriminate].
      inversion Hl; subst r. cbn [r_status]. exact Hfound. }
    destruct (over_limit cltb limit_of mc k gcur).
    { eapply IH; [exact I2|exact Hl]. }
    eapply IH; [|exact Hl].
    destruct I2 as [Hi2 [Hnd2 [Hcl2 Hh2]]]. unfold invB. rewrite expand_closed.
    split; [exact Hi2|]. split; [exact Hnd2|]. split; [exact Hcl2|].
    apply (expand_rule _ _ _ _ _ _ (fun s' : state => forall k0 c0 x, In (k0, c0, x) (s_heap s') -> (x < n)%nat));
      [|exact Hh2].
    intros s0 [v w] Hin Hs0. apply relax_heap_B; [exact (Hnb cur v w Hin) | exact Hs0].
  Qed.
End NoMaxIter.

Section PyTarget.
  Variable n : nat.
  Variable E : wgraph.
  Hypothesis Hv : evalidP n E.

  Notation a := (PyDij.adj_of n E).

  Lemma py_adj_edges_In : forall u v w, In (u, v, w) (adj_edges a) <-> In (u, v, w) E.
  Proof.
    intros u v w. rewrite In_adj_edges, py_adj_nbrs_In. split; [tauto|].
    intros Hin. split; [|exact Hin]. destruct (edge_lt n E _ _ _ Hv Hin) as [Hu _]. exact Hu.
  Qed.

  Lemma py_walk_iff : forall u t p d, walk (adj_edges a) u t p d <-> walk E u t p d.
  Proof.
    intros u t p d. split; apply walk_mono; intros [[x y] z] H; apply py_adj_edges_In; exact H.
  Qed.

  Lemma py_is_dist : forall s t d, is_dist (adj_edges a) s t d -> is_dist E s t d.
  Proof.
    intros s t d [[p W] Hm]. split.
    - exists p. apply py_walk_iff. exact W.
    - intros p' d' W'. apply (Hm p' d'). apply py_walk_iff. exact W'.
  Qed.

  Lemma py_nonneg_adj : nonneg_adj a = true.
  Proof.
    unfold nonneg_adj. apply forallb_forall. intros l Hl. apply forallb_forall. intros [v w] Hvw.
    apply (In_nth _ _ []) in Hl. destruct Hl as [u [Hu Hnth]]. rewrite py_adj_length in Hu.
    assert (Hin : In (v, w) (adj_nbrs a u)) by (unfold adj_nbrs; rewrite Hnth; exact Hvw).
    apply py_adj_nbrs_In in Hin. destruct Hin as [_ Hin].
    destruct (edge_lt n E _ _ _ Hv Hin) as [_ [_ Hw]]. simpl. apply Z.leb_le. exact Hw.
  Qed.

  Lemma goal_in_single : forall t x, goal_in [t] x = true <-> x = t.
  Proof. intros t x. unfold goal_in. cbn [memb]. rewrite <- Nat.eqb_eq. destruct (Nat.eqb x t); intuition. Qed.

  Theorem pydij_target_correct : forall source t, (source < n)%nat ->
    target_ok E source t (PyDij.dijkstra_edges n E source (Some t)).
  Proof.
    intros source t Hs.
    set (M := Z.max 1000000 (Z.of_nat (n + length E + 1))).
    destruct (dijkstra_total a source [t] M None) as [r Hr].
    assert (Hr' : dijkstra_gen (graph_fuel a) a source [t] M None = Some r) by exact Hr.
    pose proof (dijkstra_path_valid _ _ _ _ _ _ _ Hr') as Hok.
    pose proof (dijkstra_optimal _ _ _ _ _ _ _ py_nonneg_adj Hr') as Hopt.
    assert (Hnm : r_status r <> MAX_ITER).
    { unfold dijkstra_gen, dijkstra_c, best_first in Hr'.
      eapply (loop_not_maxiter Z.add Z.ltb Z.ltb (fun t0 _ => t0) (fun k _ => k) OPTIMAL (adj_nbrs a) (goal_in [t]) M None n);
        [discriminate| | | |exact Hr'].
      - intros u v w Hin. apply py_adj_nbrs_In in Hin. destruct Hin as [_ Hin].
        destruct (edge_lt n E _ _ _ Hv Hin) as [_ [Hvn _]]. exact Hvn.
      - unfold M. lia.
      - unfold invB, init_st. cbn [s_closed s_heap length]. repeat split.
        + constructor.
        + intros x [].
        + intros k c v [Hin|[]]. inversion Hin; subst. exact Hs. }
    unfold target_ok, PyDij.dijkstra_edges. fold M. rewrite Hr.
    unfold graph_res_ok in Hok. destruct (r_path r) as [p|] eqn:Ep.
    - destruct Hok as [d [t' [Ho [W [Hg Hst]]]]]. apply goal_in_single in Hg. subst t'.
      left. exists p, d. rewrite Hst, Ho. split; [reflexivity|]. split; [apply py_walk_iff; exact W|].
      destruct (best_is_dist _ _ _ _ _ (dijkstra_path_valid _ _ _ _ _ _ _ Hr') Hopt d Ho)
        as [t' [p' [_ [Hg' [Hd _]]]]].
      apply goal_in_single in Hg'. subst t'. apply py_is_dist. exact Hd.
    - destruct Hok as [Ho [Hst|Hst]]; [|contradiction].
      right. rewrite Hst, Ho. split; [reflexivity|].
      pose proof (dijkstra_infeasible_sound _ _ _ _ _ _ Hr' Hst) as Hno.
      intros [p [d W]]. apply (Hno t (proj2 (goal_in_single t t) eq_refl)). exists p, d. apply py_walk_iff. exact W.
  Qed.
End PyTarget.

Print Assumptions pydij_all_dists_correct.
Print Assumptions pydij_target_correct.
