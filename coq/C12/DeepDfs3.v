(* C12 dfs_edges: the Rust-side model (RsSearch.dfs_edges: kernel + adapter; its correctness is DeepDfs1.v) and the
   Python-side model (dfs() of SV.C11.Bfs wrapped as in solvor/bfs.py dfs_edges) are observably equivalent on valid
   inputs: with a target both return FEASIBLE with a valid path (the two paths may differ: Rust marks at pop time,
   Python at push time) iff the target is reachable, INFEASIBLE otherwise; without a target both return the
   same sorted list = the reachable set.  Neither runs out of fuel, neither reports Hang / MAX_ITER. *)
From Coq Require Import List ZArith Bool Arith Lia Permutation.
From SV Require Import C11.Paths C11.Bfs C11.BfsTheorems C12.RsSearch C12.BfsEquiv C12.DeepDfs1.
Import ListNotations.
Local Open Scope nat_scope.

Theorem rs_dfs_target_spec : forall n edges source t, ES.valid_input n edges source (Some t) = true ->
  (reach (out_of edges) source t /\
     exists p, RsSearch.dfs_edges n edges source (Some t) = Some (ES.Found ES.FEASIBLE p (Z.of_nat (length p) - 1)) /\
               is_path (out_of edges) source t p)
  \/ (~ reach (out_of edges) source t /\
      RsSearch.dfs_edges n edges source (Some t) = Some (ES.NotFound ES.INFEASIBLE)).
Proof.
  intros n edges source t HV. destruct (valid_input_spec _ _ _ _ HV) as (Hs & HE & _).
  destruct (dfs_kernel_spec n edges source (Some t) HE Hs) as (k & Hk & Hpost).
  unfold RsSearch.dfs_edges. rewrite Hk. unfold kpost in Hpost.
  destruct Hpost as [[Hr (p & vo & -> & Hp)]|[Hr (vo & ->)]].
  - left. split; [exact Hr|]. exists p. split; [reflexivity | exact Hp].
  - right. split; [exact Hr | reflexivity].
Qed.

Theorem rs_dfs_reach_spec : forall n edges source, ES.valid_input n edges source None = true ->
  exists vo, RsSearch.dfs_edges n edges source None = Some (ES.Reach (ES.sort vo)) /\ NoDup vo /\
             forall v, In v vo <-> reach (out_of edges) source v.
Proof.
  intros n edges source HV. destruct (valid_input_spec _ _ _ _ HV) as (Hs & HE & _).
  destruct (dfs_kernel_spec n edges source None HE Hs) as (k & Hk & Hpost).
  unfold RsSearch.dfs_edges. rewrite Hk. unfold kpost in Hpost.
  destruct Hpost as (vo & -> & Hnd & Hiff). exists vo. split; [reflexivity|]. split; assumption.
Qed.

Section Py.
Variable n : nat.
Variable edges : list (nat * nat).
Variable source : nat.
Hypothesis Hs : source < n.
Hypothesis HE : evalid n edges.

Let psucc := Bfs.succ_of (PyEdges.adj_of n edges).

Lemma psucc_eq u : psucc u = out_of edges u.
Proof. apply (py_adj_all n). exact HE. Qed.

Lemma psucc_lt u w : u < n -> In w (psucc u) -> w < n.
Proof. intros _ Hw. rewrite psucc_eq in Hw. eapply out_of_lt; eauto. Qed.

Lemma py_path_iff t p : is_path psucc source t p <-> is_path (out_of edges) source t p.
Proof. split; apply is_path_ext; intros u; [|symmetry]; apply psucc_eq. Qed.

Lemma py_reach_iff t : reach psucc source t <-> reach (out_of edges) source t.
Proof. split; intros [p Hp]; exists p; apply py_path_iff; exact Hp. Qed.

Lemma reach_set_bound vs : NoDup vs -> (forall v, In v vs -> reach psucc source v) -> length vs <= n.
Proof.
  intros Hnd Hr. apply nodup_bound; [exact Hnd|].
  intros v Hv. exact (reach_lt psucc n source v psucc_lt Hs (Hr v Hv)).
Qed.

(* the iteration cap max(10^6, n + |edges| + 1) is never hit: at most n nodes are reachable *)
Lemma py_no_max_iter goal :
  Bfs.search Bfs.Stack (PyEdges.adj_of n edges) source goal (PyEdges.max_iter_of n edges)
  <> Some (Bfs.NotFound Bfs.MAX_ITER).
Proof.
  intros H. apply search_max_iter_real in H. destruct H as (vs & Hnd & Hr & Hle).
  pose proof (reach_set_bound vs Hnd Hr). unfold PyEdges.max_iter_of in Hle. lia.
Qed.

Lemma py_dfs_target_spec t :
  (reach (out_of edges) source t ->
     exists q, PyEdges.dfs_edges n edges source (Some t) = Some (ES.Found ES.FEASIBLE q (Z.of_nat (length q) - 1)) /\
               is_path (out_of edges) source t q)
  /\ (~ reach (out_of edges) source t ->
      PyEdges.dfs_edges n edges source (Some t) = Some (ES.NotFound ES.INFEASIBLE)).
Proof.
  unfold PyEdges.dfs_edges, PyEdges.search_edges. cbn [PyEdges.goal_of]. unfold Bfs.goal_val.
  destruct (search_some (PyEdges.adj_of n edges) source Bfs.Stack (Some (Nat.eqb t)) (PyEdges.max_iter_of n edges))
    as [r Hr].
  assert (Hm : r <> Bfs.NotFound Bfs.MAX_ITER).
  { intros ->. exact (py_no_max_iter _ Hr). }
  assert (Hgr : goal_reachable psucc source (Nat.eqb t) <-> reach (out_of edges) source t).
  { unfold goal_reachable. split.
    - intros (t' & Ht' & E). apply Nat.eqb_eq in E. subst t'. apply py_reach_iff. exact Ht'.
    - intros H. exists t. split; [apply py_reach_iff; exact H | apply Nat.eqb_refl]. }
  rewrite Hr. split; intros Hreach.
  - apply Hgr in Hreach. apply (search_finds_iff_reachable _ _ _ _ _ _ Hr Hm) in Hreach.
    destruct Hreach as (q & obj & ->).
    destruct (search_path_valid _ _ _ _ _ _ _ _ Hr) as (t' & Hp & Hg & ->).
    cbn in Hg. apply Nat.eqb_eq in Hg. subst t'.
    exists q. split; [reflexivity | apply py_path_iff; exact Hp].
  - assert (Hn : ~ goal_reachable psucc source (Nat.eqb t)) by (intros H; apply Hreach, Hgr, H).
    apply (search_infeasible_iff _ _ _ _ _ _ Hr Hm) in Hn. subst r. reflexivity.
Qed.

Lemma py_dfs_reach_spec :
  exists vs, PyEdges.dfs_edges n edges source None = Some (ES.Reach (ES.sort vs)) /\ NoDup vs /\
             forall v, In v vs <-> reach (out_of edges) source v.
Proof.
  unfold PyEdges.dfs_edges, PyEdges.search_edges. cbn [PyEdges.goal_of].
  destruct (search_some (PyEdges.adj_of n edges) source Bfs.Stack None (PyEdges.max_iter_of n edges)) as [r Hr].
  pose proof (search_spec _ _ _ _ _ _ Hr) as Hspec.
  destruct r as [st p obj|st|vs obj|]; cbn in Hspec.
  - destruct Hspec as (_ & t' & _ & Hg & _). discriminate.
  - destruct st; try contradiction; destruct Hspec as [H _]; congruence.
  - clear Hspec. destruct (search_visited _ _ _ _ _ _ Hr) as (_ & Hnd & Hsound & Hcomp).
    rewrite Hr. exists vs. split; [reflexivity|]. split; [exact Hnd|].
    pose proof (reach_set_bound vs Hnd Hsound) as Hlen.
    assert (Hlt : (Z.of_nat (length vs) < PyEdges.max_iter_of n edges)%Z) by (unfold PyEdges.max_iter_of; lia).
    intros v. rewrite <- py_reach_iff. symmetry. apply Hcomp. exact Hlt.
  - contradiction.
Qed.

End Py.

Theorem dfs_equiv_target : forall n edges source t, ES.valid_input n edges source (Some t) = true ->
  (reach (out_of edges) source t /\
     exists p q, RsSearch.dfs_edges n edges source (Some t) = Some (ES.Found ES.FEASIBLE p (Z.of_nat (length p) - 1)) /\
                 PyEdges.dfs_edges n edges source (Some t) = Some (ES.Found ES.FEASIBLE q (Z.of_nat (length q) - 1)) /\
                 is_path (out_of edges) source t p /\ is_path (out_of edges) source t q)
  \/ (~ reach (out_of edges) source t /\
      RsSearch.dfs_edges n edges source (Some t) = Some (ES.NotFound ES.INFEASIBLE) /\
      PyEdges.dfs_edges n edges source (Some t) = Some (ES.NotFound ES.INFEASIBLE)).
Proof.
  intros n edges source t HV. destruct (valid_input_spec _ _ _ _ HV) as (Hs & HE & _).
  destruct (py_dfs_target_spec n edges source Hs HE t) as [Py1 Py2].
  destruct (rs_dfs_target_spec n edges source t HV) as [[Hr (p & Hp & Hpp)]|[Hr Hrs]].
  - left. split; [exact Hr|]. destruct (Py1 Hr) as (q & Hq & Hqp).
    exists p, q. split; [exact Hp|]. split; [exact Hq|]. split; assumption.
  - right. split; [exact Hr|]. split; [exact Hrs | apply Py2; exact Hr].
Qed.

Theorem dfs_equiv_reach : forall n edges source, ES.valid_input n edges source None = true ->
  exists l, RsSearch.dfs_edges n edges source None = Some (ES.Reach l) /\
            PyEdges.dfs_edges n edges source None = Some (ES.Reach l) /\
            (forall v, In v l <-> reach (out_of edges) source v).
Proof.
  intros n edges source HV. destruct (valid_input_spec _ _ _ _ HV) as (Hs & HE & _).
  destruct (rs_dfs_reach_spec n edges source HV) as (vo & Hrs & Hnd & Hiff).
  destruct (py_dfs_reach_spec n edges source Hs HE) as (vs & Hpy & Hnd' & Hiff').
  exists (ES.sort vo). split; [exact Hrs|]. split.
  - rewrite Hpy. f_equal. f_equal. apply sort_perm_eq. apply NoDup_Permutation; try assumption.
    intros v. rewrite Hiff, Hiff'. reflexivity.
  - intros v. rewrite <- Hiff. split; apply Permutation_in; [|apply Permutation_sym]; apply sort_perm.
Qed.

(* non-vacuity: a graph where the two back-ends return DIFFERENT valid paths, an unreachable target, a reach set *)
Example dfs_equiv_ex_valid :
  ES.valid_input 5 [(0,1);(0,2);(1,3);(2,3);(3,1)] 0 (Some 3) = true /\
  ES.valid_input 5 [(0,1);(0,2);(1,3);(2,3);(3,1)] 0 (Some 4) = true /\
  ES.valid_input 5 [(0,1);(0,2);(1,3);(2,3);(3,1)] 0 None = true.
Proof. vm_compute. auto. Qed.

Example dfs_equiv_ex_paths :
  RsSearch.dfs_edges 5 [(0,1);(0,2);(1,3);(2,3);(3,1)] 0 (Some 3) = Some (ES.Found ES.FEASIBLE [0;1;3] 2) /\
  PyEdges.dfs_edges 5 [(0,1);(0,2);(1,3);(2,3);(3,1)] 0 (Some 3) = Some (ES.Found ES.FEASIBLE [0;2;3] 2) /\
  RsSearch.dfs_edges 5 [(0,1);(0,2);(1,3);(2,3);(3,1)] 0 (Some 4) = Some (ES.NotFound ES.INFEASIBLE) /\
  RsSearch.dfs_edges 5 [(0,1);(0,2);(1,3);(2,3);(3,1)] 0 None = Some (ES.Reach [0;1;2;3]).
Proof. vm_compute. auto. Qed.

Print Assumptions rs_dfs_target_spec.
Print Assumptions rs_dfs_reach_spec.
Print Assumptions dfs_equiv_target.
Print Assumptions dfs_equiv_reach.
