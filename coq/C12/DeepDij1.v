(* C12_dijkstra: what the two Dijkstra loops have in common.
   RsDij.loop (Rust kernel) and PyDij.loop (the "minimal Dijkstra" of dijkstra.py) both keep a distance array and a list
   of (cost, node) entries sorted by cost, pop the head, drop it if it is out of date and otherwise relax the out-edges of
   its node.  They differ in how an entry is recognised as out of date (visited array / comparison with the array), in the
   order among entries of equal cost, and in what else they record (Rust: predecessors).  This file has the part of the
   correctness argument that does not see those differences: the invariant `dinv` on (distance array, heap) with a ghost
   set of settled nodes, and its preservation by the three moves.  DeepPyDij.v and DeepDij2.v instantiate it. *)
From Coq Require Import List ZArith Bool Arith Lia Sorted.
From SV Require Import C11.Paths C11.PathsLemmas C12.RsShortest C12.BfsEquiv.
Import ListNotations.
Local Open Scope nat_scope.

(* the distance array both loops start from *)
(* nth_set_nth, length_set_nth ... of BfsEquiv are stated for RsSearch.set_nth; set_nth of RsShortest.v is the same
   fixpoint, and `rewrite`/`apply` see through that *)
Lemma start_nth n source v : source < n ->
  nth v (set_nth source (Some 0%Z) (repeat None n)) None = if Nat.eqb source v then Some 0%Z else None.
Proof. intros Hs. rewrite nth_set_nth by (rewrite repeat_length; exact Hs). now rewrite nth_repeat. Qed.

Definition eokP (n : nat) (e : nat * nat * Z) : Prop := fst (fst e) < n /\ snd (fst e) < n /\ (0 <= snd e)%Z.
Definition evalidP (n : nat) (edges : wgraph) : Prop := Forall (eokP n) edges.

(* boolean validity of a dijkstra_edges call: indices in range, weights non-negative *)
Definition dij_valid (n : nat) (edges : wgraph) (source : nat) (target : option nat) : bool :=
  Nat.ltb source n
  && forallb (fun e : nat * nat * Z => Nat.ltb (fst (fst e)) n && Nat.ltb (snd (fst e)) n && (0 <=? snd e)%Z) edges
  && match target with Some t => Nat.ltb t n | None => true end.

Lemma dij_valid_spec n edges source target : dij_valid n edges source target = true ->
  source < n /\ evalidP n edges /\ match target with Some t => t < n | None => True end.
Proof.
  unfold dij_valid. intros H. apply andb_true_iff in H. destruct H as [H Ht].
  apply andb_true_iff in H. destruct H as [Hs He]. apply Nat.ltb_lt in Hs. split; [exact Hs|]. split.
  - apply Forall_forall. intros e Hin. rewrite forallb_forall in He. specialize (He e Hin).
    apply andb_true_iff in He. destruct He as [He C]. apply andb_true_iff in He. destruct He as [A B].
    apply Nat.ltb_lt in A. apply Nat.ltb_lt in B. apply Z.leb_le in C. unfold eokP. auto.
  - destruct target as [t|]; [apply Nat.ltb_lt; exact Ht | exact I].
Qed.

Lemma edge_lt n edges u v w : evalidP n edges -> In (u, v, w) edges -> u < n /\ v < n /\ (0 <= w)%Z.
Proof. intros HV Hin. unfold evalidP in HV. rewrite Forall_forall in HV. exact (HV _ Hin). Qed.

Lemma walk_nonneg n edges : evalidP n edges -> forall a x p d, walk edges a x p d -> (0 <= d)%Z.
Proof.
  intros HV a x p d H. induction H as [u|u v t p w d Hin _ IH]; [lia|].
  destruct (edge_lt _ _ _ _ _ HV Hin) as [_ [_ Hw]]. lia.
Qed.

(* the out-edges of u, in input order: what both back-ends store as adj[u] *)
Definition wout (edges : wgraph) (u : nat) : list (nat * Z) :=
  map (fun e : nat * nat * Z => (snd (fst e), snd e)) (filter (fun e : nat * nat * Z => Nat.eqb (fst (fst e)) u) edges).

Lemma wout_In edges u v w : In (v, w) (wout edges u) <-> In (u, v, w) edges.
Proof.
  unfold wout. rewrite in_map_iff. split.
  - intros [[[a b] c] [E H]]. apply filter_In in H. destruct H as [H1 H2]. simpl in *.
    apply Nat.eqb_eq in H2. inversion E; subst. exact H1.
  - intros H. exists (u, v, w). split; [reflexivity|]. apply filter_In. split; [exact H|]. simpl. apply Nat.eqb_refl.
Qed.

(* the termination measure of both loops: heap length + edges whose tail is not settled yet *)
Notation wpend := (pend (fun e : nat * nat * Z => fst (fst e))).

Lemma wpend_settle (edges : wgraph) S u : ~ In u S -> wpend edges (u :: S) + length (wout edges u) = wpend edges S.
Proof. intros Hu. unfold wout. rewrite map_length. apply pend_settle. exact Hu. Qed.

Lemma flt_Some_true x o : flt (Some x) o = true -> forall y, o = Some y -> (x < y)%Z.
Proof. intros H y ->. apply Z.ltb_lt. exact H. Qed.

Lemma flt_Some_false x o : flt (Some x) o = false -> exists y, o = Some y /\ (y <= x)%Z.
Proof. destruct o as [y|]; simpl; [|discriminate]. intros H. exists y. split; [reflexivity | apply Z.ltb_ge; exact H]. Qed.

Definition hle (a b : Z * nat) : Prop := (fst a <= fst b)%Z.
Definition hsorted (h : list (Z * nat)) : Prop := StronglySorted hle h.

Lemma hsorted_tail x h : hsorted (x :: h) -> hsorted h.
Proof. intros H. inversion H; assumption. Qed.

Lemma hsorted_min c u h : hsorted ((c, u) :: h) -> forall c' v, In (c', v) ((c, u) :: h) -> (c <= c')%Z.
Proof.
  intros H c' v [E|Hin]; [inversion E; lia|]. inversion H as [|? ? _ Hf]; subst.
  rewrite Forall_forall in Hf. apply (Hf _ Hin).
Qed.

(* Insertion before the first entry that is not `ltb` the new one.  RsDij.hpush and PyDij.hpush are this function for
   two comparisons that both refine the order of costs (they are convertible to it). *)
Section Insert.
Variable ltb : Z * nat -> Z * nat -> bool.
Hypothesis ltb_true : forall a b, ltb a b = true -> (fst a <= fst b)%Z.
Hypothesis ltb_false : forall a b, ltb a b = false -> (fst b <= fst a)%Z.

Fixpoint hins (e : Z * nat) (h : list (Z * nat)) : list (Z * nat) :=
  match h with
  | [] => [e]
  | x :: r => if ltb e x then e :: h else x :: hins e r
  end.

Lemma hins_In e x h : In x (hins e h) <-> x = e \/ In x h.
Proof.
  induction h as [|y h IH]; simpl.
  - split; [intros [<-|[]] | intros [->|[]]]; left; reflexivity.
  - destruct (ltb e y); simpl.
    + split; (intros [H|H]; [left; symmetry; exact H | right; exact H]).
    + rewrite IH. split; [intros [H|[H|H]] | intros [H|[H|H]]]; auto.
Qed.

Lemma hins_length e h : length (hins e h) = S (length h).
Proof. induction h as [|y h IH]; simpl; [reflexivity|]. destruct (ltb e y); simpl; lia. Qed.

Lemma hins_sorted e h : hsorted h -> hsorted (hins e h).
Proof.
  unfold hsorted. induction h as [|y h IH]; intros H; simpl.
  - constructor; constructor.
  - inversion H as [|? ? Hs Hf]; subst. destruct (ltb e y) eqn:L.
    + apply ltb_true in L. constructor; [exact H|]. constructor; [exact L|].
      eapply Forall_impl; [|exact Hf]. intros z Hz. unfold hle in *. lia.
    + apply ltb_false in L. constructor; [apply IH; exact Hs|]. rewrite Forall_forall in *. intros z Hz.
      apply hins_In in Hz. destruct Hz as [->|Hz]; [exact L | apply Hf; exact Hz].
Qed.
End Insert.

Definition mono (dist dist' : list (option Z)) : Prop :=
  forall x dx, nth x dist None = Some dx -> exists dx', nth x dist' None = Some dx' /\ (dx' <= dx)%Z.

Lemma mono_refl dist : mono dist dist.
Proof. intros x dx H. exists dx. split; [exact H | apply Z.le_refl]. Qed.

Lemma mono_trans a b c : mono a b -> mono b c -> mono a c.
Proof.
  intros Hab Hbc x dx H. destruct (Hab _ _ H) as [d1 [H1 L1]]. destruct (Hbc _ _ H1) as [d2 [H2 L2]].
  exists d2. split; [exact H2|lia].
Qed.

Section Core.
Variable n : nat.
Variable edges : wgraph.
Variable source : nat.
Hypothesis HV : evalidP n edges.
Local Open Scope Z_scope.

(* S: the settled nodes (ghost), whose entries are final; D (a part of S): those whose out-edges are all relaxed.
   Between two pops D = S; while the out-edges of the popped node u are scanned, S = u :: D. *)
Record dinv (S D : list nat) (dist : list (option Z)) (heap : list (Z * nat)) : Prop := {
  d_walk : forall v d, nth v dist None = Some d -> exists p, walk edges source v p d;
  d_src : nth source dist None = Some 0;
  d_len : length dist = n;
  d_DS : incl D S;
  d_fin : forall u, In u S -> exists d, nth u dist None = Some d /\ forall p d', walk edges source u p d' -> d <= d';
  d_edge : forall u v w du, In u D -> In (u, v, w) edges -> nth u dist None = Some du ->
             exists dv, nth v dist None = Some dv /\ dv <= du + w;
  (* every finite entry of an unsettled node is on the heap, and no heap entry is below the entry of its node *)
  d_heap : forall v d, ~ In v S -> nth v dist None = Some d -> In (d, v) heap;
  d_ub : forall c v, In (c, v) heap -> (v < n)%nat /\ exists d, nth v dist None = Some d /\ d <= c;
  d_sorted : hsorted heap
}.

Lemma dinv_init : (source < n)%nat -> dinv [] [] (set_nth source (Some 0) (repeat None n)) [(0, source)].
Proof.
  intros Hs.
  assert (H0 : forall v d, nth v (set_nth source (Some 0) (repeat None n)) None = Some d -> v = source /\ d = 0).
  { intros v d. rewrite start_nth by exact Hs. destruct (Nat.eqb_spec source v) as [<-|_]; [|discriminate].
    intros H. injection H as <-. auto. }
  constructor.
  - intros v d H. apply H0 in H. destruct H as [-> ->]. exists [source]. apply walk_nil.
  - rewrite start_nth, Nat.eqb_refl by exact Hs. reflexivity.
  - rewrite length_set_nth. apply repeat_length.
  - apply incl_refl.
  - intros u [].
  - intros u v w du [].
  - intros v d _ H. apply H0 in H. destruct H as [-> ->]. left. reflexivity.
  - intros c v [H|[]]. inversion H; subst. split; [exact Hs|]. exists 0. split; [|apply Z.le_refl].
    rewrite start_nth, Nat.eqb_refl by exact Hs. reflexivity.
  - constructor; constructor.
Qed.

Section Improve.
Variable ltb : Z * nat -> Z * nat -> bool.
Hypothesis ltb_true : forall a b, ltb a b = true -> fst a <= fst b.
Hypothesis ltb_false : forall a b, ltb a b = false -> fst b <= fst a.

(* The improved node is neither settled (its entry would be final) nor the source nor u (weights are >= 0). *)
Lemma dinv_improve S D dist heap u d v w :
  dinv S D dist heap -> nth u dist None = Some d -> In (u, v, w) edges ->
  flt (Some (d + w)) (nth v dist None) = true ->
  let dist' := set_nth v (Some (d + w)) dist in
  dinv S D dist' (hins ltb (d + w, v) heap) /\ mono dist dist' /\ ~ In v S /\ v <> source /\ v <> u.
Proof.
  intros I Hu Hin F dist'.
  destruct (edge_lt _ _ _ _ _ HV Hin) as [_ [Hvn Hw0]].
  destruct (d_walk _ _ _ _ I _ _ Hu) as [pu Wu].
  pose proof (walk_nonneg _ _ HV _ _ _ _ Wu) as Hd0.
  assert (Wv : walk edges source v (pu ++ [v]) (d + w)) by (eapply walk_snoc; eassumption).
  assert (Hnth : forall x, nth x dist' None = if Nat.eqb v x then Some (d + w) else nth x dist None).
  { intros x. apply nth_set_nth. rewrite (d_len _ _ _ _ I). exact Hvn. }
  pose proof (flt_Some_true _ _ F) as Hlt.
  assert (HvS : ~ In v S).
  { intros HvS. destruct (d_fin _ _ _ _ I _ HvS) as [dv [Hdv Hmin]].
    specialize (Hmin _ _ Wv). specialize (Hlt _ Hdv). lia. }
  assert (Hvs : v <> source) by (intros ->; specialize (Hlt _ (d_src _ _ _ _ I)); lia).
  assert (Hvu : v <> u) by (intros ->; specialize (Hlt _ Hu); lia).
  assert (Hmono : mono dist dist').
  { intros x dx Hx. rewrite Hnth. destruct (Nat.eqb_spec v x) as [<-|_].
    - exists (d + w). split; [reflexivity|]. specialize (Hlt _ Hx). lia.
    - exists dx. split; [exact Hx | apply Z.le_refl]. }
  split; [|auto]. constructor.
  - intros x dx. rewrite Hnth. destruct (Nat.eqb_spec v x) as [<-|_]; [|apply (d_walk _ _ _ _ I)].
    intros H. injection H as <-. exists (pu ++ [v]). exact Wv.
  - rewrite Hnth. destruct (Nat.eqb_spec v source); [contradiction | apply (d_src _ _ _ _ I)].
  - unfold dist'. rewrite length_set_nth. apply (d_len _ _ _ _ I).
  - apply (d_DS _ _ _ _ I).
  - intros x Hx. rewrite Hnth. destruct (Nat.eqb_spec v x) as [<-|_]; [contradiction | apply (d_fin _ _ _ _ I); exact Hx].
  - intros x y wy dx Hx Hxy. rewrite (Hnth x).
    destruct (Nat.eqb_spec v x) as [<-|_]; [exfalso; apply HvS, (d_DS _ _ _ _ I), Hx|]. intros Hdx.
    destruct (d_edge _ _ _ _ I _ _ _ _ Hx Hxy Hdx) as [dy [Hdy Ly]].
    destruct (Hmono _ _ Hdy) as [dy' [Hdy' Ly']]. exists dy'. split; [exact Hdy'|lia].
  - intros x dx HxS. rewrite Hnth, (hins_In ltb). destruct (Nat.eqb_spec v x) as [<-|_]; intros Hx.
    + injection Hx as <-. left. reflexivity.
    + right. apply (d_heap _ _ _ _ I); assumption.
  - intros c x Hcx. apply (hins_In ltb) in Hcx. destruct Hcx as [Hcx|Hcx].
    + injection Hcx as -> ->. split; [exact Hvn|]. exists (d + w). rewrite Hnth, Nat.eqb_refl. split; [reflexivity | apply Z.le_refl].
    + destruct (d_ub _ _ _ _ I _ _ Hcx) as [Hxn [dx [Hdx Lx]]]. split; [exact Hxn|].
      destruct (Hmono _ _ Hdx) as [dx' [Hdx' Lx']]. exists dx'. split; [exact Hdx'|lia].
  - apply hins_sorted; [exact ltb_true | exact ltb_false | apply (d_sorted _ _ _ _ I)].
Qed.
End Improve.

(* Whatever the state x is made of: if one step keeps I, lowers entries only and leaves the head of its edge relaxed
   from u (entry d), then after the fold every edge of the list is relaxed from u.  (I says that the entry of u is d.) *)
Section RelaxFold.
Context {X : Type}.
Variable I : X -> Prop.
Variable dist : X -> list (option Z).
Variable heap : X -> list (Z * nat).
Variable step : X -> nat * Z -> X.
Variable u : nat.
Variable d : Z.
Hypothesis Hstep : forall x v w, I x -> In (u, v, w) edges ->
  I (step x (v, w)) /\ mono (dist x) (dist (step x (v, w))) /\
  (exists dv, nth v (dist (step x (v, w))) None = Some dv /\ dv <= d + w) /\
  (length (heap (step x (v, w))) <= S (length (heap x)))%nat.

Lemma relax_fold : forall l x, (forall v w, In (v, w) l -> In (u, v, w) edges) -> I x ->
  let x' := fold_left step l x in
  I x' /\ mono (dist x) (dist x') /\
  (forall v w, In (v, w) l -> exists dv, nth v (dist x') None = Some dv /\ dv <= d + w) /\
  (length (heap x') <= length l + length (heap x))%nat.
Proof.
  induction l as [|[v w] l IH]; intros x Hl Hx; cbn [fold_left].
  - split; [exact Hx|]. split; [apply mono_refl|]. split; [intros v w []|simpl; lia].
  - destruct (Hstep x v w Hx (Hl v w (or_introl eq_refl))) as [Hx1 [M1 [[dv [Hdv Lv]] Hlen1]]].
    destruct (IH (step x (v, w)) (fun v0 w0 H0 => Hl v0 w0 (or_intror H0)) Hx1) as [Hx2 [M2 [Hall Hlen2]]].
    split; [exact Hx2|]. split; [eapply mono_trans; eassumption|]. split; [|simpl; lia].
    intros v0 w0 [H0|H0]; [|apply Hall; exact H0].
    injection H0 as <- <-. destruct (M2 _ _ Hdv) as [dv' [Hdv' Lv']]. exists dv'. split; [exact Hdv'|lia].
Qed.
End RelaxFold.

Lemma dinv_expanded S u d dist heap : dinv (u :: S) S dist heap -> nth u dist None = Some d ->
  (forall v w, In (u, v, w) edges -> exists dv, nth v dist None = Some dv /\ dv <= d + w) ->
  dinv (u :: S) (u :: S) dist heap.
Proof.
  intros I Hu Hall. destruct I as [I1 I2 I3 I4 I5 I6 I7 I8 I9]. constructor; try assumption; [apply incl_refl|].
  (* left: d_DS, d_edge *)
  intros x v w dx [<-|Hx] Hxv Hdx; [|eapply I6; eassumption].
  rewrite Hu in Hdx. injection Hdx as <-. apply Hall. exact Hxv.
Qed.

(* A walk that leaves S passes, right after its last settled node, a node that is not settled and whose entry is at
   most the weight walked so far: the out-edges of settled nodes are relaxed, and weights are >= 0. *)
Lemma escape S dist heap : dinv S S dist heap ->
  forall x t p c, walk edges x t p c -> In x S -> ~ In t S -> forall dx, nth x dist None = Some dx ->
  exists z dz, ~ In z S /\ nth z dist None = Some dz /\ dz <= dx + c.
Proof.
  intros I x t p c W. induction W as [u|u v t p w d Hin Hw IH]; intros HxS HtS dx Hdx; [contradiction|].
  destruct (d_edge _ _ _ _ I u v w dx HxS Hin Hdx) as [dv [Hdv Lv]].
  destruct (in_dec Nat.eq_dec v S) as [HvS|HvS].
  - destruct (IH HvS HtS dv Hdv) as (z & dz & Hz & Hdz & Lz). exists z, dz. split; [exact Hz|]. split; [exact Hdz|lia].
  - pose proof (walk_nonneg _ _ HV _ _ _ _ Hw). exists v, dv. split; [exact HvS|]. split; [exact Hdv|lia].
Qed.

Lemma dinv_pop S S' dist d u rest : dinv S S dist ((d, u) :: rest) -> incl S S' ->
  (forall x, In x S' -> exists dx, nth x dist None = Some dx /\ forall p d', walk edges source x p d' -> dx <= d') ->
  In u S' \/ nth u dist None <> Some d -> dinv S' S dist rest.
Proof.
  intros [I1 I2 I3 I4 I5 I6 I7 I8 I9] Hincl Hfin Hor.
  constructor; try assumption.   (* d_DS and d_fin are hypotheses; left: d_heap, d_ub, d_sorted *)
  - intros v dv HvS Hdv. destruct (I7 v dv (fun Hi => HvS (Hincl _ Hi)) Hdv) as [Heq|Hin]; [|exact Hin].
    injection Heq as -> ->. destruct Hor; contradiction.
  - intros c v Hin. apply I8. right. exact Hin.
  - eapply hsorted_tail. exact I9.
Qed.

Lemma dinv_drop S dist d u rest :
  dinv S S dist ((d, u) :: rest) -> In u S \/ nth u dist None <> Some d -> dinv S S dist rest.
Proof. intros I. apply (dinv_pop S S); [exact I | apply incl_refl | apply (d_fin _ _ _ _ I)]. Qed.

Lemma head_current S D dist c u rest : dinv S D dist ((c, u) :: rest) -> ~ In u S -> nth u dist None = Some c.
Proof.
  intros I HuS. destruct (d_ub _ _ _ _ I c u (or_introl eq_refl)) as [_ [d [Hd Hle]]].
  pose proof (hsorted_min _ _ _ (d_sorted _ _ _ _ I) _ _ (d_heap _ _ _ _ I u d HuS Hd)). rewrite Hd. f_equal. lia.
Qed.

(* the head entry of an unsettled node is final: by `escape`, every walk to it weighs at least some heap entry *)
Lemma dinv_settle S dist d u rest : dinv S S dist ((d, u) :: rest) -> ~ In u S -> dinv (u :: S) S dist rest.
Proof.
  intros I HuS. pose proof (head_current _ _ _ _ _ _ I HuS) as Hu.
  assert (Hmin : forall p d', walk edges source u p d' -> d <= d').
  { intros p d' W. destruct (in_dec Nat.eq_dec source S) as [HsS|HsS].
    - destruct (escape S _ _ I _ _ _ _ W HsS HuS 0 (d_src _ _ _ _ I)) as (z & dz & Hz & Hdz & Lz).
      pose proof (hsorted_min _ _ _ (d_sorted _ _ _ _ I) _ _ (d_heap _ _ _ _ I z dz Hz Hdz)). lia.
    - pose proof (hsorted_min _ _ _ (d_sorted _ _ _ _ I) _ _ (d_heap _ _ _ _ I source 0 HsS (d_src _ _ _ _ I))).
      pose proof (walk_nonneg _ _ HV _ _ _ _ W). lia. }
  apply (dinv_pop S (u :: S) _ _ _ _ I); [apply incl_tl, incl_refl | | left; left; reflexivity].
  intros x [<-|Hx]; [exists d; split; assumption | apply (d_fin _ _ _ _ I); exact Hx].
Qed.

(* what dijkstra_edges reports without a target: the shortest-walk distance of every reachable node, inf for the others *)
Definition dists_ok (dv : list (option Z)) : Prop :=
  length dv = n /\
  forall v, (v < n)%nat -> match nth v dv None with
                           | Some d => is_dist edges source v d
                           | None => ~ reachable edges source v
                           end.

Lemma dinv_final S dist : dinv S S dist [] ->
  forall v, match nth v dist None with
            | Some d => In v S /\ is_dist edges source v d
            | None => ~ reachable edges source v
            end.
Proof.
  intros I v.
  assert (Hall : forall x dx, nth x dist None = Some dx -> In x S).
  { intros x dx Hx. destruct (in_dec Nat.eq_dec x S) as [Hi|Hi]; [exact Hi|]. destruct (d_heap _ _ _ _ I x dx Hi Hx). }
  destruct (nth v dist None) as [d|] eqn:Ev.
  - split; [exact (Hall _ _ Ev)|]. split; [apply (d_walk _ _ _ _ I); exact Ev|].
    destruct (d_fin _ _ _ _ I v (Hall _ _ Ev)) as [d0 [Hd0 Hm]]. rewrite Ev in Hd0. injection Hd0 as <-. exact Hm.
  - intros [p [c W]].
    assert (HvS : ~ In v S) by (intros Hi; destruct (d_fin _ _ _ _ I v Hi) as [d0 [Hd0 _]]; congruence).
    destruct (escape S _ _ I _ _ _ _ W (Hall _ _ (d_src _ _ _ _ I)) HvS 0 (d_src _ _ _ _ I)) as (z & dz & Hz & Hdz & _).
    exact (Hz (Hall _ _ Hdz)).
Qed.

Lemma dinv_final_dists S dist : dinv S S dist [] -> dists_ok dist.
Proof.
  intros I. split; [apply (d_len _ _ _ _ I)|]. intros v _. pose proof (dinv_final S dist I v) as H.
  destruct (nth v dist None); [exact (proj2 H) | exact H].
Qed.

Lemma dists_ok_unique dv dv' : dists_ok dv -> dists_ok dv' -> dv = dv'.
Proof.
  intros [L H] [L' H']. apply (nth_ext _ _ None None); [congruence|]. intros v Hv. rewrite L in Hv.
  specialize (H v Hv). specialize (H' v Hv).
  destruct (nth v dv None) as [d|], (nth v dv' None) as [d'|]; try reflexivity.
  - f_equal. eapply is_dist_unique; eassumption.
  - exfalso. apply H'. eapply is_dist_reachable. exact H.
  - exfalso. apply H. eapply is_dist_reachable. exact H'.
Qed.

(* what dijkstra_edges reports for a target t *)
Definition target_ok (t : nat) (r : option RsDij.result) : Prop :=
  (exists p d, r = Some (RsDij.Path p d) /\ walk edges source t p d /\ is_dist edges source t d)
  \/ (r = Some RsDij.Infeasible /\ ~ reachable edges source t).

End Core.
