(* C12_kruskal: the Rust-side model of kruskal (UnionFind + loop + adapter) and the Python-side model SV.C13.Mst.kruskal
   return the same status, the same edge list and the same total weight on every valid input, and neither runs out
   of fuel.  The two union-finds are the same algorithm (union by rank, path compression, same tie rule), the
   edge order is the same stable sort, so the accepted edges coincide one by one. *)
From Coq Require Import List Arith ZArith Bool Lia.
From SV Require Import C20.UF C20.UFUnion C20.UFProofs C13.Mst C12.RsKruskal.
Import ListNotations.

(* the Rust struct has the parent and rank vectors of the Python object (which also keeps a component count) *)
Definition ruf_of (u : uf) : RsKruskal.ruf := {| RsKruskal.parent := UF.parent u; RsKruskal.rank := UF.rank u |}.

Lemma find_eq : forall fuel p x, RsKruskal.find fuel p x = UF.find fuel p x.
Proof.
  induction fuel as [|f IH]; intros p x; simpl; [reflexivity|].
  destruct (nth x p x =? x); simpl; [reflexivity|]. rewrite IH. reflexivity.
Qed.

Lemma union_eq u x y :
  RsKruskal.union (ruf_of u) x y
  = match UF.union u x y with Some (u', b) => Some (ruf_of u', b) | None => None end.
Proof.
  unfold UF.union, RsKruskal.union, fuel_of. cbn [ruf_of RsKruskal.parent RsKruskal.rank]. rewrite find_eq.
  destruct (UF.find (S (length (UF.parent u))) (UF.parent u) x) as [[p1 rx]|]; [|reflexivity].
  rewrite find_eq.
  destruct (UF.find (S (length (UF.parent u))) p1 y) as [[p2 ry]|]; [|reflexivity].
  destruct (rx =? ry); [reflexivity|].
  (* Python swaps the roots so that the first has the larger rank and bumps it on a tie: Rust's three-way compare *)
  rewrite Nat.ltb_compare. destruct (nth rx (UF.rank u) 0 ?= nth ry (UF.rank u) 0) eqn:E; cbv iota beta.
  - rewrite Nat.eqb_compare, E. reflexivity.
  - rewrite Nat.eqb_compare, Nat.compare_antisym, E. reflexivity.
  - rewrite Nat.eqb_compare, E. reflexivity.
Qed.

Definition drop_iters (o : option (list edge * Z * nat)) : option (list edge * Z) :=
  match o with Some (a, t, _) => Some (a, t) | None => None end.

Lemma loop_eq n : forall es u acc tot it,
  RsKruskal.loop n (ruf_of u) es acc tot = drop_iters (kruskal_loop n u es acc tot it).
Proof.
  induction es as [|e es IH]; intros u acc tot it; simpl; [reflexivity|].
  rewrite union_eq. destruct (UF.union u (eu e) (ev e)) as [[u' [|]]|]; [| apply IH | reflexivity].
  destruct (length (acc ++ [e]) =? n - 1); [reflexivity | apply IH].
Qed.

(* the Python-side loop never fails and never collects more than n-1 edges *)
Lemma loop_ok n : forall es pre u acc tot it,
  SInv n pre u -> Forall (fun e => eu e < n /\ ev e < n) es ->
  (length acc < n - 1 \/ (n = 1 /\ acc = [])) ->
  exists acc' tot' it', kruskal_loop n u es acc tot it = Some (acc', tot', it') /\
                        (length acc' <= n - 1).
Proof.
  induction es as [|e es IH]; intros pre u acc tot it HS HF Hacc; simpl.
  - exists acc, tot, it. split; [reflexivity|]. destruct Hacc as [H|[H1 H2]]; [lia|]. subst; simpl; lia.
  - inversion HF as [|? ? [Hu Hv] HF']; subst.
    destruct (union_ok n pre u (eu e) (ev e) HS Hu Hv) as (u' & b & HU & Hb & HS').
    rewrite HU. destruct b.
    + destruct Hacc as [Hlt|[Hn1 Hnil]].
      * destruct (Nat.eqb_spec (length (acc ++ [e])) (n - 1)) as [E|E].
        -- do 3 eexists. split; [reflexivity|]. lia.
        -- apply (IH (pre ++ [(eu e, ev e)])); auto. left. rewrite app_length in *. simpl in *. lia.
      * exfalso. subst n. assert (eu e = 0) by lia. assert (ev e = 0) by lia.
        destruct Hb as [Hb _]. apply Hb; [reflexivity|]. rewrite H, H0. apply joined_refl.
    + apply (IH (pre ++ [(eu e, ev e)])); auto.
Qed.

Lemma Forall_sort_edges (P : edge -> Prop) l : Forall P l -> Forall P (sort_edges l).
Proof.
  induction 1 as [|e l He _ IH]; simpl; [constructor|]. fold (sort_edges l).
  induction IH as [|y s Hy Hs IHs]; simpl; [repeat constructor; exact He|].
  destruct (ew e <=? ew y)%Z; repeat constructor; assumption.
Qed.

Lemma valid_forall n edges : kruskal_valid n edges = true ->
  1 <= n /\ Forall (fun e => eu e < n /\ ev e < n) (sort_edges edges).
Proof.
  unfold kruskal_valid. intros H. apply andb_true_iff in H. destruct H as [H1 H2].
  split; [apply Nat.leb_le; exact H1|]. apply Forall_sort_edges, Forall_forall. intros e He.
  apply (proj1 (forallb_forall _ _) H2), andb_true_iff in He. destruct He as [A B].
  split; apply Nat.ltb_lt; assumption.
Qed.

Lemma kernel_pos n edges : 1 <= n ->
  RsKruskal.kernel n edges =
  match RsKruskal.loop n (RsKruskal.uf_new n) (sort_edges edges) [] 0%Z with
  | None => None
  | Some (acc, tot) => Some (acc, tot, length acc =? n - 1)
  end.
Proof. destruct n; [lia | reflexivity]. Qed.

Theorem kruskal_equiv : forall n edges allow_forest, kruskal_valid n edges = true ->
  RsKruskal.kruskal n edges allow_forest = RsKruskal.py_kruskal n edges allow_forest /\
  exists o, RsKruskal.py_kruskal n edges allow_forest = Some o.
Proof.
  intros n edges allow HV. destruct (valid_forall n edges HV) as [Hn HF].
  unfold RsKruskal.py_kruskal, Mst.kruskal, RsKruskal.kruskal, kruskal_core. rewrite HV.
  rewrite kernel_pos by assumption.
  change (RsKruskal.uf_new n) with (ruf_of (uf_init n)).
  rewrite (loop_eq n (sort_edges edges) (uf_init n) [] 0%Z 0).
  assert (Hacc0 : length (@nil edge) < n - 1 \/ (n = 1 /\ @nil edge = [])).
  { destruct (Nat.eq_dec n 1); [right; auto | left; simpl; lia]. }
  destruct (loop_ok n (sort_edges edges) [] _ [] 0%Z 0 (init_SInv n) HF Hacc0)
    as (acc & tot & it & HL & Hlen).
  rewrite HL. cbn [drop_iters]. unfold kruskal_result.
  split.
  - destruct (Nat.ltb_spec (length acc) (n - 1)) as [Hlt|Hge].
    + assert (E : (length acc =? n - 1) = false) by (apply Nat.eqb_neq; lia). rewrite E.
      destruct allow; reflexivity.
    + assert (E : (length acc =? n - 1) = true) by (apply Nat.eqb_eq; lia). rewrite E. reflexivity.
  - eexists; reflexivity.
Qed.
