(* C12_topo: the Rust-side model of topological_sort_edges (Kahn with a STACK, rust/src/algorithms/scc.rs) and the
   Python-side model SV.C14.Scc.topo_edges (Kahn with a FIFO queue) either both return a valid topological order
   of the same graph (not necessarily the same one) or both report INFEASIBLE; neither runs out of fuel.

   The Python side is C14's theorem (Main.topo_edges_spec).  The Rust side is proved here by simulation: one
   `release` sweep computes the same in-degrees and the same SET of newly released nodes as C14's `relax`, and
   C14's loop invariant `kinv` only sees the work list as a set, so `kinv_step` transfers.
   The graph of an edge list (out_of, evalid) and the facts about the Rust adjacency builder are those of BfsEquiv:
   bfs.rs and scc.rs have the same build_adjacency. *)
From Coq Require Import List Arith ZArith Bool Lia Permutation.
From SV Require Import C12.BfsEquiv.
From SV Require Import C14.Scc C14.SccSpec C14.SccLemmas C14.KahnProofs C14.TopoProofs C14.Main C12.RsScc.
Import ListNotations.

Definition absd (deg : list nat) (dz : list (nat * Z)) : Prop :=
  forall w, zget dz w = Z.of_nat (nth w deg 0).

(* array writes: the lemmas of BfsEquiv for RsSearch.set_nth apply to RsScc.set_nth, the same fixpoint *)
Lemma release_sim n ws : forall deg q dz qz deg' q' dz' qz',
  absd deg dz -> Permutation q qz -> length deg = n ->
  (forall w, In w ws -> w < n) ->
  (forall w, (cnt ws w <= zget dz w)%Z) ->
  fold_left RsScc.release ws (deg, q) = (deg', q') ->
  relax ws dz qz = (dz', qz') ->
  absd deg' dz' /\ Permutation q' qz' /\ length deg' = n.
Proof.
  induction ws as [|a r IH]; intros deg q dz qz deg' q' dz' qz' Habs Hperm Hlen Hlt Hge Hrs Hpy; simpl in *.
  - inversion Hrs; inversion Hpy; subst. auto.
  - assert (Ha : a < length deg) by (rewrite Hlen; apply Hlt; left; reflexivity).
    (* a is a successor of the popped node, so its remaining in-degree is positive: pred on nat is -1 on Z *)
    assert (Hd : Z.of_nat (Nat.pred (nth a deg 0)) = (zget dz a - 1)%Z).
    { specialize (Hge a). rewrite cnt_cons, Nat.eqb_refl in Hge. pose proof (cnt_nonneg r a). pose proof (Habs a). lia. }
    set (d := Nat.pred (nth a deg 0)) in *.
    set (deg1 := RsScc.set_nth a d deg) in *.
    set (dz1 := aset dz a (zget dz a - 1)%Z) in *.
    assert (Habs1 : absd deg1 dz1).
    { intros w. unfold zget, dz1, deg1. destruct (Nat.eq_dec a w) as [->|Hn].
      - rewrite agetd_aset_eq, nth_set_nth_eq by exact Ha. symmetry. exact Hd.
      - rewrite agetd_aset_neq, nth_set_nth_neq by exact Hn. apply Habs. }
    assert (Hlen1 : length deg1 = n) by (unfold deg1; rewrite length_set_nth; exact Hlen).
    assert (Hlt1 : forall w, In w r -> w < n) by (intros w Hw; apply Hlt; right; exact Hw).
    assert (Hge1 : forall w, (cnt r w <= zget dz1 w)%Z).
    { intros w. specialize (Hge w). rewrite cnt_cons in Hge. unfold zget, dz1.
      destruct (Nat.eqb_spec a w) as [->|Hn].
      - rewrite agetd_aset_eq. fold (zget dz w) in *. lia.
      - rewrite agetd_aset_neq by exact Hn. exact Hge. }
    assert (Hz : (d =? 0) = ((zget dz a - 1) =? 0)%Z) by (rewrite <- Hd; destruct d; reflexivity).
    rewrite Hz in Hrs. destruct ((zget dz a - 1) =? 0)%Z.
    + apply (IH deg1 (a :: q) dz1 (qz ++ [a]) deg' q' dz' qz'); try assumption.
      apply Permutation_cons_app. rewrite app_nil_r. exact Hperm.
    + apply (IH deg1 q dz1 qz deg' q' dz' qz'); assumption.
Qed.

Lemma kinv_perm g nodes dz q q' res : kinv g nodes dz q res -> Permutation q q' -> kinv g nodes dz q' res.
Proof.
  intros [I1 I2 I3 I4 I5] HP.
  assert (HPP : Permutation (res ++ q) (res ++ q')) by (apply Permutation_app_head; exact HP).
  constructor; try assumption.   (* ki_deg and ki_fwd do not mention the queue; left: ki_nodup, ki_incl, ki_zero *)
  - eapply Permutation_NoDup; eassumption.
  - intros w Hw. apply I2. eapply Permutation_in; [apply Permutation_sym; exact HPP | exact Hw].
  - intros w Hw. rewrite <- (I4 w Hw). split; apply Permutation_in; [apply Permutation_sym|]; exact HPP.
Qed.

Lemma rs_loop_inv g nodes (a : list (list nat)) n :
  NoDup nodes -> (forall v, In v nodes <-> v < n) ->
  (forall v, In v nodes -> nth v a [] = adjf g nodes v) ->
  forall fuel deg dz queue order,
    length deg = n -> absd deg dz ->
    kinv g nodes dz queue order -> length nodes < fuel + length order ->
    exists res dz', RsScc.kahn_loop fuel a deg queue order = Some res /\ kinv g nodes dz' [] res.
Proof.
  intros Hnd Hnodes Hadj. induction fuel as [|f IH]; intros deg dz queue order Hlen Habs Hinv Hfuel.
  - destruct queue as [|v q].
    + exists order, dz. split; [reflexivity | exact Hinv].
    + exfalso. destruct Hinv as [I1 I2 _ _ _].
      pose proof (NoDup_incl_length I1 I2) as Hl. rewrite app_length in Hl. simpl in Hl, Hfuel. lia.
  - destruct queue as [|v q].
    + exists order, dz. split; [reflexivity | exact Hinv].
    + simpl.
      assert (Hv : In v nodes).
      { apply (ki_incl _ _ _ _ _ Hinv). apply in_or_app. right. left. reflexivity. }
      assert (HvR : ~ In v order).
      { pose proof (ki_nodup _ _ _ _ _ Hinv) as I1. apply NoDup_remove_2 in I1.
        intros H. apply I1. apply in_or_app. left. exact H. }
      rewrite (Hadj v Hv).
      destruct (fold_left RsScc.release (adjf g nodes v) (deg, q)) as [deg' q'] eqn:Ers.
      destruct (relax (adjf g nodes v) dz q) as [dz' qz'] eqn:Epy.
      assert (Hge : forall w, (cnt (adjf g nodes v) w <= zget dz w)%Z).
      { intros w. rewrite (ki_deg _ _ _ _ _ Hinv). apply indeg_rem_ge; assumption. }
      assert (Hlt : forall w, In w (adjf g nodes v) -> w < n).
      { intros w Hw. apply filter_In in Hw. destruct Hw as [_ Hw]. apply mem_In in Hw. apply Hnodes. exact Hw. }
      destruct (release_sim n _ deg q dz q deg' q' dz' qz' Habs (Permutation_refl q) Hlen Hlt Hge Ers Epy)
        as [Habs' [Hperm Hlen']].
      apply (IH deg' dz' q' (order ++ [v])).
      * exact Hlen'.
      * exact Habs'.
      * apply (kinv_perm g nodes dz' qz' q'); [eapply kinv_step; eassumption | apply Permutation_sym; exact Hperm].
      * rewrite app_length. simpl. lia.
Qed.

(* scc.rs and bfs.rs build their adjacency lists by the same code: the two models are convertible *)
Lemma scc_rs_adj n edges u : u < n -> evalid n edges -> nth u (RsScc.build_adjacency n edges) [] = out_of edges u.
Proof. exact (rs_adj n edges u). Qed.

Lemma rs_adj_length n edges : length (RsScc.build_adjacency n edges) = n.
Proof. exact (build_adjacency_length n edges). Qed.

Lemma py_nbr_fold u : forall edges g,
  nbr (fold_left (fun g e => aset g (fst e) (agetd [] g (fst e) ++ [snd e])) edges g) u = nbr g u ++ out_of edges u.
Proof.
  induction edges as [|e l IH]; intros g; simpl.
  - now rewrite app_nil_r.
  - rewrite IH. unfold out_of. simpl. unfold nbr. destruct (Nat.eqb_spec (fst e) u) as [E|E].
    + subst u. rewrite agetd_aset_eq. simpl. now rewrite <- app_assoc.
    + rewrite agetd_aset_neq by exact E. reflexivity.
Qed.

Lemma py_nbr n edges u : nbr (graph_of_edges n edges) u = out_of edges u.
Proof. unfold graph_of_edges. rewrite py_nbr_fold. unfold nbr. now rewrite agetd_init_map. Qed.

Lemma adj_agree n edges u : u < n -> evalid n edges ->
  nth u (RsScc.build_adjacency n edges) [] = adjf (graph_of_edges n edges) (seq 0 n) u.
Proof.
  intros Hu HV. rewrite scc_rs_adj by assumption. unfold adjf. rewrite py_nbr.
  symmetry. apply filter_all. intros w Hw. apply mem_In. apply in_seq.
  pose proof (out_of_lt n edges u w HV Hw). lia.
Qed.

(* in_degree[v] += 1 *)
Definition bump (d : list nat) (v : nat) : list nat := RsScc.set_nth v (S (nth v d 0)) d.

Lemma inc_fold ns : forall d, (forall x, In x ns -> x < length d) ->
  length (fold_left bump ns d) = length d /\
  forall w, Z.of_nat (nth w (fold_left bump ns d) 0) = (Z.of_nat (nth w d 0%nat) + cnt ns w)%Z.
Proof.
  induction ns as [|a r IH]; intros d Hlt; simpl.
  - split; [reflexivity|]. intros w. rewrite cnt_nil. lia.
  - assert (Ha : a < length d) by (apply Hlt; left; reflexivity).
    destruct (IH (bump d a)) as [H1 H2].
    { intros x Hx. unfold bump. rewrite length_set_nth. apply Hlt. right. exact Hx. }
    rewrite H1. unfold bump at 1. rewrite length_set_nth. split; [reflexivity|]. intros w. rewrite H2, cnt_cons.
    unfold bump. destruct (Nat.eqb_spec a w) as [->|E].
    + rewrite nth_set_nth_eq by exact Ha. lia.
    + rewrite nth_set_nth_neq by exact E. lia.
Qed.

Lemma indeg_fold (l : list (list nat)) : forall d, (forall ns x, In ns l -> In x ns -> x < length d) ->
  length (fold_left (fun d ns => fold_left bump ns d) l d) = length d /\
  forall w, Z.of_nat (nth w (fold_left (fun d ns => fold_left bump ns d) l d) 0)
            = (Z.of_nat (nth w d 0%nat) + sumz (map (fun ns => cnt ns w) l))%Z.
Proof.
  induction l as [|ns r IH]; intros d Hlt; simpl.
  - split; [reflexivity|]. intros w. lia.
  - destruct (inc_fold ns d) as [H1 H2]. { intros x Hx. apply (Hlt ns); [left; reflexivity | exact Hx]. }
    destruct (IH (fold_left bump ns d)) as [H3 H4].
    { intros ns' x Hn Hx. rewrite H1. apply (Hlt ns'); [right; exact Hn | exact Hx]. }
    rewrite H3, H1. split; [reflexivity|]. intros w. rewrite H4, H2. lia.
Qed.

Lemma in_degrees_spec n a : (forall ns x, In ns a -> In x ns -> x < n) ->
  length (RsScc.in_degrees n a) = n /\
  forall w, Z.of_nat (nth w (RsScc.in_degrees n a) 0) = sumz (map (fun ns => cnt ns w) a).
Proof.
  intros Hlt. destruct (indeg_fold a (repeat 0 n)) as [H1 H2]; [now rewrite repeat_length|].
  change (RsScc.in_degrees n a) with (fold_left (fun d ns => fold_left bump ns d) a (repeat 0 n)).
  rewrite H1, repeat_length. split; [reflexivity|].
  intros w. rewrite H2, nth_repeat. reflexivity.
Qed.

Lemma zget_tabulate (f : nat -> Z) l w : zget (map (fun i => (i, f i)) l) w = if mem w l then f w else 0%Z.
Proof.
  unfold zget, agetd, mem. induction l as [|a l IH]; simpl; [reflexivity|].
  rewrite (Nat.eqb_sym w a). destruct (Nat.eqb_spec a w) as [->|_]; [reflexivity | exact IH].
Qed.

Theorem rs_topo_spec n edges : evalid n edges ->
  exists out, RsScc.topo_edges n edges = Some out /\ topo_spec (graph_of_edges n edges) (seq 0 n) out.
Proof.
  intros HV. set (g := graph_of_edges n edges). set (nodes := seq 0 n).
  set (a := RsScc.build_adjacency n edges).
  assert (Hnd : NoDup nodes) by apply seq_NoDup.
  assert (Hnodes : forall v, In v nodes <-> v < n) by (intros v; unfold nodes; rewrite in_seq; lia).
  assert (Hnl : length nodes = n) by apply seq_length.
  assert (Hadj : forall v, In v nodes -> nth v a [] = adjf g nodes v).
  { intros v Hv. apply adj_agree; [apply Hnodes; exact Hv | exact HV]. }
  assert (Ha : a = map (adjf g nodes) nodes).
  { rewrite (list_as_map [] a). unfold a at 2. rewrite rs_adj_length. apply map_ext_in. exact Hadj. }
  destruct (in_degrees_spec n a) as [Hdeglen Hdeg].
  { intros ns x Hns Hx. rewrite Ha in Hns. apply in_map_iff in Hns. destruct Hns as [v [<- Hv]].
    apply filter_In in Hx. destruct Hx as [_ Hx]. apply mem_In in Hx. apply Hnodes. exact Hx. }
  set (deg := RsScc.in_degrees n a) in *.
  set (dz := map (fun i => (i, Z.of_nat (nth i deg 0))) nodes).
  assert (Habs : absd deg dz).
  { intros w. unfold dz. rewrite zget_tabulate. destruct (mem w nodes) eqn:E; [reflexivity|].
    apply mem_false in E. rewrite nth_overflow; [reflexivity|]. rewrite Hnodes in E. lia. }
  set (queue := rev (filter (fun v => nth v deg 0 =? 0) nodes)).
  assert (Hinv : kinv g nodes dz queue []).
  { constructor; simpl.
    - apply NoDup_rev, NoDup_filter, Hnd.
    - intros w Hw. apply in_rev, filter_In in Hw. exact (proj1 Hw).
    - intros w. rewrite Habs, Hdeg, Ha, map_map. reflexivity.
    - intros w Hw. unfold queue. rewrite Habs, <- in_rev, filter_In, Nat.eqb_eq. split; [lia | intros; split; [exact Hw | lia]].
    - intros u w _ []. }
  destruct (rs_loop_inv g nodes a n Hnd Hnodes Hadj (S n) deg dz queue [] Hdeglen Habs Hinv) as [res [dz' [Hr Hk]]].
  { simpl. lia. }
  unfold RsScc.topo_edges, RsScc.kahn. fold a deg nodes queue. rewrite Hr.
  eexists. split; [reflexivity|]. rewrite <- Hnl. exact (kinv_final g nodes dz' res Hnd Hk).
Qed.

Definition evalidb (n : nat) (edges : list (nat * nat)) : bool :=
  forallb (fun e => (fst e <? n) && (snd e <? n)) edges.

Lemma evalidb_evalid n edges : evalidb n edges = true -> evalid n edges.
Proof. exact (edge_okb_evalid n edges). Qed.

Theorem topo_equiv : forall n edges, evalidb n edges = true ->
  exists out_rs out_py,
    RsScc.topo_edges n edges = Some out_rs /\ Scc.topo_edges n edges = Some out_py /\
    topo_spec (graph_of_edges n edges) (seq 0 n) out_rs /\
    topo_spec (graph_of_edges n edges) (seq 0 n) out_py /\
    (out_rs = None <-> out_py = None).
Proof.
  intros n edges HV. apply evalidb_evalid in HV.
  destruct (rs_topo_spec n edges HV) as [o1 [H1 S1]].
  destruct (topo_edges_spec n edges) as [o2 [H2 [S2 _]]].
  exists o1, o2. repeat split; try assumption.
  - intros ->. destruct o2 as [ord|]; [|reflexivity]. exfalso.
    simpl in S1, S2. eapply topo_order_acyclic; eassumption.
  - intros ->. destruct o1 as [ord|]; [|reflexivity]. exfalso.
    simpl in S1, S2. eapply topo_order_acyclic; eassumption.
Qed.
