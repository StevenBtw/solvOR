(* C12_fw: the Rust-side model of floyd_warshall (adapter + kernel) and the Python-side model SV.C11.FloydWarshall
   compute the same result (distance matrix / UNBOUNDED) on every valid input.
   The k-i-j loops and the negative-cycle rule are literally the same function of the initial matrix; the work
   is the preprocessing: Python interleaves min-updates of (u,v) and (v,u) per edge, the adapter appends all
   reversed edges and the kernel keeps `w < dist[u][v]`. *)
From Coq Require Import List ZArith Bool Arith Lia Permutation.
From SV Require Import C11.Paths C11.FloydWarshall C12.RsShortest C12.BfsEquiv.
Import ListNotations.
Open Scope Z_scope.

Lemma set_nth_same {A} (i : nat) (d : A) l : FW.set_nth i (nth i l d) l = l.
Proof. revert i; induction l as [|h t IH]; intros [|i]; simpl; try reflexivity. now rewrite IH. Qed.

(* array writes: the lemmas of BfsEquiv for RsSearch.set_nth apply to FW.set_nth, the same fixpoint *)
Definition wf (n : nat) (m : FW.mat) : Prop := length m = n /\ forall i, (i < n)%nat -> length (nth i m []) = n.

Lemma get_eq m i j : RsFW.get m i j = FW.get m i j.
Proof. reflexivity. Qed.

Lemma set_eq m i j x : RsFW.set m i j x = FW.set m i j x.
Proof. reflexivity. Qed.

Lemma wf_set n m i j x : wf n m -> wf n (FW.set m i j x).
Proof.
  intros [HL HR]; split; unfold FW.set.
  - now rewrite length_set_nth.
  - intros k Hk. destruct (Nat.eq_dec i k) as [->|Hne].
    + rewrite nth_set_nth_eq by lia. rewrite length_set_nth. auto.
    + rewrite nth_set_nth_neq by assumption. auto.
Qed.

Lemma get_set n m i j x a b : wf n m -> (i < n)%nat -> (j < n)%nat ->
  FW.get (FW.set m i j x) a b = if Nat.eqb a i && Nat.eqb b j then x else FW.get m a b.
Proof.
  intros [HL HR] Hi Hj. unfold FW.get, FW.set.
  destruct (Nat.eqb_spec a i) as [->|Hai]; simpl.
  - rewrite nth_set_nth_eq by lia.
    destruct (Nat.eqb_spec b j) as [->|Hbj].
    + apply nth_set_nth_eq. rewrite HR; lia.
    + apply nth_set_nth_neq; congruence.
  - rewrite nth_set_nth_neq by congruence. reflexivity.
Qed.

Lemma set_get_same m i j : FW.set m i j (FW.get m i j) = m.
Proof. unfold FW.set, FW.get. rewrite set_nth_same. apply set_nth_same. Qed.

Lemma mat_ext n m m' : wf n m -> wf n m' ->
  (forall a b, (a < n)%nat -> (b < n)%nat -> FW.get m a b = FW.get m' a b) -> m = m'.
Proof.
  intros [HL HR] [HL' HR'] H. apply (nth_ext _ _ [] []); [congruence|].
  intros i Hi. apply (nth_ext _ _ None None).
  - rewrite HR, HR'; lia.
  - intros j Hj. apply H; [lia|]. rewrite HR in Hj; lia.
Qed.

Definition upd (m : FW.mat) (e : nat * nat * Z) : FW.mat :=
  let '(u, v, w) := e in FW.set m u v (FW.min_inf (FW.get m u v) w).

Lemma wf_upd n m e : wf n m -> wf n (upd m e).
Proof. destruct e as [[u v] w]. apply wf_set. Qed.

Lemma get_upd n m u v w a b : wf n m -> (u < n)%nat -> (v < n)%nat ->
  FW.get (upd m (u, v, w)) a b = if Nat.eqb a u && Nat.eqb b v then FW.min_inf (FW.get m a b) w else FW.get m a b.
Proof.
  intros Hwf Hu Hv. simpl. rewrite (get_set n) by assumption.
  destruct (Nat.eqb_spec a u) as [->|]; destruct (Nat.eqb_spec b v) as [->|]; reflexivity.
Qed.

Lemma min_inf_comm d w1 w2 : FW.min_inf (FW.min_inf d w1) w2 = FW.min_inf (FW.min_inf d w2) w1.
Proof. destruct d; simpl; f_equal; lia. Qed.

Definition eok (n : nat) (e : nat * nat * Z) : Prop := FW.edge_ok n e = true.

Lemma eok_lt n u v w : eok n (u, v, w) -> (u < n)%nat /\ (v < n)%nat.
Proof.
  unfold eok, FW.edge_ok. intros H. apply andb_true_iff in H. destruct H as [H1 H2].
  apply Nat.ltb_lt in H1. apply Nat.ltb_lt in H2. auto.
Qed.

Lemma upd_comm n m e1 e2 : wf n m -> eok n e1 -> eok n e2 -> upd (upd m e1) e2 = upd (upd m e2) e1.
Proof.
  intros Hwf H1 H2. destruct e1 as [[u1 v1] w1]. destruct e2 as [[u2 v2] w2].
  destruct (eok_lt _ _ _ _ H1) as [Hu1 Hv1]. destruct (eok_lt _ _ _ _ H2) as [Hu2 Hv2].
  apply (mat_ext n); [repeat apply wf_upd; assumption | repeat apply wf_upd; assumption |].
  intros a b Ha Hb.
  rewrite (get_upd n) by (try apply wf_upd; assumption).
  rewrite (get_upd n) by assumption.
  rewrite (get_upd n) by (try apply wf_upd; assumption).
  rewrite (get_upd n) by assumption.
  destruct (Nat.eqb a u1 && Nat.eqb b v1); destruct (Nat.eqb a u2 && Nat.eqb b v2); try reflexivity.
  apply min_inf_comm.
Qed.

Lemma wf_fold_upd n l : forall m, wf n m -> wf n (fold_left upd l m).
Proof. induction l as [|e l IH]; intros m H; simpl; auto. apply IH, wf_upd, H. Qed.

Lemma fold_upd_perm n l l' : Permutation l l' -> Forall (eok n) l ->
  forall m, wf n m -> fold_left upd l m = fold_left upd l' m.
Proof.
  induction 1 as [|x l l' HP IH|x y l|l l' l'' HP1 IH1 HP2 IH2]; intros HF m Hwf; simpl.
  - reflexivity.
  - inversion HF; subst. apply IH; [assumption|]. apply wf_upd, Hwf.
  - inversion HF as [|? ? Hy HF']; subst. inversion HF' as [|? ? Hx HF'']; subst.
    now rewrite (upd_comm n m y x).
  - rewrite IH1 by assumption. apply IH2; [|assumption].
    eapply Permutation_Forall; eassumption.
Qed.

Lemma wf_py_init n : wf n (FW.init n).
Proof.
  unfold FW.init; split.
  - now rewrite map_length, seq_length.
  - intros i Hi. rewrite nth_map_seq by lia. now rewrite map_length, seq_length.
Qed.

Lemma get_py_init n a b : (a < n)%nat -> (b < n)%nat ->
  FW.get (FW.init n) a b = if Nat.eqb a b then Some 0 else None.
Proof.
  intros Ha Hb. unfold FW.get, FW.init. rewrite nth_map_seq by lia. now rewrite nth_map_seq by lia.
Qed.

Definition blank (n : nat) : FW.mat := repeat (repeat None n) n.

Lemma wf_blank n : wf n (blank n).
Proof.
  split; [apply repeat_length|]. intros i Hi. unfold blank. rewrite nth_repeat_lt by lia. apply repeat_length.
Qed.

Lemma get_blank n a b : (a < n)%nat -> (b < n)%nat -> FW.get (blank n) a b = None.
Proof. intros Ha Hb. unfold FW.get, blank. rewrite nth_repeat_lt by lia. now apply nth_repeat_lt. Qed.

Lemma diag_fold n l : Forall (fun i => (i < n)%nat) l -> forall m, wf n m ->
  wf n (fold_left (fun m i => FW.set m i i (Some 0)) l m) /\
  forall a b, FW.get (fold_left (fun m i => FW.set m i i (Some 0)) l m) a b =
              if Nat.eqb a b && existsb (Nat.eqb a) l then Some 0 else FW.get m a b.
Proof.
  induction 1 as [|i l Hi HF IH]; intros m Hwf; simpl.
  - split; [assumption|]. intros a b. now rewrite andb_false_r.
  - destruct (IH (FW.set m i i (Some 0)) (wf_set n m i i _ Hwf)) as [Hw Hg].
    split; [assumption|]. intros a b. rewrite Hg. rewrite (get_set n) by assumption.
    destruct (Nat.eqb_spec a b) as [->|Hab]; simpl.
    + (* on the diagonal: set now or set later *)
      rewrite andb_diag. destruct (b =? i)%nat, (existsb (Nat.eqb b) l); reflexivity.
    + (* off the diagonal nothing is written *)
      destruct (Nat.eqb_spec a i) as [->|_]; [|reflexivity].
      destruct (Nat.eqb_spec b i) as [->|_]; [contradiction | reflexivity].
Qed.

Lemma seq_lt n : Forall (fun i => (i < n)%nat) (seq 0 n).
Proof. apply Forall_forall. intros i Hi. apply in_seq in Hi. lia. Qed.

Lemma rs_init_eq n : RsFW.init n = FW.init n.
Proof.
  unfold RsFW.init.
  rewrite (fold_left_ext_in _ (fun m i => FW.set m i i (Some 0))) by (intros; apply set_eq).
  destruct (diag_fold n (seq 0 n) (seq_lt n) (blank n) (wf_blank n)) as [Hw Hg].
  apply (mat_ext n); [exact Hw | apply wf_py_init |].
  intros a b Ha Hb. fold (blank n). rewrite Hg, get_py_init by assumption.
  destruct (Nat.eqb a b); simpl; [|now apply get_blank].
  assert (E : existsb (Nat.eqb a) (seq 0 n) = true).
  { apply existsb_exists. exists a. split; [apply in_seq; lia | apply Nat.eqb_refl]. }
  now rewrite E.
Qed.

Lemma rs_add_edge_upd n m e : eok n e -> RsFW.add_edge n m e = upd m e.
Proof.
  destruct e as [[u v] w]. intros H. destruct (eok_lt _ _ _ _ H) as [Hu Hv].
  unfold RsFW.add_edge, upd.
  apply Nat.ltb_lt in Hu. apply Nat.ltb_lt in Hv. rewrite Hu, Hv. simpl.
  change RsFW.get with FW.get. destruct (FW.get m u v) as [x|] eqn:E; simpl.
  - destruct (Z.ltb_spec w x) as [Hlt|Hge].
    + rewrite set_eq. f_equal. f_equal. lia.
    + replace (Z.min x w) with x by lia. rewrite <- E. symmetry. apply set_get_same.
  - apply set_eq.
Qed.

Lemma rs_fold_upd n l : Forall (eok n) l -> forall m, fold_left (RsFW.add_edge n) l m = fold_left upd l m.
Proof.
  induction 1 as [|e l He HF IH]; intros m; simpl; auto. rewrite rs_add_edge_upd by assumption. apply IH.
Qed.

Lemma py_fold_directed l : forall m, fold_left (FW.add_edge true) l m = fold_left upd l m.
Proof.
  induction l as [|[[u v] w] l IH]; intros m; simpl; auto.
Qed.

Lemma py_fold_undirected l : forall m,
  fold_left (FW.add_edge false) l m = fold_left upd (flat_map (fun e => [e; RsFW.swap_edge e]) l) m.
Proof.
  induction l as [|[[u v] w] l IH]; intros m; simpl; auto.
Qed.

Lemma perm_swap_expand (l : wgraph) :
  Permutation (l ++ map RsFW.swap_edge l) (flat_map (fun e => [e; RsFW.swap_edge e]) l).
Proof.
  induction l as [|e l IH]; simpl; [constructor|].
  constructor. eapply Permutation_trans; [apply Permutation_sym, Permutation_middle|].
  constructor. exact IH.
Qed.

Lemma eok_swap n e : eok n e -> eok n (RsFW.swap_edge e).
Proof.
  destruct e as [[u v] w]. unfold eok, FW.edge_ok, RsFW.swap_edge. intros H.
  apply andb_true_iff in H. destruct H as [H1 H2]. now rewrite H1, H2.
Qed.

Lemma init_state_eq n edges directed : Forall (eok n) edges ->
  fold_left (RsFW.add_edge n) (RsFW.adapter_edges edges directed) (RsFW.init n) = FW.init_edges n edges directed.
Proof.
  intros HF. unfold FW.init_edges, RsFW.adapter_edges. rewrite rs_init_eq.
  destruct directed.
  - rewrite rs_fold_upd by assumption. symmetry. apply py_fold_directed.
  - assert (HF' : Forall (eok n) (edges ++ map RsFW.swap_edge edges)).
    { apply Forall_app; split; [assumption|]. apply Forall_forall. intros e He.
      apply in_map_iff in He. destruct He as [e0 [<- He0]]. apply eok_swap.
      eapply Forall_forall in HF; eassumption. }
    rewrite rs_fold_upd by assumption. rewrite py_fold_undirected.
    apply (fold_upd_perm n); [apply perm_swap_expand | assumption | apply wf_py_init].
Qed.

Lemma step_eq k i j m : RsFW.step k i j m = FW.step k i j m.
Proof.
  unfold RsFW.step, FW.step. change RsFW.get with FW.get.
  destruct (FW.get m i k) as [a|]; destruct (FW.get m k j) as [b|]; simpl; try reflexivity.
Qed.

Lemma loop_k_eq n m : RsFW.loop_k n m = FW.loop_k n m.
Proof.
  unfold RsFW.loop_k, FW.loop_k. apply fold_left_ext_in. intros m1 k _.
  unfold RsFW.loop_i, FW.loop_i. apply fold_left_ext_in. intros m2 i _.
  unfold RsFW.loop_j, FW.loop_j. apply fold_left_ext_in. intros m3 j _. apply step_eq.
Qed.

Lemma neg_eq n m : RsFW.has_negative_cycle n m = FW.neg_diag n m.
Proof.
  unfold RsFW.has_negative_cycle, FW.neg_diag. induction (seq 0 n) as [|i l IH]; simpl; [reflexivity|].
  rewrite IH. change RsFW.get with FW.get. destruct (FW.get m i i); reflexivity.
Qed.

Theorem fw_equiv : forall n edges directed, FW.valid_input n edges = true ->
  RsFW.floyd_warshall n edges directed = FW.floyd_warshall n edges directed.
Proof.
  intros n edges directed HV. unfold FW.floyd_warshall. rewrite HV. simpl.
  unfold FW.valid_input in HV. apply andb_true_iff in HV. destruct HV as [_ HE].
  assert (HF : Forall (eok n) edges) by (apply Forall_forall; apply forallb_forall; exact HE).
  unfold RsFW.floyd_warshall, RsFW.kernel, FW.final.
  rewrite init_state_eq by assumption. rewrite loop_k_eq, neg_eq. reflexivity.
Qed.
