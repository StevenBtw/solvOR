(* C09 deepening - the loop of successive shortest paths on an input without negative cycle.
   (2) the invariant: augmenting (by any amount) along a path whose edges are tight for labels that are a Bellman-Ford
   fixpoint keeps the residual graph free of negative cycles.  With R = nodes of finite label: every edge of the new
   residual graph that leaves R is either an old residual edge (fixpoint inequality) or a path edge or the reverse of a
   path edge (tight, both ends in R), so the labels are still a fixpoint and a closed walk through R telescopes to
   cost >= 0; no new edge leaves or enters the complement of R, so a closed walk outside R is a closed walk of the old
   residual graph.
   (3) hence the final residual graph has feasible potentials (DeepPot.nnc_potentials) and McfCert.cert_optimal
   applies: OPTIMAL is only answered with a minimum-cost flow.
   (4) the model never runs out of fuel: the path reconstruction ends (DeepPar.bf_no_hang) and every augmentation
   ships >= 1 unit (the path edges have positive integer residual capacity), so at most `demand` of them happen. *)
From Coq Require Import List ZArith Bool Arith Lia.
From SV Require Import C09.Mcf C09.McfSpec C09.McfCert C09.McfAug C09.McfBF C09.McfProofs.
From SV Require Import C09.DeepWalk C09.DeepBF C09.DeepPar C09.DeepPot.
Import ListNotations.
Open Scope Z_scope.
Import Mcf McfSpec.

Lemma augment_res_other arcs : forall path res pf tc e, ~ In (fst e) (map fst path) ->
  e_res (fst (augment arcs res path pf tc)) e = e_res res e.
Proof.
  induction path as [|e0 path IH]; intros res pf tc e Hn; [reflexivity|].
  rewrite augment_cons, IH.
  - apply aug1_e_res_other. intros Heq. apply Hn. left. symmetry. exact Heq.
  - intros Hin. apply Hn. right. exact Hin.
Qed.

Section SSP.
Variable arcs : list arc.
Variable res : resid.
Variable dist : list (option Z).
Variable path : list edge.
Hypothesis HF : FP arcs res dist.
Hypothesis Htight : forall e, In e path ->
  exists du dv, nth (e_tail arcs e) dist None = Some du /\ nth (e_head arcs e) dist None = Some dv /\
                dv = du + e_cost arcs e.

Lemma on_path_arc e : In (fst e) (map fst path) ->
  nth (e_tail arcs e) dist None <> None /\
  forall du, nth (e_tail arcs e) dist None = Some du ->
  exists dv, nth (e_head arcs e) dist None = Some dv /\ dv <= du + e_cost arcs e.
Proof.
  intros Hin. apply in_map_iff in Hin. destruct Hin as (e0 & Hfst & Hin).
  destruct (Htight e0 Hin) as (du0 & dv0 & Et & Eh & Heq).
  destruct (same_arc_ends arcs e e0 Hfst) as [(H1 & H2 & H3)|(H1 & H2 & H3)].
  - split; [rewrite H1, Et; discriminate|]. intros du Hdu. rewrite H1, Et in Hdu. inversion Hdu; subst du.
    exists dv0. split; [rewrite H2; exact Eh|lia].
  - split; [rewrite H1, Eh; discriminate|]. intros du Hdu. rewrite H1, Eh in Hdu. inversion Hdu; subst du.
    exists du0. split; [rewrite H2; exact Et|lia].
Qed.

Variable pf tc : Z.
Let res' := fst (augment arcs res path pf tc).

Lemma ssp_FP : FP arcs res' dist.
Proof.
  intros e du [Hk Hpos] Hdu. destruct (in_dec Nat.eq_dec (fst e) (map fst path)) as [Hin|Hnin].
  - exact (proj2 (on_path_arc e Hin) du Hdu).
  - unfold res' in Hpos. rewrite augment_res_other in Hpos by exact Hnin. exact (HF e du (conj Hk Hpos) Hdu).
Qed.

Lemma outside_walk : forall p a b, rwalk arcs res' a p b -> nth b dist None = None ->
  nth a dist None = None /\ rwalk arcs res a p b.
Proof.
  induction p as [|e p IH]; intros a b Hw Hb.
  - destruct Hw as [Hc _]. cbn [chain] in Hc. subst b. split; [exact Hb|apply rwalk_nil].
  - apply rwalk_cons_inv in Hw. destruct Hw as (Ht & He & Hw). subst a.
    destruct (IH _ _ Hw Hb) as [Hh Hw'].
    assert (Htl : nth (e_tail arcs e) dist None = None).
    { destruct (nth (e_tail arcs e) dist None) as [du|] eqn:Edu; [|reflexivity].
      destruct (ssp_FP e du He Edu) as (dv & Edv & _). congruence. }
    split; [exact Htl|].
    assert (Hnin : ~ In (fst e) (map fst path)).
    { intros Hin. exact (proj1 (on_path_arc e Hin) Htl). }
    assert (He' : redge arcs res e).
    { destruct He as [Hk Hpos]. split; [exact Hk|]. unfold res' in Hpos. rewrite augment_res_other in Hpos by exact Hnin. exact Hpos. }
    exact (rwalk_cat arcs res _ _ _ _ _ (rwalk_one arcs res e He') Hw').
Qed.

Theorem ssp_nnc : NoNegCycle arcs res -> NoNegCycle arcs res'.
Proof.
  intros Hnn v p Hw. destruct (nth v dist None) as [dv|] eqn:Ev.
  - destruct (FP_walk arcs res' dist ssp_FP p v v dv Hw Ev) as (dv' & Ev' & Hle).
    rewrite Ev in Ev'. inversion Ev'; subst dv'. lia.
  - destruct (outside_walk p v v Hw Ev) as [_ Hw']. exact (Hnn v p Hw').
Qed.

End SSP.

(* the loop on a valid input: (3) optimality, (4) termination *)
Section Loop.
Variables (n : nat) (arcs : list arc) (s t : nat) (d : Z) (k : run).
Hypothesis Hvi : valid_input n arcs s t d = true.

Lemma step_nnc res tc tf path d0 :
  LoopInv arcs s t d res tc tf /\ NoNegCycle arcs res -> tf < d ->
  bellman_ford n arcs res s t = BFPath path d0 ->
  let pf := bottleneck res path (d - tf) in
  (LoopInv arcs s t d (fst (augment arcs res path pf tc)) (snd (augment arcs res path pf tc)) (tf + pf) /\
   NoNegCycle arcs (fst (augment arcs res path pf tc))) /\ 1 <= pf.
Proof.
  intros [Hinv Hnn] E Ebf pf. destruct (valid_input_parts _ _ _ _ _ Hvi) as (Hva & Hs & _).
  pose proof (proj1 (li_res _ _ _ _ _ _ _ Hinv)) as Hlen.
  destruct (bf_path_tight n arcs res s t path d0 Hva Hlen Hs Hnn Ebf) as (dist & HF & Hre & Htight).
  split; [split|].
  - exact (proj1 (step_inv n arcs s t d res tc tf path d0 Hinv E Ebf)).
  - exact (ssp_nnc arcs res dist path HF Htight pf tc Hnn).
  - unfold pf, bottleneck. apply fold_min_ge; [lia|]. intros e He. destruct (Hre e He) as [_ Hpos]. lia.
Qed.

(* (3), internal state, hypothesis as a Prop on the input network *)
Theorem mcf_optimal_nnc : NoNegCycle arcs (init_res arcs) ->
  mcf_run n arcs s t d = Some k -> k_status k = OPTIMAL ->
  min_cost n arcs (demand_b s t d) (flows (k_res k)).
Proof.
  intros Hnn Hrun Hst. destruct (valid_input_parts _ _ _ _ _ Hvi) as (Hva & _ & _ & _ & Hd).
  pose proof (valid_arcs_caps n arcs Hva) as Hc.
  pose proof (mcf_run_feasible n arcs s t d k Hc Hd Hrun Hst) as Hf.
  destruct (mcf_run_sound n arcs s t d k Hc Hd Hrun) as (Hres & _).
  assert (Hnnk : NoNegCycle arcs (k_res k)).
  { destruct (mcf_loop_inv n arcs s t d k (fun res tc tf => LoopInv arcs s t d res tc tf /\ NoNegCycle arcs res))
      with (2 := conj (init_inv arcs s t d Hc Hd) Hnn) (3 := Hrun) as ((_ & Hk) & _); [|exact Hk].
    intros res0 tc0 tf0 path d0 HQ E Ebf. exact (proj1 (step_nnc res0 tc0 tf0 path d0 HQ E Ebf)). }
  destruct (nnc_potentials n arcs (k_res k) Hva (proj1 Hres) Hnnk) as (pi & Hpi).
  split; [exact Hf|]. exact (cert_optimal n arcs _ _ pi Hva Hf (pot_ok_reduced arcs (k_res k) pi Hres Hpi)).
Qed.

Lemma loop_terminates : forall fuel res tc tf it,
  LoopInv arcs s t d res tc tf -> NoNegCycle arcs res -> d - tf <= Z.of_nat fuel ->
  mcf_loop fuel n arcs s t d res tc tf it <> None.
Proof.
  destruct (valid_input_parts _ _ _ _ _ Hvi) as (Hva & Hs & Ht & _).
  induction fuel as [|fuel IH]; intros res tc tf it Hinv Hnn Hf.
  - cbn [mcf_loop]. destruct (Z.ltb_spec tf d); [lia|discriminate].
  - cbn [mcf_loop]. destruct (Z.ltb_spec tf d) as [E|E]; [|discriminate].
    destruct (bellman_ford n arcs res s t) as [| |path d0] eqn:Ebf; [discriminate| |].
    + exfalso. exact (bf_no_hang n arcs res s t Hva (proj1 (li_res _ _ _ _ _ _ _ Hinv)) Hs Ht Hnn Ebf).
    + destruct (step_nnc res tc tf path d0 (conj Hinv Hnn) E Ebf) as [[Hinv' Hnn'] Hpos].
      destruct (augment arcs res path (bottleneck res path (d - tf)) tc) as [res' tc'].
      cbn [fst snd] in Hinv', Hnn'. apply IH; [exact Hinv'|exact Hnn'|lia].
Qed.

Theorem mcf_terminates_nnc : NoNegCycle arcs (init_res arcs) -> mcf_run n arcs s t d <> None.
Proof.
  intros Hnn. destruct (valid_input_parts _ _ _ _ _ Hvi) as (Hva & _ & _ & _ & Hd).
  apply loop_terminates; [exact (init_inv arcs s t d (valid_arcs_caps n arcs Hva) Hd)|exact Hnn|lia].
Qed.

End Loop.

(* public Result *)
Theorem mcf_public_optimal_nnc : forall n arcs s t d r,
  valid_input n arcs s t d = true ->
  NoNegCycle arcs (init_res arcs) ->
  mcf n arcs s t d = Some r -> r_status r = OPTIMAL ->
  optimal_answer n arcs (demand_b s t d) (r_flows r) (r_cost r).
Proof.
  intros n arcs s t d r Hvi Hb H Hst. destruct (mcf_optimal_run _ _ _ _ _ _ H Hst) as (k & Ek & Es & -> & ->).
  destruct (valid_input_parts _ _ _ _ _ Hvi) as (Hva & _ & _ & _ & Hd).
  pose proof (valid_arcs_caps n arcs Hva) as Hc.
  exists (flows (k_res k)). split; [exact (mcf_optimal_nnc n arcs s t d k Hvi Hb Ek Es)|].
  exact (mcf_run_public _ _ _ _ _ _ Hc Hd Ek).
Qed.
