(* C09 - network_simplex: the basis change.
   Section Rehang: the re-hang traversal, abstractly.  Given a target rooted structure (np = new parent, npred = new pred
   arc) on a node set Sset hanging below a node pnode outside Sset, such that the adjacency lists restricted to Sset list
   exactly npred v and the npred arcs of the np-children of v, the stack traversal started at q (np q = pnode) writes
   parent = np, pred = npred on Sset, sets depth and potential of every node of Sset from its new parent, and touches
   nothing outside Sset.
   Section Tree: the target of a basis change.  Removing the leaving arc pred[x] cuts off the subtree Sset below x, which
   holds the end q of the entering arc e; the other end pnode lies outside.  The new tree arc set (old - leaving + entering)
   is described by the new parent function np: q hangs below pnode by e, the parent links on the old path q ~> x are
   reversed, every other node of Sset keeps its parent.  This np meets the hypotheses of rehang_correct, so the tables
   written by the traversal describe a tree again, with potentials giving reduced cost 0 on its arcs. *)
From Coq Require Import List ZArith Bool Lia.
From SV Require Import C09.Mcf C09.McfSpec C09.McfAug C09.NetSimplex C09.DeepNS2Base.
Import ListNotations.
Open Scope Z_scope.
Import Mcf McfSpec NetSimplex.

Section Rehang.
Variable C : consts.
Local Notation n := (c_n C).
Local Notation src a := (nn (c_src C) a).
Local Notation tgt a := (nn (c_tgt C) a).
Local Notation cst a := (nz (c_cost C) a).

(* the inner `for child_arc in tree_adj[node]` loop *)
Definition cstep (node arc : nat) (acc : list nat * list nat * list nat) (ca : nat) : list nat * list nat * list nat :=
  let '(pa, pr, sk) := acc in
  if Nat.eqb ca arc then acc
  else (upd pa (other C ca node) node, upd pr (other C ca node) ca, other C ca node :: sk).

Lemma cfold_spec node arc : forall L pa pr sk,
  snd (fold_left (cstep node arc) L (pa, pr, sk)) =
    rev (map (fun a => other C a node) (filter (fun a => negb (Nat.eqb a arc)) L)) ++ sk /\
  length (fst (fst (fold_left (cstep node arc) L (pa, pr, sk)))) = length pa /\
  length (snd (fst (fold_left (cstep node arc) L (pa, pr, sk)))) = length pr /\
  (forall v, (forall a, In a L -> a <> arc -> other C a node <> v) ->
     nn (fst (fst (fold_left (cstep node arc) L (pa, pr, sk)))) v = nn pa v /\
     nn (snd (fst (fold_left (cstep node arc) L (pa, pr, sk)))) v = nn pr v) /\
  (forall a, In a L -> a <> arc -> (other C a node < length pa)%nat -> (other C a node < length pr)%nat ->
     (forall a', In a' L -> a' <> arc -> other C a' node = other C a node -> a' = a) ->
     nn (fst (fst (fold_left (cstep node arc) L (pa, pr, sk)))) (other C a node) = node /\
     nn (snd (fst (fold_left (cstep node arc) L (pa, pr, sk)))) (other C a node) = a).
Proof.
  induction L as [|a0 L IH]; intros pa pr sk; cbn [fold_left].
  - cbn [filter map rev app fst snd]. split; [reflexivity|]. split; [reflexivity|]. split; [reflexivity|].
    split; [intros; split; reflexivity|intros a []].
  - unfold cstep at 2 4 6 8 10 12 14. cbn [filter]. destruct (Nat.eqb_spec a0 arc) as [E0|E0]; cbn [negb].
    + destruct (IH pa pr sk) as (I1 & I2 & I3 & I4 & I5). split; [exact I1|]. split; [exact I2|]. split; [exact I3|]. split.
      * intros v Hv. apply I4. intros a Ha. apply Hv. right. exact Ha.
      * intros a [->|Ha] Hne; [contradiction|]. intros H1 H2 Hu. apply I5; try assumption.
        intros a' Ha'. apply Hu. right. exact Ha'.
    + set (c0 := other C a0 node).
      destruct (IH (upd pa c0 node) (upd pr c0 a0) (c0 :: sk)) as (I1 & I2 & I3 & I4 & I5).
      rewrite !length_upd in *. split.
      { rewrite I1. cbn [map rev]. rewrite <- app_assoc. reflexivity. }
      split; [exact I2|]. split; [exact I3|]. split.
      * intros v Hv. destruct (I4 v) as [J1 J2]; [intros a Ha; apply Hv; right; exact Ha|].
        rewrite J1, J2. assert (c0 <> v) by (apply Hv; [left; reflexivity|exact E0]).
        rewrite !nn_upd_other by congruence. split; reflexivity.
      * intros a Ha Hne H1 H2 Hu.
        destruct (in_dec Nat.eq_dec a L) as [HaL|HaL].
        { apply I5; try assumption. intros a' Ha'. apply Hu. right. exact Ha'. }
        destruct Ha as [->|Ha]; [|contradiction]. fold c0.
        destruct (I4 c0) as [J1 J2].
        { intros a' Ha' Hne' E. apply HaL. rewrite <- (Hu a' (or_intror Ha') Hne' E). exact Ha'. }
        rewrite J1, J2. fold c0 in H1, H2. rewrite !nn_upd_same by assumption. split; reflexivity.
Qed.

Variable adj : list (list nat).
Variable Sset : nat -> Prop.
Variables np npred : nat -> nat.
Variables q pnode : nat.
Variable rk : nat -> Z.
Variables par1 prd1 : list nat.
Variables dep0 pi0 : list Z.

Hypothesis Hl1 : length par1 = S n.
Hypothesis Hl2 : length prd1 = S n.
Hypothesis Hl3 : length dep0 = S n.
Hypothesis Hl4 : length pi0 = S n.
Hypothesis HSlt : forall v, Sset v -> (v < n)%nat.
Hypothesis Hp : ~ Sset pnode.
Hypothesis Hq : Sset q.
Hypothesis Hnpq : np q = pnode.
Hypothesis Hnp : forall v, Sset v -> v <> q -> Sset (np v).
Hypothesis Hrk : forall v, Sset v -> Sset (np v) -> 0 <= rk (np v) < rk v.
Hypothesis Hadj_child : forall v a, Sset v -> In a (nth v adj []) -> a <> npred v ->
  exists c, Sset c /\ np c = v /\ npred c = a /\ other C a v = c.
Hypothesis Hadj_all : forall c, Sset c -> Sset (np c) -> In (npred c) (nth (np c) adj []) /\ npred c <> npred (np c).
Hypothesis Hadj_nd : forall v, Sset v -> NoDup (nth v adj []).
Hypothesis Hinj : forall c1 c2, Sset c1 -> Sset c2 -> npred c1 = npred c2 -> c1 = c2.
Hypothesis Hdp : 0 <= nz dep0 pnode.
Hypothesis Hq1 : nn par1 q = pnode.
Hypothesis Hq2 : nn prd1 q = npred q.

Lemma np_ne v : Sset v -> np v <> v.
Proof.
  intros Hv E. destruct (Nat.eq_dec v q) as [->|Hne]; [rewrite Hnpq in E; rewrite E in Hp; contradiction|].
  pose proof (Hrk v Hv (Hnp v Hv Hne)) as H. rewrite E in H. lia.
Qed.

Definition pi_rel (p : list Z) (d : nat) : Prop :=
  nz p d = if Nat.eqb (src (npred d)) d then nz p (np d) + cst (npred d) else nz p (np d) - cst (npred d).

Definition placed (D par prd : list nat) (v : nat) : Prop :=
  Sset v /\ nn par v = np v /\ nn prd v = npred v /\ (np v = pnode \/ In (np v) D).

(* a placed node hangs below pnode or a done node, so not below a node of Sset that is not done *)
Lemma placed_np_ne D par prd v k : placed D par prd v -> Sset k -> ~ In k D -> np v <> k.
Proof.
  intros (_ & _ & _ & [E|E]) Hk HkD E'.
  - apply Hp. rewrite <- E, E'. exact Hk.
  - apply HkD. rewrite <- E'. exact E.
Qed.

Record RI (K D : list nat) (par prd : list nat) (dep p : list Z) : Prop := {
  r_l1 : length par = S n; r_l2 : length prd = S n; r_l3 : length dep = S n; r_l4 : length p = S n;
  r_nd : NoDup K;
  r_K : forall k, In k K -> placed D par prd k /\ ~ In k D;
  r_D : forall d, In d D -> placed D par prd d /\ 0 < nz dep d /\ nz dep d = nz dep (np d) + 1 /\ pi_rel p d;
  r_U : forall v, Sset v -> ~ In v K -> ~ In v D -> Sset (np v) /\ ~ In (np v) D;
  r_out : forall v, ~ Sset v -> nn par v = nn par1 v /\ nn prd v = nn prd1 v /\ nz dep v = nz dep0 v /\ nz p v = nz pi0 v
}.

Lemma RI_init : RI [q] [] par1 prd1 dep0 pi0.
Proof.
  constructor; try assumption.
  - constructor; [intros []|constructor].
  - intros k [<-|[]]. split; [|intros []]. unfold placed. rewrite Hq1, Hq2, Hnpq. auto.
  - intros d [].
  - intros v Hv Hk _. split; [|intros []]. apply Hnp; [exact Hv|]. intros ->. apply Hk. left. reflexivity.
  - intros v _. auto.
Qed.

Lemma RI_step k rest D par prd dep p :
  RI (k :: rest) D par prd dep p ->
  let arc := nn prd k in
  let dep' := upd dep k (nz dep (nn par k) + 1) in
  let p' := upd p k (if Nat.eqb (src arc) k then nz p (nn par k) + cst arc else nz p (nn par k) - cst arc) in
  let r := fold_left (cstep k arc) (nth k adj []) (par, prd, rest) in
  RI (snd r) (k :: D) (fst (fst r)) (snd (fst r)) dep' p'.
Proof.
  intros I arc dep' p' r.
  destruct (r_K _ _ _ _ _ _ I k (or_introl eq_refl)) as [Pk HkD]. pose proof Pk as (HkS & Hkp & Hka & Hknp).
  pose proof (r_nd _ _ _ _ _ _ I) as HndK. inversion HndK as [|? ? Hkrest Hndrest]; subst.
  pose proof (HSlt k HkS) as Hkn.
  assert (Harc : arc = npred k) by exact Hka.
  set (CL := filter (fun a => negb (Nat.eqb a arc)) (nth k adj [])).
  assert (HCL : forall a, In a CL <-> In a (nth k adj []) /\ a <> arc).
  { intros a. unfold CL. rewrite filter_In, negb_true_iff, Nat.eqb_neq. reflexivity. }
  assert (Hchild : forall a, In a CL -> Sset (other C a k) /\ np (other C a k) = k /\ npred (other C a k) = a).
  { intros a Ha. apply HCL in Ha. destruct Ha as [Ha Hne]. rewrite Harc in Hne.
    destruct (Hadj_child k a HkS Ha Hne) as (c & Hc1 & Hc2 & Hc3 & Hc4). rewrite Hc4. auto. }
  assert (Hoinj : forall a a', In a CL -> In a' CL -> other C a k = other C a' k -> a = a').
  { intros a a' Ha Ha' E. destruct (Hchild a Ha) as (_ & _ & H3). destruct (Hchild a' Ha') as (_ & _ & H3').
    rewrite <- H3, <- H3', E. reflexivity. }
  destruct (cfold_spec k arc (nth k adj []) par prd rest) as (F1 & F2 & F3 & F4 & F5). fold r in F1, F2, F3, F4, F5.
  fold CL in F1.
  (* a child is new: not k, not done, not on the stack *)
  assert (Hnew : forall a, In a CL -> other C a k <> k /\ ~ In (other C a k) D /\ ~ In (other C a k) rest).
  { intros a Ha. destruct (Hchild a Ha) as (Hc1 & Hc2 & Hc3). split; [|split].
    - intros E. rewrite E in Hc2. exact (np_ne k HkS Hc2).
    - intros HcD. destruct (r_D _ _ _ _ _ _ I _ HcD) as [P _]. exact (placed_np_ne _ _ _ _ _ P HkS HkD Hc2).
    - intros HcK. destruct (r_K _ _ _ _ _ _ I _ (or_intror HcK)) as [P _]. exact (placed_np_ne _ _ _ _ _ P HkS HkD Hc2). }
  assert (Hnotchild : forall v, (v = k \/ In v D \/ In v rest \/ ~ Sset v) ->
            forall a, In a (nth k adj []) -> a <> arc -> other C a k <> v).
  { intros v Hv a Ha Hne E. assert (HaCL : In a CL) by (apply HCL; auto).
    destruct (Hnew a HaCL) as (N1 & N2 & N3). destruct (Hchild a HaCL) as (Hc1 & _). rewrite E in *.
    destruct Hv as [Hv|[Hv|[Hv|Hv]]]; contradiction. }
  assert (Hchild_tab : forall a, In a CL -> nn (fst (fst r)) (other C a k) = k /\ nn (snd (fst r)) (other C a k) = a).
  { intros a Ha. destruct (Hchild a Ha) as (Hc1 & Hc2 & Hc3). pose proof (HSlt _ Hc1) as Hlt. apply HCL in Ha. destruct Ha as [Ha Hne].
    apply F5; try assumption.
    - rewrite (r_l1 _ _ _ _ _ _ I). lia.
    - rewrite (r_l2 _ _ _ _ _ _ I). lia.
    - intros a' Ha' Hne' E. apply Hoinj; [apply HCL; auto|apply HCL; auto|exact E]. }
  assert (HinK' : forall v, In v (snd r) <-> (exists a, other C a k = v /\ In a CL) \/ In v rest).
  { intros v. rewrite F1, in_app_iff, <- in_rev, in_map_iff. reflexivity. }
  assert (Hkeep : forall v, placed D par prd v -> v = k \/ In v D \/ In v rest \/ ~ Sset v ->
            placed (k :: D) (fst (fst r)) (snd (fst r)) v).
  { intros v (P1 & P2 & P3 & P4) Hv. destruct (F4 v (Hnotchild v Hv)) as [G1 G2]. unfold placed. rewrite G1, G2.
    split; [exact P1|]. split; [exact P2|]. split; [exact P3|]. destruct P4; [left|right; right]; assumption. }
  constructor.
  - rewrite F2. apply (r_l1 _ _ _ _ _ _ I).
  - rewrite F3. apply (r_l2 _ _ _ _ _ _ I).
  - unfold dep'. rewrite length_upd. apply (r_l3 _ _ _ _ _ _ I).
  - unfold p'. rewrite length_upd. apply (r_l4 _ _ _ _ _ _ I).
  - rewrite F1. apply NoDup_app_intro; [apply NoDup_rev|exact Hndrest|].
    + apply NoDup_map_in; [apply NoDup_filter; apply Hadj_nd; exact HkS|exact Hoinj].
    + intros v Hv. apply in_rev in Hv. apply in_map_iff in Hv. destruct Hv as (a & <- & Ha). apply (Hnew a Ha).
  - intros v Hv. apply HinK' in Hv. destruct Hv as [(a & <- & Ha)|Hv].
    + destruct (Hchild a Ha) as (Hc1 & Hc2 & Hc3). destruct (Hnew a Ha) as (N1 & N2 & N3). destruct (Hchild_tab a Ha) as [T1 T2].
      split; [|intros [E|E]; [symmetry in E|]; contradiction]. unfold placed. rewrite T1, T2, Hc2, Hc3.
      split; [exact Hc1|]. split; [reflexivity|]. split; [reflexivity|]. right. left. reflexivity.
    + destruct (r_K _ _ _ _ _ _ I v (or_intror Hv)) as [P ND].
      split; [apply Hkeep; auto|intros [E|E]; [subst v|]; contradiction].
  - assert (Hnpk : np k <> k) by (apply np_ne; exact HkS).
    assert (Hdnp : 0 <= nz dep (np k)).
    { destruct Hknp as [E|E].
      - rewrite E. destruct (r_out _ _ _ _ _ _ I pnode Hp) as (_ & _ & E3 & _). rewrite E3. exact Hdp.
      - destruct (r_D _ _ _ _ _ _ I _ E) as (_ & Hpos & _). lia. }
    intros d [<-|Hd].
    + split; [apply Hkeep; auto|].
      unfold dep', p', pi_rel. rewrite !nz_upd_same by (rewrite ?(r_l3 _ _ _ _ _ _ I), ?(r_l4 _ _ _ _ _ _ I); lia).
      rewrite !(nz_upd_other _ (np k)) by exact Hnpk. rewrite Hkp, Harc. split; [lia|]. split; reflexivity.
    + destruct (r_D _ _ _ _ _ _ I d Hd) as (P & D5 & D6 & D7). split; [apply Hkeep; auto|].
      assert (Hdk : d <> k) by (intros ->; contradiction).
      assert (Hnpd : np d <> k) by exact (placed_np_ne _ _ _ _ _ P HkS HkD).
      unfold dep', p', pi_rel in *. rewrite !(nz_upd_other _ d), !(nz_upd_other _ (np d)) by assumption. auto.
  - intros v HvS HvK HvD.
    destruct (r_U _ _ _ _ _ _ I v HvS) as [U1 U2].
    { intros [E|E]; [apply HvD; left; exact E|apply HvK; apply HinK'; right; exact E]. }
    { intros H. apply HvD. right. exact H. }
    split; [exact U1|]. intros [E|E]; [|contradiction].
    (* np v = k: then v is one of the children just pushed *)
    destruct (Hadj_all v HvS U1) as [A1 A2]. rewrite <- E in A1, A2. rewrite <- Harc in A2.
    assert (HaCL : In (npred v) CL) by (apply HCL; auto).
    destruct (Hchild _ HaCL) as (Hc1 & Hc2 & Hc3).
    apply HvK. apply HinK'. left. exists (npred v). split; [|exact HaCL]. apply Hinj; assumption.
  - intros v Hv. destruct (r_out _ _ _ _ _ _ I v Hv) as (O1 & O2 & O3 & O4).
    destruct (F4 v (Hnotchild v ltac:(auto))) as [G1 G2]. rewrite G1, G2.
    assert (Hvk : v <> k) by (intros ->; contradiction).
    unfold dep', p'. rewrite !nz_upd_other by exact Hvk. auto.
Qed.

Lemma rehang_S f k rest par prd dep p :
  rehang C (S f) adj (k :: rest) (par, prd, dep, p) =
  let arc := nn prd k in
  let r := fold_left (cstep k arc) (nth k adj []) (par, prd, rest) in
  rehang C f adj (snd r)
    (fst (fst r), snd (fst r), upd dep k (nz dep (nn par k) + 1),
     upd p k (if Nat.eqb (src arc) k then nz p (nn par k) + cst arc else nz p (nn par k) - cst arc)).
Proof.
  cbn [rehang]. cbv zeta.
  match goal with |- context [fold_left ?F (nth k adj []) (par, prd, rest)] =>
    change F with (cstep k (nn prd k)) end.
  destruct (fold_left (cstep k (nn prd k)) (nth k adj []) (par, prd, rest)) as [[a b] c]. reflexivity.
Qed.

Lemma rehang_inv : forall f K D par prd dep p tb', RI K D par prd dep p ->
  rehang C f adj K (par, prd, dep, p) = Some tb' ->
  exists D', RI [] D' (fst (fst (fst tb'))) (snd (fst (fst tb'))) (snd (fst tb')) (snd tb').
Proof.
  induction f as [|f IH]; intros K D par prd dep p tb' I H.
  - destruct K as [|k rest]; cbn [rehang] in H; [|discriminate]. inversion H; subst tb'. exists D. exact I.
  - destruct K as [|k rest]; [cbn [rehang] in H; inversion H; subst tb'; exists D; exact I|].
    rewrite rehang_S in H. cbv zeta in H.
    pose proof (RI_step k rest D par prd dep p I) as I'. cbv zeta in I'.
    exact (IH _ _ _ _ _ _ _ I' H).
Qed.

(* when the stack is empty every node of Sset has been handled *)
Lemma RI_all D par prd dep p : RI [] D par prd dep p -> forall v, Sset v -> In v D.
Proof.
  intros I. assert (H : forall m v, (Z.to_nat (rk v) < m)%nat -> Sset v -> In v D).
  { induction m as [|m IH]; intros v Hm Hv; [lia|].
    destruct (in_dec Nat.eq_dec v D) as [Hin|Hnin]; [exact Hin|exfalso].
    destruct (r_U _ _ _ _ _ _ I v Hv ltac:(intros []) Hnin) as [U1 U2].
    apply U2. apply IH; [|exact U1]. pose proof (Hrk v Hv U1). lia. }
  intros v Hv. apply (H (S (Z.to_nat (rk v)))); [lia|exact Hv].
Qed.

Theorem rehang_correct : forall f par' prd' dep' p',
  rehang C f adj [q] (par1, prd1, dep0, pi0) = Some (par', prd', dep', p') ->
  length par' = S n /\ length prd' = S n /\ length dep' = S n /\ length p' = S n /\
  (forall v, Sset v \/ ~ Sset v) /\
  (forall v, ~ Sset v -> nn par' v = nn par1 v /\ nn prd' v = nn prd1 v /\ nz dep' v = nz dep0 v /\ nz p' v = nz pi0 v) /\
  (forall v, Sset v -> nn par' v = np v /\ nn prd' v = npred v /\ 0 < nz dep' v /\ nz dep' v = nz dep' (np v) + 1 /\
                       pi_rel p' v).
Proof.
  intros f par' prd' dep' p' H. destruct (rehang_inv _ _ _ _ _ _ _ _ RI_init H) as (D & I). cbn [fst snd] in I.
  split; [apply (r_l1 _ _ _ _ _ _ I)|]. split; [apply (r_l2 _ _ _ _ _ _ I)|]. split; [apply (r_l3 _ _ _ _ _ _ I)|].
  split; [apply (r_l4 _ _ _ _ _ _ I)|]. split; [|split; [apply (r_out _ _ _ _ _ _ I)|]].
  { (* the nodes of Sset are those the traversal has handled *)
    intros v. destruct (in_dec Nat.eq_dec v D) as [Hd|Hd]; [left; apply (r_D _ _ _ _ _ _ I v Hd)|].
    right. intros Hs. exact (Hd (RI_all _ _ _ _ _ I v Hs)). }
  intros v Hv. destruct (r_D _ _ _ _ _ _ I v (RI_all _ _ _ _ _ I v Hv)) as ((_ & D2 & D3 & _) & D5 & D6 & D7). auto.
Qed.

End Rehang.

Section Tree.
Variable C : consts.
Local Notation n := (c_n C).
Local Notation T := (c_m C + c_n C)%nat.
Local Notation src a := (nn (c_src C) a).
Local Notation tgt a := (nn (c_tgt C) a).
Local Notation cst a := (nz (c_cost C) a).
Variable b : nat -> Z.
Variable s : st.
Hypothesis I : NSInv C b s.
Local Notation par v := (nn (parent s) v).
Local Notation prd v := (nn (pred s) v).
Local Notation dep v := (nz (depth s) v).
Let HT : TreeOK C s := i_tree C b s I.

Variables (e x q pnode : nat) (A : list nat).
Hypothesis He : (e < T)%nat.
Hypothesis Hest : nz (state s) e <> 0.
Hypothesis Hx : (x < n)%nat.
Hypothesis Hpn : (pnode <= n)%nat.
Hypothesis Hje : joins C e q pnode.
Hypothesis HcA : chain C s q A x.

Definition Sset (v : nat) : Prop := exists B, chain C s v B x.
Hypothesis HpS : ~ Sset pnode.

Definition onp (v : nat) : Prop := In v A \/ v = x.
Definition childA (v : nat) : option nat := find (fun y => Nat.eqb (par y) v) A.
Definition np (v : nat) : nat :=
  if Nat.eqb v q then pnode else match childA v with Some y => y | None => par v end.
Definition npred (v : nat) : nat :=
  if Nat.eqb v q then e else match childA v with Some y => prd y | None => prd v end.
Definition onpb (v : nat) : bool := (existsb (Nat.eqb v) A || Nat.eqb v x)%bool.
Definition rk (v : nat) : Z := if onpb v then dep q - dep v else dep q + 1 + dep v.

Lemma onpb_spec v : onpb v = true <-> onp v.
Proof.
  unfold onpb, onp. rewrite orb_true_iff, existsb_exists, Nat.eqb_eq. split.
  - intros [(y & Hy & E)|E]; [left; apply Nat.eqb_eq in E; subst y; exact Hy|right; exact E].
  - intros [H|H]; [left; exists v; split; [exact H|apply Nat.eqb_refl]|right; exact H].
Qed.

Lemma onp_dec v : onp v \/ ~ onp v.
Proof. destruct (onpb v) eqn:E; [left; apply onpb_spec; exact E|right; intros H; apply onpb_spec in H; congruence]. Qed.

Lemma A_lt y : In y A -> (y < n)%nat.
Proof. intros H. apply (chain_in C s HT _ _ _ HcA y H). Qed.

Lemma chain_par_in : forall u p j, chain C s u p j -> forall y, In y p -> In (par y) p \/ par y = j.
Proof.
  induction 1 as [u|u p j Hu Hc IH]; intros y Hy; [contradiction|]. destruct Hy as [<-|Hy].
  - destruct Hc as [u'|u' p' j' Hu' Hc']; [right; reflexivity|left; right; left; reflexivity].
  - destruct (IH y Hy) as [H|H]; [left; right; exact H|right; exact H].
Qed.

Lemma chain_has_child : forall u p j, chain C s u p j -> forall v, In v p \/ v = j -> v <> u ->
  exists y, In y p /\ par y = v.
Proof.
  induction 1 as [u|u p j Hu Hc IH]; intros v Hv Hne.
  - destruct Hv as [[]|Hv]; congruence.
  - destruct (Nat.eq_dec v (par u)) as [->|Hne'].
    + exists u. split; [left; reflexivity|reflexivity].
    + destruct (IH v) as (y & Hy & E); [destruct Hv as [[Hv|Hv]|Hv]; [congruence|left; exact Hv|right; exact Hv]|exact Hne'|].
      exists y. split; [right; exact Hy|exact E].
Qed.

Lemma chain_dep_inj : forall u p j, chain C s u p j -> forall y y', In y p -> In y' p -> dep y = dep y' -> y = y'.
Proof.
  induction 1 as [u|u p j Hu Hc IH]; intros y y' Hy Hy' E; [contradiction|].
  pose proof (t_dep C s HT u Hu) as Hd.
  assert (Hlow : forall z, In z p -> dep z < dep u).
  { intros z Hz. destruct (chain_in C s HT _ _ _ Hc z Hz) as (_ & _ & [->|H]); lia. }
  destruct Hy as [<-|Hy]; destruct Hy' as [<-|Hy']; [reflexivity| | |apply IH; assumption].
  - specialize (Hlow _ Hy'). lia.
  - specialize (Hlow _ Hy). lia.
Qed.

Lemma A_par y : In y A -> onp (par y).
Proof. intros H. exact (chain_par_in _ _ _ HcA y H). Qed.

Lemma A_child_unique y y' : In y A -> In y' A -> par y = par y' -> y = y'.
Proof.
  intros Hy Hy' E. apply (chain_dep_inj _ _ _ HcA); [exact Hy|exact Hy'|].
  rewrite (t_dep C s HT y (A_lt y Hy)), (t_dep C s HT y' (A_lt y' Hy')), E. reflexivity.
Qed.

Lemma q_onp : onp q.
Proof.
  unfold onp. pose proof HcA as H. inversion H as [u E1 E2 E3|u p j Hu Hc E1 E2 E3]; [right; reflexivity|left; left; auto].
Qed.

Lemma x_notin_A : ~ In x A.
Proof. apply (chain_notin C s HT _ _ _ HcA). Qed.

Lemma q_no_child y : In y A -> par y <> q.
Proof.
  intros Hy E. pose proof (t_dep C s HT y (A_lt y Hy)) as Hd. rewrite E in Hd.
  destruct (chain_in C s HT _ _ _ HcA y Hy) as (_ & _ & [->|H]); [|lia]. exact (par_ne C s HT q (A_lt q Hy) E).
Qed.

Lemma dep_le_q v : onp v -> dep v <= dep q.
Proof.
  intros [Hv| ->]; [|apply (chain_dep_le C s HT _ _ _ HcA)].
  destruct (chain_in C s HT _ _ _ HcA v Hv) as (_ & _ & [->|H]); lia.
Qed.

Lemma np_spec v :
  (v = q /\ np v = pnode /\ npred v = e) \/
  (v <> q /\ exists y, In y A /\ par y = v /\ np v = y /\ npred v = prd y) \/
  (v <> q /\ ~ onp v /\ (forall y, In y A -> par y <> v) /\ np v = par v /\ npred v = prd v).
Proof.
  unfold np, npred, childA. destruct (Nat.eqb_spec v q) as [-> |Hne]; [left; auto|right].
  destruct (find (fun y => Nat.eqb (par y) v) A) as [y|] eqn:Ef.
  - apply find_some in Ef. destruct Ef as [Hy E]. apply Nat.eqb_eq in E. left. split; [exact Hne|]. exists y. auto.
  - right. assert (Hno : forall y, In y A -> par y <> v).
    { intros y Hy E. pose proof (find_none _ _ Ef y Hy) as H. cbv beta in H. apply Nat.eqb_neq in H. contradiction. }
    split; [exact Hne|]. split; [|auto]. intros Hon.
    destruct (chain_has_child _ _ _ HcA v Hon Hne) as (y & Hy & E). exact (Hno y Hy E).
Qed.

Lemma S_A y : In y A -> Sset y.
Proof.
  intros Hy. destruct (chain_split C s _ _ _ HcA y Hy) as (p1 & p2 & _ & _ & H2). exists (y :: p2). exact H2.
Qed.

Lemma S_x : Sset x.
Proof. exists []. constructor. Qed.

Lemma S_onp v : onp v -> Sset v.
Proof. intros [H| ->]; [apply S_A; exact H|exact S_x]. Qed.

Lemma S_lt v : Sset v -> (v < n)%nat.
Proof. intros [B H]. inversion H; subst; assumption. Qed.

Lemma S_par v : Sset v -> v <> x -> Sset (par v).
Proof. intros [B H] Hne. inversion H as [|? B' ? Hv H']; subst; [congruence|]. exists B'. exact H'. Qed.

Lemma S_child c : (c < n)%nat -> Sset (par c) -> Sset c.
Proof. intros Hc [B H]. exists (c :: B). constructor; assumption. Qed.

Lemma S_q : Sset q.
Proof. exact (S_onp q q_onp). Qed.

Lemma q_ne_pnode : q <> pnode.
Proof. intros E. apply HpS. rewrite <- E. exact S_q. Qed.

Lemma e_not_pred v : (v < n)%nat -> prd v <> e.
Proof. intros Hv E. apply Hest. rewrite <- E. apply (i_predst C b s I v Hv). Qed.

Variable adj4 : list (list nat).
Hypothesis Hadj4 : forall w, (w <= n)%nat ->
  NoDup (nth w adj4 []) /\
  forall a, In a (nth w adj4 []) <->
            (In a (nth w (tadj s) []) /\ a <> prd x) \/ (a = e /\ (src e = w \/ tgt e = w)).

Lemma tadj_iff w a : (w <= n)%nat ->
  (In a (nth w (tadj s) []) <-> exists c, (c < n)%nat /\ a = prd c /\ (w = c \/ w = par c)).
Proof.
  intros Hw. destruct (i_adj C b s I w Hw) as [_ Hiff]. rewrite Hiff. split.
  - intros (Ha & Hst & Hends). destruct (inv_tree_arc C b s I a Ha Hst) as (c & Hc & <-).
    exists c. split; [exact Hc|]. split; [reflexivity|]. destruct (t_pred C s HT c Hc) as [_ [[J1 J2]|[J1 J2]]]; rewrite J1, J2 in Hends; intuition.
  - intros (c & Hc & -> & Hw'). destruct (t_pred C s HT c Hc) as [Ha J]. split; [exact Ha|].
    split; [apply (i_predst C b s I c Hc)|]. destruct J as [[J1 J2]|[J1 J2]]; rewrite J1, J2; intuition.
Qed.

Lemma tree_adj_child : forall v a, Sset v -> In a (nth v adj4 []) -> a <> npred v ->
  exists c, Sset c /\ np c = v /\ npred c = a /\ other C a v = c.
Proof.
  intros v a Hv Ha Hne. pose proof (S_lt v Hv) as Hvn.
  destruct (Hadj4 v ltac:(lia)) as [_ Hiff]. apply Hiff in Ha. destruct Ha as [[Ha Hal]|[-> Hends]].
  - apply tadj_iff in Ha; [|lia]. destruct Ha as (c & Hc & -> & Hvc).
    assert (Hcx : c <> x) by (intros ->; apply Hal; reflexivity).
    destruct (t_pred C s HT c Hc) as [_ J]. pose proof (par_ne C s HT c Hc) as Hpc.
    destruct Hvc as [->| ->].
    + (* the arc to the old parent of c = v: c lies on the path q ~> x, and its old parent takes it as new child *)
      assert (HcA' : In c A).
      { destruct (np_spec c) as [(E & _)|[(_ & y & Hy & E & _)|(_ & _ & _ & _ & N2)]].
        - destruct q_onp as [H|H]; [rewrite E; exact H|congruence].
        - destruct (A_par y Hy) as [H|H]; [rewrite <- E; exact H|congruence].
        - exfalso. apply Hne. symmetry. exact N2. }
      set (w := par c). assert (Hw : onp w) by (apply A_par; exact HcA').
      assert (Hwq : w <> q) by (apply q_no_child; exact HcA').
      destruct (np_spec w) as [(Ew & _)|[(_ & y & Hy & Ey & M1 & M2)|(_ & Hoff & _)]]; [congruence| |contradiction].
      assert (Hyc : y = c) by (apply A_child_unique; assumption). rewrite Hyc in *.
      exists w. split; [apply S_onp; exact Hw|]. split; [exact M1|]. split; [exact M2|].
      apply joins_other; [exact J|]. intros E'. apply Hpc. symmetry. exact E'.
    + (* c is an old child of v = par c *)
      assert (HcS : Sset c) by (apply S_child; assumption).
      destruct (in_dec Nat.eq_dec c A) as [HcA'|HcA'].
      * exfalso. assert (Hvq : par c <> q) by (apply q_no_child; exact HcA').
        destruct (np_spec (par c)) as [(Ew & _)|[(_ & y & Hy & Ey & M1 & M2)|(_ & Hoff & _)]]; [congruence| |].
        -- assert (Hyc : y = c) by (apply A_child_unique; assumption). rewrite Hyc in *. apply Hne. symmetry. exact M2.
        -- apply Hoff. apply A_par. exact HcA'.
      * assert (Hoffc : ~ onp c) by (intros [H|H]; contradiction).
        destruct (np_spec c) as [(E & _)|[(_ & y & Hy & E & _)|(_ & _ & _ & N1 & N2)]].
        -- exfalso. apply Hoffc. rewrite E. exact q_onp.
        -- exfalso. apply Hoffc. rewrite <- E. apply A_par. exact Hy.
        -- exists c. split; [exact HcS|]. split; [exact N1|]. split; [exact N2|].
           apply joins_other; [apply joins_sym; exact J|exact Hpc].
  - exfalso. assert (Hvq : v = q).
    { destruct Hje as [[J1 J2]|[J1 J2]]; rewrite J1, J2 in Hends; destruct Hends as [E|E]; try (symmetry; exact E);
        exfalso; apply HpS; rewrite E; exact Hv. }
    destruct (np_spec v) as [(_ & _ & N2)|[(Hvq' & _)|(Hvq' & _)]]; [|contradiction|contradiction].
    apply Hne. symmetry. exact N2.
Qed.

Lemma npred_not_leaving v : Sset v -> npred v <> prd x.
Proof.
  intros Hv. destruct (np_spec v) as [(E & N1 & N2)|[(_ & y & Hy & E & N1 & N2)|(_ & Hoff & _ & N1 & N2)]]; rewrite N2.
  - intros E'. exact (e_not_pred x Hx (eq_sym E')).
  - intros E'. apply (pred_inj C s HT) in E'; [|apply A_lt; exact Hy|exact Hx]. rewrite E' in Hy. exact (x_notin_A Hy).
  - intros E'. apply (pred_inj C s HT) in E'; [|apply S_lt; exact Hv|exact Hx]. apply Hoff. right. exact E'.
Qed.

Lemma npred_in v : Sset v -> Sset (np v) -> In (npred v) (nth (np v) (tadj s) []).
Proof.
  intros Hv Hnv. pose proof (S_lt _ Hnv) as Hlt.
  destruct (np_spec v) as [(E & N1 & _)|[(Hvq & y & Hy & E & N1 & N2)|(Hvq & Hoff & Hno & N1 & N2)]].
  - exfalso. rewrite N1 in Hnv. contradiction.
  - rewrite N1, N2. apply tadj_iff; [pose proof (A_lt y Hy); lia|]. exists y. split; [apply A_lt; exact Hy|]. auto.
  - rewrite N1, N2. apply tadj_iff; [rewrite N1 in Hlt; lia|]. exists v. split; [apply S_lt; exact Hv|]. auto.
Qed.

Lemma tree_adj_all : forall c, Sset c -> Sset (np c) -> In (npred c) (nth (np c) adj4 []) /\ npred c <> npred (np c).
Proof.
  intros c Hc Hnc. pose proof (npred_in c Hc Hnc) as Hin. pose proof (npred_not_leaving c Hc) as Hnl. pose proof (S_lt c Hc) as Hcn. pose proof (S_lt _ Hnc) as Hncn.
  split.
  { destruct (Hadj4 (np c) ltac:(lia)) as [_ Hiff]. apply Hiff. left. split; assumption. }
  destruct (np_spec c) as [(E & N1 & _)|[(Hcq & y & Hy & E & N1 & N2)|(Hcq & Hoff & Hno & N1 & N2)]].
  - exfalso. rewrite N1 in Hnc. contradiction.
  - rewrite N1, N2. pose proof (A_lt y Hy) as Hyn.
    destruct (np_spec y) as [(_ & _ & M2)|[(_ & y' & Hy' & E' & M1 & M2)|(_ & Hoffy & _)]].
    + rewrite M2. apply e_not_pred. exact Hyn.
    + rewrite M2. intros Ep. apply (pred_inj C s HT) in Ep; [|exact Hyn|apply A_lt; exact Hy']. rewrite <- Ep in E'.
      exact (par_ne C s HT y Hyn E').
    + exfalso. apply Hoffy. left. exact Hy.
  - rewrite N1, N2. rewrite N1 in Hncn.
    destruct (np_spec (par c)) as [(_ & _ & M2)|[(_ & y' & Hy' & E' & M1 & M2)|(_ & _ & _ & M1 & M2)]].
    + rewrite M2. apply e_not_pred. exact Hcn.
    + rewrite M2. intros Ep. apply (pred_inj C s HT) in Ep; [|exact Hcn|apply A_lt; exact Hy']. rewrite <- Ep in Hy'.
      apply Hoff. left. exact Hy'.
    + rewrite M2. intros Ep. apply (pred_inj C s HT) in Ep; [|exact Hcn|exact Hncn]. exact (par_ne C s HT c Hcn (eq_sym Ep)).
Qed.

Lemma tree_pred_inj : forall c1 c2, Sset c1 -> Sset c2 -> npred c1 = npred c2 -> c1 = c2.
Proof.
  intros c1 c2 H1 H2 E. pose proof (S_lt _ H1) as L1. pose proof (S_lt _ H2) as L2.
  destruct (np_spec c1) as [(E1 & _ & N2)|[(_ & y1 & Hy1 & E1 & _ & N2)|(_ & Hoff1 & _ & _ & N2)]];
  destruct (np_spec c2) as [(E2 & _ & M2)|[(_ & y2 & Hy2 & E2 & _ & M2)|(_ & Hoff2 & _ & _ & M2)]];
  rewrite N2, M2 in E.
  - congruence.
  - exfalso. exact (e_not_pred y2 (A_lt y2 Hy2) (eq_sym E)).
  - exfalso. exact (e_not_pred c2 L2 (eq_sym E)).
  - exfalso. exact (e_not_pred y1 (A_lt y1 Hy1) E).
  - apply (pred_inj C s HT) in E; [|apply A_lt; exact Hy1|apply A_lt; exact Hy2]. congruence.
  - apply (pred_inj C s HT) in E; [|apply A_lt; exact Hy1|exact L2]. exfalso. apply Hoff2. left. rewrite <- E. exact Hy1.
  - exfalso. exact (e_not_pred c1 L1 E).
  - apply (pred_inj C s HT) in E; [|exact L1|apply A_lt; exact Hy2]. exfalso. apply Hoff1. left. rewrite E. exact Hy2.
  - apply (pred_inj C s HT) in E; assumption.
Qed.

Lemma tree_np_in : forall v, Sset v -> v <> q -> Sset (np v).
Proof.
  intros v Hv Hne. destruct (np_spec v) as [(E & _)|[(_ & y & Hy & _ & N1 & _)|(_ & Hoff & _ & N1 & _)]]; [contradiction| |].
  - rewrite N1. apply S_A. exact Hy.
  - rewrite N1. apply S_par; [exact Hv|]. intros ->. apply Hoff. right. reflexivity.
Qed.

Lemma tree_rk_decr : forall v, Sset v -> Sset (np v) -> 0 <= rk (np v) < rk v.
Proof.
  intros v Hv Hnv. pose proof (S_lt v Hv) as Hvn. pose proof (t_depnn C s HT) as Hnn.
  assert (Hq0 : 0 <= dep q) by (apply Hnn; pose proof (S_lt q S_q); lia).
  destruct (np_spec v) as [(E & N1 & _)|[(Hvq & y & Hy & E & N1 & _)|(Hvq & Hoff & _ & N1 & _)]].
  - exfalso. rewrite N1 in Hnv. contradiction.
  - rewrite N1. unfold rk.
    assert (O1 : onpb y = true) by (apply onpb_spec; left; exact Hy).
    assert (O2 : onpb v = true) by (apply onpb_spec; rewrite <- E; apply A_par; exact Hy).
    rewrite O1, O2. pose proof (t_dep C s HT y (A_lt y Hy)) as Hd. rewrite E in Hd.
    pose proof (dep_le_q y (or_introl Hy)). lia.
  - rewrite N1. unfold rk.
    assert (O2 : onpb v = false).
    { destruct (onpb v) eqn:Eo; [|reflexivity]. apply onpb_spec in Eo. contradiction. }
    rewrite O2. pose proof (t_dep C s HT v Hvn) as Hd. pose proof (Hnn (par v) (t_par C s HT v Hvn)) as Hp0.
    destruct (onpb (par v)) eqn:Eo.
    + apply onpb_spec in Eo. pose proof (dep_le_q _ Eo). lia.
    + lia.
Qed.

Lemma np_le v : (v < n)%nat -> (np v <= n)%nat.
Proof.
  intros Hv. destruct (np_spec v) as [(_ & N1 & _)|[(_ & y & Hy & _ & N1 & _)|(_ & _ & _ & N1 & _)]]; rewrite N1.
  - exact Hpn.
  - pose proof (A_lt y Hy). lia.
  - apply (t_par C s HT v Hv).
Qed.

Lemma npred_ok v : (v < n)%nat ->
  (npred v < T)%nat /\ joins C (npred v) v (np v) /\ (npred v = e \/ (nz (state s) (npred v) = 0 /\ (onp v \/ v <> x))).
Proof.
  intros Hv. destruct (np_spec v) as [(E & N1 & N2)|[(_ & y & Hy & E & N1 & N2)|(_ & Hoff & _ & N1 & N2)]]; rewrite N1, N2.
  - split; [exact He|]. split; [rewrite E; exact Hje|left; reflexivity].
  - pose proof (A_lt y Hy) as Hyn. destruct (t_pred C s HT y Hyn) as [Ha J]. split; [exact Ha|].
    split; [rewrite <- E; apply joins_sym; exact J|]. right. split; [apply (i_predst C b s I y Hyn)|].
    left. rewrite <- E. apply A_par. exact Hy.
  - destruct (t_pred C s HT v Hv) as [Ha J]. split; [exact Ha|]. split; [exact J|]. right.
    split; [apply (i_predst C b s I v Hv)|]. right. intros ->. apply Hoff. right. reflexivity.
Qed.

Theorem rehang_tree : forall f par' prd' dep' p' fl adj st,
  rehang C f adj4 [q] (upd (parent s) q pnode, upd (pred s) q e, depth s, pi s) = Some (par', prd', dep', p') ->
  let s' := {| flow := fl; parent := par'; pred := prd'; depth := dep'; tadj := adj; pi := p'; state := st |} in
  length par' = S n /\ length prd' = S n /\ length dep' = S n /\ length p' = S n /\
  TreeOK C s' /\
  (forall v, (v < n)%nat -> nn prd' v = e \/ (nz (state s) (nn prd' v) = 0 /\ nn prd' v <> prd x)) /\
  (forall v, (v < n)%nat ->
     nz p' v = (if Nat.eqb (src (nn prd' v)) v then nz p' (nn par' v) + cst (nn prd' v)
                else nz p' (nn par' v) - cst (nn prd' v))) /\
  nz p' n = 0.
Proof.
  intros f par' prd' dep' p' fl adj st H s'.
  pose proof (S_lt q S_q) as Hqn.
  destruct (rehang_correct C adj4 Sset np npred q pnode rk
              (upd (parent s) q pnode) (upd (pred s) q e) (depth s) (pi s)) with (f := f) (par' := par') (prd' := prd') (dep' := dep') (p' := p')
    as (L1 & L2 & L3 & L4 & Sdec & Hout & Hin).
  - rewrite length_upd. apply (i_lpar C b s I).
  - rewrite length_upd. apply (i_lpred C b s I).
  - apply (i_ldep C b s I).
  - apply (i_lpi C b s I).
  - exact S_lt.
  - exact HpS.
  - exact S_q.
  - unfold np. rewrite Nat.eqb_refl. reflexivity.
  - exact tree_np_in.
  - exact tree_rk_decr.
  - exact tree_adj_child.
  - exact tree_adj_all.
  - intros v Hv. apply Hadj4. pose proof (S_lt v Hv). lia.
  - exact tree_pred_inj.
  - apply (t_depnn C s HT). exact Hpn.
  - apply nn_upd_same. rewrite (i_lpar C b s I). lia.
  - unfold npred. rewrite Nat.eqb_refl. apply nn_upd_same. rewrite (i_lpred C b s I). lia.
  - exact H.
  - assert (HnS : ~ Sset n) by (intros Hs; apply S_lt in Hs; lia).
    assert (Hold : forall v, ~ Sset v -> nn par' v = par v /\ nn prd' v = prd v /\ nz dep' v = dep v /\ nz p' v = nz (pi s) v).
    { intros v Hv. destruct (Hout v Hv) as (O1 & O2 & O3 & O4).
      assert (Hvq : v <> q) by (intros ->; apply Hv; exact S_q).
      rewrite nn_upd_other in O1, O2 by exact Hvq. auto. }
    assert (Hnode : forall v, (v < n)%nat ->
              (nn par' v <= n)%nat /\ (nn prd' v < T)%nat /\ joins C (nn prd' v) v (nn par' v) /\
              nz dep' v = nz dep' (nn par' v) + 1 /\
              (nn prd' v = e \/ (nz (state s) (nn prd' v) = 0 /\ nn prd' v <> prd x)) /\
              nz p' v = (if Nat.eqb (src (nn prd' v)) v then nz p' (nn par' v) + cst (nn prd' v)
                         else nz p' (nn par' v) - cst (nn prd' v))).
    { intros v Hv. destruct (Sdec v) as [Hs|Hs].
      * destruct (Hin v Hs) as (N1 & N2 & N3 & N4 & N5). unfold pi_rel in N5. rewrite N1, N2.
        destruct (npred_ok v Hv) as (P1 & P2 & P3).
        split; [apply np_le; exact Hv|]. split; [exact P1|]. split; [exact P2|]. split; [exact N4|]. split; [|exact N5].
        destruct P3 as [P3|[P3 _]]; [left; exact P3|right; split; [exact P3|apply npred_not_leaving; exact Hs]].
      * destruct (Hold v Hs) as (O1 & O2 & O3 & O4). rewrite O1, O2, O3, O4.
        assert (HpS' : ~ Sset (par v)) by (intros H'; apply Hs; apply S_child; assumption).
        destruct (Hold (par v) HpS') as (_ & _ & Q3 & Q4). rewrite Q3, Q4.
        destruct (t_pred C s HT v Hv) as [Ha J].
        split; [apply (t_par C s HT v Hv)|]. split; [exact Ha|]. split; [exact J|]. split; [apply (t_dep C s HT v Hv)|].
        split; [|apply (i_pi C b s I v Hv)]. right. split; [apply (i_predst C b s I v Hv)|].
        intros E. apply (pred_inj C s HT) in E; [|exact Hv|exact Hx]. apply Hs. rewrite E. exact S_x. }
    split; [exact L1|]. split; [exact L2|]. split; [exact L3|]. split; [exact L4|]. split; [|split; [|split]].
    + constructor; cbn [s' parent pred depth].
      * intros v Hv. apply (Hnode v Hv).
      * intros v Hv. apply (Hnode v Hv).
      * destruct (Hold n HnS) as (_ & _ & O3 & _). rewrite O3. apply (t_dep0 C s HT).
      * intros v Hv. destruct (Sdec v) as [Hs|Hs].
        -- destruct (Hin v Hs) as (_ & _ & N3 & _). lia.
        -- destruct (Hold v Hs) as (_ & _ & O3 & _). rewrite O3. apply (t_depnn C s HT). exact Hv.
      * intros v Hv. split; apply (Hnode v Hv).
    + intros v Hv. apply (Hnode v Hv).
    + intros v Hv. apply (Hnode v Hv).
    + destruct (Hold n HnS) as (_ & _ & _ & O4). rewrite O4. apply (i_pi0 C b s I).
Qed.

End Tree.
