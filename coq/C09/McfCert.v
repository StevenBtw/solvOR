(* C09 - certificates: optimality by node potentials (LP-duality style summation over the arcs),
   infeasibility by a cut, and soundness of the boolean checkers of McfSpec. *)
From Coq Require Import List ZArith Bool Arith Lia.
From SV Require Import C09.Mcf C09.McfSpec C09.McfAug.
Import ListNotations.
Open Scope Z_scope.
Import Mcf McfSpec.

(* sum over the nodes w < n of pi w * g w *)
Fixpoint wsum (pi g : nat -> Z) (n : nat) : Z :=
  match n with O => 0 | S k => wsum pi g k + pi k * g k end.

(* sum over the arcs of (pi tail - pi head) * flow *)
Fixpoint psum (pi : nat -> Z) (arcs : list arc) (f : list Z) : Z :=
  match arcs, f with
  | a :: arcs', x :: f' => (pi (a_u a) - pi (a_v a)) * x + psum pi arcs' f'
  | _, _ => 0
  end.

(* sum over the arcs of reduced cost * flow *)
Fixpoint rcsum (pi : nat -> Z) (arcs : list arc) (f : list Z) : Z :=
  match arcs, f with
  | a :: arcs', x :: f' => rc pi a * x + rcsum pi arcs' f'
  | _, _ => 0
  end.

Lemma wsum_ext pi g h n : (forall w, (w < n)%nat -> g w = h w) -> wsum pi g n = wsum pi h n.
Proof.
  induction n as [|k IH]; intros H; cbn [wsum]; [reflexivity|].
  rewrite IH by (intros w Hw; apply H; lia). rewrite (H k) by lia. reflexivity.
Qed.

Lemma wsum_zero pi n : wsum pi (fun _ => 0) n = 0.
Proof. induction n as [|k IH]; cbn [wsum]; [reflexivity|]. rewrite IH. lia. Qed.

Lemma wsum_add pi g h n : wsum pi (fun w => g w + h w) n = wsum pi g n + wsum pi h n.
Proof. induction n as [|k IH]; cbn [wsum]; [reflexivity|]. rewrite IH. lia. Qed.

Lemma wsum_sub pi g h n : wsum pi (fun w => g w - h w) n = wsum pi g n - wsum pi h n.
Proof. induction n as [|k IH]; cbn [wsum]; [reflexivity|]. rewrite IH. lia. Qed.

Lemma wsum_delta_ge pi u x n : (n <= u)%nat -> wsum pi (delta u x) n = 0.
Proof.
  induction n as [|k IH]; intros H; cbn [wsum]; [reflexivity|].
  rewrite IH by lia. unfold delta. destruct (Nat.eqb_spec u k); lia.
Qed.

Lemma wsum_delta pi u x n : (u < n)%nat -> wsum pi (delta u x) n = pi u * x.
Proof.
  induction n as [|k IH]; intros H; cbn [wsum]; [lia|].
  destruct (Nat.eq_dec u k) as [->|Hne].
  - rewrite wsum_delta_ge by lia. unfold delta. rewrite Nat.eqb_refl. lia.
  - rewrite IH by lia. unfold delta. destruct (Nat.eqb_spec u k); [contradiction|lia].
Qed.

Lemma valid_arcs_in n arcs a : valid_arcs n arcs = true -> In a arcs ->
  (a_u a < n)%nat /\ (a_v a < n)%nat /\ 0 <= a_cap a.
Proof.
  unfold valid_arcs. intros H Ha. rewrite forallb_forall in H. specialize (H a Ha).
  apply andb_prop in H. destruct H as [H H3]. apply andb_prop in H. destruct H as [H1 H2].
  apply Nat.ltb_lt in H1. apply Nat.ltb_lt in H2. apply Z.leb_le in H3. auto.
Qed.

Lemma valid_arcs_caps n arcs : valid_arcs n arcs = true -> forallb (fun a => 0 <=? a_cap a) arcs = true.
Proof.
  intros H. apply forallb_forall. intros a Ha. apply Z.leb_le. exact (proj2 (proj2 (valid_arcs_in n arcs a H Ha))).
Qed.

Lemma valid_arcs_cons n a arcs :
  valid_arcs n (a :: arcs) = true ->
  (a_u a < n)%nat /\ (a_v a < n)%nat /\ 0 <= a_cap a /\ valid_arcs n arcs = true.
Proof.
  unfold valid_arcs. cbn [forallb]. intros H.
  apply andb_prop in H. destruct H as [H1 H2].
  apply andb_prop in H1. destruct H1 as [H1 H3]. apply andb_prop in H1. destruct H1 as [H1 H4].
  apply Nat.ltb_lt in H1. apply Nat.ltb_lt in H4. apply Z.leb_le in H3. auto.
Qed.

(* exchanging the order of summation: nodes x arcs *)
Lemma wsum_netout pi n arcs : forall f,
  valid_arcs n arcs = true -> wsum pi (netout arcs f) n = psum pi arcs f.
Proof.
  induction arcs as [|a arcs IH]; intros f Hv.
  - cbn [netout psum]. apply wsum_zero.
  - destruct f as [|x f].
    + cbn [netout psum]. apply wsum_zero.
    + apply valid_arcs_cons in Hv. destruct Hv as (Hu & Hv' & _ & Hrest).
      cbn [netout psum].
      rewrite (wsum_ext pi _ (fun w => (delta (a_u a) x w - delta (a_v a) x w) + netout arcs f w))
        by (intros w _; reflexivity).
      rewrite wsum_add, wsum_sub, !wsum_delta by assumption. rewrite IH by assumption. lia.
Qed.

Lemma cost_split pi arcs : forall f, flow_cost arcs f = rcsum pi arcs f - psum pi arcs f.
Proof.
  induction arcs as [|a arcs IH]; intros f; [reflexivity|].
  destruct f as [|x f]; [reflexivity|].
  cbn [flow_cost rcsum psum]. rewrite IH. unfold rc. lia.
Qed.

Lemma psum_balanced pi n arcs b f :
  valid_arcs n arcs = true -> balanced n arcs b f -> psum pi arcs f = wsum pi b n.
Proof.
  intros Hv Hb. rewrite <- (wsum_netout pi n arcs f Hv). apply wsum_ext. exact Hb.
Qed.

Lemma rcsum_le pi arcs : forall f f',
  bounded arcs f -> bounded arcs f' -> reduced_ok pi arcs f -> rcsum pi arcs f <= rcsum pi arcs f'.
Proof.
  induction arcs as [|a arcs IH]; intros f f' Hb Hb' Hr.
  - destruct f; destruct f'; cbn; lia.
  - destruct f as [|x f]; [contradiction|]. destruct f' as [|x' f']; [contradiction|].
    cbn [bounded] in Hb, Hb'. cbn [reduced_ok] in Hr. cbn [rcsum].
    destruct Hb as [Hx Hb]. destruct Hb' as [Hx' Hb']. destruct Hr as (Hr1 & Hr2 & Hr).
    specialize (IH f f' Hb Hb' Hr).
    assert (rc pi a * x <= rc pi a * x').
    { destruct (Z.lt_trichotomy x x') as [Hlt|[->|Hgt]].
      - apply Z.mul_le_mono_nonneg_l; [apply Hr1|]; lia.
      - lia.
      - apply Z.mul_le_mono_nonpos_l; [apply Hr2|]; lia. }
    lia.
Qed.

(* THE certificate theorem: a feasible flow with potentials whose reduced costs are non-negative on every
   residual edge of positive residual capacity is of minimum cost among all feasible flows for the same b *)
Theorem cert_optimal : forall n arcs b f pi,
  valid_arcs n arcs = true ->
  feasible n arcs b f -> reduced_ok pi arcs f ->
  forall f', feasible n arcs b f' -> flow_cost arcs f <= flow_cost arcs f'.
Proof.
  intros n arcs b f pi Hv [Hb Hbal] Hr f' [Hb' Hbal'].
  rewrite (cost_split pi arcs f), (cost_split pi arcs f').
  rewrite (psum_balanced pi n arcs b f Hv Hbal), (psum_balanced pi n arcs b f' Hv Hbal').
  pose proof (rcsum_le pi arcs f f' Hb Hb' Hr). lia.
Qed.

Lemma bounded_b_sound arcs : forall f, bounded_b arcs f = true -> bounded arcs f.
Proof.
  induction arcs as [|a arcs IH]; intros f H; destruct f as [|x f]; cbn [bounded bounded_b] in *; try discriminate; [exact I|].
  apply andb_prop in H. destruct H as [H1 H2]. apply andb_prop in H1. destruct H1 as [H0 H1].
  apply Z.leb_le in H0. apply Z.leb_le in H1. split; [lia|]. apply IH. exact H2.
Qed.

Lemma balanced_b_sound n arcs b f : balanced_b n arcs b f = true -> balanced n arcs b f.
Proof.
  unfold balanced_b, balanced. intros H w Hw.
  rewrite forallb_forall in H. apply Z.eqb_eq. apply H. apply in_seq. lia.
Qed.

Lemma feasible_b_sound n arcs b f : feasible_b n arcs b f = true -> feasible n arcs b f.
Proof.
  unfold feasible_b. intros H. apply andb_prop in H. destruct H as [H1 H2].
  split; [apply bounded_b_sound | apply balanced_b_sound]; assumption.
Qed.

Lemma reduced_b_sound pi arcs : forall f, reduced_b pi arcs f = true -> reduced_ok pi arcs f.
Proof.
  induction arcs as [|a arcs IH]; intros f H; destruct f as [|x f]; cbn [reduced_ok]; try exact I.
  cbn [reduced_b] in H. apply andb_prop in H. destruct H as [H1 H3]. apply andb_prop in H1. destruct H1 as [H1 H2].
  split; [|split; [|apply IH; exact H3]].
  - intros Hx. apply Z.ltb_lt in Hx. rewrite Hx in H1. apply Z.leb_le in H1. exact H1.
  - intros Hx. apply Z.ltb_lt in Hx. rewrite Hx in H2. apply Z.leb_le in H2. exact H2.
Qed.

Theorem cert_check_sound : forall n arcs b f pi,
  cert_check n arcs b f pi = true -> min_cost n arcs b f.
Proof.
  intros n arcs b f pi H. unfold cert_check in H.
  apply andb_prop in H. destruct H as [H1 H3]. apply andb_prop in H1. destruct H1 as [H1 H2].
  apply feasible_b_sound in H2. apply reduced_b_sound in H3.
  split; [exact H2|]. exact (cert_optimal n arcs b f (pot pi) H1 H2 H3).
Qed.

Definition piS (S : list bool) (w : nat) : Z := if inS S w then 1 else 0.

Lemma wsum_piS b S n : wsum (piS S) b n = sum_b b S n.
Proof.
  induction n as [|k IH]; cbn [wsum sum_b]; [reflexivity|]. rewrite IH. unfold piS.
  destruct (inS S k); lia.
Qed.

Lemma psum_cut S arcs : forall f, bounded arcs f ->
  - cut_in S arcs <= psum (piS S) arcs f <= cut_cap S arcs.
Proof.
  induction arcs as [|a arcs IH]; intros f Hb.
  - cbn. lia.
  - destruct f as [|x f]; [contradiction|]. cbn [bounded] in Hb. destruct Hb as [Hx Hb].
    specialize (IH f Hb). cbn [psum cut_cap cut_in]. set (P := psum (piS S) arcs f) in *. unfold piS.
    destruct (inS S (a_u a)); destruct (inS S (a_v a)); cbn [andb negb]; cbv beta iota; lia.
Qed.

Theorem cut_check_sound : forall n arcs b S,
  cut_check n arcs b S = true -> infeasible n arcs b.
Proof.
  intros n arcs b S H f [Hb Hbal]. unfold cut_check in H.
  apply andb_prop in H. destruct H as [Hv H].
  pose proof (psum_cut S arcs f Hb) as Hc.
  rewrite (psum_balanced (piS S) n arcs b f Hv Hbal), wsum_piS in Hc.
  apply orb_prop in H. destruct H as [H|H]; apply Z.ltb_lt in H; lia.
Qed.

Lemma key_eqb_spec u v u' v' : reflect (u = u' /\ v = v') (Nat.eqb u u' && Nat.eqb v v').
Proof. destruct (Nat.eqb_spec u u'), (Nat.eqb_spec v v'); constructor; tauto. Qed.

Lemma dict_get_in d : forall u v y, dict_get d u v = Some y -> In (u, v, y) d.
Proof.
  induction d as [|[[u' v'] y'] d IH]; intros u v y H; cbn [dict_get] in H; [discriminate|].
  destruct (key_eqb_spec u v u' v') as [[-> ->]|_]; [inversion H; subst; left; reflexivity|right; apply IH; exact H].
Qed.

Lemma pair_sum_nonzero_arc arcs u v : forall f, pair_sum arcs f u v <> 0 ->
  exists a, In a arcs /\ a_u a = u /\ a_v a = v.
Proof.
  (* without arcs or without flow values the pair sum is 0 *)
  induction arcs as [|a arcs IH]; intros [|x f] H; cbn [pair_sum] in H;
    [destruct (H eq_refl)|destruct (H eq_refl)|destruct (H eq_refl)|].
  destruct (key_eqb_spec (a_u a) (a_v a) u v) as [Hk|_]; [exists a; split; [left; reflexivity|exact Hk]|].
  destruct (IH f H) as (b & Hb & Hk). exists b. split; [right; exact Hb|exact Hk].
Qed.

Theorem pooled_b_sound : forall arcs f d, pooled_b arcs f d = true -> pooled arcs f d.
Proof.
  intros arcs f d H u v. unfold pooled_b in H. apply andb_prop in H. destruct H as [Ha Hd].
  rewrite forallb_forall in Ha, Hd.
  destruct (dict_get d u v) as [y|] eqn:E.
  - apply dict_get_in in E. specialize (Hd _ E). cbn in Hd. apply Z.eqb_eq in Hd. exact Hd.
  - destruct (Z.eq_dec (pair_sum arcs f u v) 0) as [Hz|Hnz]; [unfold get0; rewrite E, Hz; reflexivity|].
    destruct (pair_sum_nonzero_arc arcs u v f Hnz) as (a & Hin & <- & <-).
    specialize (Ha _ Hin). cbn in Ha. apply Z.eqb_eq in Ha. exact Ha.
Qed.

