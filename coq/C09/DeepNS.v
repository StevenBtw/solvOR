(* C09 deepening - (5): network_simplex, the exit of the main loop.  The loop answers OPTIMAL only when the pricing rule finds no
   entering arc, i.e. every arc in state 1 (at lower bound) has reduced cost >= 0 and every arc in state -1 (at upper
   bound) has reduced cost <= 0.  Together with three facts about the FINAL state that are boolean-checkable
   (ns_final_ok_b: the original arcs' flows are feasible for the supplies; state 1 => flow 0, state -1 => flow = cap,
   state 0 => reduced cost 0) the negated potentials are an optimality certificate (McfCert.cert_optimal).
   That these three facts hold in every state the loop stops in without artificial flow is DeepNS2Exit.final_ok_b
   (through the spanning-tree invariants of parent/pred/depth/tree_adj, DeepNS2Base.NSInv).
   Also here: what the pricing rule returns when it returns an arc, the pass of the loop cut into named pieces (step2),
   and the induction over the main loop. *)
From Coq Require Import List ZArith Bool Lia.
From SV Require Import C09.Mcf C09.McfSpec C09.McfCert C09.NetSimplex C09.DeepPot.
Import ListNotations.
Open Scope Z_scope.
Import Mcf McfSpec NetSimplex.

Section Pricing.
Variable C : consts.
Variable s : st.

Definition prstep (acc : option nat * Z) (arc : nat) : option nat * Z :=
  let '(ent, best) := acc in
  let sa := nz (state s) arc in
  if sa =? 0 then acc
  else let rc := redcost C s arc in
       if ((sa =? 1) && (rc <? best))%bool then (Some arc, rc)
       else if ((sa =? -1) && (- rc <? best))%bool then (Some arc, - rc)
       else acc.

Lemma pricing_fold : pricing C s = fst (fold_left prstep (seq 0 (c_m C + c_n C)) (None, 0)).
Proof. reflexivity. Qed.

(* what an arc bids: its reduced cost counted against the bound it sits at; the fold keeps the lowest bid below 0 *)
Definition score (arc : nat) : Z :=
  if nz (state s) arc =? 1 then redcost C s arc else if nz (state s) arc =? -1 then - redcost C s arc else 0.

Lemma prstep_score ent best arc : best <= 0 ->
  prstep (ent, best) arc = if score arc <? best then (Some arc, score arc) else (ent, best).
Proof.
  intros Hb. unfold prstep, score. destruct (Z.eqb_spec (nz (state s) arc) 0) as [E|_].
  - rewrite E. cbn. destruct (Z.ltb_spec 0 best); [lia|reflexivity].
  - destruct (Z.eqb_spec (nz (state s) arc) 1) as [E|_]; cbn [andb]; [rewrite E; destruct (_ <? _); reflexivity|].
    destruct (nz (state s) arc =? -1); cbn [andb]; [reflexivity|]. destruct (Z.ltb_spec 0 best); [lia|reflexivity].
Qed.

Lemma prfold_spec : forall l ent best, best <= 0 -> (ent = None -> best = 0) ->
  exists ent' best', fold_left prstep l (ent, best) = (ent', best') /\ best' <= best /\ (ent' = None -> best' = 0) /\
    (forall a, In a l -> best' <= score a) /\
    (forall e, ent' = Some e -> ent = Some e \/ (In e l /\ score e < 0)).
Proof.
  induction l as [|x l IH]; intros ent best Hb Hn; cbn [fold_left].
  - exists ent, best. split; [reflexivity|]. split; [lia|]. split; [exact Hn|]. split; [intros a []|auto].
  - rewrite prstep_score by exact Hb. destruct (Z.ltb_spec (score x) best) as [Hlt|Hge].
    + destruct (IH (Some x) (score x) ltac:(lia) ltac:(discriminate)) as (ent' & best' & E & H1 & H2 & H3 & H4).
      exists ent', best'. split; [exact E|]. split; [lia|]. split; [exact H2|]. split.
      * intros a [<-|Ha]; [exact H1|exact (H3 a Ha)].
      * intros e He. right. destruct (H4 e He) as [E'|[Hin Hs]]; [inversion E'; subst x; split; [left; reflexivity|lia]|].
        split; [right; exact Hin|exact Hs].
    + destruct (IH ent best Hb Hn) as (ent' & best' & E & H1 & H2 & H3 & H4).
      exists ent', best'. split; [exact E|]. split; [exact H1|]. split; [exact H2|]. split.
      * intros a [<-|Ha]; [lia|exact (H3 a Ha)].
      * intros e He. destruct (H4 e He) as [E'|[Hin Hs]]; [left; exact E'|right; split; [right; exact Hin|exact Hs]].
Qed.

Definition signs_ok (arc : nat) : Prop :=
  (nz (state s) arc = 1 -> 0 <= redcost C s arc) /\ (nz (state s) arc = -1 -> redcost C s arc <= 0).

Lemma pricing_none : pricing C s = None ->
  forall arc, (arc < c_m C + c_n C)%nat -> signs_ok arc.
Proof.
  intros H arc Harc. rewrite pricing_fold in H.
  destruct (prfold_spec (seq 0 (c_m C + c_n C)) None 0 ltac:(lia) ltac:(reflexivity)) as (ent' & best' & E & _ & H2 & H3 & _).
  rewrite E in H. cbn [fst] in H. specialize (H3 arc ltac:(apply in_seq; lia)). rewrite (H2 H) in H3. unfold score in H3.
  split; intros Es; rewrite Es in H3; cbn in H3; lia.
Qed.

Definition price_ok (e : nat) : Prop :=
  (nz (state s) e = 1 /\ redcost C s e < 0) \/ (nz (state s) e = -1 /\ 0 < redcost C s e).

Lemma pricing_some e : pricing C s = Some e -> (e < c_m C + c_n C)%nat /\ price_ok e.
Proof.
  intros H. rewrite pricing_fold in H.
  destruct (prfold_spec (seq 0 (c_m C + c_n C)) None 0 ltac:(lia) ltac:(reflexivity)) as (ent' & best' & E & _ & _ & _ & H4).
  rewrite E in H. cbn [fst] in H. destruct (H4 e H) as [E'|[Hin Hs]]; [discriminate|]. apply in_seq in Hin.
  split; [lia|]. unfold score in Hs. unfold price_ok.
  destruct (Z.eqb_spec (nz (state s) e) 1); [left; lia|]. destruct (Z.eqb_spec (nz (state s) e) (-1)); [right; lia|lia].
Qed.

End Pricing.

(* tree_adj[node].discard(arc) / .add(arc) *)
Definition adj_discard (adj : list (list nat)) (node arc : nat) : list (list nat) :=
  upd adj node (filter (fun a => negb (Nat.eqb a arc)) (nth node adj [])).
Definition adj_add (adj : list (list nat)) (node arc : nat) : list (list nat) :=
  if existsb (Nat.eqb arc) (nth node adj []) then adj else upd adj node (nth node adj [] ++ [arc]).

Section Pass.
Variable C : consts.
Local Notation n := (c_n C).
Local Notation src a := (nn (c_src C) a).
Local Notation tgt a := (nn (c_tgt C) a).
Local Notation cap a := (nz (c_cap C) a).

Definition new_adj (s : st) (l e : nat) : list (list nat) :=
  adj_add (adj_add (adj_discard (adj_discard (tadj s) (src l) l) (tgt l) l) (src e) e) (tgt e) e.

(* the three outcomes of a pass, with the let-bound lambdas of the model named *)
Definition reflow (s : st) (fl : list Z) : st :=
  {| flow := fl; parent := parent s; pred := pred s; depth := depth s; tadj := tadj s; pi := pi s; state := state s |}.

Definition pivot_tree (s : st) (e l : nat) (lf : bool) (first second : nat) (fl2 : list Z) : step_res :=
  let q := if lf then first else second in
  let pn := if lf then second else first in
  match rehang C (n + 2) (new_adj s l e) [q] (upd (parent s) q pn, upd (pred s) q e, depth s, pi s) with
  | None => Hang
  | Some (par', prd', dep', p') =>
      Next {| flow := fl2; parent := par'; pred := prd'; depth := dep'; tadj := new_adj s l e; pi := p';
              state := upd (upd (state s) e 0) l (if nz fl2 l =? 0 then 1 else -1) |}
  end.

Definition pivot (s : st) (e : nat) (neg : bool) (first second join : nat) (delta : Z) (l : nat) (lf : bool) : step_res :=
  if ((delta =? 0) && Nat.eqb l e)%bool then Next (flip s e)
  else
    match push C (2 * (n + 1) + 2) s true first join delta
            (upd (flow s) e (if neg then nz (flow s) e + delta else nz (flow s) e - delta)) with
    | None => Hang
    | Some fl1 =>
        match push C (2 * (n + 1) + 2) s false second join delta fl1 with
        | None => Hang
        | Some fl2 => if Nat.eqb l e then Next (flip (reflow s fl2) e) else pivot_tree s e l lf first second fl2
        end
    end.

Definition step2 (s : st) : step_res :=
  match pricing C s with
  | None => Optimal
  | Some e =>
      let neg := redcost C s e <? 0 in
      let first := if neg then src e else tgt e in
      let second := if neg then tgt e else src e in
      let delta0 := if neg then cap e - nz (flow s) e else nz (flow s) e in
      match find_join (2 * (n + 1) + 2) s first second with
      | None => Hang
      | Some join =>
          match ratio C (2 * (n + 1) + 2) s true first join (delta0, e, true) with
          | None => Hang
          | Some acc1 =>
              match ratio C (2 * (n + 1) + 2) s false second join acc1 with
              | None => Hang
              | Some (delta, l, lf) => pivot s e neg first second join delta l lf
              end
          end
      end
  end.

Lemma step_eq s : step C s = step2 s.
Proof. reflexivity. Qed.

(* every branch of a pass below a successful pricing ends in Hang or Next *)
Lemma step_optimal s : step C s = Optimal -> pricing C s = None.
Proof.
  rewrite step_eq. unfold step2. destruct (pricing C s) as [e|]; [|reflexivity]. cbv zeta. intros H. exfalso.
  destruct (find_join _ _ _ _) as [join|]; [|discriminate].
  destruct (ratio C _ s true _ _ _) as [acc1|]; [|discriminate].
  destruct (ratio C _ s false _ _ _) as [[[delta l] lf]|]; [|discriminate].
  unfold pivot in H. destruct (_ && _)%bool; [discriminate|].
  destruct (push C _ s true _ _ _ _) as [fl1|]; [|discriminate].
  destruct (push C _ s false _ _ _ _) as [fl2|]; [|discriminate].
  destruct (Nat.eqb l e); [discriminate|].
  unfold pivot_tree in H. destruct (rehang C _ _ _ _) as [[[[par' prd'] dep'] p']|]; discriminate.
Qed.

End Pass.

Lemma loop_run C (P : st -> Prop) (HP : forall s s', P s -> step C s = Next s' -> P s') :
  forall fuel mi s it stt s' it', P s -> loop C fuel mi s it = Some (stt, s', it') ->
  P s' /\ ((stt = OPTIMAL /\ step C s' = Optimal) \/ stt = MAX_ITER).
Proof.
  induction fuel as [|fuel IH]; intros mi s it stt s' it' I H; cbn [loop] in H.
  - destruct (it <? mi); [discriminate|]. inversion H; subst. auto.
  - destruct (it <? mi); [|inversion H; subst; auto].
    destruct (step C s) as [| |s1] eqn:Es; [inversion H; subst; auto|discriminate|].
    exact (IH _ _ _ _ _ _ (HP s s1 I Es) H).
Qed.

Lemma loop_optimal C fuel mi s it s' it' :
  loop C fuel mi s it = Some (OPTIMAL, s', it') -> pricing C s' = None.
Proof.
  intros H. destruct (loop_run C (fun _ => True) (fun _ _ _ _ => I) _ _ _ _ _ _ _ I H) as [_ [[_ Hs]|E]];
    [exact (step_optimal C s' Hs)|discriminate].
Qed.

(* reduced costs have the right sign on every arc that is not in the basis, whenever the loop answers OPTIMAL *)
Theorem ns_exit_signs : forall n arcs sup fuel mi s it,
  loop (mk_consts n arcs sup) fuel mi (init_st n arcs sup) 0 = Some (OPTIMAL, s, it) ->
  forall arc, (arc < length arcs + n)%nat ->
    (nz (state s) arc = 1 -> 0 <= redcost (mk_consts n arcs sup) s arc) /\
    (nz (state s) arc = -1 -> redcost (mk_consts n arcs sup) s arc <= 0).
Proof.
  intros n arcs sup fuel mi s it H arc Harc.
  exact (pricing_none _ s (loop_optimal _ _ _ _ _ _ _ H) arc Harc).
Qed.

(* the (checkable) consistency of the final state that turns the exit condition into optimality *)
Definition state_ok_b (n : nat) (arcs : list arc) (sup : list Z) (s : st) : bool :=
  forallb (fun k => let x := nz (flow s) k in let sa := nz (state s) k in
             (((sa =? 1) && (x =? 0)) || ((sa =? -1) && (x =? a_cap (nth k arcs arc0)))
              || ((sa =? 0) && (redcost (mk_consts n arcs sup) s k =? 0)))%bool)
          (seq 0 (length arcs)).

Definition ns_final_ok_b (n : nat) (arcs : list arc) (sup : list Z) (s : st) : bool :=
  (valid_arcs n arcs && feasible_b n arcs (supply_b sup) (firstn (length arcs) (flow s))
   && state_ok_b n arcs sup s)%bool.

Lemma nth_firstn_lt {A} (d : A) : forall m l k, (k < m)%nat -> nth k (firstn m l) d = nth k l d.
Proof.
  induction m as [|m IH]; intros l k Hk; [lia|]. destruct l as [|x l]; [reflexivity|].
  destruct k as [|k]; [reflexivity|]. cbn [firstn nth]. apply IH. lia.
Qed.

Lemma redcost_orig n arcs sup s k : (k < length arcs)%nat ->
  redcost (mk_consts n arcs sup) s k =
  rc (fun w => - nz (pi s) w) (nth k arcs arc0).
Proof.
  intros Hk. unfold redcost, rc, mk_consts, nz, nn. cbn [c_cost c_src c_tgt].
  rewrite !app_nth1 by (rewrite map_length; exact Hk).
  change 0 with (a_c arc0) at 1. rewrite (map_nth a_c).
  change 0%nat with (a_u arc0) at 1. rewrite (map_nth a_u).
  change 0%nat with (a_v arc0) at 1. rewrite (map_nth a_v). lia.
Qed.

Lemma final_ok_min_cost n arcs sup s : pricing (mk_consts n arcs sup) s = None ->
  ns_final_ok_b n arcs sup s = true ->
  min_cost n arcs (supply_b sup) (firstn (length arcs) (flow s)).
Proof.
  intros Hp Hok. unfold ns_final_ok_b in Hok.
  apply andb_prop in Hok. destruct Hok as [Hok Hst]. apply andb_prop in Hok. destruct Hok as [Hva Hfe].
  apply feasible_b_sound in Hfe. split; [exact Hfe|].
  apply (cert_optimal n arcs _ _ (fun w => - nz (pi s) w) Hva Hfe).
  apply reduced_ok_nth. intros k Hk _. rewrite (nth_firstn_lt 0) by exact Hk.
  unfold state_ok_b in Hst. rewrite forallb_forall in Hst. specialize (Hst k ltac:(apply in_seq; lia)). cbv zeta in Hst.
  destruct (pricing_none _ s Hp k ltac:(cbn; lia)) as [S1 S2].
  rewrite <- (redcost_orig n arcs sup s k Hk). unfold nz in *.
  apply orb_prop in Hst. destruct Hst as [Hst|Hst]; [apply orb_prop in Hst; destruct Hst as [Hst|Hst]|];
    apply andb_prop in Hst; destruct Hst as [Ha Hb]; apply Z.eqb_eq in Ha; apply Z.eqb_eq in Hb.
  - specialize (S1 Ha). split; [intros _; exact S1|intros Hx; lia].
  - specialize (S2 Ha). split; [intros Hx; lia|intros _; exact S2].
  - rewrite Hb. split; intros _; lia.
Qed.

Theorem ns_optimal_partial : forall n arcs sup fuel mi s it,
  loop (mk_consts n arcs sup) fuel mi (init_st n arcs sup) 0 = Some (OPTIMAL, s, it) ->
  ns_final_ok_b n arcs sup s = true ->
  min_cost n arcs (supply_b sup) (firstn (length arcs) (flow s)).
Proof. intros n arcs sup fuel mi s it Hloop. exact (final_ok_min_cost n arcs sup s (loop_optimal _ _ _ _ _ _ _ Hloop)). Qed.
