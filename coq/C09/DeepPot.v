(* C09 deepening - node potentials and negative cycles:
   reduced_ok pi arcs (flows res)  <->  pi(head) <= pi(tail) + cost on every residual edge of positive capacity;
   such potentials exclude negative residual cycles, and conversely a residual graph without negative cycle HAS
   such potentials (Bellman-Ford labels with every node as a source, by DeepBF.bf_final). *)
From Coq Require Import List ZArith Bool Arith Lia.
From SV Require Import C09.Mcf C09.McfSpec C09.McfCert C09.McfAug C09.McfBF C09.DeepWalk C09.DeepBF C09.DeepPar.
Import ListNotations.
Open Scope Z_scope.
Import Mcf McfSpec.

Definition pot_ok (arcs : list arc) (res : resid) (pi : nat -> Z) : Prop :=
  forall e, redge arcs res e -> pi (e_head arcs e) <= pi (e_tail arcs e) + e_cost arcs e.

Lemma reduced_ok_nth pi : forall arcs f,
  (forall k, (k < length arcs)%nat -> (k < length f)%nat ->
     (nth k f 0 < a_cap (nth k arcs arc0) -> 0 <= rc pi (nth k arcs arc0)) /\
     (0 < nth k f 0 -> rc pi (nth k arcs arc0) <= 0)) ->
  reduced_ok pi arcs f.
Proof.
  induction arcs as [|a arcs IH]; intros f H; [exact I|]. destruct f as [|x f]; [exact I|].
  cbn [reduced_ok]. destruct (H 0%nat ltac:(cbn; lia) ltac:(cbn; lia)) as [H1 H2]. cbn [nth] in H1, H2.
  split; [exact H1|]. split; [exact H2|]. apply IH. intros k Hk Hf.
  exact (H (S k) ltac:(cbn [length]; lia) ltac:(cbn [length]; lia)).
Qed.

Lemma reduced_ok_nth_inv pi : forall arcs f, reduced_ok pi arcs f ->
  forall k, (k < length arcs)%nat -> (k < length f)%nat ->
     (nth k f 0 < a_cap (nth k arcs arc0) -> 0 <= rc pi (nth k arcs arc0)) /\
     (0 < nth k f 0 -> rc pi (nth k arcs arc0) <= 0).
Proof.
  induction arcs as [|a arcs IH]; intros f H k Hk Hf; [cbn in Hk; lia|].
  destruct f as [|x f]; [cbn in Hf; lia|]. cbn [reduced_ok] in H. destruct H as (H1 & H2 & H).
  destruct k as [|k]; [cbn [nth]; split; assumption|].
  cbn [nth]. apply IH; [exact H|cbn [length] in Hk; lia|cbn [length] in Hf; lia].
Qed.

Lemma nth_flows res k : nth k (flows res) 0 = snd (nth k res (0, 0)).
Proof. unfold flows. change 0 with (snd (0, 0)) at 1. apply map_nth. Qed.

Lemma pot_ok_reduced arcs res pi : ResInv arcs res -> pot_ok arcs res pi -> reduced_ok pi arcs (flows res).
Proof.
  intros [Hlen Hinv] Hp. apply reduced_ok_nth. intros k Hk _. rewrite nth_flows.
  destruct (Hinv k Hk) as (Hsum & Hf & Hb). split.
  - intros Hx. assert (He : redge arcs res (k, false)).
    { split; [exact Hk|]. unfold e_res. cbn [fst snd]. lia. }
    specialize (Hp _ He). unfold e_head, e_tail, e_cost in Hp. cbn [fst snd] in Hp. unfold rc. lia.
  - intros Hx. assert (He : redge arcs res (k, true)).
    { split; [exact Hk|]. unfold e_res. cbn [fst snd]. lia. }
    specialize (Hp _ He). unfold e_head, e_tail, e_cost in Hp. cbn [fst snd] in Hp. unfold rc. lia.
Qed.

Lemma reduced_pot_ok arcs res pi : ResInv arcs res -> reduced_ok pi arcs (flows res) -> pot_ok arcs res pi.
Proof.
  intros [Hlen Hinv] Hr [k b] [Hk Hpos]. cbn [fst] in Hk.
  destruct (reduced_ok_nth_inv pi arcs (flows res) Hr k Hk) as [H1 H2].
  { unfold flows. rewrite map_length. lia. }
  rewrite nth_flows in H1, H2. destruct (Hinv k Hk) as (Hsum & Hf & Hb).
  unfold e_res in Hpos. unfold e_head, e_tail, e_cost. cbn [fst snd] in *. unfold rc in *.
  destruct b.
  - specialize (H2 Hpos). lia.
  - specialize (H1 ltac:(lia)). lia.
Qed.

Lemma pot_ok_nnc arcs res pi : pot_ok arcs res pi -> NoNegCycle arcs res.
Proof. intros Hpi v p H. pose proof (potentials_walk arcs res pi Hpi p v v H). lia. Qed.

(* the input hypothesis of the full statement: potentials pi0 for the zero flow *)
Lemma input_nnc n arcs pi0 : valid_arcs n arcs = true ->
  reduced_b (pot pi0) arcs (map (fun _ => 0) arcs) = true -> NoNegCycle arcs (init_res arcs).
Proof.
  intros Hva Hr. apply (pot_ok_nnc arcs (init_res arcs) (pot pi0)).
  apply reduced_pot_ok.
  - apply init_res_inv. exact (valid_arcs_caps n arcs Hva).
  - rewrite init_res_flows. apply reduced_b_sound. exact Hr.
Qed.

(* the converse: no negative cycle => potentials exist *)
Definition lab (d : list (option Z)) (w : nat) : Z := match nth w d None with Some x => x | None => 0 end.

Lemma nth_repeat_some_inv n i x : nth i (repeat (Some 0) n) None = Some x -> x = 0 /\ (i < n)%nat.
Proof.
  revert i. induction n as [|n IH]; intros [|i] H; cbn [repeat nth] in H; try discriminate.
  - inversion H. split; [reflexivity|lia].
  - destruct (IH _ H). split; [assumption|lia].
Qed.

Lemma zero_labels n arcs res d p :
  valid_arcs n arcs = true -> length res = length arcs -> NoNegCycle arcs res ->
  bf_rounds (n - 1) (res_edges 0 arcs res) (repeat (Some 0) n) (repeat None n) = (d, p) ->
  forall e, redge arcs res e ->
  exists du dv, nth (e_tail arcs e) d None = Some du /\ nth (e_head arcs e) d None = Some dv /\
                dv <= du + e_cost arcs e.
Proof.
  intros Hva Hlen Hnn E.
  destruct (bf_final arcs res n (fun a => (a < n)%nat) (res_edges 0 arcs res) (res_edges_ok arcs res)
              (fun e => res_edges_complete arcs res e Hlen)
              (fun e Hk => proj2 (valid_arcs_ends n arcs Hva e Hk))
              (repeat (Some 0) n) (repeat None n) d p Hnn)
    as (_ & _ & _ & H4 & H5).
  - auto.
  - apply repeat_length.
  - intros v dv H. apply nth_repeat_some_inv in H. destruct H as [-> Hv].
    exists v, []. split; [exact Hv|]. split; [apply rwalk_nil|reflexivity].
  - intros a q v Ha [Hc _] Hl. destruct q as [|e q]; [|cbn [length] in Hl; lia].
    cbn [chain] in Hc. subst v. exists 0. split; [apply nth_repeat_lt; exact Ha|cbn [pcost]; lia].
  - exact E.
  - intros e He. destruct (valid_arcs_ends n arcs Hva e (proj1 He)) as [Ht _].
    destruct (proj2 H5 _ _ (nth_repeat_lt (Some 0) None n _ Ht)) as (du & Edu & _).
    destruct (H4 e du He Edu) as (dv & Edv & Hle). exists du, dv. auto.
Qed.

Theorem nnc_potentials : forall n arcs res,
  valid_arcs n arcs = true -> length res = length arcs -> NoNegCycle arcs res ->
  exists pi, pot_ok arcs res pi.
Proof.
  intros n arcs res Hva Hlen Hnn.
  destruct (bf_rounds (n - 1) (res_edges 0 arcs res) (repeat (Some 0) n) (repeat None n)) as [d p] eqn:E.
  exists (lab d). intros e He.
  destruct (zero_labels n arcs res d p Hva Hlen Hnn E e He) as (du & dv & Edu & Edv & Hle).
  unfold lab. rewrite Edu, Edv. exact Hle.
Qed.

(* boolean test for "no negative cycle" on a residual graph: run the same relaxation from all-zero labels for n-1
   rounds and test the resulting labels as potentials.  Sound by pot_ok_nnc, complete by bf_final. *)
Definition pot_ok_b (arcs : list arc) (res : resid) (d : list (option Z)) : bool :=
  forallb (fun x => let '(e, u, v, c, r) := x in
             if 0 <? r then match nth u d None, nth v d None with
                            | Some du, Some dv => dv <=? du + c
                            | _, _ => false
                            end
             else true) (res_edges 0 arcs res).

Definition no_neg_cycle_b (n : nat) (arcs : list arc) (res : resid) : bool :=
  pot_ok_b arcs res (fst (bf_rounds (n - 1) (res_edges 0 arcs res) (repeat (Some 0) n) (repeat None n))).

Lemma pot_ok_b_iff arcs res d : length res = length arcs ->
  pot_ok_b arcs res d = true <->
  forall e, redge arcs res e ->
    exists du dv, nth (e_tail arcs e) d None = Some du /\ nth (e_head arcs e) d None = Some dv /\
                  dv <= du + e_cost arcs e.
Proof.
  intros Hlen. unfold pot_ok_b. rewrite forallb_forall. split.
  - intros H e [Hk Hpos]. specialize (H _ (res_edges_complete arcs res e Hlen Hk)). cbv beta iota in H.
    apply Z.ltb_lt in Hpos. rewrite Hpos in H.
    destruct (nth (e_tail arcs e) d None) as [du|]; [|discriminate].
    destruct (nth (e_head arcs e) d None) as [dv|]; [|discriminate]. apply Z.leb_le in H. exists du, dv. auto.
  - intros H [[[[e u] v] c] r] Hin. destruct (res_edges_ok arcs res _ Hin) as (-> & -> & -> & -> & Hk).
    destruct (Z.ltb_spec 0 (e_res res e)) as [Hpos|]; [|reflexivity].
    destruct (H e (conj Hk Hpos)) as (du & dv & -> & -> & Hle). apply Z.leb_le. exact Hle.
Qed.

Lemma pot_ok_b_sound arcs res d : length res = length arcs -> pot_ok_b arcs res d = true -> pot_ok arcs res (lab d).
Proof.
  intros Hlen H e He. destruct (proj1 (pot_ok_b_iff arcs res d Hlen) H e He) as (du & dv & Edu & Edv & Hle).
  unfold lab. rewrite Edu, Edv. exact Hle.
Qed.

Theorem no_neg_cycle_b_sound n arcs res : length res = length arcs ->
  no_neg_cycle_b n arcs res = true -> NoNegCycle arcs res.
Proof. intros Hlen H. exact (pot_ok_nnc arcs res _ (pot_ok_b_sound arcs res _ Hlen H)). Qed.

Lemma input_nnc_b n arcs : no_neg_cycle_b n arcs (init_res arcs) = true -> NoNegCycle arcs (init_res arcs).
Proof. apply no_neg_cycle_b_sound. unfold init_res. apply map_length. Qed.
