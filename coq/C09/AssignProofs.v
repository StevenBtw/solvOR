(* C09 - solve_assignment = min_cost_flow on the bipartite network source -> L_i -> R_j -> sink, which has unit
   capacities and one arc per (u,v) pair.  The assignment read off an optimal flow is a matching of min(n,m) pairs.
   Every arc goes one level up, so the network has no cycle of positive capacity at all, whatever the cost matrix
   (negative entries included): assign_nnc, from which Props/C09_deep.v gets that min_cost_flow terminates on it and
   that an OPTIMAL answer is a minimum-cost flow of min(n,m) units.
   First the generic part: finite sums of functions, net outflow as (sum of pair flows out) - (sum of pair flows in),
   structure of the pooled dictionary, and what `extract` computes. *)
From Coq Require Import List ZArith Bool Arith Lia.
From SV Require Import C09.Mcf C09.McfSpec C09.AssignSpec C09.McfCert C09.McfAug C09.McfProofs C09.DeepWalk.
Import ListNotations.
Open Scope Z_scope.
Import Mcf McfSpec AssignSpec.

Lemma zsumf_ext g h N : (forall w, (w < N)%nat -> g w = h w) -> zsumf g N = zsumf h N.
Proof. induction N as [|k IH]; intros H; cbn [zsumf]; [reflexivity|]. rewrite IH by (intros; apply H; lia). rewrite (H k) by lia. reflexivity. Qed.

Lemma zsumf_add g h N : zsumf (fun w => g w + h w) N = zsumf g N + zsumf h N.
Proof. induction N as [|k IH]; cbn [zsumf]; [reflexivity|]. rewrite IH. lia. Qed.

Lemma zsumf_zero N : zsumf (fun _ => 0) N = 0.
Proof. induction N as [|k IH]; cbn [zsumf]; [reflexivity|]. rewrite IH. lia. Qed.

Lemma zsumf_all_zero g N : (forall w, (w < N)%nat -> g w = 0) -> zsumf g N = 0.
Proof. intros H. rewrite (zsumf_ext g (fun _ => 0) N H). apply zsumf_zero. Qed.

Lemma zsumf_nonneg g N : (forall w, (w < N)%nat -> 0 <= g w) -> 0 <= zsumf g N.
Proof. induction N as [|k IH]; intros H; cbn [zsumf]; [lia|]. specialize (IH ltac:(intros; apply H; lia)). specialize (H k ltac:(lia)). lia. Qed.

(* one term taken out of the sum *)
Lemma zsumf_split g N j : (j < N)%nat ->
  zsumf g N = g j + zsumf (fun k => if Nat.eqb k j then 0 else g k) N.
Proof.
  induction N as [|k IH]; intros Hj; [lia|]. cbn [zsumf]. destruct (Nat.eqb_spec k j) as [->|Hne].
  - rewrite (zsumf_ext (fun k => if Nat.eqb k j then 0 else g k) g j); [lia|].
    intros w Hw. destruct (Nat.eqb_spec w j); [lia|reflexivity].
  - rewrite IH by lia. lia.
Qed.

Lemma zsumf_single g N u0 : (u0 < N)%nat -> (forall w, (w < N)%nat -> w <> u0 -> g w = 0) -> zsumf g N = g u0.
Proof.
  intros Hu H. rewrite (zsumf_split g N u0 Hu), zsumf_all_zero; [lia|].
  intros w Hw. destruct (Nat.eqb_spec w u0); [reflexivity|apply H; assumption].
Qed.

Lemma zsumf_ge_term g N j : (forall w, (w < N)%nat -> 0 <= g w) -> (j < N)%nat -> g j <= zsumf g N.
Proof.
  intros H Hj. rewrite (zsumf_split g N j Hj).
  enough (0 <= zsumf (fun k => if Nat.eqb k j then 0 else g k) N) by lia.
  apply zsumf_nonneg. intros w Hw. destruct (Nat.eqb w j); [lia|exact (H w Hw)].
Qed.

Lemma zsumf_ge_two g N j j' : (forall w, (w < N)%nat -> 0 <= g w) -> (j < N)%nat -> (j' < N)%nat -> j <> j' ->
  g j + g j' <= zsumf g N.
Proof.
  intros H Hj Hj' Hne. rewrite (zsumf_split g N j Hj).
  pose proof (zsumf_ge_term (fun k => if Nat.eqb k j then 0 else g k) N j') as H2. cbv beta in H2.
  rewrite (proj2 (Nat.eqb_neq j' j)) in H2 by auto.
  enough (g j' <= zsumf (fun k => if Nat.eqb k j then 0 else g k) N) by lia.
  apply H2; [|exact Hj']. intros w Hw. destruct (Nat.eqb w j); [lia|exact (H w Hw)].
Qed.

Lemma zsumf_pos_ex g N : 1 <= zsumf g N -> exists w, (w < N)%nat /\ g w <> 0.
Proof.
  induction N as [|k IH]; cbn [zsumf]; intros H; [lia|].
  destruct (Z.eq_dec (g k) 0) as [Hz|Hnz].
  - destruct (IH ltac:(lia)) as (w & Hw & Hg). exists w. split; [lia|exact Hg].
  - exists k. split; [lia|exact Hnz].
Qed.

Lemma zsumf_app g N1 N2 : zsumf g (N1 + N2) = zsumf g N1 + zsumf (fun k => g (N1 + k)%nat) N2.
Proof.
  induction N2 as [|k IH]; [rewrite Nat.add_0_r; cbn [zsumf]; lia|].
  rewrite Nat.add_succ_r. cbn [zsumf]. rewrite IH. lia.
Qed.

Lemma zsumf_delta u x N : (u < N)%nat -> zsumf (delta u x) N = x.
Proof.
  intros H. rewrite (zsumf_single (delta u x) N u H).
  - unfold delta. rewrite Nat.eqb_refl. reflexivity.
  - intros w _ Hne. unfold delta. destruct (Nat.eqb_spec u w); [congruence|reflexivity].
Qed.

Lemma zsumf_pick (c : nat -> bool) k0 (b : bool) x h N : (k0 < N)%nat ->
  (forall k, c k = (b && Nat.eqb k0 k)%bool) ->
  zsumf (fun k => (if c k then x else 0) + h k) N = (if b then x else 0) + zsumf h N.
Proof.
  intros Hk Hc. rewrite zsumf_add. f_equal.
  rewrite (zsumf_ext _ (delta k0 (if b then x else 0)) N); [apply zsumf_delta; exact Hk|].
  intros k _. rewrite Hc. unfold delta. destruct b, (Nat.eqb k0 k); reflexivity.
Qed.

Definition labels_lt (N : nat) (arcs : list arc) : Prop := forall a, In a arcs -> (a_u a < N)%nat /\ (a_v a < N)%nat.

Lemma netout_pairs N arcs : forall f w, labels_lt N arcs ->
  netout arcs f w = zsumf (pair_sum arcs f w) N - zsumf (fun u => pair_sum arcs f u w) N.
Proof.
  induction arcs as [|a arcs IH]; intros f w HL.
  - cbn [netout pair_sum]. rewrite zsumf_zero. lia.
  - destruct f as [|x f]; [cbn [netout pair_sum]; rewrite zsumf_zero; lia|].
    destruct (HL a (or_introl eq_refl)) as [Hu Hv].
    cbn [netout]. rewrite (IH f w) by (intros b Hb; apply HL; right; exact Hb).
    (* arc a contributes x to the out-sum of its tail (at index a_v a) and to the in-sum of its head (at a_u a) *)
    assert (Eout : zsumf (pair_sum (a :: arcs) (x :: f) w) N
                   = (if Nat.eqb (a_u a) w then x else 0) + zsumf (pair_sum arcs f w) N)
      by exact (zsumf_pick (fun v => (Nat.eqb (a_u a) w && Nat.eqb (a_v a) v)%bool) (a_v a) (Nat.eqb (a_u a) w) x
                  (pair_sum arcs f w) N Hv (fun v => eq_refl)).
    assert (Ein : zsumf (fun u => pair_sum (a :: arcs) (x :: f) u w) N
                  = (if Nat.eqb (a_v a) w then x else 0) + zsumf (fun u => pair_sum arcs f u w) N)
      by exact (zsumf_pick (fun u => (Nat.eqb (a_u a) u && Nat.eqb (a_v a) w)%bool) (a_u a) (Nat.eqb (a_v a) w) x
                  (fun u => pair_sum arcs f u w) N Hu (fun u => andb_comm _ _)).
    rewrite Eout, Ein. lia.
Qed.

Lemma pair_sum_nonneg arcs : forall f u v, bounded arcs f -> 0 <= pair_sum arcs f u v.
Proof.
  induction arcs as [|a arcs IH]; intros [|x f] u v Hb; cbn [pair_sum]; try lia.
  cbn [bounded] in Hb. destruct Hb as [Hx Hb]. specialize (IH f u v Hb).
  destruct (Nat.eqb (a_u a) u && Nat.eqb (a_v a) v)%bool; lia.
Qed.

(* with at most one arc per (u,v) key, the pair flow is bounded by that arc's capacity *)
Definition akey (a : arc) : nat * nat := (a_u a, a_v a).

Lemma pair_sum_le_cap arcs : forall f a, NoDup (map akey arcs) -> bounded arcs f -> In a arcs ->
  pair_sum arcs f (a_u a) (a_v a) <= a_cap a.
Proof.
  induction arcs as [|a0 arcs IH]; intros f a Hnd Hb Hin; [contradiction|].
  destruct f as [|x f]; [contradiction|]. cbn [bounded] in Hb. destruct Hb as [Hx Hb].
  cbn [map] in Hnd. inversion Hnd as [|? ? Hnotin Hnd']; subst. cbn [pair_sum].
  destruct Hin as [->|Hin].
  - rewrite !Nat.eqb_refl. cbn [andb].
    destruct (Z.eq_dec (pair_sum arcs f (a_u a) (a_v a)) 0) as [->|Hnz]; [lia|]. exfalso. apply Hnotin.
    destruct (pair_sum_nonzero_arc arcs _ _ f Hnz) as (b & Hb' & H1 & H2).
    apply in_map_iff. exists b. split; [unfold akey; rewrite H1, H2; reflexivity|exact Hb'].
  - destruct (key_eqb_spec (a_u a0) (a_v a0) (a_u a) (a_v a)) as [[E1 E2]|_]; [|exact (IH f a Hnd' Hb Hin)].
    exfalso. apply Hnotin. apply in_map_iff. exists a. split; [unfold akey; rewrite E1, E2; reflexivity|exact Hin].
Qed.

Definition dkey (x : nat * nat * Z) : nat * nat := (fst (fst x), snd (fst x)).

Lemma dict_add_keys d : forall u v x k, In k (map dkey (dict_add d u v x)) -> In k (map dkey d) \/ k = (u, v).
Proof.
  induction d as [|[[u0 v0] y] d IH]; intros u v x k H; cbn [dict_add] in H.
  - cbn in H. destruct H as [<-|[]]. right. reflexivity.
  - destruct (Nat.eqb u u0 && Nat.eqb v v0)%bool; cbn [map] in *; [left; exact H|].
    destruct H as [H|H]; [left; left; exact H|]. destruct (IH _ _ _ _ H) as [H'|H']; [left; right; exact H'|right; exact H'].
Qed.

Lemma dict_add_nodup d : forall u v x, NoDup (map dkey d) -> NoDup (map dkey (dict_add d u v x)).
Proof.
  induction d as [|[[u0 v0] y] d IH]; intros u v x Hnd; cbn [dict_add].
  - cbn. constructor; [intros []|constructor].
  - destruct (key_eqb_spec u v u0 v0) as [[-> ->]|Hne]; cbn [map] in *; [exact Hnd|].
    inversion Hnd as [|? ? Hnotin Hnd']; subst. constructor; [|apply IH; exact Hnd'].
    intros Hin. destruct (dict_add_keys _ _ _ _ _ Hin) as [H|H]; [exact (Hnotin H)|].
    inversion H; subst. apply Hne. split; reflexivity.
Qed.

Lemma pool_nodup : forall arcs res d0, NoDup (map dkey d0) -> NoDup (map dkey (pool arcs res d0)).
Proof.
  induction arcs as [|a arcs IH]; intros res d0 Hnd; [exact Hnd|].
  destruct res as [|[rf rb] res]; [exact Hnd|]. cbn [pool]. apply IH.
  destruct (0 <? rb); [apply dict_add_nodup; exact Hnd|exact Hnd].
Qed.

Lemma dict_get_nodup d : forall u v y, NoDup (map dkey d) -> In (u, v, y) d -> dict_get d u v = Some y.
Proof.
  induction d as [|[[u0 v0] y0] d IH]; intros u v y Hnd Hin; [contradiction|].
  cbn [map] in Hnd. inversion Hnd as [|? ? Hnotin Hnd']; subst. cbn [dict_get].
  destruct Hin as [Heq|Hin].
  - inversion Heq; subst. rewrite !Nat.eqb_refl. reflexivity.
  - destruct (key_eqb_spec u v u0 v0) as [[-> ->]|_]; [|apply IH; assumption].
    exfalso. apply Hnotin. apply in_map_iff. exists (u0, v0, y). split; [reflexivity|exact Hin].
Qed.

Lemma extract_snoc n m d u v y :
  extract n m (d ++ [(u, v, y)]) =
  if ((0 <? y) && Nat.leb 2 u && Nat.ltb u (2 + n) && Nat.leb (2 + n) v)%bool
  then upd (extract n m d) (u - 2) (Z.of_nat (v - (2 + n))) else extract n m d.
Proof. unfold extract. rewrite fold_left_app. reflexivity. Qed.

Lemma extract_test_spec n u v y :
  reflect (0 < y /\ (2 <= u < 2 + n)%nat /\ (2 + n <= v)%nat)
          ((0 <? y) && Nat.leb 2 u && Nat.ltb u (2 + n) && Nat.leb (2 + n) v)%bool.
Proof.
  apply iff_reflect. rewrite !andb_true_iff, Z.ltb_lt, !Nat.leb_le, Nat.ltb_lt. tauto.
Qed.

Lemma extract_length n m d : length (extract n m d) = n.
Proof.
  induction d as [|[[u v] y] d IH] using rev_ind; [apply repeat_length|].
  rewrite extract_snoc. destruct (_ && _)%bool; [rewrite length_upd|]; exact IH.
Qed.

(* entry i of the result is -1 when no entry (L_i, v, y) with y > 0 and v among the R's exists, and is otherwise
   decided by one of them (the last one: later writes win) *)
Lemma extract_cases n m d i : (i < n)%nat ->
  (nth i (extract n m d) (-1) = -1 /\
   forall v y, In (nL i, v, y) d -> 0 < y -> (2 + n <= v)%nat -> False) \/
  (exists v y, In (nL i, v, y) d /\ 0 < y /\ (2 + n <= v)%nat /\
               nth i (extract n m d) (-1) = Z.of_nat (v - (2 + n))).
Proof.
  intros Hi. induction d as [|[[u v] y] d IH] using rev_ind.
  - left. split; [apply nth_repeat|intros ? ? []].
  - rewrite extract_snoc.
    assert (Hmiss : ~ (u = nL i /\ 0 < y /\ (2 + n <= v)%nat) ->
              nth i (extract n m d) (-1) = -1 /\
                (forall v0 y0, In (nL i, v0, y0) (d ++ [(u, v, y)]) -> 0 < y0 -> (2 + n <= v0)%nat -> False) \/
              (exists v0 y0, In (nL i, v0, y0) (d ++ [(u, v, y)]) /\ 0 < y0 /\ (2 + n <= v0)%nat /\
                             nth i (extract n m d) (-1) = Z.of_nat (v0 - (2 + n)))).
    { intros Hm. destruct IH as [[H1 H2]|(v' & y' & Hin & IH)].
      - left. split; [exact H1|]. intros v0 y0 Hin Hy0 Hv0. apply in_app_or in Hin.
        destruct Hin as [Hin|[Heq|[]]]; [exact (H2 v0 y0 Hin Hy0 Hv0)|]. inversion Heq; subst. tauto.
      - right. exists v', y'. split; [apply in_or_app; left; exact Hin|exact IH]. }
    destruct (extract_test_spec n u v y) as [(Hy & Hu & Hv)|Hq]; [destruct (Nat.eq_dec u (nL i)) as [->|E]|].
    + right. exists v, y. split; [apply in_or_app; right; left; reflexivity|]. split; [exact Hy|]. split; [exact Hv|].
      replace (nL i - 2)%nat with i by (unfold nL; lia). apply nth_upd_same. rewrite extract_length. exact Hi.
    + rewrite nth_upd_other by (unfold nL in E; lia). apply Hmiss. tauto.
    + apply Hmiss. intros (-> & Hy & Hv). apply Hq. unfold nL. lia.
Qed.

Lemma in_assign_arcs n m M a : In a (assign_arcs n m M) ->
  (exists i, (i < n)%nat /\ a = (0%nat, nL i, 1, 0)) \/
  (exists i j, (i < n)%nat /\ (j < m)%nat /\ a = (nL i, nR n j, 1, nth j (nth i M []) 0)) \/
  (exists j, (j < m)%nat /\ a = (nR n j, 1%nat, 1, 0)).
Proof.
  unfold assign_arcs. intros H. apply in_app_or in H. destruct H as [H|H]; [|apply in_app_or in H; destruct H as [H|H]].
  - left. apply in_map_iff in H. destruct H as (i & <- & Hi). apply in_seq in Hi. exists i. split; [lia|reflexivity].
  - right. left. apply in_flat_map in H. destruct H as (i & Hi & H). apply in_map_iff in H. destruct H as (j & <- & Hj).
    apply in_seq in Hi. apply in_seq in Hj. exists i, j. repeat split; lia.
  - right. right. apply in_map_iff in H. destruct H as (j & <- & Hj). apply in_seq in Hj. exists j. split; [lia|reflexivity].
Qed.

Lemma in_assign_src n m M i : (i < n)%nat -> In (0%nat, nL i, 1, 0) (assign_arcs n m M).
Proof. intros H. unfold assign_arcs. apply in_or_app. left. apply in_map_iff. exists i. split; [reflexivity|apply in_seq; lia]. Qed.

Lemma in_assign_snk n m M j : (j < m)%nat -> In (nR n j, 1%nat, 1, 0) (assign_arcs n m M).
Proof.
  intros H. unfold assign_arcs. apply in_or_app. right. apply in_or_app. right.
  apply in_map_iff. exists j. split; [reflexivity|apply in_seq; lia].
Qed.

Lemma assign_caps n m M : Forall (fun a => a_cap a = 1) (assign_arcs n m M).
Proof.
  apply Forall_forall. intros a H. apply in_assign_arcs in H.
  destruct H as [(i & _ & ->)|[(i & j & _ & _ & ->)|(j & _ & ->)]]; reflexivity.
Qed.

Lemma assign_labels n m M : labels_lt (2 + n + m) (assign_arcs n m M).
Proof.
  intros a H. apply in_assign_arcs in H. unfold nL, nR in H.
  destruct H as [(i & Hi & ->)|[(i & j & Hi & Hj & ->)|(j & Hj & ->)]]; unfold a_u, a_v; cbn [fst snd]; lia.
Qed.

Lemma assign_valid_arcs n m M : valid_arcs (2 + n + m) (assign_arcs n m M) = true.
Proof.
  unfold valid_arcs. apply forallb_forall. intros a Ha. destruct (assign_labels n m M a Ha) as [Hu Hv].
  pose proof (assign_caps n m M) as Hc. rewrite Forall_forall in Hc. rewrite (Hc a Ha).
  apply Nat.ltb_lt in Hu. apply Nat.ltb_lt in Hv. rewrite Hu, Hv. reflexivity.
Qed.

(* one arc per (u,v) pair *)
Lemma NoDup_map_seq {A} (g : nat -> A) a len : (forall i j, g i = g j -> i = j) -> NoDup (map g (seq a len)).
Proof.
  intros Hinj. revert a. induction len as [|len IH]; intros a; cbn [seq map]; constructor; [|apply IH].
  intros Hin. apply in_map_iff in Hin. destruct Hin as (j & Hj & Hin). apply in_seq in Hin. apply Hinj in Hj. lia.
Qed.

Lemma middle_keys_nodup n m (M : list (list Z)) : forall len a,
  NoDup (map akey (flat_map (fun i => map (fun j => (nL i, nR n j, 1, nth j (nth i M []) 0)) (seq 0 m)) (seq a len))).
Proof.
  induction len as [|len IH]; intros a; cbn [seq flat_map map]; [constructor|].
  rewrite map_app. apply NoDup_app_intro; [|apply IH|].
  - rewrite map_map. apply NoDup_map_seq. intros i j H. unfold akey, a_u, a_v, nR in H. cbn [fst snd] in H. inversion H. lia.
  - intros x H1 H2. apply in_map_iff in H1. destruct H1 as (a1 & <- & H1). apply in_map_iff in H1. destruct H1 as (j1 & <- & _).
    apply in_map_iff in H2. destruct H2 as (a2 & Hk & H2). apply in_flat_map in H2. destruct H2 as (i2 & Hi2 & H2).
    apply in_map_iff in H2. destruct H2 as (j2 & <- & _). apply in_seq in Hi2.
    unfold akey, a_u, a_v, nL in Hk. cbn [fst snd] in Hk. inversion Hk. lia.
Qed.

Lemma assign_keys_nodup n m M : NoDup (map akey (assign_arcs n m M)).
Proof.
  unfold assign_arcs. rewrite !map_app, map_map.
  apply NoDup_app_intro; [|apply NoDup_app_intro|].
  - apply NoDup_map_seq. intros i j H. unfold akey, a_u, a_v, nL in H. cbn [fst snd] in H. inversion H. lia.
  - apply middle_keys_nodup.
  - rewrite map_map. apply NoDup_map_seq. intros i j H. unfold akey, a_u, a_v, nR in H. cbn [fst snd] in H. inversion H. lia.
  - intros x H1 H2. apply in_map_iff in H1. destruct H1 as (a1 & <- & H1). apply in_flat_map in H1. destruct H1 as (i1 & _ & H1).
    apply in_map_iff in H1. destruct H1 as (j1 & <- & _).
    apply in_map_iff in H2. destruct H2 as (a2 & Hk & H2). apply in_map_iff in H2. destruct H2 as (j2 & <- & _).
    unfold akey, a_u, a_v, nL, nR in Hk. cbn [fst snd] in Hk. inversion Hk.
  - intros x H1 H2. apply in_map_iff in H1. destruct H1 as (i1 & <- & _).
    apply in_app_or in H2. destruct H2 as [H2|H2].
    + apply in_map_iff in H2. destruct H2 as (a2 & Hk & H2). apply in_flat_map in H2. destruct H2 as (i2 & _ & H2).
      apply in_map_iff in H2. destruct H2 as (j2 & <- & _).
      unfold akey, a_u, a_v, nL, nR in Hk. cbn [fst snd] in Hk. inversion Hk.
    + apply in_map_iff in H2. destruct H2 as (a2 & Hk & H2). apply in_map_iff in H2. destruct H2 as (j2 & <- & _).
      unfold akey, a_u, a_v, nL, nR in Hk. cbn [fst snd] in Hk. inversion Hk.
Qed.

Section Main.
Variables (n m : nat) (M : list (list Z)).
Local Notation arcs := (assign_arcs n m M).
Local Notation N := (2 + n + m)%nat.
Local Notation D := (Z.of_nat (Nat.min n m)).
Variable f : list Z.
Variable d : list (nat * nat * Z).
Hypothesis Hb : bounded arcs f.
Hypothesis Hnet : forall w, netout arcs f w = demand_b 0 1 D w.
Hypothesis Hpool : pooled arcs f d.
Hypothesis Hnd : NoDup (map dkey d).
Local Notation P := (pair_sum arcs f).
Local Notation asg := (extract n m d).

Lemma P_nonneg u v : 0 <= P u v.
Proof. apply pair_sum_nonneg. exact Hb. Qed.

Lemma P_pos u v : P u v <> 0 ->
  ((u = 0 /\ 2 <= v < 2 + n) \/ (2 <= u < 2 + n /\ 2 + n <= v < 2 + n + m) \/ (2 + n <= u < 2 + n + m /\ v = 1))%nat.
Proof.
  intros Hne. destruct (pair_sum_nonzero_arc arcs u v f Hne) as (a & Ha & <- & <-). apply in_assign_arcs in Ha.
  destruct Ha as [(i & Hi & ->)|[(i & j & Hi & Hj & ->)|(j & Hj & ->)]]; unfold a_u, a_v, nL, nR; cbn [fst snd];
    [left|right; left|right; right]; lia.
Qed.

Lemma P_zero u v :
  ~ ((u = 0 /\ 2 <= v < 2 + n) \/ (2 <= u < 2 + n /\ 2 + n <= v < 2 + n + m) \/ (2 + n <= u < 2 + n + m /\ v = 1))%nat ->
  P u v = 0.
Proof. intros H. destruct (Z.eq_dec (P u v) 0) as [|Hne]; [assumption|]. destruct (H (P_pos u v Hne)). Qed.

Lemma P_src i : (i < n)%nat -> P 0%nat (nL i) <= 1.
Proof. intros Hi. exact (pair_sum_le_cap arcs f (0%nat, nL i, 1, 0) (assign_keys_nodup n m M) Hb (in_assign_src n m M i Hi)). Qed.

Lemma P_snk j : (j < m)%nat -> P (nR n j) 1%nat <= 1.
Proof. intros Hj. exact (pair_sum_le_cap arcs f (nR n j, 1%nat, 1, 0) (assign_keys_nodup n m M) Hb (in_assign_snk n m M j Hj)). Qed.

Lemma conservation w : zsumf (P w) N - zsumf (fun u => P u w) N = demand_b 0 1 D w.
Proof. rewrite <- Hnet. symmetry. apply netout_pairs. apply assign_labels. Qed.

Lemma row_sum i : (i < n)%nat -> zsumf (P (nL i)) N = P 0%nat (nL i).
Proof.
  intros Hi. pose proof (conservation (nL i)) as H. change (demand_b 0 1 D (nL i)) with 0 in H.
  rewrite (zsumf_single (fun u => P u (nL i)) N 0%nat) in H; [lia|lia|].
  intros u _ Hu. apply P_zero. unfold nL. lia.
Qed.

Lemma col_sum j : (j < m)%nat -> zsumf (fun u => P u (nR n j)) N = P (nR n j) 1%nat.
Proof.
  intros Hj. pose proof (conservation (nR n j)) as H. change (demand_b 0 1 D (nR n j)) with 0 in H.
  rewrite (zsumf_single (P (nR n j)) N 1%nat) in H; [lia|lia|].
  intros v _ Hv. apply P_zero. unfold nR. lia.
Qed.

Lemma entry_val u v y : In (u, v, y) d -> y = P u v.
Proof.
  intros Hin. rewrite <- (Hpool u v). unfold get0. rewrite (dict_get_nodup d u v y Hnd Hin). reflexivity.
Qed.

Lemma entry_of_pos u v : P u v <> 0 -> In (u, v, P u v) d.
Proof.
  intros H. rewrite <- (Hpool u v) in *. unfold get0 in *.
  destruct (dict_get d u v) as [y|] eqn:E; [|congruence]. apply dict_get_in. exact E.
Qed.

Lemma row_entry i : (i < n)%nat -> P 0%nat (nL i) <> 0 ->
  exists v, In (nL i, v, P (nL i) v) d /\ 0 < P (nL i) v /\ (2 + n <= v)%nat.
Proof.
  intros Hi Hne. pose proof (P_nonneg 0%nat (nL i)) as H0.
  assert (Hs : 1 <= zsumf (P (nL i)) N) by (rewrite row_sum by exact Hi; lia).
  destruct (zsumf_pos_ex _ _ Hs) as (v & Hv & Hpv). pose proof (P_nonneg (nL i) v) as Hnn.
  exists v. split; [exact (entry_of_pos (nL i) v Hpv)|]. split; [lia|].
  destruct (P_pos (nL i) v Hpv) as [Hz|[Hz|Hz]]; unfold nL in *; lia.
Qed.

Lemma entry_col i v y : (i < n)%nat -> In (nL i, v, y) d -> 0 < y ->
  (v < 2 + n + m)%nat /\ 1 <= P (nL i) v /\ P 0%nat (nL i) = 1.
Proof.
  intros Hi Hin Hy. rewrite (entry_val _ _ _ Hin) in Hy.
  destruct (P_pos (nL i) v ltac:(lia)) as [Hz|[Hz|Hz]]; try (unfold nL in Hz; lia).
  split; [lia|]. split; [lia|].
  pose proof (zsumf_ge_term (P (nL i)) N v (fun w _ => P_nonneg (nL i) w) ltac:(lia)) as Hle.
  rewrite row_sum in Hle by exact Hi. pose proof (P_src i Hi). lia.
Qed.

Lemma asg_cases i : (i < n)%nat ->
  (nth i asg (-1) = -1 /\ P 0%nat (nL i) = 0) \/
  (exists j, (j < m)%nat /\ nth i asg (-1) = Z.of_nat j /\ 1 <= P (nL i) (nR n j) /\ P 0%nat (nL i) = 1).
Proof.
  intros Hi. destruct (extract_cases n m d i Hi) as [[H Hno]|(v & y & Hin & Hy & Hv & H)].
  - left. split; [exact H|].
    destruct (Z.eq_dec (P 0%nat (nL i)) 0) as [|Hne]; [assumption|]. exfalso.
    destruct (row_entry i Hi Hne) as (v & Hin & Hy & Hv). exact (Hno _ _ Hin Hy Hv).
  - right. destruct (entry_col i v y Hi Hin Hy) as (Hvm & Hp & H1).
    exists (v - (2 + n))%nat. replace (nR n (v - (2 + n))) with v by (unfold nR; lia).
    split; [lia|]. split; [exact H|]. split; [exact Hp|exact H1].
Qed.

Lemma count_rows : zsumf (fun i => P 0%nat (nL i)) n = D.
Proof.
  pose proof (conservation 0%nat) as H. change (demand_b 0 1 D 0%nat) with (D - 0) in H.
  rewrite (zsumf_all_zero (fun u => P u 0%nat) N) in H by (intros u _; apply P_zero; lia).
  rewrite (zsumf_app (P 0%nat) (2 + n) m), (zsumf_app (P 0%nat) 2 n) in H.
  rewrite (zsumf_all_zero (fun k => P 0%nat (2 + n + k)%nat) m) in H by (intros k _; apply P_zero; lia).
  rewrite (zsumf_all_zero (P 0%nat) 2) in H by (intros k Hk; apply P_zero; lia).
  rewrite <- (zsumf_ext (fun k => P 0%nat (2 + k)%nat) (fun i => P 0%nat (nL i)) n) by (intros; reflexivity). lia.
Qed.

Theorem extract_matching : matching n m asg.
Proof.
  constructor.
  - apply extract_length.
  - intros i Hi. destruct (asg_cases i Hi) as [[H _]|(j & Hj & H & _)]; [left; exact H|right; rewrite H; lia].
  - intros i i' Hi Hi' Hne Heq.
    destruct (asg_cases i Hi) as [[H _]|(j & Hj & H & Hp & _)]; [contradiction|].
    destruct (asg_cases i' Hi') as [[H' _]|(j' & Hj' & H' & Hp' & _)]; [rewrite H, H' in Heq; lia|].
    assert (j = j') by (rewrite H, H' in Heq; lia). subst j'.
    destruct (Nat.eq_dec i i') as [|Hii]; [assumption|]. exfalso.
    pose proof (zsumf_ge_two (fun u => P u (nR n j)) N (nL i) (nL i') (fun w _ => P_nonneg w (nR n j))
                  ltac:(unfold nL; lia) ltac:(unfold nL; lia) ltac:(unfold nL; lia)) as Hs.
    cbv beta in Hs. rewrite col_sum in Hs by exact Hj. pose proof (P_snk j Hj). lia.
  - transitivity (zsumf (fun i => P 0%nat (nL i)) n); [|exact count_rows]. apply zsumf_ext. intros i Hi. unfold assigned.
    destruct (asg_cases i Hi) as [[H H0]|(j & Hj & H & _ & H1)]; rewrite H.
    + cbn. symmetry. exact H0.
    + rewrite (proj2 (Z.eqb_neq _ _)) by lia. symmetry. exact H1.
Qed.

End Main.

Lemma solve_assignment_inv M r : solve_assignment M = Some r ->
  exists r0, mcf (2 + rows M + cols M) (assign_arcs (rows M) (cols M) M) 0 1 (Z.of_nat (Nat.min (rows M) (cols M))) = Some r0 /\
             s_status r = r_status r0 /\ s_assign r = extract (rows M) (cols M) (r_flows r0) /\ s_cost r = r_cost r0.
Proof.
  unfold solve_assignment. fold (rows M). fold (cols M). intros H.
  destruct (mcf _ _ 0 1 _) as [r0|]; [|discriminate]. inversion H; subst r. exists r0. auto.
Qed.

(* (6) solve_assignment = min_cost_flow on a network with unit capacities; the result is a matching of min(n,m) pairs *)
Theorem assignment_matching : forall M r,
  solve_assignment M = Some r -> s_status r = OPTIMAL ->
  Forall (fun a => a_cap a = 1) (assign_arcs (rows M) (cols M) M) /\
  matching (rows M) (cols M) (s_assign r).
Proof.
  intros M r H Hst. split; [apply assign_caps|].
  destruct (solve_assignment_inv M r H) as (r0 & Em & Est & -> & _). rewrite Est in Hst.
  destruct (mcf_optimal_run _ _ _ _ _ _ Em Hst) as (k & Ek & Es & -> & _).
  destruct (mcf_run_sound _ _ _ _ _ _ (valid_arcs_caps _ _ (assign_valid_arcs _ _ M)) (Nat2Z.is_nonneg _) Ek) as (Hinv & _ & Hnet & _ & Hopt & _).
  apply (extract_matching _ _ M (flows (k_res k))).
  - apply resinv_bounded. exact Hinv.
  - intros w. rewrite Hnet, (Hopt Es). reflexivity.
  - apply pool_pooled. exact Hinv.
  - apply pool_nodup. constructor.
Qed.

(* a network all of whose arcs go one level up has no residual cycle before the first augmentation *)
Lemma leveled_nnc arcs (level : nat -> nat) :
  (forall a, In a arcs -> level (a_v a) = S (level (a_u a))) -> NoNegCycle arcs (init_res arcs).
Proof.
  intros Hlev.
  assert (Hedge : forall e, redge arcs (init_res arcs) e -> level (e_head arcs e) = S (level (e_tail arcs e))).
  { intros [k b] [Hk Hpos]. cbn [fst] in Hk. unfold e_res in Hpos. rewrite init_res_nth in Hpos by exact Hk.
    cbn [fst snd] in Hpos. destruct b; [lia|]. unfold e_head, e_tail. cbn [fst snd]. apply Hlev. apply nth_In. exact Hk. }
  assert (Hwalk : forall p a b, rwalk arcs (init_res arcs) a p b -> level b = (level a + length p)%nat).
  { induction p as [|e p IH]; intros a b H.
    - destruct H as [Hc _]. cbn [chain] in Hc. subst b. cbn [length]. lia.
    - apply rwalk_cons_inv in H. destruct H as (Ht & He & H). subst a.
      rewrite (IH _ _ H), (Hedge e He). cbn [length]. lia. }
  intros v p H. specialize (Hwalk p v v H). destruct p as [|e p]; [cbn [pcost]; lia|cbn [length] in Hwalk; lia].
Qed.

Definition alevel (n : nat) (w : nat) : nat :=
  if Nat.eqb w 0 then 0%nat else if Nat.eqb w 1 then 3%nat else if Nat.ltb w (2 + n) then 1%nat else 2%nat.

Lemma assign_nnc n m M : NoNegCycle (assign_arcs n m M) (init_res (assign_arcs n m M)).
Proof.
  apply (leveled_nnc _ (alevel n)). intros a Ha. apply in_assign_arcs in Ha. unfold alevel, nL, nR in *.
  destruct Ha as [(i & Hi & ->)|[(i & j & Hi & Hj & ->)|(j & Hj & ->)]]; unfold a_u, a_v; cbn [fst snd].
  - cbn [Nat.eqb]. destruct (Nat.ltb_spec (2 + i) (2 + n)); [reflexivity|lia].
  - cbn [Nat.eqb plus]. destruct (Nat.ltb_spec (S (S i)) (S (S n))); [|lia].
    destruct (Nat.ltb_spec (S (S (n + j))) (S (S n))); [lia|reflexivity].
  - cbn [Nat.eqb plus]. destruct (Nat.ltb_spec (S (S (n + j))) (S (S n))); [lia|reflexivity].
Qed.

Lemma assign_valid_input n m M :
  valid_input (2 + n + m) (assign_arcs n m M) 0 1 (Z.of_nat (Nat.min n m)) = true.
Proof.
  unfold valid_input. rewrite assign_valid_arcs. cbn [andb].
  assert (H0 : Nat.ltb 0 (2 + n + m) = true) by (apply Nat.ltb_lt; lia).
  assert (H1 : Nat.ltb 1 (2 + n + m) = true) by (apply Nat.ltb_lt; lia). rewrite H0, H1. cbn [andb Nat.eqb negb].
  apply Z.leb_le. lia.
Qed.

