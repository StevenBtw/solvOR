(* C09 - lemmas about one augmentation of min_cost_flow: list update, the bottleneck, and how
   cost / net outflow / the residual invariant change along the path. *)
From Coq Require Import List ZArith Bool Arith Lia.
From SV Require Import C09.Mcf C09.McfSpec.
Import ListNotations.
Open Scope Z_scope.
Import Mcf McfSpec.

Lemma length_upd {A} (l : list A) : forall i x, length (upd l i x) = length l.
Proof. induction l as [|h t IH]; intros [|i] x; cbn [upd length]; try reflexivity. rewrite IH. reflexivity. Qed.

Lemma nth_upd {A} (l : list A) : forall i j x d,
  nth i (upd l j x) d = if (Nat.eqb i j && Nat.ltb j (length l))%bool then x else nth i l d.
Proof.
  induction l as [|h t IH]; intros i j x d.
  - cbn [upd length]. destruct j; cbn [upd]; rewrite andb_false_r; reflexivity.
  - destruct j as [|j]; destruct i as [|i]; cbn [upd nth length]; try reflexivity.
    rewrite IH. change (Nat.eqb (S i) (S j)) with (Nat.eqb i j).
    change (Nat.ltb (S j) (S (length t))) with (Nat.ltb j (length t)). reflexivity.
Qed.

Lemma nth_upd_same {A} (l : list A) i x d : (i < length l)%nat -> nth i (upd l i x) d = x.
Proof. intros H. rewrite nth_upd, Nat.eqb_refl. apply Nat.ltb_lt in H. rewrite H. reflexivity. Qed.

Lemma nth_upd_other {A} (l : list A) i j x d : i <> j -> nth i (upd l j x) d = nth i l d.
Proof. intros H. rewrite nth_upd. apply Nat.eqb_neq in H. rewrite H. reflexivity. Qed.

Lemma upd_ge {A} (l : list A) : forall i x, (length l <= i)%nat -> upd l i x = l.
Proof.
  induction l as [|h t IH]; intros [|i] x H; cbn [upd length] in *; try reflexivity; [lia|].
  rewrite IH by lia. reflexivity.
Qed.

Lemma nth_repeat_lt {A} (x d : A) : forall k i, (i < k)%nat -> nth i (repeat x k) d = x.
Proof. induction k as [|k IH]; intros i Hi; [lia|]. destruct i as [|i]; [reflexivity|]. cbn [repeat nth]. apply IH. lia. Qed.

Lemma NoDup_app_intro {A} (l1 l2 : list A) : NoDup l1 -> NoDup l2 -> (forall x, In x l1 -> ~ In x l2) -> NoDup (l1 ++ l2).
Proof.
  induction l1 as [|a l1 IH]; intros H1 H2 Hd; [exact H2|]. inversion H1 as [|? ? Hna H1']; subst. cbn [app]. constructor.
  - intros Hin. apply in_app_or in Hin. destruct Hin as [Hin|Hin]; [contradiction|]. exact (Hd a (or_introl eq_refl) Hin).
  - apply IH; [exact H1'|exact H2|]. intros x Hx. apply Hd. right. exact Hx.
Qed.

Definition flows (res : resid) : list Z := map snd res.

Fixpoint lin (coef : arc -> Z) (arcs : list arc) (fl : list Z) : Z :=
  match arcs, fl with
  | a :: arcs', x :: fl' => coef a * x + lin coef arcs' fl'
  | _, _ => 0
  end.

Lemma flow_cost_lin arcs : forall f, flow_cost arcs f = lin a_c arcs f.
Proof. induction arcs as [|a arcs IH]; intros [|x f]; cbn [flow_cost lin]; try reflexivity. rewrite IH. reflexivity. Qed.

Definition ncoef (w : nat) (a : arc) : Z :=
  (if Nat.eqb (a_u a) w then 1 else 0) - (if Nat.eqb (a_v a) w then 1 else 0).

Lemma netout_lin w arcs : forall f, netout arcs f w = lin (ncoef w) arcs f.
Proof.
  induction arcs as [|a arcs IH]; intros [|x f]; cbn [netout lin]; try reflexivity. rewrite IH. unfold ncoef.
  destruct (Nat.eqb (a_u a) w); destruct (Nat.eqb (a_v a) w); lia.
Qed.

Lemma lin_upd coef : coef arc0 = 0 -> forall k arcs res p,
  (k < length res)%nat ->
  lin coef arcs (flows (upd res k p)) = lin coef arcs (flows res) + coef (nth k arcs arc0) * (snd p - snd (nth k res (0, 0))).
Proof.
  intros H0. unfold flows. induction k as [|k IH]; intros arcs res p Hk.
  - destruct res as [|p0 res]; [cbn in Hk; lia|]. destruct arcs as [|a arcs]; cbn [upd map lin nth].
    + rewrite H0. lia.
    + lia.
  - destruct res as [|p0 res]; [cbn in Hk; lia|]. cbn [length] in Hk.
    destruct arcs as [|a arcs]; cbn [upd map lin nth].
    + rewrite H0. lia.
    + rewrite IH by lia. lia.
Qed.

Lemma ncoef_arc0 w : ncoef w arc0 = 0.
Proof. unfold ncoef, arc0, a_u, a_v. cbn [fst snd]. destruct (Nat.eqb 0 w); lia. Qed.

Lemma aug1_length res e pf : length (aug1 res e pf) = length res.
Proof. unfold aug1. apply length_upd. Qed.

Lemma aug1_lin coef : coef arc0 = 0 -> forall arcs res e pf,
  length res = length arcs ->
  lin coef arcs (flows (aug1 res e pf)) =
  lin coef arcs (flows res) + coef (nth (fst e) arcs arc0) * (if snd e then - pf else pf).
Proof.
  intros H0 arcs res [k b] pf Hlen. unfold aug1. cbn [fst snd].
  destruct (Nat.lt_ge_cases k (length res)) as [Hk|Hk].
  - rewrite (lin_upd coef H0) by assumption. destruct b; cbn [snd]; lia.
  - rewrite upd_ge by assumption. rewrite (nth_overflow arcs) by lia. rewrite H0. lia.
Qed.

Lemma aug1_cost arcs res e pf : length res = length arcs ->
  flow_cost arcs (flows (aug1 res e pf)) = flow_cost arcs (flows res) + e_cost arcs e * pf.
Proof.
  intros Hlen. rewrite !flow_cost_lin. rewrite (aug1_lin a_c) by (assumption || reflexivity).
  unfold e_cost. destruct (snd e); lia.
Qed.

Definition delta (u : nat) (x : Z) (w : nat) : Z := if Nat.eqb u w then x else 0.

Lemma aug1_netout arcs res e pf w : length res = length arcs ->
  netout arcs (flows (aug1 res e pf)) w =
  netout arcs (flows res) w + delta (e_tail arcs e) pf w - delta (e_head arcs e) pf w.
Proof.
  intros Hlen. rewrite !netout_lin. rewrite (aug1_lin (ncoef w)) by (assumption || apply ncoef_arc0).
  unfold e_tail, e_head, ncoef, delta. set (a := nth (fst e) arcs arc0).
  destruct (snd e); destruct (Nat.eqb (a_u a) w); destruct (Nat.eqb (a_v a) w); lia.
Qed.

Fixpoint chain (arcs : list arc) (a : nat) (p : list edge) (b : nat) : Prop :=
  match p with
  | [] => a = b
  | e :: p' => e_tail arcs e = a /\ chain arcs (e_head arcs e) p' b
  end.

Lemma chain_cat arcs : forall p a m q b, chain arcs a p m -> chain arcs m q b -> chain arcs a (p ++ q) b.
Proof.
  induction p as [|e p IH]; intros a m q b H1 H2; cbn [chain app] in *.
  - subst. exact H2.
  - destruct H1 as [Ht H1]. split; [exact Ht|]. exact (IH _ _ _ _ H1 H2).
Qed.

Lemma augment_cons arcs res e path pf tc :
  augment arcs res (e :: path) pf tc = augment arcs (aug1 res e pf) path pf (tc + e_cost arcs e * pf).
Proof. reflexivity. Qed.

Lemma augment_length arcs : forall path res pf tc,
  length (fst (augment arcs res path pf tc)) = length res.
Proof.
  induction path as [|e path IH]; intros res pf tc; [reflexivity|].
  rewrite augment_cons, IH. apply aug1_length.
Qed.

Lemma augment_cost arcs : forall path res pf tc, length res = length arcs ->
  snd (augment arcs res path pf tc) - flow_cost arcs (flows (fst (augment arcs res path pf tc)))
  = tc - flow_cost arcs (flows res).
Proof.
  induction path as [|e path IH]; intros res pf tc Hlen; [reflexivity|].
  rewrite augment_cons, IH by (rewrite aug1_length; exact Hlen).
  rewrite aug1_cost by exact Hlen. lia.
Qed.

Lemma augment_netout arcs w : forall path res pf tc a b, length res = length arcs ->
  chain arcs a path b ->
  netout arcs (flows (fst (augment arcs res path pf tc))) w
  = netout arcs (flows res) w + delta a pf w - delta b pf w.
Proof.
  induction path as [|e path IH]; intros res pf tc a b Hlen Hc.
  - cbn [chain] in Hc. subst b. unfold augment. cbn [fold_left fst]. lia.
  - cbn [chain] in Hc. destruct Hc as [Ht Hc]. rewrite augment_cons.
    rewrite (IH _ _ _ _ _ (eq_trans (aug1_length _ _ _) Hlen) Hc).
    rewrite aug1_netout by exact Hlen. rewrite Ht. lia.
Qed.

Lemma fold_min_le {A} (g : A -> Z) : forall l init,
  fold_left (fun pf e => Z.min pf (g e)) l init <= init /\
  forall e, In e l -> fold_left (fun pf e => Z.min pf (g e)) l init <= g e.
Proof.
  induction l as [|x l IH]; intros init; cbn [fold_left].
  - split; [lia|]. intros e [].
  - destruct (IH (Z.min init (g x))) as [H1 H2]. split; [lia|].
    intros e [->|Hin]; [lia|]. apply H2. exact Hin.
Qed.

Lemma fold_min_ge {A} (g : A -> Z) lo : forall l init,
  lo <= init -> (forall e, In e l -> lo <= g e) -> lo <= fold_left (fun pf e => Z.min pf (g e)) l init.
Proof.
  induction l as [|x l IH]; intros init Hi Hl; cbn [fold_left]; [exact Hi|].
  apply IH.
  - specialize (Hl x (or_introl eq_refl)). lia.
  - intros e He. apply Hl. right. exact He.
Qed.

(* the residual invariant: residual[2k] + residual[2k+1] = cap_k, both >= 0 *)
Definition ResInv (arcs : list arc) (res : resid) : Prop :=
  length res = length arcs /\
  forall k, (k < length arcs)%nat ->
    fst (nth k res (0, 0)) + snd (nth k res (0, 0)) = a_cap (nth k arcs arc0)
    /\ 0 <= fst (nth k res (0, 0)) /\ 0 <= snd (nth k res (0, 0)).

Lemma e_res_nonneg arcs res e : ResInv arcs res -> 0 <= e_res res e.
Proof.
  intros [Hlen H]. unfold e_res. destruct (Nat.lt_ge_cases (fst e) (length arcs)) as [Hk|Hk].
  - destruct (H _ Hk) as (_ & H1 & H2). destruct (snd e); assumption.
  - rewrite nth_overflow by lia. destruct (snd e); cbn; lia.
Qed.

Lemma aug1_inv arcs res e pf :
  ResInv arcs res -> 0 <= pf -> pf <= e_res res e -> ResInv arcs (aug1 res e pf).
Proof.
  intros [Hlen H] Hpf Hle. split; [rewrite aug1_length; exact Hlen|].
  intros k Hk. unfold aug1. destruct (Nat.eq_dec k (fst e)) as [->|Hne].
  - rewrite nth_upd_same by lia. destruct (H _ Hk) as (Hs & H1 & H2). unfold e_res in Hle.
    destruct (snd e); cbn [fst snd]; lia.
  - rewrite nth_upd_other by exact Hne. apply H. exact Hk.
Qed.

Lemma aug1_e_res_other res e pf e' : fst e' <> fst e -> e_res (aug1 res e pf) e' = e_res res e'.
Proof. intros Hne. unfold e_res, aug1. rewrite nth_upd_other by exact Hne. reflexivity. Qed.

Lemma augment_inv arcs : forall path res pf tc,
  ResInv arcs res -> 0 <= pf -> NoDup (map fst path) -> (forall e, In e path -> pf <= e_res res e) ->
  ResInv arcs (fst (augment arcs res path pf tc)).
Proof.
  induction path as [|e path IH]; intros res pf tc Hinv Hpf Hnd Hle; [exact Hinv|].
  rewrite augment_cons. cbn [map] in Hnd. inversion Hnd as [|? ? Hnotin Hnd']; subst.
  apply IH.
  - apply aug1_inv; [exact Hinv|exact Hpf|]. apply Hle. left. reflexivity.
  - exact Hpf.
  - exact Hnd'.
  - intros e' He'. rewrite aug1_e_res_other.
    + apply Hle. right. exact He'.
    + intros Heq. apply Hnotin. rewrite <- Heq. apply in_map. exact He'.
Qed.

Lemma init_res_nth arcs k : (k < length arcs)%nat ->
  nth k (init_res arcs) (0, 0) = (a_cap (nth k arcs arc0), 0).
Proof.
  intros Hk. unfold init_res.
  rewrite (nth_indep _ (0, 0) ((fun a => (a_cap a, 0)) arc0)) by (rewrite map_length; exact Hk).
  exact (map_nth (fun a => (a_cap a, 0)) arcs arc0 k).
Qed.

Lemma init_res_inv arcs : forallb (fun a => 0 <=? a_cap a) arcs = true -> ResInv arcs (init_res arcs).
Proof.
  intros Hc. split; [apply map_length|].
  intros k Hk. rewrite forallb_forall in Hc. rewrite init_res_nth by exact Hk. cbn [fst snd].
  specialize (Hc (nth k arcs arc0) (nth_In _ _ Hk)). apply Z.leb_le in Hc. lia.
Qed.

Lemma init_res_flows arcs : flows (init_res arcs) = map (fun _ => 0) arcs.
Proof. unfold flows, init_res. rewrite map_map. reflexivity. Qed.

Lemma lin_zero coef arcs : lin coef arcs (map (fun _ => 0) arcs) = 0.
Proof. induction arcs as [|a arcs IH]; cbn [map lin]; [reflexivity|]. rewrite IH. lia. Qed.
