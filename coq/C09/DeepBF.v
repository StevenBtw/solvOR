(* C09 deepening - exactness of the model's Bellman-Ford (in place, edges in list order, at most n-1 rounds, early
   exit when a round changes nothing) on a residual graph without negative-cost cycle.
   Labels are related to residual walks that start in a set of sources Src (the model: Src = {source}; all nodes as
   sources give feasible potentials for any graph without negative cycle):
     Lw   : every finite label is the cost of some residual walk from a source          (labels >= true distances)
     Uw r : every label is <= the cost of every residual walk from a source with <= r edges
   A round turns Uw r into Uw (r+1) (in place only helps: labels never increase inside a round); a round that changes
   nothing is a fixpoint FP (dist[head] <= dist[tail] + cost on every residual edge), which gives Uw r for all r;
   n-1 full rounds give Uw (n-1), which is Uw r for all r by loop erasure (DeepWalk.short_walk).
   Up to that last step nothing depends on the absence of negative cycles: with them the labels still mark exactly
   the nodes that residual walks reach (bf_reach), which is what the soundness of INFEASIBLE needs. *)
From Coq Require Import List ZArith Bool Arith Lia.
From SV Require Import C09.Mcf C09.McfSpec C09.McfAug C09.McfBF C09.DeepWalk.
Import ListNotations.
Open Scope Z_scope.
Import Mcf McfSpec.

Definition edge5 := (edge * nat * nat * Z * Z)%type.

(* labels only decrease *)
Definition le_lab (d d' : list (option Z)) : Prop :=
  length d' = length d /\
  forall v dv, nth v d None = Some dv -> exists dv', nth v d' None = Some dv' /\ dv' <= dv.

Lemma le_lab_refl d : le_lab d d.
Proof. split; [reflexivity|]. intros v dv H. exists dv. split; [exact H|lia]. Qed.

Lemma le_lab_trans d1 d2 d3 : le_lab d1 d2 -> le_lab d2 d3 -> le_lab d1 d3.
Proof.
  intros [L1 H1] [L2 H2]. split; [congruence|]. intros v dv H.
  destruct (H1 _ _ H) as (dv' & H' & Hle). destruct (H2 _ _ H') as (dv'' & H'' & Hle'). exists dv''. split; [exact H''|lia].
Qed.

Lemma le_lab_upd d v x :
  (nth v d None = None \/ exists dv, nth v d None = Some dv /\ x <= dv) -> le_lab d (upd d v (Some x)).
Proof.
  intros Hv. split; [apply length_upd|]. intros w dw Hw. rewrite nth_upd.
  destruct (Nat.eqb w v && Nat.ltb v (length d))%bool eqn:E.
  - apply andb_prop in E. destruct E as [E _]. apply Nat.eqb_eq in E. subst w.
    exists x. split; [reflexivity|]. destruct Hv as [Hv|(dv & Hv & Hle)]; [congruence|].
    rewrite Hv in Hw. inversion Hw; subst. exact Hle.
  - exists dw. split; [exact Hw|lia].
Qed.

(* what a relaxation, or a sweep that contains it, has done for edge x when it started from the labels dist and ended
   in d': the label of the head has been brought below (start label of the tail) + cost *)
Definition settled (dist d' : list (option Z)) (x : edge5) : Prop :=
  let '(e, u, v, c, r) := x in
  0 < r -> forall du, nth u dist None = Some du -> (v < length dist)%nat ->
  exists dv, nth v d' None = Some dv /\ dv <= du + c.

Lemma settled_mono dist0 dist d1 d' x :
  le_lab dist0 dist -> le_lab d1 d' -> settled dist d1 x -> settled dist0 d' x.
Proof.
  destruct x as [[[[e u] v] c] r]. intros [L0 H0] [_ H1] Hs Hpos du0 Edu0 Hvl.
  destruct (H0 _ _ Edu0) as (du & Edu & Hle). destruct (Hs Hpos du Edu ltac:(lia)) as (dv1 & Edv1 & Hle1).
  destruct (H1 _ _ Edv1) as (dv & Edv & Hle2). exists dv. split; [exact Edv|lia].
Qed.

Section BFExact.
Variable arcs : list arc.
Variable res : resid.
Variable n : nat.
Variable Src : nat -> Prop.
Variable es : list edge5.
Hypothesis Hes_ok : forall x, In x es -> edge_ok arcs res x.
Hypothesis Hes_complete : forall e, (fst e < length arcs)%nat ->
  In (e, e_tail arcs e, e_head arcs e, e_cost arcs e, e_res res e) es.
Hypothesis Hhead : forall e, (fst e < length arcs)%nat -> (e_head arcs e < n)%nat.

Definition Lw (dist : list (option Z)) : Prop :=
  forall v dv, nth v dist None = Some dv ->
  exists a p, Src a /\ rwalk arcs res a p v /\ pcost arcs p = dv.

Definition Uw (r : nat) (dist : list (option Z)) : Prop :=
  forall a p v, Src a -> rwalk arcs res a p v -> (length p <= r)%nat ->
  exists dv, nth v dist None = Some dv /\ dv <= pcost arcs p.

Definition Uall (dist : list (option Z)) : Prop :=
  forall a p v, Src a -> rwalk arcs res a p v ->
  exists dv, nth v dist None = Some dv /\ dv <= pcost arcs p.

(* the labels are feasible potentials on the part they reach *)
Definition FP (dist : list (option Z)) : Prop :=
  forall e du, redge arcs res e -> nth (e_tail arcs e) dist None = Some du ->
  exists dv, nth (e_head arcs e) dist None = Some dv /\ dv <= du + e_cost arcs e.

Lemma Uw_le r d d' : Uw r d -> le_lab d d' -> Uw r d'.
Proof.
  intros HU [_ Hle] a p v Ha Hw Hl. destruct (HU a p v Ha Hw Hl) as (dv & Hd & Hc).
  destruct (Hle _ _ Hd) as (dv' & Hd' & Hc'). exists dv'. split; [exact Hd'|lia].
Qed.

Lemma relax_step dist par fl x d' p' fl' :
  edge_ok arcs res x -> relax (dist, par, fl) x = (d', p', fl') ->
  le_lab dist d' /\ (Lw dist -> Lw d') /\ settled dist d' x /\ (fl' = false -> fl = false /\ d' = dist).
Proof.
  destruct x as [[[[e u] v] c] r]. intros (Hu & Hv & Hc & Hr & Hk) E.
  destruct (relax_cases dist par fl e u v c r) as [[E' Hwhy]|(du & Hpos & Edu & Hwhy & E')];
    rewrite E' in E; inversion E; subst d' p' fl'; clear E.
  - split; [apply le_lab_refl|]. split; [auto|]. split; [|auto].
    intros Hpos du Edu _. destruct Hwhy as [Hw|[Hw|(du0 & dv & Hw1 & Hw2 & Hw3)]]; [lia|congruence|].
    rewrite Hw1 in Edu. inversion Edu; subst du0. exists dv. split; assumption.
  - split; [|split; [|split]].
    + apply le_lab_upd. destruct Hwhy as [Hn|(dv & Hn & Hlt)]; [left; exact Hn|right; exists dv; split; [exact Hn|lia]].
    + intros HL w dw Hw. rewrite nth_upd in Hw.
      destruct (Nat.eqb w v && Nat.ltb v (length dist))%bool eqn:Eb; [|exact (HL _ _ Hw)].
      apply andb_prop in Eb. destruct Eb as [Eb _]. apply Nat.eqb_eq in Eb. subst w. inversion Hw; subst dw.
      destruct (HL _ _ Edu) as (a & p & Ha & Hp & Hcost).
      exists a, (p ++ [e]). split; [exact Ha|]. split.
      * rewrite Hv. apply rwalk_snoc; [rewrite <- Hu; exact Hp|]. split; [exact Hk|]. rewrite <- Hr. exact Hpos.
      * rewrite pcost_app. cbn [pcost]. rewrite <- Hc. lia.
    + intros _ du0 Edu0 Hvl. rewrite Edu in Edu0. inversion Edu0; subst du0.
      exists (du + c). split; [apply nth_upd_same; exact Hvl|lia].
    + discriminate.
Qed.

(* one sweep over a list of edges: labels only decrease inside the sweep, so what an earlier
   relaxation has settled stays settled, and a later one that starts from smaller labels settles even more *)
Lemma fold_step : forall l dist par fl d' p' fl',
  (forall x, In x l -> edge_ok arcs res x) ->
  fold_left relax l (dist, par, fl) = (d', p', fl') ->
  le_lab dist d' /\ (Lw dist -> Lw d') /\ (forall x, In x l -> settled dist d' x) /\
  (fl' = false -> fl = false /\ d' = dist).
Proof.
  induction l as [|x l IH]; intros dist par fl d' p' fl' Hok E; cbn [fold_left] in E.
  - inversion E; subst d' p' fl'. split; [apply le_lab_refl|]. split; [auto|]. split; [intros ? []|auto].
  - destruct (relax (dist, par, fl) x) as [[d1 p1] fl1] eqn:E1.
    destruct (relax_step _ _ _ _ _ _ _ (Hok _ (or_introl eq_refl)) E1) as (S1 & S2 & S3 & S4).
    destruct (IH _ _ _ _ _ _ (fun y Hy => Hok y (or_intror Hy)) E) as (I1 & I2 & I3 & I4).
    split; [exact (le_lab_trans _ _ _ S1 I1)|]. split; [auto|]. split.
    + intros y [<-|Hy].
      * exact (settled_mono _ _ _ _ _ (le_lab_refl dist) I1 S3).
      * exact (settled_mono _ _ _ _ _ S1 (le_lab_refl d') (I3 y Hy)).
    + intros Hfl. destruct (I4 Hfl) as [F1 ->]. exact (S4 F1).
Qed.

Lemma round_U r dist par d' p' fl' : length dist = n -> Uw r dist ->
  fold_left relax es (dist, par, false) = (d', p', fl') -> Uw (S r) d'.
Proof.
  intros Hlen HU E. destruct (fold_step _ _ _ _ _ _ _ Hes_ok E) as (I1 & _ & I3 & _).
  intros a p v Ha Hw Hl. destruct (Nat.le_gt_cases (length p) r) as [Hle|Hgt].
  - exact (Uw_le r dist d' HU I1 a p v Ha Hw Hle).
  - destruct p as [|e0 p0] using rev_ind; [cbn [length] in Hgt; lia|]. clear IHp0.
    rewrite app_length in Hl. cbn [length] in Hl.
    apply rwalk_snoc_inv in Hw. destruct Hw as (Hw & He & Hh). subst v.
    destruct (HU a p0 _ Ha Hw ltac:(lia)) as (du & Edu & Hcu).
    destruct (I3 _ (Hes_complete e0 (proj1 He)) (proj2 He) du Edu) as (dv' & Hd' & Hle').
    { rewrite Hlen. apply Hhead. exact (proj1 He). }
    exists dv'. split; [exact Hd'|]. rewrite pcost_app. cbn [pcost]. lia.
Qed.

Lemma round_noupdate dist par d' p' : length dist = n ->
  fold_left relax es (dist, par, false) = (d', p', false) -> d' = dist /\ FP dist.
Proof.
  intros Hlen E. destruct (fold_step _ _ _ _ _ _ _ Hes_ok E) as (_ & _ & I3 & I4).
  destruct (I4 eq_refl) as [_ ->]. split; [reflexivity|].
  intros e du He Edu. apply (I3 _ (Hes_complete e (proj1 He)) (proj2 He) du Edu).
  rewrite Hlen. exact (Hhead e (proj1 He)).
Qed.

Lemma FP_walk dist : FP dist -> forall p a b da, rwalk arcs res a p b -> nth a dist None = Some da ->
  exists db, nth b dist None = Some db /\ db <= da + pcost arcs p.
Proof.
  intros HF. induction p as [|e p IH]; intros a b da Hw Ha.
  - destruct Hw as [Hc _]. cbn [chain] in Hc. subst b. exists da. split; [exact Ha|cbn [pcost]; lia].
  - apply rwalk_cons_inv in Hw. destruct Hw as (Ht & He & Hw). subst a.
    destruct (HF e da He Ha) as (dh & Hh & Hle). destruct (IH _ _ _ Hw Hh) as (db & Hb & Hle').
    exists db. split; [exact Hb|cbn [pcost]; lia].
Qed.

(* a fixpoint whose sources have label <= 0 is below every walk *)
Lemma FP_Uall dist : FP dist -> Uw 0 dist -> Uall dist.
Proof.
  intros HF H0 a p v Ha Hw. destruct (H0 a [] a Ha (rwalk_nil arcs res a) (Nat.le_refl _)) as (da & Eda & Hle).
  cbn [pcost] in Hle. destruct (FP_walk dist HF p a v da Hw Eda) as (dv & Edv & Hle'). exists dv. split; [exact Edv|lia].
Qed.

Lemma Uall_FP dist : Lw dist -> Uall dist -> FP dist.
Proof.
  intros HL HU e du He Edu. destruct (HL _ _ Edu) as (a & p & Ha & Hp & Hc).
  destruct (HU a (p ++ [e]) _ Ha (rwalk_snoc _ _ _ _ _ Hp He)) as (dv & Edv & Hle).
  exists dv. split; [exact Edv|]. rewrite pcost_app in Hle. cbn [pcost] in Hle. lia.
Qed.

Lemma rounds_labels : forall k r dist par d' p', length dist = n -> Lw dist -> Uw r dist ->
  bf_rounds k es dist par = (d', p') ->
  length d' = n /\ Lw d' /\ le_lab dist d' /\ (FP d' \/ Uw (r + k) d').
Proof.
  induction k as [|k IH]; intros r dist par d' p' Hlen HL HU E.
  - cbn [bf_rounds] in E. inversion E; subst d' p'. split; [exact Hlen|]. split; [exact HL|]. split; [apply le_lab_refl|].
    right. rewrite Nat.add_0_r. exact HU.
  - cbn [bf_rounds] in E. unfold bf_round in E.
    destruct (fold_left relax es (dist, par, false)) as [[d1 p1] fl1] eqn:E1.
    destruct (fold_step _ _ _ _ _ _ _ Hes_ok E1) as (I1 & I2 & _ & _).
    destruct fl1.
    + pose proof (round_U r dist par d1 p1 true Hlen HU E1) as HU1.
      destruct (IH (S r) d1 p1 d' p' ltac:(rewrite (proj1 I1); exact Hlen) (I2 HL) HU1 E) as (J1 & J2 & J3 & J4).
      split; [exact J1|]. split; [exact J2|]. split; [exact (le_lab_trans _ _ _ I1 J3)|].
      replace (r + S k)%nat with (S r + k)%nat by lia. exact J4.
    + inversion E; subst d' p'. destruct (round_noupdate _ _ _ _ Hlen E1) as (-> & HF).
      split; [exact Hlen|]. split; [exact HL|]. split; [apply le_lab_refl|]. left. exact HF.
Qed.

(* after n-1 rounds every node that a residual walk reaches from a source has a label; the label is below the cost of
   the walk as soon as shortening the walk to at most n-1 edges (loop erasure) does not make it dearer *)
Lemma bf_reach dist0 par0 d' p' :
  (forall a, Src a -> (a < n)%nat) ->
  length dist0 = n -> Lw dist0 -> Uw 0 dist0 ->
  bf_rounds (n - 1) es dist0 par0 = (d', p') ->
  length d' = n /\ Lw d' /\ le_lab dist0 d' /\
  forall a p v, Src a -> rwalk arcs res a p v ->
    exists dv, nth v d' None = Some dv /\ (NoNegCycle arcs res -> dv <= pcost arcs p).
Proof.
  intros Hsrc Hlen HL HU0 E.
  destruct (rounds_labels (n - 1) 0 dist0 par0 d' p' Hlen HL HU0 E) as (J1 & J2 & J3 & J4).
  split; [exact J1|]. split; [exact J2|]. split; [exact J3|].
  intros a p v Ha Hw. destruct J4 as [HF|HU].
  - destruct (FP_Uall d' HF (Uw_le 0 _ _ HU0 J3) a p v Ha Hw) as (dv & Edv & Hle). exists dv. auto.
  - destruct (short_walk arcs res n Hhead p a v (Hsrc a Ha) Hw) as (q & Hq & Hlq & Hcq).
    destruct (HU a q v Ha Hq ltac:(cbn [plus]; lia)) as (dv & Edv & Hle). exists dv. split; [exact Edv|].
    intros Hnn. specialize (Hcq Hnn). lia.
Qed.

(* without negative cycle, <= n-1 in-place rounds with early exit end in exact labels *)
Theorem bf_final dist0 par0 d' p' :
  NoNegCycle arcs res -> (forall a, Src a -> (a < n)%nat) ->
  length dist0 = n -> Lw dist0 -> Uw 0 dist0 ->
  bf_rounds (n - 1) es dist0 par0 = (d', p') ->
  length d' = n /\ Lw d' /\ Uall d' /\ FP d' /\ le_lab dist0 d'.
Proof.
  intros Hnn Hsrc Hlen HL HU0 E.
  destruct (bf_reach dist0 par0 d' p' Hsrc Hlen HL HU0 E) as (J1 & J2 & J3 & J4).
  assert (HUall : Uall d').
  { intros a p v Ha Hw. destruct (J4 a p v Ha Hw) as (dv & Edv & Hle). exists dv. split; [exact Edv|exact (Hle Hnn)]. }
  split; [exact J1|]. split; [exact J2|]. split; [exact HUall|]. split; [exact (Uall_FP d' J2 HUall)|exact J3].
Qed.

End BFExact.
