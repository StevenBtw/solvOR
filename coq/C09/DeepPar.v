(* C09 deepening - the parent table of Bellman-Ford on a residual graph without negative cycle: parent edges (residual
   edges with dist[tail] + cost <= dist[head], McfBF.ParOK) are tight at a fixpoint, the parent pointers never close a cycle
   (closing one by parent[v] := e would exhibit a negative residual cycle: along parent edges the labels grow at least
   by the cost, and the new edge strictly improves dist[v]); then the model's call (single source): exact labels, a
   returned path consists of tight residual edges, and the path reconstruction ends within its n steps. *)
From Coq Require Import List ZArith Bool Arith Lia.
From SV Require Import C09.Mcf C09.McfSpec C09.McfAug C09.McfBF C09.DeepWalk C09.DeepBF.
Import ListNotations.
Open Scope Z_scope.
Import Mcf McfSpec.

Section Par.
Variable arcs : list arc.
Variable res : resid.
Variable s : nat.
Hypothesis Hnn : NoNegCycle arcs res.

Definition Acyclic (par : list (option edge)) : Prop := forall v, exists f p, walk arcs par f v = Some p.

(* going back along a parent walk: forward it is a residual walk along which the labels grow at least by the cost *)
Lemma walk_back dist par : ParOK arcs res s dist par ->
  forall p f x dx, walk arcs par f x = Some p -> nth x dist None = Some dx ->
  forall y, In y (x :: map (e_tail arcs) p) ->
  exists q dy, rwalk arcs res y q x /\ nth y dist None = Some dy /\ dy + pcost arcs q <= dx.
Proof.
  intros (_ & HP & _). induction p as [|e p IH]; intros f x dx H Ex y Hin.
  - destruct Hin as [<-|[]]. exists [], dx. split; [apply rwalk_nil|]. split; [exact Ex|cbn [pcost]; lia].
  - destruct Hin as [<-|Hin]; [exists [], dx; split; [apply rwalk_nil|]; split; [exact Ex|cbn [pcost]; lia]|].
    apply walk_cons in H. destruct H as [Hx [f1 H1]].
    destruct (HP _ _ Hx) as (Hk & Hpos & Hh & du & dv & Et & Ev & Hle). rewrite Ex in Ev. inversion Ev; subst dv.
    destruct (IH _ _ du H1 Et y Hin) as (q & dy & Hq & Ey & Hle').
    exists (q ++ [e]), dy. split; [rewrite <- Hh; apply rwalk_snoc; [exact Hq|split; assumption]|].
    split; [exact Ey|]. rewrite pcost_app. cbn [pcost]. lia.
Qed.

Lemma walk_same par v e : forall p f x, walk arcs par f x = Some p ->
  ~ In v (x :: map (e_tail arcs) p) -> exists f', walk arcs (upd par v (Some e)) f' x = Some p.
Proof.
  induction p as [|e1 p IH]; intros f x H Hn.
  - exists O. apply walk_none. rewrite nth_upd_other by (intros ->; apply Hn; left; reflexivity).
    exact (walk_nil_inv arcs par f x H).
  - apply walk_cons in H. destruct H as [Hx [f1 H1]].
    destruct (IH _ _ H1) as [f' H']; [intros Hin; apply Hn; right; exact Hin|].
    exists (S f'). cbn [walk]. rewrite nth_upd_other by (intros ->; apply Hn; left; reflexivity).
    rewrite Hx, H'. reflexivity.
Qed.

(* pointing v at an edge whose tail has a parent walk that avoids v keeps all parent walks finite: a walk that meets v
   continues along the new walk from v, the others are unchanged *)
Lemma upd_acyclic par v e fu pu : Acyclic par ->
  walk arcs par fu (e_tail arcs e) = Some pu -> ~ In v (e_tail arcs e :: map (e_tail arcs) pu) ->
  Acyclic (upd par v (Some e)).
Proof.
  intros HA Hwu Hnotin.
  destruct (Nat.lt_ge_cases v (length par)) as [Hvl|Hvl]; [|rewrite upd_ge by exact Hvl; exact HA].
  destruct (walk_same par v e pu fu _ Hwu Hnotin) as [fu' Hwu'].
  assert (Hv' : walk arcs (upd par v (Some e)) (S fu') v = Some (e :: pu)).
  { cbn [walk]. rewrite nth_upd_same by exact Hvl. rewrite Hwu'. reflexivity. }
  assert (Hall : forall p f x, walk arcs par f x = Some p ->
                 exists f' p', walk arcs (upd par v (Some e)) f' x = Some p').
  { induction p as [|e1 p IH]; intros f x H;
      (destruct (Nat.eq_dec x v) as [->|Hne]; [exists (S fu'), (e :: pu); exact Hv'|]).
    - exists O, []. apply walk_none. rewrite nth_upd_other by exact Hne. exact (walk_nil_inv arcs par f x H).
    - apply walk_cons in H. destruct H as [Hx [f1 H1]]. destruct (IH _ _ H1) as (f' & p' & H').
      exists (S f'), (e1 :: p'). cbn [walk]. rewrite nth_upd_other by exact Hne. rewrite Hx, H'. reflexivity. }
  intros x. destruct (HA x) as (f & p & H). exact (Hall p f x H).
Qed.

Lemma relax_par dist par fl e u v c r d' p' fl' :
  edge_ok arcs res (e, u, v, c, r) -> ParOK arcs res s dist par /\ Acyclic par ->
  relax (dist, par, fl) (e, u, v, c, r) = (d', p', fl') -> ParOK arcs res s d' p' /\ Acyclic p'.
Proof.
  intros Hx [HP HA] E. split; [exact (relax_ok arcs res s _ _ _ _ _ _ _ Hx HP E)|].
  destruct Hx as (Hu & Hv & Hc & Hr & Hk).
  destruct (relax_cases dist par fl e u v c r) as [[E' _]|(du & Hpos & Edu & Hwhy & E')];
    rewrite E' in E; inversion E; subst d' p' fl'; clear E; [exact HA|].
  destruct (HA u) as (fu & pu & Hwu). rewrite Hu in Hwu. apply (upd_acyclic par v e fu pu HA Hwu). rewrite <- Hu.
  (* v is not on the parent walk from u: the walk back from v to u followed by e would be a negative cycle *)
  intros Hin. rewrite <- Hu in Hwu.
  destruct (walk_back dist par HP pu fu u du Hwu Edu v Hin) as (q & dy & Hq & Ey & Hle).
  assert (Hcyc : rwalk arcs res v (q ++ [e]) v).
  { pose proof (rwalk_snoc arcs res v q e) as H1. rewrite <- Hu, <- Hv in H1. apply (H1 Hq).
    split; [exact Hk|rewrite <- Hr; exact Hpos]. }
  pose proof (Hnn _ _ Hcyc) as Hpos'. rewrite pcost_app in Hpos'. cbn [pcost] in Hpos'. rewrite <- Hc in Hpos'.
  destruct Hwhy as [Hn|(dv & Hn & Hlt)]; [congruence|]. rewrite Ey in Hn. inversion Hn; subst dv. lia.
Qed.

Lemma rounds_par es : (forall x, In x es -> edge_ok arcs res x) ->
  forall k dist par d' p', ParOK arcs res s dist par /\ Acyclic par -> bf_rounds k es dist par = (d', p') ->
  ParOK arcs res s d' p' /\ Acyclic p'.
Proof.
  intros Hok. apply (bf_rounds_inv (fun d p => ParOK arcs res s d p /\ Acyclic p)).
  intros [[[[e u] v] c] r] dist par fl d1 p1 fl1 Hx. exact (relax_par dist par fl e u v c r d1 p1 fl1 (Hok _ Hx)).
Qed.

(* at a fixpoint the parent edges are tight *)
Lemma par_tight dist par : FP arcs res dist -> ParOK arcs res s dist par ->
  forall v e, nth v par None = Some e ->
    redge arcs res e /\
    exists du dv, nth (e_tail arcs e) dist None = Some du /\ nth (e_head arcs e) dist None = Some dv /\
                  dv = du + e_cost arcs e.
Proof.
  intros HF (_ & HP & _) v e Hv. destruct (HP _ _ Hv) as (Hk & Hpos & Hh & du & dv & Et & Ev & Hle).
  split; [split; assumption|]. exists du, dv. rewrite Hh. split; [exact Et|]. split; [exact Ev|].
  destruct (HF e du (conj Hk Hpos) Et) as (dv' & Ev' & Hle'). rewrite Hh, Ev in Ev'. inversion Ev'; subst dv'. lia.
Qed.

End Par.

Definition dist0 (n s : nat) : list (option Z) := upd (repeat None n) s (Some 0).

Lemma acyclic_init arcs n : Acyclic arcs (repeat None n).
Proof. intros v. exists O, []. apply walk_none. apply nth_repeat. Qed.

Lemma dist0_Lw arcs res n s : Lw arcs res (eq s) (dist0 n s).
Proof.
  intros v dv H. unfold dist0 in H. rewrite nth_upd in H.
  destruct (Nat.eqb v s && Nat.ltb s (length (repeat None n)))%bool eqn:E; [|rewrite nth_repeat in H; discriminate].
  apply andb_prop in E. destruct E as [E _]. apply Nat.eqb_eq in E. subst v. inversion H; subst dv.
  exists s, []. split; [reflexivity|]. split; [apply rwalk_nil|reflexivity].
Qed.

Lemma dist0_Uw arcs res n s : (s < n)%nat -> Uw arcs res (eq s) 0 (dist0 n s).
Proof.
  intros Hs a p v <- [Hc _] Hl. destruct p as [|e p]; [|cbn [length] in Hl; lia].
  cbn [chain] in Hc. subst v. exists 0. split; [|cbn [pcost]; lia].
  unfold dist0. apply nth_upd_same. rewrite repeat_length. exact Hs.
Qed.

Section Model.
Variables (n : nat) (arcs : list arc) (res : resid) (s : nat) (dist : list (option Z)) (par : list (option edge)).
Hypothesis Hva : valid_arcs n arcs = true.
Hypothesis Hlen : length res = length arcs.
Hypothesis Hs : (s < n)%nat.
Hypothesis Hnn : NoNegCycle arcs res.
Hypothesis HE : bf_rounds (n - 1) (res_edges 0 arcs res) (dist0 n s) (repeat None n) = (dist, par).

Lemma bf_model_reach :
  Lw arcs res (eq s) dist /\
  forall p v, rwalk arcs res s p v ->
    exists dv, nth v dist None = Some dv /\ (NoNegCycle arcs res -> dv <= pcost arcs p).
Proof using Hva Hlen Hs HE.
  destruct (bf_reach arcs res n (eq s) (res_edges 0 arcs res) (res_edges_ok arcs res)
              (fun e => res_edges_complete arcs res e Hlen)
              (fun e Hk => proj2 (valid_arcs_ends n arcs Hva e Hk))
              (dist0 n s) (repeat None n) dist par)
    as (_ & H2 & _ & H4).
  - intros a <-. exact Hs.
  - unfold dist0. rewrite length_upd, repeat_length. reflexivity.
  - apply dist0_Lw.
  - apply dist0_Uw. exact Hs.
  - exact HE.
  - split; [exact H2|]. intros p v. exact (H4 s p v eq_refl).
Qed.

Theorem bf_model :
  Lw arcs res (eq s) dist /\ Uall arcs res (eq s) dist /\ FP arcs res dist /\
  ParOK arcs res s dist par /\ Acyclic arcs par.
Proof.
  destruct bf_model_reach as (HL & H4).
  assert (HU : Uall arcs res (eq s) dist).
  { intros a p v <- Hw. destruct (H4 p v Hw) as (dv & Edv & Hle). exists dv. split; [exact Edv|exact (Hle Hnn)]. }
  split; [exact HL|]. split; [exact HU|]. split; [exact (Uall_FP arcs res (eq s) dist HL HU)|].
  exact (rounds_par arcs res s Hnn _ (res_edges_ok arcs res) _ _ _ _ _ (conj (init_ok arcs res s n) (acyclic_init arcs n)) HE).
Qed.

(* (1) the statement in words: the final labels are the minimum costs of residual walks from the source, None exactly
   on the nodes no residual walk reaches, and they are feasible potentials on every residual edge *)
Theorem bf_exact :
  (forall v dv, nth v dist None = Some dv <->
     (exists p, rwalk arcs res s p v /\ pcost arcs p = dv) /\
     (forall p, rwalk arcs res s p v -> dv <= pcost arcs p)) /\
  (forall v, nth v dist None = None <-> ~ exists p, rwalk arcs res s p v) /\
  (forall e du, redge arcs res e -> nth (e_tail arcs e) dist None = Some du ->
     exists dv, nth (e_head arcs e) dist None = Some dv /\ dv <= du + e_cost arcs e).
Proof.
  destruct bf_model as (HL & HU & HF & _).
  split; [|split; [|exact HF]].
  - intros v dv. split.
    + intros Hd. split.
      * destruct (HL _ _ Hd) as (a & p & <- & Hp & Hc). exists p. split; assumption.
      * intros p Hp. destruct (HU s p v eq_refl Hp) as (dv' & Hd' & Hle). rewrite Hd in Hd'. inversion Hd'; subst. exact Hle.
    + intros [(p & Hp & Hc) Hmin]. destruct (HU s p v eq_refl Hp) as (dv' & Hd' & Hle).
      destruct (HL _ _ Hd') as (a & q & <- & Hq & Hcq). specialize (Hmin q Hq).
      rewrite Hd'. f_equal. lia.
  - intros v. split.
    + intros Hd (p & Hp). destruct (HU s p v eq_refl Hp) as (dv' & Hd' & _). congruence.
    + intros Hno. destruct (nth v dist None) as [dv|] eqn:Hd; [|reflexivity].
      exfalso. apply Hno. destruct (HL _ _ Hd) as (a & p & <- & Hp & _). exists p. exact Hp.
Qed.

End Model.

(* what the model's Bellman-Ford returns: a path of residual edges of positive capacity that are tight for the final
   labels, which are a fixpoint *)
Lemma bf_path_tight : forall n arcs res s t path d,
  valid_arcs n arcs = true -> length res = length arcs -> (s < n)%nat -> NoNegCycle arcs res ->
  bellman_ford n arcs res s t = BFPath path d ->
  exists dist, FP arcs res dist /\
    (forall e, In e path -> redge arcs res e) /\
    (forall e, In e path ->
       exists du dv, nth (e_tail arcs e) dist None = Some du /\ nth (e_head arcs e) dist None = Some dv /\
                     dv = du + e_cost arcs e).
Proof.
  intros n arcs res s t path d Hva Hlen Hs Hnn H. unfold bellman_ford in H. fold (dist0 n s) in H.
  destruct (bf_rounds (n - 1) (res_edges 0 arcs res) (dist0 n s) (repeat None n)) as [dist par] eqn:E.
  destruct (bf_model n arcs res s dist par Hva Hlen Hs Hnn E) as (_ & _ & HF & HP & _).
  destruct (nth t dist None) as [dt|]; [|discriminate].
  destruct (walk arcs par n t) as [p|] eqn:Ew; [|discriminate]. inversion H; subst path d.
  exists dist. split; [exact HF|].
  assert (Hpar : forall e, In e (rev p) -> exists v, nth v par None = Some e).
  { intros e He. apply in_rev in He. exact (walk_parents arcs par p n t Ew e He). }
  split; intros e He; destruct (Hpar e He) as (v & Hv); apply (par_tight arcs res s dist par HF HP v e Hv).
Qed.

(* the walk from the sink ends, visits distinct nodes, and therefore fits in the n steps of fuel *)
Theorem bf_no_hang : forall n arcs res s t,
  valid_arcs n arcs = true -> length res = length arcs -> (s < n)%nat -> (t < n)%nat ->
  NoNegCycle arcs res -> bellman_ford n arcs res s t <> BFHang.
Proof.
  intros n arcs res s t Hva Hlen Hs Ht Hnn. unfold bellman_ford. fold (dist0 n s).
  destruct (bf_rounds (n - 1) (res_edges 0 arcs res) (dist0 n s) (repeat None n)) as [dist par] eqn:E.
  destruct (bf_model n arcs res s dist par Hva Hlen Hs Hnn E) as (_ & _ & _ & Hok & HA).
  destruct (nth t dist None) as [dt|]; [|discriminate].
  destruct (HA t) as (f & p & Hw).
  assert (Hl : (S (length p) <= n)%nat).
  { apply (nodup_bound (e_tail arcs) t p n (walk_nodup_nodes arcs par p f t Hw) Ht). intros e He.
    destruct (walk_parents arcs par p f t Hw e He) as (v & Hv).
    exact (proj1 (valid_arcs_ends n arcs Hva e (proj1 (par_edge arcs res s dist par Hok v e Hv)))). }
  rewrite (walk_fuel arcs par p f t Hw n) by lia. discriminate.
Qed.
