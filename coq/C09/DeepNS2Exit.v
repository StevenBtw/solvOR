(* C09 - network_simplex: the two ends of a run.
   The arc tables built from the input; the initial big-M basis (all artificial arcs basic, every original arc at its
   lower bound) satisfies the invariant NSInv, hence so does every state the main loop reaches (DeepNS2Step.ns_loop_inv);
   when the pricing rule finds no entering arc and no artificial arc carries flow, the flows of the original arcs are
   feasible for the supplies and the negated potentials certify minimality (McfCert.cert_optimal). *)
From Coq Require Import List ZArith Lia.
From SV Require Import C09.Mcf C09.McfSpec C09.McfCert C09.McfAug C09.McfProofs C09.NetSimplex C09.NetSimplexProofs C09.DeepPot C09.DeepNS.
From SV Require Import C09.DeepNS2Base C09.DeepNS2Step.
Import ListNotations.
Open Scope Z_scope.
Import Mcf McfSpec NetSimplex.

Lemma nth_map_seq {A} (f : nat -> A) d : forall k i, (i < k)%nat -> nth i (map f (seq 0 k)) d = f i.
Proof.
  intros k i Hi. rewrite (nth_indep _ d (f 0%nat)) by (rewrite map_length, seq_length; exact Hi).
  rewrite map_nth, seq_nth by exact Hi. reflexivity.
Qed.

Lemma nth_map_app {A B} (f : A -> B) l l' d i : (i < length l)%nat -> nth i (map f l ++ l') (f d) = f (nth i l d).
Proof. intros H. rewrite app_nth1 by (rewrite map_length; exact H). apply map_nth. Qed.

Definition big_m (n : nat) (arcs : list arc) : Z := zsum (map (fun a => Z.abs (a_c a)) arcs) * Z.of_nat n + 1.

Section Init.
Variables (n : nat) (arcs : list arc) (sup : list Z).
Local Notation C := (mk_consts n arcs sup).
Local Notation m := (length arcs).
Local Notation src a := (nn (c_src C) a).
Local Notation tgt a := (nn (c_tgt C) a).
Local Notation cap a := (nz (c_cap C) a).
Local Notation cst a := (nz (c_cost C) a).

Lemma cm_eq : c_m C = m.  Proof. reflexivity. Qed.
Lemma cn_eq : c_n C = n.  Proof. reflexivity. Qed.

Lemma src_orig a : (a < m)%nat -> src a = a_u (nth a arcs arc0).
Proof. exact (nth_map_app a_u arcs _ arc0 a). Qed.
Lemma tgt_orig a : (a < m)%nat -> tgt a = a_v (nth a arcs arc0).
Proof. exact (nth_map_app a_v arcs _ arc0 a). Qed.
Lemma cap_orig a : (a < m)%nat -> cap a = a_cap (nth a arcs arc0).
Proof. exact (nth_map_app a_cap arcs _ arc0 a). Qed.
Lemma cst_orig a : (a < m)%nat -> cst a = a_c (nth a arcs arc0).
Proof. exact (nth_map_app a_c arcs _ arc0 a). Qed.

Lemma src_art i : (i < n)%nat -> src (m + i) = if 0 <=? nz sup i then i else n.
Proof.
  intros H. unfold nn. cbn [mk_consts c_src]. rewrite app_nth2 by (rewrite map_length; lia).
  rewrite map_length. replace (m + i - m)%nat with i by lia. apply (nth_map_seq (fun i => if 0 <=? nz sup i then i else n)). exact H.
Qed.
Lemma tgt_art i : (i < n)%nat -> tgt (m + i) = if 0 <=? nz sup i then n else i.
Proof.
  intros H. unfold nn. cbn [mk_consts c_tgt]. rewrite app_nth2 by (rewrite map_length; lia).
  rewrite map_length. replace (m + i - m)%nat with i by lia. apply (nth_map_seq (fun i => if 0 <=? nz sup i then n else i)). exact H.
Qed.
Lemma cap_art i : (i < n)%nat -> cap (m + i) = Z.abs (nz sup i) + 1.
Proof.
  intros H. unfold nz at 1. cbn [mk_consts c_cap]. rewrite app_nth2 by (rewrite map_length; lia).
  rewrite map_length. replace (m + i - m)%nat with i by lia. apply (nth_map_seq (fun i => Z.abs (nz sup i) + 1)). exact H.
Qed.
Lemma cst_art i : (i < n)%nat -> cst (m + i) = big_m n arcs.
Proof.
  intros H. unfold nz at 1. cbn [mk_consts c_cost]. rewrite app_nth2 by (rewrite map_length; lia).
  rewrite map_length. replace (m + i - m)%nat with i by lia. apply nth_repeat_lt. exact H.
Qed.

Lemma valid_nth a : valid_arcs n arcs = true -> (a < m)%nat ->
  (a_u (nth a arcs arc0) < n)%nat /\ (a_v (nth a arcs arc0) < n)%nat /\ 0 <= a_cap (nth a arcs arc0).
Proof.
  intros Hv Ha. unfold valid_arcs in Hv. rewrite forallb_forall in Hv. specialize (Hv (nth a arcs arc0) (nth_In _ _ Ha)).
  apply andb_prop in Hv. destruct Hv as [Hv H3]. apply andb_prop in Hv. destruct Hv as [H1 H2].
  apply Nat.ltb_lt in H1. apply Nat.ltb_lt in H2. apply Z.leb_le in H3. auto.
Qed.

Lemma consts_ok : valid_arcs n arcs = true -> ConstOK C.
Proof.
  intros Hv a Ha. rewrite cm_eq, cn_eq in *. destruct (Nat.lt_ge_cases a m) as [Hlt|Hge].
  - rewrite src_orig, tgt_orig, cap_orig by exact Hlt. destruct (valid_nth a Hv Hlt) as (H1 & H2 & H3). lia.
  - replace a with (m + (a - m))%nat by lia. rewrite src_art, tgt_art, cap_art by lia.
    destruct (0 <=? nz sup (a - m)); lia.
Qed.

Local Notation s0 := (init_st n arcs sup).

Lemma flow0_orig a : (a < m)%nat -> nz (flow s0) a = 0.
Proof. intros H. unfold nz. cbn [init_st flow]. rewrite app_nth1 by (rewrite repeat_length; exact H). apply nth_repeat_lt. exact H. Qed.
Lemma flow0_art i : (i < n)%nat -> nz (flow s0) (m + i) = Z.abs (nz sup i).
Proof.
  intros H. unfold nz at 1. cbn [init_st flow]. rewrite app_nth2 by (rewrite repeat_length; lia).
  rewrite repeat_length. replace (m + i - m)%nat with i by lia. apply (nth_map_seq (fun i => Z.abs (nz sup i))). exact H.
Qed.
Lemma state0_orig a : (a < m)%nat -> nz (state s0) a = 1.
Proof. intros H. unfold nz. cbn [init_st state]. rewrite app_nth1 by (rewrite repeat_length; exact H). apply nth_repeat_lt. exact H. Qed.
Lemma state0_art i : (i < n)%nat -> nz (state s0) (m + i) = 0.
Proof.
  intros H. unfold nz. cbn [init_st state]. rewrite app_nth2 by (rewrite repeat_length; lia).
  rewrite repeat_length. apply nth_repeat_lt. lia.
Qed.
Lemma parent0 v : (v < n)%nat -> nn (parent s0) v = n.
Proof. intros H. unfold nn. cbn [init_st parent]. rewrite app_nth1 by (rewrite repeat_length; exact H). apply nth_repeat_lt. exact H. Qed.
Lemma pred0 v : (v < n)%nat -> nn (pred s0) v = (m + v)%nat.
Proof. intros H. unfold nn. cbn [init_st pred]. rewrite app_nth1 by (rewrite seq_length; exact H). apply seq_nth. exact H. Qed.
Lemma depth0_lt v : (v < n)%nat -> nz (depth s0) v = 1.
Proof. intros H. unfold nz. cbn [init_st depth]. rewrite app_nth1 by (rewrite repeat_length; exact H). apply nth_repeat_lt. exact H. Qed.
Lemma depth0_root : nz (depth s0) n = 0.
Proof. unfold nz. cbn [init_st depth]. rewrite app_nth2 by (rewrite repeat_length; lia). rewrite repeat_length, Nat.sub_diag. reflexivity. Qed.
Lemma pi0_lt v : (v < n)%nat -> nz (pi s0) v = if 0 <=? nz sup v then big_m n arcs else - big_m n arcs.
Proof.
  intros H. unfold nz at 1. cbn [init_st pi]. rewrite app_nth1 by (rewrite map_length, seq_length; exact H).
  apply (nth_map_seq (fun i => if 0 <=? nz sup i then big_m n arcs else - big_m n arcs)). exact H.
Qed.
Lemma pi0_root : nz (pi s0) n = 0.
Proof. unfold nz. cbn [init_st pi]. rewrite app_nth2 by (rewrite map_length, seq_length; lia). rewrite map_length, seq_length, Nat.sub_diag. reflexivity. Qed.
Lemma tadj0_lt w : (w < n)%nat -> nth w (tadj s0) [] = [(m + w)%nat].
Proof.
  intros H. cbn [init_st tadj]. rewrite app_nth1 by (rewrite map_length, seq_length; exact H).
  apply (nth_map_seq (fun i => [(m + i)%nat])). exact H.
Qed.
Lemma tadj0_root : nth n (tadj s0) [] = seq m n.
Proof. cbn [init_st tadj]. rewrite app_nth2 by (rewrite map_length, seq_length; lia). rewrite map_length, seq_length, Nat.sub_diag. reflexivity. Qed.

Lemma arc_kind a : (a < m + n)%nat -> (a < m)%nat \/ exists i, (i < n)%nat /\ a = (m + i)%nat.
Proof. intros Ha. destruct (Nat.lt_ge_cases a m) as [H|H]; [left; exact H|right; exists (a - m)%nat; split; lia]. Qed.

Theorem ns_init_inv : valid_arcs n arcs = true -> NSInv C (netx C (flow s0)) s0.
Proof.
  intros Hv. pose proof (consts_ok Hv) as HC.
  constructor; rewrite ?cm_eq, ?cn_eq.
  1-7: cbn [init_st flow state parent pred depth pi tadj];
       rewrite app_length, ?repeat_length, ?map_length, ?seq_length; cbn [length]; lia.
  - intros a Ha. destruct (arc_kind a Ha) as [H|(i & Hi & ->)].
    + rewrite flow0_orig by exact H. destruct (HC a ltac:(rewrite cm_eq, cn_eq; exact Ha)) as (_ & _ & Hc). lia.
    + rewrite flow0_art, cap_art by exact Hi. lia.
  - reflexivity.
  - intros a Ha. destruct (arc_kind a Ha) as [H|(i & Hi & ->)]; [rewrite state0_orig by exact H|rewrite state0_art by exact Hi]; auto.
  - intros a Ha Hs. destruct (arc_kind a Ha) as [H|(i & Hi & ->)]; [apply flow0_orig; exact H|rewrite state0_art in Hs by exact Hi; lia].
  - intros a Ha Hs. destruct (arc_kind a Ha) as [H|(i & Hi & ->)]; [rewrite state0_orig in Hs by exact H|rewrite state0_art in Hs by exact Hi]; lia.
  - rewrite nsum_app. rewrite (nsum_zero _ m) by (intros i Hi; rewrite state0_orig by exact Hi; reflexivity).
    rewrite (nsum_ext _ (fun _ => 1) n) by (intros i Hi; rewrite state0_art by exact Hi; reflexivity).
    rewrite nsum_const. lia.
  - intros v Hv'. rewrite pred0 by exact Hv'. apply state0_art. exact Hv'.
  - constructor; rewrite ?cm_eq, ?cn_eq.
    + intros v Hv'. rewrite parent0 by exact Hv'. lia.
    + intros v Hv'. rewrite parent0, depth0_lt, depth0_root by exact Hv'. reflexivity.
    + exact depth0_root.
    + intros v Hv'. destruct (Nat.eq_dec v n) as [->|Hne]; [rewrite depth0_root; lia|rewrite depth0_lt by lia; lia].
    + intros v Hv'. rewrite pred0, parent0 by exact Hv'. split; [lia|]. unfold joins. rewrite src_art, tgt_art by exact Hv'.
      destruct (0 <=? nz sup v); auto.
  - intros v Hv'. rewrite pred0, parent0, pi0_lt, pi0_root, src_art, cst_art by exact Hv'.
    destruct (0 <=? nz sup v); [rewrite Nat.eqb_refl; lia|]. destruct (Nat.eqb_spec n v); lia.
  - exact pi0_root.
  - intros w Hw. destruct (Nat.eq_dec w n) as [->|Hne].
    + rewrite tadj0_root. split; [apply seq_NoDup|]. intros a. rewrite in_seq. split.
      * intros Ha. split; [lia|]. replace a with (m + (a - m))%nat by lia. rewrite state0_art, src_art, tgt_art by lia.
        split; [reflexivity|]. destruct (0 <=? nz sup (a - m)); auto.
      * intros (Ha & Hs & _). destruct (arc_kind a Ha) as [H|(i & Hi & ->)]; [rewrite state0_orig in Hs by exact H; lia|lia].
    + assert (Hw' : (w < n)%nat) by lia. rewrite tadj0_lt by exact Hw'. split; [constructor; [intros []|constructor]|].
      intros a. cbn [In]. split.
      * intros [<-|[]]. split; [lia|]. rewrite state0_art, src_art, tgt_art by exact Hw'. split; [reflexivity|].
        destruct (0 <=? nz sup w); auto.
      * intros (Ha & Hs & He). left. destruct (arc_kind a Ha) as [H|(i & Hi & ->)]; [rewrite state0_orig in Hs by exact H; lia|].
        rewrite src_art, tgt_art in He by exact Hi. destruct (0 <=? nz sup i); destruct He as [E|E]; lia.
Qed.

(* the net outflow the invariant keeps: node w ships its supply *)
Lemma init_netx w : (w < n)%nat -> netx C (flow s0) w = nz sup w.
Proof.
  intros Hw. unfold netx. rewrite cm_eq, cn_eq, nsum_app.
  rewrite (nsum_zero _ m) by (intros i Hi; rewrite flow0_orig by exact Hi; lia).
  rewrite (nsum_one (fun _ => 0) _ n w (nz sup w) Hw).
  - rewrite (nsum_zero (fun _ => 0)) by reflexivity. lia.
  - intros i Hi Hne. unfold coef. rewrite src_art, tgt_art by exact Hi.
    destruct (0 <=? nz sup i); destruct (Nat.eqb_spec i w); destruct (Nat.eqb_spec n w); lia.
  - unfold coef. rewrite src_art, tgt_art, flow0_art by exact Hw.
    destruct (Z.leb_spec 0 (nz sup w)); rewrite Nat.eqb_refl; destruct (Nat.eqb_spec n w); lia.
Qed.

End Init.

Lemma bounded_nth : forall arcs f, length f = length arcs ->
  (forall k, (k < length arcs)%nat -> 0 <= nth k f 0 <= a_cap (nth k arcs arc0)) -> bounded arcs f.
Proof.
  induction arcs as [|a arcs IH]; intros f Hl H; destruct f as [|x f]; cbn [length] in Hl; try discriminate; cbn [bounded]; [exact I|].
  split; [exact (H 0%nat ltac:(cbn; lia))|]. apply IH; [lia|]. intros k Hk. exact (H (S k) ltac:(cbn [length]; lia)).
Qed.

Lemma netout_nsum w : forall arcs f, length f = length arcs ->
  netout arcs f w =
  nsum (fun k => ((if Nat.eqb (a_u (nth k arcs arc0)) w then 1 else 0) - (if Nat.eqb (a_v (nth k arcs arc0)) w then 1 else 0)) * nth k f 0)
       (length arcs).
Proof.
  induction arcs as [|a arcs IH]; intros f Hl; destruct f as [|x f]; cbn [length] in Hl; try discriminate; [reflexivity|].
  cbn [netout length]. rewrite nsum_shift. cbn [nth]. rewrite IH by lia.
  destruct (Nat.eqb (a_u a) w); destruct (Nat.eqb (a_v a) w); lia.
Qed.

Lemma skipn_nth_in {A} (d : A) : forall k l i, (k + i < length l)%nat -> In (nth (k + i) l d) (skipn k l).
Proof.
  induction k as [|k IH]; intros l i Hi; [cbn [skipn Nat.add]; apply nth_In; exact Hi|].
  destruct l as [|x l]; [cbn in Hi; lia|]. cbn [skipn Nat.add nth]. apply IH. cbn [length] in Hi. lia.
Qed.

Lemma bounded_b_complete : forall arcs f, bounded arcs f -> bounded_b arcs f = true.
Proof.
  induction arcs as [|a arcs IH]; intros [|x f] Hb; cbn [bounded bounded_b] in *; try contradiction; [reflexivity|].
  destruct Hb as [Hx Hb]. rewrite (IH f Hb). replace (0 <=? x) with true by (symmetry; apply Z.leb_le; lia).
  replace (x <=? a_cap a) with true by (symmetry; apply Z.leb_le; lia). reflexivity.
Qed.

Section Exit.
Variables (n : nat) (arcs : list arc) (sup : list Z).
Local Notation C := (mk_consts n arcs sup).
Local Notation m := (length arcs).
Local Notation s0 := (init_st n arcs sup).
Hypothesis Hv : valid_arcs n arcs = true.

Theorem loop_state_inv : forall fuel mi stt s it,
  loop C fuel mi s0 0 = Some (stt, s, it) -> NSInv C (netx C (flow s0)) s.
Proof.
  intros fuel mi stt s it H. exact (ns_loop_inv C (consts_ok n arcs sup Hv) _ _ _ _ _ _ _ _ (ns_init_inv n arcs sup Hv) H).
Qed.

Section Final.
Variable s : st.
Hypothesis I : NSInv C (netx C (flow s0)) s.
Hypothesis Hnoart : forall x, In x (skipn m (flow s)) -> x <= 0.

Lemma art_zero i : (i < n)%nat -> nz (flow s) (m + i) = 0.
Proof.
  intros Hi. pose proof (i_bounds C _ s I (m + i)%nat ltac:(rewrite cm_eq, cn_eq; lia)) as Hb.
  assert (Hin : In (nz (flow s) (m + i)) (skipn m (flow s))).
  { apply skipn_nth_in. rewrite (i_lflow C _ s I), cm_eq, cn_eq. lia. }
  specialize (Hnoart _ Hin). lia.
Qed.

Lemma final_feasible : feasible n arcs (supply_b sup) (firstn m (flow s)).
Proof.
  assert (Hlen : length (firstn m (flow s)) = m).
  { rewrite firstn_length, (i_lflow C _ s I), cm_eq, cn_eq. lia. }
  split.
  - apply bounded_nth; [exact Hlen|]. intros k Hk. rewrite (nth_firstn_lt 0) by exact Hk.
    pose proof (i_bounds C _ s I k ltac:(rewrite cm_eq, cn_eq; lia)) as Hb. rewrite cap_orig in Hb by exact Hk. exact Hb.
  - intros w Hw. rewrite (netout_nsum w arcs _ Hlen). unfold supply_b. change (nth w sup 0) with (nz sup w).
    rewrite <- (init_netx n arcs sup w Hw). rewrite <- (i_cons C _ s I w).
    unfold netx. rewrite cm_eq, cn_eq, nsum_app.
    rewrite (nsum_zero (fun i => coef C w (m + i) * nz (flow s) (m + i))) by (intros i Hi; rewrite art_zero by exact Hi; lia).
    rewrite Z.add_0_r. apply nsum_ext. intros k Hk. rewrite (nth_firstn_lt 0) by exact Hk.
    unfold coef. rewrite src_orig, tgt_orig by exact Hk. reflexivity.
Qed.

(* the boolean test DeepNS.ns_final_ok_b passes in every state with the invariant and no artificial flow *)
Lemma final_ok_b : ns_final_ok_b n arcs sup s = true.
Proof.
  unfold ns_final_ok_b. rewrite Hv. cbn [andb]. apply andb_true_intro. split.
  - destruct final_feasible as [Hb Hbal]. unfold feasible_b. apply andb_true_intro. split.
    + apply bounded_b_complete. exact Hb.
    + unfold balanced_b. apply forallb_forall. intros w Hw. apply in_seq in Hw. apply Z.eqb_eq. apply Hbal. lia.
  - unfold state_ok_b. apply forallb_forall. intros k Hk. apply in_seq in Hk. cbv zeta.
    assert (HkT : (k < c_m C + c_n C)%nat) by (rewrite cm_eq, cn_eq; lia).
    change (nth k (flow s) 0) with (nz (flow s) k). change (nth k (state s) 0) with (nz (state s) k).
    rewrite <- (cap_orig n arcs sup k ltac:(lia)).
    destruct (i_st3 C _ s I k HkT) as [E|[E|E]]; rewrite E.
    + rewrite (i_lower C _ s I k HkT E). reflexivity.
    + rewrite (inv_tree_rc C _ s I k HkT E). reflexivity.
    + rewrite (i_upper C _ s I k HkT E), !Z.eqb_refl. reflexivity.
Qed.

Lemma final_min_cost : pricing C s = None -> min_cost n arcs (supply_b sup) (firstn m (flow s)).
Proof. intros Hp. exact (final_ok_min_cost n arcs sup s Hp final_ok_b). Qed.

End Final.

(* Props.C09_deep.C09_ns_optimal_full_statement (its hypothesis `length sup = n` is not needed) *)
Theorem ns_optimal_run : forall max_iter fl it,
  ns_run n arcs sup max_iter = Some (OPTIMAL, fl, it) ->
  (forall x, In x (skipn m fl) -> x <= 0) ->
  min_cost n arcs (supply_b sup) (firstn m fl).
Proof.
  intros mi fl it H Hno. unfold ns_run in H.
  destruct (loop C (Z.to_nat (Z.min mi 5000)) mi s0 0) as [[[stt s] it0]|] eqn:El; [|discriminate].
  inversion H; subst stt fl it0.
  apply (final_min_cost s (loop_state_inv _ _ _ _ _ El) Hno). exact (loop_optimal C _ _ _ _ _ _ El).
Qed.

End Exit.

Lemma pair_sum_firstn u v : forall arcs f, pair_sum arcs (firstn (length arcs) f) u v = pair_sum arcs f u v.
Proof. induction arcs as [|a arcs IH]; intros [|x f]; cbn [length firstn pair_sum]; try reflexivity. rewrite IH. reflexivity. Qed.

Lemma flow_cost_firstn : forall arcs f, flow_cost arcs (firstn (length arcs) f) = flow_cost arcs f.
Proof. induction arcs as [|a arcs IH]; intros [|x f]; cbn [length firstn flow_cost]; try reflexivity. rewrite IH. reflexivity. Qed.

(* the public result: status OPTIMAL => the dictionary and the objective are those of a minimum-cost feasible flow *)
Theorem ns_optimal : forall n arcs sup max_iter r,
  valid_arcs n arcs = true ->
  network_simplex n arcs sup max_iter = Some r -> r_status r = OPTIMAL ->
  exists sol, r_sol r = Some sol /\ optimal_answer n arcs (supply_b sup) sol (r_obj r).
Proof.
  intros n arcs sup mi r Hv H Hst.
  destruct (ns_gate n arcs sup mi r H Hst) as [(-> & Hz & Hsol & Hobj)|(fl & it & Hrun & Hno & Hsol & Hobj & Hpool)].
  - exists []. split; [exact Hsol|]. exists []. split; [|split].
    + split; [split; [exact I|]|].
      * intros w _. cbn [netout]. unfold supply_b. rewrite forallb_forall in Hz.
        destruct (Nat.lt_ge_cases w (length sup)) as [Hw|Hw]; [|rewrite nth_overflow by exact Hw; reflexivity].
        specialize (Hz _ (nth_In sup 0 Hw)). apply Z.eqb_eq in Hz. symmetry. exact Hz.
      * intros f' _. destruct f'; cbn [flow_cost]; lia.
    + intros u v. reflexivity.
    + rewrite Hobj. reflexivity.
  - pose proof (ns_optimal_run n arcs sup Hv mi fl it Hrun Hno) as Hmin.
    exists (flow_dict arcs fl []). split; [exact Hsol|]. exists (firstn (length arcs) fl). split; [exact Hmin|]. split.
    + assert (Hnn : Forall (fun x => 0 <= x) (firstn (length arcs) fl)).
      { destruct Hmin as [[Hb _] _]. clear - Hb. revert Hb. generalize (firstn (length arcs) fl). induction arcs as [|a arcs IH]; intros [|x f] Hb;
          cbn [bounded] in Hb; try contradiction; constructor; [lia|apply IH; tauto]. }
      intros u v. rewrite (Hpool Hnn u v). symmetry. apply pair_sum_firstn.
    + rewrite Hobj. symmetry. apply flow_cost_firstn.
Qed.
