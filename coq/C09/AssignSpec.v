(* C09 - solve_assignment: the per-arc flow on the network Mcf.assign_arcs that an assignment vector denotes,
   and the boolean checker used on the implementation's answers (sound: Props/C09.v C09_assignment_check_sound). *)
From Coq Require Import List ZArith Bool Arith Lia.
From SV Require Import C09.Mcf C09.McfSpec.
Import ListNotations.
Open Scope Z_scope.

Module AssignSpec.
Import Mcf McfSpec.

Definition rows (M : list (list Z)) : nat := length M.
Definition cols (M : list (list Z)) : nat := match M with [] => O | r :: _ => length r end.

(* flow 1 on source->L_i iff row i is assigned, on L_i->R_j iff asg[i] = j, on R_j->sink iff column j is used *)
Definition asg_flow (n m : nat) (asg : list Z) : list Z :=
  map (fun i => if nth i asg (-1) =? -1 then 0 else 1) (seq 0 n)
  ++ flat_map (fun i => map (fun j => if nth i asg (-1) =? Z.of_nat j then 1 else 0) (seq 0 m)) (seq 0 n)
  ++ map (fun j => if existsb (fun x => x =? Z.of_nat j) asg then 1 else 0) (seq 0 m).

Definition assign_b (n m : nat) : nat -> Z := demand_b 0 1 (Z.of_nat (Nat.min n m)).

(* the assignment vector has one entry per row, entries are -1 or a column index; its flow is a feasible flow of
   min(n,m) units on the unit network (hence a matching of min(n,m) pairs), of the reported cost, and the
   potentials pi certify that no feasible flow is cheaper *)
Definition assignment_check (M : list (list Z)) (asg : list Z) (cost : Z) (pi : list Z) : bool :=
  let n := rows M in let m := cols M in
  (Nat.eqb (length asg) n
   && forallb (fun x => (-1 <=? x) && (x <? Z.of_nat m))%bool asg
   && cert_check (2 + n + m) (assign_arcs n m M) (assign_b n m) (asg_flow n m asg) pi
   && (cost =? flow_cost (assign_arcs n m M) (asg_flow n m asg)))%bool.

(* ---------------- what "a matching of min(n,m) pairs" means for an assignment vector *)
Fixpoint zsumf (g : nat -> Z) (N : nat) : Z :=
  match N with O => 0 | S k => zsumf g k + g k end.

Definition assigned (asg : list Z) (i : nat) : Z := if nth i asg (-1) =? -1 then 0 else 1.

Record matching (n m : nat) (asg : list Z) : Prop := {
  mt_len : length asg = n;                                   (* one entry per row *)
  mt_range : forall i, (i < n)%nat -> nth i asg (-1) = -1 \/ 0 <= nth i asg (-1) < Z.of_nat m;
  mt_inj : forall i i', (i < n)%nat -> (i' < n)%nat ->       (* no column twice *)
           nth i asg (-1) <> -1 -> nth i asg (-1) = nth i' asg (-1) -> i = i';
  mt_count : zsumf (assigned asg) n = Z.of_nat (Nat.min n m) (* exactly min(n,m) rows are assigned *)
}.

End AssignSpec.
