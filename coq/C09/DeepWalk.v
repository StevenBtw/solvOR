(* C09 deepening - residual walks of a residual graph (arcs, res), their cost, "no negative-cost residual cycle",
   potentials imply it, and loop erasure: every residual walk a ~> b can be replaced by one that visits no node twice
   (hence has at most n-1 edges), and without negative cycles the replacement is not more expensive. *)
From Coq Require Import List ZArith Bool Arith Lia.
From SV Require Import C09.Mcf C09.McfSpec C09.McfAug.
Import ListNotations.
Open Scope Z_scope.
Import Mcf McfSpec.

(* cost of a list of residual edges *)
Fixpoint pcost (arcs : list arc) (p : list edge) : Z :=
  match p with [] => 0 | e :: p' => e_cost arcs e + pcost arcs p' end.

(* residual edge of positive residual capacity *)
Definition redge (arcs : list arc) (res : resid) (e : edge) : Prop :=
  (fst e < length arcs)%nat /\ 0 < e_res res e.

(* residual walk a ~> b *)
Definition rwalk (arcs : list arc) (res : resid) (a : nat) (p : list edge) (b : nat) : Prop :=
  chain arcs a p b /\ Forall (redge arcs res) p.

(* no closed residual walk of negative cost *)
Definition NoNegCycle (arcs : list arc) (res : resid) : Prop :=
  forall v p, rwalk arcs res v p v -> 0 <= pcost arcs p.

(* nodes visited by a walk that starts in a *)
Definition nodes (arcs : list arc) (a : nat) (p : list edge) : list nat := a :: map (e_head arcs) p.

(* a duplicate-free list of nodes < n, given by its first node and a map over the rest, has at most n entries *)
Lemma nodup_bound {A} (g : A -> nat) a l n :
  NoDup (a :: map g l) -> (a < n)%nat -> (forall x, In x l -> (g x < n)%nat) -> (S (length l) <= n)%nat.
Proof.
  intros Hnd Ha Hl. rewrite <- (seq_length n 0), <- (map_length g l). apply (NoDup_incl_length Hnd).
  intros x [<-|Hx]; apply in_seq; [lia|]. apply in_map_iff in Hx. destruct Hx as (y & <- & Hy).
  specialize (Hl y Hy). lia.
Qed.

Section Walks.
Variable arcs : list arc.
Variable res : resid.

Lemma pcost_app p q : pcost arcs (p ++ q) = pcost arcs p + pcost arcs q.
Proof. induction p as [|e p IH]; cbn [app pcost]; [lia|]. rewrite IH. lia. Qed.

Lemma rwalk_nil a : rwalk arcs res a [] a.
Proof. split; [reflexivity|constructor]. Qed.

Lemma rwalk_cat a p m q b : rwalk arcs res a p m -> rwalk arcs res m q b -> rwalk arcs res a (p ++ q) b.
Proof.
  intros [H1 F1] [H2 F2]. split; [exact (chain_cat arcs _ _ _ _ _ H1 H2)|]. apply Forall_app. split; assumption.
Qed.

Lemma rwalk_one e : redge arcs res e -> rwalk arcs res (e_tail arcs e) [e] (e_head arcs e).
Proof. intros H. split; [cbn [chain]; split; reflexivity|]. constructor; [exact H|constructor]. Qed.

Lemma rwalk_snoc a p e : rwalk arcs res a p (e_tail arcs e) -> redge arcs res e ->
  rwalk arcs res a (p ++ [e]) (e_head arcs e).
Proof. intros H He. exact (rwalk_cat _ _ _ _ _ H (rwalk_one e He)). Qed.

Lemma rwalk_cons_inv a e p b : rwalk arcs res a (e :: p) b ->
  e_tail arcs e = a /\ redge arcs res e /\ rwalk arcs res (e_head arcs e) p b.
Proof.
  intros [H F]. cbn [chain] in H. destruct H as [Ht H]. inversion F as [|? ? He F']; subst.
  split; [reflexivity|]. split; [exact He|]. split; assumption.
Qed.

Lemma rwalk_snoc_inv : forall p a e b, rwalk arcs res a (p ++ [e]) b ->
  rwalk arcs res a p (e_tail arcs e) /\ redge arcs res e /\ e_head arcs e = b.
Proof.
  induction p as [|e0 p IH]; intros a e b H; apply rwalk_cons_inv in H; destruct H as (Ht & He & H).
  - destruct H as [Hc _]. cbn [chain] in Hc. subst a. split; [apply rwalk_nil|]. split; [exact He|exact Hc].
  - destruct (IH _ _ _ H) as (H1 & H2 & H3). split; [|split; assumption].
    subst a. exact (rwalk_cat _ _ _ _ _ (rwalk_one e0 He) H1).
Qed.

Lemma potentials_walk (pi : nat -> Z) :
  (forall e, redge arcs res e -> pi (e_head arcs e) <= pi (e_tail arcs e) + e_cost arcs e) ->
  forall p a b, rwalk arcs res a p b -> pi b <= pi a + pcost arcs p.
Proof.
  intros Hpi. induction p as [|e p IH]; intros a b H.
  - destruct H as [H _]. cbn [chain] in H. subst. cbn [pcost]. lia.
  - apply rwalk_cons_inv in H. destruct H as (Ht & He & H). subst a.
    specialize (IH _ _ H). specialize (Hpi e He). cbn [pcost]. lia.
Qed.

Lemma nodup_suffix {A} (l m : list A) : NoDup (l ++ m) -> NoDup m.
Proof. induction l as [|x l IH]; cbn [app]; intros H; [exact H|]. inversion H; subst. apply IH. assumption. Qed.

Lemma split_at : forall q a b x, rwalk arcs res a q b -> In x (nodes arcs a q) ->
  exists q1 q2 l, q = q1 ++ q2 /\ rwalk arcs res a q1 x /\ rwalk arcs res x q2 b /\
                  nodes arcs a q = l ++ nodes arcs x q2.
Proof.
  induction q as [|e q IH]; intros a b x H Hin.
  - destruct Hin as [<-|[]]. exists [], [], []. split; [reflexivity|]. split; [apply rwalk_nil|]. split; [exact H|reflexivity].
  - destruct (Nat.eq_dec a x) as [->|Hne].
    + exists [], (e :: q), []. split; [reflexivity|]. split; [apply rwalk_nil|]. split; [exact H|reflexivity].
    + destruct Hin as [Heq|Hin]; [contradiction|].
      pose proof H as H0. apply rwalk_cons_inv in H. destruct H as (Ht & He & H).
      destruct (IH _ _ x H Hin) as (q1 & q2 & l & Hq & H1 & H2 & Hn).
      exists (e :: q1), q2, (a :: l). split; [cbn [app]; rewrite Hq; reflexivity|].
      split; [|split; [exact H2|]].
      * subst a. exact (rwalk_cat _ _ _ _ _ (rwalk_one e He) H1).
      * unfold nodes in *. cbn [map app]. rewrite Hn. reflexivity.
Qed.

(* the cost bound is the only place where the absence of negative cycles is needed: the erased loops are closed walks *)
Lemma loop_erase : forall p a b, rwalk arcs res a p b ->
  exists q, rwalk arcs res a q b /\ NoDup (nodes arcs a q) /\
            (NoNegCycle arcs res -> pcost arcs q <= pcost arcs p).
Proof.
  induction p as [|e p IH]; intros a b H.
  - exists []. split; [exact H|]. split; [|lia]. unfold nodes. cbn [map]. constructor; [intros []|constructor].
  - pose proof H as H0. apply rwalk_cons_inv in H. destruct H as (Ht & He & H).
    destruct (IH _ _ H) as (q & Hq & Hnd & Hc).
    destruct (in_dec Nat.eq_dec a (nodes arcs (e_head arcs e) q)) as [Hin|Hnin].
    + destruct (split_at q _ _ a Hq Hin) as (q1 & q2 & l & Hqq & H1 & H2 & Hn).
      exists q2. split; [exact H2|]. split.
      * rewrite Hn in Hnd. exact (nodup_suffix _ _ Hnd).
      * intros Hnn. specialize (Hc Hnn).
        assert (Hcyc : rwalk arcs res a (e :: q1) a).
        { subst a. exact (rwalk_cat _ _ _ _ _ (rwalk_one e He) H1). }
        specialize (Hnn _ _ Hcyc). cbn [pcost] in *. rewrite Hqq, pcost_app in Hc. lia.
    + exists (e :: q). split; [|split].
      * subst a. exact (rwalk_cat _ _ _ _ _ (rwalk_one e He) Hq).
      * unfold nodes in *. cbn [map]. constructor; assumption.
      * intros Hnn. specialize (Hc Hnn). cbn [pcost]. lia.
Qed.

(* hence a replacement with at most n-1 edges, when the start and the heads of all arcs are < n *)
Lemma short_walk n :
  (forall e, (fst e < length arcs)%nat -> (e_head arcs e < n)%nat) ->
  forall p a b, (a < n)%nat -> rwalk arcs res a p b ->
  exists q, rwalk arcs res a q b /\ (S (length q) <= n)%nat /\
            (NoNegCycle arcs res -> pcost arcs q <= pcost arcs p).
Proof.
  intros Hh p a b Ha H. destruct (loop_erase p a b H) as (q & Hq & Hnd & Hc).
  exists q. split; [exact Hq|]. split; [|exact Hc].
  apply (nodup_bound (e_head arcs) a q n Hnd Ha). intros e He. apply Hh.
  destruct Hq as [_ F]. rewrite Forall_forall in F. exact (proj1 (F e He)).
Qed.

End Walks.
