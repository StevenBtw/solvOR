(* C09 - min_cost_flow, for every input: the loop invariant of successive shortest paths and the theorems
   feasibility (capacities, conservation, exactly `demand` units, integrality) and cost = sum cost*flow,
   first for the internal per-arc state, then for the public pooled dictionary; INFEASIBLE is sound: when
   Bellman-Ford leaves the sink without label, the labelled nodes are exactly those that residual walks reach from
   the source (DeepBF.bf_reach), so they form a saturated cut whose capacity is the amount shipped so far, which is
   below the demand: no feasible flow of that demand exists. *)
From Coq Require Import List ZArith Bool Arith Lia.
From SV Require Import C09.Mcf C09.McfSpec C09.McfCert C09.McfAug C09.McfBF C09.DeepWalk C09.DeepBF C09.DeepPar.
Import ListNotations.
Open Scope Z_scope.
Import Mcf McfSpec.

Definition caps_ok (arcs : list arc) : bool := forallb (fun a => 0 <=? a_cap a) arcs.

Lemma valid_input_parts n arcs s t d : valid_input n arcs s t d = true ->
  valid_arcs n arcs = true /\ (s < n)%nat /\ (t < n)%nat /\ s <> t /\ 0 <= d.
Proof.
  unfold valid_input. intros H.
  apply andb_prop in H. destruct H as [H Hd]. apply andb_prop in H. destruct H as [H Hst].
  apply andb_prop in H. destruct H as [H Ht]. apply andb_prop in H. destruct H as [Hva Hs].
  apply Nat.ltb_lt in Hs. apply Nat.ltb_lt in Ht. apply Z.leb_le in Hd.
  apply negb_true_iff in Hst. apply Nat.eqb_neq in Hst. auto.
Qed.

Record LoopInv (arcs : list arc) (s t : nat) (d : Z) (res : resid) (tc tf : Z) : Prop := {
  li_res : ResInv arcs res;
  li_cost : tc = flow_cost arcs (flows res);
  li_net : forall w, netout arcs (flows res) w = demand_b s t tf w;
  li_tf : 0 <= tf <= d
}.

Lemma demand_b_add s t tf pf w :
  demand_b s t (tf + pf) w = demand_b s t tf w + delta s pf w - delta t pf w.
Proof.
  unfold demand_b, delta. rewrite (Nat.eqb_sym w s), (Nat.eqb_sym w t).
  destruct (Nat.eqb s w); destruct (Nat.eqb t w); lia.
Qed.

Lemma resinv_cons a arcs p res : ResInv (a :: arcs) (p :: res) ->
  (fst p + snd p = a_cap a /\ 0 <= fst p /\ 0 <= snd p) /\ ResInv arcs res.
Proof.
  intros [Hlen H]. split.
  - exact (H 0%nat ltac:(cbn; lia)).
  - split; [cbn [length] in Hlen; lia|]. intros k Hk. exact (H (S k) (proj1 (Nat.succ_lt_mono _ _) Hk)).
Qed.

Lemma resinv_bounded : forall arcs res, ResInv arcs res -> bounded arcs (flows res).
Proof.
  induction arcs as [|a arcs IH]; intros res Hinv.
  - destruct res; [exact I|destruct Hinv; discriminate].
  - destruct res as [|p res]; [destruct Hinv; discriminate|].
    apply resinv_cons in Hinv. destruct Hinv as ((Hs & H1 & H2) & Hinv).
    cbn [flows map bounded]. split; [lia|exact (IH res Hinv)].
Qed.

Section Run.
Variables (n : nat) (arcs : list arc) (s t : nat) (d : Z) (k : run).

Lemma step_inv res tc tf path d0 :
  LoopInv arcs s t d res tc tf -> tf < d ->
  bellman_ford n arcs res s t = BFPath path d0 ->
  let pf := bottleneck res path (d - tf) in
  LoopInv arcs s t d (fst (augment arcs res path pf tc)) (snd (augment arcs res path pf tc)) (tf + pf) /\
  0 <= pf <= d - tf.
Proof.
  intros Hinv E Ebf pf.
  destruct (bellman_ford_path _ _ _ _ _ _ _ Ebf) as (Hchain & Hnd & _).
  destruct Hinv as [Hres Hcost Hnet Htf].
  destruct (fold_min_le (e_res res) path (d - tf)) as [Hle1 Hle2].
  fold (bottleneck res path (d - tf)) in Hle1, Hle2. fold pf in Hle1, Hle2.
  assert (Hpf : 0 <= pf).
  { unfold pf, bottleneck. apply fold_min_ge; [lia|]. intros e _. exact (e_res_nonneg arcs res e Hres). }
  pose proof (augment_inv arcs path res pf tc Hres Hpf Hnd Hle2) as Hres'.
  pose proof (augment_cost arcs path res pf tc (proj1 Hres)) as Hcost'.
  split; [|lia]. constructor; [exact Hres'|lia| |lia].
  intros w. rewrite (augment_netout arcs w path res pf tc s t (proj1 Hres) Hchain).
  rewrite Hnet, demand_b_add. reflexivity.
Qed.

Lemma mcf_loop_inv (Q : resid -> Z -> Z -> Prop) :
  (forall res tc tf path d0, Q res tc tf -> tf < d -> bellman_ford n arcs res s t = BFPath path d0 ->
     let pf := bottleneck res path (d - tf) in
     Q (fst (augment arcs res path pf tc)) (snd (augment arcs res path pf tc)) (tf + pf)) ->
  forall fuel res tc tf it, Q res tc tf ->
  mcf_loop fuel n arcs s t d res tc tf it = Some k ->
  Q (k_res k) (k_cost k) (k_flow k) /\
  (k_status k = OPTIMAL -> d <= k_flow k) /\
  (k_status k = INFEASIBLE -> k_flow k < d /\ bellman_ford n arcs (k_res k) s t = BFNoPath).
Proof.
  intros Hstep. induction fuel as [|fuel IH]; intros res tc tf it HQ H; cbn [mcf_loop] in H;
    destruct (Z.ltb_spec tf d) as [E|E].
  - discriminate.
  - inversion H; subst k. cbn. split; [exact HQ|]. split; [intros _; exact E|discriminate].
  - destruct (bellman_ford n arcs res s t) as [| |path d0] eqn:Ebf.
    + inversion H; subst k. cbn. split; [exact HQ|]. split; [discriminate|]. intros _. split; [exact E|exact Ebf].
    + discriminate.
    + specialize (Hstep res tc tf path d0 HQ E Ebf). cbv zeta in Hstep.
      destruct (augment arcs res path (bottleneck res path (d - tf)) tc) as [res' tc']. exact (IH _ _ _ _ Hstep H).
  - inversion H; subst k. cbn. split; [exact HQ|]. split; [intros _; exact E|discriminate].
Qed.

Hypothesis Hc : caps_ok arcs = true.
Hypothesis Hd : 0 <= d.

Lemma init_inv : LoopInv arcs s t d (init_res arcs) 0 0.
Proof.
  constructor.
  - apply init_res_inv. exact Hc.
  - rewrite init_res_flows, flow_cost_lin, lin_zero. reflexivity.
  - intros w. rewrite init_res_flows, netout_lin, lin_zero. unfold demand_b.
    destruct (Nat.eqb w s); destruct (Nat.eqb w t); reflexivity.
  - lia.
Qed.

Hypothesis Hrun : mcf_run n arcs s t d = Some k.

(* internal form: the state at the end of the while loop *)
Theorem mcf_run_sound :
  ResInv arcs (k_res k) /\
  k_cost k = flow_cost arcs (flows (k_res k)) /\
  (forall w, netout arcs (flows (k_res k)) w = demand_b s t (k_flow k) w) /\
  0 <= k_flow k <= d /\
  (k_status k = OPTIMAL -> k_flow k = d) /\
  (k_status k = INFEASIBLE -> k_flow k < d /\ bellman_ford n arcs (k_res k) s t = BFNoPath).
Proof.
  destruct (mcf_loop_inv (LoopInv arcs s t d)) with (2 := init_inv) (3 := Hrun) as ([H1 H2 H3 H4] & H5 & H6).
  - intros res tc tf path d0 HQ E Ebf. exact (proj1 (step_inv res tc tf path d0 HQ E Ebf)).
  - split; [exact H1|]. split; [exact H2|]. split; [exact H3|]. split; [exact H4|]. split; [|exact H6].
    intros Hst. specialize (H5 Hst). lia.
Qed.

Theorem mcf_run_feasible : k_status k = OPTIMAL -> feasible n arcs (demand_b s t d) (flows (k_res k)).
Proof.
  intros Hst. destruct mcf_run_sound as (H1 & _ & H3 & _ & H5 & _).
  split; [apply resinv_bounded; exact H1|]. intros w _. rewrite H3, (H5 Hst). reflexivity.
Qed.

End Run.

Lemma get0_dict_add : forall d u v x u' v',
  get0 (dict_add d u v x) u' v' = get0 d u' v' + (if (Nat.eqb u u' && Nat.eqb v v')%bool then x else 0).
Proof.
  unfold get0. induction d as [|[[u0 v0] y] d IH]; intros u v x u' v'; cbn [dict_add dict_get].
  - rewrite (Nat.eqb_sym u' u), (Nat.eqb_sym v' v). destruct (Nat.eqb u u' && Nat.eqb v v')%bool; lia.
  - destruct (key_eqb_spec u v u0 v0) as [[-> ->]|Hne]; cbn [dict_get].
    + rewrite (Nat.eqb_sym u0 u'), (Nat.eqb_sym v0 v'). destruct (Nat.eqb u' u0 && Nat.eqb v' v0)%bool; lia.
    + destruct (key_eqb_spec u' v' u0 v0) as [[-> ->]|Hne']; [|apply IH].
      destruct (key_eqb_spec u v u0 v0); [contradiction|lia].
Qed.

Lemma pool_get0 : forall arcs res d0 u v,
  Forall (fun p => 0 <= snd p) res ->
  get0 (pool arcs res d0) u v = get0 d0 u v + pair_sum arcs (flows res) u v.
Proof.
  induction arcs as [|a arcs IH]; intros res d0 u v Hnn.
  - cbn [pool pair_sum]. lia.
  - destruct res as [|[rf rb] res]; [cbn [pool flows map pair_sum]; lia|].
    inversion Hnn as [|? ? Hrb Hnn']; subst. cbn [snd] in Hrb.
    cbn [pool flows map pair_sum snd]. rewrite IH by exact Hnn'. fold (flows res).
    destruct (0 <? rb) eqn:E.
    + rewrite get0_dict_add. lia.
    + apply Z.ltb_ge in E. assert (rb = 0) by lia. subst rb.
      destruct (Nat.eqb (a_u a) u && Nat.eqb (a_v a) v)%bool; lia.
Qed.

Lemma pool_pooled arcs res : ResInv arcs res -> pooled arcs (flows res) (pool arcs res []).
Proof.
  intros [Hlen H] u v. rewrite pool_get0; [reflexivity|].
  apply Forall_forall. intros p Hin.
  destruct (In_nth _ _ (0, 0) Hin) as (k & Hk & <-). rewrite Hlen in Hk. apply (H k Hk).
Qed.

Lemma mcf_optimal_run n arcs s t d r : mcf n arcs s t d = Some r -> r_status r = OPTIMAL ->
  exists k, mcf_run n arcs s t d = Some k /\ k_status k = OPTIMAL /\
            r_flows r = pool arcs (k_res k) [] /\ r_cost r = k_cost k.
Proof.
  intros H Hst. unfold mcf in H. destruct (mcf_run n arcs s t d) as [k|]; [|discriminate].
  exists k. destruct (k_status k); inversion H; subst r; [auto|discriminate].
Qed.

Lemma mcf_some n arcs s t d : mcf_run n arcs s t d <> None -> mcf n arcs s t d <> None.
Proof. unfold mcf. destruct (mcf_run n arcs s t d) as [k|]; [|contradiction]. destruct (k_status k); discriminate. Qed.

Lemma mcf_run_public n arcs s t d k : caps_ok arcs = true -> 0 <= d -> mcf_run n arcs s t d = Some k ->
  pooled arcs (flows (k_res k)) (pool arcs (k_res k) []) /\ k_cost k = flow_cost arcs (flows (k_res k)).
Proof.
  intros Hc Hd Ek. destruct (mcf_run_sound _ _ _ _ _ _ Hc Hd Ek) as (Hinv & Hcost & _).
  split; [exact (pool_pooled arcs _ Hinv)|exact Hcost].
Qed.

(* public form: what min_cost_flow returns with status OPTIMAL is the pooled dictionary of a feasible integral
   per-arc flow shipping exactly `demand`, and the reported objective is the sum of cost * flow over the arcs *)
Theorem mcf_feasible_cost : forall n arcs s t d r,
  caps_ok arcs = true -> 0 <= d ->
  mcf n arcs s t d = Some r -> r_status r = OPTIMAL ->
  exists f, feasible n arcs (demand_b s t d) f /\ pooled arcs f (r_flows r) /\ r_cost r = flow_cost arcs f.
Proof.
  intros n arcs s t d r Hc Hd H Hst. destruct (mcf_optimal_run _ _ _ _ _ _ H Hst) as (k & Ek & Es & -> & ->).
  exists (flows (k_res k)). split; [exact (mcf_run_feasible _ _ _ _ _ _ Hc Hd Ek Es)|].
  exact (mcf_run_public _ _ _ _ _ _ Hc Hd Ek).
Qed.

Definition fin_set (dist : list (option Z)) : list bool :=
  map (fun o => match o with Some _ => true | None => false end) dist.

Lemma inS_fin_set dist w : inS (fin_set dist) w = true <-> nth w dist None <> None.
Proof.
  unfold inS, fin_set. set (f := fun o : option Z => match o with Some _ => true | None => false end).
  change false with (f None). rewrite map_nth. unfold f. destruct (nth w dist None) as [x|].
  - split; [discriminate|reflexivity].
  - split; [discriminate|intros H; destruct (H eq_refl)].
Qed.

Lemma closed_cut C : forall arcs res, ResInv arcs res ->
  (forall e, redge arcs res e -> inS C (e_tail arcs e) = true -> inS C (e_head arcs e) = true) ->
  psum (piS C) arcs (flows res) = cut_cap C arcs.
Proof.
  induction arcs as [|a arcs IH]; intros res Hinv HC; [reflexivity|].
  destruct res as [|[rf rb] res]; [destruct Hinv as [Hl _]; discriminate|].
  apply resinv_cons in Hinv. destruct Hinv as ((Hsum & Hrf & Hrb) & Hinv). cbn [fst snd] in *.
  cbn [flows map psum cut_cap snd]. fold (flows res).
  rewrite (IH res Hinv).
  2:{ intros [k b] [Hk Hpos]. apply (HC (S k, b)). split; [cbn [fst length] in *; lia|exact Hpos]. }
  assert (H1 : 0 < rf -> inS C (a_u a) = true -> inS C (a_v a) = true).
  { intros Hr. apply (HC (0%nat, false)). split; [cbn; lia|exact Hr]. }
  assert (H2 : 0 < rb -> inS C (a_v a) = true -> inS C (a_u a) = true).
  { intros Hr. apply (HC (0%nat, true)). split; [cbn; lia|exact Hr]. }
  unfold piS. destruct (inS C (a_u a)) eqn:Eu; destruct (inS C (a_v a)) eqn:Ev; cbn [andb negb]; lia.
Qed.

Lemma sum_b_demand C s t x n : (s < n)%nat -> (t < n)%nat -> inS C s = true -> inS C t = false ->
  sum_b (demand_b s t x) C n = x.
Proof.
  intros Hs Ht HCs HCt. rewrite <- wsum_piS.
  rewrite (wsum_ext (piS C) _ (fun w => delta s x w - delta t x w)).
  - rewrite wsum_sub, !wsum_delta by assumption. unfold piS. rewrite HCs, HCt. lia.
  - intros w _. unfold demand_b, delta. rewrite (Nat.eqb_sym w s), (Nat.eqb_sym w t). reflexivity.
Qed.

Theorem mcf_infeasible_sound : forall n arcs s t d k,
  valid_input n arcs s t d = true ->
  mcf_run n arcs s t d = Some k -> k_status k = INFEASIBLE ->
  infeasible n arcs (demand_b s t d).
Proof.
  intros n arcs s t d k Hvi Hrun Hst.
  destruct (valid_input_parts _ _ _ _ _ Hvi) as (Hva & Hs & Ht & _ & Hd).
  destruct (mcf_run_sound n arcs s t d k (valid_arcs_caps n arcs Hva) Hd Hrun) as (Hinv & _ & Hnet & _ & _ & Hinf).
  destruct (Hinf Hst) as [Hlt Hbf]. set (res := k_res k) in *. set (tf := k_flow k) in *.
  unfold bellman_ford in Hbf. fold (dist0 n s) in Hbf.
  destruct (bf_rounds (n - 1) (res_edges 0 arcs res) (dist0 n s) (repeat None n)) as [dist par] eqn:E.
  destruct (bf_model_reach n arcs res s dist par Hva (proj1 Hinv) Hs E) as (HL & Hreach).
  destruct (nth t dist None) as [dt|] eqn:Et; [destruct (walk arcs par n t); discriminate|].
  set (C := fin_set dist).
  assert (HCs : inS C s = true).
  { apply inS_fin_set. destruct (Hreach [] s (rwalk_nil arcs res s)) as (dv & -> & _). discriminate. }
  assert (HCt : inS C t = false).
  { destruct (inS C t) eqn:Eq; [|reflexivity]. apply inS_fin_set in Eq. rewrite Et in Eq. contradiction. }
  assert (HC : forall e, redge arcs res e -> inS C (e_tail arcs e) = true -> inS C (e_head arcs e) = true).
  { intros e He Hin. apply inS_fin_set in Hin. apply inS_fin_set.
    destruct (nth (e_tail arcs e) dist None) as [du|] eqn:Edu; [|contradiction].
    destruct (HL _ _ Edu) as (a & p & <- & Hp & _).
    destruct (Hreach _ _ (rwalk_snoc arcs res s p e Hp He)) as (dv & -> & _). discriminate. }
  apply (cut_check_sound n arcs (demand_b s t d) C). unfold cut_check. rewrite Hva. cbn [andb].
  apply orb_true_intro. left. apply Z.ltb_lt.
  rewrite (sum_b_demand C s t d n Hs Ht HCs HCt).
  rewrite <- (closed_cut C arcs res Hinv HC).
  rewrite <- (wsum_netout (piS C) n arcs (flows res) Hva).
  rewrite (wsum_ext (piS C) _ (demand_b s t tf)) by (intros w _; apply Hnet).
  rewrite wsum_piS, (sum_b_demand C s t tf n Hs Ht HCs HCt). exact Hlt.
Qed.

