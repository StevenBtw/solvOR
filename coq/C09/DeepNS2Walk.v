(* C09 - network_simplex: the tree walks of one pivot.
   find_join returns the join of the two tree paths (node-disjoint chains first ~> join, second ~> join);
   the ratio test returns the minimum residual along the cycle and an arc attaining it;
   push changes the flow of each cycle arc once, by delta, in the direction whose residual was tested,
   and leaves the net outflow of every node unchanged once the cycle is closed. *)
From Coq Require Import List ZArith Lia.
From SV Require Import C09.Mcf C09.McfSpec C09.McfAug C09.NetSimplex C09.DeepNS2Base.
Import ListNotations.
Open Scope Z_scope.
Import Mcf McfSpec NetSimplex.

Section Walk.
Variable C : consts.
Local Notation n := (c_n C).
Local Notation T := (c_m C + c_n C)%nat.
Local Notation src a := (nn (c_src C) a).
Local Notation tgt a := (nn (c_tgt C) a).
Local Notation cap a := (nz (c_cap C) a).
Variable s : st.
Hypothesis HT : TreeOK C s.
Local Notation par v := (nn (parent s) v).
Local Notation prd v := (nn (pred s) v).
Local Notation dep v := (nz (depth s) v).

Lemma find_join_spec : forall f u v j, (u <= n)%nat -> (v <= n)%nat -> find_join f s u v = Some j ->
  exists pu pv, chain C s u pu j /\ chain C s v pv j /\ (forall x, In x pu -> In x pv -> False).
Proof.
  assert (Hbase : forall u j, Some u = Some j ->
            exists pu pv : list nat, chain C s u pu j /\ chain C s u pv j /\ (forall x, In x pu -> In x pv -> False)).
  { intros u j H. inversion H; subst. exists [], []. split; [constructor|]. split; [constructor|]. intros x []. }
  induction f as [|f IH]; intros u v j Hu Hv H; cbn [find_join] in H.
  - destruct (Nat.eqb_spec u v) as [->|Hne]; [|discriminate]. apply Hbase. exact H.
  - destruct (Nat.eqb_spec u v) as [->|Hne]; [apply Hbase; exact H|].
    destruct (Z.ltb_spec (dep v) (dep u)) as [Hlt|Hge].
    + assert (Hun : (u < n)%nat).
      { destruct (Nat.eq_dec u n) as [->|]; [|lia]. rewrite (t_dep0 C s HT) in Hlt. pose proof (t_depnn C s HT v Hv). lia. }
      destruct (IH _ _ _ (t_par C s HT u Hun) Hv H) as (pu & pv & H1 & H2 & H3).
      exists (u :: pu), pv. split; [constructor; assumption|]. split; [exact H2|].
      intros x [<-|Hx] Hxv; [|exact (H3 x Hx Hxv)].
      destruct (chain_in C s HT _ _ _ H2 u Hxv) as (_ & _ & [E|Hd]); [congruence|lia].
    + assert (Hvn : (v < n)%nat).
      { destruct (Nat.eq_dec v n) as [->|]; [|lia]. rewrite (t_dep0 C s HT) in Hge.
        destruct (Nat.eq_dec u n) as [->|]; [congruence|]. pose proof (dep_pos C s HT u ltac:(lia)). lia. }
      destruct (IH _ _ _ Hu (t_par C s HT v Hvn) H) as (pu & pv & H1 & H2 & H3).
      exists pu, (v :: pv). split; [exact H1|]. split; [constructor; assumption|].
      intros x Hx [<-|Hxv]; [|exact (H3 x Hx Hxv)].
      destruct (chain_in C s HT _ _ _ H1 v Hx) as (_ & _ & [E|Hd]); [congruence|lia].
Qed.

Definition res1 (b : bool) (x : nat) : Z := residual C s (prd x) (if b then x else par x).

Definition rstep (b : bool) (acc : Z * nat * bool) (x : nat) : Z * nat * bool :=
  if res1 b x <? fst (fst acc) then (res1 b x, prd x, b) else acc.

Lemma ratio_chain : forall f b node join acc r p, chain C s node p join ->
  ratio C f s b node join acc = Some r -> r = fold_left (rstep b) p acc.
Proof.
  intros f b node join acc r p Hc. revert f acc.
  induction Hc as [u|u p j Hu Hc IH]; intros f acc H.
  - destruct f; cbn [ratio] in H; rewrite Nat.eqb_refl in H; inversion H; reflexivity.
  - pose proof (chain_head_ne C s HT _ _ _ (chain_cons C s u p j Hu Hc) ltac:(discriminate)) as Hne.
    destruct f as [|f]; cbn [ratio] in H; destruct (Nat.eqb_spec u j) as [E|_]; try contradiction; [discriminate|].
    destruct acc as [[delta leaving] lf]. apply IH in H. rewrite H. reflexivity.
Qed.

Lemma rfold_spec b : forall p acc,
  fst (fst (fold_left (rstep b) p acc)) <= fst (fst acc) /\
  (forall x, In x p -> fst (fst (fold_left (rstep b) p acc)) <= res1 b x) /\
  (fold_left (rstep b) p acc = acc \/ exists x, In x p /\ fold_left (rstep b) p acc = (res1 b x, prd x, b)).
Proof.
  induction p as [|x p IH]; intros acc; cbn [fold_left].
  - split; [lia|]. split; [intros x []|left; reflexivity].
  - destruct (IH (rstep b acc x)) as (H1 & H2 & H3).
    assert (Hs : fst (fst (rstep b acc x)) <= fst (fst acc) /\ fst (fst (rstep b acc x)) <= res1 b x /\
                 (rstep b acc x = acc \/ rstep b acc x = (res1 b x, prd x, b))).
    { unfold rstep. destruct (Z.ltb_spec (res1 b x) (fst (fst acc))); cbn [fst]; repeat split; try lia; auto. }
    destruct Hs as (S1 & S2 & S3). split; [lia|]. split.
    + intros y [<-|Hy]; [lia|exact (H2 y Hy)].
    + destruct H3 as [H3|(y & Hy & H3)]; [|right; exists y; split; [right; exact Hy|exact H3]].
      rewrite H3. destruct S3 as [S3|S3]; [left; exact S3|right; exists x; split; [left; reflexivity|exact S3]].
Qed.

Definition pval (b : bool) (delta : Z) (fl : list Z) (x : nat) : Z :=
  if Bool.eqb (Nat.eqb (src (prd x)) x) b then nz fl (prd x) - delta else nz fl (prd x) + delta.

Definition pstep (b : bool) (delta : Z) (fl : list Z) (x : nat) : list Z := upd fl (prd x) (pval b delta fl x).

Lemma push_chain : forall f b node join delta fl fl' p, chain C s node p join ->
  push C f s b node join delta fl = Some fl' -> fl' = fold_left (pstep b delta) p fl.
Proof.
  intros f b node join delta fl fl' p Hc. revert f fl.
  induction Hc as [u|u p j Hu Hc IH]; intros f fl H.
  - destruct f; cbn [push] in H; rewrite Nat.eqb_refl in H; inversion H; reflexivity.
  - pose proof (chain_head_ne C s HT _ _ _ (chain_cons C s u p j Hu Hc) ltac:(discriminate)) as Hne.
    destruct f as [|f]; cbn [push] in H; destruct (Nat.eqb_spec u j) as [E|_]; try contradiction; [discriminate|].
    apply IH in H. rewrite H. reflexivity.
Qed.

Lemma pfold_len b delta : forall p fl, length (fold_left (pstep b delta) p fl) = length fl.
Proof. induction p as [|x p IH]; intros fl; cbn [fold_left]; [reflexivity|]. rewrite IH. apply length_upd. Qed.

Lemma pfold_other b delta : forall p fl a, (forall x, In x p -> prd x <> a) ->
  nz (fold_left (pstep b delta) p fl) a = nz fl a.
Proof.
  induction p as [|x p IH]; intros fl a H; cbn [fold_left]; [reflexivity|].
  rewrite IH by (intros y Hy; apply H; right; exact Hy). unfold pstep. apply nz_upd_other.
  intros E. apply (H x); [left; reflexivity|]. symmetry. exact E.
Qed.

Lemma pfold_at b delta : forall p fl x, NoDup p -> (forall y, In y p -> (y < n)%nat) -> In x p ->
  (prd x < length fl)%nat -> nz (fold_left (pstep b delta) p fl) (prd x) = pval b delta fl x.
Proof.
  induction p as [|x0 p IH]; intros fl x Hnd Hlt Hx Hl; [contradiction|]. cbn [fold_left].
  inversion Hnd as [|? ? Hn0 Hnd']; subst.
  assert (Hinj : forall y, In y p -> y <> x -> prd y <> prd x).
  { intros y Hy Hne E. apply Hne. apply (pred_inj C s HT); [apply Hlt; right; exact Hy|apply Hlt; exact Hx|exact E]. }
  destruct (Nat.eq_dec x x0) as [->|Hne].
  - rewrite pfold_other.
    + unfold pstep. apply nz_upd_same. exact Hl.
    + intros y Hy. apply Hinj; [exact Hy|]. intros ->. contradiction.
  - destruct Hx as [E|Hx]; [congruence|].
    rewrite IH; [|exact Hnd'|intros y Hy; apply Hlt; right; exact Hy|exact Hx|unfold pstep; rewrite length_upd; exact Hl].
    assert (Hne' : prd x0 <> prd x).
    { intros E. apply Hne. symmetry. apply (pred_inj C s HT); [apply Hlt; left; reflexivity|apply Hlt; right; exact Hx|exact E]. }
    unfold pval, pstep. rewrite nz_upd_other by (intros E; apply Hne'; symmetry; exact E). reflexivity.
Qed.

(* the new value of a path arc and the residual that the ratio test read for it *)
Lemma pval_res b delta fl x : (x < n)%nat -> nz fl (prd x) = nz (flow s) (prd x) ->
  (pval b delta fl x = nz (flow s) (prd x) - delta /\ res1 b x = nz (flow s) (prd x)) \/
  (pval b delta fl x = nz (flow s) (prd x) + delta /\ res1 b x = cap (prd x) - nz (flow s) (prd x)).
Proof.
  intros Hx Hfl. destruct (t_pred C s HT x Hx) as [_ J]. pose proof (par_ne C s HT x Hx) as Hne.
  unfold pval, res1, residual. rewrite Hfl.
  destruct J as [[J1 J2]|[J1 J2]].
  - rewrite J1, Nat.eqb_refl. destruct b; cbn [Bool.eqb].
    + rewrite Nat.eqb_refl. left. split; reflexivity.
    + destruct (Nat.eqb_spec x (par x)) as [E|_]; [congruence|]. right. split; reflexivity.
  - rewrite J1. destruct b; cbn [Bool.eqb].
    + destruct (Nat.eqb_spec (par x) x) as [E|_]; [congruence|]. right. split; reflexivity.
    + destruct (Nat.eqb_spec (par x) x) as [E|_]; [congruence|]. rewrite Nat.eqb_refl. left. split; reflexivity.
Qed.

(* net outflow: one walk moves delta units of excess between its two ends *)
Lemma pfold_netx b delta : forall node p join, chain C s node p join -> forall fl, length fl = T -> forall w,
  netx C (fold_left (pstep b delta) p fl) w =
  netx C fl w + (if b then 1 else -1) * delta * ((if Nat.eqb join w then 1 else 0) - (if Nat.eqb node w then 1 else 0)).
Proof.
  induction 1 as [u|u p j Hu Hc IH]; intros fl Hl w; cbn [fold_left]; [lia|].
  destruct (t_pred C s HT u Hu) as [Ha J]. pose proof (par_ne C s HT u Hu) as Hne.
  rewrite IH by (unfold pstep; rewrite length_upd; exact Hl).
  assert (Hstep : netx C (pstep b delta fl u) w =
                  netx C fl w + (if b then 1 else -1) * delta * ((if Nat.eqb (par u) w then 1 else 0) - (if Nat.eqb u w then 1 else 0))).
  { unfold pstep, pval.
    destruct J as [[J1 J2]|[J1 J2]].
    - rewrite J1, Nat.eqb_refl. destruct b; cbn [Bool.eqb].
      + replace (nz fl (prd u) - delta) with (nz fl (prd u) + - delta) by lia.
        rewrite netx_upd by lia. unfold coef. rewrite J1, J2. lia.
      + rewrite netx_upd by lia. unfold coef. rewrite J1, J2. lia.
    - rewrite J1. destruct (Nat.eqb_spec (par u) u) as [E|_]; [congruence|]. destruct b; cbn [Bool.eqb].
      + rewrite netx_upd by lia. unfold coef. rewrite J1, J2. lia.
      + replace (nz fl (prd u) - delta) with (nz fl (prd u) + - delta) by lia.
        rewrite netx_upd by lia. unfold coef. rewrite J1, J2. lia. }
  rewrite Hstep. lia.
Qed.

End Walk.
