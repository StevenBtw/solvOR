(* C09 - Bellman-Ford of min_cost_flow: the relaxed edge list is exactly the list of the 2m residual edges, the one
   case analysis of a relaxation, invariants of the (dist, parent) tables and what the reconstructed path is: a chain
   of residual edges from source to sink that uses every arc at most once (in either direction) - the latter only
   because the parent walk terminated. *)
From Coq Require Import List ZArith Bool Arith Lia.
From SV Require Import C09.Mcf C09.McfSpec C09.McfCert C09.McfAug.
Import ListNotations.
Open Scope Z_scope.
Import Mcf McfSpec.

Definition edge_ok (arcs : list arc) (res : resid) (x : edge * nat * nat * Z * Z) : Prop :=
  let '(e, u, v, c, r) := x in
  u = e_tail arcs e /\ v = e_head arcs e /\ c = e_cost arcs e /\ r = e_res res e /\ (fst e < length arcs)%nat.

(* the relaxed list is exactly the list of the 2m residual edges; k + j is the index of arc j of a suffix of the arc
   list that starts at arc k *)
Definition edge_at (arcs : list arc) (res : resid) (k j : nat) (b : bool) : edge * nat * nat * Z * Z :=
  let a := nth j arcs arc0 in let p := nth j res (0, 0) in
  ((k + j)%nat, b, (if b then a_v a else a_u a), (if b then a_u a else a_v a), (if b then - a_c a else a_c a),
   (if b then snd p else fst p)).

Lemma res_edges_at : forall arcs res k x, In x (res_edges k arcs res) ->
  exists j b, (j < length arcs)%nat /\ x = edge_at arcs res k j b.
Proof.
  induction arcs as [|a arcs IH]; intros res k x Hin; [contradiction|].
  destruct res as [|[rf rb] res]; [contradiction|]. cbn [res_edges] in Hin. destruct Hin as [<-|[<-|Hin]].
  - exists 0%nat, false. split; [cbn; lia|]. unfold edge_at. rewrite Nat.add_0_r. reflexivity.
  - exists 0%nat, true. split; [cbn; lia|]. unfold edge_at. rewrite Nat.add_0_r. reflexivity.
  - destruct (IH res (S k) x Hin) as (j & b & Hj & ->). exists (S j), b. split; [cbn [length]; lia|].
    unfold edge_at. rewrite Nat.add_succ_r. reflexivity.
Qed.

Lemma res_edges_in : forall arcs res k j b, (j < length arcs)%nat -> (j < length res)%nat ->
  In (edge_at arcs res k j b) (res_edges k arcs res).
Proof.
  induction arcs as [|a arcs IH]; intros res k j b Hj Hr; [cbn in Hj; lia|].
  destruct res as [|[rf rb] res]; [cbn in Hr; lia|]. cbn [res_edges]. unfold edge_at.
  destruct j as [|j].
  - rewrite Nat.add_0_r. cbn [nth fst snd]. destruct b; [right; left; reflexivity|left; reflexivity].
  - right. right. cbn [nth]. rewrite Nat.add_succ_r. apply (IH res (S k) j b); cbn [length] in *; lia.
Qed.

Lemma res_edges_ok arcs res x : In x (res_edges 0 arcs res) -> edge_ok arcs res x.
Proof.
  intros H. destruct (res_edges_at arcs res 0 x H) as (j & b & Hj & ->).
  unfold edge_ok, edge_at. repeat split. exact Hj.
Qed.

Lemma res_edges_complete arcs res e : length res = length arcs -> (fst e < length arcs)%nat ->
  In (e, e_tail arcs e, e_head arcs e, e_cost arcs e, e_res res e) (res_edges 0 arcs res).
Proof.
  intros Hlen Hk. destruct e as [j b]. cbn [fst] in Hk.
  exact (res_edges_in arcs res 0 j b Hk ltac:(lia)).
Qed.

Lemma valid_arcs_ends n arcs : valid_arcs n arcs = true ->
  forall e, (fst e < length arcs)%nat -> (e_tail arcs e < n)%nat /\ (e_head arcs e < n)%nat.
Proof.
  intros Hv e Hk. destruct (valid_arcs_in n arcs _ Hv (nth_In arcs arc0 Hk)) as (Hu & Hv' & _).
  unfold e_tail, e_head. destruct (snd e); split; assumption.
Qed.

Lemma same_arc_ends arcs (e e0 : edge) : fst e0 = fst e ->
  (e_tail arcs e = e_tail arcs e0 /\ e_head arcs e = e_head arcs e0 /\ e_cost arcs e = e_cost arcs e0) \/
  (e_tail arcs e = e_head arcs e0 /\ e_head arcs e = e_tail arcs e0 /\ e_cost arcs e = - e_cost arcs e0).
Proof.
  destruct e as [k b], e0 as [k0 b0]. cbn [fst]. intros ->. unfold e_tail, e_head, e_cost. cbn [fst snd].
  destruct b, b0; [left|right|right|left]; repeat split; lia.
Qed.

(* relax either does nothing (for one of three reasons) or updates dist[v], parent[v] and sets the flag *)
Lemma relax_cases dist par fl e u v c r :
  (relax (dist, par, fl) (e, u, v, c, r) = (dist, par, fl) /\
     (r <= 0 \/ nth u dist None = None \/
      exists du dv, nth u dist None = Some du /\ nth v dist None = Some dv /\ dv <= du + c))
  \/ (exists du, 0 < r /\ nth u dist None = Some du /\
        (nth v dist None = None \/ exists dv, nth v dist None = Some dv /\ du + c < dv) /\
        relax (dist, par, fl) (e, u, v, c, r) = (upd dist v (Some (du + c)), upd par v (Some e), true)).
Proof.
  unfold relax. destruct (Z.ltb_spec 0 r) as [Hr|Hr]; [|left; split; [reflexivity|left; lia]].
  destruct (nth u dist None) as [du|] eqn:Eu; [|left; split; [reflexivity|right; left; reflexivity]].
  destruct (nth v dist None) as [dv|] eqn:Ev.
  - destruct (Z.ltb_spec (du + c) dv) as [Hlt|Hge].
    + right. exists du. split; [exact Hr|]. split; [reflexivity|].
      split; [right; exists dv; split; [reflexivity|exact Hlt]|reflexivity].
    + left. split; [reflexivity|]. right. right. exists du, dv. auto.
  - right. exists du. split; [exact Hr|]. split; [reflexivity|]. split; [left; reflexivity|reflexivity].
Qed.

Lemma bf_rounds_inv (P : list (option Z) -> list (option edge) -> Prop) es :
  (forall x dist par fl d' p' fl', In x es -> P dist par -> relax (dist, par, fl) x = (d', p', fl') -> P d' p') ->
  forall k dist par d' p', P dist par -> bf_rounds k es dist par = (d', p') -> P d' p'.
Proof.
  intros Hstep.
  assert (Hfold : forall l, incl l es -> forall dist par fl d' p' fl',
            P dist par -> fold_left relax l (dist, par, fl) = (d', p', fl') -> P d' p').
  { induction l as [|x l IH]; intros Hl dist par fl d' p' fl' HP E; cbn [fold_left] in E.
    - inversion E; subst. exact HP.
    - destruct (relax (dist, par, fl) x) as [[d1 p1] fl1] eqn:E1.
      apply (IH (fun y Hy => Hl y (or_intror Hy)) d1 p1 fl1 d' p' fl'); [|exact E].
      exact (Hstep x _ _ _ _ _ _ (Hl x (or_introl eq_refl)) HP E1). }
  induction k as [|k IH]; intros dist par d' p' HP E; cbn [bf_rounds] in E.
  - inversion E; subst. exact HP.
  - unfold bf_round in E. destruct (fold_left relax es (dist, par, false)) as [[d1 p1] fl1] eqn:E1.
    pose proof (Hfold es (incl_refl es) _ _ _ _ _ _ HP E1) as HP1.
    destruct fl1; [exact (IH _ _ _ _ HP1 E)|inversion E; subst; exact HP1].
Qed.

Section ParentTable.
Variable arcs : list arc.
Variable res : resid.
Variable source : nat.

(* the parent table: parent[v] is a residual edge into v along which the labels grow at least by the cost, and
   only the source is labelled without a parent *)
Definition ParOK (dist : list (option Z)) (par : list (option edge)) : Prop :=
  length dist = length par /\
  (forall v e, nth v par None = Some e ->
     (fst e < length arcs)%nat /\ 0 < e_res res e /\ e_head arcs e = v /\
     exists du dv, nth (e_tail arcs e) dist None = Some du /\ nth v dist None = Some dv /\
                   du + e_cost arcs e <= dv) /\
  (forall v, nth v dist None <> None -> nth v par None = None -> v = source).

Lemma relax_ok x dist par fl d' p' fl' :
  edge_ok arcs res x -> ParOK dist par -> relax (dist, par, fl) x = (d', p', fl') -> ParOK d' p'.
Proof.
  destruct x as [[[[e u] v] c] r]. intros (Hu & Hv & Hc & Hr & Hk) Hok E.
  destruct (relax_cases dist par fl e u v c r) as [[E' _]|(du & Hpos & Edu & Hwhy & E')];
    rewrite E' in E; inversion E; subst d' p' fl'; [exact Hok|].
  destruct Hok as (Hlen & Ha & Hb).
  destruct (Nat.lt_ge_cases v (length par)) as [Hvl|Hvl];
    [|rewrite (upd_ge par), (upd_ge dist) by (rewrite ?Hlen; exact Hvl); split; auto].
  assert (Hvd : (v < length dist)%nat) by (rewrite Hlen; exact Hvl).
  split; [rewrite !length_upd; exact Hlen|]. split.
  - intros w ew Hw. destruct (Nat.eq_dec w v) as [->|Hne].
    + rewrite nth_upd_same in Hw by exact Hvl. inversion Hw; subst ew.
      split; [exact Hk|]. split; [rewrite <- Hr; exact Hpos|]. split; [symmetry; exact Hv|].
      rewrite <- Hu, <- Hc, (nth_upd_same dist) by exact Hvd. destruct (Nat.eq_dec u v) as [->|Huv].
      * (* a self-loop that improves its own label has negative cost *)
        exists (du + c), (du + c). rewrite nth_upd_same by exact Hvd.
        destruct Hwhy as [Hn|(dv & Hn & Hlt)]; [congruence|]. rewrite Edu in Hn. inversion Hn; subst dv.
        split; [reflexivity|]. split; [reflexivity|lia].
      * exists du, (du + c). rewrite nth_upd_other by exact Huv. split; [exact Edu|]. split; [reflexivity|lia].
    + rewrite nth_upd_other in Hw by exact Hne.
      destruct (Ha _ _ Hw) as (H1 & H2 & H3 & du0 & dw & Et & Ew & Hle).
      split; [exact H1|]. split; [exact H2|]. split; [exact H3|]. rewrite (nth_upd_other dist w) by exact Hne.
      destruct (Nat.eq_dec (e_tail arcs ew) v) as [Etv|Etv].
      * (* the label of the tail has just decreased *)
        exists (du + c), dw. rewrite Etv, nth_upd_same by exact Hvd. rewrite Etv in Et.
        destruct Hwhy as [Hn|(dv & Hn & Hlt)]; [congruence|]. rewrite Et in Hn. inversion Hn; subst dv.
        split; [reflexivity|]. split; [exact Ew|lia].
      * exists du0, dw. rewrite nth_upd_other by exact Etv. auto.
  - intros w Hd Hp. destruct (Nat.eq_dec w v) as [->|Hne]; [rewrite nth_upd_same in Hp by exact Hvl; discriminate|].
    rewrite nth_upd_other in Hd by exact Hne. rewrite nth_upd_other in Hp by exact Hne. exact (Hb w Hd Hp).
Qed.

Lemma init_ok n : ParOK (upd (repeat None n) source (Some 0)) (repeat None n).
Proof.
  split; [rewrite length_upd, !repeat_length; reflexivity|]. split.
  - intros v e H. rewrite nth_repeat in H. discriminate.
  - intros v Hd _. destruct (Nat.eq_dec v source) as [|Hne]; [assumption|].
    rewrite nth_upd_other, nth_repeat in Hd by exact Hne. contradiction.
Qed.

Lemma bf_rounds_ok n rounds d' p' :
  bf_rounds rounds (res_edges 0 arcs res) (upd (repeat None n) source (Some 0)) (repeat None n) = (d', p') ->
  ParOK d' p'.
Proof.
  apply (bf_rounds_inv ParOK); [|apply init_ok].
  intros x dist par fl d1 p1 fl1 Hx. exact (relax_ok x dist par fl d1 p1 fl1 (res_edges_ok arcs res x Hx)).
Qed.

End ParentTable.

(* the walk back along the parent pointers *)
Section BF.
Variable arcs : list arc.
Variable par : list (option edge).

Lemma walk_cons : forall f x e p, walk arcs par f x = Some (e :: p) ->
  nth x par None = Some e /\ exists f', walk arcs par f' (e_tail arcs e) = Some p.
Proof.
  intros [|f] x e p H; cbn [walk] in H; destruct (nth x par None) as [e0|] eqn:E; try discriminate.
  destruct (walk arcs par f (e_tail arcs e0)) as [q|] eqn:Eq; [|discriminate].
  inversion H; subst. split; [reflexivity|]. exists f. exact Eq.
Qed.

Lemma walk_none f x : nth x par None = None -> walk arcs par f x = Some [].
Proof. intros H. destruct f; cbn [walk]; rewrite H; reflexivity. Qed.

Lemma walk_nil_inv f x : walk arcs par f x = Some [] -> nth x par None = None.
Proof.
  intros H. destruct (nth x par None) as [e|] eqn:E; [|reflexivity].
  destruct f; cbn [walk] in H; rewrite E in H; [discriminate|].
  destruct (walk arcs par f (e_tail arcs e)); discriminate.
Qed.

Lemma walk_det : forall p f f' x p',
  walk arcs par f x = Some p -> walk arcs par f' x = Some p' -> p = p'.
Proof.
  induction p as [|e p IH]; intros f f' x p' H H'.
  - rewrite (walk_none f' x (walk_nil_inv f x H)) in H'. inversion H'. reflexivity.
  - apply walk_cons in H. destruct H as [Hx [f1 H1]]. destruct p' as [|e' p'].
    + apply walk_nil_inv in H'. congruence.
    + apply walk_cons in H'. destruct H' as [Hx' [f1' H1']]. rewrite Hx in Hx'. inversion Hx'; subst e'.
      f_equal. exact (IH _ _ _ _ H1 H1').
Qed.

Lemma walk_fuel : forall p f x, walk arcs par f x = Some p ->
  forall f', (length p <= f')%nat -> walk arcs par f' x = Some p.
Proof.
  induction p as [|e p IH]; intros f x H f' Hl.
  - apply walk_none. exact (walk_nil_inv f x H).
  - apply walk_cons in H. destruct H as [Hx [f1 H1]].
    destruct f' as [|f']; [cbn [length] in Hl; lia|]. cbn [walk]. rewrite Hx.
    rewrite (IH _ _ H1 f') by (cbn [length] in Hl; lia). reflexivity.
Qed.

Lemma walk_parents : forall p f x, walk arcs par f x = Some p ->
  forall e, In e p -> exists v, nth v par None = Some e.
Proof.
  induction p as [|e0 p IH]; intros f x H e Hin; [contradiction|].
  apply walk_cons in H. destruct H as [Hx [f' H']].
  destruct Hin as [<-|Hin]; [exists x; exact Hx|exact (IH _ _ H' e Hin)].
Qed.

(* the walk from any visited node is not longer than the walk itself *)
Lemma walk_sub : forall p f y, walk arcs par f y = Some p ->
  forall x, In x (y :: map (e_tail arcs) p) ->
  exists q f', walk arcs par f' x = Some q /\ (length q <= length p)%nat.
Proof.
  induction p as [|e p IH]; intros f y H x Hin.
  - destruct Hin as [<-|[]]. exists [], f. split; [exact H|lia].
  - destruct Hin as [<-|Hin]; [exists (e :: p), f; split; [exact H|lia]|].
    apply walk_cons in H. destruct H as [_ [f' H']].
    cbn [map] in Hin. destruct (IH f' _ H' x Hin) as (q & f'' & Hq & Hl).
    exists q, f''. split; [exact Hq|cbn [length]; lia].
Qed.

Lemma walk_nodup_nodes : forall p f x, walk arcs par f x = Some p -> NoDup (x :: map (e_tail arcs) p).
Proof.
  induction p as [|e p IH]; intros f x H.
  - cbn. constructor; [intros []|constructor].
  - pose proof H as H0. apply walk_cons in H. destruct H as [_ [f' H']].
    cbn [map]. constructor; [|exact (IH _ _ H')].
    intros Hin. destruct (walk_sub p f' _ H' x Hin) as (q & f'' & Hq & Hl).
    rewrite (walk_det _ _ _ _ _ Hq H0) in Hl. cbn [length] in Hl. lia.
Qed.

End BF.

Section ParentWalk.
Variable arcs : list arc.
Variable res : resid.
Variable source : nat.
Variable dist : list (option Z).
Variable par : list (option edge).
Hypothesis Hok : ParOK arcs res source dist par.

Lemma par_edge v e : nth v par None = Some e ->
  (fst e < length arcs)%nat /\ e_head arcs e = v /\ nth (e_tail arcs e) dist None <> None.
Proof.
  intros H. destruct Hok as (_ & Ha & _). destruct (Ha v e H) as (Hk & _ & Hh & du & _ & Et & _).
  rewrite Et. split; [exact Hk|]. split; [exact Hh|discriminate].
Qed.

Lemma walk_heads : forall p f x, walk arcs par f x = Some p ->
  forall e, In e p -> In (e_head arcs e) (x :: map (e_tail arcs) p).
Proof.
  induction p as [|e0 p IH]; intros f x H e Hin; [contradiction|].
  apply walk_cons in H. destruct H as [Hx [f' H']].
  destruct Hin as [<-|Hin].
  - left. symmetry. exact (proj1 (proj2 (par_edge _ _ Hx))).
  - right. cbn [map]. exact (IH _ _ H' e Hin).
Qed.

Lemma walk_nodup_arcs : forall p f x, walk arcs par f x = Some p -> NoDup (map fst p).
Proof.
  induction p as [|e p IH]; intros f x H; [constructor|].
  pose proof (walk_nodup_nodes arcs par _ _ _ H) as Hnd.
  pose proof H as H0. apply walk_cons in H. destruct H as [Hx [f' H']].
  cbn [map]. constructor; [|exact (IH _ _ H')].
  intros Hin. apply in_map_iff in Hin. destruct Hin as (e' & Hfst & He').
  destruct (par_edge _ _ Hx) as (_ & Hh & _).
  cbn [map] in Hnd. inversion Hnd as [|? ? Hnotin Hnd']; subst.
  destruct (same_arc_ends arcs e' e (eq_sym Hfst)) as [(_ & Hc & _)|(Hc & _)]; rewrite <- Hc in Hnotin.
  - (* e' has the head of e = x, but heads of p are visited later *)
    apply Hnotin. exact (walk_heads _ _ _ H' e' He').
  - apply Hnotin. right. apply in_map. exact He'.
Qed.

Lemma walk_chain : forall p f x, nth x dist None <> None ->
  walk arcs par f x = Some p -> chain arcs source (rev p) x.
Proof.
  induction p as [|e p IH]; intros f x Hd H; cbn [rev].
  - cbn [chain]. symmetry. destruct Hok as (_ & _ & Hb). exact (Hb x Hd (walk_nil_inv arcs par f x H)).
  - apply walk_cons in H. destruct H as [Hx [f' H']].
    destruct (par_edge _ _ Hx) as (_ & Hh & Hdt).
    apply (chain_cat arcs _ _ (e_tail arcs e)); [exact (IH _ _ Hdt H')|]. cbn [chain]. auto.
Qed.

End ParentWalk.

(* what bellman_ford returns *)
Theorem bellman_ford_path : forall n arcs res s t path d,
  bellman_ford n arcs res s t = BFPath path d ->
  chain arcs s path t /\ NoDup (map fst path) /\ (forall e, In e path -> (fst e < length arcs)%nat).
Proof.
  intros n arcs res s t path d H. unfold bellman_ford in H.
  destruct (bf_rounds (n - 1) (res_edges 0 arcs res) (upd (repeat None n) s (Some 0)) (repeat None n))
    as [dist par] eqn:E.
  pose proof (bf_rounds_ok arcs res s n _ _ _ E) as Hok.
  destruct (nth t dist None) as [dt|] eqn:Edt; [|discriminate].
  destruct (walk arcs par n t) as [p|] eqn:Ew; [|discriminate].
  inversion H; subst path d. split; [|split].
  - apply (walk_chain arcs res s dist par Hok p n t); [rewrite Edt; discriminate|exact Ew].
  - rewrite map_rev. apply NoDup_rev. exact (walk_nodup_arcs arcs res s dist par Hok _ _ _ Ew).
  - intros e He. apply in_rev in He. destruct (walk_parents arcs par p n t Ew e He) as (v & Hv).
    exact (proj1 (par_edge arcs res s dist par Hok v e Hv)).
Qed.
