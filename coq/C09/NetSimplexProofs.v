(* C09 - network_simplex: the final gate.  OPTIMAL is only reported when no artificial arc carries flow, the
   objective is the sum of cost * flow over the ORIGINAL arcs and the solution is the pooled dictionary of the
   original arcs' flows (read off the model's last lines; that such an answer is a minimum-cost flow is DeepNS2Exit.ns_optimal). *)
From Coq Require Import List ZArith Lia.
From SV Require Import C09.Mcf C09.McfSpec C09.NetSimplex C09.McfProofs.
Import ListNotations.
Open Scope Z_scope.
Import Mcf McfSpec NetSimplex.

Lemma orig_cost_flow_cost : forall arcs fl, orig_cost arcs fl = flow_cost arcs fl.
Proof.
  induction arcs as [|a arcs IH]; intros [|x fl]; cbn [orig_cost flow_cost]; try reflexivity. rewrite IH. lia.
Qed.

Lemma flow_dict_get0 : forall arcs fl d0 u v,
  Forall (fun x => 0 <= x) (firstn (length arcs) fl) ->
  get0 (flow_dict arcs fl d0) u v = get0 d0 u v + pair_sum arcs fl u v.
Proof.
  induction arcs as [|a arcs IH]; intros fl d0 u v Hnn.
  - cbn [flow_dict pair_sum]. lia.
  - destruct fl as [|x fl]; [cbn [flow_dict pair_sum]; lia|].
    cbn [length firstn] in Hnn. inversion Hnn as [|? ? Hx Hnn']; subst.
    cbn [flow_dict pair_sum]. rewrite IH by exact Hnn'.
    destruct (0 <? x) eqn:E.
    + rewrite McfProofs.get0_dict_add. lia.
    + apply Z.ltb_ge in E. assert (x = 0) by lia. subst x.
      destruct (Nat.eqb (a_u a) u && Nat.eqb (a_v a) v)%bool; lia.
Qed.

Theorem ns_gate : forall n arcs sup max_iter r,
  network_simplex n arcs sup max_iter = Some r -> r_status r = OPTIMAL ->
  (arcs = [] /\ forallb (fun x => x =? 0) sup = true /\ r_sol r = Some [] /\ r_obj r = 0)
  \/ exists fl it,
       ns_run n arcs sup max_iter = Some (OPTIMAL, fl, it) /\
       (forall x, In x (skipn (length arcs) fl) -> x <= 0) /\       (* no artificial arc carries flow *)
       r_sol r = Some (flow_dict arcs fl []) /\
       r_obj r = flow_cost arcs fl /\                                (* cost = sum cost*flow over the original arcs *)
       (Forall (fun x => 0 <= x) (firstn (length arcs) fl) -> pooled arcs fl (flow_dict arcs fl [])).
Proof.
  intros n arcs sup max_iter r H Hst. unfold network_simplex in H.
  destruct (negb (zsum sup =? 0)); [inversion H; subst r; discriminate|].
  destruct arcs as [|a arcs].
  - destruct (forallb (fun x => x =? 0) sup) eqn:E; inversion H; subst r; [|discriminate].
    left. repeat split.
  - right. remember (a :: arcs) as A eqn:HA. clear HA.
    destruct (ns_run n A sup max_iter) as [[[stt fl] it]|] eqn:Er; [|discriminate].
    destruct (existsb (fun x => 0 <? x) (skipn (length A) fl)) eqn:Ex.
    + inversion H; subst r. cbn [r_status] in Hst. destruct stt; discriminate.
    + inversion H; subst r. cbn [r_status r_sol r_obj] in *. subst stt.
      exists fl, it. split; [reflexivity|]. split; [|split; [reflexivity|split; [apply orig_cost_flow_cost|]]].
      * intros x Hin. destruct (Z.ltb_spec 0 x) as [Hlt|Hle]; [|exact Hle].
        assert (Ht : existsb (fun x => 0 <? x) (skipn (length A) fl) = true).
        { apply existsb_exists. exists x. split; [exact Hin|]. apply Z.ltb_lt. exact Hlt. }
        rewrite Ht in Ex. discriminate.
      * intros Hnn u v. rewrite flow_dict_get0 by exact Hnn. reflexivity.
Qed.
