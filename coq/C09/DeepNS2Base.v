(* C09 - network_simplex: the state invariant NSInv of the pivots.
   This file: vocabulary (sums over arc ids, net outflow over the extended arc set, tree chains), the invariant,
   and the facts about a valid basis tree that the pivot proofs use (pred is injective, every arc in state 0 is
   a pred arc, chains are deterministic). *)
From Coq Require Import List ZArith Lia.
From SV Require Import C09.Mcf C09.McfSpec C09.McfAug C09.NetSimplex.
Import ListNotations.
Open Scope Z_scope.
Import Mcf McfSpec NetSimplex.

Lemma nn_upd_same l i x : (i < length l)%nat -> nn (upd l i x) i = x.
Proof. apply nth_upd_same. Qed.
Lemma nn_upd_other l i j x : i <> j -> nn (upd l j x) i = nn l i.
Proof. apply nth_upd_other. Qed.
Lemma nz_upd_same l i x : (i < length l)%nat -> nz (upd l i x) i = x.
Proof. apply nth_upd_same. Qed.
Lemma nz_upd_other l i j x : i <> j -> nz (upd l j x) i = nz l i.
Proof. apply nth_upd_other. Qed.

(* sums over 0..k-1 *)
Fixpoint nsum (f : nat -> Z) (k : nat) : Z :=
  match k with O => 0 | S k' => nsum f k' + f k' end.

Lemma nsum_ext f g k : (forall i, (i < k)%nat -> f i = g i) -> nsum f k = nsum g k.
Proof.
  induction k as [|k IH]; intros H; cbn [nsum]; [reflexivity|].
  rewrite IH by (intros i Hi; apply H; lia). rewrite (H k) by lia. reflexivity.
Qed.

Lemma nsum_one f g k a d : (a < k)%nat -> (forall i, (i < k)%nat -> i <> a -> g i = f i) -> g a = f a + d ->
  nsum g k = nsum f k + d.
Proof.
  induction k as [|k IH]; intros Ha Hne Hd; [lia|]. cbn [nsum].
  destruct (Nat.eq_dec a k) as [->|Hak].
  - rewrite (nsum_ext g f k) by (intros i Hi; apply Hne; lia). lia.
  - rewrite IH by (try lia; intros i Hi; apply Hne; lia). rewrite (Hne k) by lia. lia.
Qed.

Lemma nsum_zero f k : (forall i, (i < k)%nat -> f i = 0) -> nsum f k = 0.
Proof. induction k as [|k IH]; intros H; cbn [nsum]; [reflexivity|]. rewrite IH, (H k) by (intros; try apply H; lia). lia. Qed.

Lemma nsum_app f k j : nsum f (k + j) = nsum f k + nsum (fun i => f (k + i)%nat) j.
Proof.
  induction j as [|j IH]; cbn [nsum]; [rewrite Nat.add_0_r; lia|].
  rewrite Nat.add_succ_r. cbn [nsum]. rewrite IH. lia.
Qed.

Lemma nsum_shift f k : nsum f (S k) = f 0%nat + nsum (fun i => f (S i)) k.
Proof. induction k as [|k IH]; [cbn; lia|]. cbn [nsum] in *. rewrite IH. lia. Qed.

Lemma nsum_nonneg f k : (forall i, (i < k)%nat -> 0 <= f i) -> 0 <= nsum f k.
Proof.
  induction k as [|k IH]; intros H; cbn [nsum]; [lia|].
  specialize (IH ltac:(intros i Hi; apply H; lia)). specialize (H k ltac:(lia)). lia.
Qed.

Lemma nsum_const c k : nsum (fun _ => c) k = c * Z.of_nat k.
Proof. induction k as [|k IH]; [cbn; lia|]. cbn [nsum]. rewrite IH. lia. Qed.

Lemma nsum_add f g k : nsum (fun i => f i + g i) k = nsum f k + nsum g k.
Proof. induction k as [|k IH]; cbn [nsum]; [reflexivity|]. rewrite IH. lia. Qed.

Lemma nsum_scal f c k : nsum (fun i => f i * c) k = nsum f k * c.
Proof. induction k as [|k IH]; cbn [nsum]; [reflexivity|]. rewrite IH. lia. Qed.

Lemma nsum_delta (g : nat -> Z) u k :
  nsum (fun w => g w * (if Nat.eqb u w then 1 else 0)) k = if Nat.ltb u k then g u else 0.
Proof.
  induction k as [|k IH]; cbn [nsum]; [reflexivity|]. rewrite IH.
  destruct (Nat.ltb_spec u k); destruct (Nat.ltb_spec u (S k)); destruct (Nat.eqb_spec u k); subst; lia.
Qed.

Lemma nsum_le_term f k i : (forall j, (j < k)%nat -> 0 <= f j) -> (i < k)%nat -> f i <= nsum f k.
Proof.
  induction k as [|k IH]; intros Hnn Hi; [lia|]. cbn [nsum].
  pose proof (nsum_nonneg f k ltac:(intros j Hj; apply Hnn; lia)) as H0. pose proof (Hnn k ltac:(lia)) as Hk.
  destruct (Nat.eq_dec i k) as [->|Hne]; [lia|]. specialize (IH ltac:(intros j Hj; apply Hnn; lia) ltac:(lia)). lia.
Qed.

Lemma nsum_pos f k i : (forall j, (j < k)%nat -> 0 <= f j) -> (i < k)%nat -> 0 < f i -> 0 < nsum f k.
Proof. intros Hnn Hi Hp. pose proof (nsum_le_term f k i Hnn Hi). lia. Qed.

Lemma nsum_filter (p : nat -> bool) k :
  nsum (fun a => if p a then 1 else 0) k = Z.of_nat (length (filter p (seq 0 k))).
Proof.
  induction k as [|k IH]; [reflexivity|]. cbn [nsum]. rewrite seq_S, filter_app, app_length, IH. cbn [filter Nat.add].
  destruct (p k); cbn [length]; lia.
Qed.

Lemma NoDup_map_in {A B} (f : A -> B) : forall l, NoDup l ->
  (forall x y, In x l -> In y l -> f x = f y -> x = y) -> NoDup (map f l).
Proof.
  induction l as [|a l IH]; intros Hnd Hinj; [constructor|]. inversion Hnd as [|? ? Hna Hnd']; subst.
  cbn [map]. constructor.
  - intros Hin. apply in_map_iff in Hin. destruct Hin as (y & Hy & Hyl).
    assert (y = a) by (apply Hinj; [right; exact Hyl|left; reflexivity|exact Hy]). subst y. contradiction.
  - apply IH; [exact Hnd'|]. intros x y Hx Hy. apply Hinj; right; assumption.
Qed.

Section WithC.
Variable C : consts.
Local Notation n := (c_n C).
Local Notation T := (c_m C + c_n C)%nat.
Local Notation src a := (nn (c_src C) a).
Local Notation tgt a := (nn (c_tgt C) a).
Local Notation cap a := (nz (c_cap C) a).
Local Notation cst a := (nz (c_cost C) a).

(* what the proofs need to know about the arc tables: end points are nodes 0..n, capacities are non-negative *)
Definition ConstOK : Prop :=
  forall a, (a < T)%nat -> (src a <= n)%nat /\ (tgt a <= n)%nat /\ 0 <= cap a.

(* net outflow of node w over ALL arcs (original and artificial) *)
Definition coef (w a : nat) : Z := (if Nat.eqb (src a) w then 1 else 0) - (if Nat.eqb (tgt a) w then 1 else 0).
Definition netx (fl : list Z) (w : nat) : Z := nsum (fun a => coef w a * nz fl a) T.

Lemma netx_upd fl a d w : (a < T)%nat -> (a < length fl)%nat ->
  netx (upd fl a (nz fl a + d)) w = netx fl w + coef w a * d.
Proof.
  intros Ha Hl. unfold netx. apply (nsum_one _ _ T a); [exact Ha| |].
  - intros i _ Hi. rewrite nz_upd_other by exact Hi. reflexivity.
  - rewrite nz_upd_same by exact Hl. lia.
Qed.

(* arc a joins the nodes v and w *)
Definition joins (a v w : nat) : Prop := (src a = v /\ tgt a = w) \/ (src a = w /\ tgt a = v).

Lemma joins_sym a v w : joins a v w -> joins a w v.
Proof. unfold joins. tauto. Qed.

(* the other end of arc a seen from node v (the code: target if source == node else source) *)
Definition other (a v : nat) : nat := if Nat.eqb (src a) v then tgt a else src a.

Lemma joins_other a v w : joins a v w -> v <> w -> other a v = w.
Proof.
  unfold joins, other. intros [[H1 H2]|[H1 H2]] Hne.
  - rewrite H1, Nat.eqb_refl. exact H2.
  - destruct (Nat.eqb_spec (src a) v) as [E|E]; [congruence|exact H1].
Qed.

(* the basis tree as the tables describe it *)
Record TreeOK (s : st) : Prop := {
  t_par : forall v, (v < n)%nat -> (nn (parent s) v <= n)%nat;
  t_dep : forall v, (v < n)%nat -> nz (depth s) v = nz (depth s) (nn (parent s) v) + 1;
  t_dep0 : nz (depth s) n = 0;
  t_depnn : forall v, (v <= n)%nat -> 0 <= nz (depth s) v;
  t_pred : forall v, (v < n)%nat -> (nn (pred s) v < T)%nat /\ joins (nn (pred s) v) v (nn (parent s) v)
}.

(* chain s u p j: following parent links from u reaches j; p = the nodes passed, j excluded *)
Inductive chain (s : st) : nat -> list nat -> nat -> Prop :=
| chain_nil u : chain s u [] u
| chain_cons u p j : (u < n)%nat -> chain s (nn (parent s) u) p j -> chain s u (u :: p) j.

Section Tree.
Variable s : st.
Hypothesis HT : TreeOK s.
Local Notation par v := (nn (parent s) v).
Local Notation prd v := (nn (pred s) v).
Local Notation dep v := (nz (depth s) v).

Lemma par_ne v : (v < n)%nat -> par v <> v.
Proof. intros Hv E. pose proof (t_dep s HT v Hv) as H. rewrite E in H. lia. Qed.

Lemma dep_pos v : (v < n)%nat -> 0 < dep v.
Proof. intros Hv. pose proof (t_dep s HT v Hv). pose proof (t_depnn s HT (par v) (t_par s HT v Hv)). lia. Qed.

Lemma chain_le u p j : chain s u p j -> (u <= n)%nat -> (j <= n)%nat.
Proof. induction 1 as [u|u p j Hu Hc IH]; intros H; [exact H|]. apply IH. apply (t_par s HT). exact Hu. Qed.

Lemma chain_dep_le u p j : chain s u p j -> dep j <= dep u.
Proof. induction 1 as [u|u p j Hu Hc IH]; [lia|]. pose proof (t_dep s HT u Hu). lia. Qed.

Lemma chain_in u p j : chain s u p j -> forall x, In x p -> (x < n)%nat /\ dep j < dep x /\ (x = u \/ dep x < dep u).
Proof.
  induction 1 as [u|u p j Hu Hc IH]; intros x Hx; [contradiction|].
  pose proof (t_dep s HT u Hu) as Hd. pose proof (chain_dep_le _ _ _ Hc) as Hle.
  destruct Hx as [<-|Hx]; [split; [exact Hu|split; [lia|left; reflexivity]]|].
  destruct (IH x Hx) as (H1 & H2 & H3). split; [exact H1|]. split; [exact H2|]. right. destruct H3 as [->|H3]; lia.
Qed.

Lemma chain_notin u p j : chain s u p j -> ~ In j p.
Proof. intros Hc Hin. destruct (chain_in _ _ _ Hc j Hin) as (_ & H & _). lia. Qed.

Lemma chain_nodup u p j : chain s u p j -> NoDup p.
Proof.
  induction 1 as [u|u p j Hu Hc IH]; [constructor|]. constructor; [|exact IH].
  intros Hin. destruct (chain_in _ _ _ Hc u Hin) as (_ & _ & H3). pose proof (t_dep s HT u Hu).
  destruct H3 as [E|H3]; [|lia]. symmetry in E. exact (par_ne u Hu E).
Qed.

Lemma chain_head_ne u p j : chain s u p j -> p <> [] -> u <> j.
Proof.
  intros Hc Hp E. destruct Hc as [u|u p j Hu Hc]; [contradiction|]. subst j.
  pose proof (chain_dep_le _ _ _ Hc). pose proof (t_dep s HT u Hu). lia.
Qed.

(* two chains from the same node: one is an initial part of the other *)
Lemma chain_det u B x : chain s u B x -> forall P j, chain s u P j -> In x P \/ x = j \/ In j B.
Proof.
  induction 1 as [u|u B x Hu Hc IH]; intros P j HP.
  - destruct HP as [u|u P j _ _]; [right; left; reflexivity|left; left; reflexivity].
  - inversion HP as [|? P' ? _ HP']; subst.
    + right; right; left; reflexivity.
    + destruct (IH _ _ HP') as [H|[H|H]]; [left; right; exact H|right; left; exact H|right; right; right; exact H].
Qed.

Lemma chain_split u p j : chain s u p j -> forall x, In x p ->
  exists p1 p2, p = p1 ++ x :: p2 /\ chain s u p1 x /\ chain s x (x :: p2) j.
Proof.
  induction 1 as [u|u p j Hu Hc IH]; intros x Hx; [contradiction|].
  destruct (Nat.eq_dec x u) as [->|Hne].
  - exists [], p. split; [reflexivity|]. split; [constructor|constructor; assumption].
  - destruct Hx as [E|Hx]; [congruence|]. destruct (IH x Hx) as (p1 & p2 & E & H1 & H2).
    exists (u :: p1), p2. split; [rewrite E; reflexivity|]. split; [constructor; assumption|exact H2].
Qed.

Lemma chain_app u p1 x p2 j : chain s u p1 x -> chain s x p2 j -> chain s u (p1 ++ p2) j.
Proof. induction 1 as [u|u p x Hu Hc IH]; intros H2; [exact H2|]. cbn [app]. constructor; [exact Hu|apply IH; exact H2]. Qed.

Lemma pred_inj v w : (v < n)%nat -> (w < n)%nat -> prd v = prd w -> v = w.
Proof.
  intros Hv Hw E. destruct (t_pred s HT v Hv) as [_ Jv]. destruct (t_pred s HT w Hw) as [_ Jw].
  rewrite <- E in Jw. pose proof (t_dep s HT v Hv). pose proof (t_dep s HT w Hw).
  (* otherwise the arc runs v -> par v = w and w -> par w = v at once: two nodes each one level below the other *)
  unfold joins in Jv, Jw. destruct Jv as [[A1 A2]|[A1 A2]]; destruct Jw as [[B1 B2]|[B1 B2]]; try congruence;
    exfalso; assert (v = par w) by congruence; assert (par v = w) by congruence;
    replace (dep (par v)) with (dep w) in * by congruence; replace (dep (par w)) with (dep v) in * by congruence; lia.
Qed.

End Tree.

Record NSInv (b : nat -> Z) (s : st) : Prop := {
  i_lflow : length (flow s) = T;
  i_lstate : length (state s) = T;
  i_lpar : length (parent s) = S n;
  i_lpred : length (pred s) = S n;
  i_ldep : length (depth s) = S n;
  i_lpi : length (pi s) = S n;
  i_ladj : length (tadj s) = S n;
  (* (a) *)
  i_bounds : forall a, (a < T)%nat -> 0 <= nz (flow s) a <= cap a;
  i_cons : forall w, netx (flow s) w = b w;
  (* (b) *)
  i_st3 : forall a, (a < T)%nat -> nz (state s) a = 1 \/ nz (state s) a = 0 \/ nz (state s) a = -1;
  i_lower : forall a, (a < T)%nat -> nz (state s) a = 1 -> nz (flow s) a = 0;
  i_upper : forall a, (a < T)%nat -> nz (state s) a = -1 -> nz (flow s) a = cap a;
  i_cnt : nsum (fun a => if nz (state s) a =? 0 then 1 else 0) T = Z.of_nat n;
  i_predst : forall v, (v < n)%nat -> nz (state s) (nn (pred s) v) = 0;
  (* (c) *)
  i_tree : TreeOK s;
  (* (d) *)
  i_pi : forall v, (v < n)%nat ->
           nz (pi s) v = if Nat.eqb (src (nn (pred s) v)) v
                         then nz (pi s) (nn (parent s) v) + cst (nn (pred s) v)
                         else nz (pi s) (nn (parent s) v) - cst (nn (pred s) v);
  i_pi0 : nz (pi s) n = 0;
  (* tree_adj[w] = the arcs in state 0 that touch w *)
  i_adj : forall w, (w <= n)%nat ->
            NoDup (nth w (tadj s) []) /\
            forall a, In a (nth w (tadj s) []) <-> (a < T)%nat /\ nz (state s) a = 0 /\ (src a = w \/ tgt a = w)
}.

(* every arc in state 0 is the pred arc of a node: n distinct pred arcs among exactly n arcs in state 0 *)
Lemma tree_arc_is_pred stl prl (HTp : forall v w, (v < n)%nat -> (w < n)%nat -> nn prl v = nn prl w -> v = w) :
  nsum (fun a => if nz stl a =? 0 then 1 else 0) T = Z.of_nat n ->
  (forall v, (v < n)%nat -> (nn prl v < T)%nat /\ nz stl (nn prl v) = 0) ->
  forall a, (a < T)%nat -> nz stl a = 0 -> exists v, (v < n)%nat /\ nn prl v = a.
Proof.
  intros Hcnt Hpred a Ha Hst.
  rewrite (nsum_filter (fun a => nz stl a =? 0)) in Hcnt. apply Nat2Z.inj in Hcnt.
  set (L := map (fun v => nn prl v) (seq 0 n)). set (F := filter (fun a => nz stl a =? 0) (seq 0 T)) in *.
  assert (Hnd : NoDup L).
  { apply NoDup_map_in; [apply seq_NoDup|]. intros x y Hx Hy. apply in_seq in Hx, Hy. apply HTp; lia. }
  assert (Hincl : incl L F).
  { intros y Hy. apply in_map_iff in Hy. destruct Hy as (v & <- & Hv). apply in_seq in Hv.
    destruct (Hpred v ltac:(lia)) as [H1 H2]. apply filter_In. split; [apply in_seq; lia|]. rewrite H2. reflexivity. }
  assert (Hlen : (length F <= length L)%nat) by (unfold L; rewrite map_length, seq_length; lia).
  pose proof (NoDup_length_incl Hnd Hlen Hincl) as Hback.
  assert (HaF : In a F) by (apply filter_In; split; [apply in_seq; lia|rewrite Hst; reflexivity]).
  apply Hback in HaF. apply in_map_iff in HaF. destruct HaF as (v & E & Hv). apply in_seq in Hv.
  exists v. split; [lia|exact E].
Qed.

Lemma inv_tree_arc b s : NSInv b s -> forall a, (a < T)%nat -> nz (state s) a = 0 ->
  exists v, (v < n)%nat /\ nn (pred s) v = a.
Proof.
  intros I. apply tree_arc_is_pred.
  - intros v w Hv Hw. apply (pred_inj s (i_tree b s I)); assumption.
  - apply (i_cnt b s I).
  - intros v Hv. split; [apply (t_pred s (i_tree b s I) v Hv)|apply (i_predst b s I v Hv)].
Qed.

Lemma inv_tree_rc b s : NSInv b s -> forall a, (a < T)%nat -> nz (state s) a = 0 -> redcost C s a = 0.
Proof.
  intros I a Ha Hst. destruct (inv_tree_arc b s I a Ha Hst) as (v & Hv & <-).
  pose proof (i_pi b s I v Hv) as Hp. destruct (t_pred s (i_tree b s I) v Hv) as [_ J].
  pose proof (par_ne s (i_tree b s I) v Hv) as Hne. unfold redcost.
  destruct J as [[J1 J2]|[J1 J2]].
  - rewrite J1, Nat.eqb_refl in Hp. rewrite J1, J2. lia.
  - destruct (Nat.eqb_spec (src (nn (pred s) v)) v) as [E|E]; [congruence|]. rewrite J1, J2. lia.
Qed.

End WithC.
