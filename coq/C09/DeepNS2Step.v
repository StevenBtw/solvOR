(* C09 - network_simplex: one pass of the main loop keeps the invariant NSInv, hence every state
   the loop reaches satisfies it.  The flow after the two pushes keeps part (a) of the invariant (bounds on every arc, net
   outflow of every node) and sends the leaving arc to one of its bounds (Section Pivot); the pass then ends in one of
   three ways: the entering arc flips its bound without flow (degenerate), with flow, or it replaces the leaving arc in
   the basis and the cut-off subtree is re-hung (DeepNS2Tree). *)
From Coq Require Import List ZArith Lia.
From SV Require Import C09.Mcf C09.McfSpec C09.McfAug C09.NetSimplex.
From SV Require Import C09.DeepNS C09.DeepNS2Base C09.DeepNS2Walk C09.DeepNS2Tree.
Import ListNotations.
Open Scope Z_scope.
Import Mcf McfSpec NetSimplex.

Lemma adj_discard_len adj node arc : length (adj_discard adj node arc) = length adj.
Proof. apply length_upd. Qed.
Lemma adj_add_len adj node arc : length (adj_add adj node arc) = length adj.
Proof. unfold adj_add. destruct (existsb _ _); [reflexivity|apply length_upd]. Qed.

Lemma adj_discard_spec adj node arc w : (node < length adj)%nat ->
  (NoDup (nth w adj []) -> NoDup (nth w (adj_discard adj node arc) [])) /\
  forall a, In a (nth w (adj_discard adj node arc) []) <-> In a (nth w adj []) /\ ~ (w = node /\ a = arc).
Proof.
  intros Hn. unfold adj_discard. destruct (Nat.eq_dec w node) as [->|Hne].
  - rewrite nth_upd_same by exact Hn. split; [apply NoDup_filter|].
    intros a. rewrite filter_In. destruct (Nat.eqb_spec a arc); cbn [negb]; intuition congruence.
  - rewrite nth_upd_other by exact Hne. split; [auto|]. intros a. intuition.
Qed.

Lemma adj_add_spec adj node arc w : (node < length adj)%nat ->
  (NoDup (nth w adj []) -> NoDup (nth w (adj_add adj node arc) [])) /\
  forall a, In a (nth w (adj_add adj node arc) []) <-> In a (nth w adj []) \/ (w = node /\ a = arc).
Proof.
  intros Hn. unfold adj_add. destruct (existsb (Nat.eqb arc) (nth node adj [])) eqn:Ex.
  - split; [auto|]. intros a. split; [auto|]. intros [H|[-> ->]]; [exact H|].
    apply existsb_exists in Ex. destruct Ex as (y & Hy & E). apply Nat.eqb_eq in E. subst y. exact Hy.
  - assert (Hnot : ~ In arc (nth node adj [])).
    { intros Hin. assert (existsb (Nat.eqb arc) (nth node adj []) = true); [|congruence].
      apply existsb_exists. exists arc. split; [exact Hin|apply Nat.eqb_refl]. }
    destruct (Nat.eq_dec w node) as [->|Hne].
    + rewrite nth_upd_same by exact Hn. split.
      * intros Hnd. apply NoDup_app_intro; [exact Hnd|constructor; [intros []|constructor]|].
        intros x Hx [<-|[]]. contradiction.
      * intros a. rewrite in_app_iff. cbn [In]. intuition.
    + rewrite nth_upd_other by exact Hne. split; [auto|]. intros a. intuition.
Qed.

Lemma cnt_upd (st : list Z) k a v : (a < k)%nat -> (a < length st)%nat ->
  nsum (fun x => if nz (upd st a v) x =? 0 then 1 else 0) k =
  nsum (fun x => if nz st x =? 0 then 1 else 0) k + ((if v =? 0 then 1 else 0) - (if nz st a =? 0 then 1 else 0)).
Proof.
  intros Hk Ha. apply (nsum_one _ _ k a); [exact Hk| |].
  - intros i _ Hi. rewrite nz_upd_other by exact Hi. reflexivity.
  - rewrite nz_upd_same by exact Ha. lia.
Qed.

(* arcs in state k <> 0 sit at the bound bnd: kept when e enters state 0, l takes state z and the flow moves
   only on e and on arcs of state 0 *)
Lemma bound_kept (st st' fl fl0 : list Z) e l z k (bnd : nat -> Z) : k <> 0 ->
  (forall a, nz st' a = if Nat.eqb a l then z else if Nat.eqb a e then 0 else nz st a) ->
  (forall a, a <> e -> nz st a <> 0 -> nz fl a = nz fl0 a) ->
  (z = k -> nz fl l = bnd l) ->
  forall a, (nz st a = k -> nz fl0 a = bnd a) -> nz st' a = k -> nz fl a = bnd a.
Proof.
  intros Hk Hst Hsame Hl a Hold. rewrite Hst. destruct (Nat.eqb_spec a l) as [->|Hal]; [exact Hl|].
  destruct (Nat.eqb_spec a e) as [->|Hae]; [intros; lia|]. intros Hx.
  rewrite Hsame by (try exact Hae; lia). exact (Hold Hx).
Qed.

Section Step.
Variable C : consts.
Local Notation n := (c_n C).
Local Notation T := (c_m C + c_n C)%nat.
Local Notation src a := (nn (c_src C) a).
Local Notation tgt a := (nn (c_tgt C) a).
Local Notation cap a := (nz (c_cap C) a).
Local Notation cst a := (nz (c_cost C) a).
Hypothesis HC : ConstOK C.
Variable b : nat -> Z.

(* outcome 1 and 2: the entering arc changes its bound, the tree stays *)
Lemma inv_reflow_flip s e fl : NSInv C b s -> (e < T)%nat ->
  nz (state s) e = 1 \/ nz (state s) e = -1 ->
  length fl = T -> (forall a, (a < T)%nat -> 0 <= nz fl a <= cap a) ->
  (forall w, netx C fl w = netx C (flow s) w) ->
  (forall a, a <> e -> nz (state s) a <> 0 -> nz fl a = nz (flow s) a) ->
  (nz (state s) e = 1 -> nz fl e = cap e) -> (nz (state s) e = -1 -> nz fl e = 0) ->
  NSInv C b (flip (reflow s fl) e).
Proof.
  intros I He Hst Hl Hb Hnet Hsame Hup Hlo.
  destruct I as [_ Lst Lpar Lprd Ldep Lpi Ladj _ Hcons St3 Lo Up Cnt Pst Tr Pi Pi0 Adj].
  set (st' := upd (state s) e (- nz (state s) e)).
  assert (Hst' : forall a, nz st' a = if Nat.eqb a e then - nz (state s) e else nz (state s) a).
  { intros a. unfold st'. destruct (Nat.eqb_spec a e) as [->|Hne].
    - apply nz_upd_same. rewrite Lst. exact He.
    - apply nz_upd_other. exact Hne. }
  assert (Hz : forall a, nz st' a = 0 <-> nz (state s) a = 0).
  { intros a. rewrite Hst'. destruct (Nat.eqb_spec a e) as [->|Hne]; [lia|tauto]. }
  (* closed by assumption: the lengths of the five tables and the potentials (fields of s), length and bounds of fl
     (hypotheses) *)
  constructor; cbn [flip reflow flow parent pred depth tadj pi state]; fold st'; try assumption.
  - unfold st'. rewrite length_upd. exact Lst.
  - intros w. rewrite Hnet. apply Hcons.
  - intros a Ha. rewrite Hst'. destruct (Nat.eqb_spec a e) as [->|Hne]; [lia|apply (St3 a Ha)].
  - intros a Ha. rewrite Hst'. destruct (Nat.eqb_spec a e) as [->|Hne]; intros H1; [apply Hlo; lia|].
    rewrite Hsame by (try exact Hne; lia). apply (Lo a Ha H1).
  - intros a Ha. rewrite Hst'. destruct (Nat.eqb_spec a e) as [->|Hne]; intros H1; [apply Hup; lia|].
    rewrite Hsame by (try exact Hne; lia). apply (Up a Ha H1).
  - rewrite <- Cnt. unfold st'. rewrite cnt_upd by (rewrite ?Lst; assumption).
    clear - Hst. destruct Hst as [-> | ->]; apply Z.add_0_r.
  - intros v Hv. apply Hz. apply (Pst v Hv).
  - destruct Tr as [t1 t2 t3 t4 t5]. constructor; assumption.
  - intros w Hw. destruct (Adj w Hw) as [Hnd Hiff]. split; [exact Hnd|]. intros a. rewrite Hiff, Hz. clear. tauto.
Qed.

Lemma new_adj_spec s l e w : NSInv C b s -> (l < T)%nat -> (e < T)%nat -> (w <= n)%nat ->
  length (new_adj C s l e) = S n /\
  NoDup (nth w (new_adj C s l e) []) /\
  forall a, In a (nth w (new_adj C s l e) []) <->
            (In a (nth w (tadj s) []) /\ a <> l) \/ (a = e /\ (src e = w \/ tgt e = w)).
Proof.
  intros I Hl He Hw. destruct (HC l Hl) as (Hl1 & Hl2 & _). destruct (HC e He) as (He1 & He2 & _).
  pose proof (i_ladj C b s I) as Hlen. destruct (i_adj C b s I w Hw) as [Hnd Hiff].
  unfold new_adj.
  set (a1 := adj_discard (tadj s) (src l) l). set (a2 := adj_discard a1 (tgt l) l). set (a3 := adj_add a2 (src e) e).
  assert (L1 : length a1 = S n) by (unfold a1; rewrite adj_discard_len; exact Hlen).
  assert (L2 : length a2 = S n) by (unfold a2; rewrite adj_discard_len; exact L1).
  assert (L3 : length a3 = S n) by (unfold a3; rewrite adj_add_len; exact L2).
  destruct (adj_discard_spec (tadj s) (src l) l w ltac:(lia)) as [N1 S1]. fold a1 in N1, S1.
  destruct (adj_discard_spec a1 (tgt l) l w ltac:(lia)) as [N2 S2]. fold a2 in N2, S2.
  destruct (adj_add_spec a2 (src e) e w ltac:(lia)) as [N3 S3]. fold a3 in N3, S3.
  destruct (adj_add_spec a3 (tgt e) e w ltac:(lia)) as [N4 S4].
  split; [rewrite adj_add_len; exact L3|]. split; [auto|].
  intros a. rewrite S4, S3, S2, S1. split.
  - intros [[[[H1 H2] H3]|[-> ->]]|[-> ->]]; [left|right; auto|right; auto].
    split; [exact H1|]. intros ->. apply Hiff in H1. destruct H1 as (_ & _ & [E|E]); [apply H2|apply H3]; auto.
  - intros [[H1 H2]|[-> [E|E]]]; [left; left; split; [split; [exact H1|]|]; intros [_ E]; contradiction| |]; auto.
Qed.

(* outcome 3: the basis change.  The flow comes from the two pushes, the tables from the re-hang
   traversal (DeepNS2Tree.rehang_tree); what is left is the bookkeeping of the states: e enters state 0, l leaves it
   for the bound its flow has reached. *)
Lemma inv_basis_change s e l fl par' prd' dep' p' :
  let s' := {| flow := fl; parent := par'; pred := prd'; depth := dep'; tadj := new_adj C s l e; pi := p';
               state := upd (upd (state s) e 0) l (if nz fl l =? 0 then 1 else -1) |} in
  NSInv C b s -> (e < T)%nat -> (l < T)%nat -> l <> e ->
  nz (state s) e <> 0 -> nz (state s) l = 0 ->
  length fl = T -> (forall a, (a < T)%nat -> 0 <= nz fl a <= cap a) ->
  (forall w, netx C fl w = netx C (flow s) w) ->
  (forall a, a <> e -> nz (state s) a <> 0 -> nz fl a = nz (flow s) a) ->
  nz fl l = 0 \/ nz fl l = cap l ->
  length par' = S n -> length prd' = S n -> length dep' = S n -> length p' = S n ->
  TreeOK C s' ->
  (forall v, (v < n)%nat -> nn prd' v = e \/ (nz (state s) (nn prd' v) = 0 /\ nn prd' v <> l)) ->
  (forall v, (v < n)%nat ->
     nz p' v = (if Nat.eqb (src (nn prd' v)) v then nz p' (nn par' v) + cst (nn prd' v)
                else nz p' (nn par' v) - cst (nn prd' v))) ->
  nz p' n = 0 ->
  NSInv C b s'.
Proof.
  intros s' I He Hl El Hest0 Hl0 F1 F2 F3 F4 F6 L1 L2 L3 L4 HT' Hpst Hpi Hp0.
  pose proof (i_lstate C b s I) as Ls.
  set (z := if nz fl l =? 0 then 1 else -1).
  assert (Hst2 : forall a, nz (upd (upd (state s) e 0) l z) a = if Nat.eqb a l then z else if Nat.eqb a e then 0 else nz (state s) a).
  { intros a. destruct (Nat.eqb_spec a l) as [->|Hal].
    - apply nz_upd_same. rewrite length_upd, Ls. exact Hl.
    - rewrite nz_upd_other by exact Hal. destruct (Nat.eqb_spec a e) as [->|Hae].
      + apply nz_upd_same. rewrite Ls. exact He.
      + apply nz_upd_other. exact Hae. }
  assert (Hz : (z = 1 /\ nz fl l = 0) \/ (z = -1 /\ nz fl l = cap l)).
  { unfold z. clear - F6. destruct (Z.eqb_spec (nz fl l) 0); lia. }
  assert (Hz2 : forall a, nz (upd (upd (state s) e 0) l z) a = 0 <-> (nz (state s) a = 0 /\ a <> l) \/ a = e).
  { (* lia and tauto split every disjunction in sight: leave them only what this step needs *)
    intros a. rewrite Hst2. clear - Hz El. destruct (Nat.eqb_spec a l) as [->|Hal]; [lia|].
    destruct (Nat.eqb_spec a e) as [->|Hae]; tauto. }
  (* closed by assumption, all hypotheses: length and bounds of fl, the four table lengths, TreeOK, the potentials *)
  constructor; unfold s'; cbn [flow parent pred depth tadj pi state]; fold z; try assumption.
  - rewrite !length_upd. exact Ls.
  - apply (new_adj_spec s l e 0%nat I Hl He ltac:(lia)).
  - intros w. rewrite F3. apply (i_cons C b s I).
  - intros a Ha. rewrite Hst2. destruct (Nat.eqb_spec a l) as [->|Hal]; [lia|].
    destruct (Nat.eqb_spec a e) as [->|Hae]; [lia|]. apply (i_st3 C b s I a Ha).
  - intros a Ha. apply (bound_kept (state s) _ fl (flow s) e l z 1 (fun _ => 0)); [lia|exact Hst2|exact F4|lia|].
    apply (i_lower C b s I a Ha).
  - intros a Ha. apply (bound_kept (state s) _ fl (flow s) e l z (-1) (fun a => cap a)); [lia|exact Hst2|exact F4|lia|].
    apply (i_upper C b s I a Ha).
  - (* e enters state 0 (+1), l leaves it (-1) *)
    rewrite <- (i_cnt C b s I). rewrite 2 cnt_upd by (rewrite ?length_upd, ?Ls; assumption).
    rewrite (nz_upd_other _ l e) by exact El. rewrite Hl0.
    destruct (Z.eqb_spec (nz (state s) e) 0); [contradiction|]. destruct Hz as [[-> _]|[-> _]]; cbn; lia.
  - intros v Hv. apply Hz2. destruct (Hpst v Hv) as [Q|[Q1 Q2]]; [right; exact Q|left; split; assumption].
  - intros w Hw. destruct (new_adj_spec s l e w I Hl He Hw) as (_ & Hnd & Hiff). split; [exact Hnd|].
    intros a. rewrite Hiff, Hz2.
    destruct (i_adj C b s I w Hw) as [_ Hold]. rewrite Hold. split.
    + intros [[(Q1 & Q2 & Q3) Q4]|[-> Q]]; auto.
    + intros (Q1 & [[Q2 Q4]| ->] & Q3); auto.
Qed.

(* one pivot: the invariant, an entering arc that the pricing rule may return, the two tree paths to
   the join and the result of the ratio test over them *)
Section Pivot.
Variable s : st.
Hypothesis I : NSInv C b s.
Local Notation par v := (nn (parent s) v).
Local Notation prd v := (nn (pred s) v).
Let HT : TreeOK C s := i_tree C b s I.

Variable e : nat.
Hypothesis He : (e < T)%nat.
Hypothesis Hprice : price_ok C s e.
Let neg : bool := redcost C s e <? 0.
Let delta0 : Z := if neg then cap e - nz (flow s) e else nz (flow s) e.
Let first : nat := if neg then src e else tgt e.
Let second : nat := if neg then tgt e else src e.
Variables (p1 p2 : list nat) (join : nat).
Hypothesis Hc1 : chain C s first p1 join.
Hypothesis Hc2 : chain C s second p2 join.
Hypothesis Hdisj : forall x, In x p1 -> In x p2 -> False.
Variables (delta : Z) (l : nat) (lf : bool).
Hypothesis Hratio : fold_left (rstep C s false) p2 (fold_left (rstep C s true) p1 (delta0, e, true)) = (delta, l, lf).

Let fl0 : list Z := upd (flow s) e (if neg then nz (flow s) e + delta else nz (flow s) e - delta).
Let fl1 : list Z := fold_left (pstep C s true delta) p1 fl0.
Let fl2 : list Z := fold_left (pstep C s false delta) p2 fl1.

Lemma e_state : (nz (state s) e = 1 /\ neg = true) \/ (nz (state s) e = -1 /\ neg = false).
Proof.
  unfold neg. destruct Hprice as [[H1 H2]|[H1 H2]]; [left|right]; (split; [exact H1|]).
  - apply Z.ltb_lt. exact H2.
  - apply Z.ltb_ge. lia.
Qed.

Lemma delta0_val : delta0 = cap e /\ 0 <= delta0.
Proof.
  unfold delta0. pose proof (i_bounds C b s I e He) as Hb.
  destruct e_state as [[H1 H2]|[H1 H2]]; rewrite H2.
  - rewrite (i_lower C b s I e He H1). lia.
  - rewrite (i_upper C b s I e He H1). lia.
Qed.

Lemma e_not_pred x : (x < n)%nat -> prd x <> e.
Proof.
  intros Hx E. pose proof (i_predst C b s I x Hx) as H0. rewrite E in H0.
  destruct e_state as [[H1 _]|[H1 _]]; lia.
Qed.

Lemma res1_nonneg bb x : (x < n)%nat -> 0 <= res1 C s bb x.
Proof.
  intros Hx. destruct (t_pred C s HT x Hx) as [Ha _]. pose proof (i_bounds C b s I _ Ha) as Hb.
  unfold res1, residual. destruct (Nat.eqb (src (prd x)) (if bb then x else par x)); lia.
Qed.

Let pp (bb : bool) : list nat := if bb then p1 else p2.

Lemma pp_lt bb x : In x (pp bb) -> (x < n)%nat.
Proof. intros Hx. destruct bb; [apply (chain_in C s HT _ _ _ Hc1 x Hx)|apply (chain_in C s HT _ _ _ Hc2 x Hx)]. Qed.

Lemma ratio_facts :
  0 <= delta <= delta0 /\
  (forall bb x, In x (pp bb) -> delta <= res1 C s bb x) /\
  ((l = e /\ delta = delta0) \/ exists x, In x (pp lf) /\ l = prd x /\ delta = res1 C s lf x).
Proof.
  destruct (rfold_spec C s true p1 (delta0, e, true)) as (A1 & A2 & A3).
  destruct (rfold_spec C s false p2 (fold_left (rstep C s true) p1 (delta0, e, true))) as (B1 & B2 & B3).
  rewrite Hratio in B1, B2, B3. cbn [fst] in A1, B1, B2.
  destruct delta0_val as [_ Hd0].
  assert (Hcase : (l = e /\ delta = delta0) \/ exists x, In x (pp lf) /\ l = prd x /\ delta = res1 C s lf x).
  { destruct B3 as [B3|(x & Hx & B3)].
    - destruct A3 as [A3|(x & Hx & A3)]; rewrite A3 in B3; inversion B3; subst.
      + left. split; reflexivity.
      + right. exists x. auto.
    - inversion B3; subst. right. exists x. auto. }
  split; [|split; [|exact Hcase]].
  - split; [|lia]. destruct Hcase as [[_ ->]|(x & Hx & _ & ->)]; [exact Hd0|apply res1_nonneg; apply (pp_lt lf); exact Hx].
  - intros [|] x Hx; [specialize (A2 x Hx); lia|exact (B2 x Hx)].
Qed.

Lemma fl0_len : length fl0 = T.
Proof. unfold fl0. rewrite length_upd. apply (i_lflow C b s I). Qed.
Lemma fl1_len : length fl1 = T.
Proof. unfold fl1. rewrite pfold_len. apply fl0_len. Qed.
Lemma fl2_len : length fl2 = T.
Proof. unfold fl2. rewrite pfold_len. apply fl1_len. Qed.

Lemma fl2_e : nz fl2 e = if neg then nz (flow s) e + delta else nz (flow s) e - delta.
Proof.
  unfold fl2, fl1. rewrite !pfold_other.
  - unfold fl0. apply nz_upd_same. rewrite (i_lflow C b s I). exact He.
  - intros x Hx. apply e_not_pred. apply (pp_lt true). exact Hx.
  - intros x Hx. apply e_not_pred. apply (pp_lt false). exact Hx.
Qed.

Lemma fl2_other a : a <> e -> (forall bb x, In x (pp bb) -> prd x <> a) -> nz fl2 a = nz (flow s) a.
Proof.
  intros Hae H. unfold fl2, fl1. rewrite (pfold_other C s false) by exact (H false).
  rewrite (pfold_other C s true) by exact (H true). unfold fl0. apply nz_upd_other. exact Hae.
Qed.

(* a path arc moves by delta, in the direction whose residual the ratio test has read *)
Lemma fl2_path bb x : In x (pp bb) ->
  (nz fl2 (prd x) = nz (flow s) (prd x) - delta /\ res1 C s bb x = nz (flow s) (prd x)) \/
  (nz fl2 (prd x) = nz (flow s) (prd x) + delta /\ res1 C s bb x = cap (prd x) - nz (flow s) (prd x)).
Proof.
  intros Hx. pose proof (pp_lt bb x Hx) as Hxn. destruct (t_pred C s HT x Hxn) as [Ha _].
  assert (E0 : nz fl0 (prd x) = nz (flow s) (prd x)) by (unfold fl0; apply nz_upd_other; apply e_not_pred; exact Hxn).
  assert (Hoff : forall bb' y, In y (pp bb') -> ~ In x (pp bb') -> prd y <> prd x).
  { intros bb' y Hy Hn E. apply Hn. rewrite <- (pred_inj C s HT y x (pp_lt bb' y Hy) Hxn E). exact Hy. }
  destruct bb.
  - assert (E2 : nz fl2 (prd x) = nz fl1 (prd x)).
    { unfold fl2. apply pfold_other. intros y Hy. exact (Hoff false y Hy (Hdisj x Hx)). }
    assert (E1 : nz fl1 (prd x) = pval C s true delta fl0 x).
    { unfold fl1. apply (pfold_at C s HT); [apply (chain_nodup C s HT _ _ _ Hc1)|exact (pp_lt true)|exact Hx|rewrite fl0_len; exact Ha]. }
    rewrite E2, E1. exact (pval_res C s HT true delta fl0 x Hxn E0).
  - assert (E2 : nz fl2 (prd x) = pval C s false delta fl1 x).
    { unfold fl2. apply (pfold_at C s HT); [apply (chain_nodup C s HT _ _ _ Hc2)|exact (pp_lt false)|exact Hx|rewrite fl1_len; exact Ha]. }
    assert (E1 : nz fl1 (prd x) = nz (flow s) (prd x)).
    { unfold fl1. rewrite pfold_other; [exact E0|]. intros y Hy. exact (Hoff true y Hy (fun H => Hdisj x H Hx)). }
    rewrite E2. exact (pval_res C s HT false delta fl1 x Hxn E1).
Qed.

Lemma arc_cases a : a = e \/ (exists bb x, In x (pp bb) /\ a = prd x) \/
  (a <> e /\ forall bb x, In x (pp bb) -> prd x <> a).
Proof.
  destruct (Nat.eq_dec a e) as [->|Hae]; [left; reflexivity|right].
  destruct (in_dec Nat.eq_dec a (map (fun x => prd x) (p1 ++ p2))) as [H|H].
  - left. apply in_map_iff in H. destruct H as (x & E & Hx). apply in_app_or in Hx.
    destruct Hx as [Hx|Hx]; [exists true, x|exists false, x]; auto.
  - right. split; [exact Hae|]. intros bb x Hx E. apply H. apply in_map_iff. exists x. split; [exact E|].
    apply in_or_app. destruct bb; auto.
Qed.

Lemma fl2_bounds a : (a < T)%nat -> 0 <= nz fl2 a <= cap a.
Proof.
  intros Ha. destruct ratio_facts as ([R0 R0'] & R1 & _). destruct delta0_val as [Hd0 _].
  pose proof (i_bounds C b s I a Ha) as Hb.
  destruct (arc_cases a) as [->|[(bb & x & Hx & ->)|(A1 & A2)]].
  - rewrite fl2_e. destruct e_state as [[H1 H2]|[H1 H2]]; rewrite H2.
    + rewrite (i_lower C b s I e He H1). lia.
    + rewrite (i_upper C b s I e He H1). lia.
  - specialize (R1 bb x Hx). destruct (fl2_path bb x Hx) as [[E1 E2]|[E1 E2]]; lia.
  - rewrite fl2_other by assumption. exact Hb.
Qed.

Lemma fl2_netx w : netx C fl2 w = netx C (flow s) w.
Proof.
  unfold fl2, fl1. rewrite (pfold_netx C s HT false delta _ _ _ Hc2) by exact fl1_len.
  rewrite (pfold_netx C s HT true delta _ _ _ Hc1) by exact fl0_len.
  assert (E0 : netx C fl0 w = netx C (flow s) w + coef C w e * (if neg then delta else - delta)).
  { unfold fl0. replace (if neg then nz (flow s) e + delta else nz (flow s) e - delta)
      with (nz (flow s) e + (if neg then delta else - delta)) by (destruct neg; lia).
    apply netx_upd; [exact He|rewrite (i_lflow C b s I); exact He]. }
  rewrite E0. unfold coef, first, second. destruct neg;
    destruct (Nat.eqb (src e) w); destruct (Nat.eqb (tgt e) w); destruct (Nat.eqb join w); lia.
Qed.

Lemma fl2_nonbasic a : a <> e -> nz (state s) a <> 0 -> nz fl2 a = nz (flow s) a.
Proof.
  intros Hae Hst. apply fl2_other; [exact Hae|]. intros bb x Hx E. apply Hst. rewrite <- E.
  apply (i_predst C b s I). apply (pp_lt bb). exact Hx.
Qed.

Lemma fl2_e_full : delta = delta0 ->
  (nz (state s) e = 1 /\ nz fl2 e = cap e) \/ (nz (state s) e = -1 /\ nz fl2 e = 0).
Proof.
  intros Hd. rewrite fl2_e, Hd. unfold delta0. destruct e_state as [[H1 H2]|[H1 H2]]; rewrite H2; [left|right]; (split; [exact H1|lia]).
Qed.

Lemma fl2_leaving bb x : In x (pp bb) -> delta = res1 C s bb x -> nz fl2 (prd x) = 0 \/ nz fl2 (prd x) = cap (prd x).
Proof. intros Hx Hd. destruct (fl2_path bb x Hx) as [[E1 E2]|[E1 E2]]; [left|right]; lia. Qed.

Lemma e_nonbasic : nz (state s) e = 1 \/ nz (state s) e = -1.
Proof. destruct e_state as [[H _]|[H _]]; auto. Qed.

Lemma leaving_e : l = e -> delta = delta0.
Proof.
  intros E. destruct ratio_facts as (_ & _ & [[_ H]|(x & Hx & E' & _)]); [exact H|]. exfalso.
  apply (e_not_pred x (pp_lt lf x Hx)). congruence.
Qed.

(* outcome 1, degenerate: nothing can be pushed (so cap e = 0), only the state of e flips *)
Lemma pivot_degenerate : delta = 0 -> l = e -> NSInv C b (flip s e).
Proof.
  intros Ed El. pose proof (leaving_e El) as Hd. destruct delta0_val as [Hcap _].
  apply (inv_reflow_flip s e (flow s) I He e_nonbasic (i_lflow C b s I) (i_bounds C b s I)); try reflexivity.
  - intros Hx. pose proof (i_lower C b s I e He Hx). lia.
  - intros Hx. pose proof (i_upper C b s I e He Hx). lia.
Qed.

Lemma pivot_flip : l = e -> NSInv C b (flip (reflow s fl2) e).
Proof.
  intros El. pose proof (fl2_e_full (leaving_e El)) as F5.
  apply (inv_reflow_flip s e fl2 I He e_nonbasic fl2_len fl2_bounds fl2_netx fl2_nonbasic).
  - intros Hx. destruct F5 as [[_ F5]|[F5 _]]; [exact F5|lia].
  - intros Hx. destruct F5 as [[F5 _]|[_ F5]]; [lia|exact F5].
Qed.

(* outcome 3: the leaving arc is pred[x] for a node x on the path of the side lf; the subtree below x is re-hung *)
Lemma pivot_change s' : l <> e -> pivot_tree C s e l lf first second fl2 = Next s' -> NSInv C b s'.
Proof.
  intros El H.
  destruct ratio_facts as (_ & _ & [[E _]|(x & Hxin & Hlx & Hxres)]); [contradiction|].
  pose proof (fl2_leaving lf x Hxin Hxres) as F6. rewrite <- Hlx in F6.
  destruct (HC e He) as (He1 & He2 & _).
  assert (Hf : (first <= n)%nat) by (unfold first; destruct neg; assumption).
  assert (Hs : (second <= n)%nat) by (unfold second; destruct neg; assumption).
  unfold pivot_tree in H. cbv zeta in H.
  set (q := if lf then first else second) in *. set (pn := if lf then second else first) in *.
  destruct (rehang C _ (new_adj C s l e) [q] _) as [[[[par' prd'] dep'] p']|] eqn:Erh; [|discriminate].
  inversion H; subst s'; clear H.
  assert (Hxq : exists pq po, chain C s q pq join /\ chain C s pn po join /\ In x pq /\ (forall y, In y pq -> In y po -> False)).
  { unfold q, pn. destruct lf; [exists p1, p2|exists p2, p1]; repeat split; try assumption.
    intros y Hy1 Hy2. exact (Hdisj y Hy2 Hy1). }
  destruct Hxq as (pq & po & Hcq & Hcp & Hxpq & Hdq).
  destruct (chain_in C s HT _ _ _ Hcq x Hxpq) as (Hxn & Hxd & _).
  destruct (chain_split C s _ _ _ Hcq x Hxpq) as (A & rest & _ & HcA & _).
  (* the other end of e is not below x: its path to the join avoids x *)
  assert (HpS : ~ Sset C s x pn).
  { intros [B HB]. destruct (chain_det C s _ _ _ HB _ _ Hcp) as [Hin|[Hin|Hin]].
    - exact (Hdq x Hxpq Hin).
    - rewrite Hin in Hxpq. exact (chain_notin C s HT _ _ _ Hcq Hxpq).
    - destruct (chain_in C s HT _ _ _ HB join Hin) as (_ & Hlt & _). lia. }
  assert (Hje : joins C e q pn) by (unfold joins, q, pn, first, second; destruct lf; destruct neg; auto).
  assert (Hpn : (pn <= n)%nat) by (unfold pn; destruct lf; assumption).
  assert (Hl : (l < T)%nat) by (rewrite Hlx; apply (t_pred C s HT x Hxn)).
  assert (Hest0 : nz (state s) e <> 0) by (destruct e_nonbasic; lia).
  assert (Hadj4 : forall w, (w <= n)%nat -> NoDup (nth w (new_adj C s l e) []) /\
         forall a, In a (nth w (new_adj C s l e) []) <->
            (In a (nth w (tadj s) []) /\ a <> prd x) \/ (a = e /\ (src e = w \/ tgt e = w))).
  { intros w Hw. rewrite <- Hlx. apply (new_adj_spec s l e w I Hl He Hw). }
  destruct (rehang_tree C b s I e x q pn A He Hest0 Hxn Hpn Hje HcA HpS (new_adj C s l e) Hadj4 _ _ _ _ _
              fl2 (new_adj C s l e) (upd (upd (state s) e 0) l (if nz fl2 l =? 0 then 1 else -1)) Erh)
    as (L1 & L2 & L3 & L4 & HT' & Hpst & Hpi & Hp0).
  rewrite <- Hlx in Hpst.
  assert (Hl0 : nz (state s) l = 0) by (rewrite Hlx; apply (i_predst C b s I x Hxn)).
  apply inv_basis_change; try assumption; [exact fl2_len|exact fl2_bounds|exact fl2_netx|exact fl2_nonbasic].
Qed.

Lemma pivot_inv s' : pivot C s e neg first second join delta l lf = Next s' -> NSInv C b s'.
Proof.
  unfold pivot. intros H.
  destruct ((delta =? 0) && Nat.eqb l e)%bool eqn:Edeg.
  { apply andb_prop in Edeg. destruct Edeg as [Ed El]. apply Z.eqb_eq in Ed. apply Nat.eqb_eq in El.
    inversion H; subst s'. exact (pivot_degenerate Ed El). }
  destruct (push C _ s true first join delta _) as [g1|] eqn:Ep1; [|discriminate].
  destruct (push C _ s false second join delta g1) as [g2|] eqn:Ep2; [|discriminate].
  apply (push_chain C s HT _ _ _ _ _ _ _ _ Hc1) in Ep1. apply (push_chain C s HT _ _ _ _ _ _ _ _ Hc2) in Ep2.
  subst g1 g2. destruct (Nat.eqb_spec l e) as [El|El].
  - inversion H; subst s'. exact (pivot_flip El).
  - exact (pivot_change s' El H).
Qed.

End Pivot.

Theorem ns_step_inv s s' : NSInv C b s -> step C s = Next s' -> NSInv C b s'.
Proof.
  intros I H. rewrite step_eq in H. unfold step2 in H.
  destruct (pricing C s) as [e|] eqn:Ep; [|discriminate].
  destruct (pricing_some C s e Ep) as [He Hprice].
  pose proof (i_tree C b s I) as HT. cbv zeta in H.
  destruct (HC e He) as (He1 & He2 & _).
  set (neg := redcost C s e <? 0) in *.
  assert (Hf : ((if neg then src e else tgt e) <= n)%nat) by (destruct neg; assumption).
  assert (Hs : ((if neg then tgt e else src e) <= n)%nat) by (destruct neg; assumption).
  destruct (find_join _ s _ _) as [join|] eqn:Ej; [|discriminate].
  destruct (find_join_spec C s HT _ _ _ _ Hf Hs Ej) as (p1 & p2 & Hc1 & Hc2 & Hdisj).
  destruct (ratio C _ s true _ join _) as [acc1|] eqn:Er1; [|discriminate].
  destruct (ratio C _ s false _ join acc1) as [[[delta l] lf]|] eqn:Er2; [|discriminate].
  apply (ratio_chain C s HT _ _ _ _ _ _ _ Hc1) in Er1. apply (ratio_chain C s HT _ _ _ _ _ _ _ Hc2) in Er2.
  rewrite Er1 in Er2. symmetry in Er2.
  exact (pivot_inv s I e He Hprice p1 p2 join Hc1 Hc2 Hdisj delta l lf Er2 s' H).
Qed.

Theorem ns_loop_inv fuel mi s it stt s' it' : NSInv C b s ->
  loop C fuel mi s it = Some (stt, s', it') -> NSInv C b s'.
Proof. intros I H. exact (proj1 (loop_run C (NSInv C b) ns_step_inv _ _ _ _ _ _ _ I H)). Qed.

End Step.
