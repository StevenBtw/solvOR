(* C09 - network_simplex: status INFEASIBLE is sound.
   When the loop stops with no entering arc while an artificial arc still carries flow, the final potentials split
   the nodes into P = {pi > 0} and N = {pi < 0}: every node's potential is +-M up to (depth-1) * sum|cost|, depth <= n,
   and M = n * sum|cost| + 1 (this is exactly what the code's big-M is good for).  Original arcs P -> N then have negative
   reduced cost, hence are saturated; arcs N -> P have positive reduced cost, hence are empty; artificial arcs carry flow
   only out of P / into N.  Summing the conservation equations over P (or N) shows that P must ship out more than the
   capacity of the cut (N must take in more than can enter): McfSpec.cut_check accepts the cut, no feasible flow exists. *)
From Coq Require Import List ZArith Bool Lia.
From SV Require Import C09.Mcf C09.McfSpec C09.McfCert C09.NetSimplex C09.DeepNS.
From SV Require Import C09.DeepNS2Base C09.DeepNS2Exit.
Import ListNotations.
Open Scope Z_scope.
Import Mcf McfSpec NetSimplex.

Lemma fold_add_shift : forall l a, fold_left Z.add l a = a + fold_left Z.add l 0.
Proof.
  induction l as [|x l IH]; intros a; cbn [fold_left]; [lia|]. rewrite (IH (a + x)), (IH (0 + x)). lia.
Qed.

Lemma zsum_cons x l : zsum (x :: l) = x + zsum l.
Proof. unfold zsum. cbn [fold_left]. rewrite fold_add_shift. lia. Qed.

Lemma zsum_nsum : forall l, zsum l = nsum (fun i => nth i l 0) (length l).
Proof.
  induction l as [|x l IH]; [reflexivity|]. rewrite zsum_cons. cbn [length]. rewrite nsum_shift. cbn [nth]. rewrite IH. reflexivity.
Qed.

Lemma sum_b_nsum b S : forall k, sum_b b S k = nsum (fun w => (if inS S w then 1 else 0) * b w) k.
Proof. induction k as [|k IH]; [reflexivity|]. cbn [sum_b nsum]. rewrite IH. destruct (inS S k); lia. Qed.

Lemma cut_cap_nsum S : forall arcs, cut_cap S arcs =
  nsum (fun k => if (inS S (a_u (nth k arcs arc0)) && negb (inS S (a_v (nth k arcs arc0))))%bool
                 then a_cap (nth k arcs arc0) else 0) (length arcs).
Proof.
  induction arcs as [|a arcs IH]; [reflexivity|]. cbn [cut_cap length]. rewrite nsum_shift. cbn [nth]. rewrite IH. reflexivity.
Qed.

Lemma cut_in_nsum S : forall arcs, cut_in S arcs =
  nsum (fun k => if (negb (inS S (a_u (nth k arcs arc0))) && inS S (a_v (nth k arcs arc0)))%bool
                 then a_cap (nth k arcs arc0) else 0) (length arcs).
Proof.
  induction arcs as [|a arcs IH]; [reflexivity|]. cbn [cut_in length]. rewrite nsum_shift. cbn [nth]. rewrite IH. reflexivity.
Qed.

(* conservation summed over a node set *)
Section Exchange.
Variable C : consts.
Local Notation n := (c_n C).
Local Notation src a := (nn (c_src C) a).
Local Notation tgt a := (nn (c_tgt C) a).
Variable ind : nat -> Z.
Hypothesis Hind : ind n = 0.

Lemma ind_coef a : (src a <= n)%nat -> (tgt a <= n)%nat ->
  nsum (fun w => ind w * coef C w a) n = ind (src a) - ind (tgt a).
Proof.
  intros H1 H2. unfold coef.
  rewrite (nsum_ext _ (fun w => ind w * (if Nat.eqb (src a) w then 1 else 0) + - ind w * (if Nat.eqb (tgt a) w then 1 else 0)))
    by (intros; lia).
  rewrite nsum_add, (nsum_delta ind), (nsum_delta (fun w => - ind w)).
  destruct (Nat.ltb_spec (src a) n) as [L1|L1]; destruct (Nat.ltb_spec (tgt a) n) as [L2|L2];
    try (replace (src a) with n by lia); try (replace (tgt a) with n by lia); rewrite ?Hind; lia.
Qed.

Lemma exchange fl : forall k, (forall a, (a < k)%nat -> (src a <= n)%nat /\ (tgt a <= n)%nat) ->
  nsum (fun w => ind w * nsum (fun a => coef C w a * nz fl a) k) n =
  nsum (fun a => (ind (src a) - ind (tgt a)) * nz fl a) k.
Proof.
  induction k as [|k IH]; intros H; cbn [nsum].
  - apply nsum_zero. intros; lia.
  - rewrite <- IH by (intros a Ha; apply H; lia). destruct (H k ltac:(lia)) as [H1 H2].
    rewrite <- (ind_coef k H1 H2), <- nsum_scal, <- nsum_add. apply nsum_ext. intros w _. lia.
Qed.

End Exchange.

Section Depth.
Variable C : consts.
Local Notation n := (c_n C).
Variable s : st.
Hypothesis HT : TreeOK C s.

Lemma chain_to_root : forall k v, (v <= n)%nat -> nz (depth s) v < Z.of_nat k ->
  exists p, chain C s v p n /\ Z.of_nat (length p) = nz (depth s) v.
Proof.
  induction k as [|k IH]; intros v Hv Hk; [pose proof (t_depnn C s HT v Hv); lia|].
  destruct (Nat.eq_dec v n) as [->|Hne].
  - exists []. split; [constructor|]. rewrite (t_dep0 C s HT). reflexivity.
  - assert (Hv' : (v < n)%nat) by lia. pose proof (t_dep C s HT v Hv') as Hd.
    destruct (IH _ (t_par C s HT v Hv') ltac:(lia)) as (p & Hp & Hl).
    exists (v :: p). split; [constructor; assumption|]. cbn [length]. lia.
Qed.

Lemma depth_le_n v : (v <= n)%nat -> nz (depth s) v <= Z.of_nat n.
Proof.
  intros Hv. pose proof (t_depnn C s HT v Hv) as H0.
  destruct (chain_to_root (S (Z.to_nat (nz (depth s) v))) v Hv ltac:(lia)) as (p & Hp & Hl).
  assert (Hlen : (length p <= length (seq 0 n))%nat).
  { apply NoDup_incl_length; [apply (chain_nodup C s HT _ _ _ Hp)|].
    intros x Hx. apply in_seq. destruct (chain_in C s HT _ _ _ Hp x Hx) as (H & _). lia. }
  rewrite seq_length in Hlen. lia.
Qed.

End Depth.

Lemma loop_status C fuel mi s it stt s' it' :
  loop C fuel mi s it = Some (stt, s', it') -> stt = OPTIMAL \/ stt = MAX_ITER.
Proof.
  intros H. destruct (loop_run C (fun _ => True) (fun _ _ _ _ => I) _ _ _ _ _ _ _ I H) as [_ [[E _]|E]]; auto.
Qed.

(* the final state with artificial flow left *)
Section Infeas.
Variables (n : nat) (arcs : list arc) (sup : list Z).
Local Notation C := (mk_consts n arcs sup).
Local Notation m := (length arcs).
Local Notation s0 := (init_st n arcs sup).
Local Notation src a := (nn (c_src C) a).
Local Notation tgt a := (nn (c_tgt C) a).
Local Notation cap a := (nz (c_cap C) a).
Local Notation cst a := (nz (c_cost C) a).
Hypothesis Hv : valid_arcs n arcs = true.
Variable s : st.
Hypothesis I : NSInv C (netx C (flow s0)) s.
Hypothesis Hopt : pricing C s = None.
Local Notation ppi v := (nz (pi s) v).
Local Notation dep v := (nz (depth s) v).
Let HT : TreeOK C s := i_tree C _ s I.
Let Cs : Z := zsum (map (fun a => Z.abs (a_c a)) arcs).
Let M : Z := big_m n arcs.

Lemma Cs_eq : Cs = nsum (fun a => Z.abs (cst a)) m.
Proof.
  unfold Cs. rewrite zsum_nsum, map_length. apply nsum_ext. intros a Ha. rewrite cst_orig by exact Ha.
  exact (map_nth (fun a => Z.abs (a_c a)) arcs arc0 a).
Qed.

Lemma Cs_nonneg : 0 <= Cs.
Proof. rewrite Cs_eq. apply nsum_nonneg. intros; lia. Qed.

Lemma M_eq : M = Cs * Z.of_nat n + 1.
Proof. reflexivity. Qed.

Lemma cost_le a : (a < m)%nat -> Z.abs (cst a) <= Cs.
Proof. intros Ha. rewrite Cs_eq. apply (nsum_le_term (fun a => Z.abs (cst a))); [intros; lia|exact Ha]. Qed.

Lemma T_eq : (c_m C + c_n C)%nat = (m + n)%nat.
Proof. reflexivity. Qed.

Lemma pi_root : ppi n = 0.
Proof. exact (i_pi0 C _ s I). Qed.

Lemma dep_root : dep n = 0.
Proof. exact (t_dep0 C s HT). Qed.

(* potentials: +-M up to (depth - 1) * Cs *)
Lemma pi_bound : forall k v, (v < n)%nat -> dep v <= Z.of_nat k ->
  (M - (dep v - 1) * Cs <= ppi v <= M + (dep v - 1) * Cs) \/
  (- M - (dep v - 1) * Cs <= ppi v <= - M + (dep v - 1) * Cs).
Proof.
  induction k as [|k IH]; intros v Hvn Hk; [pose proof (dep_pos C s HT v Hvn); lia|].
  destruct (t_pred C s HT v Hvn) as [Ha J]. rewrite T_eq in Ha.
  pose proof (t_dep C s HT v Hvn) as Hd. pose proof (i_pi C _ s I v Hvn) as Hp.
  set (a := nn (pred s) v) in *. set (u := nn (parent s) v) in *.
  destruct (arc_kind n arcs a Ha) as [Hlt|(i & Hi & Ea)].
  - (* an original arc: the parent is not the root *)
    destruct (valid_nth n arcs a Hv Hlt) as (V1 & V2 & _). rewrite <- (src_orig n arcs sup a Hlt) in V1. rewrite <- (tgt_orig n arcs sup a Hlt) in V2.
    assert (Hun : (u < n)%nat) by (destruct J as [[J1 J2]|[J1 J2]]; lia).
    pose proof (cost_le a Hlt) as Hc.
    specialize (IH u Hun ltac:(lia)).
    replace ((dep v - 1) * Cs) with ((dep u - 1) * Cs + Cs) by (rewrite Hd; ring).
    destruct (Nat.eqb (src a) v); lia.
  - (* an artificial arc: v hangs below the root *)
    rewrite Ea in J, Hp. rewrite src_art in Hp by exact Hi. rewrite cst_art in Hp by exact Hi. fold M in Hp.
    unfold joins in J. rewrite src_art, tgt_art in J by exact Hi.
    assert (Eu : u = n /\ i = v) by (destruct (0 <=? nz sup i); destruct J as [[J1 J2]|[J1 J2]]; lia).
    destruct Eu as [Eu Ei]. rewrite Eu in Hp, Hd. rewrite pi_root in Hp. rewrite dep_root in Hd.
    rewrite Hd. rewrite Ei in Hp. destruct (0 <=? nz sup v).
    + rewrite Nat.eqb_refl in Hp. left. lia.
    + destruct (Nat.eqb_spec n v); [lia|]. right. lia.
Qed.

Lemma pi_far v : (v < n)%nat -> Cs + 1 <= ppi v \/ ppi v <= - (Cs + 1).
Proof.
  intros Hvn. pose proof Cs_nonneg as H0. pose proof (depth_le_n C s HT v ltac:(rewrite cn_eq; lia)) as Hdn. rewrite cn_eq in Hdn.
  pose proof (dep_pos C s HT v Hvn) as Hd1.
  assert (Hmul : (dep v - 1) * Cs <= (Z.of_nat n - 1) * Cs) by (apply Z.mul_le_mono_nonneg_r; lia).
  pose proof M_eq as HM.
  destruct (pi_bound (Z.to_nat (dep v)) v Hvn ltac:(lia)) as [H|H]; [left|right]; nia.
Qed.

Lemma signs a : (a < m + n)%nat ->
  (nz (state s) a = 1 -> 0 <= redcost C s a) /\ (nz (state s) a = -1 -> redcost C s a <= 0).
Proof. intros Ha. exact (pricing_none C s Hopt a Ha). Qed.

Lemma rc_sign a : (a < m + n)%nat ->
  (0 < redcost C s a -> nz (flow s) a = 0) /\ (redcost C s a < 0 -> nz (flow s) a = cap a).
Proof.
  intros Ha. destruct (signs a Ha) as [S1 S2]. destruct (i_st3 C _ s I a Ha) as [E|[E|E]].
  - specialize (S1 E). split; [intros _; apply (i_lower C _ s I a Ha E)|lia].
  - pose proof (inv_tree_rc C _ s I a Ha E). lia.
  - specialize (S2 E). split; [lia|intros _; apply (i_upper C _ s I a Ha E)].
Qed.

Definition cutP : list bool := map (fun w => 0 <? ppi w) (seq 0 n).
Definition cutN : list bool := map (fun w => ppi w <? 0) (seq 0 n).

(* One argument serves both cuts: sg = true stands for P = {pi > 0}, sg = false for N = {pi < 0}, and sgn sg * pi is
   the potential counted positive inside the set.  A node inside is at least sum|cost| + 1 above 0 in that count, a
   node outside as far below, so an arc leaving the set in the direction of the count has negative reduced cost and
   one entering it positive reduced cost, whichever set it is. *)
Definition sgn (sg : bool) : Z := if sg then 1 else -1.
Definition side (sg : bool) : list bool := map (fun w => if sg then 0 <? ppi w else ppi w <? 0) (seq 0 n).

Lemma inS_side sg w : inS (side sg) w = if Nat.ltb w n then (if sg then 0 <? ppi w else ppi w <? 0) else false.
Proof.
  unfold inS, side. destruct (Nat.ltb_spec w n) as [H|H].
  - apply (nth_map_seq (fun w => if sg then 0 <? ppi w else ppi w <? 0)). exact H.
  - apply nth_overflow. rewrite map_length, seq_length. exact H.
Qed.

Lemma inS_cutP w : inS cutP w = if Nat.ltb w n then 0 <? ppi w else false.
Proof. exact (inS_side true w). Qed.

Lemma inS_cutN w : inS cutN w = if Nat.ltb w n then ppi w <? 0 else false.
Proof. exact (inS_side false w). Qed.

Lemma side_root sg : inS (side sg) n = false.
Proof. rewrite inS_side, Nat.ltb_irrefl. reflexivity. Qed.

Lemma side_dec sg v : (v < n)%nat ->
  (inS (side sg) v = true /\ Cs + 1 <= sgn sg * ppi v) \/ (inS (side sg) v = false /\ sgn sg * ppi v <= - (Cs + 1)).
Proof.
  intros Hvn. pose proof Cs_nonneg. rewrite inS_side. destruct (Nat.ltb_spec v n); [|lia]. unfold sgn.
  destruct (pi_far v Hvn); destruct sg; [left|right|right|left]; (split; [apply Z.ltb_lt || apply Z.ltb_ge|]; lia).
Qed.

(* what an original arc contributes to the conservation sum over the set: its capacity if it is counted by the cut *)
Lemma orig_term sg a : (a < m)%nat ->
  ((if inS (side sg) (src a) then 1 else 0) - (if inS (side sg) (tgt a) then 1 else 0)) * nz (flow s) a * sgn sg =
  if (if sg then inS (side sg) (src a) && negb (inS (side sg) (tgt a))
      else negb (inS (side sg) (src a)) && inS (side sg) (tgt a))%bool then cap a else 0.
Proof.
  intros Ha. destruct (valid_nth n arcs a Hv Ha) as (V1 & V2 & _).
  rewrite <- (src_orig n arcs sup a Ha) in V1. rewrite <- (tgt_orig n arcs sup a Ha) in V2.
  pose proof (cost_le a Ha) as Hc. pose proof Cs_nonneg. destruct (rc_sign a ltac:(lia)) as [R1 R2]. unfold redcost in R1, R2.
  destruct (side_dec sg _ V1) as [[-> P1]|[-> P1]]; destruct (side_dec sg _ V2) as [[-> P2]|[-> P2]];
    unfold sgn in *; destruct sg; cbn [andb negb]; lia.
Qed.

(* an artificial arc never contributes negatively, and the one of a node inside the set contributes its flow *)
Lemma art_term sg i : (i < n)%nat ->
  0 <= ((if inS (side sg) (src (m + i)) then 1 else 0) - (if inS (side sg) (tgt (m + i)) then 1 else 0)) *
       nz (flow s) (m + i) * sgn sg /\
  (inS (side sg) i = true ->
   ((if inS (side sg) (src (m + i)) then 1 else 0) - (if inS (side sg) (tgt (m + i)) then 1 else 0)) *
   nz (flow s) (m + i) * sgn sg = nz (flow s) (m + i)).
Proof.
  intros Hi. pose proof (i_bounds C _ s I (m + i)%nat ltac:(rewrite T_eq; lia)) as [Hf _]. pose proof Cs_nonneg.
  assert (HM : 0 < M) by (rewrite M_eq; nia).
  destruct (rc_sign (m + i)%nat ltac:(lia)) as [R _]. unfold redcost in R.
  rewrite src_art, tgt_art, cst_art in R by exact Hi. fold M in R. rewrite src_art, tgt_art by exact Hi. revert R.
  destruct (0 <=? nz sup i); intros R; rewrite pi_root in R; rewrite (side_root sg);
    destruct (side_dec sg i Hi) as [[-> P]|[-> P]]; unfold sgn in *; destruct sg; (split; [|intros E; try discriminate E]); lia.
Qed.

(* conservation summed over the node set S (root not in S) *)
Lemma sum_over S : inS S n = false ->
  sum_b (supply_b sup) S n =
  nsum (fun a => ((if inS S (src a) then 1 else 0) - (if inS S (tgt a) then 1 else 0)) * nz (flow s) a) m +
  nsum (fun i => ((if inS S (src (m + i)) then 1 else 0) - (if inS S (tgt (m + i)) then 1 else 0)) * nz (flow s) (m + i)) n.
Proof.
  intros Hn. rewrite sum_b_nsum.
  rewrite (nsum_ext _ (fun w => (if inS S w then 1 else 0) * netx C (flow s) w)).
  - unfold netx. rewrite (exchange C (fun w => if inS S w then 1 else 0)).
    + rewrite T_eq, nsum_app. reflexivity.
    + rewrite cn_eq, Hn. reflexivity.
    + intros a Ha. destruct (consts_ok n arcs sup Hv a Ha) as (H1 & H2 & _). auto.
  - intros w Hw. rewrite (i_cons C _ s I w), (init_netx n arcs sup w Hw). reflexivity.
Qed.

(* the set holding a node whose artificial arc carries flow ships out (takes in) more than the cut allows *)
Lemma side_cut sg i0 : (i0 < n)%nat -> 0 < nz (flow s) (m + i0) -> inS (side sg) i0 = true ->
  (if sg then cut_cap (side sg) arcs else cut_in (side sg) arcs) < sum_b (supply_b sup) (side sg) n * sgn sg.
Proof.
  intros Hi0 Hpos Hin. rewrite (sum_over (side sg) (side_root sg)), Z.mul_add_distr_r, <- !nsum_scal.
  rewrite (nsum_ext _ _ m (orig_term sg)).
  assert (Hart : 0 < nsum (fun i => ((if inS (side sg) (src (m + i)) then 1 else 0) - (if inS (side sg) (tgt (m + i)) then 1 else 0)) *
                                   nz (flow s) (m + i) * sgn sg) n).
  { apply (nsum_pos _ n i0); [intros i Hi; apply (art_term sg i Hi)|exact Hi0|].
    rewrite (proj2 (art_term sg i0 Hi0) Hin). exact Hpos. }
  assert (E : (if sg then cut_cap (side sg) arcs else cut_in (side sg) arcs) =
              nsum (fun a => if (if sg then inS (side sg) (src a) && negb (inS (side sg) (tgt a))
                                  else negb (inS (side sg) (src a)) && inS (side sg) (tgt a))%bool then cap a else 0) m).
  { destruct sg; [rewrite cut_cap_nsum|rewrite cut_in_nsum]; apply nsum_ext; intros k Hk;
      rewrite src_orig, tgt_orig, cap_orig by exact Hk; reflexivity. }
  lia.
Qed.

Theorem final_cut : (exists i, (i < n)%nat /\ 0 < nz (flow s) (m + i)) ->
  cut_check n arcs (supply_b sup) cutP = true \/ cut_check n arcs (supply_b sup) cutN = true.
Proof.
  intros (i0 & Hi0 & Hpos). unfold cut_check. rewrite Hv. cbn [andb]. pose proof Cs_nonneg.
  destruct (side_dec true i0 Hi0) as [[Hin _]|[_ Hout]].
  - left. apply orb_true_iff. left. apply Z.ltb_lt. pose proof (side_cut true i0 Hi0 Hpos Hin) as Hc.
    change (side true) with cutP in Hc. unfold sgn in Hc. lia.
  - right. apply orb_true_iff. right. apply Z.ltb_lt.
    destruct (side_dec false i0 Hi0) as [[Hin _]|[_ Hout']]; [|unfold sgn in *; lia].
    pose proof (side_cut false i0 Hi0 Hpos Hin) as Hc. change (side false) with cutN in Hc. unfold sgn in Hc. lia.
Qed.

End Infeas.

Lemma nth_skipn_add {A} (d : A) : forall k l i, nth i (skipn k l) d = nth (k + i) l d.
Proof.
  induction k as [|k IH]; intros l i; [reflexivity|]. destruct l as [|x l]; [destruct i; reflexivity|].
  cbn [skipn Nat.add nth]. apply IH.
Qed.

Lemma existsb_skipn_pos : forall (l : list Z) k, existsb (fun x => 0 <? x) (skipn k l) = true ->
  exists i, (k + i < length l)%nat /\ 0 < nth (k + i) l 0.
Proof.
  intros l k H. apply existsb_exists in H. destruct H as (x & Hx & Hp). apply Z.ltb_lt in Hp.
  destruct (In_nth _ _ 0 Hx) as (i & Hi & E). rewrite skipn_length in Hi.
  exists i. split; [lia|]. rewrite nth_skipn_add in E. rewrite E. exact Hp.
Qed.

Lemma psum_const c : forall arcs f, psum (fun _ => c) arcs f = 0.
Proof. induction arcs as [|a arcs IH]; intros [|x f]; cbn [psum]; try reflexivity. rewrite IH. lia. Qed.

Lemma wsum_one_nsum b : forall k, wsum (fun _ => 1) b k = nsum b k.
Proof. induction k as [|k IH]; [reflexivity|]. cbn [wsum nsum]. rewrite IH. lia. Qed.

Theorem ns_infeasible_sound : forall n arcs sup max_iter r,
  valid_arcs n arcs = true -> length sup = n ->
  network_simplex n arcs sup max_iter = Some r -> r_status r = INFEASIBLE ->
  infeasible n arcs (supply_b sup).
Proof.
  intros n arcs sup mi r Hv Hlen H Hst. unfold network_simplex in H.
  destruct (zsum sup =? 0) eqn:Ez; cbn [negb] in H.
  2: { (* unbalanced supplies *)
    apply Z.eqb_neq in Ez. intros f [Hb Hbal]. apply Ez.
    pose proof (psum_balanced (fun _ => 1) n arcs _ f Hv Hbal) as Hp. rewrite psum_const, wsum_one_nsum in Hp.
    rewrite zsum_nsum, Hlen. symmetry. exact Hp. }
  destruct arcs as [|a0 arcs0].
  { destruct (forallb (fun x => x =? 0) sup) eqn:Ef; inversion H; subst r; [discriminate|].
    intros f [Hb Hbal]. assert (forallb (fun x => x =? 0) sup = true); [|congruence].
    apply forallb_forall. intros x Hx. destruct (In_nth _ _ 0 Hx) as (w & Hw & <-). apply Z.eqb_eq.
    pose proof (Hbal w ltac:(lia)) as E. cbn [netout] in E. unfold supply_b in E. symmetry. exact E. }
  remember (a0 :: arcs0) as arcs eqn:HA. clear HA a0 arcs0.
  destruct (ns_run n arcs sup mi) as [[[stt fl] it]|] eqn:Er; [|discriminate].
  unfold ns_run in Er.
  destruct (loop (mk_consts n arcs sup) (Z.to_nat (Z.min mi 5000)) mi (init_st n arcs sup) 0) as [[[stt' s] it']|] eqn:El; [|discriminate].
  inversion Er; subst stt' fl it'. clear Er.
  destruct (loop_status _ _ _ _ _ _ _ _ El) as [->| ->].
  - destruct (existsb (fun x => 0 <? x) (skipn (length arcs) (flow s))) eqn:Ex.
    + apply existsb_skipn_pos in Ex. destruct Ex as (i & Hi & Hp).
      pose proof (loop_state_inv n arcs sup Hv _ _ _ _ _ El) as I.
      rewrite (i_lflow _ _ s I), cm_eq, cn_eq in Hi.
      destruct (final_cut n arcs sup Hv s I (loop_optimal _ _ _ _ _ _ _ El)) as [Hc|Hc].
      * exists i. split; [lia|exact Hp].
      * exact (cut_check_sound _ _ _ _ Hc).
      * exact (cut_check_sound _ _ _ _ Hc).
    + inversion H; subst r. discriminate.
  - destruct (existsb (fun x => 0 <? x) (skipn (length arcs) (flow s))); inversion H; subst r; discriminate.
Qed.
