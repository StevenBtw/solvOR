(* Basic lemmas for the pointer-level model: get/set on id-indexed lists, list facts (hd / last, filter, flat_map,
   NoDup), chains / doubly linked rings over successor functions, unlinking one element of a ring, and traces of the
   `walk` loop. *)
From Coq Require Import List Arith Bool Lia Permutation Sorted.
From SV Require Import C07.Dlx C07.DlxSpec C07.DeepLinks.
Import ListNotations.

Lemma set_length l : forall i v, length (set l i v) = length l.
Proof. induction l as [|x t IH]; intros [|i] v; simpl; auto. Qed.

Lemma get_set_same l : forall i v, i < length l -> get (set l i v) i = v.
Proof.
  unfold get. induction l as [|x t IH]; intros [|i] v H; simpl in *; try lia; auto. apply IH. lia.
Qed.

Lemma get_set_other l : forall i j v, i <> j -> get (set l i v) j = get l j.
Proof.
  unfold get. induction l as [|x t IH]; intros [|i] [|j] v H; simpl in *; auto; try lia.
Qed.

Lemma get_set l i j v : i < length l -> get (set l i v) j = if j =? i then v else get l j.
Proof.
  intros H. destruct (j =? i) eqn:E.
  - apply Nat.eqb_eq in E. subst. apply get_set_same. exact H.
  - apply Nat.eqb_neq in E. apply get_set_other. lia.
Qed.

Lemma set_get_id l : forall i, set l i (get l i) = l.
Proof. unfold get. induction l as [|x t IH]; intros [|i]; simpl; auto. f_equal. apply IH. Qed.

Lemma set_set l : forall i a b, set (set l i a) i b = set l i b.
Proof. induction l as [|x t IH]; intros [|i] a b; simpl; auto. f_equal. apply IH. Qed.

Lemma set_same_val l i v : get l i = v -> set l i v = l.
Proof. intros <-. apply set_get_id. Qed.

Lemma hd_rev {A} (l : list A) d : hd d (rev l) = last l d.
Proof.
  induction l as [|x t IH]; simpl; [reflexivity|].
  destruct t as [|y t'].
  - reflexivity.
  - rewrite <- IH. simpl. destruct (rev t' ++ [y]) eqn:E; [destruct (rev t'); discriminate|]. reflexivity.
Qed.

Lemma last_rev {A} (l : list A) d : last (rev l) d = hd d l.
Proof. rewrite <- hd_rev, rev_involutive. reflexivity. Qed.

Lemma last_cons {A} (y : A) t d : last (y :: t) d = last t y.
Proof.
  revert y d. induction t as [|z t IH]; intros y d; [reflexivity|].
  change (last (z :: t) d = last (z :: t) y). rewrite !IH. reflexivity.
Qed.

Lemma last_in {A} (l : list A) d : In (last l d) (d :: l).
Proof.
  revert d. induction l as [|u t IH]; intros d; [left; reflexivity|].
  rewrite last_cons. right. apply IH.
Qed.

Lemma filter_id {A} (p : A -> bool) l : (forall x, In x l -> p x = true) -> filter p l = l.
Proof.
  induction l as [|x t IH]; intros H; simpl; [reflexivity|].
  rewrite (H x (or_introl eq_refl)). f_equal. apply IH. intros z Hz. apply H. right. exact Hz.
Qed.

Lemma filter_neq_split (x : nat) l1 l2 : ~ In x (l1 ++ l2) ->
  filter (fun y => negb (y =? x)) (l1 ++ x :: l2) = l1 ++ l2.
Proof.
  intros H. rewrite filter_app. cbn [filter]. rewrite Nat.eqb_refl. cbn [negb]. rewrite <- filter_app.
  induction (l1 ++ l2) as [|y t IH]; [reflexivity|]. cbn [filter].
  destruct (Nat.eqb_spec y x) as [->|_]; [exfalso; apply H; left; reflexivity|].
  cbn [negb]. f_equal. apply IH. intros K. apply H. right. exact K.
Qed.

Lemma filter_map_comm {A B} (f : A -> B) (p : B -> bool) l :
  filter p (map f l) = map f (filter (fun x => p (f x)) l).
Proof. induction l as [|x t IH]; simpl; [reflexivity|]. destruct (p (f x)); simpl; [f_equal|]; exact IH. Qed.

Lemma filter_filter {A} (p q : A -> bool) l : filter q (filter p l) = filter (fun x => p x && q x) l.
Proof.
  induction l as [|x t IH]; simpl; [reflexivity|]. destruct (p x); simpl; [|exact IH].
  destruct (q x); [f_equal|]; exact IH.
Qed.

Lemma filter_comm {A} (p q : A -> bool) l : filter p (filter q l) = filter q (filter p l).
Proof. rewrite !filter_filter. apply filter_ext. intros x. apply andb_comm. Qed.

Lemma concat_rev_map {A} (f : A -> list nat) (l : list A) :
  concat (map (fun x => rev (f x)) (rev l)) = rev (concat (map f l)).
Proof.
  induction l as [|x t IH]; simpl; [reflexivity|].
  rewrite map_app, concat_app, IH. simpl. rewrite app_nil_r, rev_app_distr. reflexivity.
Qed.

Lemma flat_map_if_filter {A B} (p : A -> bool) (f : A -> B) (l : list A) :
  flat_map (fun a => if p a then [f a] else []) l = map f (filter p l).
Proof. induction l as [|a t IH]; simpl; [reflexivity|]. destruct (p a); simpl; rewrite IH; reflexivity. Qed.

Lemma flat_map_ext_in {A B} (f g : A -> list B) l : (forall x, In x l -> f x = g x) -> flat_map f l = flat_map g l.
Proof.
  induction l as [|a t IH]; intros H; simpl; [reflexivity|]. rewrite (H a (or_introl eq_refl)). f_equal. apply IH.
  intros x Hx. apply H. right. exact Hx.
Qed.

Lemma flat_map_all_nil {A B} (f : A -> list B) l : (forall x, In x l -> f x = []) -> flat_map f l = [].
Proof.
  induction l as [|a t IH]; intros H; simpl; [reflexivity|]. rewrite (H a (or_introl eq_refl)). apply IH.
  intros x Hx. apply H. right. exact Hx.
Qed.

Lemma flat_map_over_concat {A B C} (f : B -> list C) (g : A -> list B) (l : list A) :
  flat_map f (concat (map g l)) = flat_map (fun a => flat_map f (g a)) l.
Proof. induction l as [|a t IH]; simpl; [reflexivity|]. rewrite flat_map_app, IH. reflexivity. Qed.

Lemma ssorted_app_lt l1 y l2 x : StronglySorted lt (l1 ++ y :: l2) -> In x l1 -> x < y.
Proof.
  induction l1 as [|u t IH]; intros Hs Hx; [contradiction|]. inversion Hs as [|? ? Hs' Hf]; subst.
  destruct Hx as [->|Hx]; [|exact (IH Hs' Hx)]. rewrite Forall_forall in Hf. apply Hf. apply in_elt.
Qed.

Lemma mem_same a a' x : (forall z, In z a <-> In z a') -> mem x a = mem x a'.
Proof. intros H. apply eq_true_iff_eq. rewrite !mem_In. apply H. Qed.

Lemma forallb_same {A} (p : A -> bool) a a' : (forall z, In z a <-> In z a') -> forallb p a = forallb p a'.
Proof.
  intros H. apply eq_true_iff_eq. rewrite !forallb_forall. split; intros K z Hz; apply K, H, Hz.
Qed.

Lemma nodup_app_l {A} (l1 l2 : list A) : NoDup (l1 ++ l2) -> NoDup l1.
Proof.
  induction l1 as [|x t IH]; intros H; [constructor|]. inversion H; subst. constructor.
  - intros K. apply H2. apply in_or_app. left. exact K.
  - apply IH. assumption.
Qed.

Lemma nodup_app_r {A} (l1 l2 : list A) : NoDup (l1 ++ l2) -> NoDup l2.
Proof. induction l1 as [|x t IH]; intros H; [exact H|]. inversion H; subst. apply IH. assumption. Qed.

Lemma nodup_app_disj {A} (l1 l2 : list A) : NoDup (l1 ++ l2) -> forall y, In y l1 -> In y l2 -> False.
Proof.
  induction l1 as [|u t IH]; intros H y A1 B; simpl in *; [contradiction|].
  inversion H; subst. destruct A1 as [->|A1]; [apply H2; apply in_or_app; right; exact B | eapply IH; eauto].
Qed.

Lemma nodup_app_comm {A} (a b : list A) : NoDup (a ++ b) -> NoDup (b ++ a).
Proof. apply Permutation_NoDup. apply Permutation_app_comm. Qed.

Lemma nodup_app_intro {A} (a b : list A) :
  NoDup a -> NoDup b -> (forall x, In x a -> In x b -> False) -> NoDup (a ++ b).
Proof.
  induction a as [|u a IH]; intros Ha Hb Hd; simpl; [exact Hb|].
  inversion Ha; subst. constructor.
  - intros K. apply in_app_or in K. destruct K as [K|K]; [contradiction | apply (Hd u); [left; reflexivity | exact K]].
  - apply IH; auto. intros x Hx. apply Hd. right. exact Hx.
Qed.

Lemma nodup_bound (l : list nat) N : NoDup l -> (forall x, In x l -> x < N) -> length l <= N.
Proof.
  intros Hnd Hb. rewrite <- (seq_length N 0). apply NoDup_incl_length; [exact Hnd|].
  intros x Hx. apply in_seq. specialize (Hb x Hx). lia.
Qed.

Lemma nodup_cons_rev (h : nat) l : NoDup (h :: l) -> NoDup (h :: rev l).
Proof.
  intros H. inversion H; subst. constructor; [rewrite <- in_rev; assumption | apply NoDup_rev; assumption].
Qed.

Fixpoint chain (f : nat -> nat) (a : nat) (l : list nat) (b : nat) : Prop :=
  match l with
  | [] => f a = b
  | x :: t => f a = x /\ chain f x t b
  end.

Definition dring (f g : nat -> nat) (h : nat) (l : list nat) : Prop :=
  chain f h l h /\ chain g h (rev l) h.

Lemma chain_app f : forall l1 a x l2 b,
  chain f a (l1 ++ x :: l2) b <-> chain f a l1 x /\ chain f x l2 b.
Proof.
  induction l1 as [|y t IH]; intros a x l2 b; simpl.
  - tauto.
  - rewrite IH. tauto.
Qed.

Lemma chain_snoc f l a x b : chain f a (l ++ [x]) b <-> chain f a l x /\ f x = b.
Proof. rewrite chain_app. simpl. tauto. Qed.

Lemma chain_ext f f' : forall l a b,
  (forall y, In y (a :: l) -> f' y = f y) -> chain f a l b -> chain f' a l b.
Proof.
  induction l as [|x t IH]; intros a b He H; simpl in *.
  - rewrite He; auto.
  - destruct H as [H1 H2]. split; [rewrite He; auto|]. apply IH; [|exact H2].
    intros y Hy. apply He. right. exact Hy.
Qed.

Lemma chain_hd f l a b : chain f a l b -> f a = hd b l.
Proof. destruct l; simpl; tauto. Qed.

Lemma chain_at f l1 x l2 a b : chain f a (l1 ++ x :: l2) b -> f x = hd b l2.
Proof. intros H. apply chain_app in H. destruct H as [_ H]. apply chain_hd in H. exact H. Qed.

Lemma dring_sym f g h l : dring f g h l -> dring g f h (rev l).
Proof. unfold dring. rewrite rev_involutive. tauto. Qed.

Lemma dring_succ f g h l1 x l2 : dring f g h (l1 ++ x :: l2) -> f x = hd h l2.
Proof. intros [H _]. eapply chain_at. exact H. Qed.

Lemma dring_pred f g h l1 x l2 : dring f g h (l1 ++ x :: l2) -> g x = last l1 h.
Proof.
  intros [_ H]. rewrite rev_app_distr in H. simpl in H. rewrite <- app_assoc in H. simpl in H.
  apply chain_at in H. rewrite hd_rev in H. exact H.
Qed.

Lemma dring_rot f g h l1 x l2 : dring f g h (l1 ++ x :: l2) -> dring f g x (l2 ++ h :: l1).
Proof.
  intros [H1 H2]. split.
  - apply chain_app in H1. apply chain_app. tauto.
  - rewrite rev_app_distr in H2. simpl in H2. rewrite <- app_assoc in H2. simpl in H2.
    rewrite rev_app_distr. simpl. rewrite <- app_assoc. simpl.
    apply chain_app in H2. apply chain_app. tauto.
Qed.

Lemma dring_ext f g f' g' h l :
  (forall z, In z (h :: l) -> f' z = f z /\ g' z = g z) -> dring f g h l -> dring f' g' h l.
Proof.
  intros E [H1 H2]. split.
  - apply chain_ext with (f := f); [|exact H1]. intros z Hz. apply E. exact Hz.
  - apply chain_ext with (f := g); [|exact H2]. intros z Hz. apply E.
    destruct Hz as [Hz|Hz]; [left; exact Hz | right; apply in_rev; exact Hz].
Qed.

Definition upd (f : nat -> nat) (i v : nat) : nat -> nat := fun k => if k =? i then v else f k.

Lemma upd_same f i v : upd f i v i = v.
Proof. unfold upd. rewrite Nat.eqb_refl. reflexivity. Qed.

Lemma upd_other f i v k : k <> i -> upd f i v k = f k.
Proof. intros H. unfold upd. apply Nat.eqb_neq in H. rewrite H. reflexivity. Qed.

Lemma chain_unlink f : forall l1 a x l2 b,
  chain f a (l1 ++ x :: l2) b -> NoDup (a :: l1 ++ x :: l2) ->
  chain (upd f (last l1 a) (hd b l2)) a (l1 ++ l2) b.
Proof.
  induction l1 as [|y t IH]; intros a x l2 b H Hnd; inversion Hnd as [|? ? Ha Hnd']; subst.
  - destruct H as [_ H]. cbn [last app]. destruct l2 as [|z t2]; [apply upd_same|].
    split; [apply upd_same|]. apply chain_ext with (f := f); [|apply H].
    intros w Hw. apply upd_other. intros ->. apply Ha. right. exact Hw.
  - destruct H as [H1 H2]. rewrite last_cons. split.
    + rewrite upd_other; [exact H1|]. intros E. apply Ha. rewrite E.
      change (In (last t y) ((y :: t) ++ x :: l2)). apply in_or_app. left. apply last_in.
    + apply IH with (x := x); assumption.
Qed.

(* unlinking x from a doubly linked ring, the dancing-links way: x keeps its own pointers *)
Lemma dring_unlink f g f' g' h l x :
  dring f g h l -> NoDup (h :: l) -> In x l ->
  (forall y, f' y = upd f (g x) (f x) y) ->
  (forall y, g' y = upd g (f x) (g x) y) ->
  dring f' g' h (filter (fun y => negb (y =? x)) l).
Proof.
  intros Hr Hnd Hx Hf Hg.
  apply in_split in Hx. destruct Hx as [l1 [l2 ->]].
  pose proof (dring_succ _ _ _ _ _ _ Hr) as Hs.
  pose proof (dring_pred _ _ _ _ _ _ Hr) as Hp.
  rewrite filter_neq_split by (inversion Hnd; subst; eapply NoDup_remove_2; eassumption).
  destruct Hr as [H1 H2]. split.
  - apply chain_ext with (f := upd f (g x) (f x)); [intros y _; apply Hf|].
    rewrite Hp, Hs. apply chain_unlink with (x := x); assumption.
  - apply chain_ext with (f := upd g (f x) (g x)); [intros y _; apply Hg|].
    rewrite rev_app_distr, Hs, Hp, <- (last_rev l2 h), <- (hd_rev l1 h).
    apply chain_unlink with (x := x).
    + rewrite rev_app_distr in H2. cbn [rev] in H2. rewrite <- app_assoc in H2. exact H2.
    + apply nodup_cons_rev in Hnd. rewrite rev_app_distr in Hnd. cbn [rev] in Hnd. rewrite <- app_assoc in Hnd. exact Hnd.
Qed.

Lemma dring_linked_succ f g h l x :
  dring f g h l -> NoDup (h :: l) -> In x l -> f x <> x /\ g (f x) = x /\ In (f x) (h :: l).
Proof.
  intros Hr Hnd Hx. apply in_split in Hx. destruct Hx as [l1 [l2 ->]].
  rewrite (dring_succ _ _ _ _ _ _ Hr).
  assert (Hx : ~ In x (h :: l1 ++ l2)).
  { inversion Hnd as [|? ? Hh Hl]; subst. intros [->|K]; [apply Hh; apply in_elt | exact (NoDup_remove_2 _ _ _ Hl K)]. }
  destruct l2 as [|z t2]; cbn [hd].
  - split; [intros ->; apply Hx; left; reflexivity|]. split; [|left; reflexivity].
    destruct Hr as [_ H2]. rewrite rev_app_distr in H2. apply H2.
  - split; [intros ->; apply Hx; right; apply in_or_app; right; left; reflexivity|]. split.
    + change (l1 ++ x :: z :: t2) with (l1 ++ [x] ++ z :: t2) in Hr. rewrite app_assoc in Hr.
      rewrite (dring_pred _ _ _ _ _ _ Hr). apply last_last.
    + right. apply in_or_app. right. right. left. reflexivity.
Qed.

Lemma dring_linked f g h l x :
  dring f g h l -> NoDup (h :: l) -> In x l ->
  f x <> x /\ g x <> x /\ g (f x) = x /\ f (g x) = x /\ In (f x) (h :: l) /\ In (g x) (h :: l).
Proof.
  intros Hr Hnd Hx.
  destruct (dring_linked_succ f g h l x Hr Hnd Hx) as [A [B C]].
  destruct (dring_linked_succ g f h (rev l) x (dring_sym _ _ _ _ Hr) (nodup_cons_rev _ _ Hnd)) as [A' [B' C']].
  { apply in_rev in Hx. exact Hx. }
  repeat split; try assumption.
  destruct C' as [E|K]; [left; exact E | right; apply in_rev; exact K].
Qed.

(* a trace of the loop over the nodes l from state a to a'; e is the node the last `next` leads to *)
Fixpoint run {A} (next : A -> nat -> nat) (body : nat -> A -> option A) (e : nat) (l : list nat) (a a' : A) : Prop :=
  match l with
  | [] => a' = a
  | y :: t => exists m, body y a = Some m /\ next m y = hd e t /\ run next body e t m a'
  end.

Lemma walk_run {A} (next : A -> nat -> nat) (stop : nat) (body : nat -> A -> option A) : forall l a a' fuel,
  run next body stop l a a' -> ~ In stop l -> length l < fuel ->
  walk fuel next stop body (hd stop l) a = Some a'.
Proof.
  induction l as [|y rest IH]; intros a a' fuel Hr Hs Hf; (destruct fuel; [simpl in Hf; lia|]); cbn [walk hd].
  - rewrite Nat.eqb_refl, Hr. reflexivity.
  - destruct Hr as [m [Hb [Hn Hr]]].
    destruct (Nat.eqb_spec y stop) as [->|_]; [exfalso; apply Hs; left; reflexivity|].
    rewrite Hb, Hn. apply IH; [exact Hr | intros K; apply Hs; right; exact K | simpl in Hf; lia].
Qed.

Lemma run_app {A} (next : A -> nat -> nat) body e : forall l1 l2 (a a' a'' : A),
  run next body (hd e l2) l1 a a' -> run next body e l2 a' a'' -> run next body e (l1 ++ l2) a a''.
Proof.
  induction l1 as [|y t IH]; intros l2 a a' a'' H1 H2; simpl in *.
  - subst a'. exact H2.
  - destruct H1 as [m [Hb [Hn Hr]]]. exists m. split; [exact Hb|]. split; [|exact (IH l2 m a' a'' Hr H2)].
    rewrite Hn. destruct t; reflexivity.
Qed.
