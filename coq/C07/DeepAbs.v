(* The abstraction function abs : pointer state -> state of the functional model (active primary columns, active rows),
   the representation invariant LInv, and abs = (cols, rows) for every state related by Rep. *)
From Coq Require Import List Arith Bool Lia Sorted.
From SV Require Import C07.Dlx C07.DlxSpec C07.DeepLinks C07.DeepBase C07.DeepOps C07.DeepVert C07.DeepRows C07.DeepRep.
Import ListNotations.

(* x, next x, next (next x), ... up to (excluding) stop *)
Fixpoint ring_list (fuel : nat) (next : nat -> nat) (stop x : nat) : list nat :=
  match fuel with
  | 0 => []
  | S f => if x =? stop then [] else x :: ring_list f next stop (next x)
  end.
Definition ring_of (s : lst) (next : lst -> nat -> nat) (h : nat) : list nat :=
  ring_list (loop_fuel s) (next s) h (next s h).

(* active primary / secondary columns: the header ring from root / secondary_root via `right` *)
Definition acols (s : lst) : list nat := map (fun h => h - 2) (ring_of s right ROOT).
Definition ascols (s : lst) : list nat := map (fun h => h - 2) (ring_of s right SROOT).
(* x is a node (not a header / root): headers carry their own id in `column` *)
Definition is_node (s : lst) (x : nat) : bool := column s x <? x.
(* x is linked into the down-ring of its column and that column is on one of the header rings *)
Definition node_active (s : lst) (x : nat) : bool :=
  mem x (ring_of s down (column s x)) && mem (column s x - 2) (acols s ++ ascols s).
(* the row whose leftmost node is x: its index and its columns (the right-ring of x) *)
Definition row_at (s : lst) (x : nat) : list row :=
  if is_node s x && (x <=? left s x) && node_active s x
  then [(row_id s x, map (fun y => column s y - 2) (x :: ring_of s right x))]
  else [].
Definition arows (s : lst) : list row := flat_map (row_at s) (seq 0 (n_ids s)).
Definition abs (s : lst) : list nat * list row := (acols s, arows s).

(* node ids are allocated row by row, left to right, after the headers *)
Definition GOrd (nc N : nat) (G : list grow) : Prop :=
  concat (map gids G) = seq (2 + nc) (N - (2 + nc)) /\ forall g, In g G -> StronglySorted lt (gids g).
Definition HdrCol (s : lst) (nc : nat) : Prop := forall z, z < 2 + nc -> column s z = z.

Definition LInv (s : lst) : Prop :=
  exists nc N G cols scols rows, Rep s nc N G cols scols rows /\ GOrd nc N G /\ HdrCol s nc.

Lemma ring_list_chain f h : forall l a fuel,
  chain f a l h -> ~ In h l -> length l < fuel -> ring_list fuel f h (f a) = l.
Proof.
  induction l as [|x t IH]; intros a fuel Hc Hh Hf.
  - simpl in Hc. destruct fuel; [simpl in Hf; lia|]. simpl. rewrite Hc, Nat.eqb_refl. reflexivity.
  - destruct Hc as [H1 H2]. destruct fuel; [simpl in Hf; lia|]. simpl. rewrite H1.
    assert (E : (x =? h) = false) by (apply Nat.eqb_neq; intros ->; apply Hh; left; reflexivity).
    rewrite E. f_equal. apply IH; [exact H2 | intros K; apply Hh; right; exact K | simpl in Hf; lia].
Qed.

(* the fuel of the model's loops is enough for any ring of distinct ids *)
Lemma ring_of_dring s N next prev h l :
  loop_fuel s = S N -> dring (next s) prev h l -> ~ In h l -> NoDup l -> (forall z, In z l -> z < N) ->
  ring_of s next h = l.
Proof.
  intros EF [R _] Hh Hnd Hb. unfold ring_of. rewrite EF. apply ring_list_chain; [exact R | exact Hh|].
  pose proof (nodup_bound l N Hnd Hb). lia.
Qed.

Lemma map_sub2_hdr l : map (fun h => h - 2) (map hdr l) = l.
Proof. rewrite map_map. rewrite <- (map_id l) at 2. apply map_ext. intros a. unfold hdr. lia. Qed.

(* ids grow along a row: only its first node has its left neighbour (the last node) at or after itself *)
Lemma leftmost_only f g n1 rest : dring f g n1 rest -> StronglySorted lt (n1 :: rest) ->
  (n1 <=? g n1) = true /\ forall y, In y rest -> (y <=? g y) = false.
Proof.
  intros R Hs. split.
  - apply Nat.leb_le. destruct R as [_ H2]. apply chain_hd in H2. rewrite hd_rev in H2. rewrite H2.
    destruct (last_in rest n1) as [<-|K]; [lia|]. apply Nat.lt_le_incl.
    apply StronglySorted_inv in Hs. destruct Hs as [_ Hf]. rewrite Forall_forall in Hf. exact (Hf _ K).
  - intros y Hy. apply in_split in Hy. destruct Hy as [l1 [l2 ->]]. apply Nat.leb_gt.
    rewrite (dring_pred _ _ _ _ _ _ R). apply (ssorted_app_lt (n1 :: l1) y l2); [exact Hs | apply last_in].
Qed.

Section AbsRep.
  Variables (s : lst) (nc N : nat) (G : list grow) (cols scols : list nat) (rows : list grow).
  Hypothesis HR : Rep s nc N G cols scols rows.
  Hypothesis HO : GOrd nc N G.
  Hypothesis HC : HdrCol s nc.

  Lemma Rep_sizes : lens s N /\ 2 + nc <= N /\ loop_fuel s = S N.
  Proof.
    destruct HR as [_ [_ [[HL [HN _]] _]]]. split; [exact HL|]. split; [exact HN|].
    unfold loop_fuel. rewrite (lens_n_ids s N HL). reflexivity.
  Qed.

  Lemma hdr_ring_of r l : r < 2 -> dring (right s) (left s) r (map hdr l) -> NoDup l -> incl l (cols ++ scols) ->
    map (fun h => h - 2) (ring_of s right r) = l.
  Proof.
    intros Hr R Hnd Hi. destruct Rep_sizes as [_ [HN EF]]. destruct HR as [_ [[_ [_ [_ Hlt]]] _]].
    rewrite (ring_of_dring s N right (left s) r (map hdr l) EF R).
    - apply map_sub2_hdr.
    - apply root_not_hdr. exact Hr.
    - apply nodup_map_hdr. exact Hnd.
    - intros z Hz. apply in_map_iff in Hz. destruct Hz as [k [<- Hk]]. specialize (Hlt k (Hi k Hk)). unfold hdr. lia.
  Qed.

  Lemma acols_eq : acols s = cols.
  Proof.
    destruct HR as [_ [[R1 [_ [Hnd _]]] _]].
    apply hdr_ring_of; [unfold ROOT; lia | exact R1 | eapply nodup_app_l; eauto | apply incl_appl, incl_refl].
  Qed.

  Lemma ascols_eq : ascols s = scols.
  Proof.
    destruct HR as [_ [[_ [R2 [Hnd _]]] _]].
    apply hdr_ring_of; [unfold SROOT; lia | exact R2 | eapply nodup_app_r; eauto | apply incl_appr, incl_refl].
  Qed.

  (* The nodes of one static row contribute the row iff it is active: only the first node n1 passes the leftmost test,
     and n1 is linked into its column's ring iff the row is active (vcol_cell). *)
  Lemma row_scan g p : rows = filter p G -> In g G ->
    flat_map (row_at s) (gids g) = if p g then [erase g] else [].
  Proof.
    intros Hp Hg. destruct Rep_sizes as [HL [HN EF]].
    destruct HR as [[W HRow] [HH [[_ [_ HCol]] [_ Hclo]]]].
    destruct (HRow g Hg) as [Hne [Hcells Hring]].
    destruct (proj1 W g Hg) as [Hnc Hni].
    destruct HO as [_ Hsorted]. specialize (Hsorted g Hg).
    assert (Hrange : forall y, In y (gids g) -> 2 + nc <= y < N).
    { intros y Hy. apply gids_cell in Hy. destruct Hy as [k Hk]. apply (Hcells k y Hk). }
    unfold gids in Hsorted, Hni, Hring, Hrange |- *.
    destruct (snd g) as [|[c1 n1] cells] eqn:Ecells; [congruence|].
    cbn [map snd flat_map] in Hsorted, Hni, Hring, Hrange |- *.
    set (rest := map snd cells) in Hsorted, Hni, Hring, Hrange |- *.
    destruct (Hcells c1 n1 (or_introl eq_refl)) as [Hc1 [_ [Hn1c Hn1row]]].
    assert (Hring1 : dring (right s) (left s) n1 rest).
    { specialize (Hring n1 (or_introl eq_refl)). unfold rowrest, gids in Hring. rewrite Ecells in Hring.
      cbn [map snd after before] in Hring. rewrite Nat.eqb_refl, app_nil_r in Hring. exact Hring. }
    apply NoDup_cons_iff in Hni. destruct Hni as [Hn1 Hndrest].
    destruct (leftmost_only _ _ _ _ Hring1 Hsorted) as [E2 Hinner].
    rewrite (flat_map_all_nil (row_at s) rest), app_nil_r.
    2:{ intros y Hy. unfold row_at. rewrite (Hinner y Hy), andb_false_r. reflexivity. }
    unfold row_at.
    assert (E1 : is_node s n1 = true).
    { unfold is_node. rewrite Hn1c. apply Nat.ltb_lt. specialize (Hrange n1 (or_introl eq_refl)). unfold hdr. lia. }
    assert (E3 : node_active s n1 = p g).
    { unfold node_active. rewrite Hn1c, acols_eq, ascols_eq.
      replace (hdr c1 - 2) with c1 by (unfold hdr; lia).
      destruct (mem c1 (cols ++ scols)) eqn:Eact.
      - rewrite andb_true_r. apply mem_In in Eact. destruct (HCol c1 Eact) as [R1 [Hnd [_ [Hcol _]]]].
        rewrite (ring_of_dring s N down (up s) (hdr c1) (vcol c1 rows) EF R1).
        2:{ intros K. apply Hcol in K. unfold hdr in K. lia. }
        2:{ exact Hnd. }
        2:{ intros z Hz. apply Hcol in Hz. lia. }
        pose proof (vcol_cell G p g c1 n1 W Hg) as Hv. rewrite Ecells, <- Hp in Hv. specialize (Hv (or_introl eq_refl)).
        destruct (p g); [apply mem_In, Hv; reflexivity | apply mem_false_In; intros K; apply Hv in K; discriminate].
      - rewrite andb_false_r. destruct (p g) eqn:Epg; [|reflexivity]. exfalso.
        apply mem_false_In in Eact. apply Eact. apply (Hclo g c1).
        + rewrite Hp. apply filter_In. auto.
        + unfold gcols. rewrite Ecells. left. reflexivity. }
    rewrite E1, E2, E3. cbn [andb]. destruct (p g); [|reflexivity].
    unfold erase. rewrite Hn1row. f_equal. f_equal.
    rewrite (ring_of_dring s N right (left s) n1 rest EF Hring1 Hn1 Hndrest).
    2:{ intros z Hz. apply (Hrange z). right. exact Hz. }
    change (n1 :: rest) with (map snd ((c1, n1) :: cells)).
    unfold gcols. rewrite Ecells, map_map. apply map_ext_in. intros [k y] Hky.
    destruct (Hcells k y Hky) as [_ [_ [Ec _]]]. cbn [fst snd]. rewrite Ec. unfold hdr. lia.
  Qed.

  Theorem abs_Rep : abs s = (cols, map erase rows).
  Proof.
    unfold abs. rewrite acols_eq. f_equal.
    destruct Rep_sizes as [HL [HN EF]]. unfold arows. rewrite (lens_n_ids s N HL).
    replace N with ((2 + nc) + (N - (2 + nc))) at 1 by lia. rewrite seq_app, flat_map_app.
    (* headers and roots are no nodes *)
    rewrite (flat_map_all_nil (row_at s) (seq 0 (2 + nc))).
    2:{ intros z Hz. apply in_seq in Hz. unfold row_at, is_node. rewrite (HC z) by lia. rewrite Nat.ltb_irrefl. reflexivity. }
    cbn [app]. change (0 + (2 + nc)) with (2 + nc).
    destruct HO as [Eids _]. rewrite <- Eids, flat_map_over_concat.
    destruct HR as [_ [_ [_ [[p Hp] _]]]].
    rewrite (flat_map_ext_in _ (fun g => if p g then [erase g] else [])).
    - rewrite flat_map_if_filter, Hp. reflexivity.
    - intros g Hg. apply row_scan; assumption.
  Qed.
End AbsRep.
