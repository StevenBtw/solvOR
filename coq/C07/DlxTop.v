(* The theorems about solve (the model of solve_exact_cover). *)
From Coq Require Import List Arith Bool Lia ZArith.
From SV Require Import C07.Dlx C07.DlxSpec C07.DlxEnum C07.DlxSearch.
Import ListNotations.

Lemma finish_eq fa ms mi st :
  finish fa ms mi st =
  {| r_sol := match rev (sols st) with [] => SNone | s0 :: _ => if fa then SMany (rev (sols st)) else SOne s0 end;
     r_obj := match rev (sols st) with [] => 0 | s0 :: _ => if fa then length (rev (sols st)) else length s0 end;
     r_iters := iters st;
     r_evals := covers st;
     r_status := if (mi <? Z.of_nat (iters st))%Z then MAX_ITER
                 else match rev (sols st) with
                      | [] => INFEASIBLE
                      | _ :: _ => if fa && ms_hit ms (length (rev (sols st))) then FEASIBLE else OPTIMAL
                      end |}.
Proof.
  unfold finish. destruct (mi <? Z.of_nat (iters st))%Z; destruct (rev (sols st)); try reflexivity; destruct fa; reflexivity.
Qed.

(* the early return for a matrix without rows or columns answers like a search that recorded the empty selection *)
Lemma degenerate_result_finish fa ms :
  degenerate_result fa ms = finish fa ms 0 {| iters := 0; covers := 0; sols := [[]] |}.
Proof. destruct fa; reflexivity. Qed.

(* find_all=False keeps only the first recorded solution *)
Lemma finish_selections fa ms mi st :
  exists T, rev (sols st) = selections (finish fa ms mi st) ++ T /\ (sols st = [] \/ fa = true -> T = []).
Proof.
  rewrite finish_eq. unfold selections. simpl. destruct (rev (sols st)) as [|s0 t] eqn:Er.
  - exists []. split; reflexivity.
  - destruct fa.
    + exists []. split; [rewrite app_nil_r|]; reflexivity.
    + exists t. split; [reflexivity|]. intros [E|E]; [rewrite E in Er|]; discriminate.
Qed.

Lemma finish_uncut fa ms mi st :
  r_status (finish fa ms mi st) = INFEASIBLE \/ fa = true /\ r_status (finish fa ms mi st) = OPTIMAL ->
  (Z.of_nat (iters st) <= mi)%Z /\ (sols st = [] \/ fa = true /\ ms_hit ms (length (sols st)) = false).
Proof.
  rewrite finish_eq. simpl. rewrite rev_length.
  destruct (mi <? Z.of_nat (iters st))%Z eqn:Ecut; [intros [H|[_ H]]; discriminate|].
  intros H. split; [apply Z.ltb_ge; exact Ecut|].
  destruct (rev (sols st)) as [|s0 t] eqn:Er.
  - left. rewrite <- (rev_involutive (sols st)), Er. reflexivity.
  - right. destruct H as [H|[Efa H]]; rewrite ?Efa in *; simpl in H.
    + destruct (fa && _); discriminate.
    + split; [reflexivity|]. destruct (ms_hit ms (length (sols st))); [discriminate | reflexivity].
Qed.

Lemma solve_cases inp r :
  solve inp = Done r ->
  (degenerate inp = true /\ r = degenerate_result (find_all inp) (max_solutions inp))
  \/ (rows_in_range (length (col_names inp)) (mk_rows (matrix inp)) = true
      /\ exists st Q,
           r = finish (find_all inp) (max_solutions inp) (max_iter inp) st
           /\ 1 <= iters st
           /\ map (map fst) (all_sols (fuel_of inp) (prim_cols inp) (mk_rows (matrix inp))) = rev (sols st) ++ Q
           /\ ((Z.of_nat (iters st) <= max_iter inp)%Z ->
               sols st = [] \/ find_all inp = true /\ ms_hit (max_solutions inp) (length (sols st)) = false ->
               Q = [])).
Proof.
  unfold solve. destruct (degenerate inp).
  - intros [= <-]. left. split; reflexivity.
  - destruct (rows_in_range (length (col_names inp)) (mk_rows (matrix inp))); cbn [negb]; [|discriminate].
    destruct (search _ _ _ _ _ _ _ _) as [[b st]|] eqn:Es; [|discriminate].
    intros [= <-]. right. split; [reflexivity|].
    apply search_records in Es. destruct Es as [P Q EL Es Hi _ Htrue Hfalse].
    simpl in Es, Hi. rewrite app_nil_r in Es.
    exists st, Q. split; [reflexivity|]. split; [exact Hi|]. split; [rewrite Es, rev_involutive; exact EL|].
    (* a call that returned True has recorded something, and stopped for find_all=False or max_solutions *)
    intros Hle Hwhy. apply Hfalse; [|exact Hle]. destruct b; [exfalso | reflexivity].
    destruct (Htrue eq_refl) as [A Hne]. destruct Hwhy as [E|[Efa Ehit]].
    + apply Hne. rewrite <- (rev_involutive P), <- Es, E. reflexivity.
    + destruct A as [A|A]; congruence.
Qed.

Lemma degenerate_no_cols inp : valid_input inp = true -> degenerate inp = true -> prim_cols inp = [].
Proof.
  unfold valid_input, degenerate, prim_cols, n_cols. intros Hv Hd. apply Nat.eqb_eq in Hv.
  rewrite Hv. destruct (matrix inp) as [|[|x t] m]; [reflexivity | reflexivity | discriminate].
Qed.

Lemma all_covers_no_prim M sec : all_covers M [] sec [[]].
Proof.
  split; [|split].
  - intros S [<-|[]]. split; [constructor|]. split; [intros r []|]. split; [intros c [] | intros c _ r r' []].
  - intros S [_ [H _]]. exists []. split; [left; reflexivity|].
    destruct S as [|r t]; [intros x; tauto|]. destruct (H r (or_introl eq_refl)) as [_ [c [[] _]]].
  - simpl. intros i j Hij. lia.
Qed.

(* Whatever the flags and limits, the selections of an answer are an initial segment of a complete, duplicate-free
   list of all exact covers; all of it when the status says that nothing cut the search short.  Soundness,
   completeness, absence of duplicates and the meaning of INFEASIBLE are read off this. *)
Theorem solve_lists_prefix inp r :
  valid_input inp = true -> solve inp = Done r ->
  exists R Q, lists_all_covers inp R /\ R = selections r ++ Q
              /\ (r_status r = INFEASIBLE \/ find_all inp = true /\ r_status r = OPTIMAL -> Q = []).
Proof.
  intros Hv H. apply solve_cases in H. destruct H as [[Hd Er]|[Hr [st [Q [Er [_ [EQ Hall]]]]]]]; subst r.
  - exists [[]], []. split; [unfold lists_all_covers; rewrite (degenerate_no_cols inp Hv Hd); apply all_covers_no_prim|].
    split; [destruct (find_all inp)|]; reflexivity.
  - destruct (finish_selections (find_all inp) (max_solutions inp) (max_iter inp) st) as [T [ET HT]].
    exists (rev (sols st) ++ Q), (T ++ Q). split; [rewrite <- EQ; exact (enumeration_lists_all inp Hr)|].
    split; [rewrite ET, app_assoc; reflexivity|].
    intros Hst. apply finish_uncut in Hst. destruct Hst as [Hle Hwhy].
    rewrite (Hall Hle Hwhy), HT; [reflexivity|]. destruct Hwhy as [E|[E _]]; auto.
Qed.

Theorem solve_sound inp r :
  valid_input inp = true -> solve inp = Done r ->
  forall S, In S (selections r) -> is_cover inp S.
Proof.
  intros Hv H S HS. destruct (solve_lists_prefix inp r Hv H) as [R [Q [[Hs _] [ER _]]]].
  apply Hs. rewrite ER. apply in_or_app. left. exact HS.
Qed.

Theorem solve_prefix inp r :
  valid_input inp = true -> solve inp = Done r -> find_all inp = true ->
  exists R Q, lists_all_covers inp R /\ R = selections r ++ Q.
Proof.
  intros Hv H _. destruct (solve_lists_prefix inp r Hv H) as [R [Q [HR [ER _]]]]. exists R, Q. split; assumption.
Qed.

Theorem solve_nodup_any inp r :
  valid_input inp = true -> solve inp = Done r ->
  forall i j, i < j < length (selections r) -> ~ same_set (nth i (selections r) []) (nth j (selections r) []).
Proof.
  intros Hv H i j Hij. destruct (solve_lists_prefix inp r Hv H) as [R [Q [[_ [_ Hd]] [ER _]]]].
  specialize (Hd i j). rewrite ER, !app_nth1, app_length in Hd by lia. apply Hd. lia.
Qed.

Theorem solve_nodup inp r :
  valid_input inp = true -> solve inp = Done r -> find_all inp = true -> r_status r = OPTIMAL ->
  forall i j, i < j < length (selections r) -> ~ same_set (nth i (selections r) []) (nth j (selections r) []).
Proof. intros Hv H _ _. exact (solve_nodup_any inp r Hv H). Qed.

Theorem solve_find_all_uncut inp r :
  valid_input inp = true -> solve inp = Done r -> find_all inp = true ->
  r_status r = OPTIMAL \/ r_status r = INFEASIBLE ->
  lists_all_covers inp (selections r).
Proof.
  intros Hv H Hfa Hst. destruct (solve_lists_prefix inp r Hv H) as [R [Q [HR [ER HQ]]]].
  rewrite ER, HQ, app_nil_r in HR; [exact HR|]. destruct Hst as [Hst|Hst]; [right; split; assumption | left; exact Hst].
Qed.

Theorem solve_fuel_ok inp : solve inp <> OutOfFuel.
Proof.
  unfold solve. destruct (degenerate inp); [discriminate|].
  destruct (negb (rows_in_range (length (col_names inp)) (mk_rows (matrix inp)))); [discriminate|].
  destruct (search _ _ _ _ _ _ _ _) as [[b st]|] eqn:E; [discriminate|].
  exfalso. revert E. apply search_fuel. unfold fuel_of. lia.
Qed.

Theorem solve_index_error inp :
  solve inp = IndexError <->
  degenerate inp = false /\ rows_in_range (length (col_names inp)) (mk_rows (matrix inp)) = false.
Proof.
  unfold solve. destruct (degenerate inp).
  - split; [discriminate | intros [H _]; discriminate].
  - destruct (rows_in_range (length (col_names inp)) (mk_rows (matrix inp))); cbn [negb].
    + destruct (search _ _ _ _ _ _ _ _) as [[b st]|]; split; try discriminate; intros [_ H]; discriminate.
    + split; [intros _; split; reflexivity | reflexivity].
Qed.

Definition status_facts (inp : input) (r : result) : Prop :=
  (* MAX_ITER is reported exactly when a search ran and its iteration counter passed max_iter *)
  (r_status r = MAX_ITER <-> (1 <= r_iters r /\ (max_iter inp < Z.of_nat (r_iters r))%Z))
  (* FEASIBLE only for an enumeration stopped by max_solutions *)
  /\ (r_status r = FEASIBLE -> find_all inp = true /\ ms_hit (max_solutions inp) (length (selections r)) = true)
  (* no solution object <-> no selection; INFEASIBLE has none; none only under INFEASIBLE or MAX_ITER *)
  /\ (r_sol r = SNone <-> selections r = [])
  /\ (r_status r = INFEASIBLE -> r_sol r = SNone)
  /\ (r_sol r = SNone -> r_status r = INFEASIBLE \/ r_status r = MAX_ITER)
  (* shape of `solution` and `objective` *)
  /\ (find_all inp = true -> r_sol r = SNone /\ r_obj r = 0 \/ exists R, r_sol r = SMany R /\ R <> [] /\ r_obj r = length R)
  /\ (find_all inp = false -> r_sol r = SNone /\ r_obj r = 0 \/ exists s, r_sol r = SOne s /\ r_obj r = length s)
  /\ (find_all inp = false -> r_status r <> FEASIBLE).

Lemma finish_status_facts inp mi st :
  ((mi < Z.of_nat (iters st))%Z <-> 1 <= iters st /\ (max_iter inp < Z.of_nat (iters st))%Z) ->
  status_facts inp (finish (find_all inp) (max_solutions inp) mi st).
Proof.
  intros Hmi. rewrite finish_eq. unfold status_facts, selections. simpl.
  split; [|split; [|split; [|split; [|split; [|split; [|split]]]]]].
  - rewrite <- Hmi, <- Z.ltb_lt. destruct (mi <? Z.of_nat (iters st))%Z; [split; reflexivity|].
    destruct (rev (sols st)); [|destruct (find_all inp && _)]; split; discriminate.
  - destruct (mi <? Z.of_nat (iters st))%Z; [discriminate|]. destruct (rev (sols st)) as [|s0 t]; [discriminate|].
    destruct (find_all inp); [simpl | discriminate].
    destruct (ms_hit (max_solutions inp) (S (length t))); [split; reflexivity | discriminate].
  - destruct (rev (sols st)); [split; reflexivity|]. destruct (find_all inp); split; discriminate.
  - destruct (rev (sols st)); [reflexivity|].
    destruct (mi <? Z.of_nat (iters st))%Z; [|destruct (find_all inp && _)]; discriminate.
  - destruct (rev (sols st)); [|destruct (find_all inp); discriminate].
    destruct (mi <? Z.of_nat (iters st))%Z; auto.
  - intros ->. destruct (rev (sols st)) as [|s0 t]; [left; split; reflexivity | right].
    exists (s0 :: t). repeat split. discriminate.
  - intros ->. destruct (rev (sols st)) as [|s0 t]; [left; split; reflexivity | right].
    exists s0. split; reflexivity.
  - intros ->. destruct (mi <? Z.of_nat (iters st))%Z; [|destruct (rev (sols st))]; discriminate.
Qed.

Theorem solve_status inp r : solve inp = Done r -> status_facts inp r.
Proof.
  intros H. apply solve_cases in H. destruct H as [[_ Er]|[_ [st [_ [Er [Hpos _]]]]]]; subst r.
  - rewrite degenerate_result_finish. apply finish_status_facts. simpl. lia.
  - apply finish_status_facts. tauto.
Qed.

Theorem solve_complete inp r :
  valid_input inp = true -> solve inp = Done r -> find_all inp = true -> r_status r = OPTIMAL ->
  (exists R, r_sol r = SMany R /\ r_obj r = length R) /\ lists_all_covers inp (selections r).
Proof.
  intros Hv H Hfa Hst. split; [|apply (solve_find_all_uncut inp r Hv H Hfa); left; exact Hst].
  destruct (solve_status inp r H) as [_ [_ [_ [_ [Hnone [Hshape _]]]]]].
  destruct (Hshape Hfa) as [[E _]|[R [E [_ Eo]]]].
  - destruct (Hnone E) as [X|X]; rewrite X in Hst; discriminate.
  - exists R. split; assumption.
Qed.

Theorem solve_infeasible_iff inp r :
  valid_input inp = true -> solve inp = Done r -> r_status r <> MAX_ITER ->
  (r_status r = INFEASIBLE <-> ~ exists S, is_cover inp S).
Proof.
  intros Hv H Hst. destruct (solve_status inp r H) as [_ [_ [Hsel [Hinf [Hnone _]]]]].
  destruct (solve_lists_prefix inp r Hv H) as [R [Q [[Hs [Hc _]] [ER HQ]]]]. split.
  - intros Hi [S HS]. destruct (Hc S HS) as [S' [HS' _]].
    rewrite ER, (HQ (or_introl Hi)), (proj1 Hsel (Hinf Hi)) in HS'. destruct HS'.
  - intros Hno. destruct (selections r) as [|S t].
    + destruct (Hnone (proj2 Hsel eq_refl)) as [X|X]; [exact X | contradiction].
    + exfalso. apply Hno. exists S. apply Hs. rewrite ER. left. reflexivity.
Qed.

Theorem solve_first inp r :
  valid_input inp = true -> solve inp = Done r -> find_all inp = false -> r_status r = OPTIMAL ->
  exists s, r_sol r = SOne s /\ r_obj r = length s /\ is_cover inp s.
Proof.
  intros Hv H Hfa Hst.
  destruct (solve_status inp r H) as [_ [_ [_ [_ [Hnone [_ [Hshape _]]]]]]].
  destruct (Hshape Hfa) as [[E _]|[s [E Eo]]].
  - destruct (Hnone E) as [X|X]; rewrite X in Hst; discriminate.
  - exists s. split; [exact E|]. split; [exact Eo|].
    apply (solve_sound inp r Hv H). unfold selections. rewrite E. left. reflexivity.
Qed.
