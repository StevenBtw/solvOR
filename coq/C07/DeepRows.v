(* Static description of the node layout (which id sits at which row / column) and the pure list facts about it:
   G : list grow, a grow = (row index, [(column, node id); ...]) in increasing column order. *)
From Coq Require Import List Arith Bool Permutation.
From SV Require Import C07.Dlx C07.DlxSpec C07.DeepLinks C07.DeepBase C07.DeepOps C07.DeepVert.
Import ListNotations.

Definition grow := (nat * list (nat * nat))%type.
Definition gcols (g : grow) : list nat := map fst (snd g).
Definition gids (g : grow) : list nat := map snd (snd g).
Definition erase (g : grow) : row := (fst g, gcols g).
Definition ghas (c : nat) (g : grow) : bool := mem c (gcols g).

Fixpoint cell_id (c : nat) (cells : list (nat * nat)) : nat :=
  match cells with
  | [] => 0
  | (c', y) :: t => if c' =? c then y else cell_id c t
  end.
Definition gcell (c : nat) (g : grow) : nat := cell_id c (snd g).
(* the down-ring of column c when exactly `rows` are active *)
Definition vcol (c : nat) (rows : list grow) : list nat := map (gcell c) (filter (ghas c) rows).

Fixpoint before (y : nat) (l : list nat) : list nat :=
  match l with [] => [] | z :: t => if z =? y then [] else z :: before y t end.
Fixpoint after (y : nat) (l : list nat) : list nat :=
  match l with [] => [] | z :: t => if z =? y then t else after y t end.
(* the right-ring of a row seen from its node y (y excluded) *)
Definition rowrest (g : grow) (y : nat) : list nat := after y (gids g) ++ before y (gids g).

Definition row_of (G : list grow) (y : nat) : option grow := find (fun g => mem y (gids g)) G.
Definition rs (G : list grow) (y : nat) : list nat :=
  match row_of G y with Some g => rowrest g y | None => [] end.

(* nodes unlinked (in this order) by _cover(column c) when `rows` are active *)
Definition victims (G : list grow) (c : nat) (rows : list grow) : list nat := concat (map (rs G) (vcol c rows)).

Definition GRow (g : grow) : Prop := NoDup (gcols g) /\ NoDup (gids g).
Definition GWf (G : list grow) : Prop := (forall g, In g G -> GRow g) /\ NoDup (concat (map gids G)).

Lemma before_after y : forall l, In y l -> l = before y l ++ y :: after y l.
Proof.
  induction l as [|z t IH]; intros H; [contradiction|]. simpl.
  destruct (z =? y) eqn:E.
  - apply Nat.eqb_eq in E. subst. reflexivity.
  - simpl. f_equal. apply IH. destruct H as [H|H]; [apply Nat.eqb_neq in E; congruence | exact H].
Qed.

Lemma before_notin y : forall l, ~ In y (before y l).
Proof.
  induction l as [|z t IH]; simpl; [tauto|]. destruct (z =? y) eqn:E; simpl; [tauto|].
  apply Nat.eqb_neq in E. intros [K|K]; [congruence | exact (IH K)].
Qed.

Lemma before_after_at y : forall l1 l2, ~ In y l1 -> before y (l1 ++ y :: l2) = l1 /\ after y (l1 ++ y :: l2) = l2.
Proof.
  induction l1 as [|z t IH]; intros l2 H; simpl.
  - rewrite Nat.eqb_refl. auto.
  - destruct (Nat.eqb_spec z y) as [->|_]; [exfalso; apply H; left; reflexivity|].
    destruct (IH l2 (fun K => H (or_intror K))) as [-> ->]. auto.
Qed.

Lemma rowrest_split g y : In y (gids g) -> exists b a, gids g = b ++ y :: a /\ rowrest g y = a ++ b.
Proof.
  intros Hy. exists (before y (gids g)), (after y (gids g)). split; [apply before_after; exact Hy | reflexivity].
Qed.

Lemma rowrest_in g y z : NoDup (gids g) -> In y (gids g) ->
  (In z (rowrest g y) <-> In z (gids g) /\ z <> y).
Proof.
  intros Hnd Hy. destruct (rowrest_split g y Hy) as [b [a [E ->]]]. rewrite E in Hnd |- *.
  apply NoDup_remove_2 in Hnd. rewrite in_app_iff in Hnd. rewrite !in_app_iff. simpl. split.
  - intros K. split; [tauto|]. intros ->. tauto.
  - intros [[K|[K|K]] Hne]; [tauto | congruence | tauto].
Qed.

Lemma rowrest_nodup g y : NoDup (gids g) -> In y (gids g) -> NoDup (rowrest g y).
Proof.
  intros Hnd Hy. destruct (rowrest_split g y Hy) as [b [a [E ->]]]. rewrite E in Hnd.
  apply NoDup_remove_1 in Hnd. apply nodup_app_comm. exact Hnd.
Qed.

Lemma rowrest_notin g y : NoDup (gids g) -> In y (gids g) -> ~ In y (rowrest g y).
Proof. intros Hnd Hy K. apply rowrest_in in K; auto. destruct K as [_ K]. congruence. Qed.

Lemma ghas_In c g : ghas c g = true <-> In c (gcols g).
Proof. apply mem_In. Qed.

Lemma gcell_in c g : ghas c g = true -> In (c, gcell c g) (snd g).
Proof.
  unfold ghas, gcell, gcols. rewrite mem_In. induction (snd g) as [|[c' y] t IH]; simpl; [tauto|].
  intros [E|H].
  - subst. rewrite Nat.eqb_refl. left. reflexivity.
  - destruct (c' =? c) eqn:E; [apply Nat.eqb_eq in E; subst; left; reflexivity | right; apply IH; exact H].
Qed.

Lemma gcell_unique c y g : NoDup (gcols g) -> In (c, y) (snd g) -> gcell c g = y.
Proof.
  unfold gcell, gcols. induction (snd g) as [|[c' y'] t IH]; simpl; [tauto|].
  intros Hnd [E|H].
  - inversion E; subst. rewrite Nat.eqb_refl. reflexivity.
  - inversion Hnd as [|? ? Hni Hnd']; subst. destruct (c' =? c) eqn:E.
    + apply Nat.eqb_eq in E. subst. exfalso. apply Hni. apply in_map_iff. exists (c, y). auto.
    + apply IH; assumption.
Qed.

Lemma gcell_gids c g : ghas c g = true -> In (gcell c g) (gids g).
Proof. intros H. apply gcell_in in H. unfold gids. apply in_map_iff. exists (c, gcell c g). auto. Qed.

Lemma gids_cell y g : In y (gids g) -> exists c, In (c, y) (snd g).
Proof. unfold gids. rewrite in_map_iff. intros [[c y'] [E H]]. simpl in E. subst. exists c. exact H. Qed.

Lemma cell_inj g c c' y : NoDup (gids g) -> In (c, y) (snd g) -> In (c', y) (snd g) -> c = c'.
Proof.
  unfold gids. induction (snd g) as [|[a b] t IH]; simpl; [tauto|].
  intros Hnd [E|H] [E'|H'].
  - congruence.
  - inversion E; subst. inversion Hnd as [|? ? Hni Hnd']; subst. exfalso. apply Hni. apply in_map_iff. exists (c', y). auto.
  - inversion E'; subst. inversion Hnd as [|? ? Hni Hnd']; subst. exfalso. apply Hni. apply in_map_iff. exists (c, y). auto.
  - inversion Hnd as [|? ? Hni Hnd']; subst. apply IH; assumption.
Qed.

Lemma row_split g c : GRow g -> ghas c g = true ->
  exists ys, incl ys (snd g) /\ rowrest g (gcell c g) = map snd ys /\ Permutation (gcols g) (c :: map fst ys).
Proof.
  intros [_ Hni] Hc. destruct (in_split _ _ (gcell_in c g Hc)) as [pre [post E]]. exists (post ++ pre).
  unfold rowrest, gids, gcols in *. rewrite E, !map_app in *. cbn [map fst snd] in *. split; [|split].
  - intros p Hp. apply in_app_or in Hp. apply in_or_app. destruct Hp; [right; right | left]; assumption.
  - apply NoDup_remove_2 in Hni.
    destruct (before_after_at (gcell c g) (map snd pre) (map snd post)) as [-> ->]; [|reflexivity].
    intros K. apply Hni. apply in_or_app. left. exact K.
  - symmetry. apply Permutation_cons_app, Permutation_app_comm.
Qed.

Lemma row_unique G g g' z :
  NoDup (concat (map gids G)) -> In g G -> In g' G -> In z (gids g) -> In z (gids g') -> g = g'.
Proof.
  induction G as [|g0 G' IH]; intros Hnd Hg Hg' Hz Hz'; [contradiction|].
  simpl in Hnd.
  assert (Hcross : forall a, In a G' -> In z (gids g0) -> In z (gids a) -> False).
  { intros a Ha Z0 Za. apply (nodup_app_disj _ _ Hnd z Z0). apply in_concat. exists (gids a). split; [|exact Za].
    apply in_map. exact Ha. }
  destruct Hg as [<-|Hg], Hg' as [<-|Hg'].
  - reflexivity.
  - exfalso. eapply Hcross; eauto.
  - exfalso. eapply Hcross; eauto.
  - apply IH; auto. apply nodup_app_r in Hnd. exact Hnd.
Qed.

Lemma vcol_in c rows y : In y (vcol c rows) <-> exists g, In g rows /\ ghas c g = true /\ gcell c g = y.
Proof.
  unfold vcol. rewrite in_map_iff. split.
  - intros [g [E Hg]]. apply filter_In in Hg. exists g. split; [apply Hg|]. split; [apply Hg | exact E].
  - intros [g [Hg [Hc E]]]. exists g. split; [exact E | apply filter_In; auto].
Qed.

Lemma vcol_cell G p g c y : GWf G -> In g G -> In (c, y) (snd g) ->
  (In y (vcol c (filter p G)) <-> p g = true).
Proof.
  intros W Hg Hcy. destruct (proj1 W g Hg) as [Hnc Hni].
  assert (Hy : In y (gids g)) by (apply in_map_iff; exists (c, y); auto).
  rewrite vcol_in. split.
  - intros [g' [Hg' [Hc' E]]]. apply filter_In in Hg'. destruct Hg' as [Hg' Hp].
    rewrite (row_unique G g g' y); auto; [apply W | rewrite <- E; apply gcell_gids; exact Hc'].
  - intros Hp. exists g. split; [apply filter_In; auto|]. split; [|apply gcell_unique; assumption].
    apply ghas_In. apply in_map_iff. exists (c, y). auto.
Qed.

Lemma row_of_spec G g y : GWf G -> In g G -> In y (gids g) -> row_of G y = Some g.
Proof.
  intros [_ Hnd] Hg Hy. unfold row_of.
  destruct (find (fun g0 => mem y (gids g0)) G) as [g'|] eqn:E.
  - apply find_some in E. destruct E as [Hg' Hm]. apply mem_In in Hm.
    f_equal. eapply row_unique; eauto.
  - exfalso. eapply find_none in E; [|exact Hg]. apply mem_false_In in E. contradiction.
Qed.

Lemma rs_spec G g y : GWf G -> In g G -> In y (gids g) -> rs G y = rowrest g y.
Proof. intros W Hg Hy. unfold rs. rewrite (row_of_spec G g y W Hg Hy). reflexivity. Qed.

Lemma victims_eq G c rows : GWf G -> incl rows G ->
  victims G c rows = concat (map (fun g => rowrest g (gcell c g)) (filter (ghas c) rows)).
Proof.
  intros W Hinc. unfold victims, vcol. rewrite map_map. f_equal. apply map_ext_in.
  intros g Hg. apply filter_In in Hg. destruct Hg as [Hg Hc].
  apply rs_spec; auto. apply gcell_gids. exact Hc.
Qed.

Lemma victims_in G c rows z : GWf G -> incl rows G ->
  (In z (victims G c rows) <->
   exists g, In g rows /\ ghas c g = true /\ In z (gids g) /\ z <> gcell c g).
Proof.
  intros W Hinc. rewrite victims_eq by assumption. rewrite in_concat. split.
  - intros [l [Hl Hz]]. apply in_map_iff in Hl. destruct Hl as [g [<- Hg]].
    apply filter_In in Hg. destruct Hg as [Hg Hc]. exists g.
    apply rowrest_in in Hz; [tauto | apply W; auto | apply gcell_gids; exact Hc].
  - intros [g [Hg [Hc [Hz Hne]]]]. exists (rowrest g (gcell c g)). split.
    + apply in_map_iff. exists g. split; [reflexivity|]. apply filter_In. auto.
    + apply rowrest_in; [apply W; auto | apply gcell_gids; exact Hc | auto].
Qed.

Lemma nodup_concat_filter {A B} (f f' : A -> list B) : forall (G : list A) (p : A -> bool),
  NoDup (concat (map f G)) ->
  (forall g, In g G -> p g = true -> NoDup (f' g) /\ incl (f' g) (f g)) ->
  NoDup (concat (map f' (filter p G))).
Proof.
  induction G as [|g G' IH]; intros p Hnd Hf; simpl; [constructor|].
  simpl in Hnd.
  assert (Hrest : NoDup (concat (map f' (filter p G')))).
  { apply IH; [apply nodup_app_r in Hnd; exact Hnd|]. intros a Ha. apply Hf. right. exact Ha. }
  destruct (p g) eqn:Hp; [|exact Hrest]. simpl.
  destruct (Hf g (or_introl eq_refl) Hp) as [Hn Hi].
  apply nodup_app_intro; [exact Hn | exact Hrest|].
  intros x Hx Hx'. apply (nodup_app_disj _ _ Hnd x (Hi x Hx)).
  apply in_concat in Hx'. destruct Hx' as [l [Hl Hxl]]. apply in_map_iff in Hl. destruct Hl as [a [<- Ha]].
  apply filter_In in Ha. destruct Ha as [Ha Hpa].
  apply in_concat. exists (f a). split; [apply in_map; exact Ha|]. apply (Hf a (or_intror Ha) Hpa). exact Hxl.
Qed.

Lemma victims_nodup G c p : GWf G -> NoDup (victims G c (filter p G)).
Proof.
  intros W. rewrite victims_eq; [|exact W | intros g Hg; apply filter_In in Hg; tauto].
  rewrite filter_filter. apply nodup_concat_filter with (f := gids); [apply W|].
  intros g Hg Hq. apply andb_true_iff in Hq. destruct Hq as [_ Hc].
  destruct (proj1 W g Hg) as [_ Hni]. pose proof (gcell_gids c g Hc) as Hx. split.
  - apply rowrest_nodup; assumption.
  - intros z Hz. apply rowrest_in in Hz; tauto.
Qed.

Lemma victims_not_vcol G c rows z : GWf G -> incl rows G ->
  In z (victims G c rows) -> ~ In z (vcol c rows).
Proof.
  intros W Hinc Hz K. apply victims_in in Hz; auto. destruct Hz as [g [Hg [Hc [Hzg Hne]]]].
  apply vcol_in in K. destruct K as [g' [Hg' [Hc' E]]]. subst z.
  assert (g = g').
  { eapply row_unique; [apply W | apply Hinc; exact Hg | apply Hinc; exact Hg' | exact Hzg | apply gcell_gids; exact Hc']. }
  subst. congruence.
Qed.

Lemma Vdel_victims G c k rows : GWf G -> incl rows G -> k <> c ->
  Vdel (victims G c rows) (fun j => vcol j rows) k = vcol k (filter (fun g => negb (ghas c g)) rows).
Proof.
  intros W Hinc Hkc. unfold Vdel, vcol. rewrite filter_map_comm. f_equal.
  rewrite (filter_comm (ghas k)). apply filter_ext_in. intros g Hg.
  apply filter_In in Hg. destruct Hg as [Hg Hk]. f_equal.
  destruct (ghas c g) eqn:Hc.
  - apply mem_In. apply victims_in; auto. exists g. repeat split; auto.
    + apply gcell_gids. exact Hk.
    + intros E. apply Hkc. destruct (W) as [WR _]. destruct (WR g (Hinc g Hg)) as [Hnc Hni].
      apply (cell_inj g k c (gcell k g) Hni); [apply gcell_in; exact Hk | rewrite E; apply gcell_in; exact Hc].
  - apply mem_false_In. intros K. apply victims_in in K; auto. destruct K as [g' [Hg' [Hc' [Hz _]]]].
    assert (g' = g).
    { eapply row_unique; [apply W | apply Hinc; exact Hg' | apply Hinc; exact Hg | exact Hz | apply gcell_gids; exact Hk]. }
    subst. congruence.
Qed.
