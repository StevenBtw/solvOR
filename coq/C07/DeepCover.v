(* _cover(col) refines "remove column c and every row that has c"; _uncover(col) undoes it exactly.
   Selecting a row: _cover of every other column of the row (walk to the right) and the symmetric _uncover walk to
   the left are sequences of such steps (LIFO discipline). *)
From Coq Require Import List Arith Bool Lia Permutation.
From SV Require Import C07.Dlx C07.DlxSpec C07.DeepLinks C07.DeepBase C07.DeepOps C07.DeepVert C07.DeepRows C07.DeepRep.
Import ListNotations.

(* the rows that do not have column k *)
Definition rowsdel (k : nat) (rows : list grow) : list grow := filter (fun g => negb (ghas k g)) rows.

(* cc_ : facts about covering column c from state s; uc_ : about uncovering it again *)
Section CoverCol.
  Variables (s : lst) (nc N : nat) (G : list grow) (cols scols : list nat) (p : grow -> bool) (c : nat).
  Let rows := filter p G.
  Let act := cols ++ scols.
  Let V := fun j => vcol j rows.
  Hypothesis HS : Static s nc N G.
  Hypothesis HH : HInv s nc cols scols.
  Hypothesis HVI : VInv s nc N act V.
  Hypothesis Hclo : forall g k, In g rows -> In k (gcols g) -> In k act.
  Hypothesis Hc : In c act.

  Let W : GWf G := proj1 HS.
  Let Hl : lens s N := proj1 HVI.
  Let HN : 2 + nc <= N := proj1 (proj2 HVI).
  Let s1 := unlink_h (hdr c) s.
  Let vs := victims G c rows.
  Let rows' := rowsdel c rows.

  Lemma cc_inc : incl rows G.
  Proof. intros g Hg. apply filter_In in Hg. apply Hg. Qed.

  Lemma cc_VInv1 : VInv s1 nc N act V.
  Proof.
    destruct (header_linked s nc cols scols c HH Hc) as [Hr [Hlf [Hrc _]]].
    destruct (unlink_h_fields s (hdr c)) as [EU [ED [EC [ERow ES]]]].
    eapply VInv_frame; eauto. unfold s1. eapply unlink_h_lens; eauto; lia.
  Qed.

  Lemma cc_vs_nodup : NoDup vs.
  Proof. apply victims_nodup. exact W. Qed.

  Lemma cc_vs_owned : owned act V vs.
  Proof.
    intros z Hz. apply (victims_in G c rows z W cc_inc) in Hz. destruct Hz as [g [Hg [Hcg [Hzg Hne]]]].
    destruct (gids_cell z g Hzg) as [k Hk].
    assert (Hkc : In k (gcols g)) by (apply in_map_iff; exists (k, z); auto).
    exists k. split; [eapply Hclo; eauto|].
    apply vcol_in. exists g. split; [exact Hg|]. split; [apply ghas_In; exact Hkc|].
    apply gcell_unique; [apply W; apply cc_inc; exact Hg | exact Hk].
  Qed.

  (* every state on the way: vs = pre ++ post, pre already unlinked *)
  Lemma cc_prefix pre post : vs = pre ++ post ->
    let sp := foldop unlink_v pre s1 in
    VInv sp nc N act (Vdel pre V) /\ fL sp = fL s1 /\ fR sp = fR s1 /\ fC sp = fC s /\ fRow sp = fRow s.
  Proof.
    intros E sp.
    pose proof cc_vs_nodup as Hnd. pose proof cc_vs_owned as Ho. rewrite E in Hnd, Ho.
    destruct (unlink_fold nc N act pre s1 V cc_VInv1) as [A [B [C [D [F _]]]]].
    - eapply nodup_app_l; eauto.
    - intros z Hz. apply Ho. apply in_or_app. left. exact Hz.
    - destruct (unlink_h_fields s (hdr c)) as [_ [_ [EC [ERow _]]]].
      split; [exact A|]. split; [exact B|]. split; [exact C|].
      split; [exact (eq_trans D EC) | exact (eq_trans F ERow)].
  Qed.

  Lemma cc_Vc_fixed pre post : vs = pre ++ post -> Vdel pre V c = V c.
  Proof.
    intros E. apply Vdel_notin. intros z Hz.
    apply (victims_not_vcol G c rows z W cc_inc). fold vs. rewrite E. apply in_or_app. left. exact Hz.
  Qed.

  Lemma cc_Vc_range : forall x, In x (V c) -> 2 + nc <= x < N.
  Proof. destruct (proj2 (proj2 HVI) c Hc) as [_ [_ [_ [Hcol _]]]]. intros x Hx. apply Hcol. exact Hx. Qed.

  Lemma cc_row_of x : In x (V c) -> exists g, In g G /\ rs G x = rowrest g x /\ In x (gids g).
  Proof.
    intros Hx. apply vcol_in in Hx. destruct Hx as [g [Hg [Hcg <-]]]. exists g. apply cc_inc in Hg.
    pose proof (gcell_gids c g Hcg) as Hxg. split; [exact Hg|]. split; [apply rs_spec; auto | exact Hxg].
  Qed.

  Lemma cc_static pre post : vs = pre ++ post -> Static (foldop unlink_v pre s1) nc N G.
  Proof.
    intros E. destruct (cc_prefix pre post E) as [_ [EL [ER [EC ERow]]]].
    apply (Static_frame s _ nc N G HS EC ERow). intros z Hz. unfold right, left. rewrite EL, ER.
    apply (unlink_h_nodes s nc N cols scols c HH Hl HN Hc). exact Hz.
  Qed.

  Lemma cc_chains pre post : vs = pre ++ post ->
    let sp := foldop unlink_v pre s1 in
    n_ids sp = N /\ dring (down sp) (up sp) (hdr c) (V c)
    /\ forall x, In x (V c) -> dring (right sp) (left sp) x (rs G x).
  Proof.
    intros E sp. destruct (cc_prefix pre post E) as [HV _]. fold sp in HV.
    split; [apply lens_n_ids; apply HV|]. split.
    - destruct HV as [_ [_ HC]]. destruct (HC c Hc) as [Hr _]. rewrite (cc_Vc_fixed pre post E) in Hr. exact Hr.
    - intros x Hx. destruct (cc_row_of x Hx) as [g [HgG [Ers Hxg]]]. rewrite Ers.
      apply (Static_row _ _ _ _ g x (cc_static pre post E) HgG Hxg).
  Qed.

  Lemma cc_lengths : length (V c) <= N /\ forall x, In x (V c) -> length (rs G x) <= N /\ ~ In x (rs G x).
  Proof.
    split; [exact (VCol_length _ _ _ _ _ (proj2 (proj2 HVI) c Hc))|].
    intros x Hx. destruct (cc_row_of x Hx) as [g [HgG [Ers Hxg]]]. rewrite Ers.
    apply (Static_row _ _ _ _ g x HS HgG Hxg).
  Qed.

  Lemma cc_hdr_notin : ~ In (hdr c) (V c).
  Proof.
    intros K. apply cc_Vc_range in K. destruct HH as [_ [_ [_ Hlt]]]. specialize (Hlt c Hc). unfold hdr in K. lia.
  Qed.

  Lemma cover_eq : cover (hdr c) s = Some (foldop unlink_v vs s1).
  Proof.
    unfold cover. fold s1.
    destruct (cc_chains [] vs eq_refl) as [EN [[Hd _] _]]. cbn [foldop fold_left] in EN, Hd.
    unfold loop_fuel. rewrite EN, (chain_hd _ _ _ _ Hd).
    destruct cc_lengths as [L1 L2].
    apply (walk_nested down right unlink_v N (hdr c) (rs G) (V c) (hdr c)).
    - intros pre post E. destruct (cc_chains pre post E) as [A [B C]].
      split; [exact A|]. split; [apply B|]. intros x Hx. apply C. exact Hx.
    - exact cc_hdr_notin.
    - intros x Hx. apply L2. exact Hx.
    - lia.
    - intros x Hx. apply L2. exact Hx.
  Qed.

  Lemma cover_Rep : Rep (foldop unlink_v vs s1) nc N G (rmv c cols) (rmv c scols) rows'.
  Proof.
    destruct (cc_prefix vs [] (eq_sym (app_nil_r vs))) as [HV [EL [ER [EC ERow]]]].
    set (s' := foldop unlink_v vs s1) in *.
    split; [|split; [|split; [|split]]].
    - apply (cc_static vs [] (eq_sym (app_nil_r vs))).
    - eapply HInv_frame; [apply (unlink_h_HInv s nc N cols scols c HH Hl HN Hc) | exact EL | exact ER].
    - apply VInv_ext_in with (V := Vdel vs V).
      + intros k Hk. apply in_rmv_app in Hk. unfold vs, V, rows'. apply Vdel_victims; [exact W | exact cc_inc | apply Hk].
      + eapply VInv_sub; [|exact HV]. intros k Hk. apply in_rmv_app in Hk. apply Hk.
    - exists (fun g => p g && negb (ghas c g)). apply filter_filter.
    - intros g k Hg Hk. unfold rows' in Hg. apply filter_In in Hg. destruct Hg as [Hg Hnc].
      apply in_rmv_app. split; [exact (Hclo g k Hg Hk)|].
      intros ->. apply negb_true_iff in Hnc. apply ghas_In in Hk. congruence.
  Qed.

  Lemma cover_keeps_col : dring (down (foldop unlink_v vs s1)) (up (foldop unlink_v vs s1)) (hdr c) (vcol c rows).
  Proof. destruct (cc_chains vs [] (eq_sym (app_nil_r vs))) as [_ [B _]]. exact B. Qed.

  Lemma uc_state a b : vs = a ++ b ->
    foldop relink_v (rev b) (foldop unlink_v vs s1) = foldop unlink_v a s1.
  Proof.
    intros E. destruct (cc_prefix a b E) as [HV _].
    pose proof cc_vs_nodup as Hnd. pose proof cc_vs_owned as Ho. rewrite E in Hnd, Ho |- *. rewrite foldop_app.
    destruct (unlink_fold nc N act b _ (Vdel a V) HV) as [_ [_ [_ [_ [_ F]]]]];
      [eapply nodup_app_r; eauto | apply owned_drop; assumption | exact F].
  Qed.

  Lemma uncover_eq : uncover (hdr c) (foldop unlink_v vs s1) = Some s.
  Proof.
    set (s' := foldop unlink_v vs s1).
    unfold uncover.
    destruct (cc_chains vs [] (eq_sym (app_nil_r vs))) as [EN [[_ Hu] _]]. fold s' in EN, Hu.
    unfold loop_fuel. rewrite EN, (chain_hd _ _ _ _ Hu).
    destruct cc_lengths as [L1 L2].
    rewrite (walk_nested up left relink_v N (hdr c) (fun x => rev (rs G x)) (rev (V c)) (hdr c)).
    - rewrite concat_rev_map. change (concat (map (rs G) (V c))) with vs. unfold s'.
      rewrite (uc_state [] vs eq_refl). simpl.
      f_equal. apply (relink_unlink_header s nc cols scols c HH Hc).
    - intros pre post E. rewrite concat_rev_map in E. change (concat (map (rs G) (V c))) with vs in E.
      assert (E' : vs = rev post ++ rev pre).
      { rewrite <- (rev_involutive vs), E, rev_app_distr. reflexivity. }
      unfold s'. rewrite <- (rev_involutive pre), (uc_state _ _ E').
      destruct (cc_chains (rev post) (rev pre) E') as [A [B C]].
      split; [exact A|]. split; [apply B|].
      intros x Hx. apply in_rev in Hx. destruct (C x Hx) as [_ C2]. exact C2.
    - intros K. apply in_rev in K. exact (cc_hdr_notin K).
    - intros x Hx K. apply in_rev in Hx. apply in_rev in K. exact (proj2 (L2 x Hx) K).
    - rewrite rev_length. lia.
    - intros x Hx. apply in_rev in Hx. rewrite rev_length. apply L2. exact Hx.
  Qed.
End CoverCol.

Theorem cover_ok s nc N G cols scols rows c :
  Rep s nc N G cols scols rows -> In c (cols ++ scols) ->
  exists s', cover (hdr c) s = Some s'
    /\ Rep s' nc N G (rmv c cols) (rmv c scols) (rowsdel c rows)
    /\ uncover (hdr c) s' = Some s
    /\ dring (down s') (up s') (hdr c) (vcol c rows)
    /\ fC s' = fC s.
Proof.
  intros [HS [HH [HV [[p ->] Hclo]]]] Hc. exists (foldop unlink_v (victims G c (filter p G)) (unlink_h (hdr c) s)).
  split; [eapply cover_eq; eauto|]. split; [eapply cover_Rep; eauto|].
  split; [eapply uncover_eq; eauto|]. split; [eapply cover_keeps_col; eauto|].
  destruct (cc_prefix s nc N G cols scols p c HS HH HV Hclo Hc _ [] (eq_sym (app_nil_r _))) as [_ [_ [_ [E _]]]].
  exact E.
Qed.

Fixpoint rmvs (ks : list nat) (l : list nat) : list nat :=
  match ks with [] => l | k :: t => rmvs t (rmv k l) end.
Fixpoint rowsdels (ks : list nat) (rows : list grow) : list grow :=
  match ks with [] => rows | k :: t => rowsdels t (rowsdel k rows) end.

Lemma rmvs_filter ks : forall l, rmvs ks l = filter (fun z => negb (mem z ks)) l.
Proof.
  induction ks as [|k t IH]; intros l; simpl.
  - symmetry. apply filter_id. reflexivity.
  - rewrite IH. unfold rmv. rewrite filter_filter. apply filter_ext. intros z.
    unfold mem. simpl. destruct (z =? k); reflexivity.
Qed.

Lemma rowsdels_filter ks : forall rows, rowsdels ks rows = filter (fun g => disjoint ks (gcols g)) rows.
Proof.
  induction ks as [|k t IH]; intros rows; simpl.
  - symmetry. apply filter_id. reflexivity.
  - rewrite IH. unfold rowsdel. rewrite filter_filter. apply filter_ext. intros g. reflexivity.
Qed.

Lemma rmvs_remove_cols ks l cols : (forall k, In k ks <-> In k l) -> rmvs ks cols = remove_cols l cols.
Proof.
  intros H. rewrite rmvs_filter. unfold remove_cols. apply filter_ext. intros z. f_equal. apply mem_same. exact H.
Qed.

Lemma rowsdels_remove_rows ks r rows : (forall k, In k ks <-> In k (snd r)) ->
  map erase (rowsdels ks rows) = remove_rows r (map erase rows).
Proof.
  intros H. rewrite rowsdels_filter. unfold remove_rows. rewrite filter_map_comm. f_equal. apply filter_ext.
  intros g'. unfold disjoint. apply forallb_same. exact H.
Qed.

Lemma bump_cover_0 st : bump_cover 0 st = st.
Proof. destruct st. unfold bump_cover. simpl. rewrite Nat.add_0_r. reflexivity. Qed.

Lemma bump_cover_add a b st : bump_cover b (bump_cover a st) = bump_cover (a + b) st.
Proof. unfold bump_cover. simpl. rewrite Nat.add_assoc. reflexivity. Qed.

(* The two loops of a row selection, along the cells ys = (column, node) of the row that follow `idone` on the ring of x:
   the walk to the right covers their columns one after the other, the walk to the left over the same nodes in
   reverse undoes this exactly and arrives at the last node of `idone`. *)
Section SelectRow.
  Variables (nc N : nat) (G : list grow) (g : grow) (x : nat).
  Hypothesis Hg : In g G.
  Hypothesis Hx : In x (gids g).

  Let cbody := fun (node : nat) (q : lst * sst) =>
                 match cover (column (fst q) node) (fst q) with
                 | None => None
                 | Some s' => Some (s', bump_cover 1 (snd q))
                 end.
  Let ubody := fun (node : nat) (s' : lst) => uncover (column s' node) s'.

  Lemma select_run : forall ys idone s cols scols rows st,
    map snd (idone ++ ys) = rowrest g x -> incl ys (snd g) ->
    Rep s nc N G cols scols rows -> NoDup (map fst ys) -> incl (map fst ys) (cols ++ scols) ->
    exists sK,
      run (fun q => right (fst q)) cbody x (map snd ys) (s, st) (sK, bump_cover (length ys) st)
      /\ run left ubody (last (map snd idone) x) (rev (map snd ys)) sK s
      /\ Rep sK nc N G (rmvs (map fst ys) cols) (rmvs (map fst ys) scols) (rowsdels (map fst ys) rows).
  Proof.
    induction ys as [|[k y] t IH]; intros idone s cols scols rows st Hring Hcells HR Hnd Hinc.
    - exists s. rewrite bump_cover_0. simpl. auto.
    - cbn [map fst snd] in Hnd, Hinc. apply NoDup_cons_iff in Hnd. destruct Hnd as [Hk Hnd].
      destruct (cover_ok s nc N G cols scols rows k HR (Hinc k (or_introl eq_refl))) as [m [Hcv [HRm [Hun _]]]].
      destruct (Rep_static _ _ _ _ _ _ _ HR) as [HS _]. destruct (Rep_static _ _ _ _ _ _ _ HRm) as [HSm _].
      assert (Hcol : forall s', Static s' nc N G -> column s' y = hdr k).
      { intros s' HS'. apply (Static_cell s' nc N G g k y HS' Hg). apply Hcells. left. reflexivity. }
      assert (Hrg : forall s', Static s' nc N G ->
                dring (right s') (left s') x (map snd idone ++ y :: map snd t)).
      { intros s' HS'. rewrite map_app in Hring. cbn [map snd] in Hring. rewrite Hring.
        apply (Static_row s' nc N G g x HS' Hg Hx). }
      destruct (IH (idone ++ [(k, y)]) m (rmv k cols) (rmv k scols) (rowsdel k rows) (bump_cover 1 st))
        as [sK [R1 [R2 HRK]]]; [ | | exact HRm | exact Hnd | | ].
      + rewrite <- app_assoc. exact Hring.
      + intros p Hp. apply Hcells. right. exact Hp.
      + intros z Hz. apply in_rmv_app. split; [apply Hinc; right; exact Hz | intros ->; contradiction].
      + exists sK. split; [|split; [|exact HRK]].
        * exists (m, bump_cover 1 st). unfold cbody at 1. cbn [fst snd]. rewrite (Hcol s HS), Hcv.
          split; [reflexivity|]. split; [exact (dring_succ _ _ _ _ _ _ (Hrg m HSm))|].
          rewrite bump_cover_add in R1. exact R1.
        * cbn [map snd rev]. apply run_app with (a' := m).
          { rewrite map_app in R2. cbn [map snd] in R2. rewrite last_last in R2. exact R2. }
          exists s. unfold ubody at 1. rewrite (Hcol m HSm). split; [exact Hun|].
          split; [exact (dring_pred _ _ _ _ _ _ (Hrg s HS)) | reflexivity].
  Qed.
End SelectRow.

(* Selecting row g at its node in column c, in a state where c is covered already: the walk to the right covers the
   other columns of g and gives the functional model's next state; the walk to the left undoes it. *)
Theorem select_row_ok nc N G s1 cols scols rows c g st :
  Rep s1 nc N G (rmv c cols) (rmv c scols) (rowsdel c rows) ->
  In g G -> ghas c g = true -> (forall k, In k (gcols g) -> In k (cols ++ scols)) ->
  exists sK scols' rows',
    cover_others (gcell c g) (s1, st) = Some (sK, bump_cover (length (gcols g) - 1) st)
    /\ uncover_others (gcell c g) sK = Some s1
    /\ Rep sK nc N G (remove_cols (gcols g) cols) scols' rows'
    /\ map erase rows' = remove_rows (erase g) (map erase rows)
    /\ row_id s1 (gcell c g) = fst g /\ gcell c g <> hdr c.
Proof.
  intros HR1 HgG Hcg Hclo. set (x := gcell c g).
  destruct (Rep_static _ _ _ _ _ _ _ HR1) as [HS1 HL1].
  assert (GR : GRow g) by (apply HS1; exact HgG).
  assert (Hx : In x (gids g)) by (apply gcell_gids; exact Hcg).
  destruct (row_split g c GR Hcg) as [ys [Hys [Err P]]]. fold x in Err.
  assert (Hnd : NoDup (c :: map fst ys)) by (apply (Permutation_NoDup P), GR).
  apply NoDup_cons_iff in Hnd. destruct Hnd as [Hc Hnd].
  assert (Hall : forall k, In k (c :: map fst ys) <-> In k (gcols g)).
  { intros k. split; apply Permutation_in; [symmetry|]; exact P. }
  destruct (select_run nc N G g x HgG Hx ys [] s1 (rmv c cols) (rmv c scols) (rowsdel c rows) st)
    as [sK [R1 [R2 HRK]]]; [symmetry; exact Err | exact Hys | exact HR1 | exact Hnd | | ].
  { intros k Hk. apply in_rmv_app. split; [apply Hclo, Hall; right; exact Hk | intros ->; exact (Hc Hk)]. }
  destruct (Rep_static _ _ _ _ _ _ _ HRK) as [HSK HLK].
  destruct (Static_row _ _ _ _ g x HS1 HgG Hx) as [[Hr1 _] [Hlen Hnx]].
  destruct (Static_row _ _ _ _ g x HSK HgG Hx) as [[_ HrK] _].
  rewrite <- Err in R1, R2.
  exists sK, (rmvs (map fst ys) (rmv c scols)), (rowsdels (c :: map fst ys) rows).
  apply Permutation_length in P. cbn [length] in P. rewrite map_length in P.
  rewrite P, <- (rmvs_remove_cols _ _ cols Hall). cbn [Nat.sub]. rewrite Nat.sub_0_r.
  split; [|split; [|split; [exact HRK|split; [exact (rowsdels_remove_rows _ (erase g) rows Hall)|]]]].
  - unfold cover_others. cbn [fst]. rewrite (chain_hd _ _ _ _ Hr1).
    apply walk_run; [exact R1 | exact Hnx|]. unfold loop_fuel. rewrite (lens_n_ids s1 N HL1). lia.
  - unfold uncover_others. rewrite (chain_hd _ _ _ _ HrK).
    apply walk_run; [exact R2 | rewrite <- in_rev; exact Hnx|].
    unfold loop_fuel. rewrite (lens_n_ids sK N HLK), rev_length. lia.
  - destruct HS1 as [_ HRow1]. destruct (HRow1 g HgG) as [_ [Hcells1 _]].
    destruct (Hcells1 c x (gcell_in c g Hcg)) as [Hcnc [Hxr [_ Hrow]]].
    split; [exact Hrow | unfold hdr; lia].
Qed.
