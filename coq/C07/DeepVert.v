(* Vertical structure: every active column j owns a doubly linked ring hdr j -> V j (down / up), its size field is the
   ring length.  Unlinking a node of an active column removes it from that ring and leaves every other ring alone;
   relinking in the reverse order restores the state exactly (the dancing-links property). *)
From Coq Require Import List Arith Bool Lia.
From SV Require Import C07.Dlx C07.DlxSpec C07.DeepLinks C07.DeepBase C07.DeepOps.
Import ListNotations.

Definition VCol (s : lst) (nc N j : nat) (l : list nat) : Prop :=
  dring (down s) (up s) (hdr j) l /\ NoDup l /\ csize s (hdr j) = length l /\
  (forall y, In y l -> column s y = hdr j /\ 2 + nc <= y < N) /\ j < nc.

Definition VInv (s : lst) (nc N : nat) (act : list nat) (V : nat -> list nat) : Prop :=
  lens s N /\ 2 + nc <= N /\ forall j, In j act -> VCol s nc N j (V j).

Definition Vdel (ys : list nat) (V : nat -> list nat) : nat -> list nat :=
  fun k => filter (fun z => negb (mem z ys)) (V k).

Lemma VInv_ext_in s nc N act V V' :
  (forall k, In k act -> V k = V' k) -> VInv s nc N act V -> VInv s nc N act V'.
Proof. intros E [A [B C]]. split; [exact A|]. split; [exact B|]. intros j Hj. rewrite <- E by exact Hj. apply C. exact Hj. Qed.

Lemma VInv_ext s nc N act V V' : (forall k, V k = V' k) -> VInv s nc N act V -> VInv s nc N act V'.
Proof. intros E. apply VInv_ext_in. intros k _. apply E. Qed.

Lemma VInv_sub s nc N act act' V : incl act' act -> VInv s nc N act V -> VInv s nc N act' V.
Proof. intros I [A [B C]]. split; [exact A|]. split; [exact B|]. intros j Hj. apply C. apply I. exact Hj. Qed.

Lemma filter_remove_len (y : nat) l : NoDup l -> In y l ->
  length (filter (fun z => negb (z =? y)) l) = length l - 1.
Proof.
  intros Hnd Hy. apply in_split in Hy. destruct Hy as [l1 [l2 ->]].
  rewrite filter_neq_split by (apply NoDup_remove_2; exact Hnd).
  rewrite !app_length. simpl. lia.
Qed.

Lemma Vdel_single y V k : Vdel [y] V k = filter (fun z => negb (z =? y)) (V k).
Proof. unfold Vdel. apply filter_ext. intros z. unfold mem. simpl. rewrite orb_false_r. reflexivity. Qed.

Lemma Vdel_cons y t V k : Vdel (y :: t) V k = Vdel t (Vdel [y] V) k.
Proof.
  unfold Vdel. rewrite filter_filter. apply filter_ext. intros z.
  unfold mem. simpl. rewrite orb_false_r. apply negb_orb.
Qed.

Lemma Vdel_nil V k : Vdel [] V k = V k.
Proof. unfold Vdel. apply filter_id. intros. reflexivity. Qed.

Lemma Vdel_notin ys V k : (forall y, In y ys -> ~ In y (V k)) -> Vdel ys V k = V k.
Proof.
  intros H. unfold Vdel. apply filter_id. intros z Hz. apply negb_true_iff. apply mem_false_In.
  intros K. exact (H z K Hz).
Qed.

Lemma VCol_nodup s nc N j l : VCol s nc N j l -> NoDup (hdr j :: l).
Proof.
  intros [_ [Hnd [_ [Hc Hj]]]]. constructor; [|exact Hnd].
  intros K. apply Hc in K. unfold hdr in K. lia.
Qed.

Lemma VCol_length s nc N j l : VCol s nc N j l -> length l <= N.
Proof. intros [_ [Hnd [_ [Hc _]]]]. apply nodup_bound; [exact Hnd|]. intros z Hz. apply Hc in Hz. lia. Qed.

Lemma VCol_disj s nc N j k l l' z :
  VCol s nc N j l -> VCol s nc N k l' -> j <> k -> In z (hdr j :: l) -> In z (hdr k :: l') -> False.
Proof.
  intros [_ [_ [_ [Hc Hj]]]] [_ [_ [_ [Hc' Hk]]]] Hne [A|A] [B|B]; unfold hdr in *.
  - lia.
  - apply Hc' in B. lia.
  - apply Hc in A. lia.
  - apply Hc in A. apply Hc' in B. destruct A as [A _], B as [B _]. rewrite A in B. lia.
Qed.

Section Unlink1.
  Variables (s : lst) (nc N : nat) (act : list nat) (V : nat -> list nat) (j y : nat).
  Hypothesis HV : VInv s nc N act V.
  Hypothesis Hj : In j act.
  Hypothesis Hy : In y (V j).

  Lemma linked_facts :
    lens s N /\ down s y < N /\ up s y < N /\ column s y = hdr j /\ hdr j < N /\ down s y <> y /\ up s y <> y
    /\ up s (down s y) = y /\ down s (up s y) = y /\ In (down s y) (hdr j :: V j) /\ In (up s y) (hdr j :: V j)
    /\ 1 <= csize s (hdr j).
  Proof.
    destruct HV as [Hl [HN HC]]. pose proof (HC j Hj) as VC.
    pose proof (VCol_nodup _ _ _ _ _ VC) as Hnd.
    destruct VC as [Hr [Hndl [Hsz [Hcol Hjn]]]].
    destruct (dring_linked _ _ _ _ _ Hr Hnd Hy) as [A [B [C [D [E F]]]]].
    assert (Hh : hdr j < N) by (unfold hdr; lia).
    assert (R : forall z, In z (hdr j :: V j) -> z < N).
    { intros z [<-|Hz]; [exact Hh | apply Hcol in Hz; lia]. }
    assert (Hs1 : 1 <= csize s (hdr j)).
    { rewrite Hsz. destruct (V j); [contradiction | simpl; lia]. }
    destruct (Hcol y Hy) as [Hcy _].
    split; [exact Hl|]. split; [apply R; exact E|]. split; [apply R; exact F|].
    split; [exact Hcy|]. split; [exact Hh|]. auto 10.
  Qed.

  Lemma unlink_v_VInv : VInv (unlink_v y s) nc N act (Vdel [y] V).
  Proof.
    destruct linked_facts as [Hl [Hd [Hu [Hc [Hh [Hdy [Huy [Hud [Hdu [Hdin [Huin Hsz]]]]]]]]]]].
    assert (Hcn : column s y < N) by (rewrite Hc; exact Hh).
    destruct HV as [_ [HN HC]].
    split; [exact (unlink_v_lens s N y Hl)|]. split; [exact HN|].
    intros k Hk. pose proof (HC k Hk) as VCk. pose proof (HC j Hj) as VCj.
    destruct (unlink_v_fields s y) as [_ [_ [EC _]]].
    assert (Ecol : forall z, column (unlink_v y s) z = column s z) by (intros z; unfold column; rewrite EC; reflexivity).
    rewrite Vdel_single.
    destruct (Nat.eq_dec k j) as [->|Hkj].
    - destruct VCj as [Hr [Hndl [Hs [Hcol Hjn]]]].
      split; [|split; [|split; [|split]]].
      + apply (dring_unlink (down s) (up s) _ _ (hdr j) (V j) y Hr); [ | exact Hy | | ].
        * eapply VCol_nodup. apply HC. exact Hj.
        * exact (unlink_v_down s N y Hl Hu Hdy).
        * exact (unlink_v_up s N y Hl Hd).
      + apply NoDup_filter. exact Hndl.
      + rewrite (unlink_v_size s N y Hl Hcn), Hc, upd_same.
        rewrite filter_remove_len by assumption. rewrite Hs. reflexivity.
      + intros z Hz. apply filter_In in Hz. destruct Hz as [Hz _]. rewrite Ecol. apply Hcol. exact Hz.
      + exact Hjn.
    - assert (Hny : ~ In y (V k)).
      { intros K. apply (VCol_disj s nc N j k (V j) (V k) y VCj VCk); [congruence | right; exact Hy | right; exact K]. }
      rewrite filter_id.
      2:{ intros z Hz. apply negb_true_iff. apply Nat.eqb_neq. intros ->. contradiction. }
      destruct VCk as [Hr [Hndl [Hs [Hcol Hkn]]]].
      split; [|split; [exact Hndl|split; [|split; [|exact Hkn]]]].
      + eapply dring_ext; [|exact Hr]. intros z Hz.
        (* the neighbours of y are on column j's ring, z is on column k's *)
        assert (Hother : forall w, In w (hdr j :: V j) -> z <> w).
        { intros w Hw ->. apply (VCol_disj s nc N j k (V j) (V k) w (HC j Hj) (HC k Hk)); [congruence | exact Hw | exact Hz]. }
        rewrite (unlink_v_down s N y Hl Hu Hdy), (unlink_v_up s N y Hl Hd), !upd_other by (apply Hother; assumption). auto.
      + rewrite (unlink_v_size s N y Hl Hcn), Hc, upd_other by (unfold hdr; lia). exact Hs.
      + intros z Hz. rewrite Ecol. apply Hcol. exact Hz.
  Qed.

  Lemma relink_unlink_here : relink_v y (unlink_v y s) = s.
  Proof.
    destruct linked_facts as [Hl [Hd [Hu [Hc [Hh [Hdy [Huy [Hud [Hdu [Hdin [Huin Hsz]]]]]]]]]]].
    eapply relink_unlink_v; eauto; rewrite Hc; assumption.
  Qed.
End Unlink1.

Definition owned (act : list nat) (V : nat -> list nat) (ys : list nat) : Prop :=
  forall y, In y ys -> exists j, In j act /\ In y (V j).

Lemma owned_drop act V a b : NoDup (a ++ b) -> owned act V (a ++ b) -> owned act (Vdel a V) b.
Proof.
  intros Hnd Ho z Hz. destruct (Ho z) as [j [Hj Hin]]; [apply in_or_app; right; exact Hz|].
  exists j. split; [exact Hj|]. unfold Vdel. apply filter_In. split; [exact Hin|].
  apply negb_true_iff, mem_false_In. intros K. exact (nodup_app_disj _ _ Hnd z K Hz).
Qed.

Lemma unlink_fold nc N act : forall ys s V,
  VInv s nc N act V -> NoDup ys -> owned act V ys ->
  VInv (foldop unlink_v ys s) nc N act (Vdel ys V)
  /\ fL (foldop unlink_v ys s) = fL s /\ fR (foldop unlink_v ys s) = fR s
  /\ fC (foldop unlink_v ys s) = fC s /\ fRow (foldop unlink_v ys s) = fRow s
  /\ foldop relink_v (rev ys) (foldop unlink_v ys s) = s.
Proof.
  induction ys as [|y t IH]; intros s V HV Hnd Ho.
  - simpl. split; [|auto 6]. eapply VInv_ext; [|exact HV]. intros k. symmetry. apply Vdel_nil.
  - destruct (Ho y (or_introl eq_refl)) as [j [Hj Hy]].
    pose proof (unlink_v_VInv s nc N act V j y HV Hj Hy) as HV1.
    assert (Hnd' : NoDup t) by (inversion Hnd; assumption).
    destruct (IH (unlink_v y s) (Vdel [y] V) HV1 Hnd' (owned_drop _ _ [y] t Hnd Ho)) as [A [B [C [D [E F]]]]].
    change (foldop unlink_v (y :: t) s) with (foldop unlink_v t (unlink_v y s)).
    split; [eapply VInv_ext; [|exact A]; intros k; symmetry; apply Vdel_cons|].
    rewrite B, C, D, E. do 4 (split; [reflexivity|]).
    simpl rev. rewrite foldop_app, F. apply (relink_unlink_here s nc N act V j y HV Hj Hy).
Qed.
