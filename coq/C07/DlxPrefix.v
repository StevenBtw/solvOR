(* Initial segments: what holds between any two elements of a list holds within each of its prefixes. *)
From Coq Require Import List.
From SV Require Import C07.DlxEnum.

Lemma pairwise_prefix {A} (R : A -> A -> Prop) P Q : pairwise R (P ++ Q) -> pairwise R P.
Proof. intros H. apply pairwise_app in H. apply H. Qed.
