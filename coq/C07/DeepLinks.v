(* POINTER-LEVEL model of solvor/dlx.py (_build_links, _cover, _uncover, search).  Definitions only.

   Nodes are natural-number ids; every Python attribute is one finite map `id -> nat` stored as a `list nat`
   indexed by the id (`get` = nth, `set` = pointwise update; out-of-range update = no-op):
       left / right / up / down           -> fL fR fU fD     (object identity `a is b` -> a =? b on ids)
       node.column                        -> fC              (id of the column header)
       node.row                           -> fRow
       column.size                        -> fS              (meaningful at header ids only)
   Ids:  0 = root, 1 = secondary_root, 2+i = col_headers[i], then one fresh id per `_Node(column=col, row=row_idx)`
   in creation order (a fresh node points to itself in all four directions: __post_init__).
   Every `while x is not y` loop is a structurally recursive walk with explicit fuel = number of allocated ids + 1;
   exhaustion = None (-> OutOfFuel), proved impossible under the representation invariant in DeepFinal.v
   (psearch_refines) and Props/C07_deep.v (C07_pointer_fuel).
   The statements inside the loops are transcribed one assignment at a time IN THE ORDER OF THE CODE (the right-hand
   sides are read from the state produced by the previous assignment).
   Counters, limits, result construction: shared with the functional model SV.C07.Dlx (sst, ms_hit, finish ...). *)
From Coq Require Import List Arith Bool ZArith.
From SV Require Import Common.Corr C07.Dlx.
Import ListNotations.

Definition get (l : list nat) (i : nat) : nat := nth i l 0.
Fixpoint set (l : list nat) (i v : nat) : list nat :=
  match l, i with
  | [], _ => []
  | _ :: t, 0 => v :: t
  | x :: t, S i' => x :: set t i' v
  end.

Record lst := { fL : list nat; fR : list nat; fU : list nat; fD : list nat;
                fC : list nat; fRow : list nat; fS : list nat }.

Definition setL (s : lst) (i v : nat) : lst :=
  {| fL := set (fL s) i v; fR := fR s; fU := fU s; fD := fD s; fC := fC s; fRow := fRow s; fS := fS s |}.
Definition setR (s : lst) (i v : nat) : lst :=
  {| fL := fL s; fR := set (fR s) i v; fU := fU s; fD := fD s; fC := fC s; fRow := fRow s; fS := fS s |}.
Definition setU (s : lst) (i v : nat) : lst :=
  {| fL := fL s; fR := fR s; fU := set (fU s) i v; fD := fD s; fC := fC s; fRow := fRow s; fS := fS s |}.
Definition setD (s : lst) (i v : nat) : lst :=
  {| fL := fL s; fR := fR s; fU := fU s; fD := set (fD s) i v; fC := fC s; fRow := fRow s; fS := fS s |}.
Definition setS (s : lst) (i v : nat) : lst :=
  {| fL := fL s; fR := fR s; fU := fU s; fD := fD s; fC := fC s; fRow := fRow s; fS := set (fS s) i v |}.

Definition left (s : lst) (i : nat) := get (fL s) i.
Definition right (s : lst) (i : nat) := get (fR s) i.
Definition up (s : lst) (i : nat) := get (fU s) i.
Definition down (s : lst) (i : nat) := get (fD s) i.
Definition column (s : lst) (i : nat) := get (fC s) i.
Definition row_id (s : lst) (i : nat) := get (fRow s) i.
Definition csize (s : lst) (i : nat) := get (fS s) i.

Definition ROOT : nat := 0.
Definition SROOT : nat := 1.
Definition hdr (i : nat) : nat := 2 + i.
Definition n_ids (s : lst) : nat := length (fL s).
Definition loop_fuel (s : lst) : nat := S (n_ids s).

(* ---------------------------------------------------------------- _build_links *)
(* root = _Node(); secondary_root = _Node(); col = _Column(name) for every name: all self-linked, size 0 *)
Definition init_links (nh : nat) : lst :=
  let n := 2 + nh in
  {| fL := seq 0 n; fR := seq 0 n; fU := seq 0 n; fD := seq 0 n; fC := seq 0 n;
     fRow := repeat 0 n; fS := repeat 0 n |}.

(* for idx, name in enumerate(col_names): if <sel idx>: col.left = prev; prev.right = col; prev = col *)
Fixpoint link_headers (sel : nat -> bool) (idxs : list nat) (prev : nat) (s : lst) : nat * lst :=
  match idxs with
  | [] => (prev, s)
  | i :: t =>
      if sel i then
        let col := hdr i in
        let s1 := setL s col prev in
        let s2 := setR s1 prev col in
        link_headers sel t col s2
      else link_headers sel t prev s
  end.
(* prev.right = root; root.left = prev *)
Definition close_ring (root : nat) (p : nat * lst) : lst :=
  let (prev, s) := p in setL (setR s prev root) root prev.

(* node = _Node(column=col, row=row_idx) *)
Definition alloc (s : lst) (col row_idx : nat) : nat * lst :=
  let id := n_ids s in
  (id, {| fL := fL s ++ [id]; fR := fR s ++ [id]; fU := fU s ++ [id]; fD := fD s ++ [id];
          fC := fC s ++ [col]; fRow := fRow s ++ [row_idx]; fS := fS s ++ [0] |}).

(* for col_idx, val in enumerate(row): ...   fp = (first, prev_node), None while first is None.
   None = IndexError raised by col_headers[col_idx] (nh = len(col_headers)) *)
Fixpoint build_row (nh row_idx : nat) (j : nat) (r : list bool) (fp : option (nat * nat)) (s : lst)
  : option (option (nat * nat) * lst) :=
  match r with
  | [] => Some (fp, s)
  | val :: t =>
      if val then
        if j <? nh then
          let col := hdr j in
          let (node, s0) := alloc s col row_idx in
          let s1 := setU s0 node (up s0 col) in            (* node.up = col.up *)
          let s2 := setD s1 node col in                    (* node.down = col *)
          let s3 := setD s2 (up s2 col) node in            (* col.up.down = node *)
          let s4 := setU s3 col node in                    (* col.up = node *)
          let s5 := setS s4 col (csize s4 col + 1) in      (* col.size += 1 *)
          match fp with
          | None => build_row nh row_idx (S j) t (Some (node, node)) s5
          | Some (first, prev) =>
              let s6 := setL s5 node prev in               (* node.left = prev_node *)
              let s7 := setR s6 prev node in               (* prev_node.right = node *)
              build_row nh row_idx (S j) t (Some (first, node)) s7
          end
        else None
      else build_row nh row_idx (S j) t fp s
  end.

(* for row_idx, row in enumerate(matrix): ...; if first is not None: first.left = prev_node; prev_node.right = first *)
Fixpoint build_rows (nh : nat) (i : nat) (m : list (list bool)) (s : lst) : option lst :=
  match m with
  | [] => Some s
  | r :: t =>
      match build_row nh i 0 r None s with
      | None => None
      | Some (None, s1) => build_rows nh (S i) t s1
      | Some (Some (first, prev), s1) =>
          let s2 := setL s1 first prev in
          let s3 := setR s2 prev first in
          build_rows nh (S i) t s3
      end
  end.

(* the non-degenerate part of _build_links; None = IndexError *)
Definition build_links (inp : input) : option lst :=
  let nh := length (col_names inp) in
  let idxs := seq 0 nh in
  let s0 := init_links nh in
  let s1 := close_ring ROOT (link_headers (fun i => negb (is_secondary inp i)) idxs ROOT s0) in
  let s2 := close_ring SROOT (link_headers (fun i => is_secondary inp i) idxs SROOT s1) in
  build_rows nh 0 (matrix inp) s2.

(* ---------------------------------------------------------------- loops *)
(* x = start; while x is not stop: <body x>; x = next(x)      (next is read in the state AFTER the body) *)
Fixpoint walk {A : Type} (fuel : nat) (next : A -> nat -> nat) (stop : nat) (body : nat -> A -> option A)
         (x : nat) (a : A) : option A :=
  match fuel with
  | 0 => None
  | S f =>
      if x =? stop then Some a
      else match body x a with
           | None => None
           | Some a' => walk f next stop body (next a' x) a'
           end
  end.

(* ---------------------------------------------------------------- _cover / _uncover *)
(* row_node.down.up = row_node.up; row_node.up.down = row_node.down; row_node.column.size -= 1 *)
Definition unlink_v (rn : nat) (s : lst) : lst :=
  let s1 := setU s (down s rn) (up s rn) in
  let s2 := setD s1 (up s1 rn) (down s1 rn) in
  let c := column s2 rn in
  setS s2 c (csize s2 c - 1).

(* row_node.column.size += 1; row_node.down.up = row_node; row_node.up.down = row_node *)
Definition relink_v (rn : nat) (s : lst) : lst :=
  let c := column s rn in
  let s1 := setS s c (csize s c + 1) in
  let s2 := setU s1 (down s1 rn) rn in
  setD s2 (up s2 rn) rn.

(* col.right.left = col.left; col.left.right = col.right *)
Definition unlink_h (col : nat) (s : lst) : lst :=
  let s1 := setL s (right s col) (left s col) in
  setR s1 (left s1 col) (right s1 col).
(* col.right.left = col; col.left.right = col *)
Definition relink_h (col : nat) (s : lst) : lst :=
  let s1 := setL s (right s col) col in
  setR s1 (left s1 col) col.

Definition cover (col : nat) (s : lst) : option lst :=
  let s1 := unlink_h col s in
  walk (loop_fuel s1) down col                       (* node = col.down; while node is not col: ...; node = node.down *)
       (fun node s2 =>
          walk (loop_fuel s2) right node             (* row_node = node.right; while row_node is not node: ... .right *)
               (fun rn s3 => Some (unlink_v rn s3))
               (right s2 node) s2)
       (down s1 col) s1.

Definition uncover (col : nat) (s : lst) : option lst :=
  match
    walk (loop_fuel s) up col                        (* node = col.up; while node is not col: ...; node = node.up *)
         (fun node s2 =>
            walk (loop_fuel s2) left node            (* row_node = node.left; while row_node is not node: ... .left *)
                 (fun rn s3 => Some (relink_v rn s3))
                 (left s2 node) s2)
         (up s col) s
  with
  | None => None
  | Some s1 => Some (relink_h col s1)
  end.

(* ---------------------------------------------------------------- search *)
(* col = root.right; while col is not root: if col.size < min_size: ...; if min_size == 0: break; col = col.right
   (min_size = inf <-> best = None) *)
Fixpoint pchoose (fuel : nat) (s : lst) (col : nat) (best : option (nat * nat)) : option (option (nat * nat)) :=
  match fuel with
  | 0 => None
  | S f =>
      if col =? ROOT then Some best
      else
        let sz := csize s col in
        let better := match best with None => true | Some (_, bs) => sz <? bs end in
        if better then (if sz =? 0 then Some (Some (col, sz)) else pchoose f s (right s col) (Some (col, sz)))
        else pchoose f s (right s col) best
  end.

Section PSearch.
  Variable fa : bool.
  Variable ms : option Z.
  Variable mi : Z.

  (* node = row_node.right; while node is not row_node: _cover(node.column); covers += 1; node = node.right *)
  Definition cover_others (rn : nat) (p : lst * sst) : option (lst * sst) :=
    walk (loop_fuel (fst p)) (fun q => right (fst q)) rn
         (fun node q => match cover (column (fst q) node) (fst q) with
                        | None => None
                        | Some s' => Some (s', bump_cover 1 (snd q))
                        end)
         (right (fst p) rn) p.
  (* node = row_node.left; while node is not row_node: _uncover(node.column); node = node.left *)
  Definition uncover_others (rn : nat) (s : lst) : option lst :=
    walk (loop_fuel s) left rn (fun node s' => uncover (column s' node) s') (left s rn) s.

  (* row_node = min_col.down; while row_node is not min_col: ...; row_node = row_node.down;  _uncover(min_col); return False *)
  Fixpoint ptry_rows (rec : lst -> list nat -> sst -> option (bool * sst * lst))
           (lf : nat) (mc rn : nat) (s : lst) (cur : list nat) (st : sst) : option (bool * sst * lst) :=
    match lf with
    | 0 => None
    | S lf' =>
        if rn =? mc then
          match uncover mc s with None => None | Some s' => Some (false, st, s') end
        else
          let cur1 := row_id s rn :: cur in                                  (* current.append(row_node.row) *)
          match cover_others rn (s, st) with
          | None => None
          | Some (s1, st1) =>
              match rec s1 cur1 st1 with
              | None => None
              | Some (b, st2, s2) =>
                  let continue :=                                             (* current.pop(); uncover ...; next row *)
                    match uncover_others rn s2 with
                    | None => None
                    | Some s3 => ptry_rows rec lf' mc (down s3 rn) s3 cur st2
                    end in
                  if b then
                    if negb fa then Some (true, st2, s2)
                    else if ms_hit ms (length (sols st2)) then Some (true, st2, s2)
                    else continue
                  else continue
              end
          end
    end.

  Fixpoint psearch (fuel : nat) (s : lst) (cur : list nat) (st : sst) : option (bool * sst * lst) :=
    match fuel with
    | 0 => None
    | S f =>
        let st1 := bump_iter st in
        if (mi <? Z.of_nat (iters st1))%Z then Some (false, st1, s)
        else if right s ROOT =? ROOT then                                     (* root.right is root *)
          let st2 := add_sol (rev cur) st1 in
          if negb fa then Some (true, st2, s)
          else if ms_hit ms (length (sols st2)) then Some (true, st2, s)
          else Some (false, st2, s)
        else
          match pchoose (loop_fuel s) s (right s ROOT) None with
          | None => None
          | Some None => Some (false, st1, s)
          | Some (Some (mc, sz)) =>
              if sz =? 0 then Some (false, st1, s)
              else
                match cover mc s with                                         (* _cover(min_col); covers += 1 *)
                | None => None
                | Some s1 => ptry_rows (psearch f) (loop_fuel s1) mc (down s1 mc) s1 cur (bump_cover 1 st1)
                end
          end
    end.
End PSearch.

Definition psolve (inp : input) : outcome :=
  if degenerate inp then Done (degenerate_result (find_all inp) (max_solutions inp))
  else
    match build_links inp with
    | None => IndexError
    | Some s =>
        match psearch (find_all inp) (max_solutions inp) (max_iter inp) (fuel_of inp) s [] init_st with
        | None => OutOfFuel
        | Some (_, st, _) => Done (finish (find_all inp) (max_solutions inp) (max_iter inp) st)
        end
    end.

(* what the harness evaluates: the pointer model equals the implementation's observable AND the functional model *)
Definition deep_corr (c : input * outcome) : bool :=
  outcome_eqb (psolve (fst c)) (snd c) && outcome_eqb (psolve (fst c)) (solve (fst c)).
