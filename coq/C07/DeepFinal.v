(* The pointer-level search() computes exactly what the functional model's search computes on the abstraction
   (psearch_refines); hence the pointer-level solver equals the functional model on every input (search_refines).
   Last, _cover / _uncover / _build_links in terms of the abstraction function `abs` and the invariant `LInv`. *)
From Coq Require Import List Arith Bool Lia ZArith.
From SV Require Import C07.Dlx C07.DlxSpec C07.DlxEnum C07.DlxSearch.
From SV Require Import C07.DeepLinks C07.DeepBase C07.DeepOps C07.DeepVert C07.DeepRows C07.DeepRep C07.DeepCover
                       C07.DeepAbs C07.DeepBuildAll.
Import ListNotations.

(* c is on the primary or on the secondary header ring *)
Definition active (s : lst) (c : nat) : bool := mem c (acols s ++ ascols s).

(* the functional model's step "column c leaves the ring, every row that has c becomes inactive" *)
Definition fstep (c : nat) (a : list nat * list row) : list nat * list row :=
  (remove_cols [c] (fst a), filter (fun r => negb (has c r)) (snd a)).

Fixpoint cover_all (ks : list nat) (s : lst) : option lst :=
  match ks with
  | [] => Some s
  | k :: t => match cover (hdr k) s with Some s1 => cover_all t s1 | None => None end
  end.
Fixpoint uncover_all (ks : list nat) (s : lst) : option lst :=
  match ks with
  | [] => Some s
  | k :: t => match uncover (hdr k) s with Some s1 => uncover_all t s1 | None => None end
  end.

Lemma filter_has_erase c rows : filter (has c) (map erase rows) = map erase (filter (ghas c) rows).
Proof. rewrite filter_map_comm. reflexivity. Qed.

Lemma size_erase c rows : size (map erase rows) c = length (vcol c rows).
Proof. unfold size, vcol. rewrite filter_has_erase, !map_length. reflexivity. Qed.

(* the best (column, size) so far of choose_loop, as pchoose holds it: the column by its header id *)
Definition trb (b : option (nat * nat)) : option (nat * nat) :=
  match b with None => None | Some (c, sz) => Some (hdr c, sz) end.

Lemma pchoose_ok s erows : forall rest a fb fuel,
  (forall j, In j rest -> csize s (hdr j) = size erows j) ->
  chain (right s) a (map hdr rest) ROOT -> length rest < fuel ->
  pchoose fuel s (right s a) (trb fb) = Some (trb (choose_loop erows rest fb)).
Proof.
  induction rest as [|j t IH]; intros a fb fuel Hsz Hch Hf; (destruct fuel; [simpl in Hf; lia|]); cbn [pchoose].
  - simpl in Hch. rewrite Hch. reflexivity.
  - destruct Hch as [E Hch]. rewrite E.
    assert (Hne : (hdr j =? ROOT) = false) by reflexivity.
    rewrite Hne, (Hsz j (or_introl eq_refl)). cbn [choose_loop].
    assert (Eb : match trb fb with None => true | Some (_, bs) => size erows j <? bs end
                 = match fb with None => true | Some (_, bs) => size erows j <? bs end).
    { destruct fb as [[bc bs]|]; reflexivity. }
    assert (Hsz' : forall k, In k t -> csize s (hdr k) = size erows k) by (intros k Hk; apply Hsz; right; exact Hk).
    assert (Hf' : length t < fuel) by (simpl in Hf; lia).
    rewrite Eb. destruct (match fb with None => true | Some (_, bs) => size erows j <? bs end).
    + destruct (size erows j =? 0); [reflexivity|]. apply (IH (hdr j) (Some (j, size erows j)) fuel Hsz' Hch Hf').
    + apply (IH (hdr j) fb fuel Hsz' Hch Hf').
Qed.

(* a return of the pointer search with the functional search's flag and counters, in a state s0 that is s unless the flag
   is true *)
Lemma search_return (b0 : bool) (st0 : sst) (s0 s : lst) b st' :
  (b0 = false -> s0 = s) -> Some (b0, st0) = Some (b, st') ->
  exists s', Some (b0, st0, s0) = Some (b, st', s') /\ (b = false -> s' = s).
Proof. intros H E. injection E as <- <-. exists s0. auto. Qed.

Section SearchRef.
  Variables (fa : bool) (ms : option Z) (mi : Z) (nc N : nat) (G : list grow).

  Definition refines (f : nat) : Prop :=
    forall s cols scols rows cur st b st',
      Rep s nc N G cols scols rows ->
      search fa ms mi f cols (map erase rows) cur st = Some (b, st') ->
      exists s', psearch fa ms mi f s cur st = Some (b, st', s') /\ (b = false -> s' = s).

  Section Rows.
    Variable f : nat.
    Hypothesis IH : refines f.
    Variables (s s1 : lst) (cols scols : list nat) (rows : list grow) (c : nat) (cur : list nat).
    Hypothesis HR : Rep s nc N G cols scols rows.
    Hypothesis HR1 : Rep s1 nc N G (rmv c cols) (rmv c scols) (rowsdel c rows).
    Hypothesis Hun : uncover (hdr c) s1 = Some s.
    Hypothesis Hring : dring (down s1) (up s1) (hdr c) (vcol c rows).

    Let rec := fun (r : row) (st' : sst) =>
                 search fa ms mi f (remove_cols (snd r) cols) (remove_rows r (map erase rows)) (fst r :: cur) st'.

    Lemma ptry_rows_ok : forall gs pre lf st b st',
      pre ++ gs = filter (ghas c) rows -> length gs < lf ->
      try_rows fa ms rec (map erase gs) st = Some (b, st') ->
      exists s', ptry_rows fa ms (psearch fa ms mi f) lf (hdr c) (hd (hdr c) (map (gcell c) gs)) s1 cur st
                 = Some (b, st', s') /\ (b = false -> s' = s).
    Proof.
      induction gs as [|g gs' IHg]; intros pre lf st b st' Hsplit Hlf Htry.
      - destruct lf; [simpl in Hlf; lia|]. cbn [map try_rows] in Htry. cbn [map hd ptry_rows]. rewrite Nat.eqb_refl, Hun.
        apply search_return; auto.
      - destruct lf; [simpl in Hlf; lia|].
        assert (Hgin : In g (filter (ghas c) rows)) by (rewrite <- Hsplit; apply in_or_app; right; left; reflexivity).
        apply filter_In in Hgin. destruct Hgin as [Hg Hcg].
        destruct HR as [_ [_ [_ [[p Hp] Hclo]]]].
        assert (HgG : In g G) by (rewrite Hp in Hg; apply filter_In in Hg; tauto).
        destruct (select_row_ok nc N G s1 cols scols rows c g st HR1 HgG Hcg (fun k => Hclo g k Hg))
          as [sK [scols' [rows' [Hco [Huo [HRK [Erows [Hrow1 Hxne]]]]]]]].
        set (x := gcell c g) in Hco, Huo, Hrow1, Hxne. apply Nat.eqb_neq in Hxne.
        cbn [map try_rows] in Htry. change (snd (erase g)) with (gcols g) in Htry.
        cbn [map hd]. fold x. cbn [ptry_rows]. rewrite Hxne, Hco, Hrow1.
        destruct (rec (erase g) (bump_cover (length (gcols g) - 1) st)) as [[b1 st2]|] eqn:Erec; [|discriminate].
        unfold rec in Erec. cbn [fst snd erase] in Erec. rewrite <- Erows in Erec.
        destruct (IH sK _ _ _ _ _ _ _ HRK Erec) as [s2 [Hps Hs2]].
        rewrite Hps.
        (* what happens after an unsuccessful (or non-final) recursive call *)
        assert (Hnext : down s1 x = hd (hdr c) (map (gcell c) gs')).
        { destruct Hring as [Hr _]. unfold vcol in Hr. rewrite <- Hsplit, map_app in Hr. simpl in Hr.
          apply chain_at in Hr. exact Hr. }
        assert (Hcont : s2 = sK ->
                  forall b st', try_rows fa ms rec (map erase gs') st2 = Some (b, st') ->
                  exists s', match uncover_others x s2 with
                             | Some s3 => ptry_rows fa ms (psearch fa ms mi f) lf (hdr c) (down s3 x) s3 cur st2
                             | None => None
                             end = Some (b, st', s') /\ (b = false -> s' = s)).
        { intros -> b0 st0 Ht. rewrite Huo, Hnext.
          apply (IHg (pre ++ [g]) lf st2 b0 st0); [rewrite <- app_assoc; exact Hsplit | simpl in Hlf; lia | exact Ht]. }
        destruct b1.
        + apply search_true in Erec. destruct Erec as [Hstop _].
          destruct (negb fa) eqn:Efa.
          * apply search_return; [discriminate | exact Htry].
          * destruct (ms_hit ms (length (sols st2))) eqn:Ehit.
            { apply search_return; [discriminate | exact Htry]. }
            { exfalso. destruct Hstop as [A|A]; [rewrite A in Efa; discriminate | congruence]. }
        + apply Hcont; [apply Hs2; reflexivity | exact Htry].
    Qed.
  End Rows.

  Theorem psearch_refines : forall f, refines f.
  Proof.
    induction f as [|f IH]; intros s cols scols rows cur st b st' HR Hs; [discriminate|].
    rewrite search_S in Hs. cbn [psearch].
    destruct (mi <? Z.of_nat (iters (bump_iter st)))%Z.
    { apply search_return; auto. }
    pose proof HR as HR0.
    destruct HR as [HS [HH [HV [Hrows Hclo]]]].
    destruct HH as [R1 [R2 [Hnd Hlt]]].
    destruct cols as [|c0 rest].
    - assert (E : right s ROOT = ROOT) by (destruct R1 as [A _]; exact A).
      rewrite E, Nat.eqb_refl.
      destruct (negb fa); [apply search_return; [discriminate | exact Hs]|].
      destruct (ms_hit ms (length (sols (add_sol (rev cur) (bump_iter st))))); apply search_return; auto; discriminate.
    - assert (Hne : (right s ROOT =? ROOT) = false) by (rewrite (proj1 (proj1 R1)); reflexivity).
      rewrite Hne.
      assert (HL : lens s N) by apply HV.
      pose proof (pchoose_ok s (map erase rows) (c0 :: rest) ROOT None (loop_fuel s)) as Hch.
      cbn [trb] in Hch. rewrite Hch; clear Hch.
      2:{ intros j Hj. rewrite size_erase. destruct HV as [_ [_ HC]].
          destruct (HC j (in_or_app _ _ _ (or_introl Hj))) as [_ [_ [Hsz _]]]. exact Hsz. }
      2:{ apply R1. }
      2:{ unfold loop_fuel. rewrite (lens_n_ids s N HL), <- (map_length hdr). apply Nat.lt_succ_r, nodup_bound.
          - apply nodup_map_hdr. eapply nodup_app_l; eauto.
          - intros z Hz. apply in_map_iff in Hz. destruct Hz as [k [<- Hk]].
            destruct HV as [_ [HN _]]. specialize (Hlt k (in_or_app _ _ _ (or_introl Hk))). unfold hdr. lia. }
      destruct (choose_loop (map erase rows) (c0 :: rest) None) as [[c sz]|] eqn:Ech.
      2:{ apply search_return; auto. }
      cbn [trb]. cbv iota beta.
      destruct (sz =? 0); [apply search_return; auto|].
      apply choose_loop_spec in Ech. destruct Ech as [Ech|[Hc _]]; [discriminate|].
      destruct (cover_ok s nc N G (c0 :: rest) scols rows c HR0 (in_or_app _ _ _ (or_introl Hc)))
        as [s1 [Hcv [HR1 [Hun [Hring _]]]]].
      rewrite Hcv.
      destruct (Rep_static _ _ _ _ _ _ _ HR1) as [_ HL1].
      assert (Hstart : down s1 (hdr c) = hd (hdr c) (map (gcell c) (filter (ghas c) rows))).
      { destruct Hring as [A _]. apply chain_hd in A. exact A. }
      rewrite Hstart.
      rewrite filter_has_erase in Hs.
      apply (ptry_rows_ok f IH s s1 (c0 :: rest) scols rows c cur HR0 HR1 Hun Hring
               (filter (ghas c) rows) [] (loop_fuel s1) _ b st' eq_refl); [|exact Hs].
      unfold loop_fuel. rewrite (lens_n_ids s1 N HL1).
      pose proof (VCol_length _ _ _ _ _ (proj2 (proj2 HV) c (in_or_app _ _ _ (or_introl Hc)))) as H.
      unfold vcol in H. rewrite map_length in H. lia.
  Qed.
End SearchRef.

Lemma has_nonempty c r : has c r = true -> nonemptyb r = true.
Proof. unfold has, nonemptyb. destruct (snd r); [discriminate | reflexivity]. Qed.

Lemma filter_has_ne c rows : filter (has c) (filter nonemptyb rows) = filter (has c) rows.
Proof.
  rewrite filter_filter. apply filter_ext. intros r. destruct (has c r) eqn:E; [|apply andb_false_r].
  rewrite (has_nonempty c r E). reflexivity.
Qed.

Lemma size_ne rows c : size (filter nonemptyb rows) c = size rows c.
Proof. unfold size. rewrite filter_has_ne. reflexivity. Qed.

Lemma choose_loop_ne rows : forall cols best, choose_loop (filter nonemptyb rows) cols best = choose_loop rows cols best.
Proof.
  induction cols as [|c t IH]; intros best; [reflexivity|]. cbn [choose_loop]. rewrite size_ne, !IH. reflexivity.
Qed.

Lemma try_rows_ext fa ms rec rec' : (forall r st, rec r st = rec' r st) ->
  forall cands st, try_rows fa ms rec cands st = try_rows fa ms rec' cands st.
Proof.
  intros E. induction cands as [|r t IH]; intros st; [reflexivity|]. cbn [try_rows]. rewrite E.
  destruct (rec' r (bump_cover (length (snd r) - 1) st)) as [[[|] st']|]; rewrite ?IH; reflexivity.
Qed.

Lemma search_ne fa ms mi : forall f cols rows cur st,
  search fa ms mi f cols (filter nonemptyb rows) cur st = search fa ms mi f cols rows cur st.
Proof.
  induction f as [|f IH]; intros cols rows cur st; [reflexivity|].
  rewrite !search_S. rewrite choose_loop_ne.
  destruct (mi <? Z.of_nat (iters (bump_iter st)))%Z; [reflexivity|].
  destruct cols as [|c0 rest]; [reflexivity|].
  destruct (choose_loop rows (c0 :: rest) None) as [[c sz]|]; [|reflexivity].
  destruct (sz =? 0); [reflexivity|]. rewrite filter_has_ne.
  apply try_rows_ext. intros r st'. unfold remove_rows. rewrite filter_comm. apply IH.
Qed.

(* named after search(), whose refinement (psearch_refines) is the heart of it; the statement is about the whole solver *)
Theorem search_refines : forall inp, psolve inp = solve inp.
Proof.
  intros inp. unfold psolve, solve. destruct (degenerate inp); [reflexivity|].
  destruct (rows_in_range (length (col_names inp)) (mk_rows (matrix inp))) eqn:Hr; cbn [negb].
  - destruct (build_links_ok inp Hr) as [s [N [G [Eb [HR [_ [_ EG]]]]]]]. rewrite Eb.
    destruct (search (find_all inp) (max_solutions inp) (max_iter inp) (fuel_of inp) (prim_cols inp)
                     (mk_rows (matrix inp)) [] init_st) as [[b st']|] eqn:Es.
    + rewrite <- search_ne, <- EG in Es.
      destruct (psearch_refines _ _ _ _ _ _ _ _ _ _ _ _ _ _ _ HR Es) as [s' [Ep _]].
      rewrite Ep. reflexivity.
    + exfalso. revert Es. apply search_fuel. unfold fuel_of. lia.
  - rewrite (build_links_none inp Hr). reflexivity.
Qed.

Lemma psolve_done (Q : input -> result -> Prop) :
  (forall inp r, solve inp = Done r -> Q inp r) -> forall inp r, psolve inp = Done r -> Q inp r.
Proof. intros H inp r. rewrite search_refines. apply H. Qed.

Lemma psolve_valid (Q : input -> result -> Prop) :
  (forall inp r, valid_input inp = true -> solve inp = Done r -> Q inp r) ->
  forall inp r, valid_input inp = true -> psolve inp = Done r -> Q inp r.
Proof. intros H inp r. rewrite search_refines. apply H. Qed.

Lemma rmv_remove_cols c l : rmv c l = remove_cols [c] l.
Proof. unfold rmv, remove_cols. apply filter_ext. intros z. unfold mem. simpl. rewrite orb_false_r. reflexivity. Qed.

Lemma HdrCol_fC s s' nc : HdrCol s nc -> fC s' = fC s -> HdrCol s' nc.
Proof. intros H E z Hz. unfold column. rewrite E. apply H. exact Hz. Qed.

Lemma active_Rep s nc N G cols scols rows c :
  Rep s nc N G cols scols rows -> active s c = true -> In c (cols ++ scols).
Proof.
  intros HR Hact. unfold active in Hact.
  rewrite (acols_eq s nc N G cols scols rows HR), (ascols_eq s nc N G cols scols rows HR) in Hact.
  apply mem_In. exact Hact.
Qed.

Theorem cover_refines : forall s c,
  LInv s -> active s c = true ->
  exists s', cover (hdr c) s = Some s' /\ LInv s' /\ abs s' = fstep c (abs s).
Proof.
  intros s c [nc [N [G [cols [scols [rows [HR [HO HC]]]]]]]] Hact.
  apply (active_Rep s nc N G cols scols rows c HR) in Hact.
  destruct (cover_ok s nc N G cols scols rows c HR Hact) as [s' [Hcv [HR' [_ [_ EC]]]]].
  exists s'. split; [exact Hcv|].
  assert (HC' : HdrCol s' nc) by (eapply HdrCol_fC; eauto).
  split.
  - exists nc, N, G, (rmv c cols), (rmv c scols), (rowsdel c rows). auto.
  - rewrite (abs_Rep s' nc N G _ _ _ HR' HO HC'), (abs_Rep s nc N G _ _ _ HR HO HC).
    unfold fstep. cbn [fst snd]. rewrite rmv_remove_cols. f_equal. rewrite filter_map_comm. reflexivity.
Qed.

Theorem uncover_inverse : forall s c s',
  LInv s -> active s c = true -> cover (hdr c) s = Some s' -> uncover (hdr c) s' = Some s.
Proof.
  intros s c s' [nc [N [G [cols [scols [rows [HR [HO HC]]]]]]]] Hact Hcv.
  apply (active_Rep s nc N G cols scols rows c HR) in Hact.
  destruct (cover_ok s nc N G cols scols rows c HR Hact) as [s1 [Hcv1 [_ [Hun _]]]].
  rewrite Hcv in Hcv1. inversion Hcv1; subst. exact Hun.
Qed.

Lemma uncover_all_app a b s :
  uncover_all (a ++ b) s = match uncover_all a s with Some s1 => uncover_all b s1 | None => None end.
Proof.
  revert s. induction a as [|k t IH]; intros s; simpl; [reflexivity|].
  destruct (uncover (hdr k) s); [apply IH | reflexivity].
Qed.

Lemma cover_all_ok nc N G : forall ks s cols scols rows,
  Rep s nc N G cols scols rows -> NoDup ks -> incl ks (cols ++ scols) ->
  exists s' cols' scols' rows', cover_all ks s = Some s' /\ uncover_all (rev ks) s' = Some s
    /\ Rep s' nc N G cols' scols' rows' /\ fC s' = fC s.
Proof.
  induction ks as [|k t IH]; intros s cols scols rows HR Hnd Hinc.
  - exists s, cols, scols, rows. auto.
  - destruct (cover_ok s nc N G cols scols rows k HR (Hinc k (or_introl eq_refl))) as [m [Hcv [HRm [Hun [_ EC]]]]].
    apply NoDup_cons_iff in Hnd. destruct Hnd as [Hk Hnd].
    destruct (IH m _ _ _ HRm Hnd) as [s' [cols' [scols' [rows' [A [B [HR' EC']]]]]]].
    + intros z Hz. apply in_rmv_app. split; [apply Hinc; right; exact Hz | intros ->; contradiction].
    + exists s', cols', scols', rows'. cbn [cover_all rev]. rewrite Hcv, uncover_all_app, B. cbn [uncover_all].
      rewrite Hun, EC'. auto.
Qed.

Theorem uncover_inverse_nested : forall s ks,
  LInv s -> NoDup ks -> (forall k, In k ks -> active s k = true) ->
  exists s', cover_all ks s = Some s' /\ LInv s' /\ uncover_all (rev ks) s' = Some s.
Proof.
  intros s ks [nc [N [G [cols [scols [rows [HR [HO HC]]]]]]]] Hnd Hact.
  destruct (cover_all_ok nc N G ks s cols scols rows HR Hnd) as [s' [cols' [scols' [rows' [A [B [HR' EC]]]]]]].
  { intros k Hk. exact (active_Rep s nc N G cols scols rows k HR (Hact k Hk)). }
  exists s'. split; [exact A|]. split; [|exact B].
  exists nc, N, G, cols', scols', rows'. split; [exact HR'|]. split; [exact HO | eapply HdrCol_fC; eauto].
Qed.

Theorem build_refines : forall inp,
  rows_in_range (length (col_names inp)) (mk_rows (matrix inp)) = true ->
  exists s, build_links inp = Some s /\ LInv s
            /\ abs s = (prim_cols inp, filter nonemptyb (mk_rows (matrix inp))).
Proof.
  intros inp Hr. destruct (build_links_ok inp Hr) as [s [N [G [Eb [HR [HO [HC EG]]]]]]].
  exists s. split; [exact Eb|]. split.
  - exists (length (col_names inp)), N, G, (prim_cols inp), (sec_cols inp), G. auto.
  - rewrite (abs_Rep s _ N G _ _ _ HR HO HC), EG. reflexivity.
Qed.
