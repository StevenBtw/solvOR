(* The representation relation between a pointer state and (active primary columns, active secondary columns,
   active rows), and the effect of unlinking a column header. *)
From Coq Require Import List Arith Bool Lia.
From SV Require Import C07.Dlx C07.DeepLinks C07.DeepBase C07.DeepOps C07.DeepVert C07.DeepRows.
Import ListNotations.

Definition rmv (c : nat) (l : list nat) : list nat := filter (fun z => negb (z =? c)) l.

Definition RowOK (s : lst) (nc N : nat) (g : grow) : Prop :=
  snd g <> [] /\
  (forall c y, In (c, y) (snd g) -> c < nc /\ 2 + nc <= y < N /\ column s y = hdr c /\ row_id s y = fst g) /\
  (forall y, In y (gids g) -> dring (right s) (left s) y (rowrest g y)).

Definition Static (s : lst) (nc N : nat) (G : list grow) : Prop :=
  GWf G /\ forall g, In g G -> RowOK s nc N g.

Definition HInv (s : lst) (nc : nat) (cols scols : list nat) : Prop :=
  dring (right s) (left s) ROOT (map hdr cols) /\ dring (right s) (left s) SROOT (map hdr scols) /\
  NoDup (cols ++ scols) /\ (forall j, In j (cols ++ scols) -> j < nc).

Definition Rep (s : lst) (nc N : nat) (G : list grow) (cols scols : list nat) (rows : list grow) : Prop :=
  Static s nc N G /\ HInv s nc cols scols /\ VInv s nc N (cols ++ scols) (fun j => vcol j rows) /\
  (exists p, rows = filter p G) /\ (forall g c, In g rows -> In c (gcols g) -> In c (cols ++ scols)).

Lemma Static_frame s s' nc N G :
  Static s nc N G -> fC s' = fC s -> fRow s' = fRow s ->
  (forall z, 2 + nc <= z -> right s' z = right s z /\ left s' z = left s z) ->
  Static s' nc N G.
Proof.
  intros [W HR] EC ER Hlr. split; [exact W|]. intros g Hg. destruct (HR g Hg) as [A [B C]].
  split; [exact A|]. split.
  - intros c y Hc. unfold column, row_id. rewrite EC, ER. apply B. exact Hc.
  - intros y Hy. eapply dring_ext; [|apply C; exact Hy].
    intros z Hz. apply Hlr.
    assert (Hzg : In z (gids g)).
    { destruct Hz as [<-|Hz]; [exact Hy|]. apply rowrest_in in Hz; [tauto | apply W; exact Hg | exact Hy]. }
    apply gids_cell in Hzg. destruct Hzg as [c Hc]. apply B in Hc. lia.
Qed.

Lemma Static_row s nc N G g x : Static s nc N G -> In g G -> In x (gids g) ->
  dring (right s) (left s) x (rowrest g x) /\ length (rowrest g x) <= N /\ ~ In x (rowrest g x).
Proof.
  intros [W HRow] Hg Hx. destruct (HRow g Hg) as [_ [Hcells Hring]]. destruct (proj1 W g Hg) as [_ Hni].
  split; [apply Hring; exact Hx|]. split; [|apply rowrest_notin; assumption].
  apply nodup_bound; [apply rowrest_nodup; assumption|].
  intros z Hz. apply rowrest_in in Hz; [|assumption..]. destruct Hz as [Hz _].
  apply gids_cell in Hz. destruct Hz as [k Hk]. apply Hcells in Hk. lia.
Qed.

Lemma Static_cell s nc N G g k y : Static s nc N G -> In g G -> In (k, y) (snd g) -> column s y = hdr k.
Proof. intros [_ HRow] Hg Hk. destruct (HRow g Hg) as [_ [Hcells _]]. apply (Hcells k y Hk). Qed.

Lemma VInv_frame s s' nc N act V :
  VInv s nc N act V -> lens s' N -> fU s' = fU s -> fD s' = fD s -> fC s' = fC s -> fS s' = fS s ->
  VInv s' nc N act V.
Proof.
  intros [Hl [HN HC]] Hl' EU ED EC ES. split; [exact Hl'|]. split; [exact HN|].
  intros j Hj. destruct (HC j Hj) as [A [B [C [D E]]]].
  unfold VCol, down, up, csize, column in *. rewrite EU, ED, EC, ES. auto.
Qed.

Lemma HInv_frame s s' nc cols scols :
  HInv s nc cols scols -> fL s' = fL s -> fR s' = fR s -> HInv s' nc cols scols.
Proof. unfold HInv, right, left. intros H EL ER. rewrite EL, ER. exact H. Qed.

Lemma hdr_inj a b : hdr a = hdr b -> a = b.
Proof. unfold hdr. lia. Qed.

Lemma in_map_hdr j l : In (hdr j) (map hdr l) <-> In j l.
Proof.
  rewrite in_map_iff. split; [intros [k [E H]]; apply hdr_inj in E; subst; exact H | intros H; exists j; auto].
Qed.

Lemma filter_hdr c l : filter (fun y => negb (y =? hdr c)) (map hdr l) = map hdr (rmv c l).
Proof. rewrite filter_map_comm. unfold rmv. f_equal. Qed.

Lemma rmv_notin c l : ~ In c l -> rmv c l = l.
Proof.
  intros H. apply filter_id. intros z Hz. apply negb_true_iff. apply Nat.eqb_neq. intros ->. contradiction.
Qed.

Lemma in_rmv c l z : In z (rmv c l) <-> In z l /\ z <> c.
Proof. unfold rmv. rewrite filter_In, negb_true_iff, Nat.eqb_neq. reflexivity. Qed.

Lemma in_rmv_app c l1 l2 z : In z (rmv c l1 ++ rmv c l2) <-> In z (l1 ++ l2) /\ z <> c.
Proof. unfold rmv. rewrite <- filter_app. apply in_rmv. Qed.

Lemma nodup_map_hdr l : NoDup l -> NoDup (map hdr l).
Proof.
  induction 1 as [|x t Hx Hnd IH]; simpl; constructor; [|exact IH].
  rewrite in_map_hdr. exact Hx.
Qed.

(* the roots are 0 and 1, the headers start at 2 *)
Lemma root_not_hdr r l : r < 2 -> ~ In r (map hdr l).
Proof. intros Hr K. apply in_map_iff in K. destruct K as [k [E _]]. unfold hdr in E. lia. Qed.

Lemma ring_nodup r l : r < 2 -> NoDup l -> NoDup (r :: map hdr l).
Proof. intros Hr Hnd. constructor; [apply root_not_hdr; exact Hr | apply nodup_map_hdr; exact Hnd]. Qed.

(* One header ring (root r, columns l) with c on it, and the other one (root r', columns l'), whichever of the two is
   the primary one. *)
Lemma hdr_linked f g r l l' c nc :
  r < 2 -> dring f g r (map hdr l) -> NoDup (l ++ l') -> In c l -> (forall j, In j l -> j < nc) ->
  f (hdr c) < 2 + nc /\ g (hdr c) < 2 + nc /\ f (hdr c) <> hdr c /\ g (hdr c) <> hdr c
  /\ g (f (hdr c)) = hdr c /\ f (g (hdr c)) = hdr c.
Proof.
  intros Hr R Hnd Hc Hlt.
  destruct (dring_linked _ _ _ _ (hdr c) R (ring_nodup r l Hr (nodup_app_l _ _ Hnd))) as [A [B [C [D [E F]]]]].
  { apply in_map_hdr. exact Hc. }
  assert (Hrange : forall z, In z (r :: map hdr l) -> z < 2 + nc).
  { intros z [<-|Hz]; [lia|]. apply in_map_iff in Hz. destruct Hz as [k [<- Hk]]. apply Hlt in Hk. unfold hdr. lia. }
  auto 10.
Qed.

Lemma hdr_unlink f g f' g' r r' l l' c :
  r < 2 -> r' < 2 -> r <> r' -> dring f g r (map hdr l) -> dring f g r' (map hdr l') -> NoDup (l ++ l') -> In c l ->
  (forall y, f' y = upd f (g (hdr c)) (f (hdr c)) y) -> (forall y, g' y = upd g (f (hdr c)) (g (hdr c)) y) ->
  dring f' g' r (map hdr (rmv c l)) /\ dring f' g' r' (map hdr (rmv c l')).
Proof.
  intros Hr Hr' Hrr R R' Hnd Hc Hf Hg.
  assert (Hx : In (hdr c) (map hdr l)) by (apply in_map_hdr; exact Hc).
  pose proof (ring_nodup r l Hr (nodup_app_l _ _ Hnd)) as Hndr.
  rewrite (rmv_notin c l') by (intros K; exact (nodup_app_disj _ _ Hnd c Hc K)).
  rewrite <- filter_hdr. split; [exact (dring_unlink f g f' g' r _ _ R Hndr Hx Hf Hg)|].
  (* the neighbours of hdr c are on its own ring, so nothing on the other ring changes *)
  destruct (dring_linked _ _ _ _ _ R Hndr Hx) as [_ [_ [_ [_ [Fin Gin]]]]].
  assert (Hdisj : forall z, In z (r :: map hdr l) -> In z (r' :: map hdr l') -> False).
  { intros z [<-|A] [B|B].
    - congruence.
    - exact (root_not_hdr _ _ Hr B).
    - subst z. exact (root_not_hdr _ _ Hr' A).
    - apply in_map_iff in A. destruct A as [k [<- Hk]]. apply (proj1 (in_map_hdr _ _)) in B.
      exact (nodup_app_disj _ _ Hnd k Hk B). }
  eapply dring_ext; [|exact R']. intros z Hz. rewrite Hf, Hg.
  assert (A : z <> g (hdr c)) by (intros ->; exact (Hdisj _ Gin Hz)).
  assert (B : z <> f (hdr c)) by (intros ->; exact (Hdisj _ Fin Hz)).
  rewrite !upd_other by assumption. auto.
Qed.

Section UnlinkHeader.
  Variables (s : lst) (nc N : nat) (cols scols : list nat) (c : nat).
  Hypothesis HH : HInv s nc cols scols.
  Hypothesis Hl : lens s N.
  Hypothesis HN : 2 + nc <= N.
  Hypothesis Hc : In c (cols ++ scols).

  Lemma header_linked :
    right s (hdr c) < 2 + nc /\ left s (hdr c) < 2 + nc /\ right s (hdr c) <> hdr c /\ left s (hdr c) <> hdr c
    /\ left s (right s (hdr c)) = hdr c /\ right s (left s (hdr c)) = hdr c.
  Proof.
    destruct HH as [R1 [R2 [Hnd Hlt]]].
    apply in_app_or in Hc. destruct Hc as [Hc1|Hc2].
    - apply (hdr_linked _ _ ROOT cols scols c); unfold ROOT; auto. intros j Hj. apply Hlt. apply in_or_app. left. exact Hj.
    - apply (hdr_linked _ _ SROOT scols cols c); unfold SROOT; auto; [apply nodup_app_comm; exact Hnd|].
      intros j Hj. apply Hlt. apply in_or_app. right. exact Hj.
  Qed.

  Lemma unlink_h_HInv : HInv (unlink_h (hdr c) s) nc (rmv c cols) (rmv c scols).
  Proof.
    destruct header_linked as [Hr [Hlf [Hrc [Hlc _]]]].
    assert (Hr' : right s (hdr c) < N) by lia. assert (Hlf' : left s (hdr c) < N) by lia.
    pose proof (unlink_h_left s N (hdr c) Hl Hr') as EL.
    pose proof (unlink_h_right s N (hdr c) Hl Hlf' Hrc) as ER.
    destruct HH as [R1 [R2 [Hnd Hlt]]].
    assert (Hrings : dring (right (unlink_h (hdr c) s)) (left (unlink_h (hdr c) s)) ROOT (map hdr (rmv c cols))
                     /\ dring (right (unlink_h (hdr c) s)) (left (unlink_h (hdr c) s)) SROOT (map hdr (rmv c scols))).
    { apply in_app_or in Hc. destruct Hc as [Hc1|Hc2].
      - apply (hdr_unlink (right s) (left s) _ _ ROOT SROOT cols scols c); unfold ROOT, SROOT; auto.
      - apply and_comm. apply (hdr_unlink (right s) (left s) _ _ SROOT ROOT scols cols c); unfold ROOT, SROOT; auto.
        apply nodup_app_comm. exact Hnd. }
    destruct Hrings as [A B]. split; [exact A|]. split; [exact B|]. split.
    - apply nodup_app_intro.
      + apply NoDup_filter. eapply nodup_app_l; eauto.
      + apply NoDup_filter. eapply nodup_app_r; eauto.
      + intros x Hx Hx'. apply in_rmv in Hx, Hx'. exact (nodup_app_disj _ _ Hnd x (proj1 Hx) (proj1 Hx')).
    - intros j Hj. apply in_rmv_app in Hj. apply Hlt. apply Hj.
  Qed.

  Lemma unlink_h_nodes z : 2 + nc <= z ->
    right (unlink_h (hdr c) s) z = right s z /\ left (unlink_h (hdr c) s) z = left s z.
  Proof.
    intros Hz. destruct header_linked as [Hr [Hlf [Hrc [Hlc _]]]].
    rewrite (unlink_h_left s N (hdr c) Hl) by lia.
    rewrite (unlink_h_right s N (hdr c) Hl) by (lia || assumption).
    rewrite !upd_other by lia. auto.
  Qed.

  Lemma relink_unlink_header : relink_h (hdr c) (unlink_h (hdr c) s) = s.
  Proof.
    destruct header_linked as [_ [_ [Hrc [Hlc [A B]]]]]. apply relink_unlink_h; assumption.
  Qed.
End UnlinkHeader.

Lemma Rep_static s nc N G cols scols rows : Rep s nc N G cols scols rows -> Static s nc N G /\ lens s N.
Proof. intros [A [_ [[B _] _]]]. auto. Qed.
