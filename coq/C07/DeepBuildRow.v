(* _build_links: the nodes of one matrix row (the inner loop over the columns, build_row). *)
From Coq Require Import List Arith Bool Lia.
From SV Require Import C07.Dlx C07.DeepLinks C07.DeepBase C07.DeepOps C07.DeepVert C07.DeepRows C07.DeepRep C07.DeepAbs
                       C07.DeepBuildBase.
Import ListNotations.

(* build_row's allocation of one node and its five vertical assignments (node.up = col.up; node.down = col;
   col.up.down = node; col.up = node; col.size += 1), taken out as a function *)
Definition add_node (s : lst) (k i : nat) : nat * lst :=
  let col := hdr k in
  let (node, s0) := alloc s col i in
  let s1 := setU s0 node (up s0 col) in
  let s2 := setD s1 node col in
  let s3 := setD s2 (up s2 col) node in
  let s4 := setU s3 col node in
  (node, setS s4 col (csize s4 col + 1)).

Lemma add_node_fields s N k i :
  lens s N -> hdr k < N -> up s (hdr k) < N ->
  let s' := snd (add_node s k i) in
  fst (add_node s k i) = N /\ lens s' (S N) /\ new_cell s s' N (hdr k) i
  /\ (forall z, up s' z = if z =? hdr k then N else if z =? N then up s (hdr k) else up s z)
  /\ (forall z, down s' z = if z =? up s (hdr k) then N else if z =? N then hdr k else down s z)
  /\ (forall z, csize s' z = if z =? hdr k then csize s (hdr k) + 1 else if z =? N then 0 else csize s z).
Proof.
  intros HL Hh Hu.
  destruct (alloc_fields s N (hdr k) i HL) as [En [HL0 [HC0 [EU [ED ES]]]]].
  unfold add_node. destruct (alloc s (hdr k) i) as [node s0]. cbn [fst snd] in *. subst node.
  assert (HhN : (hdr k =? N) = false) by (apply eqb_false; lia).
  pose proof HL0 as [_ [_ [LU [LD [_ [_ LS]]]]]].
  (* col.up is read a second time after node.up and node.down have been written *)
  assert (Eu : up s0 (hdr k) = up s (hdr k)) by (rewrite EU, HhN; reflexivity).
  assert (Eu2 : up (setD (setU s0 N (up s0 (hdr k))) N (hdr k)) (hdr k) = up s (hdr k)).
  { unfold up at 1. cbn [setD setU fU]. rewrite get_set, HhN by lia. exact Eu. }
  rewrite Eu2, Eu. cbn [fst snd].
  split; [reflexivity|]. split; [unfold lens in *; cbn; rewrite !set_length; exact HL0|].
  split; [exact HC0|]. split; [|split]; intros z.
  - unfold up at 1. cbn [setS setU setD fU]. rewrite !get_set by (rewrite ?set_length; lia).
    fold (up s0 z). rewrite EU. destruct (z =? N); reflexivity.
  - unfold down at 1. cbn [setS setU setD fD]. rewrite !get_set by (rewrite ?set_length; lia).
    fold (down s0 z). rewrite ED. destruct (z =? N); reflexivity.
  - unfold csize at 1 2. cbn [setS setU setD fS]. rewrite get_set by lia.
    fold (csize s0 z) (csize s0 (hdr k)). rewrite !ES, HhN. reflexivity.
Qed.

Definition pcol (k : nat) (cs : list (nat * nat)) : list nat := map snd (filter (fun p => fst p =? k) cs).

Lemma pcol_app k cs cs' : pcol k (cs ++ cs') = pcol k cs ++ pcol k cs'.
Proof. unfold pcol. rewrite filter_app, map_app. reflexivity. Qed.

Lemma pcol_in k cs y : In y (pcol k cs) <-> In (k, y) cs.
Proof.
  unfold pcol. rewrite in_map_iff. split.
  - intros [[a b] [E H]]. apply filter_In in H. destruct H as [H E2]. simpl in *. apply Nat.eqb_eq in E2. subst. exact H.
  - intros H. exists (k, y). split; [reflexivity|]. apply filter_In. split; [exact H | simpl; apply Nat.eqb_refl].
Qed.

(* the horizontal assignments for a new node (none for the first node of a row), and the new (first, prev_node) *)
Definition row_link (fp : option (nat * nat)) (node : nat) (s : lst) : lst :=
  match fp with None => s | Some (_, prev) => setR (setL s node prev) prev node end.
Definition row_fp (fp : option (nat * nat)) (node : nat) : option (nat * nat) :=
  Some (match fp with None => node | Some (first, _) => first end, node).

(* the nodes made so far form an open chain from the first one, and fp = (first, last) *)
Definition row_chain (s : lst) (ids : list nat) (fp : option (nat * nat)) : Prop :=
  match ids with
  | [] => fp = None
  | n1 :: rest => fp = Some (n1, last rest n1) /\ dpath (right s) (left s) n1 rest
  end.

(* s0 is the state the chain was known in; s may differ from it outside ids *)
Lemma row_chain_snoc s0 s N0 N ids fp :
  lens s (S N) -> (forall y, In y ids -> N0 <= y < N) -> NoDup ids -> row_chain s0 ids fp ->
  (forall y, In y ids -> right s y = right s0 y /\ left s y = left s0 y) ->
  let s' := row_link fp N s in
  lens s' (S N) /\ same_vert s s' /\ row_chain s' (ids ++ [N]) (row_fp fp N)
  /\ (forall z, z < N0 -> right s' z = right s z /\ left s' z = left s z).
Proof.
  intros HL Hids Hnd Hc He. destruct ids as [|n1 rest].
  - cbn [row_chain] in Hc. subst fp. cbn [row_link row_fp app row_chain last dpath].
    auto 6 using same_vert_refl.
  - destruct Hc as [-> Hd0]. cbn [row_link row_fp]. set (prev := last rest n1) in *.
    assert (Hd : dpath (right s) (left s) n1 rest).
    { apply (dpath_agree _ _ _ _ _ _ Hd0 Hnd); [intros y Hy _ | intros y Hy]; apply He; [exact Hy | right; exact Hy]. }
    assert (Hprev : N0 <= prev < N) by (apply Hids, last_in).
    destruct (hlink_fields s (S N) N prev HL) as [HL' [SV [EL ER]]]; [lia | lia|].
    split; [exact HL'|]. split; [exact SV|]. split.
    + cbn [app row_chain]. rewrite last_last. split; [reflexivity|].
      apply (dpath_snoc (right s) (left s)); [exact Hd | exact Hnd | | exact ER | exact EL].
      intros K. specialize (Hids N (or_intror K)). lia.
    + intros z Hz. rewrite EL, ER, !eqb_false by lia. auto.
Qed.

(* cs = the (column, node) pairs of the row so far; its nodes are the ids N0, N0+1, ... in creation order *)
Definition PRow (s : lst) (nc N0 i : nat) (cs : list (nat * nat)) (fp : option (nat * nat)) (j : nat) : Prop :=
  (forall k y, In (k, y) cs -> k < nc /\ k < j /\ column s y = hdr k /\ row_id s y = i) /\
  NoDup (map fst cs) /\ map snd cs = seq N0 (length cs) /\ row_chain s (map snd cs) fp.

Definition BInv (s : lst) (nc N0 N : nat) (G : list grow) (cols scols : list nat)
           (i : nat) (cs : list (nat * nat)) (fp : option (nat * nat)) (j : nat) : Prop :=
  2 + nc <= N0 /\ N = N0 + length cs /\
  Static s nc N0 G /\ HInv s nc cols scols /\ HdrCol s nc /\ (forall k, k < nc -> In k (cols ++ scols)) /\
  VInv s nc N (cols ++ scols) (fun k => vcol k G ++ pcol k cs) /\
  PRow s nc N0 i cs fp j.

Lemma BInv_ids s nc N0 N G cols scols i cs fp j :
  BInv s nc N0 N G cols scols i cs fp j ->
  NoDup (map snd cs) /\ forall y, In y (map snd cs) -> N0 <= y < N.
Proof.
  intros [_ [-> [_ [_ [_ [_ [_ [_ [_ [-> _]]]]]]]]]]. split; [apply seq_NoDup|].
  intros y Hy. apply in_seq in Hy. exact Hy.
Qed.

(* What is known of the nodes below N0 (the finished rows and the header rings) survives any change that leaves
   their column, row and horizontal links alone. *)
Lemma old_nodes_frame s s' nc N0 N' G cols scols :
  Static s nc N0 G -> HInv s nc cols scols -> 2 + nc <= N0 <= N' ->
  (forall z, z < N0 ->
     column s' z = column s z /\ row_id s' z = row_id s z /\ right s' z = right s z /\ left s' z = left s z) ->
  Static s' nc N' G /\ HInv s' nc cols scols.
Proof.
  intros [W HR] [R1 [R2 [Hnd Hlt]]] HN Hp. split.
  - split; [exact W|]. intros g Hg. destruct (HR g Hg) as [A [B C]].
    split; [exact A|]. split.
    + intros c y Hc. destruct (B c y Hc) as [B1 [B2 [B3 B4]]]. destruct (Hp y) as [P1 [P2 _]]; [lia|].
      rewrite P1, P2. repeat split; auto; lia.
    + intros y Hy. eapply dring_ext; [|apply C; exact Hy]. intros z Hz.
      assert (Hzg : In z (gids g)).
      { destruct Hz as [<-|Hz]; [exact Hy|]. apply rowrest_in in Hz; [tauto | apply W; exact Hg | exact Hy]. }
      apply gids_cell in Hzg. destruct Hzg as [c Hc]. apply B in Hc. destruct (Hp z) as [_ [_ P]]; [lia | tauto].
  - assert (Hr : forall r l z, r < 2 -> incl l (cols ++ scols) -> In z (r :: map hdr l) -> z < N0).
    { intros r l z Hr Hi [<-|Hz]; [lia|]. apply in_map_iff in Hz. destruct Hz as [k [<- Hk]].
      apply Hi in Hk. apply Hlt in Hk. unfold hdr. lia. }
    split; [|split; [|split; assumption]].
    + eapply dring_ext; [|exact R1]. intros z Hz. apply Hp.
      apply (Hr ROOT cols z); [exact Nat.lt_0_2 | apply incl_appl, incl_refl | exact Hz].
    + eapply dring_ext; [|exact R2]. intros z Hz. apply Hp.
      apply (Hr SROOT scols z); [exact Nat.lt_1_2 | apply incl_appr, incl_refl | exact Hz].
Qed.

Lemma add_node_VInv s nc N act V k i :
  VInv s nc N act V -> In k act ->
  let s' := snd (add_node s k i) in
  fst (add_node s k i) = N /\ new_cell s s' N (hdr k) i
  /\ VInv s' nc (S N) act (fun k' => V k' ++ (if k' =? k then [N] else [])).
Proof.
  intros HV Hk s'. destruct HV as [HL [HN HC]].
  pose proof (HC k Hk) as VCk. pose proof (VCol_nodup _ _ _ _ _ VCk) as Hndk.
  destruct VCk as [Hr [Hnd [Hsz [Hcol Hkn]]]].
  assert (Hh : hdr k < N) by (unfold hdr; lia).
  assert (Huin : In (up s (hdr k)) (hdr k :: V k)).
  { apply dring_dpath in Hr. destruct Hr as [_ [_ ->]]. apply last_in. }
  assert (Hu : up s (hdr k) < N).
  { destruct Huin as [<-|K]; [exact Hh | apply Hcol in K; lia]. }
  destruct (add_node_fields s N k i HL Hh Hu) as [En [HL' [HC' [EU [ED ES]]]]]. fold s' in HL', HC', EU, ED, ES.
  pose proof HC' as [_ [_ [EC _]]].
  split; [exact En|]. split; [exact HC'|].
  split; [exact HL'|]. split; [lia|].
  intros k' Hk'. pose proof (HC k' Hk') as VCk'.
  destruct (Nat.eq_dec k' k) as [->|Hne].
  - rewrite Nat.eqb_refl.
    assert (HNnot : ~ In N (hdr k :: V k)).
    { intros [K|K]; [lia | apply Hcol in K; lia]. }
    split; [|split; [|split; [|split]]].
    + exact (dring_insert_last (down s) (up s) (down s') (up s') (hdr k) (V k) N Hr Hndk HNnot ED EU).
    + apply nodup_app_comm. simpl. constructor; [|exact Hnd]. intros K. apply HNnot. right. exact K.
    + rewrite ES, Nat.eqb_refl, app_length, Hsz. reflexivity.
    + intros y Hy. apply in_app_or in Hy. destruct Hy as [Hy|[<-|[]]].
      * destruct (Hcol y Hy) as [A B]. rewrite EC, eqb_false by lia. split; [exact A | lia].
      * rewrite EC, Nat.eqb_refl. split; [reflexivity | lia].
    + exact Hkn.
  - rewrite (eqb_false _ _ Hne), app_nil_r.
    destruct VCk' as [Hr' [Hnd' [Hsz' [Hcol' Hkn']]]].
    split; [|split; [exact Hnd'|split; [|split; [|exact Hkn']]]].
    + eapply dring_ext; [|exact Hr']. intros z Hz. rewrite ED, EU.
      assert (Hz1 : z <> N) by (destruct Hz as [<-|K]; [unfold hdr; lia | apply Hcol' in K; lia]).
      assert (Hz2 : z <> up s (hdr k)).
      { intros ->. apply (VCol_disj s nc N k k' (V k) (V k') (up s (hdr k)) (HC k Hk) (HC k' Hk')); auto. }
      assert (Hz3 : z <> hdr k).
      { intros ->. apply (VCol_disj s nc N k k' (V k) (V k') (hdr k) (HC k Hk) (HC k' Hk')); auto. left. reflexivity. }
      rewrite (eqb_false _ _ Hz1), (eqb_false _ _ Hz2), (eqb_false _ _ Hz3). auto.
    + rewrite ES, !eqb_false by (unfold hdr; lia). exact Hsz'.
    + intros y Hy. destruct (Hcol' y Hy) as [A B]. rewrite EC, eqb_false by lia. split; [exact A | lia].
Qed.

Lemma build_row_true nc i j t fp s : j < nc ->
  build_row nc i j (true :: t) fp s =
  let (node, s5) := add_node s j i in build_row nc i (S j) t (row_fp fp node) (row_link fp node s5).
Proof.
  intros Hj. cbn [build_row]. apply Nat.ltb_lt in Hj. rewrite Hj. unfold add_node.
  destruct (alloc s (hdr j) i) as [node s0]. destruct fp as [[first prev]|]; reflexivity.
Qed.

Lemma BInv_next_col s nc N0 N G cols scols i cs fp j :
  BInv s nc N0 N G cols scols i cs fp j -> BInv s nc N0 N G cols scols i cs fp (S j).
Proof.
  intros [A [B [C [D [E [F [H [P1 P]]]]]]]]. repeat (split; [assumption|]).
  split; [|exact P]. intros k y K. destruct (P1 k y K) as [H1 [H2 H3]]. split; [exact H1|]. split; [lia | exact H3].
Qed.

(* The node made by add_node and the state it leaves are variables here: all that is used of them is add_node_VInv,
   and no step has to evaluate add_node. *)
Lemma step_BInv s nc N0 N G cols scols i cs fp j node s5 :
  BInv s nc N0 N G cols scols i cs fp j -> j < nc -> add_node s j i = (node, s5) ->
  node = N /\ BInv (row_link fp N s5) nc N0 (S N) G cols scols i (cs ++ [(j, N)]) (row_fp fp N) (S j).
Proof.
  intros HB Hj Ea. destruct (BInv_ids _ _ _ _ _ _ _ _ _ _ _ HB) as [Hnd Hids].
  destruct HB as [HN0 [EN [HS [HH [HC [Hall [HV [P1 [P2 [P3 P4]]]]]]]]]].
  assert (Hk : In j (cols ++ scols)) by (apply Hall; exact Hj).
  destruct (add_node_VInv s nc N (cols ++ scols) _ j i HV Hk) as [En [HC5 HV5]].
  rewrite Ea in En, HC5, HV5. cbn [fst snd] in En, HC5, HV5. destruct HC5 as [EL [ER [EC ERow]]].
  destruct (row_chain_snoc s s5 N0 N (map snd cs) fp) as [HL' [SV [HC' Hold]]]; [apply HV5 | exact Hids | exact Hnd | exact P4 | |].
  { intros y Hy. apply Hids in Hy. rewrite EL, ER, !eqb_false by lia. auto. }
  set (s' := row_link fp N s5) in *.
  assert (ECol : forall z, column s' z = if z =? N then hdr j else column s z).
  { intros z. rewrite (same_vert_column _ _ SV). apply EC. }
  assert (ERid : forall z, row_id s' z = if z =? N then i else row_id s z).
  { intros z. rewrite (same_vert_row_id _ _ SV). apply ERow. }
  destruct (old_nodes_frame s s' nc N0 N0 G cols scols HS HH) as [HS' HH']; [lia | |].
  { intros z Hz. destruct (Hold z Hz) as [-> ->]. rewrite ECol, ERid, EL, ER, !eqb_false by lia. auto. }
  split; [exact En|].
  split; [exact HN0|]. split; [rewrite app_length; simpl; lia|].
  split; [exact HS'|]. split; [exact HH'|].
  split; [intros z Hz; rewrite ECol, eqb_false by lia; apply HC; exact Hz|].
  split; [exact Hall|].
  split.
  { apply VInv_ext with (V := fun k' => (vcol k' G ++ pcol k' cs) ++ (if k' =? j then [N] else [])).
    - intros k. rewrite pcol_app, app_assoc. f_equal. unfold pcol. simpl. rewrite (Nat.eqb_sym j k).
      destruct (k =? j); reflexivity.
    - exact (same_vert_VInv _ _ _ _ _ _ HV5 HL' SV). }
  split; [|split; [|split]].
  - intros k y Hky. apply in_app_or in Hky. destruct Hky as [Hky|[E|[]]].
    + destruct (P1 k y Hky) as [A [B C]]. apply (in_map snd), Hids in Hky. cbn [snd] in Hky.
      rewrite ECol, ERid, eqb_false by lia. auto.
    + inversion E; subst k y. rewrite ECol, ERid, Nat.eqb_refl. auto.
  - rewrite map_app. apply (nodup_app_comm [j]). constructor; [|exact P2].
    intros K. apply in_map_iff in K. destruct K as [[k y] [E K]]. simpl in E. subst k. apply P1 in K. lia.
  - rewrite map_app, app_length, seq_app, P3, EN. reflexivity.
  - rewrite map_app. exact HC'.
Qed.

Lemma build_row_ok nc N0 G cols scols i : forall r j cs fp s N,
  BInv s nc N0 N G cols scols i cs fp j ->
  forallb (fun c => c <? nc) (row_cols_from j r) = true ->
  exists fp' s' cs', build_row nc i j r fp s = Some (fp', s')
    /\ BInv s' nc N0 (N0 + length cs') G cols scols i cs' fp' (j + length r)
    /\ map fst cs' = map fst cs ++ row_cols_from j r.
Proof.
  induction r as [|b t IH]; intros j cs fp s N HB Hr.
  - exists fp, s, cs. simpl. rewrite Nat.add_0_r, app_nil_r. replace (N0 + length cs) with N by apply HB. auto.
  - replace (j + length (b :: t)) with (S j + length t) by (simpl; lia). destruct b.
    + cbn [row_cols_from forallb] in Hr. apply andb_true_iff in Hr. destruct Hr as [Hj Hr]. apply Nat.ltb_lt in Hj.
      rewrite (build_row_true nc i j t fp s Hj). destruct (add_node s j i) as [node s5] eqn:Ea.
      destruct (step_BInv s nc N0 N G cols scols i cs fp j node s5 HB Hj Ea) as [-> HB'].
      destruct (IH (S j) _ _ _ _ HB' Hr) as [fp' [s' [cs' [E1 [E2 E3]]]]].
      exists fp', s', cs'. split; [exact E1|]. split; [exact E2|].
      rewrite E3, map_app, <- app_assoc. reflexivity.
    + cbn [row_cols_from build_row] in *. exact (IH (S j) cs fp s N (BInv_next_col _ _ _ _ _ _ _ _ _ _ _ HB) Hr).
Qed.

Lemma build_row_none nh i : forall r j fp s,
  forallb (fun c => c <? nh) (row_cols_from j r) = false -> build_row nh i j r fp s = None.
Proof.
  induction r as [|b t IH]; intros j fp s H; [discriminate|].
  destruct b; cbn [row_cols_from forallb build_row] in *.
  - destruct (j <? nh); [|reflexivity]. simpl in H.
    destruct (alloc s (hdr j) i) as [node s0]. destruct fp as [[first prev]|]; apply IH; exact H.
  - apply IH. exact H.
Qed.
