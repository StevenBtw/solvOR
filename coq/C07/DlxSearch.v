(* What search() (with its counters, find_all / max_solutions / max_iter cut-offs) records,
   relative to the pure enumeration all_sols; fuel sufficiency. *)
From Coq Require Import List Arith Bool Lia ZArith.
From SV Require Import C07.Dlx C07.DlxSpec C07.DlxEnum.
Import ListNotations.

Lemma map_flat_map {A B C} (g : B -> C) (f : A -> list B) l :
  map g (flat_map f l) = flat_map (fun x => map g (f x)) l.
Proof. induction l as [|x t IH]; simpl; [|rewrite map_app, IH]; reflexivity. Qed.

Section WithFlags.
  Variable fa : bool.
  Variable ms : option Z.
  Variable mi : Z.

  Lemma search_S f cols rows cur st :
    search fa ms mi (S f) cols rows cur st =
    if (mi <? Z.of_nat (iters (bump_iter st)))%Z then Some (false, bump_iter st)
    else
      match cols with
      | [] =>
          if negb fa then Some (true, add_sol (rev cur) (bump_iter st))
          else if ms_hit ms (length (sols (add_sol (rev cur) (bump_iter st))))
               then Some (true, add_sol (rev cur) (bump_iter st))
               else Some (false, add_sol (rev cur) (bump_iter st))
      | _ :: _ =>
          match choose_loop rows cols None with
          | None => Some (false, bump_iter st)
          | Some (c, sz) =>
              if sz =? 0 then Some (false, bump_iter st)
              else try_rows fa ms
                     (fun r st' => search fa ms mi f (remove_cols (snd r) cols) (remove_rows r rows) (fst r :: cur) st')
                     (filter (has c) rows) (bump_cover 1 (bump_iter st))
          end
      end.
  Proof. reflexivity. Qed.

  Lemma ms_hit_mono n n' : ms_hit ms n = true -> n <= n' -> ms_hit ms n' = true.
  Proof.
    unfold ms_hit. destruct ms as [k|]; [|discriminate]. intros H Hle.
    apply andb_true_iff in H. destruct H as [H1 H2]. apply andb_true_iff. split; [exact H1|].
    apply Z.leb_le in H2. apply Z.leb_le. lia.
  Qed.

  (* A call that went from st to st' and returned b, in a sub-tree whose solutions are L (in the order of the
     enumeration), has recorded an initial segment P of L: nothing if it started beyond max_iter; at least one
     solution, and one of the two reasons its callers stop for, if it returned True; all of L if it returned
     False without running over max_iter.  Only `iters` and `sols` are mentioned, so `bump_cover` is invisible. *)
  Inductive records (L : list (list nat)) (st : sst) (b : bool) (st' : sst) : Prop :=
    Records (P Q : list (list nat)) :
      L = P ++ Q -> sols st' = rev P ++ sols st -> iters st <= iters st' ->
      ((mi < Z.of_nat (iters st))%Z -> P = []) ->
      (b = true -> (fa = false \/ ms_hit ms (length (sols st')) = true) /\ P <> []) ->
      (b = false -> (Z.of_nat (iters st') <= mi)%Z -> Q = []) ->
      records L st b st'.

  Lemma records_none L st : ((Z.of_nat (iters st) <= mi)%Z -> L = []) -> records L st false st.
  Proof.
    intros H. apply (Records _ _ _ _ [] L); [reflexivity | reflexivity | apply le_n | reflexivity | discriminate |].
    intros _. exact H.
  Qed.

  Lemma records_leaf s st b :
    (Z.of_nat (iters st) <= mi)%Z ->
    (b = true -> fa = false \/ ms_hit ms (length (sols (add_sol s st))) = true) ->
    records [s] st b (add_sol s st).
  Proof.
    intros Hle Hb. apply (Records _ _ _ _ [s] []); [reflexivity | reflexivity | apply le_n | lia | | reflexivity].
    intros E. split; [exact (Hb E) | discriminate].
  Qed.

  Lemma records_stop L1 L2 st st' : records L1 st true st' -> records (L1 ++ L2) st true st'.
  Proof.
    intros [P Q EL Es Hi Hcut Htrue _]. apply (Records _ _ _ _ P (Q ++ L2)); [ | exact Es | exact Hi | exact Hcut | exact Htrue | discriminate].
    rewrite EL, app_assoc. reflexivity.
  Qed.

  (* a call that returned False followed by another one: either the first ran over max_iter, and the second
     added nothing, or the first recorded all of L1 *)
  Lemma records_app L1 L2 s s1 b s2 :
    records L1 s false s1 -> records L2 s1 b s2 -> records (L1 ++ L2) s b s2.
  Proof.
    intros [P1 Q1 EL1 Es1 Hi1 Hcut1 _ Hfalse1] [P2 Q2 EL2 Es2 Hi2 Hcut2 Htrue2 Hfalse2].
    pose proof (Nat.le_trans _ _ _ Hi1 Hi2) as Hi.
    destruct (Z_lt_le_dec mi (Z.of_nat (iters s1))) as [Hcut|Hok].
    - specialize (Hcut2 Hcut). subst P2. apply (Records _ _ _ _ P1 (Q1 ++ L2)).
      + rewrite EL1, app_assoc. reflexivity.
      + rewrite Es2. exact Es1.
      + exact Hi.
      + exact Hcut1.
      + intros E. destruct (Htrue2 E) as [_ Hne]. contradiction.
      + lia.
    - specialize (Hfalse1 eq_refl Hok). subst Q1. apply (Records _ _ _ _ (P1 ++ P2) Q2).
      + rewrite EL1, EL2, app_nil_r, app_assoc. reflexivity.
      + rewrite Es2, Es1, rev_app_distr, app_assoc. reflexivity.
      + exact Hi.
      + lia.
      + intros E. destruct (Htrue2 E) as [A Hne]. split; [exact A|].
        intros E'. apply app_eq_nil in E'. apply Hne, E'.
      + exact Hfalse2.
  Qed.

  Lemma records_bump L st b st' : records L (bump_iter st) b st' -> records L st b st'.
  Proof.
    intros [P Q EL Es Hi Hcut Htrue Hfalse]. simpl in Hi.
    apply (Records _ _ _ _ P Q); [exact EL | exact Es | lia | | exact Htrue | exact Hfalse].
    intros H. apply Hcut. simpl. lia.
  Qed.

  Lemma records_bump_cover L k st b st' : records L (bump_cover k st) b st' -> records L st b st'.
  Proof. intros [P Q EL Es Hi Hcut Htrue Hfalse]. exact (Records L st b st' P Q EL Es Hi Hcut Htrue Hfalse). Qed.

  Definition stop_ok (st st' : sst) : Prop :=
    (fa = false \/ ms_hit ms (length (sols st')) = true) /\ length (sols st) < length (sols st').

  Lemma records_true L st st' : records L st true st' -> stop_ok st st'.
  Proof.
    intros [P Q _ Es _ _ Htrue _]. destruct (Htrue eq_refl) as [A Hne]. split; [exact A|].
    rewrite Es, app_length, rev_length. destruct P; [contradiction | simpl; lia].
  Qed.

  Lemma try_rows_records rec (E : row -> list (list nat)) : forall cands st b st',
    (forall r s b1 s1, In r cands -> rec r s = Some (b1, s1) -> records (E r) s b1 s1) ->
    try_rows fa ms rec cands st = Some (b, st') -> records (flat_map E cands) st b st'.
  Proof.
    induction cands as [|r rest IH]; intros st b st' Hrec; simpl.
    - intros [= <- <-]. apply records_none. reflexivity.
    - destruct (rec r (bump_cover (length (snd r) - 1) st)) as [[b1 s1]|] eqn:Er; [|discriminate].
      assert (X : records (E r) st b1 s1) by exact (records_bump_cover _ _ _ _ _ (Hrec r _ _ _ (or_introl eq_refl) Er)).
      destruct b1.
      + destruct (records_true _ _ _ X) as [[A|A] _]; rewrite A; [simpl | destruct (negb fa)];
          intros [= <- <-]; apply records_stop; exact X.
      + intros H. apply (records_app _ _ _ s1); [exact X|]. apply IH; [|exact H].
        intros r0 s b0 s0 Hr0. apply Hrec. right. exact Hr0.
  Qed.

  Theorem search_records : forall f cols rows cur st b st',
    search fa ms mi f cols rows cur st = Some (b, st') ->
    records (map (fun T => rev cur ++ map fst T) (all_sols f cols rows)) (bump_iter st) b st'.
  Proof.
    induction f as [|f IH]; intros cols rows cur st b st'; [discriminate|].
    rewrite search_S.
    destruct (mi <? Z.of_nat (iters (bump_iter st)))%Z eqn:Ecut.
    { intros [= <- <-]. apply records_none. apply Z.ltb_lt in Ecut. lia. }
    apply Z.ltb_ge in Ecut. destruct cols as [|c0 rest].
    - simpl all_sols. simpl map. rewrite app_nil_r.
      destruct (negb fa) eqn:Efa.
      { intros [= <- <-]. apply records_leaf; [exact Ecut | left; apply negb_true_iff; exact Efa]. }
      destruct (ms_hit ms (length (sols (add_sol (rev cur) (bump_iter st))))) eqn:Ehit;
        intros [= <- <-]; apply records_leaf; auto; discriminate.
    - cbn [all_sols].
      destruct (choose_loop rows (c0 :: rest) None) as [[c sz]|];
        [|intros [= <- <-]; apply records_none; reflexivity].
      destruct (sz =? 0); [intros [= <- <-]; apply records_none; reflexivity|].
      intros H. rewrite map_flat_map. erewrite flat_map_ext.
      + eapply records_bump_cover, try_rows_records; [|exact H]. intros r s b1 s1 _ Hs. apply records_bump, IH, Hs.
      + (* rev cur ++ map fst (r :: T) = rev (fst r :: cur) ++ map fst T *)
        intros r. rewrite map_map. apply map_ext. intros T. simpl. rewrite <- app_assoc. reflexivity.
  Qed.

  Lemma search_iters_mono f cols rows cur st b st' :
    search fa ms mi f cols rows cur st = Some (b, st') -> iters st <= iters st'.
  Proof. intros H. apply search_records, records_bump in H. destruct H. assumption. Qed.

  (* search returns True only in the two situations in which the callers stop, and only after a solution
     was recorded *)
  Lemma search_true : forall f cols rows cur st st',
    search fa ms mi f cols rows cur st = Some (true, st') -> stop_ok st st'.
  Proof. intros f cols rows cur st st' H. apply search_records, records_true in H. exact H. Qed.

  Lemma try_rows_total rec : forall cands st,
    (forall r s, In r cands -> rec r s <> None) -> try_rows fa ms rec cands st <> None.
  Proof.
    induction cands as [|r rest IH]; intros st Hrec; simpl; [discriminate|].
    destruct (rec r (bump_cover (length (snd r) - 1) st)) as [[b1 s1]|] eqn:Er;
      [|destruct (Hrec r _ (or_introl eq_refl) Er)].
    assert (K : try_rows fa ms rec rest s1 <> None) by (apply IH; intros r0 s Hr0; apply Hrec; right; exact Hr0).
    destruct b1; [|exact K].
    destruct (negb fa); [discriminate|]. destruct (ms_hit ms (length (sols s1))); [discriminate | exact K].
  Qed.

  (* fuel: one level of recursion per covered primary column *)
  Lemma search_fuel : forall f cols rows cur st,
    length cols < f -> search fa ms mi f cols rows cur st <> None.
  Proof.
    induction f as [|f IH]; intros cols rows cur st Hlen; [lia|].
    rewrite search_S.
    destruct (mi <? Z.of_nat (iters (bump_iter st)))%Z; [discriminate|].
    destruct cols as [|c0 rest].
    - destruct (negb fa); [discriminate|].
      destruct (ms_hit ms (length (sols (add_sol (rev cur) (bump_iter st))))); discriminate.
    - destruct (choose_loop rows (c0 :: rest) None) as [[c sz]|] eqn:Ech; [|discriminate].
      destruct (sz =? 0); [discriminate|].
      apply choose_loop_spec in Ech. destruct Ech as [Ech|[Hc _]]; [discriminate|].
      apply try_rows_total. intros r s Hr. apply IH.
      apply filter_In in Hr. destruct Hr as [_ Hr]. apply has_In in Hr.
      pose proof (remove_cols_shrinks c (snd r) (c0 :: rest) Hc Hr). lia.
  Qed.
End WithFlags.
