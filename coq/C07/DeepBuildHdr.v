(* _build_links: the two header rings (primary columns on root, secondary columns on secondary_root). *)
From Coq Require Import List Arith Lia.
From SV Require Import C07.Dlx C07.DlxEnum C07.DeepLinks C07.DeepBase C07.DeepOps C07.DeepVert C07.DeepRows C07.DeepRep C07.DeepAbs C07.DeepBuildBase.
Import ListNotations.

Lemma get_seq n z : get (seq 0 n) z = if z <? n then z else 0.
Proof.
  unfold get. destruct (z <? n) eqn:E.
  - apply Nat.ltb_lt in E. rewrite seq_nth by exact E. reflexivity.
  - apply Nat.ltb_ge in E. apply nth_overflow. rewrite seq_length. exact E.
Qed.

Lemma get_repeat0 n z : get (repeat 0 n) z = 0.
Proof. apply nth_repeat. Qed.

Lemma init_lens nh : lens (init_links nh) (2 + nh).
Proof. unfold lens, init_links. cbn [fL fR fU fD fC fRow fS]. rewrite !seq_length, !repeat_length. tauto. Qed.

Lemma last_in_map_hdr done root : In (last (map hdr done) root) (root :: map hdr done).
Proof. apply last_in. Qed.

Section Link.
  Variables (sel : nat -> bool) (root N : nat).
  Hypothesis Hroot : root < 2.
  Hypothesis HN : 2 <= N.

  (* loop invariant: the ids linked so far (l) form an open chain from root, and prev is its last element *)
  Lemma link_headers_spec : forall idxs l s,
    lens s N -> (forall z, In z (root :: l ++ map hdr idxs) -> z < N) -> NoDup (root :: l ++ map hdr idxs) ->
    dpath (right s) (left s) root l ->
    let r := link_headers sel idxs (last l root) s in
    let l' := l ++ map hdr (filter sel idxs) in
    fst r = last l' root /\ dpath (right (snd r)) (left (snd r)) root l'
    /\ lens (snd r) N /\ same_vert s (snd r)
    /\ (forall z, ~ In z (root :: l') -> left (snd r) z = left s z /\ right (snd r) z = right s z).
  Proof.
    induction idxs as [|i t IH]; intros l s HL Hlt Hnd Hd.
    - cbn [link_headers filter map fst snd]. rewrite app_nil_r. auto 10 using same_vert_refl.
    - cbn [link_headers filter map] in *. destruct (sel i).
      + set (prev := last l root).
        assert (Hprev : In prev (root :: l ++ hdr i :: map hdr t)) by (apply (in_or_app (root :: l)); left; apply last_in).
        assert (Hcol : In (hdr i) (root :: l ++ hdr i :: map hdr t)) by (right; apply in_elt).
        destruct (hlink_fields s N (hdr i) prev HL (Hlt _ Hcol) (Hlt _ Hprev)) as [HL2 [SV2 [EL ER]]].
        set (s2 := setR (setL s (hdr i) prev) prev (hdr i)) in *.
        pose proof (IH (l ++ [hdr i]) s2) as IH'. rewrite last_last, <- !app_assoc in IH'.
        destruct IH' as [A [B [C [D F]]]]; [exact HL2 | exact Hlt | exact Hnd | |].
        * apply (dpath_snoc (right s) (left s)); [exact Hd | exact (nodup_app_l (root :: l) _ Hnd) | | exact ER | exact EL].
          intros K. apply (NoDup_remove_2 (root :: l) _ _ Hnd), in_or_app. left. right. exact K.
        * split; [exact A|]. split; [exact B|]. split; [exact C|]. split; [exact (same_vert_trans _ _ _ SV2 D)|].
          intros z Hz. cbn [map] in Hz. destruct (F z Hz) as [-> ->].
          rewrite EL, ER, !eqb_false; [auto | |]; intros ->; apply Hz.
          -- apply (in_or_app (root :: l)). left. apply last_in.
          -- right. apply in_elt.
      + apply IH; [exact HL | | exact (NoDup_remove_1 (root :: l) _ _ Hnd) | exact Hd].
        intros z Hz. apply Hlt. apply (in_app_or (root :: l)) in Hz. apply (in_or_app (root :: l)).
        destruct Hz; [left | right; right]; assumption.
  Qed.

  Lemma ring_built idxs s :
    lens s N -> (forall i, In i idxs -> hdr i < N) -> NoDup idxs ->
    let s' := close_ring root (link_headers sel idxs root s) in
    let l := map hdr (filter sel idxs) in
    dring (right s') (left s') root l /\ lens s' N /\ same_vert s s'
    /\ (forall z, ~ In z (root :: l) -> left s' z = left s z /\ right s' z = right s z).
  Proof.
    intros HL Hb Hnd s' l.
    assert (Hlt : forall z, In z (root :: map hdr idxs) -> z < N).
    { intros z [<-|Hz]; [lia|]. apply in_map_iff in Hz. destruct Hz as [k [<- Hk]]. apply Hb. exact Hk. }
    destruct (link_headers_spec idxs [] s HL Hlt (ring_nodup root idxs Hroot Hnd) I) as [A [B [C [D F]]]].
    unfold s'. cbn [app last] in *. destruct (link_headers sel idxs root s) as [prev s1]. cbn [fst snd] in *. subst prev.
    fold l in B, F. set (prev := last l root).
    assert (Hprev : In prev (root :: l)) by apply last_in.
    cbn [close_ring]. change (setL (setR s1 prev root) root prev) with (setR (setL s1 root prev) prev root).
    destruct (hlink_fields s1 N root prev C) as [HL3 [SV3 [EL ER]]]; [lia | |].
    { apply Hlt. destruct Hprev as [E|K]; [left; exact E | right]. apply in_map_iff in K. destruct K as [k [<- Hk]].
      apply in_map. apply filter_In in Hk. apply Hk. }
    split; [|split; [exact HL3|split; [exact (same_vert_trans _ _ _ D SV3)|]]].
    - apply (dpath_close _ _ _ _ root l B); [|exact ER | exact EL].
      apply ring_nodup; [exact Hroot | apply NoDup_filter; exact Hnd].
    - intros z Hz. destruct (F z Hz) as [<- <-]. rewrite EL, ER, !eqb_false; [auto | |]; intros ->; apply Hz.
      + exact Hprev.
      + left. reflexivity.
  Qed.
End Link.

(* the state in which build_links starts on the rows *)
Definition headers_state (inp : input) : lst :=
  let nh := length (col_names inp) in
  let idxs := seq 0 nh in
  let s0 := init_links nh in
  let s1 := close_ring ROOT (link_headers (fun i => negb (is_secondary inp i)) idxs ROOT s0) in
  close_ring SROOT (link_headers (fun i => is_secondary inp i) idxs SROOT s1).

Lemma prim_sec_in inp j : In j (prim_cols inp ++ sec_cols inp) <-> j < length (col_names inp).
Proof.
  split.
  - intros H. apply in_app_or in H. destruct H as [H|H]; [apply in_prim_cols in H | apply in_sec_cols in H]; apply H.
  - intros H. apply in_or_app. exact (prim_or_sec inp j H).
Qed.

Lemma prim_sec_nodup inp : NoDup (prim_cols inp ++ sec_cols inp).
Proof.
  unfold prim_cols, sec_cols. apply nodup_app_intro; try (apply NoDup_filter; apply seq_NoDup).
  intros x A B. apply filter_In in A, B. destruct A as [_ A], B as [_ B]. rewrite B in A. discriminate.
Qed.

Lemma headers_ok inp :
  let nh := length (col_names inp) in
  Rep (headers_state inp) nh (2 + nh) [] (prim_cols inp) (sec_cols inp) [] /\ HdrCol (headers_state inp) nh.
Proof.
  intros nh. unfold headers_state. fold nh.
  set (idxs := seq 0 nh). set (s0 := init_links nh).
  assert (HL0 : lens s0 (2 + nh)) by apply init_lens.
  assert (Hb : forall i, In i idxs -> hdr i < 2 + nh).
  { intros i Hi. apply in_seq in Hi. unfold hdr. lia. }
  assert (Hnd : NoDup idxs) by apply seq_NoDup.
  destruct (ring_built (fun i => negb (is_secondary inp i)) ROOT (2 + nh) Nat.lt_0_2 ltac:(lia) idxs s0 HL0 Hb Hnd)
    as [R1 [HL1 [SV1 F1]]].
  set (s1 := close_ring ROOT (link_headers (fun i => negb (is_secondary inp i)) idxs ROOT s0)) in *.
  destruct (ring_built (fun i => is_secondary inp i) SROOT (2 + nh) Nat.lt_1_2 ltac:(lia) idxs s1 HL1 Hb Hnd)
    as [R2 [HL2 [SV2 F2]]].
  set (s2 := close_ring SROOT (link_headers (fun i => is_secondary inp i) idxs SROOT s1)) in *.
  (* the vertical maps, columns and sizes are still those of init_links *)
  destruct (same_vert_trans _ _ _ SV1 SV2) as [EU [ED [EC [_ ES]]]]. unfold s0, init_links in EU, ED, EC, ES. cbn [fU fD fC fS] in EU, ED, EC, ES.
  assert (Hid : forall z, z < 2 + nh -> up s2 z = z /\ down s2 z = z /\ column s2 z = z).
  { intros z Hz. unfold up, down, column. rewrite EU, ED, EC, get_seq. apply Nat.ltb_lt in Hz. rewrite Hz. auto. }
  pose proof (prim_sec_nodup inp) as Hndps.
  split; [|intros z Hz; apply Hid; exact Hz].
  apply Rep_all_rows; [| | |intros k; apply prim_sec_in].
  - split; [split; [intros g [] | constructor] | intros g []].
  - split; [|split; [exact R2|split; [exact Hndps | intros j; apply prim_sec_in]]].
    (* the primary ring is not touched by the secondary linking *)
    eapply dring_ext; [|exact R1]. intros z Hz. destruct (F2 z) as [A B]; [|auto].
    intros Hz'. destruct Hz as [<-|Hz], Hz' as [E|Hz']; try discriminate E.
    + exact (root_not_hdr ROOT _ Nat.lt_0_2 Hz').
    + subst z. exact (root_not_hdr SROOT _ Nat.lt_1_2 Hz).
    + apply in_map_iff in Hz. destruct Hz as [k [<- Hk]]. apply (proj1 (in_map_hdr _ _)) in Hz'.
      exact (nodup_app_disj _ _ Hndps k Hk Hz').
  - split; [exact HL2|]. split; [lia|]. intros j Hj. apply prim_sec_in in Hj. fold nh in Hj.
    destruct (Hid (hdr j)) as [Eu [Ed _]]; [unfold hdr; lia|].
    assert (Es : csize s2 (hdr j) = 0) by (unfold csize; rewrite ES; apply get_repeat0).
    unfold vcol. simpl. split; [split; simpl; assumption|]. split; [constructor|]. split; [exact Es|].
    split; [intros y []|exact Hj].
Qed.
