(* Specification of exact cover (property C07) + boolean checkers with soundness lemmas.
   Independent of the search model: only the input record and the reading of `columns=` / `secondary=`
   (col_names / prim_cols / sec_cols, defined next to the record in Dlx.v) are shared. *)
From Coq Require Import List Arith Bool Lia.
From SV Require Import C07.Dlx.
Import ListNotations.

(* M r c : entry of row r, column c (false outside the matrix) *)
Definition cell (M : list (list bool)) (r c : nat) : bool := nth c (nth r M []) false.

Definition covers_once (M : list (list bool)) (S : list nat) (c : nat) : Prop :=
  exists r, In r S /\ cell M r c = true /\ forall r', In r' S -> cell M r' c = true -> r' = r.
Definition covers_at_most_once (M : list (list bool)) (S : list nat) (c : nat) : Prop :=
  forall r r', In r S -> In r' S -> cell M r c = true -> cell M r' c = true -> r = r'.

(* S (row indices) is an exact cover: no row twice, every row exists and covers >= 1 primary column,
   every primary column exactly once, every secondary column at most once *)
Definition exact_cover (M : list (list bool)) (prim sec S : list nat) : Prop :=
  NoDup S
  /\ (forall r, In r S -> r < length M /\ exists c, In c prim /\ cell M r c = true)
  /\ (forall c, In c prim -> covers_once M S c)
  /\ (forall c, In c sec -> covers_at_most_once M S c).

Definition same_set (a b : list nat) : Prop := forall x, In x a <-> In x b.

(* R lists all exact covers, each once (as a set of rows) *)
Definition all_covers (M : list (list bool)) (prim sec : list nat) (R : list (list nat)) : Prop :=
  (forall S, In S R -> exact_cover M prim sec S)
  /\ (forall S, exact_cover M prim sec S -> exists S', In S' R /\ same_set S S')
  /\ (forall i j, i < j < length R -> ~ same_set (nth i R []) (nth j R [])).

(* the property's reading of an input *)
Definition is_cover (inp : input) (S : list nat) : Prop :=
  exact_cover (matrix inp) (prim_cols inp) (sec_cols inp) S.
Definition lists_all_covers (inp : input) (R : list (list nat)) : Prop :=
  all_covers (matrix inp) (prim_cols inp) (sec_cols inp) R.

Fixpoint nodupb (l : list nat) : bool :=
  match l with
  | [] => true
  | x :: t => negb (mem x t) && nodupb t
  end.

Definition count (M : list (list bool)) (S : list nat) (c : nat) : nat :=
  length (filter (fun r => cell M r c) S).

Definition cover_check (M : list (list bool)) (prim sec S : list nat) : bool :=
  nodupb S
  && forallb (fun r => (r <? length M) && existsb (fun c => cell M r c) prim) S
  && forallb (fun c => count M S c =? 1) prim
  && forallb (fun c => count M S c <=? 1) sec.

Definition same_setb (a b : list nat) : bool :=
  forallb (fun x => mem x b) a && forallb (fun x => mem x a) b.

Fixpoint distinct_sets (R : list (list nat)) : bool :=
  match R with
  | [] => true
  | a :: t => forallb (fun b => negb (same_setb a b)) t && distinct_sets t
  end.

(* spec_check input output: every selection in the result is an exact cover, and no two selections are
   the same set of rows *)
Definition spec_check (inp : input) (r : result) : bool :=
  forallb (cover_check (matrix inp) (prim_cols inp) (sec_cols inp)) (selections r)
  && distinct_sets (selections r).

Definition spec_check_outcome (inp : input) (o : outcome) : bool :=
  match o with
  | Done r => spec_check inp r
  | IndexError => true       (* a raised IndexError returns no selection *)
  | OutOfFuel => false
  end.

Lemma mem_In x l : mem x l = true <-> In x l.
Proof.
  unfold mem. rewrite existsb_exists. split.
  - intros [y [Hy E]]. apply Nat.eqb_eq in E. subst. exact Hy.
  - intros H. exists x. split; [exact H | apply Nat.eqb_refl].
Qed.

Lemma mem_false_In x l : mem x l = false <-> ~ In x l.
Proof.
  rewrite <- mem_In. split; apply not_true_iff_false.
Qed.

Lemma nodupb_NoDup l : nodupb l = true -> NoDup l.
Proof.
  induction l as [|x t IH]; intros H; [constructor|].
  simpl in H. apply andb_true_iff in H. destruct H as [H1 H2].
  constructor; [|apply IH; exact H2].
  apply negb_true_iff in H1. apply mem_false_In. exact H1.
Qed.

Lemma filter_le1_unique {A} (p : A -> bool) (l : list A) :
  length (filter p l) <= 1 ->
  forall a b, In a l -> In b l -> p a = true -> p b = true -> a = b.
Proof.
  intros Hlen a b Ha Hb Pa Pb.
  assert (Fa : In a (filter p l)) by (apply filter_In; split; assumption).
  assert (Fb : In b (filter p l)) by (apply filter_In; split; assumption).
  destruct (filter p l) as [|x [|y t]]; [destruct Fa | | simpl in Hlen; lia].
  destruct Fa as [<-|[]], Fb as [<-|[]]. reflexivity.
Qed.

Theorem cover_check_sound M prim sec S :
  cover_check M prim sec S = true -> exact_cover M prim sec S.
Proof.
  unfold cover_check, count. intros [[[Hnd Hrows]%andb_true_iff Hprim]%andb_true_iff Hsec]%andb_true_iff.
  apply nodupb_NoDup in Hnd. rewrite forallb_forall in Hrows, Hprim, Hsec. split; [exact Hnd|]. split; [|split].
  - intros r Hr. apply Hrows, andb_true_iff in Hr. destruct Hr as [Hlt Hex].
    split; [apply Nat.ltb_lt; exact Hlt | apply existsb_exists; exact Hex].
  - intros c Hc. apply Hprim, Nat.eqb_eq in Hc.
    assert (Hr : exists r, In r (filter (fun r => cell M r c) S))
      by (destruct (filter _ S) as [|r t]; [discriminate | exists r; left; reflexivity]).
    destruct Hr as [r [Hr Hcell]%filter_In]. exists r. split; [exact Hr|]. split; [exact Hcell|].
    intros r' Hr' Hcell'. apply (filter_le1_unique (fun r => cell M r c) S); try assumption. lia.
  - intros c Hc r r' Hr Hr' Hcell Hcell'. apply Hsec, Nat.leb_le in Hc.
    apply (filter_le1_unique (fun r => cell M r c) S); assumption.
Qed.

Lemma same_setb_iff a b : same_setb a b = true <-> same_set a b.
Proof.
  unfold same_setb. split.
  - intros [H1 H2]%andb_true_iff x. rewrite forallb_forall in H1, H2. split; intros Hx; apply mem_In; auto.
  - intros H. apply andb_true_iff. split; apply forallb_forall; intros x Hx; apply mem_In, H, Hx.
Qed.

Lemma distinct_sets_sound R :
  distinct_sets R = true -> forall i j, i < j < length R -> ~ same_set (nth i R []) (nth j R []).
Proof.
  induction R as [|a t IH]; intros H i j Hij; [simpl in Hij; lia|].
  simpl in H. apply andb_true_iff in H. destruct H as [Ha Ht].
  destruct j as [|j]; [lia|]. destruct i as [|i].
  - simpl. intros Hs. rewrite forallb_forall in Ha.
    assert (Hin : In (nth j t []) t) by (apply nth_In; simpl in Hij; lia).
    specialize (Ha _ Hin). rewrite (proj2 (same_setb_iff _ _) Hs) in Ha. discriminate.
  - simpl. apply IH; [exact Ht|]. simpl in Hij. lia.
Qed.

Theorem spec_check_sound inp r :
  spec_check inp r = true ->
  (forall S, In S (selections r) -> is_cover inp S)
  /\ (forall i j, i < j < length (selections r) -> ~ same_set (nth i (selections r) []) (nth j (selections r) [])).
Proof.
  unfold spec_check. intros H. apply andb_true_iff in H. destruct H as [H1 H2]. split.
  - intros S HS. rewrite forallb_forall in H1. apply cover_check_sound. apply H1. exact HS.
  - apply distinct_sets_sound. exact H2.
Qed.
