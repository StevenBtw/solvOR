(* Effect of the elementary pointer operations (unlink_v / relink_v / unlink_h / relink_h) on the field maps, the
   fact that relink undoes unlink on a linked node, and the two-level loop lemma shared by _cover and _uncover. *)
From Coq Require Import List Arith Bool Lia.
From SV Require Import C07.Dlx C07.DeepLinks C07.DeepBase.
Import ListNotations.

Definition lens (s : lst) (N : nat) : Prop :=
  length (fL s) = N /\ length (fR s) = N /\ length (fU s) = N /\ length (fD s) = N /\
  length (fC s) = N /\ length (fRow s) = N /\ length (fS s) = N.

Lemma lens_n_ids s N : lens s N -> n_ids s = N.
Proof. intros H. apply H. Qed.

Lemma lst_eq (a b : lst) :
  fL a = fL b -> fR a = fR b -> fU a = fU b -> fD a = fD b -> fC a = fC b -> fRow a = fRow b -> fS a = fS b -> a = b.
Proof. destruct a, b; simpl; intros; subst; reflexivity. Qed.

Section UnlinkV.
  Variables (s : lst) (N y : nat).
  Hypothesis Hl : lens s N.
  Hypothesis Hd : down s y < N.
  Hypothesis Hu : up s y < N.
  Hypothesis Hc : column s y < N.
  Hypothesis Hdy : down s y <> y.

  Lemma unlink_v_fields :
    fL (unlink_v y s) = fL s /\ fR (unlink_v y s) = fR s /\ fC (unlink_v y s) = fC s /\ fRow (unlink_v y s) = fRow s.
  Proof. unfold unlink_v. simpl. auto. Qed.

  Lemma unlink_v_lens : lens (unlink_v y s) N.
  Proof.
    destruct Hl as [A [B [C [D [E [F G]]]]]]. unfold unlink_v, lens; simpl.
    rewrite !set_length. auto 10.
  Qed.

  Lemma unlink_v_up k : up (unlink_v y s) k = upd (up s) (down s y) (up s y) k.
  Proof.
    unfold unlink_v, up, upd; simpl. apply get_set. destruct Hl as [_ [_ [C _]]]. rewrite C. exact Hd.
  Qed.

  Lemma unlink_v_down k : down (unlink_v y s) k = upd (down s) (up s y) (down s y) k.
  Proof.
    unfold unlink_v, down, upd, up; simpl.
    rewrite (get_set_other (fU s)) by exact Hdy.
    apply get_set. destruct Hl as [_ [_ [_ [D _]]]]. rewrite D. exact Hu.
  Qed.

  Lemma unlink_v_size k :
    csize (unlink_v y s) k = upd (csize s) (column s y) (csize s (column s y) - 1) k.
  Proof.
    unfold unlink_v, csize, upd, column; simpl. apply get_set.
    destruct Hl as [_ [_ [_ [_ [_ [_ G]]]]]]. rewrite G. exact Hc.
  Qed.
End UnlinkV.

Lemma relink_unlink_v s N y :
  lens s N -> column s y < N ->
  down s y <> y -> up s y <> y ->
  up s (down s y) = y -> down s (up s y) = y ->
  1 <= csize s (column s y) ->
  relink_v y (unlink_v y s) = s.
Proof.
  intros Hl Hc Hdy Huy Hud Hdu Hsz.
  destruct Hl as [_ [_ [_ [_ [_ [_ G]]]]]].
  unfold relink_v, unlink_v, column, csize, up, down in *; simpl.
  rewrite (get_set_other (fU s)) by exact Hdy.
  rewrite (get_set_other (fD s)) by exact Huy.
  apply lst_eq; simpl; try reflexivity.
  - rewrite set_set. apply set_same_val. exact Hud.
  - rewrite set_set. rewrite (get_set_other (fU s)) by exact Hdy. rewrite set_set. apply set_same_val. exact Hdu.
  - rewrite set_set. apply set_same_val. rewrite get_set_same by (rewrite G; exact Hc). lia.
Qed.

Section UnlinkH.
  Variables (s : lst) (N c : nat).
  Hypothesis Hl : lens s N.
  Hypothesis Hr : right s c < N.
  Hypothesis Hlf : left s c < N.
  Hypothesis Hrc : right s c <> c.

  Lemma unlink_h_fields :
    fU (unlink_h c s) = fU s /\ fD (unlink_h c s) = fD s /\ fC (unlink_h c s) = fC s
    /\ fRow (unlink_h c s) = fRow s /\ fS (unlink_h c s) = fS s.
  Proof. unfold unlink_h. simpl. auto. Qed.

  Lemma unlink_h_lens : lens (unlink_h c s) N.
  Proof.
    destruct Hl as [A [B [C [D [E [F G]]]]]]. unfold unlink_h, lens; simpl.
    rewrite !set_length. auto 10.
  Qed.

  Lemma unlink_h_left k : left (unlink_h c s) k = upd (left s) (right s c) (left s c) k.
  Proof.
    unfold unlink_h, left, upd; simpl. apply get_set. destruct Hl as [A _]. rewrite A. exact Hr.
  Qed.

  Lemma unlink_h_right k : right (unlink_h c s) k = upd (right s) (left s c) (right s c) k.
  Proof.
    unfold unlink_h, right, upd, left; simpl.
    rewrite (get_set_other (fL s)) by exact Hrc.
    apply get_set. destruct Hl as [_ [B _]]. rewrite B. exact Hlf.
  Qed.
End UnlinkH.

Lemma relink_unlink_h s c :
  right s c <> c -> left s c <> c ->
  left s (right s c) = c -> right s (left s c) = c ->
  relink_h c (unlink_h c s) = s.
Proof.
  intros Hrc Hlc Hlr Hrl.
  unfold relink_h, unlink_h, left, right in *; simpl.
  rewrite (get_set_other (fL s)) by exact Hrc.
  rewrite (get_set_other (fR s)) by exact Hlc.
  apply lst_eq; simpl; try reflexivity.
  - rewrite set_set. apply set_same_val. exact Hlr.
  - rewrite set_set. rewrite (get_set_other (fL s)) by exact Hrc. rewrite set_set. apply set_same_val. exact Hrl.
Qed.

Definition foldop (op : nat -> lst -> lst) (ys : list nat) (s : lst) : lst :=
  fold_left (fun a y => op y a) ys s.

Lemma foldop_app op a b s : foldop op (a ++ b) s = foldop op b (foldop op a s).
Proof. unfold foldop. apply fold_left_app. Qed.

(* one loop whose body applies op: the pointer to follow next is read after the body *)
Lemma walk_fold (next : lst -> nat -> nat) (op : nat -> lst -> lst) (stop : nat) : forall l s fuel,
  ~ In stop l -> length l < fuel ->
  (forall pre y post, l = pre ++ y :: post -> next (foldop op (pre ++ [y]) s) y = hd stop post) ->
  walk fuel next stop (fun y a => Some (op y a)) (hd stop l) s = Some (foldop op l s).
Proof.
  induction l as [|y rest IH]; intros s fuel Hstop Hf Hnext; (destruct fuel; [simpl in Hf; lia|]); cbn [walk hd].
  - rewrite Nat.eqb_refl. reflexivity.
  - destruct (Nat.eqb_spec y stop) as [->|_]; [exfalso; apply Hstop; left; reflexivity|].
    pose proof (Hnext [] y rest eq_refl) as E. cbn [app foldop fold_left] in E. rewrite E. apply IH.
    + intros K. apply Hstop. right. exact K.
    + simpl in Hf. lia.
    + intros pre z post ->. apply (Hnext (y :: pre) z post). reflexivity.
Qed.

(* the two nested loops: xs is what is left of the outer ring (from a to h), inner x the inner ring of x.  Every state
   on the way is foldop op pre s for a prefix pre of the nodes to visit; all of them must have N ids and show the same
   rings. *)
Lemma walk_nested (nO nI : lst -> nat -> nat) (op : nat -> lst -> lst) (N h : nat) (inner : nat -> list nat) :
  forall (xs : list nat) (a : nat) (s : lst) (fuel : nat),
  (forall pre post, concat (map inner xs) = pre ++ post ->
     n_ids (foldop op pre s) = N /\ chain (nO (foldop op pre s)) a xs h
     /\ forall x, In x xs -> chain (nI (foldop op pre s)) x (inner x) x) ->
  ~ In h xs -> (forall x, In x xs -> ~ In x (inner x)) ->
  length xs < fuel -> (forall x, In x xs -> length (inner x) <= N) ->
  walk fuel nO h
       (fun node s2 => walk (loop_fuel s2) nI node (fun rn s3 => Some (op rn s3)) (nI s2 node) s2)
       (hd h xs) s
  = Some (foldop op (concat (map inner xs)) s).
Proof.
  induction xs as [|x rest IH]; intros a s fuel Good Hh Hx HlenO HlenI;
    (destruct fuel; [simpl in HlenO; lia|]); cbn [walk hd map concat].
  - rewrite Nat.eqb_refl. reflexivity.
  - destruct (Nat.eqb_spec x h) as [->|_]; [exfalso; apply Hh; left; reflexivity|].
    destruct (Good [] _ eq_refl) as [HN [_ Hin]]. cbn [foldop fold_left] in HN, Hin.
    rewrite (chain_hd _ _ _ _ (Hin x (or_introl eq_refl))).
    rewrite walk_fold.
    + rewrite foldop_app.
      destruct (Good (inner x) (concat (map inner rest)) eq_refl) as [_ [[_ Hc] _]].
      rewrite (chain_hd _ _ _ _ Hc). apply (IH x).
      * intros pre post E. rewrite <- foldop_app.
        destruct (Good (inner x ++ pre) post) as [A [[_ B] C]]; [cbn [map concat]; rewrite E; apply app_assoc|].
        split; [exact A|]. split; [exact B|]. intros z Hz. apply C. right. exact Hz.
      * intros K. apply Hh. right. exact K.
      * intros z Hz. apply Hx. right. exact Hz.
      * simpl in HlenO. lia.
      * intros z Hz. apply HlenI. right. exact Hz.
    + apply Hx. left. reflexivity.
    + unfold loop_fuel. rewrite HN. specialize (HlenI x (or_introl eq_refl)). lia.
    + intros pre y post E.
      destruct (Good (pre ++ [y]) (post ++ concat (map inner rest))) as [_ [_ B]].
      { cbn [map concat]. rewrite E, <- !app_assoc. reflexivity. }
      specialize (B x (or_introl eq_refl)). rewrite E in B. apply chain_at in B. exact B.
Qed.
