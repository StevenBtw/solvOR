(* A boolean checker for the COMPLETENESS clause, usable on the implementation's outputs: the returned list
   must contain (as sets) every element of the enumeration `enum_covers`, which is PROVED to list all exact
   covers (DlxEnum.enumeration_lists_all).  Its soundness theorem mentions only the Spec, so nothing about the
   search model has to be trusted when it accepts an output. *)
From Coq Require Import List Bool.
From SV Require Import C07.Dlx C07.DlxSpec C07.DlxEnum.
Import ListNotations.

Definition enum_covers (inp : input) : list (list nat) :=
  map (map fst) (all_sols (fuel_of inp) (prim_cols inp) (mk_rows (matrix inp))).

Definition input_in_range (inp : input) : bool :=
  rows_in_range (length (col_names inp)) (mk_rows (matrix inp)).

Definition complete_check (inp : input) (r : result) : bool :=
  spec_check inp r
  && forallb (fun S0 => existsb (same_setb S0) (selections r)) (enum_covers inp).

(* what the harness evaluates: for find_all answers reported as not cut (OPTIMAL / INFEASIBLE) *)
Definition complete_check_outcome (inp : input) (o : outcome) : bool :=
  match o with
  | Done r =>
      if valid_input inp && input_in_range inp && find_all inp
         && (status_eqb (r_status r) OPTIMAL || status_eqb (r_status r) INFEASIBLE)
      then complete_check inp r else true
  | _ => true
  end.

Theorem complete_check_sound inp r :
  input_in_range inp = true -> complete_check inp r = true -> lists_all_covers inp (selections r).
Proof.
  unfold complete_check. intros Hr H. apply andb_true_iff in H. destruct H as [Hs Hc].
  apply spec_check_sound in Hs. destruct Hs as [Hsound Hdist].
  split; [exact Hsound|]. split; [|exact Hdist].
  intros S HS. destruct (enumeration_lists_all inp Hr) as [_ [Hall _]].
  destruct (Hall S HS) as [S0 [HS0 Hsame]].
  rewrite forallb_forall in Hc. specialize (Hc S0 HS0). apply existsb_exists in Hc.
  destruct Hc as [S' [HS' Hb]]. apply same_setb_iff in Hb.
  exists S'. split; [exact HS'|]. intros x. rewrite (Hsame x). apply Hb.
Qed.
