(* The pure enumeration `all_sols` that search() walks (no counters, no limits), and its
   meaning: it lists exactly the covers of the sub-problem (active primary columns, active rows), each once;
   for the rows built by _build_links and all primary columns these are the exact covers of the Spec
   (enumeration_lists_all). *)
From Coq Require Import List Arith Bool Lia.
From SV Require Import C07.Dlx C07.DlxSpec.
Import ListNotations.

Fixpoint pairwise {A} (R : A -> A -> Prop) (l : list A) : Prop :=
  match l with
  | [] => True
  | x :: t => Forall (R x) t /\ pairwise R t
  end.

Lemma pairwise_app {A} (R : A -> A -> Prop) l1 l2 :
  pairwise R (l1 ++ l2) <->
  pairwise R l1 /\ pairwise R l2 /\ (forall a b, In a l1 -> In b l2 -> R a b).
Proof.
  induction l1 as [|x t IH]; simpl.
  - split; [intros H; repeat split; [exact H | intros a b []] | intros [_ [H _]]; exact H].
  - rewrite Forall_app, IH, !Forall_forall. split.
    + intros [[F1 F2] [P1 [P2 C]]]. split; [split; [exact F1 | exact P1]|]. split; [exact P2|].
      intros a b [<-|Ha]; auto.
    + intros [[F1 P1] [P2 C]]. repeat split; auto.
Qed.

Lemma pairwise_map {A B} (R : B -> B -> Prop) (f : A -> B) l :
  pairwise R (map f l) <-> pairwise (fun a b => R (f a) (f b)) l.
Proof.
  induction l as [|x t IH]; simpl; [tauto|].
  split; intros [F P]; (split; [apply Forall_map, F | apply IH, P]).
Qed.

Lemma pairwise_impl {A} (R Q : A -> A -> Prop) l :
  (forall a b, In a l -> In b l -> R a b -> Q a b) -> pairwise R l -> pairwise Q l.
Proof.
  induction l as [|x t IH]; simpl; intros H P; [exact I|].
  destruct P as [F P]. split.
  - rewrite Forall_forall in *. intros b Hb. apply H; [left; reflexivity | right; exact Hb | apply F; exact Hb].
  - apply IH; [|exact P]. intros a b Ha Hb. apply H; right; assumption.
Qed.

Lemma pairwise_flat_map {A B} (R : B -> B -> Prop) (f : A -> list B) l :
  NoDup l ->
  (forall x, In x l -> pairwise R (f x)) ->
  (forall x y, In x l -> In y l -> x <> y -> forall a b, In a (f x) -> In b (f y) -> R a b) ->
  pairwise R (flat_map f l).
Proof.
  induction 1 as [|x t Hx Hnd IH]; simpl; intros Hin Hcross; [exact I|].
  apply pairwise_app. split; [apply Hin; left; reflexivity|]. split.
  - apply IH; [intros y Hy; apply Hin; right; exact Hy|]. intros y z Hy Hz. apply Hcross; right; assumption.
  - intros a b Ha [y [Hy Hb]]%in_flat_map.
    apply (Hcross x y); [left; reflexivity | right; exact Hy | | exact Ha | exact Hb]. intros ->. exact (Hx Hy).
Qed.

Lemma pairwise_nth {A} (R : A -> A -> Prop) l d :
  pairwise R l -> forall i j, i < j < length l -> R (nth i l d) (nth j l d).
Proof.
  induction l as [|x t IH]; simpl; intros P i j Hij; [lia|].
  destruct P as [F P]. destruct j as [|j]; [lia|]. destruct i as [|i].
  - rewrite Forall_forall in F. apply F. apply nth_In. lia.
  - apply IH; [exact P | lia].
Qed.

Lemma pairwise_NoDup_map {A B} (f : A -> B) l : pairwise (fun a b => f a <> f b) l -> NoDup (map f l).
Proof.
  induction l as [|x t IH]; simpl; intros P; [constructor|].
  destruct P as [F P]. constructor; [|apply IH; exact P].
  intros Hin. apply in_map_iff in Hin. destruct Hin as [y [E Hy]].
  rewrite Forall_forall in F. apply (F y Hy). symmetry. exact E.
Qed.

Lemma disjoint_spec a b : disjoint a b = true <-> forall x, In x a -> ~ In x b.
Proof.
  unfold disjoint. rewrite forallb_forall. split; intros H x Hx.
  - apply mem_false_In. apply negb_true_iff. apply H. exact Hx.
  - apply negb_true_iff. apply mem_false_In. apply H. exact Hx.
Qed.

Definition rdisj (a b : row) : Prop := disjoint (snd a) (snd b) = true.

Lemma rdisj_common a b c : rdisj a b -> In c (snd a) -> In c (snd b) -> False.
Proof. unfold rdisj. rewrite disjoint_spec. intros H Ha Hb. exact (H c Ha Hb). Qed.

Lemma unique_row S a b c :
  pairwise rdisj S -> In a S -> In b S -> In c (snd a) -> In c (snd b) -> a = b.
Proof.
  induction S as [|x t IH]; simpl; [intros _ []|]. intros [F P] Ha Hb Hca Hcb. rewrite Forall_forall in F.
  destruct Ha as [<-|Ha], Hb as [<-|Hb].
  - reflexivity.
  - destruct (rdisj_common _ _ _ (F b Hb) Hca Hcb).
  - destruct (rdisj_common _ _ _ (F a Ha) Hcb Hca).
  - exact (IH P Ha Hb Hca Hcb).
Qed.

Lemma has_In c r : has c r = true <-> In c (snd r).
Proof. unfold has. apply mem_In. Qed.

Lemma in_remove_cols c rc cols : In c (remove_cols rc cols) <-> In c cols /\ ~ In c rc.
Proof.
  unfold remove_cols. rewrite filter_In, negb_true_iff, mem_false_In. tauto.
Qed.

Lemma in_remove_rows r' r rows : In r' (remove_rows r rows) <-> In r' rows /\ rdisj r r'.
Proof. unfold remove_rows, rdisj. rewrite filter_In. tauto. Qed.

Lemma filter_length_le {A} (p : A -> bool) l : length (filter p l) <= length l.
Proof. induction l as [|y t IH]; simpl; [lia|]. destruct (p y); simpl; lia. Qed.

Lemma filter_length_lt {A} (p : A -> bool) l x :
  In x l -> p x = false -> length (filter p l) < length l.
Proof.
  induction l as [|y t IH]; intros Hin Hp; [destruct Hin|].
  simpl. destruct Hin as [E|Hin].
  - subst. rewrite Hp. pose proof (filter_length_le p t). lia.
  - specialize (IH Hin Hp). destruct (p y); simpl; lia.
Qed.

Lemma remove_cols_shrinks c rc cols :
  In c cols -> In c rc -> length (remove_cols rc cols) < length cols.
Proof.
  intros Hc Hr. unfold remove_cols. apply (filter_length_lt _ cols c Hc).
  apply negb_false_iff. apply mem_In. exact Hr.
Qed.

Lemma choose_loop_spec rows cols : forall best c sz,
  choose_loop rows cols best = Some (c, sz) ->
  best = Some (c, sz) \/ (In c cols /\ sz = size rows c).
Proof.
  induction cols as [|c0 rest IH]; simpl; intros best c sz H; [left; exact H|].
  destruct (match best with None => true | Some (_, bs) => size rows c0 <? bs end).
  - destruct (size rows c0 =? 0).
    + injection H as <- <-. right. split; [left|]; reflexivity.
    + apply IH in H. destruct H as [H|[H1 H2]].
      * injection H as <- <-. right. split; [left|]; reflexivity.
      * right. split; [right; exact H1 | exact H2].
  - apply IH in H. destruct H as [H|[H1 H2]]; [left; exact H | right; split; [right; exact H1 | exact H2]].
Qed.

Lemma choose_loop_some rows cols : forall b, exists p, choose_loop rows cols (Some b) = Some p.
Proof.
  induction cols as [|c0 rest IH]; simpl; intros b; [exists b; reflexivity|].
  destruct b as [bc bs]. destruct (size rows c0 <? bs).
  - destruct (size rows c0 =? 0); [eexists; reflexivity | apply IH].
  - apply IH.
Qed.

Lemma choose_nonempty rows c0 rest :
  exists c sz, choose_loop rows (c0 :: rest) None = Some (c, sz) /\ In c (c0 :: rest) /\ sz = size rows c.
Proof.
  assert (E : exists p, choose_loop rows (c0 :: rest) None = Some p).
  { simpl. destruct (size rows c0 =? 0); [eexists; reflexivity | apply choose_loop_some]. }
  destruct E as [[c sz] E]. exists c, sz. split; [exact E|].
  apply choose_loop_spec in E. destruct E as [E|E]; [discriminate | exact E].
Qed.

Fixpoint all_sols (fuel : nat) (cols : list nat) (rows : list row) : list (list row) :=
  match fuel with
  | 0 => []
  | S f =>
      match cols with
      | [] => [[]]
      | _ :: _ =>
          match choose_loop rows cols None with
          | None => []
          | Some (c, sz) =>
              if sz =? 0 then []
              else flat_map (fun r => map (cons r) (all_sols f (remove_cols (snd r) cols) (remove_rows r rows)))
                            (filter (has c) rows)
          end
      end
  end.

(* S (a list of active rows) solves the sub-problem: pairwise column-disjoint rows, each with an active
   primary column, together covering every active primary column *)
Definition sub_cover (cols : list nat) (rows S : list row) : Prop :=
  incl S rows
  /\ pairwise rdisj S
  /\ (forall r, In r S -> exists c, In c cols /\ In c (snd r))
  /\ (forall c, In c cols -> exists r, In r S /\ In c (snd r)).

Lemma sub_cover_cons cols rows r S c :
  In r rows -> In c cols -> In c (snd r) ->
  sub_cover (remove_cols (snd r) cols) (remove_rows r rows) S -> sub_cover cols rows (r :: S).
Proof.
  intros Hr Hc Hcr [H1 [H2 [H3 H4]]].
  assert (Hrest : forall x, In x S -> In x rows /\ rdisj r x) by (intros x Hx; apply in_remove_rows, H1, Hx).
  split; [|split; [|split]].
  - intros x [<-|Hx]; [exact Hr | apply Hrest, Hx].
  - split; [|exact H2]. apply Forall_forall. intros x Hx. apply Hrest, Hx.
  - intros x [<-|Hx]; [exists c; split; assumption|].
    destruct (H3 x Hx) as [c' [Hc' Hin]]. exists c'. split; [apply in_remove_cols in Hc'; apply Hc' | exact Hin].
  - intros c' Hc'. destruct (in_dec Nat.eq_dec c' (snd r)) as [Hin|Hnin].
    + exists r. split; [left; reflexivity | exact Hin].
    + destruct (H4 c') as [x [Hx Hxin]]; [apply in_remove_cols; split; assumption|].
      exists x. split; [right; exact Hx | exact Hxin].
Qed.

Lemma all_sols_sound : forall f cols rows S, In S (all_sols f cols rows) -> sub_cover cols rows S.
Proof.
  induction f as [|f IH]; intros cols rows S H; [destruct H|].
  simpl in H. destruct cols as [|c0 rest].
  - destruct H as [<-|[]]. repeat split; intros ? [].
  - destruct (choose_loop rows (c0 :: rest) None) as [[c sz]|] eqn:Ech; [|destruct H].
    apply choose_loop_spec in Ech. destruct Ech as [Ech|[Hc _]]; [discriminate|].
    destruct (sz =? 0); [destruct H|].
    apply in_flat_map in H. destruct H as [r [Hr H]].
    apply filter_In in Hr. destruct Hr as [Hr Hhas%has_In].
    apply in_map_iff in H. destruct H as [S' [<- HS']].
    apply (sub_cover_cons _ _ _ _ c Hr Hc Hhas), IH, HS'.
Qed.

(* S may hold rows beyond the solution that is found, so the same S serves at every level of the recursion *)
Lemma all_sols_complete : forall f cols rows S,
  length cols < f ->
  (forall a b c, In a S -> In b S -> In c (snd a) -> In c (snd b) -> a = b) ->
  (forall c, In c cols -> exists r, In r S /\ In r rows /\ In c (snd r)) ->
  exists T, In T (all_sols f cols rows) /\ incl T S.
Proof.
  induction f as [|f IH]; intros cols rows S Hf Hu Hcov; [inversion Hf|].
  simpl. destruct cols as [|c0 rest].
  - exists []. split; [left; reflexivity | intros x []].
  - destruct (choose_nonempty rows c0 rest) as [c [sz [Ech [Hc Hsz]]]]. rewrite Ech.
    destruct (Hcov c Hc) as [r [HrS [Hr Hcr]]].
    assert (Hcand : In r (filter (has c) rows)) by (apply filter_In; split; [exact Hr | apply has_In, Hcr]).
    assert (Hsz0 : (sz =? 0) = false).
    { apply Nat.eqb_neq. subst sz. unfold size. destruct (filter (has c) rows); [destruct Hcand | discriminate]. }
    rewrite Hsz0.
    destruct (IH (remove_cols (snd r) (c0 :: rest)) (remove_rows r rows) S) as [T [HT HTS]].
    + apply (Nat.lt_le_trans _ (length (c0 :: rest))); [exact (remove_cols_shrinks c _ _ Hc Hcr) | apply Nat.lt_succ_r, Hf].
    + exact Hu.
    + (* a column that r leaves is covered by a row of S that cannot meet r *)
      intros c' [Hc' Hnr]%in_remove_cols. destruct (Hcov c' Hc') as [x [HxS [Hx Hcx]]].
      exists x. split; [exact HxS|]. split; [|exact Hcx]. apply in_remove_rows. split; [exact Hx|].
      apply disjoint_spec. intros c1 H1 H2. apply Hnr. rewrite (Hu r x c1 HrS HxS H1 H2). exact Hcx.
    + exists (r :: T). split.
      * apply in_flat_map. exists r. split; [exact Hcand | apply in_map, HT].
      * intros y [<-|Hy]; [exact HrS | apply HTS, Hy].
Qed.

Lemma sub_sols_avoid f cols rows r x c T :
  In T (all_sols f cols (remove_rows r rows)) -> In x T -> In c (snd r) -> In c (snd x) -> False.
Proof.
  intros HT Hx Hr Hc. apply all_sols_sound in HT. destruct HT as [Hin _].
  apply Hin, in_remove_rows in Hx. exact (rdisj_common _ _ _ (proj2 Hx) Hr Hc).
Qed.

Lemma all_sols_distinct : forall f cols rows,
  NoDup rows -> pairwise (fun a b => ~ incl a b) (all_sols f cols rows).
Proof.
  induction f as [|f IH]; intros cols rows Hnd; [exact I|].
  simpl. destruct cols as [|c0 rest]; [simpl; split; [constructor | exact I]|].
  destruct (choose_loop rows (c0 :: rest) None) as [[c sz]|]; [|exact I].
  destruct (sz =? 0); [exact I|].
  apply pairwise_flat_map.
  - apply NoDup_filter. exact Hnd.
  - intros r Hr. apply pairwise_map.
    assert (Hnd' : NoDup (remove_rows r rows)) by (apply NoDup_filter; exact Hnd).
    eapply pairwise_impl; [|apply (IH (remove_cols (snd r) (c0 :: rest)) _ Hnd')].
    intros a b Ha Hb Hab Hinc. apply Hab.
    apply filter_In in Hr. destruct Hr as [_ Hhas%has_In].
    intros x Hx. destruct (Hinc x (or_intror Hx)) as [<-|Hx']; [|exact Hx'].
    destruct (sub_sols_avoid _ _ _ _ _ _ _ Ha Hx Hhas Hhas).
  - intros r1 r2 Hr1 Hr2 Hne a b Ha Hb Hinc.
    apply filter_In in Hr1. destruct Hr1 as [_ Hh1%has_In].
    apply filter_In in Hr2. destruct Hr2 as [_ Hh2%has_In].
    apply in_map_iff in Ha. destruct Ha as [A [<- HA]].
    apply in_map_iff in Hb. destruct Hb as [B [<- HB]].
    destruct (Hinc r1 (or_introl eq_refl)) as [E|Hin]; [apply Hne; symmetry; exact E|].
    exact (sub_sols_avoid _ _ _ _ _ _ _ HB Hin Hh2 Hh1).
Qed.

Lemma in_row_cols_from : forall r j c,
  In c (row_cols_from j r) <-> exists k, c = j + k /\ nth k r false = true.
Proof.
  induction r as [|b t IH]; intros j c; simpl.
  - split; [intros [] | intros [k [_ H]]; destruct k; discriminate].
  - split.
    + intros H.
      assert (H' : b = true /\ j = c \/ In c (row_cols_from (S j) t)) by (destruct b; [destruct H|]; auto).
      destruct H' as [[-> <-]|H']; [exists 0; rewrite Nat.add_0_r; split; reflexivity|].
      apply IH in H'. destruct H' as [k [-> Hk]]. exists (S k). rewrite Nat.add_succ_r. split; [reflexivity | exact Hk].
    + intros [[|k] [-> Hk]].
      * simpl in Hk. subst b. left. symmetry. apply Nat.add_0_r.
      * assert (H : In (j + S k) (row_cols_from (S j) t))
          by (apply IH; exists k; rewrite Nat.add_succ_r; split; [reflexivity | exact Hk]).
        destruct b; [right|]; exact H.
Qed.

(* the row that _build_links makes of matrix row i *)
Definition matrix_row (M : list (list bool)) (i : nat) : row := (i, row_cols_from 0 (nth i M [])).

Lemma in_mk_rows_from : forall M k r,
  In r (mk_rows_from k M) <-> exists i, i < length M /\ r = (k + i, snd (matrix_row M i)).
Proof.
  induction M as [|m t IH]; intros k r; simpl.
  - split; [intros [] | intros [i [H _]]; inversion H].
  - split.
    + intros [<-|H].
      * exists 0. rewrite Nat.add_0_r. split; [apply Nat.lt_0_succ | reflexivity].
      * apply IH in H. destruct H as [i [Hi ->]]. exists (S i). rewrite Nat.add_succ_r.
        split; [apply -> Nat.succ_lt_mono; exact Hi | reflexivity].
    + intros [[|i] [Hi ->]]; [left; rewrite Nat.add_0_r; reflexivity | right].
      apply IH. exists i. rewrite Nat.add_succ_r. split; [apply Nat.succ_lt_mono; exact Hi | reflexivity].
Qed.

Lemma in_mk_rows M r : In r (mk_rows M) <-> exists i, i < length M /\ r = matrix_row M i.
Proof. apply in_mk_rows_from. Qed.

Lemma matrix_row_cell M i c : In c (snd (matrix_row M i)) <-> cell M i c = true.
Proof.
  unfold cell. simpl. split.
  - intros [k [-> H]]%in_row_cols_from. exact H.
  - intros H. apply in_row_cols_from. exists c. split; [reflexivity | exact H].
Qed.

Lemma mk_rows_cell M r c : In r (mk_rows M) -> (In c (snd r) <-> cell M (fst r) c = true).
Proof. intros [i [_ ->]]%in_mk_rows. apply matrix_row_cell. Qed.

Lemma mk_rows_fst_inj M a b : In a (mk_rows M) -> In b (mk_rows M) -> fst a = fst b -> a = b.
Proof. intros [i [_ ->]]%in_mk_rows [j [_ ->]]%in_mk_rows E. simpl in E. rewrite E. reflexivity. Qed.

Lemma map_fst_mk_rows_from : forall M k, map fst (mk_rows_from k M) = seq k (length M).
Proof. induction M as [|m t IH]; intros k; simpl; [reflexivity | rewrite IH; reflexivity]. Qed.

Lemma mk_rows_NoDup M : NoDup (mk_rows M).
Proof.
  apply (NoDup_map_inv fst). unfold mk_rows. rewrite map_fst_mk_rows_from. apply seq_NoDup.
Qed.

Lemma rows_in_range_spec nc rows :
  rows_in_range nc rows = true -> forall r c, In r rows -> In c (snd r) -> c < nc.
Proof.
  unfold rows_in_range. rewrite forallb_forall. intros H r c Hr Hc.
  specialize (H r Hr). rewrite forallb_forall in H. apply Nat.ltb_lt. apply H. exact Hc.
Qed.

Lemma in_prim_cols inp c : In c (prim_cols inp) <-> c < length (col_names inp) /\ is_secondary inp c = false.
Proof. unfold prim_cols. rewrite filter_In, in_seq, negb_true_iff. split; intros [H1 H2]; (split; [lia | exact H2]). Qed.

Lemma in_sec_cols inp c : In c (sec_cols inp) <-> c < length (col_names inp) /\ is_secondary inp c = true.
Proof. unfold sec_cols. rewrite filter_In, in_seq. split; intros [H1 H2]; (split; [lia | exact H2]). Qed.

Lemma prim_or_sec inp c : c < length (col_names inp) -> In c (prim_cols inp) \/ In c (sec_cols inp).
Proof.
  intros H. destruct (is_secondary inp c) eqn:E.
  - right. apply in_sec_cols. split; assumption.
  - left. apply in_prim_cols. split; assumption.
Qed.

Section Bridge.
  Variable M : list (list bool).
  Variables prim sec : list nat.
  Variable nc : nat.
  Hypothesis Hpart : forall c, c < nc -> In c prim \/ In c sec.
  Hypothesis Hrange : forall r c, In r (mk_rows M) -> In c (snd r) -> c < nc.

  Lemma sub_cover_exact S : sub_cover prim (mk_rows M) S -> exact_cover M prim sec (map fst S).
  Proof.
    intros [H1 [H2 [H3 H4]]].
    assert (Hcell : forall r c, In r S -> (In c (snd r) <-> cell M (fst r) c = true))
      by (intros r c Hr; apply mk_rows_cell, H1, Hr).
    split; [|split; [|split]].
    - apply pairwise_NoDup_map. eapply pairwise_impl; [|exact H2].
      intros a b Ha Hb Hd E. rewrite (mk_rows_fst_inj M a b (H1 a Ha) (H1 b Hb) E) in Hd.
      destruct (H3 b Hb) as [c [_ Hc]]. exact (rdisj_common _ _ _ Hd Hc Hc).
    - intros i [r [<- Hr]]%in_map_iff. split; [apply H1, in_mk_rows in Hr; destruct Hr as [i [Hi ->]]; exact Hi|].
      destruct (H3 r Hr) as [c [Hc Hin]]. exists c. split; [exact Hc | apply Hcell; assumption].
    - intros c Hc. destruct (H4 c Hc) as [r [Hr Hin]]. exists (fst r). split; [apply in_map; exact Hr|]. split.
      + apply Hcell; assumption.
      + intros i [r' [<- Hr']]%in_map_iff Hin'. apply Hcell in Hin'; [|exact Hr'].
        rewrite (unique_row S r' r c H2 Hr' Hr Hin' Hin). reflexivity.
    - intros c _ i j [a [<- Ha]]%in_map_iff [b [<- Hb]]%in_map_iff Ci Cj.
      apply Hcell in Ci, Cj; try assumption. rewrite (unique_row S a b c H2 Ha Hb Ci Cj). reflexivity.
  Qed.

  Lemma exact_cover_rows I :
    exact_cover M prim sec I ->
    (forall a b c, In a (map (matrix_row M) I) -> In b (map (matrix_row M) I) ->
                   In c (snd a) -> In c (snd b) -> a = b)
    /\ (forall c, In c prim ->
          exists r, In r (map (matrix_row M) I) /\ In r (mk_rows M) /\ In c (snd r)).
  Proof.
    intros [_ [Hrows [Hprim Hsec]]].
    assert (Hin : forall i, In i I -> In (matrix_row M i) (mk_rows M))
      by (intros i Hi; apply in_mk_rows; exists i; split; [apply Hrows, Hi | reflexivity]).
    split.
    - (* two rows of I sharing a column: the column is primary or secondary, and covered twice *)
      intros a b c [i [<- Hi]]%in_map_iff [j [<- Hj]]%in_map_iff Hci Hcj. f_equal.
      pose proof (Hrange _ _ (Hin i Hi) Hci) as Hlt. apply matrix_row_cell in Hci, Hcj.
      destruct (Hpart c Hlt) as [Hp|Hs].
      + destruct (Hprim c Hp) as [r0 [_ [_ Hu]]]. rewrite (Hu i Hi Hci), (Hu j Hj Hcj). reflexivity.
      + exact (Hsec c Hs i j Hi Hj Hci Hcj).
    - intros c Hc. destruct (Hprim c Hc) as [i [Hi [Hc' _]]]. exists (matrix_row M i).
      split; [apply in_map, Hi|]. split; [exact (Hin i Hi) | apply matrix_row_cell, Hc'].
  Qed.

  Lemma same_set_incl T1 T2 :
    incl T1 (mk_rows M) -> incl T2 (mk_rows M) -> same_set (map fst T1) (map fst T2) -> incl T1 T2.
  Proof.
    intros H1 H2 Hs x Hx. assert (Hi : In (fst x) (map fst T2)) by (apply Hs, in_map, Hx).
    apply in_map_iff in Hi. destruct Hi as [y [E Hy]].
    rewrite <- (mk_rows_fst_inj M y x (H2 y Hy) (H1 x Hx) E). exact Hy.
  Qed.

  Theorem all_sols_all_covers f :
    length prim < f -> all_covers M prim sec (map (map fst) (all_sols f prim (mk_rows M))).
  Proof.
    intros Hf. split; [|split].
    - intros S HS. apply in_map_iff in HS. destruct HS as [T [E HT]]. subst S.
      apply sub_cover_exact, (all_sols_sound f), HT.
    - intros I HI. destruct (exact_cover_rows I HI) as [Hu Hcov].
      destruct (all_sols_complete f prim (mk_rows M) _ Hf Hu Hcov) as [T [HT HTI]].
      exists (map fst T). split; [apply in_map; exact HT|]. intros i. split.
      + (* row i of the cover has a primary column; the row of T that covers it is row i *)
        intros Hi. destruct HI as [_ [Hrows _]]. destruct (Hrows i Hi) as [_ [c [Hc Hcell%matrix_row_cell]]].
        destruct (all_sols_sound f _ _ T HT) as [_ [_ [_ H4]]]. destruct (H4 c Hc) as [y [Hy Hcy]].
        apply (in_map fst) in Hy as Hfst. rewrite (Hu _ _ c (HTI y Hy) (in_map _ _ _ Hi) Hcy Hcell) in Hfst. exact Hfst.
      + intros [y [<- [j [<- Hj]]%HTI%in_map_iff]]%in_map_iff. exact Hj.
    - apply (pairwise_nth (fun a b => ~ same_set a b)), pairwise_map.
      eapply pairwise_impl; [|exact (all_sols_distinct f prim _ (mk_rows_NoDup M))].
      intros a b Ha Hb Hne Hs. apply Hne, same_set_incl; [| | exact Hs]; apply (all_sols_sound f prim); assumption.
  Qed.
End Bridge.

Theorem enumeration_lists_all inp :
  rows_in_range (length (col_names inp)) (mk_rows (matrix inp)) = true ->
  lists_all_covers inp (map (map fst) (all_sols (fuel_of inp) (prim_cols inp) (mk_rows (matrix inp)))).
Proof.
  intros Hrange. apply (all_sols_all_covers _ _ _ (length (col_names inp)) (prim_or_sec inp)).
  - intros r c. apply (rows_in_range_spec _ _ Hrange).
  - unfold fuel_of. lia.
Qed.
