(* _build_links: closing a row's ring, all rows, and the whole function (build_links_ok is what
   DeepFinal.build_refines rests on). *)
From Coq Require Import List Arith Bool Lia Sorted.
From SV Require Import C07.Dlx C07.DlxSpec C07.DeepLinks C07.DeepBase C07.DeepVert C07.DeepRows C07.DeepRep
                       C07.DeepAbs C07.DeepBuildBase C07.DeepBuildHdr C07.DeepBuildRow.
Import ListNotations.

Definition nonemptyb (r : row) : bool := match snd r with [] => false | _ :: _ => true end.

Lemma dring_from_any f g n1 rest y :
  dring f g n1 rest -> In y (n1 :: rest) ->
  dring f g y (after y (n1 :: rest) ++ before y (n1 :: rest)).
Proof.
  intros Hr Hy. pose proof (before_after y _ Hy) as E. revert E.
  generalize (before y (n1 :: rest)) (after y (n1 :: rest)). intros [|b B] A E; injection E as -> ->.
  - rewrite app_nil_r. exact Hr.
  - apply dring_rot. exact Hr.
Qed.

Lemma pcol_single k : forall cs, NoDup (map fst cs) ->
  pcol k cs = if mem k (map fst cs) then [cell_id k cs] else [].
Proof.
  induction cs as [|[a b] t IH]; intros Hnd; [reflexivity|].
  simpl in Hnd. inversion Hnd as [|? ? Hna Hnd']; subst.
  unfold pcol. cbn [filter fst map cell_id]. unfold mem. cbn [existsb]. rewrite (Nat.eqb_sym k a).
  destruct (a =? k) eqn:E.
  - apply Nat.eqb_eq in E. subst a. cbn [map snd orb].
    fold (pcol k t). rewrite (IH Hnd'). assert (M : mem k (map fst t) = false) by (apply mem_false_In; exact Hna).
    rewrite M. reflexivity.
  - cbn [orb]. fold (pcol k t). fold (mem k (map fst t)). apply IH. exact Hnd'.
Qed.

Lemma vcol_snoc k G g : vcol k (G ++ [g]) = vcol k G ++ (if ghas k g then [gcell k g] else []).
Proof. unfold vcol. rewrite filter_app, map_app. simpl. destruct (ghas k g); reflexivity. Qed.

Lemma Static_snoc s nc N G g :
  Static s nc N G -> RowOK s nc N g -> GRow g -> (forall x, In x (gids g) -> ~ In x (concat (map gids G))) ->
  Static s nc N (G ++ [g]).
Proof.
  intros [[W1 W2] HR] Hg Hrow Hfresh. split; [split|].
  - intros g' H. apply in_app_or in H. destruct H as [H|[<-|[]]]; [apply W1; exact H | exact Hrow].
  - rewrite map_app, concat_app. simpl. rewrite app_nil_r. apply nodup_app_intro; [exact W2 | apply Hrow|].
    intros x Hx Hx'. exact (Hfresh x Hx' Hx).
  - intros g' H. apply in_app_or in H. destruct H as [H|[<-|[]]]; [apply HR; exact H | exact Hg].
Qed.

Lemma Static_ids s nc N G x : Static s nc N G -> In x (concat (map gids G)) -> 2 + nc <= x < N.
Proof.
  intros [_ HR] Hx. apply in_concat in Hx. destruct Hx as [l [Hl Hxl]]. apply in_map_iff in Hl. destruct Hl as [g [<- Hg]].
  apply gids_cell in Hxl. destruct Hxl as [c Hc]. apply (HR g Hg) in Hc. apply Hc.
Qed.

Lemma row_end s nc N0 N G cols scols i cs first prev j :
  BInv s nc N0 N G cols scols i cs (Some (first, prev)) j ->
  let s3 := setR (setL s first prev) prev first in
  let G' := G ++ [(i, cs)] in
  Rep s3 nc N G' cols scols G'.
Proof.
  intros HB s3 G'. destruct (BInv_ids _ _ _ _ _ _ _ _ _ _ _ HB) as [P3 Hids].
  destruct HB as [HN0 [EN [HS [HH [_ [Hall [HV [P1 [P2 [_ P4]]]]]]]]]].
  assert (Hgids : gids (i, cs) = map snd cs) by reflexivity.
  destruct (map snd cs) as [|n1 rest] eqn:Eids; [discriminate|].
  destruct P4 as [Efp Hd]. inversion Efp; subst first prev. clear Efp.
  set (prev := last rest n1) in *.
  pose proof (Hids n1 (or_introl eq_refl)) as Hn1. pose proof (Hids prev (last_in rest n1)) as Hprev.
  destruct (hlink_fields s N n1 prev) as [HL3 [SV [EL ER]]]; [apply HV | lia | lia|]. fold s3 in HL3, SV, EL, ER.
  destruct (old_nodes_frame s s3 nc N0 N G cols scols HS HH) as [HS' HH']; [lia | |].
  { intros z Hz. rewrite ER, EL, !eqb_false by lia. auto. }
  apply Rep_all_rows; [apply Static_snoc| exact HH' | |exact Hall].
  - exact HS'.
  - split; [|split].
    + simpl. intros E. rewrite E in Eids. discriminate.
    + intros c y Hc. destruct (P1 c y Hc) as [A [_ C]].
      apply (in_map snd) in Hc. cbn [snd] in Hc. rewrite Eids in Hc. apply Hids in Hc.
      split; [exact A|]. split; [lia | exact C].
    + intros y Hy. unfold rowrest. rewrite Hgids in *. apply dring_from_any; [|exact Hy].
      exact (dpath_close _ _ _ _ n1 rest Hd P3 ER EL).
  - split; [exact P2 | rewrite Hgids; exact P3].
  - intros x Hx Hx'. rewrite Hgids in Hx. apply Hids in Hx. apply (Static_ids _ _ _ _ _ HS) in Hx'. lia.
  - apply VInv_ext with (V := fun k => vcol k G ++ pcol k cs).
    + intros k. unfold G'. rewrite vcol_snoc. f_equal. rewrite (pcol_single k cs P2). reflexivity.
    + exact (same_vert_VInv _ _ _ _ _ _ HV HL3 SV).
Qed.

Lemma row_start s nc N G cols scols i :
  Rep s nc N G cols scols G -> HdrCol s nc -> (forall k, k < nc -> In k (cols ++ scols)) ->
  BInv s nc N N G cols scols i [] None 0.
Proof.
  intros [HS [HH [HV _]]] HC Hall.
  split; [apply HV|]. split; [simpl; lia|]. repeat (split; [assumption|]).
  split.
  - eapply VInv_ext; [|exact HV]. intros k. simpl. rewrite app_nil_r. reflexivity.
  - split; [intros k y []|]. split; [constructor|]. split; reflexivity.
Qed.

Lemma row_end_empty s nc N0 N G cols scols i j :
  BInv s nc N0 N G cols scols i [] None j -> Rep s nc N G cols scols G.
Proof.
  intros [HN0 [EN [HS [HH [_ [Hall [HV _]]]]]]]. simpl in EN. rewrite Nat.add_0_r in EN. subst N0.
  apply Rep_all_rows; [exact HS | exact HH | | exact Hall].
  eapply VInv_ext; [|exact HV]. intros k. simpl. apply app_nil_r.
Qed.

Lemma sorted_seq : forall n a, StronglySorted lt (seq a n).
Proof.
  induction n as [|n IH]; intros a; simpl; constructor; [apply IH|].
  apply Forall_forall. intros x Hx. apply in_seq in Hx. lia.
Qed.

Lemma whole_row_ok nc cols scols i r s N G :
  Rep s nc N G cols scols G -> GOrd nc N G -> HdrCol s nc -> (forall k, k < nc -> In k (cols ++ scols)) ->
  forallb (fun c => c <? nc) (row_cols_from 0 r) = true ->
  exists fp s1, build_row nc i 0 r None s = Some (fp, s1) /\
    let s2 := match fp with None => s1 | Some (first, prev) => setR (setL s1 first prev) prev first end in
    exists N' G', Rep s2 nc N' G' cols scols G' /\ GOrd nc N' G' /\ HdrCol s2 nc
      /\ map erase G' = map erase G ++ filter nonemptyb [(i, row_cols_from 0 r)].
Proof.
  intros HR HO HC Hall Hr.
  destruct (build_row_ok nc N G cols scols i r 0 [] None s N (row_start s nc N G cols scols i HR HC Hall) Hr)
    as [fp [s1 [cs [E1 [HB E3]]]]].
  simpl in E3. exists fp, s1. split; [exact E1|].
  pose proof HB as [HN [_ [_ [_ [HC1 [_ [_ [_ [_ [Eseq P4]]]]]]]]]].
  unfold nonemptyb. cbn [filter snd]. rewrite <- E3. destruct cs as [|c cs0].
  - cbn in P4. subst fp. exists N, G. rewrite app_nil_r, Nat.add_0_r in *.
    split; [exact (row_end_empty _ _ _ _ _ _ _ _ _ HB)|]. auto.
  - set (cs := c :: cs0) in *. destruct P4 as [-> _]. exists (N + length cs), (G ++ [(i, cs)]).
    split; [exact (row_end _ _ _ _ _ _ _ _ _ _ _ _ HB)|]. split; [|split; [exact HC1 | rewrite map_app; reflexivity]].
    destruct HO as [Eids Hs]. split.
    + rewrite map_app, concat_app, Eids. cbn [map concat]. rewrite app_nil_r. unfold gids at 1. cbn [snd]. rewrite Eseq.
      replace (N + length cs - (2 + nc)) with ((N - (2 + nc)) + length cs) by lia.
      rewrite seq_app. f_equal. f_equal. lia.
    + intros g Hg. apply in_app_or in Hg. destruct Hg as [Hg|[<-|[]]]; [apply Hs; exact Hg|].
      unfold gids. cbn [snd]. rewrite Eseq. apply sorted_seq.
Qed.

Lemma build_rows_ok nc cols scols : forall m i s N G,
  Rep s nc N G cols scols G -> GOrd nc N G -> HdrCol s nc -> (forall k, k < nc -> In k (cols ++ scols)) ->
  rows_in_range nc (mk_rows_from i m) = true ->
  exists s' N' G', build_rows nc i m s = Some s' /\ Rep s' nc N' G' cols scols G'
    /\ GOrd nc N' G' /\ HdrCol s' nc
    /\ map erase G' = map erase G ++ filter nonemptyb (mk_rows_from i m).
Proof.
  induction m as [|r t IH]; intros i s N G HR HO HC Hall Hrange.
  - exists s, N, G. simpl. rewrite app_nil_r. auto.
  - cbn [mk_rows_from rows_in_range forallb snd] in Hrange. apply andb_true_iff in Hrange. destruct Hrange as [Hr Ht].
    destruct (whole_row_ok nc cols scols i r s N G HR HO HC Hall Hr) as [fp [s1 [E1 [N1 [G1 [HR1 [HO1 [HC1 E]]]]]]]].
    destruct (IH (S i) _ _ _ HR1 HO1 HC1 Hall Ht) as [s' [N' [G' [F1 [F2 [F3 [F4 F5]]]]]]].
    exists s', N', G'. split; [|split; [exact F2|split; [exact F3|split; [exact F4|]]]].
    + cbn [build_rows]. rewrite E1. destruct fp as [[first prev]|]; exact F1.
    + rewrite F5, E, <- app_assoc, <- filter_app. reflexivity.
Qed.

Lemma build_rows_none nh : forall m i s,
  rows_in_range nh (mk_rows_from i m) = false -> build_rows nh i m s = None.
Proof.
  induction m as [|r t IH]; intros i s H; [discriminate|].
  cbn [mk_rows_from rows_in_range forallb snd] in H. cbn [build_rows].
  destruct (forallb (fun c => c <? nh) (row_cols_from 0 r)) eqn:E.
  - simpl in H. destruct (build_row nh i 0 r None s) as [[[[first prev]|] s1]|]; [| |reflexivity]; apply IH; exact H.
  - rewrite (build_row_none nh i r 0 None s E). reflexivity.
Qed.

Theorem build_links_ok inp :
  rows_in_range (length (col_names inp)) (mk_rows (matrix inp)) = true ->
  exists s N G, build_links inp = Some s
    /\ Rep s (length (col_names inp)) N G (prim_cols inp) (sec_cols inp) G
    /\ GOrd (length (col_names inp)) N G /\ HdrCol s (length (col_names inp))
    /\ map erase G = filter nonemptyb (mk_rows (matrix inp)).
Proof.
  intros Hr. destruct (headers_ok inp) as [H0 HC0].
  assert (HO0 : GOrd (length (col_names inp)) (2 + length (col_names inp)) []).
  { split; [rewrite Nat.sub_diag; reflexivity | intros g []]. }
  destruct (build_rows_ok (length (col_names inp)) (prim_cols inp) (sec_cols inp) (matrix inp) 0
              (headers_state inp) _ [] H0 HO0 HC0 (fun k => proj2 (prim_sec_in inp k)) Hr)
    as [s' [N' [G' [E1 [E2 [E4 [E5 E3]]]]]]].
  exists s', N', G'. auto 10.
Qed.

Theorem build_links_none inp :
  rows_in_range (length (col_names inp)) (mk_rows (matrix inp)) = false -> build_links inp = None.
Proof. intros H. unfold build_links. apply build_rows_none. exact H. Qed.
