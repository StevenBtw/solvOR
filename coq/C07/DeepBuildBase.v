(* Lemmas for _build_links: rings under construction (open double chains: appending a node, closing), inserting a node
   at the end of a closed ring, the field maps after `alloc` and the setters, and Rep when every row is active. *)
From Coq Require Import List Arith Lia.
From SV Require Import C07.DeepLinks C07.DeepBase C07.DeepOps C07.DeepVert C07.DeepRows C07.DeepRep.
Import ListNotations.

Lemma eqb_false a b : a <> b -> (a =? b) = false.
Proof. apply Nat.eqb_neq. Qed.

(* a -> l1 -> ... -> lk along f and back along g; nothing is said of f lk and of g a *)
Fixpoint dpath (f g : nat -> nat) (a : nat) (l : list nat) : Prop :=
  match l with [] => True | x :: t => f a = x /\ g x = a /\ dpath f g x t end.

Lemma dpath_last f g : forall l a x,
  dpath f g a (l ++ [x]) <-> dpath f g a l /\ f (last l a) = x /\ g x = last l a.
Proof.
  induction l as [|z t IH]; intros a x; [simpl; tauto|].
  rewrite last_cons. cbn [app dpath]. specialize (IH z x). tauto.
Qed.

Lemma chains_dpath f g e : forall l a b,
  chain f a l b /\ chain g e (rev l) a <-> dpath f g a l /\ f (last l a) = b /\ g e = last l a.
Proof.
  induction l as [|x t IH]; intros a b; [simpl; tauto|].
  rewrite last_cons. cbn [chain rev dpath]. pose proof (chain_snoc g (rev t) e x a). specialize (IH x b). tauto.
Qed.

Lemma dring_dpath f g h l : dring f g h l <-> dpath f g h l /\ f (last l h) = h /\ g h = last l h.
Proof. apply chains_dpath. Qed.

(* dpath reads f at a and at all of l but its last element, which differs from these, and g on l *)
Lemma dpath_agree f g f' g' : forall l a,
  dpath f g a l -> NoDup (a :: l) ->
  (forall y, In y (a :: l) -> y <> last l a -> f' y = f y) -> (forall y, In y l -> g' y = g y) ->
  dpath f' g' a l.
Proof.
  induction l as [|z t IH]; intros a Hd Hnd Hf Hg; [exact I|].
  destruct Hd as [H1 [H2 H3]]. rewrite last_cons in Hf. apply NoDup_cons_iff in Hnd. destruct Hnd as [Hna Hnd'].
  split; [|split].
  - rewrite Hf; [exact H1 | left; reflexivity | intros ->; apply Hna, last_in].
  - rewrite Hg; [exact H2 | left; reflexivity].
  - apply IH; [exact H3 | exact Hnd' | |]; intros y Hy; [apply Hf | apply Hg]; right; exact Hy.
Qed.

Lemma dpath_snoc f g f' g' a l x :
  dpath f g a l -> NoDup (a :: l) -> ~ In x l ->
  (forall y, f' y = if y =? last l a then x else f y) ->
  (forall y, g' y = if y =? x then last l a else g y) ->
  dpath f' g' a (l ++ [x]).
Proof.
  intros Hd Hnd Hx Hf Hg. apply dpath_last. rewrite Hf, Hg, !Nat.eqb_refl. split; [|auto].
  apply (dpath_agree f g); [exact Hd | exact Hnd | |].
  - intros y _ Hy. rewrite Hf, (eqb_false _ _ Hy). reflexivity.
  - intros y Hy. rewrite Hg, eqb_false; [reflexivity | congruence].
Qed.

Lemma dpath_close f g f' g' a l :
  dpath f g a l -> NoDup (a :: l) ->
  (forall y, f' y = if y =? last l a then a else f y) ->
  (forall y, g' y = if y =? a then last l a else g y) ->
  dring f' g' a l.
Proof.
  intros Hd Hnd Hf Hg. apply dring_dpath. rewrite Hf, Hg, !Nat.eqb_refl. split; [|auto].
  apply (dpath_agree f g); [exact Hd | exact Hnd | |].
  - intros y _ Hy. rewrite Hf, (eqb_false _ _ Hy). reflexivity.
  - intros y Hy. rewrite Hg, eqb_false; [reflexivity|]. intros ->. apply NoDup_cons_iff in Hnd. tauto.
Qed.

(* appending x at the end of a closed ring (just before the head h): open it, hang x on, close it *)
Lemma dring_insert_last f g f' g' h l x :
  dring f g h l -> NoDup (h :: l) -> ~ In x (h :: l) ->
  (forall y, f' y = if y =? g h then x else if y =? x then h else f y) ->
  (forall y, g' y = if y =? h then x else if y =? x then g h else g y) ->
  dring f' g' h (l ++ [x]).
Proof.
  intros Hr Hnd Hx Hf Hg. apply dring_dpath in Hr. destruct Hr as [Hd [_ Egh]]. rewrite Egh in Hf, Hg.
  assert (Hxl : ~ In x l) by (intros K; apply Hx; right; exact K).
  apply dpath_close with (f := fun y => if y =? last l h then x else f y) (g := fun y => if y =? x then last l h else g y).
  - apply (dpath_snoc f g); auto.
  - apply (nodup_app_comm [x] (h :: l)). constructor; assumption.
  - intros y. rewrite last_last, Hf. destruct (y =? last l h) eqn:E1, (y =? x) eqn:E2; try reflexivity.
    apply Nat.eqb_eq in E1, E2. exfalso. apply Hx. rewrite <- E2, E1. apply last_in.
  - intros y. rewrite last_last. apply Hg.
Qed.

Lemma get_app_last l v z : get (l ++ [v]) z = if z =? length l then v else get l z.
Proof.
  unfold get. destruct (z =? length l) eqn:E.
  - apply Nat.eqb_eq in E. subst. rewrite app_nth2 by lia. rewrite Nat.sub_diag. reflexivity.
  - apply Nat.eqb_neq in E. destruct (Nat.lt_ge_cases z (length l)).
    + apply app_nth1. exact H.
    + rewrite !nth_overflow; [reflexivity | lia | rewrite app_length; simpl; lia].
Qed.

Lemma lens_set s N i v : lens s N ->
  lens (setL s i v) N /\ lens (setR s i v) N /\ lens (setU s i v) N /\ lens (setD s i v) N /\ lens (setS s i v) N.
Proof. intros H. unfold lens in *. simpl. rewrite !set_length. auto 6. Qed.

Lemma get_setter s N i v k : lens s N -> i < N ->
  left (setL s i v) k = (if k =? i then v else left s k) /\
  right (setR s i v) k = (if k =? i then v else right s k) /\
  up (setU s i v) k = (if k =? i then v else up s k) /\
  down (setD s i v) k = (if k =? i then v else down s k) /\
  csize (setS s i v) k = (if k =? i then v else csize s k).
Proof.
  intros [A [B [C [D [_ [_ G]]]]]] Hi. unfold left, right, up, down, csize. simpl.
  repeat split; apply get_set; lia.
Qed.

Definition same_vert (s s' : lst) : Prop :=
  fU s' = fU s /\ fD s' = fD s /\ fC s' = fC s /\ fRow s' = fRow s /\ fS s' = fS s.

Lemma same_vert_refl s : same_vert s s.
Proof. repeat split. Qed.

Lemma same_vert_trans s1 s2 s3 : same_vert s1 s2 -> same_vert s2 s3 -> same_vert s1 s3.
Proof. unfold same_vert. intros [-> [-> [-> [-> ->]]]] H. exact H. Qed.

Lemma same_vert_column s s' : same_vert s s' -> forall z, column s' z = column s z.
Proof. intros [_ [_ [E _]]] z. unfold column. rewrite E. reflexivity. Qed.

Lemma same_vert_row_id s s' : same_vert s s' -> forall z, row_id s' z = row_id s z.
Proof. intros [_ [_ [_ [E _]]]] z. unfold row_id. rewrite E. reflexivity. Qed.

Lemma same_vert_VInv s s' nc N act V : VInv s nc N act V -> lens s' N -> same_vert s s' -> VInv s' nc N act V.
Proof. intros HV HL [EU [ED [EC [_ ES]]]]. exact (VInv_frame s s' nc N act V HV HL EU ED EC ES). Qed.

(* a.left = b; b.right = a: every horizontal assignment pair of _build_links (close_ring does the two in the other
   order, which gives the same state) *)
Lemma hlink_fields s N a b : lens s N -> a < N -> b < N ->
  let s' := setR (setL s a b) b a in
  lens s' N /\ same_vert s s'
  /\ (forall z, left s' z = if z =? a then b else left s z)
  /\ (forall z, right s' z = if z =? b then a else right s z).
Proof.
  intros HL Ha Hb s'. assert (HL1 : lens (setL s a b) N) by apply (lens_set s N a b HL).
  split; [apply (lens_set _ N b a HL1)|]. split; [exact (same_vert_refl s)|]. split; intros z.
  - apply (get_setter s N a b z HL Ha).
  - apply (get_setter _ N b a z HL1 Hb).
Qed.

Definition new_cell (s s' : lst) (N col r : nat) : Prop :=
  (forall z, left s' z = if z =? N then N else left s z) /\
  (forall z, right s' z = if z =? N then N else right s z) /\
  (forall z, column s' z = if z =? N then col else column s z) /\
  (forall z, row_id s' z = if z =? N then r else row_id s z).

Lemma alloc_fields s N col r : lens s N ->
  let s' := snd (alloc s col r) in
  fst (alloc s col r) = N /\ lens s' (S N) /\ new_cell s s' N col r
  /\ (forall z, up s' z = if z =? N then N else up s z)
  /\ (forall z, down s' z = if z =? N then N else down s z)
  /\ (forall z, csize s' z = if z =? N then 0 else csize s z).
Proof.
  intros [A [B [C [D [E [F G]]]]]]. unfold alloc, n_ids. simpl. rewrite A.
  split; [reflexivity|]. split.
  - unfold lens; simpl. rewrite !app_length. simpl. repeat split; lia.
  - unfold new_cell, left, right, up, down, column, row_id, csize; simpl.
    repeat split; intros z; rewrite get_app_last; [rewrite A | rewrite B | rewrite E | rewrite F | rewrite C | rewrite D | rewrite G]; reflexivity.
Qed.

Lemma Rep_all_rows s nc N G cols scols :
  Static s nc N G -> HInv s nc cols scols -> VInv s nc N (cols ++ scols) (fun j => vcol j G) ->
  (forall k, k < nc -> In k (cols ++ scols)) -> Rep s nc N G cols scols G.
Proof.
  intros HS HH HV Hall. split; [exact HS|]. split; [exact HH|]. split; [exact HV|]. split.
  - exists (fun _ => true). symmetry. apply filter_id. reflexivity.
  - intros g c Hg Hc. apply Hall. apply in_map_iff in Hc. destruct Hc as [[c' y] [E Hcy]]. simpl in E. subst c'.
    destruct HS as [_ HR]. apply (HR g Hg) in Hcy. apply Hcy.
Qed.
