(* Property C18, VRPTW part (solvor/vrp.py, ALNS driver solvor/lns.py:alns): the bookkeeping of a VRPState survives every
   destroy/repair operator and the objective is the documented weighted sum of the state.
   Model: C18/Vrp.v (oracle-parametrised: the operators' choices are arguments); second model with the choices COMPUTED
   as in the code (only rng answers and set iteration orders are oracle): C18/VrpChoice.v.  Both are tied to /repo on every
   check run by Cases/C18/vrp_models_*.v (operator sequences through both models in one lemma; vrp_trace_*.v and
   vrp_choice_*.v are generated only to tell the two apart after a failure) and vrp_solve_*.v (solve_vrptw end to end);
   implementation states are judged by `spec_chk` in Cases/C18/vrp_spec_*.v.  Specification and boolean checker:
   C18/VrpSpec.v; proofs: C18/VrpProofs.v, VrpProofs2.v, VrpObj.v, VrpPinned.v, VrpChoiceProofs.v, VrpChoiceTotal.v.
   The job-shop part of C18 is in Props/C18.v. *)
From Coq Require Import List ZArith Bool Arith.
From SV Require Import C18.Vrp C18.VrpSpec C18.VrpProofs C18.VrpProofs2 C18.VrpObj C18.VrpPinned C18.VrpChoice C18.VrpChoiceProofs C18.VrpChoiceTotal.
Import ListNotations.
Open Scope Z_scope.

(* (1) Invariant I (vrp_inv, C18/VrpSpec.v: every customer in `unassigned` xor on >= 1 route, no repeat within a route,
   a single-vehicle customer on at most - hence exactly - one route, arrival_times = recomputation from the routes).
   It holds for VRPState.from_problem ... *)
Theorem C18_vrp_inv_init : forall I, vrp_inv I (init_state I).
Proof. exact init_inv. Qed.
Print Assumptions C18_vrp_inv_init.

(* ... is re-established by remove_set (the tail shared by the five removal operators) for ANY set of customers ... *)
Theorem C18_vrp_inv_remove_set : forall I S st,
  vrp_inv I st -> (forall x, In x S -> valid_id I x = true) -> vrp_inv I (remove_set I S st).
Proof. exact remove_set_inv. Qed.
Print Assumptions C18_vrp_inv_remove_set.

(* ... is preserved by an insertion step under the guard the code establishes (the customer comes from `unassigned`,
   the position exists; see place_guard) ... *)
Theorem C18_vrp_inv_insert_at : forall I c v pos st st',
  vrp_inv I st -> place_one I c v pos st = Some st' -> vrp_inv I st'.
Proof.
  intros I c v pos st st' H E. apply (ins_events_inv I [(c, v, pos)] st st' H). simpl. rewrite E. reflexivity.
Qed.
Print Assumptions C18_vrp_inv_insert_at.

(* ... hence by each of the eight exported operators for EVERY choice (oracle) it can make: whatever the random draws,
   cost rankings and feasibility tests select, if the operator returns a state at all (the choices pass its guards),
   that state satisfies I ... *)
Theorem C18_vrp_inv : forall I o st st',
  inst_ok I = true -> vrp_inv I st -> apply_op I o st = Some st' -> vrp_inv I st'.
Proof. exact apply_op_inv. Qed.
Print Assumptions C18_vrp_inv.

(* ... hence by every operator sequence (induction over the sequence) ... *)
Theorem C18_vrp_inv_sequence : forall I ops st st',
  inst_ok I = true -> vrp_inv I st -> run_ops I ops st = Some st' -> vrp_inv I st'.
Proof. exact run_ops_inv. Qed.
Print Assumptions C18_vrp_inv_sequence.

(* ... in particular by the operators with their choices computed as vrp.py computes them (cost ranking, nearest
   neighbours, _insertion_cost feasibility and cheapest position, regret order, vehicle selection), for every answer of
   the random generator and every iteration order of the set `unassigned` ... *)
Theorem C18_vrp_inv_computed_choices : forall I ops st st',
  inst_ok I = true -> vrp_inv I st -> run_fops I ops st = Some st' -> vrp_inv I st'.
Proof. exact run_fops_inv. Qed.
Print Assumptions C18_vrp_inv_computed_choices.

(* ... and these operators do not fail: the choices vrp.py computes always pass the guards under which (1) is proved,
   provided the random generator answers as its methods promise (shuffle / set iteration: an enumeration of the set;
   choice / sample: elements of the population; worst_removal's indices inside the candidate list) *)
Theorem C18_vrp_greedy_total : forall I order st,
  vrp_inv I st -> set_eqb order (unassigned st) = true -> exists st', f_greedy I order st = Some st'.
Proof. exact f_greedy_total. Qed.
Print Assumptions C18_vrp_greedy_total.

Theorem C18_vrp_regret_total : forall I k orders st,
  vrp_inv I st -> orders_ok I k orders st = true -> exists st', f_regret I k orders st = Some st'.
Proof. exact f_regret_total. Qed.
Print Assumptions C18_vrp_regret_total.

Theorem C18_vrp_sync_aware_total : forall I order orders st,
  vrp_inv I st -> set_eqb order (unassigned st) = true ->
  exists mevs st1,
    multi_plan I (filter (fun c => (1 <? c_req (cget I c))%nat) order) st = Some mevs
    /\ multi_events I mevs st = Some st1
    /\ (orders_ok I 2 orders (mkSt (routes st1) (filter (fun c => (c_req (cget I c) =? 1)%nat) (unassigned st))
                                    (arrivals st1)) = true ->
        exists st', f_sync_aware I order orders st = Some st').
Proof. exact f_sync_aware_total. Qed.
Print Assumptions C18_vrp_sync_aware_total.

Theorem C18_vrp_worst_total : forall I idxs st rem,
  idxs <> [] -> pop_all (worst_candidates I st) idxs = Some rem -> exists st', f_worst I idxs st = Some st'.
Proof. exact f_worst_total. Qed.
Print Assumptions C18_vrp_worst_total.

Theorem C18_vrp_related_total : forall I nrem seed st,
  In seed (assigned st) -> exists st', f_related I nrem seed st = Some st'.
Proof. exact f_related_total. Qed.
Print Assumptions C18_vrp_related_total.

Theorem C18_vrp_sync_removal_total : forall I target sample st,
  match sync_customers I st with
  | [] => sample <> [] /\ (forall x, In x sample -> In x (assigned st)) \/ assigned st = []
  | sc => In target sc
  end -> exists st', f_sync_removal I target sample st = Some st'.
Proof. exact f_sync_removal_total. Qed.
Print Assumptions C18_vrp_sync_removal_total.

(* ... and by solve_vrptw: initial greedy_insertion, then any number of ALNS iterations with any operators, choices
   and acceptance answers; the reported objective is the objective of the returned state *)
Theorem C18_vrp_solve : forall W I evs0 its st obj,
  inst_ok I = true -> solve W I evs0 its = Some (st, obj) -> vrp_inv I st /\ obj = objective W I st.
Proof. exact solve_inv. Qed.
Print Assumptions C18_vrp_solve.

(* (2) The objective.  `objective` transliterates vrp_objective (it reads the stored arrival times); on a consistent
   state it is the documented weighted sum as a function of (routes, unassigned) alone ... *)
Theorem C18_vrp_objective : forall W I st,
  vrp_inv I st -> objective W I st = objective_spec W I (routes st) (unassigned st).
Proof. exact objective_depends_on_routes_unassigned. Qed.
Print Assumptions C18_vrp_objective.

Theorem C18_vrp_objective_ext : forall W I st1 st2,
  vrp_inv I st1 -> vrp_inv I st2 -> routes st1 = routes st2 ->
  length (unassigned st1) = length (unassigned st2) -> objective W I st1 = objective W I st2.
Proof. exact objective_ext. Qed.
Print Assumptions C18_vrp_objective_ext.

(* ... each penalty term vanishes exactly when its violation is absent ... *)
Theorem C18_vrp_tw_term : forall I st, tw_violation I st = 0 <-> on_time I st.
Proof. exact tw_violation_zero. Qed.
Print Assumptions C18_vrp_tw_term.

Theorem C18_vrp_capacity_term : forall I st, cap_violation I st = 0 <-> within_capacity I st.
Proof. exact cap_violation_zero. Qed.
Print Assumptions C18_vrp_capacity_term.

Theorem C18_vrp_sync_term : forall I st, sync_violation I st = 0 <-> synced I st.
Proof. exact sync_violation_zero. Qed.
Print Assumptions C18_vrp_sync_term.

(* ... and with positive penalty weights the objective is the plain routing cost iff nothing is violated, more otherwise *)
Theorem C18_vrp_objective_honest : forall W I st,
  pos_penalties W = true ->
  w_dist W * total_distance I st + w_veh W * vehicles_used st <= objective W I st
  /\ (objective W I st = w_dist W * total_distance I st + w_veh W * vehicles_used st
      <-> unassigned st = [] /\ on_time I st /\ within_capacity I st /\ synced I st).
Proof. exact objective_no_penalty_iff. Qed.
Print Assumptions C18_vrp_objective_honest.

(* the boolean checker coqc runs on the IMPLEMENTATION's states (Cases/C18/vrp_spec_*.v) is sound *)
Theorem C18_vrp_spec_check_sound : forall W I st obj,
  spec_chk (W, I, st, obj) = true -> vrp_inv I st /\ obj = objective_spec W I (routes st) (unassigned st).
Proof. exact spec_chk_sound. Qed.
Print Assumptions C18_vrp_spec_check_sound.

(* (3) the PINNED route_removal (before fix 3c6011c) breaks I on the witness of the property text *)
Theorem C18_vrp_pinned_refuted :
  exists I vs st st',
    inst_ok I = true /\ run_ops I [wit_build] (init_state I) = Some st /\ vrp_inv I st
    /\ route_removal_pinned I vs st = Some st' /\ ~ vrp_inv I st' /\ spec_check I st' = false.
Proof. exact pinned_refuted. Qed.
Print Assumptions C18_vrp_pinned_refuted.

(* non-vacuity *)
(* 4 customers (2 and 4 need two vehicles), 2 vehicles, time windows, service times; distances on a line *)
Definition ex_inst : inst :=
  mkInst [mkCust 0 0 None 0 1; mkCust 2 0 (Some 9) 1 1; mkCust 3 4 (Some 6) 2 2; mkCust 1 0 None 0 1; mkCust 6 2 (Some 3) 1 2]
         [[0; 2; 5; 3; 1]; [2; 0; 3; 5; 3]; [5; 3; 0; 8; 6]; [3; 5; 8; 0; 2]; [1; 3; 6; 2; 0]]
         [Some 8; None].

Definition ex_ops : list op :=
  [GreedyInsertion [(4, 0, 0); (1, 0, 1); (3, 1, 0)]%nat;
   SyncRemoval 4%nat [1%nat];
   RouteRemoval [1%nat];
   RelatedRemoval [];
   SyncAwareInsertion [(2, [(0, 0); (1, 0)]); (4, [(1, 0); (0, 0)])]%nat [(1, 0, 2); (3, 1, 2)]%nat;
   WorstRemoval [3; 1]%nat;
   RegretInsertion [(1, 0, 0)]%nat;
   RandomRemoval [1%nat];
   GreedyInsertion [(1, 1, 1)]%nat].

Example C18_vrp_nonvacuous_input : inst_ok ex_inst = true /\ pos_penalties default_weights = true.
Proof. vm_compute. split; reflexivity. Qed.

(* the operators' guards accept these choices: the sequence runs through; at the end the multi-resource customers 4
   and 2 are on both routes and customer 3 is unassigned *)
Example C18_vrp_nonvacuous_sequence :
  run_ops ex_inst ex_ops (init_state ex_inst) = Some (mkSt [[4; 2]; [4; 1; 2]]%nat [3%nat] [[2; 9]; [2; 6; 10]])
  /\ spec_check ex_inst (mkSt [[4; 2]; [4; 1; 2]]%nat [3%nat] [[2; 9]; [2; 6; 10]]) = true.
Proof. split; vm_compute; reflexivity. Qed.

(* the result scores 30 (distance) + 1000 * 11 (lateness) + 1000 * 3 (overload of vehicle 0) *)
Example C18_vrp_nonvacuous_solve :
  solve default_weights ex_inst [(4, 0, 0); (1, 0, 1); (3, 1, 0)]%nat
        [(SyncRemoval 4%nat [1%nat],
          SyncAwareInsertion [(2, [(0, 0); (1, 0)]); (4, [(1, 0); (0, 0)])]%nat [(1, 0, 2)]%nat, false);
         (RouteRemoval [1%nat], RegretInsertion [(3, 1, 0)]%nat, true)]
  = Some (mkSt [[4; 2; 1]; [4; 2; 3]]%nat [] [[2; 9; 14]; [2; 9; 19]], 14030)
  /\ spec_chk (default_weights, ex_inst, mkSt [[4; 2; 1]; [4; 2; 3]]%nat [] [[2; 9; 14]; [2; 9; 19]], 14030) = true.
Proof. split; vm_compute; reflexivity. Qed.

(* the choice-computing operators on the same instance: sync_aware_insertion from the empty plan (customer 2 gets its two
   vehicles, customer 4 finds only one feasible vehicle and stays unassigned), worst_removal with candidate indices 0, 1,
   greedy_insertion in the order 4, 2, regret_insertion with nothing left to do *)
Example C18_vrp_nonvacuous_computed :
  run_fops ex_inst [FSyncAwareInsertion [1; 2; 3; 4]%nat [[1; 3]; [3]]%nat; FWorstRemoval [0; 1]%nat;
                    FGreedyInsertion [4; 2]%nat; FRegretInsertion 2 [[4; 2]]%nat] (init_state ex_inst)
  = Some (mkSt [[2; 3; 1]; [4]]%nat [] [[5; 15; 20]; [2]])
  /\ run_fops ex_inst [FSyncAwareInsertion [1; 2; 3; 4]%nat [[1; 3]; [3]]%nat] (init_state ex_inst)
     = Some (mkSt [[3; 1; 2]; [2]]%nat [4%nat] [[3; 8; 12]; [5]]).
Proof. split; vm_compute; reflexivity. Qed.
