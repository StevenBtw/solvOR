(* C04 (deepening) - the C04 theorems for the B&B model over the EXACT simplex model of C03 (eps = 0), with the hypothesis
   on the LP kernel discharged by the C03 deep theorems (coq/C03/DeepSolve.v: optimal_sound_all, infeasible_sound_all,
   unbounded_sound_all, the theorems behind Props/C03_deep.v C03_optimal_sound, C03_infeasible_sound, C03_unbounded_sound).  What remains assumed: lns_ok (the LNS pass only returns points passing _is_feasible; checked on
   every harness run) and the boolean input condition milp_input_ok 0 (well-formed dimensions, sorted integer indices).
   `= Some r` excludes the model's fuel error value (only _round_binary's fuel can run out: C04_fuel_sufficient).
   eps = 0 is the exact-arithmetic idealisation; the harness counts on every run how many explored calls give the same
   Result for eps = 0 and eps = 1e-6 (histogram eps0_same_result). *)
From Coq Require Import List QArith Qabs Bool.
From SV Require Import C03.Simplex C03.LPSpec C03.DeepSolve C04.Milp C04.MilpInst C04.MilpSpec C04.MilpBBProofs C04.MilpMainProofs
  C04.MilpC03Bridge.
Import ListNotations.
Open Scope Q_scope.

Theorem C04_deep_lp_sound : lp_sound (simplex_kernel 0).
Proof. exact (lp_sound_from_C03 optimal_sound_all infeasible_sound_all unbounded_sound_all). Qed.
Print Assumptions C04_deep_lp_sound.

Theorem C04_deep_feasible : forall lns gap_tol minimize max_iter max_nodes c A b ints
    warm_start solution_limit heuristics lns_iterations r,
  lns_ok lns 0 c A b ints -> milp_input_ok 0 c A b ints = true ->
  solve_milp (simplex_kernel 0) lns 0 gap_tol minimize max_iter max_nodes c A b ints warm_start solution_limit heuristics
    lns_iterations = Some r ->
  (forall x, m_solution r = Some x -> exists o, m_objective r = Fin o /\ sol_ok 0 c A b ints x o)
  /\ (forall ss x, m_solutions r = Some ss -> In x ss -> point_ok 0 c A b ints x).
Proof.
  intros until r. intros LNS OK RUN.
  destruct (solve_milp_ok _ C04_deep_lp_sound lns 0 gap_tol minimize max_iter max_nodes c A b ints LNS OK _ _ _ _ r RUN) as [H1 [H2 _]].
  split; assumption.
Qed.
Print Assumptions C04_deep_feasible.

Theorem C04_deep_optimal : forall lns gap_tol minimize max_iter max_nodes c A b ints
    warm_start solution_limit heuristics lns_iterations r,
  lns_ok lns 0 c A b ints -> milp_input_ok 0 c A b ints = true ->
  solve_milp (simplex_kernel 0) lns 0 gap_tol minimize max_iter max_nodes c A b ints warm_start solution_limit heuristics
    lns_iterations = Some r ->
  m_status r = S_OPTIMAL ->
  exists x o, m_solution r = Some x /\ m_objective r = Fin o
    /\ forall y, int_feasible c A b ints y -> sgn minimize * o - opt_slack 0 gap_tol o <= sgn minimize * dot c y.
Proof.
  intros until r. intros LNS OK RUN.
  exact (proj1 (proj2 (proj2 (solve_milp_ok _ C04_deep_lp_sound lns 0 gap_tol minimize max_iter max_nodes c A b ints LNS OK _ _ _ _ r RUN)))).
Qed.
Print Assumptions C04_deep_optimal.

Theorem C04_deep_infeasible : forall lns gap_tol minimize max_iter max_nodes c A b ints
    warm_start solution_limit heuristics lns_iterations r,
  lns_ok lns 0 c A b ints -> milp_input_ok 0 c A b ints = true ->
  solve_milp (simplex_kernel 0) lns 0 gap_tol minimize max_iter max_nodes c A b ints warm_start solution_limit heuristics
    lns_iterations = Some r ->
  m_status r = S_INFEASIBLE -> forall y, ~ int_feasible c A b ints y.
Proof.
  intros until r. intros LNS OK RUN.
  exact (proj1 (proj2 (proj2 (proj2 (solve_milp_ok _ C04_deep_lp_sound lns 0 gap_tol minimize max_iter max_nodes c A b ints LNS OK _ _ _ _ r RUN))))).
Qed.
Print Assumptions C04_deep_infeasible.

Theorem C04_deep_unbounded_only_if_root_unbounded : forall lns gap_tol minimize max_iter max_nodes c A b ints
    warm_start solution_limit heuristics lns_iterations r,
  lns_ok lns 0 c A b ints -> milp_input_ok 0 c A b ints = true ->
  solve_milp (simplex_kernel 0) lns 0 gap_tol minimize max_iter max_nodes c A b ints warm_start solution_limit heuristics
    lns_iterations = Some r ->
  m_status r = S_UNBOUNDED -> lp_unbounded minimize c A b.
Proof.
  intros until r. intros LNS OK RUN.
  exact (proj2 (proj2 (proj2 (proj2 (solve_milp_ok _ C04_deep_lp_sound lns 0 gap_tol minimize max_iter max_nodes c A b ints LNS OK _ _ _ _ r RUN))))).
Qed.
Print Assumptions C04_deep_unbounded_only_if_root_unbounded.

(* non-vacuity: a run of the eps = 0 instance, hypotheses true, verdict OPTIMAL (4,0) 20 *)
Example C04_deep_nonvacuous :
  milp_input_ok 0 [5;4] [[6;4];[1;2];[1;0];[0;1]] [24;6;5;5] [0;1]%nat = true
  /\ lns_ok (fun _ => None) 0 [5;4] [[6;4];[1;2];[1;0];[0;1]] [24;6;5;5] [0;1]%nat
  /\ solve_milp (simplex_kernel 0) (fun _ => None) 0 milp_gap_tol_default false milp_max_iter_default milp_max_nodes_default
       [5;4] [[6;4];[1;2];[1;0];[0;1]] [24;6;5;5] [0;1]%nat None 1 true 0
     = Some (mkM S_OPTIMAL (Some [4;0]) (Fin 20) 5 None).
Proof. split; [vm_compute; reflexivity|]. split; [intros s x H; discriminate|vm_compute; reflexivity]. Qed.
