(* C03 (deepening) - the verdicts of solve_lp (simplex) in exact arithmetic (eps = 0) are sound for EVERY input
   accepted by valid_lp (check_matrix_dims), phase 1 included, for any iteration limit.
   These are the statements C03_optimal_sound_full_statement, C03_infeasible_sound_full_statement and
   C03_unbounded_sound_full_statement of Props/C03.v, without the restriction b >= 0 and without certificates.
   Property theorems, each proved in a line or two from the theorems of coq/C03/Deep*.v. *)
From Coq Require Import List QArith Qabs Bool.
From SV Require Import C03.Simplex C03.LPSpec C03.PivotProofs C03.Phase2Inv C03.DeepInv C03.DeepAux C03.DeepPhase1
  C03.DeepSolve.
Import ListNotations.
Open Scope Q_scope.

(* OPTIMAL is sound: the returned point is feasible, the reported objective is c.x, no feasible point is
   better (<= for minimize, >= for maximize) *)
Theorem C03_optimal_sound : forall minimize fuel c A b r,
  valid_lp c A b = true ->
  solve_lp 0 minimize fuel c A b = r -> r_status r = OPTIMAL ->
  lp_optimal minimize c A b (r_solution r) /\ r_objective r == dot c (r_solution r).
Proof. exact optimal_sound_all. Qed.
Print Assumptions C03_optimal_sound.

(* INFEASIBLE is sound *)
Theorem C03_infeasible_sound : forall minimize fuel c A b r,
  valid_lp c A b = true ->
  solve_lp 0 minimize fuel c A b = r -> r_status r = INFEASIBLE -> lp_infeasible A b.
Proof. exact infeasible_sound_all. Qed.
Print Assumptions C03_infeasible_sound.

(* UNBOUNDED is sound (in particular a feasible point exists) *)
Theorem C03_unbounded_sound : forall minimize fuel c A b r,
  valid_lp c A b = true ->
  solve_lp 0 minimize fuel c A b = r -> r_status r = UNBOUNDED -> lp_unbounded minimize c A b.
Proof. exact unbounded_sound_all. Qed.
Print Assumptions C03_unbounded_sound.

(* a verdict other than MAX_ITER is the true class of the LP *)
Theorem C03_verdicts_exclusive_exact : forall minimize fuel c A b r,
  valid_lp c A b = true ->
  solve_lp 0 minimize fuel c A b = r -> r_status r <> MAX_ITER ->
  (r_status r = OPTIMAL <-> lp_has_optimum minimize c A b)
  /\ (r_status r = INFEASIBLE <-> lp_infeasible A b)
  /\ (r_status r = UNBOUNDED <-> lp_unbounded minimize c A b).
Proof. exact verdicts_exclusive_exact. Qed.
Print Assumptions C03_verdicts_exclusive_exact.

(* the point returned with an OPTIMAL or UNBOUNDED answer is feasible and the objective is c.x *)
Theorem C03_point_feasible : forall minimize fuel c A b r,
  valid_lp c A b = true ->
  solve_lp 0 minimize fuel c A b = r -> r_status r = OPTIMAL \/ r_status r = UNBOUNDED ->
  feasible A b (r_solution r) /\ r_objective r == dot c (r_solution r).
Proof.
  intros minimize fuel c A b r Hv Hr Hst.
  destruct (solve_lp_cases minimize c A b Hv fuel r Hr) as [[H _]|[H|H]]; [destruct Hst; congruence | destruct Hst; congruence |].
  destruct H as [_ [Hf [Ho _]]]. split; assumption.
Qed.
Print Assumptions C03_point_feasible.

(* the invariant behind it.  _phase1 on a tableau T0 whose basis0 columns are unit columns and that has a
   negative rhs: never UNBOUNDED; OPTIMAL hands _phase2 a tableau satisfying the generalised invariant g_inv
   (p2_inv + all-zero rows for artificials that could not leave the basis) with the same solutions as T0 on
   vectors of the original length (artificial columns deleted); INFEASIBLE means the rows of T0 have no
   non-negative solution *)
Theorem C03_phase1_sound : forall n m T0 basis0,
  tab_wf (n + m) T0 -> length (t_rows T0) = m -> length basis0 = m ->
  (forall i, (i < m)%nat -> (nth i basis0 0 < n + m)%nat) ->
  (forall i k, (i < m)%nat -> (k < m)%nat ->
     get (fst (nth k (t_rows T0) row0)) (nth i basis0 0%nat) == if Nat.eqb k i then 1 else 0) ->
  (exists k, (k < m)%nat /\ snd (nth k (t_rows T0) row0) < 0) ->
  forall fuel st iters T1 basis1 piv1,
  phase1 0 fuel m n T0 basis0 = (st, iters, T1, basis1, piv1) ->
  st <> UNBOUNDED
  /\ (st = OPTIMAL ->
      g_inv (n + m) T1 basis1 /\ forall v z, length v = (n + m)%nat -> (tab_sat v z T0 <-> tab_sat v z T1))
  /\ (st = INFEASIBLE ->
      forall v, length v = (n + m)%nat -> Forall (fun q => 0 <= q) v -> ~ rows_sat v (t_rows T0)).
Proof. exact phase1_spec. Qed.
Print Assumptions C03_phase1_sound.

Theorem C03_phase2_ginv : forall N fuel it T basis piv st it' T' basis' piv',
  g_inv N T basis ->
  phase2 0 fuel it T basis piv = (st, it', T', basis', piv') ->
  g_inv N T' basis'
  /\ (forall v z, tab_sat v z T <-> tab_sat v z T')
  /\ (st = OPTIMAL -> find_enter 0 basis' T' = None)
  /\ (st = UNBOUNDED -> exists e, find_enter 0 basis' T' = Some e /\ find_leave 0 basis' T' e = None)
  /\ (Forall (fun j => (j < N)%nat) basis -> Forall (fun j => (j < N)%nat) basis').
Proof. exact phase2_ginv. Qed.
Print Assumptions C03_phase2_ginv.

(* non-vacuity: valid LPs with a negative right-hand side (phase 1 runs) for each verdict *)
(* min 2x + 3y  s.t.  x + y >= 4, x - y >= 1, x <= 3 *)
Example C03_deep_optimal_nonvacuous :
  valid_lp [2; 3] [[-1; -1]; [-1; 1]; [1; 0]] [-4; -1; 3] = true
  /\ forallb (Qleb 0) [-4; -1; 3] = false
  /\ (let r := solve_lp 0 true 100 [2; 3] [[-1; -1]; [-1; 1]; [1; 0]] [-4; -1; 3] in
      r_status r = OPTIMAL /\ r_solution r = [3; 1] /\ r_objective r = 9
      /\ r_pivots r = [(1, 0); (0, 1); (2, 3)]%nat).
Proof. vm_compute. repeat split. Qed.

(* x + y <= 1, x + y >= 3 *)
Example C03_deep_infeasible_nonvacuous :
  valid_lp [1; 1] [[1; 1]; [-1; -1]] [1; -3] = true
  /\ r_status (solve_lp 0 true 100 [1; 1] [[1; 1]; [-1; -1]] [1; -3]) = INFEASIBLE.
Proof. vm_compute. repeat split. Qed.

(* max x + y  s.t.  x + y >= 1, x - y <= 2 *)
Example C03_deep_unbounded_nonvacuous :
  valid_lp [1; 1] [[-1; -1]; [1; -1]] [-1; 2] = true
  /\ r_status (solve_lp 0 false 100 [1; 1] [[-1; -1]; [1; -1]] [-1; 2]) = UNBOUNDED.
Proof. vm_compute. repeat split. Qed.
