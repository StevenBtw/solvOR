(* C05 - CP Model.solve never returns an assignment that breaks an added constraint (property theorems).

   Model: SV.C05.CpDfs (DFS back-end of solvor/cp.py over the shared syntax SV.C06.CpAst), tied to /repo on
   every run by harness/props/C05.py.  `vo` is the value order (iteration order of a Python set): every theorem
   holds for EVERY value order that lists the values of the domain.  `wf_dfs M` = distinct variable ids and every
   variable of a constraint belongs to the model (what the harness' translation of Model._vars/_constraints
   guarantees); declared domains may be empty (then the answer is INFEASIBLE). *)
From Coq Require Import List ZArith Bool.
From SV Require Import C06.CpAst C06.CpEnc C05.CpDfs C05.CpSpec C05.CpSpecProofs C05.CpLemmas C05.PropSound
  C05.LeafProofs C05.DfsSound C05.DfsComplete C05.Fuel C05.Hints C05.SatPath C05.CpPinned.
Import ListNotations.
Open Scope Z_scope.

(* (1) no propagator - hence neither a sweep nor the fixpoint - removes a value that occurs in a solution of
   the constraints inside the current domains, and none reports inconsistency when such a solution exists *)
Theorem C05_prop_one_sound : forall (s : asgn) (c : cstr) (ds : doms),
  in_ds s ds -> cvars_in c ds -> holds s c ->
  exists ds', prop_one c ds = Some ds' /\ in_ds s ds'.
Proof. exact prop_one_sound. Qed.
Print Assumptions C05_prop_one_sound.

Theorem C05_prop_sound : forall (s : asgn) (cs : list cstr) (ds : doms),
  in_ds s ds -> (forall c, In c cs -> cvars_in c ds /\ holds s c) ->
  propagate cs ds <> PFail /\ forall ds', propagate cs ds = POk ds' -> in_ds s ds' /\ dkeys ds' = dkeys ds.
Proof. exact prop_sound. Qed.
Print Assumptions C05_prop_sound.

(* (2) when all domains are singletons {s i} and propagation succeeded, every constraint of a kind the DFS
   handles holds under s ("a constraint is always evaluated once fully assigned") *)
Theorem C05_leaf_checked : forall (s : asgn) (cs : list cstr) (ds0 ds : doms),
  propagate cs ds0 = POk ds -> matches s ds ->
  (forall c, In c cs -> cvars_in c ds0 /\ dfs_supported c = true) ->
  forall c, In c cs -> holds s c.
Proof. exact leaf_checked. Qed.
Print Assumptions C05_leaf_checked.

(* (3) every solution the DFS returns - any value order, any solution_limit, any hints - is the projection
   of an assignment inside the declared domains that satisfies every added constraint *)
Theorem C05_dfs_sound : forall (vo : list Z -> list Z) (M : cpmodel) (hints : list (nat * Z)) (limit : Z) (sols : list sol),
  wf_dfs M = true -> (forall d, incl (vo d) d) ->
  solve vo M hints limit = RSols sols -> forall x, In x sols -> answer_valid M x.
Proof. exact dfs_sound. Qed.
Print Assumptions C05_dfs_sound.

(* (4) INFEASIBLE only if no assignment exists (any limit, any hints) ... *)
Theorem C05_dfs_complete_infeasible : forall (vo : list Z -> list Z) (M : cpmodel) (hints : list (nat * Z)) (limit : Z),
  wf_dfs M = true -> (forall d, incl d (vo d)) ->
  solve vo M hints limit = RSols [] -> no_solution M.
Proof. exact dfs_infeasible. Qed.
Print Assumptions C05_dfs_complete_infeasible.

(* ... and when the limit is not reached (solution_limit = "infinity") every solution - projected on the named
   variables - is returned, exactly once; in particular for models whose variables are all named every solution
   is returned exactly once.  Hidden ("_") variables are searched, one completion per answer. *)
Theorem C05_dfs_complete_enum : forall (vo : list Z -> list Z) (M : cpmodel) (limit : Z) (sols : list sol),
  wf_dfs M = true -> (forall d, incl (vo d) d) -> (forall d, incl d (vo d)) -> (forall d, NoDup d -> NoDup (vo d)) ->
  solve vo M [] limit = RSols sols -> Z.of_nat (length sols) < limit ->
  NoDup sols /\ forall a, cp_solution M a -> In (project M a) sols.
Proof. exact dfs_enumerates. Qed.
Print Assumptions C05_dfs_complete_enum.

(* the model never runs out of fuel *)
Theorem C05_dfs_never_out_of_fuel : forall vo M hints limit, wf_dfs M = true -> solve vo M hints limit <> RFuel.
Proof.
  intros vo M hints limit WF. destruct (solve_cases vo M hints limit) as [[_ E]|[_ [h [E _]]]]; rewrite E.
  - discriminate.
  - apply solve_dfs_fuel, WF.
Qed.
Print Assumptions C05_dfs_never_out_of_fuel.

(* hence on a DFS-supported model the answer is INFEASIBLE or solutions, all of them valid, and INFEASIBLE exactly
   when no assignment exists - for every value order, limit and hint dictionary *)
Theorem C05_dfs_verdict : forall vo M hints limit,
  wf_dfs M = true -> existsb sat_required (m_cons M) = false ->
  (forall d, incl (vo d) d) -> (forall d, incl d (vo d)) ->
  exists sols, solve vo M hints limit = RSols sols
    /\ (forall x, In x sols -> answer_valid M x)
    /\ (sols = [] <-> no_solution M).
Proof.
  intros vo M hints limit WF SUP V1 V2. destruct (solve_total vo M hints limit WF SUP) as [sols E]. exists sols.
  split; [exact E | split].
  - apply (dfs_sound vo M hints limit sols WF V1 E).
  - apply (dfs_empty_iff vo M hints limit sols WF V1 V2 E).
Qed.
Print Assumptions C05_dfs_verdict.

(* (5) hints only restrict; the retry makes the verdict independent of the hints (and of solution_limit) *)
Theorem C05_hints_restrict : forall vo M hints limit sols,
  wf_dfs M = true -> (forall d, incl (vo d) d) -> has_empty_dom M = false -> NoDup (map fst hints) ->
  solve_dfs vo M hints limit = RSols sols ->
  forall x, In x sols -> exists a, cp_solution M a /\ project M a = x /\
    forall v val, In v (m_vars M) -> In (vid v, val) hints -> in_dom v val = true -> a (vid v) = val.
Proof. exact hints_restrict. Qed.
Print Assumptions C05_hints_restrict.

Theorem C05_hints : forall vo M h1 l1 s1 h2 l2 s2,
  wf_dfs M = true -> (forall d, incl (vo d) d) -> (forall d, incl d (vo d)) ->
  solve vo M h1 l1 = RSols s1 -> solve vo M h2 l2 = RSols s2 -> (s1 = [] <-> s2 = []).
Proof.
  intros vo M h1 l1 s1 h2 l2 s2 WF V1 V2 E1 E2.
  rewrite (dfs_empty_iff vo M h1 l1 s1 WF V1 V2 E1), (dfs_empty_iff vo M h2 l2 s2 WF V1 V2 E2). reflexivity.
Qed.
Print Assumptions C05_hints.

(* (6) SAT path = C06 o C01, a closed implication *)
Theorem C05_sat_path : forall (M : cpmodel) (sat_answer : option asg),
  (forall b, models b (fst (encode M)) -> cp_solution M (dec_asgn (m_vars M) b)) ->
  (forall b, sat_answer = Some b -> models b (fst (encode M))) ->
  forall b, sat_answer = Some b -> answer_valid M (project M (dec_asgn (m_vars M) b)).
Proof. exact sat_path_sound. Qed.
Print Assumptions C05_sat_path.

Theorem C05_sat_path_infeasible : forall (M : cpmodel) (sat_answer : option asg),
  (forall a, cp_solution M a -> exists b, models b (fst (encode M))) ->
  (sat_answer = None -> forall b, ~ models b (fst (encode M))) ->
  sat_answer = None -> no_solution M.
Proof. exact sat_path_infeasible. Qed.
Print Assumptions C05_sat_path_infeasible.

(* corollary: the two back-ends agree on satisfiability (DFS side proved, SAT side under the C06 / C01 premises) *)
Theorem C05_backends_agree : forall (vo : list Z -> list Z) (M : cpmodel) (hints : list (nat * Z)) (limit : Z)
    (sat_answer : option asg) (sols : list sol),
  wf_dfs M = true -> (forall d, incl (vo d) d) -> (forall d, incl d (vo d)) ->
  (forall b, models b (fst (encode M)) -> cp_solution M (dec_asgn (m_vars M) b)) ->
  (forall a, cp_solution M a -> exists b, models b (fst (encode M))) ->
  (forall b, sat_answer = Some b -> models b (fst (encode M))) ->
  (sat_answer = None -> forall b, ~ models b (fst (encode M))) ->
  solve vo M hints limit = RSols sols ->
  (sols = [] <-> sat_answer = None).
Proof. exact backends_agree. Qed.
Print Assumptions C05_backends_agree.

(* (6') the same with C06's theorems plugged in (SV.C06.EncModel.encode_sound / encode_complete, every constraint
   kind, under C06's wf_model): only C01's statement about the SAT answer on this clause list remains a premise *)
Theorem C05_sat_path_c06 : forall (M : cpmodel) (sat_answer : option asg),
  wf_model M = true ->
  (forall b, sat_answer = Some b -> models b (fst (encode M))) ->
  (sat_answer = None -> forall b, ~ models b (fst (encode M))) ->
  (forall b, sat_answer = Some b -> answer_valid M (project M (dec_asgn (m_vars M) b)))
  /\ (sat_answer = None -> no_solution M).
Proof.
  intros M sat_answer WF SS SC. split.
  - exact (sat_path_sound M sat_answer (enc_sound_c06 M WF) SS).
  - exact (sat_path_infeasible M sat_answer (enc_complete_c06 M WF) SC).
Qed.
Print Assumptions C05_sat_path_c06.

Theorem C05_backends_agree_c06 : forall (vo : list Z -> list Z) (M : cpmodel) (hints : list (nat * Z)) (limit : Z)
    (sat_answer : option asg) (sols : list sol),
  wf_model M = true -> wf_dfs M = true -> (forall d, incl (vo d) d) -> (forall d, incl d (vo d)) ->
  (forall b, sat_answer = Some b -> models b (fst (encode M))) ->
  (sat_answer = None -> forall b, ~ models b (fst (encode M))) ->
  solve vo M hints limit = RSols sols ->
  (sols = [] <-> sat_answer = None).
Proof.
  intros vo M hints limit sat_answer sols WF WD V1 V2.
  exact (backends_agree vo M hints limit sat_answer sols WD V1 V2 (enc_sound_c06 M WF) (enc_complete_c06 M WF)).
Qed.
Print Assumptions C05_backends_agree_c06.

(* (7) the PINNED dispatcher (unknown shapes fall through as satisfied) breaks the property *)
Theorem C05_dfs_pinned_refuted :
  exists (M : cpmodel) (s : sol), wf_dfs M = true /\ solve_pinned vo_id M [] 1 = RSols [s] /\ ~ answer_valid M s.
Proof.
  exists x_minus_y_eq_2, [(0%nat, 0); (1%nat, 0)].
  split; [vm_compute; reflexivity | split; [exact pinned_answer | exact pinned_answer_invalid]].
Qed.
Print Assumptions C05_dfs_pinned_refuted.

Theorem C05_spec_check_sound : forall M s, spec_check M s = true -> answer_valid M s.
Proof. exact spec_check_sound. Qed.
Print Assumptions C05_spec_check_sound.

Theorem C05_infeasible_check_sound : forall M, wf_dfs M = true -> infeasible_check M = true -> no_solution M.
Proof. exact infeasible_check_sound. Qed.
Print Assumptions C05_infeasible_check_sound.

Definition ex_x : var := mkVar 0 0 9 true 1.
Definition ex_y : var := mkVar 1 0 9 true 11.
(* the module docstring example: all_different([x, y]); x + y == 10 *)
Definition ex_doc : cpmodel :=
  mkModel [ex_x; ex_y] [CAllDiff [ex_x; ex_y]; CLin (EAdd (EVar ex_x) (EVar ex_y)) (EConst 10) false] 21.

(* the value orders used by the harness (and their reverse) are duplicate-free listings of the domain *)
Example C05_nonvacuous_vo :
  (forall d, incl (vo_id d) d) /\ (forall d, incl d (vo_id d)) /\ (forall d, NoDup d -> NoDup (vo_id d))
  /\ (forall d, incl (vo_rev d) d) /\ (forall d, incl d (vo_rev d)) /\ (forall d, NoDup d -> NoDup (vo_rev d)).
Proof.
  unfold vo_id, vo_rev. repeat split; intros d; try apply incl_refl; try tauto.
  - intros x H. apply in_rev. exact H.
  - intros x H. apply in_rev in H. exact H.
  - apply NoDup_rev.
Qed.

Example C05_nonvacuous_wf : wf_dfs ex_doc = true.
Proof. vm_compute. reflexivity. Qed.

Example C05_nonvacuous_first : solve vo_id ex_doc [] 1 = RSols [[(0%nat, 1); (1%nat, 9)]].
Proof. vm_compute. reflexivity. Qed.

Example C05_nonvacuous_all : exists sols, solve vo_id ex_doc [] 1000 = RSols sols /\ length sols = 8%nat
  /\ forallb (spec_check ex_doc) sols = true.
Proof. eexists. split; [vm_compute; reflexivity | split; vm_compute; reflexivity]. Qed.

Example C05_nonvacuous_infeasible :
  solve vo_rev (mkModel [ex_x] [CAllDiff [ex_x; ex_x]] 11) [(0%nat, 3)] 5 = RSols [].
Proof. vm_compute. reflexivity. Qed.

Example C05_nonvacuous_hint_retry :
  solve vo_id (mkModel [ex_x] [CNeConst ex_x 0] 11) [(0%nat, 0)] 1 = RSols [[(0%nat, 1)]].
Proof. vm_compute. reflexivity. Qed.

(* the pinned dispatcher on the docstring example: x = 0, y = 1 (x + y == 10 ignored), as observed on the pinned tree *)
Example C05_pinned_docstring_example : solve_pinned vo_id ex_doc [] 1 = RSols [[(0%nat, 0); (1%nat, 1)]].
Proof. vm_compute. reflexivity. Qed.

(* a hidden variable: x + _ == 5 over 0..3 has the named answers x = 2 and x = 3, each returned once *)
Example C05_nonvacuous_hidden :
  let x := mkVar 0 0 3 true 1 in let h := mkVar 1 0 3 false 5 in
  solve vo_id (mkModel [x; h] [CLin (EAdd (EVar x) (EVar h)) (EConst 5) false] 9) [] 1000 = RSols [[(0%nat, 2)]; [(0%nat, 3)]].
Proof. vm_compute. reflexivity. Qed.

Example C05_nonvacuous_fixed : solve vo_id x_minus_y_eq_2 [] 1 = RSols [[(0%nat, 2); (1%nat, 0)]].
Proof. vm_compute. reflexivity. Qed.
