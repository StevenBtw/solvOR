(* C12 - Rust and Python back-ends are observably equivalent: bfs_edges with a target, dijkstra_edges,
   strongly_connected_components_edges, dfs_edges, pagerank_edges.  Models: SV.C12.Rs* (Rust kernel + adapter),
   SV.C12.PyDijkstra / RsSearch.PyEdges / RsPageRank (Python wrappers) on top of SV.C11 / C14 / C15.
   Every hypothesis is a boolean predicate on the inputs (indices in range; non-negative weights for dijkstra);
   fuel exhaustion of either model is excluded by each theorem (both sides return `Some _`). *)
From Coq Require Import List ZArith Bool Arith QArith Lia.
From SV Require Import C11.Paths C11.Bfs C12.RsSearch C12.BfsEquiv C12.RsShortest C12.PyDijkstra C12.RsScc C12.RsPageRank.
From SV Require Import C14.Scc C14.SccSpec C15.Graph C15.PageRank C12.TopoEquiv.
From SV Require Import C12.DeepBfs C12.DeepDij1 C12.DeepDij2 C12.DeepScc C12.DeepDfs3 C12.DeepPageRank.
Import ListNotations.
Local Open Scope nat_scope.

(* bfs_edges with a target: the two back-ends return the IDENTICAL result (status, path, objective = hop count);
   the path is a walk source -> target in the graph of the edge list and no walk is shorter; INFEASIBLE on both
   sides iff the target is unreachable.  (successor function of the edge list: BfsEquiv.out_of) *)
Theorem C12_bfs : forall n edges source t,
  ES.valid_input n edges source (Some t) = true ->
  RsSearch.bfs_edges n edges source (Some t) = PyEdges.bfs_edges n edges source (Some t) /\
  ((exists p, PyEdges.bfs_edges n edges source (Some t)
              = Some (ES.Found ES.OPTIMAL p (Z.of_nat (length p) - 1)) /\
              Paths.is_path (BfsEquiv.out_of edges) source t p /\
              forall q, Paths.is_path (BfsEquiv.out_of edges) source t q -> length p <= length q)
   \/ (PyEdges.bfs_edges n edges source (Some t) = Some (ES.NotFound ES.INFEASIBLE) /\
       ~ Paths.reach (BfsEquiv.out_of edges) source t)).
Proof. exact bfs_target_equiv. Qed.
Print Assumptions C12_bfs.

(* C12_bfs_full_statement of Props/C12.v: identical results for every target *)
Theorem C12_bfs_full : forall n edges source target, ES.valid_input n edges source target = true ->
  RsSearch.bfs_edges n edges source target = PyEdges.bfs_edges n edges source target /\
  exists r, PyEdges.bfs_edges n edges source target = Some r.
Proof. exact bfs_full_equiv. Qed.
Print Assumptions C12_bfs_full.

(* dijkstra_edges, non-negative weights.  With a target: same status; when reachable both return a path that is
   a walk source -> target of the edge list whose weight is the common reported distance d, and d is the
   shortest-walk distance; otherwise both INFEASIBLE.  (The two paths may differ: ties are broken differently.) *)
Theorem C12_dijkstra : forall n edges source t, dij_valid n edges source (Some t) = true ->
  (exists p q d, RsDij.dijkstra n edges source (Some t) = Some (RsDij.Path p d) /\
                 PyDij.dijkstra_edges n edges source (Some t) = Some (RsDij.Path q d) /\
                 walk edges source t p d /\ walk edges source t q d /\ is_dist edges source t d)
  \/ (RsDij.dijkstra n edges source (Some t) = Some RsDij.Infeasible /\
      PyDij.dijkstra_edges n edges source (Some t) = Some RsDij.Infeasible /\
      ~ reachable edges source t).
Proof. exact dijkstra_equiv_target. Qed.
Print Assumptions C12_dijkstra.

(* without a target: the same distance vector, which holds the shortest-walk distance of every reachable node
   and inf (None) for the others *)
Theorem C12_dijkstra_dists : forall n edges source, dij_valid n edges source None = true ->
  exists dv, RsDij.dijkstra n edges source None = Some (RsDij.Dists dv) /\
             PyDij.dijkstra_edges n edges source None = Some (RsDij.Dists dv) /\
             length dv = n /\
             forall v, v < n -> match nth v dv None with
                                | Some d => is_dist edges source v d
                                | None => ~ reachable edges source v
                                end.
Proof. exact dijkstra_equiv_dists. Qed.
Print Assumptions C12_dijkstra_dists.

(* strongly_connected_components_edges: the same component list (same order), a partition of 0..n-1 into the
   classes of mutual reachability *)
Theorem C12_scc : forall n edges, evalidb n edges = true ->
  exists cs, RsScc.scc_edges n edges = Some cs /\ Scc.scc_edges n edges = Some cs /\
             is_partition (seq 0 n) cs /\
             forall x y, x < n -> y < n ->
               ((exists c, In c cs /\ In x c /\ In y c) <->
                (SccSpec.reach (graph_of_edges n edges) (seq 0 n) x y /\
                 SccSpec.reach (graph_of_edges n edges) (seq 0 n) y x)).
Proof.
  intros n edges Hb. destruct (scc_both_spec n edges Hb) as [cs [H1 [H2 [Hp [Hc _]]]]].
  exists cs. split; [exact H1|]. split; [exact H2|]. split; [exact Hp|].
  intros x y Hx Hy. apply (Hc x y); apply in_seq; lia.
Qed.
Print Assumptions C12_scc.

(* dfs_edges.  With a target: reachable -> both FEASIBLE with valid paths (they may differ), unreachable -> both
   INFEASIBLE.  Without: the same sorted list, exactly the reachable nodes. *)
Theorem C12_dfs : forall n edges source t, ES.valid_input n edges source (Some t) = true ->
  (Paths.reach (BfsEquiv.out_of edges) source t /\
     exists p q, RsSearch.dfs_edges n edges source (Some t) = Some (ES.Found ES.FEASIBLE p (Z.of_nat (length p) - 1)) /\
                 PyEdges.dfs_edges n edges source (Some t) = Some (ES.Found ES.FEASIBLE q (Z.of_nat (length q) - 1)) /\
                 Paths.is_path (BfsEquiv.out_of edges) source t p /\ Paths.is_path (BfsEquiv.out_of edges) source t q)
  \/ (~ Paths.reach (BfsEquiv.out_of edges) source t /\
      RsSearch.dfs_edges n edges source (Some t) = Some (ES.NotFound ES.INFEASIBLE) /\
      PyEdges.dfs_edges n edges source (Some t) = Some (ES.NotFound ES.INFEASIBLE)).
Proof. exact dfs_equiv_target. Qed.
Print Assumptions C12_dfs.

Theorem C12_dfs_reach : forall n edges source, ES.valid_input n edges source None = true ->
  exists l, RsSearch.dfs_edges n edges source None = Some (ES.Reach l) /\
            PyEdges.dfs_edges n edges source None = Some (ES.Reach l) /\
            (forall v, In v l <-> Paths.reach (BfsEquiv.out_of edges) source v).
Proof. exact dfs_equiv_reach. Qed.
Print Assumptions C12_dfs_reach.

(* pagerank_edges over Q with the stopping rule max |delta| < tol on both sides: identical sweeps, hence the same
   scores (Leibniz-equal reduced rationals), the same converged flag / status and the same iteration count *)
Theorem C12_pagerank : forall n edges d tol max_iter, forallb (RsPR.edge_ok n) edges = true ->
  let '(s, it, cv) := RsPR.pagerank_edges n edges d tol max_iter in
  RsPR.py_obs n (RsPR.py_pagerank_edges n edges d tol max_iter) = Some (s, cv) /\
  match RsPR.py_pagerank_edges n edges d tol max_iter with
  | PR_ok r => p_iterations r = it
  | PR_noiter _ => it = 0%nat
  | PR_empty => it = 0%nat
  end.
Proof. exact pagerank_equiv. Qed.
Print Assumptions C12_pagerank.

(* the hypotheses can be met: concrete inputs, both back-ends evaluated *)
Example C12_bfs_target_example :
  ES.valid_input 5 [(0,2);(0,1);(1,3);(2,3)] 0 (Some 3) = true /\
  RsSearch.bfs_edges 5 [(0,2);(0,1);(1,3);(2,3)] 0 (Some 3) = Some (ES.Found ES.OPTIMAL [0;2;3] 2) /\
  PyEdges.bfs_edges 5 [(0,2);(0,1);(1,3);(2,3)] 0 (Some 3) = Some (ES.Found ES.OPTIMAL [0;2;3] 2) /\
  ES.valid_input 5 [(0,2);(0,1);(1,3);(2,3)] 0 (Some 4) = true /\
  RsSearch.bfs_edges 5 [(0,2);(0,1);(1,3);(2,3)] 0 (Some 4) = Some (ES.NotFound ES.INFEASIBLE).
Proof. vm_compute. repeat split; reflexivity. Qed.

Definition dij_ex : wgraph := [(0,2,1%Z);(0,1,1%Z);(1,3,1%Z);(2,3,1%Z);(3,4,0%Z);(0,3,5%Z)].
Example C12_dijkstra_example :
  dij_valid 6 dij_ex 0 (Some 4) = true /\
  RsDij.dijkstra 6 dij_ex 0 (Some 4) = Some (RsDij.Path [0;2;3;4] 2) /\
  PyDij.dijkstra_edges 6 dij_ex 0 (Some 4) = Some (RsDij.Path [0;2;3;4] 2) /\
  dij_valid 6 dij_ex 0 (Some 5) = true /\
  RsDij.dijkstra 6 dij_ex 0 (Some 5) = Some RsDij.Infeasible /\
  dij_valid 6 dij_ex 0 None = true /\
  RsDij.dijkstra 6 dij_ex 0 None = Some (RsDij.Dists [Some 0%Z; Some 1%Z; Some 1%Z; Some 2%Z; Some 2%Z; None]) /\
  dij_valid 6 [(0,1,(-1)%Z)] 0 None = false.
Proof. vm_compute. repeat split; reflexivity. Qed.

Example C12_scc_example :
  evalidb 5 [(0,1);(1,2);(2,0);(2,3);(3,4);(4,3)] = true /\
  RsScc.scc_edges 5 [(0,1);(1,2);(2,0);(2,3);(3,4);(4,3)] = Some [[4;3];[2;1;0]] /\
  Scc.scc_edges 5 [(0,1);(1,2);(2,0);(2,3);(3,4);(4,3)] = Some [[4;3];[2;1;0]].
Proof. exact scc_equiv_ex. Qed.

(* the two back-ends return DIFFERENT valid paths here *)
Example C12_dfs_example :
  ES.valid_input 5 [(0,1);(0,2);(1,3);(2,3);(3,1)] 0 (Some 3) = true /\
  RsSearch.dfs_edges 5 [(0,1);(0,2);(1,3);(2,3);(3,1)] 0 (Some 3) = Some (ES.Found ES.FEASIBLE [0;1;3] 2) /\
  PyEdges.dfs_edges 5 [(0,1);(0,2);(1,3);(2,3);(3,1)] 0 (Some 3) = Some (ES.Found ES.FEASIBLE [0;2;3] 2) /\
  RsSearch.dfs_edges 5 [(0,1);(0,2);(1,3);(2,3);(3,1)] 0 (Some 4) = Some (ES.NotFound ES.INFEASIBLE) /\
  RsSearch.dfs_edges 5 [(0,1);(0,2);(1,3);(2,3);(3,1)] 0 None = Some (ES.Reach [0;1;2;3]).
Proof. exact (conj (proj1 dfs_equiv_ex_valid) dfs_equiv_ex_paths). Qed.

Example C12_pagerank_example :
  let n := 3%nat in
  let edges := [(0, 1); (1, 2); (2, 0); (0, 2)]%nat in
  let r := RsPR.pagerank_edges n edges (85 # 100) (1 # 1000) 5 in
  forallb (RsPR.edge_ok n) edges = true
  /\ RsPR.py_obs n (RsPR.py_pagerank_edges n edges (85 # 100) (1 # 1000) 5) = Some (fst (fst r), snd r)
  /\ snd (fst r) = 5%nat
  /\ length (fst (fst r)) = 3%nat.
Proof. exact pagerank_equiv_example. Qed.
