(* C13 - kruskal and prim return minimum spanning trees (or say why not): property theorems.
   Model: SV.C13.Mst (solvor/mst.py over the C20 UnionFind model); specification: SV.C13.MstSpec. *)
From Coq Require Import List ZArith.
From SV Require Import C20.UFSpec C13.Mst C13.MstSpec C13.GraphLemmas C13.KruskalProofs.
From SV Require Import C13.ForestCount C13.PrimProofs C13.MstSpecProofs C13.Greedy C13.AgreeProofs C13.PrimMin.
Import ListNotations.

(* kruskal, all inputs the validators accept (n_nodes >= 1, end points in range), every allow_forest:
   the call returns a Result (the union-find model never runs out of fuel) which satisfies kruskal_spec:
   OPTIMAL   -> solution t is a spanning forest of the input (edges of the input, every edge a bridge,
                connects exactly what the input connects), n-1 edges, objective = total weight, graph connected;
   FEASIBLE  -> allow_forest, spanning forest with n - #components < n-1 edges, objective = total weight, not connected;
   INFEASIBLE-> not allow_forest, no solution, objective inf, graph not connected. *)
Theorem C13_kruskal_forest : forall n edges allow_forest, kruskal_valid n edges = true ->
  exists r, kruskal n edges allow_forest = Done r /\
            kruskal_spec n edges allow_forest (r_status r, r_solution r, r_objective r).
Proof.
  intros n edges af Hv. destruct (kruskal_forest_min n edges af Hv) as [r [Hr [Hs _]]].
  exists r. split; assumption.
Qed.
Print Assumptions C13_kruskal_forest.

(* the accepted edges themselves (also when the Result hides them behind INFEASIBLE) *)
Theorem C13_kruskal_accepted : forall n edges, kruskal_valid n edges = true ->
  exists acc tot iters,
    kruskal_core n edges = Some (acc, tot, iters) /\
    spanning_forest edges acc /\ incr_forest acc /\ tot = weight acc /\
    num_classes n (connects edges) (n - length acc) /\ length acc <= n - 1 /\
    iters <= length edges /\ greedy [] (sort_edges edges) acc.
Proof. exact kruskal_core_forest. Qed.
Print Assumptions C13_kruskal_accepted.

Example C13_kruskal_nonvacuous :
  kruskal_valid 4 [(0,1,4%Z); (0,2,3%Z); (1,2,2%Z); (1,3,5%Z); (2,3,6%Z); (3,3,1%Z); (2,1,2%Z)] = true /\
  obs_of (kruskal 4 [(0,1,4%Z); (0,2,3%Z); (1,2,2%Z); (1,3,5%Z); (2,3,6%Z); (3,3,1%Z); (2,1,2%Z)] false)
  = ODone (OPTIMAL, Some [(1,2,2%Z); (0,2,3%Z); (1,3,5%Z)], Some 10%Z) 6 7 /\
  obs_of (kruskal 4 [(0,1,1%Z); (2,3,1%Z)] true) = ODone (FEASIBLE, Some [(0,1,1%Z); (2,3,1%Z)], Some 2%Z) 2 2 /\
  obs_of (kruskal 4 [(0,1,1%Z); (2,3,1%Z)] false) = ODone (INFEASIBLE, None, None) 2 2.
Proof. vm_compute. repeat split. Qed.

(* prim, every adjacency dict with distinct keys and every start that is a node (or None): the call returns a
   Result (the loop never runs out of fuel) which satisfies prim_spec:
   OPTIMAL    -> the edges are arcs of the dict, acyclic, connect start to exactly the nodes of the graph,
                 |nodes| - 1 edges, objective = total weight, every node reachable from start;
   INFEASIBLE -> no solution, objective inf, some node is not reachable from start along the adjacency lists. *)
Theorem C13_prim_tree : forall g start, prim_valid g start = true ->
  exists r, prim g start = Done r /\ prim_spec g start (r_status r, r_solution r, r_objective r).
Proof. exact prim_tree. Qed.
Print Assumptions C13_prim_tree.

(* undirected reading (symmetric adjacency dict): OPTIMAL iff every node is connected to start *)
Theorem C13_prim_tree_undirected : forall g start,
  prim_valid g start = true -> symmetricb g = true -> g <> [] ->
  exists r, prim g start = Done r /\
    prim_spec g start (r_status r, r_solution r, r_objective r) /\
    (r_status r = OPTIMAL <-> forall x, is_node g x -> connects (arcs g) (prim_start g start) x) /\
    (r_status r = INFEASIBLE <-> exists x, is_node g x /\ ~ connects (arcs g) (prim_start g start) x).
Proof. exact prim_tree_undirected. Qed.
Print Assumptions C13_prim_tree_undirected.

Example C13_prim_nonvacuous :
  let g := [(0, [(1,4%Z); (2,3%Z)]); (1, [(0,4%Z); (2,2%Z); (3,5%Z)]);
            (2, [(0,3%Z); (1,2%Z); (3,6%Z)]); (3, [(1,5%Z); (2,6%Z)])] in
  prim_valid g (Some 3) = true /\ symmetricb g = true /\
  obs_of (prim g (Some 3)) = ODone (OPTIMAL, Some [(3,1,5%Z); (1,2,2%Z); (2,0,3%Z)], Some 10%Z) 3 5 /\
  obs_of (prim [(0, [(1,1%Z)]); (1, [(0,1%Z)]); (2, [])] None) = ODone (INFEASIBLE, None, None) 1 1.
Proof. vm_compute. repeat split. Qed.

(* the boolean checkers the harness applies to IMPLEMENTATION outputs are sound for the specification *)
Theorem C13_kruskal_check_sound : forall n edges af o,
  kruskal_check n edges af o = true -> kruskal_spec n edges af o.
Proof. exact kruskal_check_sound. Qed.
Print Assumptions C13_kruskal_check_sound.

Theorem C13_prim_check_sound : forall g start o, prim_check g start o = true -> prim_spec g start o.
Proof. exact prim_check_sound. Qed.
Print Assumptions C13_prim_check_sound.

(* kruskal, minimality: the returned edge list has minimum total weight among ALL spanning forests of the
   input multigraph (kruskal_spec_min = kruskal_spec + minimum), for every valid input and allow_forest. *)
Theorem C13_kruskal_min : forall n edges allow_forest, kruskal_valid n edges = true ->
  exists r, kruskal n edges allow_forest = Done r /\
            kruskal_spec_min n edges allow_forest (r_status r, r_solution r, r_objective r).
Proof. exact kruskal_forest_min. Qed.
Print Assumptions C13_kruskal_min.

(* the graph-theoretic core: scanning edges by non-decreasing weight and keeping the bridges is optimal *)
Theorem C13_greedy_min : forall n es acc out, greedy acc es out -> sortedw es -> in_range n (acc ++ es) ->
  exists added, out = acc ++ added /\ forall F, competitor acc es F -> (weight added <= weight F)%Z.
Proof. exact greedy_min. Qed.
Print Assumptions C13_greedy_min.

(* prim, minimality: on an undirected graph (symmetric adjacency dict) the returned tree has minimum total
   weight among all spanning forests of the arc list (cut property along the heap order). *)
Theorem C13_prim_min : forall g start r t, prim_valid g start = true -> symmetricb g = true ->
  prim g start = Done r -> r_solution r = Some t -> minimum (arcs g) t.
Proof. exact prim_min. Qed.
Print Assumptions C13_prim_min.

(* what a returned solution is, structurally (no symmetry needed) *)
Theorem C13_prim_solution : forall g start r t, prim_valid g start = true -> g <> [] ->
  prim g start = Done r -> r_solution r = Some t ->
  r_status r = OPTIMAL /\ r_objective r = Some (weight t) /\ spanning_forest (arcs g) t.
Proof. exact prim_solution_spanning. Qed.
Print Assumptions C13_prim_solution.

(* kruskal and prim agree: the same undirected graph given as an edge list (same edge set as the arcs of the
   symmetric adjacency dict) - whenever prim returns a tree, kruskal's total weight equals prim's objective *)
Theorem C13_agree : forall g start r t n edges acc tot iters,
  prim_valid g start = true -> symmetricb g = true -> g <> [] ->
  prim g start = Done r -> r_solution r = Some t ->
  incl edges (arcs g) -> incl (arcs g) edges ->
  kruskal_valid n edges = true -> kruskal_core n edges = Some (acc, tot, iters) ->
  r_objective r = Some tot /\ tot = weight acc /\ tot = weight t.
Proof. exact agree. Qed.
Print Assumptions C13_agree.

Example C13_agree_nonvacuous :
  let g := [(0, [(1,4%Z); (2,3%Z)]); (1, [(0,4%Z); (2,2%Z); (3,5%Z)]);
            (2, [(0,3%Z); (1,2%Z); (3,6%Z)]); (3, [(1,5%Z); (2,6%Z)])] in
  prim_valid g None = true /\ symmetricb g = true /\ kruskal_valid 4 (arcs g) = true /\
  (exists r t, prim g None = Done r /\ r_solution r = Some t /\ r_objective r = Some 10%Z) /\
  (exists acc it, kruskal_core 4 (arcs g) = Some (acc, 10%Z, it)).
Proof. vm_compute. repeat split; repeat eexists. Qed.
