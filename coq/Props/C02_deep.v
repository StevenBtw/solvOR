(* Property C02 on the FAITHFUL model of solve_sat (coq/C01/DeepCdcl.v, tied to the implementation run by run through the exact
   trace + Result equality of harness/props/C01_deep.py): SAT verdicts are correct, completeness of the search included - for
   every formula, every option value, every decision oracle and every fuel.  `solve_sat ... = Done evs r` excludes exactly the
   four explicit error values of the model (fuel exhausted, luby out of fuel, oracle exhausted / invalid) - see
   C02_deep_terminates for the first two.
   Each statement is derived here in a few lines from the theorems of coq/C01 (Deep2*.v, DeepResult.v, DeepRun.v, SatLemmas.v). *)
From Coq Require Import List ZArith Bool Arith.
Import ListNotations.
From SV Require Import C01.SatSpec C01.Machine C01.DeepCdcl.
From SV Require C01.DeepTrailProp C01.DeepRun C01.DeepReason C01.DeepReasonProp C01.DeepResult C01.SatLemmas C01.Deep2Sem C01.Deep2Verdict
  C01.Deep2Total C01.Deep2Rank C01.Deep2Terminates.
Import DeepRun DeepReason DeepReasonProp DeepTrailProp Deep2Rank Deep2Terminates.

(* (1) INFEASIBLE only when clauses + assumptions have no model: level-0 conflict, assumption conflict, contradictory units,
   empty clause.  Engine: a fixed model m of clauses + assumptions (made to agree with the asserted pure literals by `pure_ok`)
   keeps satisfying the clause database (learned clauses are entailed - deep_learned_entailed) and every level-0 literal until
   it is recorded as a solution; a falsified clause at level 0 or a false assumption contradicts that. *)
Theorem C02_deep_infeasible_sound : forall fuel cls A mc mr limit lf orc evs r, valid_input cls A = true ->
  solve_sat fuel cls A mc mr limit lf orc = Done evs r -> d_status r = INFEASIBLE ->
  ~ exists m, models m cls /\ agrees m A.
Proof.
  intros fuel cls A mc mr limit lf orc evs r Hv E Hst [m0 [Hm Hag]].
  destruct (SatLemmas.pure_ok cls A _ m0 (Deep2Verdict.pure_lits_ok cls A) Hm Hag) as (Q1 & Q2 & Q3).
  exact (proj1 (Deep2Verdict.solve_sat_RV _ fuel cls A mc mr limit lf orc evs r Hv Q1 Q2 (fun _ => Q3) E) Hst).
Qed.
Print Assumptions C02_deep_infeasible_sound.

(* ... and after k solutions with their blocking clauses: an enumeration (solution_limit >= 2) that stops with fewer than
   solution_limit models has reported ALL models (every model of clauses + assumptions coincides with a reported one on the
   variables 1..n_vars) *)
Theorem C02_deep_enumeration_complete : forall fuel cls A mc mr limit lf orc evs r ms, valid_input cls A = true -> (1 < limit)%Z ->
  solve_sat fuel cls A mc mr limit lf orc = Done evs r -> d_status r = OPTIMAL -> d_solutions r = Some ms ->
  (Z.of_nat (length ms) < limit)%Z ->
  forall m, models m cls -> agrees m A ->
    exists sol, In sol ms /\ forall v, (1 <= v <= n_vars_of cls)%nat -> m (zvar v) = asg_of sol (zvar v).
Proof.
  intros fuel cls A mc mr limit lf orc evs r ms Hv Hl E Hst Hms Hlen m Hm Hag.
  (* pure literals are asserted for solution_limit <= 1 only *)
  assert ((limit <= 1)%Z -> agrees m (Deep2Verdict.pure_lits cls A)) as Hp by (intros H; destruct (Z.lt_irrefl _ (Z.lt_le_trans _ _ _ Hl H))).
  exact (proj1 (proj2 (Deep2Verdict.solve_sat_RV m fuel cls A mc mr limit lf orc evs r Hv Hm Hag Hp E)) Hst ms Hms Hlen).
Qed.
Print Assumptions C02_deep_enumeration_complete.

(* (2) never a model for an unsatisfiable formula (corollary of DeepResult.solve_sat_sound) *)
Theorem C02_deep_no_false_model : forall fuel cls A mc mr limit lf orc evs r, valid_input cls A = true ->
  solve_sat fuel cls A mc mr limit lf orc = Done evs r -> (~ exists m, models m cls /\ agrees m A) ->
  d_solution r = None /\ forall ms, d_solutions r = Some ms -> ms = [].
Proof.
  intros fuel cls A mc mr limit lf orc evs r Hv E Hun. destruct (DeepResult.solve_sat_sound _ _ _ _ _ _ _ _ _ _ Hv E) as [Q1 Q2]. split.
  - destruct (d_solution r) as [m|] eqn:Es; [|reflexivity]. exfalso. apply Hun. exists (asg_of m). exact (Q1 m eq_refl).
  - intros ms Hms. destruct ms as [|m ms']; [reflexivity|]. exfalso. apply Hun. exists (asg_of m).
    exact (proj2 (Q2 _ Hms) m (or_introl eq_refl)).
Qed.
Print Assumptions C02_deep_no_false_model.

(* (3) the status is OPTIMAL, INFEASIBLE or MAX_ITER (by type); if clauses + assumptions are satisfiable and no budget ran out
   (status <> MAX_ITER) the status is OPTIMAL and `solution` is a model *)
Theorem C02_deep_verdict_complete : forall fuel cls A mc mr limit lf orc evs r, valid_input cls A = true ->
  solve_sat fuel cls A mc mr limit lf orc = Done evs r -> (exists m, models m cls /\ agrees m A) -> d_status r <> MAX_ITER ->
  d_status r = OPTIMAL /\ exists m, d_solution r = Some m /\ models (asg_of m) cls /\ agrees (asg_of m) A.
Proof. exact Deep2Verdict.verdict_complete. Qed.
Print Assumptions C02_deep_verdict_complete.

(* (4) every call returns after work bounded by its budgets.
   term_fuel cls max_conflicts solution_limit =
       2 * (n_clauses + R + 3) + n_vars + 1,   R = ((limit * (max_conflicts + 1) + max_conflicts) * 2 + 1) * (n_vars + 1) + n_vars
   (limit, max_conflicts truncated at 0; max_restarts and luby_factor do not enter: restarts only stop a run earlier).
   With at least that much fuel the model never returns the out-of-fuel error (nor the Luby one): it returns a Result or one of
   the two oracle errors (decision list exhausted / names an assigned variable), for every decision oracle. *)
Theorem C02_deep_terminates : forall fuel cls A mc mr limit lf orc, valid_input cls A = true -> (term_fuel cls mc limit <= fuel)%nat ->
  (exists evs r, solve_sat fuel cls A mc mr limit lf orc = Done evs r)
  \/ (exists evs, solve_sat fuel cls A mc mr limit lf orc = Err EOracleEmpty evs)
  \/ (exists v evs, solve_sat fuel cls A mc mr limit lf orc = Err (EOracleBad v) evs).
Proof.
  intros fuel cls A mc mr limit lf orc Hv Hf. destruct (solve_sat fuel cls A mc mr limit lf orc) as [evs r|e evs] eqn:E; [left; eauto|].
  pose proof (solve_sat_terminates _ _ _ _ _ _ _ _ _ _ Hv Hf E) as Q. unfold fuel_err in Q.
  destruct e as [| |v|]; [exfalso; apply Q; left; reflexivity | right; left; eauto | right; right; eauto | exfalso; apply Q; right; reflexivity].
Qed.
Print Assumptions C02_deep_terminates.

(* the ingredients: (i) the rank - lexicographic (solution_limit - #solutions, max_conflicts - conflicts, conflict pending,
   decision level | #unassigned variables), flattened - strictly decreases at every iteration of `while True:`;
   the conflicts counter is tested only after a decision, but a chain of conflicts without decision lowers the level each time;
   (ii) one iteration adds at most one clause; (iii) propagate() needs fuel > n_vars and > 2 * number of clauses only *)
Theorem C02_deep_measure_decreases : forall fuel P L L', LI P L -> LT L -> main_step fuel P L = Cont L' ->
  (rank P L' < rank P L)%nat /\ (n_clauses (l_st L') <= S (n_clauses (l_st L)))%nat /\ LI P L' /\ LT L'.
Proof.
  intros fuel P L L' H1 H2 E. destruct (main_step_lex fuel P L L' H1 H2 E) as (H2' & Hlex & Hn).
  pose proof (main_step_LI fuel P L L' H1 E) as H1'. split; [apply rank_decreases; assumption | auto].
Qed.
Print Assumptions C02_deep_measure_decreases.

Theorem C02_deep_propagate_total : forall n fuel A s, BI s -> assum_ok (nv s) A -> nv s = S n ->
  (2 * n_clauses s < fuel)%nat -> (n < fuel)%nat -> exists res, propagate fuel A s = Some res.
Proof. exact Deep2Total.propagate_total. Qed.
Print Assumptions C02_deep_propagate_total.

(* non-vacuity: an unsatisfiable input (INFEASIBLE after learning), and a complete enumeration, on the model *)
Definition c2_unsat : cnf := [[1; 2]; [-1; 2]; [1; -2]; [-1; -2]]%Z.
Example C02_deep_nonvacuous_infeasible :
  valid_input c2_unsat [] = true
  /\ exists evs r, solve_sat 40 c2_unsat [] 100000%Z 10000%Z 1%Z 100%Z [1]%nat = Done evs r /\ d_status r = INFEASIBLE.
Proof. vm_compute. split; [reflexivity|]. eexists. eexists. split; reflexivity. Qed.

Definition c2_enum : cnf := [[1; 2]; [-1; -2]]%Z.
Example C02_deep_nonvacuous_enumeration :
  valid_input c2_enum [] = true
  /\ exists evs r, solve_sat 40 c2_enum [] 100000%Z 10000%Z 10%Z 100%Z [1; 1]%nat = Done evs r /\ d_status r = OPTIMAL
       /\ d_solutions r = Some [[1; -2]; [-1; 2]]%Z.
Proof. vm_compute. split; [reflexivity|]. eexists. eexists. repeat split. Qed.

(* the fuel bound of (4) on a small instance, and the run with exactly that fuel *)
Example C02_deep_nonvacuous_fuel :
  term_fuel c2_enum 5%Z 3%Z = 299%nat
  /\ exists evs r, solve_sat (term_fuel c2_enum 5%Z 3%Z) c2_enum [] 5%Z 10000%Z 3%Z 100%Z [1; 1]%nat = Done evs r /\ d_status r = OPTIMAL.
Proof. vm_compute. split; [reflexivity|]. eexists. eexists. split; reflexivity. Qed.
