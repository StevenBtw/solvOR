(* Property C09, network_simplex.  Props.C09_deep.C09_ns_optimal_full_statement is proved here: for every valid instance, status OPTIMAL of the network_simplex
   model means that the returned flow is feasible (capacities, every node's supply met exactly) and of minimum cost.
   Only statements, each proved in a few lines from the theorems of C09/DeepNS2*.v:
     DeepNS2Base   the state invariant NSInv, tree chains, "every arc in state 0 is a pred arc"
     DeepNS2Walk   _find_join, the ratio test and the flow push as folds over the two tree paths
     DeepNS2Tree   the re-hang traversal against an abstract target tree; the target tree of a basis change
                   (old tree - leaving + entering)
     DeepNS2Step   the flow update keeps bounds and conservation, the leaving arc ends at a bound; one pass of the loop
                   keeps NSInv
     DeepNS2Exit   the big-M start basis satisfies NSInv; exit condition + no artificial flow => minimum cost
     DeepNS2Infeas exit condition + artificial flow left => a cut that no feasible flow can cross (big-M is large enough).
   The pricing rule (what it returns, what its silence means) is in DeepNS. *)
From Coq Require Import List ZArith.
Import ListNotations.
From SV Require Import C09.Mcf C09.McfSpec C09.NetSimplex.
From SV Require C09.DeepNS C09.DeepNS2Base C09.DeepNS2Step C09.DeepNS2Exit C09.DeepNS2Infeas.
From SV Require Props.C09 Props.C09_deep.
Import Mcf McfSpec.
Open Scope Z_scope.

(* NSInv C b s (DeepNS2Base.v), for the arc tables C = mk_consts n arcs sup (original arcs 0..m-1, artificial arc m+i
   between node i and the root n) and a state s of the main loop:
   (a) 0 <= flow <= cap on every arc, artificial ones included; net outflow of every node w over all arcs = b w;
   (b) state in {1,0,-1}; state 1 => flow 0; state -1 => flow = cap; exactly n arcs are in state 0, and pred[v] is in
       state 0 for every node v < n (hence the arcs in state 0 are exactly the pred arcs: DeepNS2Base.inv_tree_arc);
   (c) for every v < n: parent[v] <= n, pred[v] joins v and parent[v], depth[v] = depth[parent[v]] + 1, depth[root] = 0,
       depth >= 0 (so v reaches the root in depth[v] parent steps);
   (d) pi[v] = pi[parent[v]] +- cost[pred[v]] (sign by the arc's direction), pi[root] = 0: reduced cost 0 on tree arcs;
   and tree_adj[w] = the arcs in state 0 touching w, without repetition. *)

(* (2) the initial big-M basis satisfies the invariant; the net outflow it fixes is the supply of every node *)
Theorem C09_ns_init_inv : forall n arcs sup,
  valid_arcs n arcs = true ->
  DeepNS2Base.NSInv (NetSimplex.mk_consts n arcs sup)
    (DeepNS2Base.netx (NetSimplex.mk_consts n arcs sup) (NetSimplex.flow (NetSimplex.init_st n arcs sup)))
    (NetSimplex.init_st n arcs sup).
Proof. exact DeepNS2Exit.ns_init_inv. Qed.
Print Assumptions C09_ns_init_inv.

Theorem C09_ns_init_supply : forall n arcs sup w, (w < n)%nat ->
  DeepNS2Base.netx (NetSimplex.mk_consts n arcs sup) (NetSimplex.flow (NetSimplex.init_st n arcs sup)) w
  = NetSimplex.nz sup w.
Proof. exact DeepNS2Exit.init_netx. Qed.
Print Assumptions C09_ns_init_supply.

(* (3) one pass of the while body (pricing, join, ratio test, push, state flip or basis change with the re-hang
   traversal) keeps the invariant, for arbitrary arc tables with end points <= n and capacities >= 0 *)
Theorem C09_ns_step_inv : forall C, DeepNS2Base.ConstOK C -> forall b s s',
  DeepNS2Base.NSInv C b s -> NetSimplex.step C s = NetSimplex.Next s' -> DeepNS2Base.NSInv C b s'.
Proof. exact DeepNS2Step.ns_step_inv. Qed.
Print Assumptions C09_ns_step_inv.

(* hence every state the loop stops in satisfies it (whatever the status) *)
Theorem C09_ns_loop_inv : forall n arcs sup, valid_arcs n arcs = true ->
  forall fuel mi stt s it,
  NetSimplex.loop (NetSimplex.mk_consts n arcs sup) fuel mi (NetSimplex.init_st n arcs sup) 0 = Some (stt, s, it) ->
  DeepNS2Base.NSInv (NetSimplex.mk_consts n arcs sup)
    (DeepNS2Base.netx (NetSimplex.mk_consts n arcs sup) (NetSimplex.flow (NetSimplex.init_st n arcs sup))) s.
Proof. exact DeepNS2Exit.loop_state_inv. Qed.
Print Assumptions C09_ns_loop_inv.

(* reduced cost 0 on every arc in state 0 of a state satisfying the invariant *)
Theorem C09_ns_tree_rc : forall C b s, DeepNS2Base.NSInv C b s ->
  forall a, (a < NetSimplex.c_m C + NetSimplex.c_n C)%nat -> NetSimplex.nz (NetSimplex.state s) a = 0 ->
  NetSimplex.redcost C s a = 0.
Proof. exact DeepNS2Base.inv_tree_rc. Qed.
Print Assumptions C09_ns_tree_rc.

(* (4) the statement of Props/C09_deep.v *)
Theorem C09_ns_optimal_full : Props.C09_deep.C09_ns_optimal_full_statement.
Proof. intros n arcs sup max_iter fl it Hv _. exact (DeepNS2Exit.ns_optimal_run n arcs sup Hv max_iter fl it). Qed.
Print Assumptions C09_ns_optimal_full.

(* the public Result: for every valid instance (end points < n, capacities >= 0; integer data = the type Z), status OPTIMAL
   => the returned dictionary is the pooled form of a per-arc flow that is feasible for the supplies (within capacities,
   net outflow of every node = its supply) and of minimum cost among all feasible flows, and the objective is its cost.
   (Balancedness is checked by the code itself: an unbalanced supply vector is answered INFEASIBLE.) *)
Theorem C09_ns_optimal : forall n arcs sup max_iter r,
  valid_arcs n arcs = true ->
  NetSimplex.network_simplex n arcs sup max_iter = Some r -> NetSimplex.r_status r = NetSimplex.OPTIMAL ->
  exists sol, NetSimplex.r_sol r = Some sol /\ optimal_answer n arcs (supply_b sup) sol (NetSimplex.r_obj r).
Proof. exact DeepNS2Exit.ns_optimal. Qed.
Print Assumptions C09_ns_optimal.

(* the boolean test of C09_deep.C09_ns_optimal_partial passes in every state the loop stops in
   without artificial flow *)
Theorem C09_ns_final_ok : forall n arcs sup, valid_arcs n arcs = true ->
  forall fuel mi stt s it,
  NetSimplex.loop (NetSimplex.mk_consts n arcs sup) fuel mi (NetSimplex.init_st n arcs sup) 0 = Some (stt, s, it) ->
  (forall x, In x (skipn (length arcs) (NetSimplex.flow s)) -> x <= 0) ->
  DeepNS.ns_final_ok_b n arcs sup s = true.
Proof.
  intros n arcs sup Hv fuel mi stt s it H Hno.
  exact (DeepNS2Exit.final_ok_b n arcs sup Hv s (DeepNS2Exit.loop_state_inv n arcs sup Hv _ _ _ _ _ H) Hno).
Qed.
Print Assumptions C09_ns_final_ok.

(* (4b) INFEASIBLE is sound.  If the pricing rule finds no entering arc while an artificial arc still carries flow, one
   of the two node sets cutP = {w < n : pi[w] > 0}, cutN = {w < n : pi[w] < 0} read off the FINAL potentials passes
   McfSpec.cut_check (supply of cutP > capacity leaving it, or demand of cutN > capacity entering it).
   What is needed of big-M: M >= n * sum|cost| + 1 - every potential is +-M up to (depth-1) * sum|cost| with depth <= n,
   so it stays >= sum|cost| + 1 in absolute value and the sign classes are separated by more than any arc cost; the
   code computes exactly M = n * sum|cost| + 1. *)
Theorem C09_ns_infeasible_cut : forall n arcs sup, valid_arcs n arcs = true ->
  forall s,
  DeepNS2Base.NSInv (NetSimplex.mk_consts n arcs sup)
    (DeepNS2Base.netx (NetSimplex.mk_consts n arcs sup) (NetSimplex.flow (NetSimplex.init_st n arcs sup))) s ->
  NetSimplex.pricing (NetSimplex.mk_consts n arcs sup) s = None ->
  (exists i, (i < n)%nat /\ 0 < NetSimplex.nz (NetSimplex.flow s) (length arcs + i)) ->
  cut_check n arcs (supply_b sup) (DeepNS2Infeas.cutP n s) = true \/
  cut_check n arcs (supply_b sup) (DeepNS2Infeas.cutN n s) = true.
Proof. exact DeepNS2Infeas.final_cut. Qed.
Print Assumptions C09_ns_infeasible_cut.

(* the public Result: for every valid instance with one supply per node, status INFEASIBLE (unbalanced supplies, no arcs
   but a non-zero supply, or artificial flow left at optimality of the big-M problem) => no feasible flow exists *)
Theorem C09_ns_infeasible_sound : forall n arcs sup max_iter r,
  valid_arcs n arcs = true -> length sup = n ->
  NetSimplex.network_simplex n arcs sup max_iter = Some r -> NetSimplex.r_status r = NetSimplex.INFEASIBLE ->
  infeasible n arcs (supply_b sup).
Proof. exact DeepNS2Infeas.ns_infeasible_sound. Qed.
Print Assumptions C09_ns_infeasible_sound.

(* the network of Props/C09.v (an arc of negative cost, parallel arcs): 6 passes, 3 basis changes, OPTIMAL *)
Example C09_deep2_nonvacuous_ex1 :
  valid_arcs 4 Props.C09.ex_arcs = true /\
  exists r, NetSimplex.network_simplex 4 Props.C09.ex_arcs [2; -2; 0; 0] 1000000 = Some r /\
            NetSimplex.r_status r = NetSimplex.OPTIMAL /\ NetSimplex.r_obj r = 8 /\ NetSimplex.r_iters r = 6.
Proof. split; [reflexivity|]. eexists. vm_compute. repeat split. Qed.

(* 3 units must go from {0,1} to {2,3} but only 2 can cross: 5 passes, then artificial flow is left; the cut of the nodes
   of positive final potential ([33; 32; -32; -33]) is accepted by cut_check *)
Definition inf_arcs : list arc := [(0%nat, 1%nat, 2, 1); (1%nat, 2%nat, 1, 1); (0%nat, 2%nat, 1, 5); (2%nat, 3%nat, 3, 1)].

Example C09_deep2_nonvacuous_ex2 :
  valid_arcs 4 inf_arcs = true /\
  (exists r, NetSimplex.network_simplex 4 inf_arcs [3; 0; 0; -3] 1000000 = Some r /\
             NetSimplex.r_status r = NetSimplex.INFEASIBLE /\ NetSimplex.r_iters r = 5) /\
  match NetSimplex.loop (NetSimplex.mk_consts 4 inf_arcs [3; 0; 0; -3]) 5000 1000000
                        (NetSimplex.init_st 4 inf_arcs [3; 0; 0; -3]) 0 with
  | Some (NetSimplex.OPTIMAL, s, _) =>
      DeepNS2Infeas.cutP 4 s = [true; true; false; false] /\
      cut_check 4 inf_arcs (supply_b [3; 0; 0; -3]) (DeepNS2Infeas.cutP 4 s) = true
  | _ => False
  end.
Proof. split; [reflexivity|]. split; [eexists; vm_compute; repeat split|vm_compute; split; reflexivity]. Qed.
