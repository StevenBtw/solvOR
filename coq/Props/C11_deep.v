(* C11 part B, further theorems: totality of the grid model, completeness of the search, agreement of the best-first
   family with floyd_warshall / bellman_ford, bounded suboptimality of weighted A*.
   Models: C11/BestFirst.v, C11/BestGrid.v; part A models C11/BellmanFord.v, C11/FloydWarshall.v.
   Proofs: C11/DeepBest*.v. *)
From Coq Require Import List ZArith Bool.
From SV Require Import C11.Paths C11.BellmanFord C11.FloydWarshall C11.BestFirst C11.BestGrid C11.BestSpec C11.BestGraph
  C11.BestOrder C11.BestHyps C11.BestProofs2 C11.DeepBestUniv C11.DeepBestGrid C11.DeepBestComplete C11.DeepBestAgree
  C11.DeepBestWeighted C11.DeepBestWeightedInst.
Import ListNotations.
Open Scope Z_scope.

(* (1) Totality of the grid model.  astar_grid_zr (Z[sqrt 2] costs, built-in fuel grid_fuel g = 2 + 8*(rows*cols + 1))
   returns a result for EVERY input whose heuristic is representable in Z[sqrt 2] (heur_repr: everything but
   "euclidean", for which the exact model is None by definition and the float twin is used) - any grid (also
   ragged or empty), any start / goal (also outside the grid), any blocked set, costs, weight, max_iter.
   So the theorems of Props/C11_bestfirst.v about astar_grid_zr are never vacuous. *)
Theorem C11_grid_total : forall g start goal directions h blocked cost_map weight max_iter,
  heur_repr directions h = true ->
  exists r, astar_grid_zr g start goal directions h blocked cost_map weight max_iter = Some r.
Proof. exact astar_grid_total. Qed.
Print Assumptions C11_grid_total.

(* the explicit bound: astar_grid_zr is astar_grid_zr_fuel at grid_fuel g, and ANY fuel > 1 + 8 * U works, where
   U = rows*cols cells (+1 if the start lies outside the grid): every cell is closed at most once, a closed cell pushes
   at most |dirs| <= 8 entries, every pop closes a cell or discards a stale entry, one more round sees the empty heap *)
Theorem C11_grid_total_bound :
  (forall g start goal directions h blocked cost_map weight max_iter,
     astar_grid_zr g start goal directions h blocked cost_map weight max_iter
     = astar_grid_zr_fuel (grid_fuel g) g start goal directions h blocked cost_map weight max_iter)
  /\ (forall fuel g start goal directions h blocked cost_map weight max_iter,
     heur_repr directions h = true ->
     (1 + 8 * (if in_grid g start then n_cells g else S (n_cells g)) < fuel)%nat ->
     exists r, astar_grid_zr_fuel fuel g start goal directions h blocked cost_map weight max_iter = Some r)
  /\ (forall fuel g start goal directions h blocked cost_map weight max_iter r,
     astar_grid_zr_fuel fuel g start goal directions h blocked cost_map weight max_iter = Some r ->
     r_iters r <= Z.of_nat (if in_grid g start then n_cells g else S (n_cells g)) /\
     (r_status r = MAX_ITER -> max_iter <= Z.of_nat (if in_grid g start then n_cells g else S (n_cells g)))).
Proof. exact (conj astar_grid_zr_fuel_eq (conj astar_grid_total_fuel astar_grid_iters)). Qed.
Print Assumptions C11_grid_total_bound.

(* for well-formed input (rectangular grid, start and goal inside; grid_wf, boolean) *)
Theorem C11_grid_total_wf : forall g start goal directions h blocked cost_map weight max_iter,
  grid_wf g start goal = true -> heur_repr directions h = true ->
  (forall fuel, (1 + 8 * n_cells g < fuel)%nat ->
     exists r, astar_grid_zr_fuel fuel g start goal directions h blocked cost_map weight max_iter = Some r)
  /\ exists r, astar_grid_zr g start goal directions h blocked cost_map weight max_iter = Some r.
Proof. exact astar_grid_total_wf. Qed.
Print Assumptions C11_grid_total_wf.

(* the generic fact behind (1) and (2): the best-first loop on a closed finite universe U of nodes *)
Theorem C11_best_first_total_universe :
  forall (N C K : Type) (neqb : N -> N -> bool), (forall a b, neqb a b = true <-> a = b) ->
  forall (czero : C) cadd cltb (kltb : K -> K -> bool) mkkey limit_of found nbrs is_goal max_iter max_cost (start : N)
         (U : list N),
    NoDup U -> In start U -> (forall u v w, In (v, w) (nbrs u) -> In v U) ->
  forall fuel, (1 + list_sum (map (fun u => length (nbrs u)) U) < fuel)%nat ->
    exists r, best_first neqb czero cadd cltb kltb mkkey limit_of found nbrs is_goal max_iter max_cost fuel start = Some r.
Proof. exact (@best_first_total_U). Qed.
Print Assumptions C11_best_first_total_universe.

(* (2) Completeness of the search (dijkstra / astar with ANY heuristic table, weight, edge weights).
   Without max_cost, for a run that does not stop with MAX_ITER:
       status INFEASIBLE <-> no goal node is reachable,     some goal node reachable <-> a path is returned
   (a walk from start to a goal node whose weight is the objective, status OPTIMAL / FEASIBLE).
   MAX_ITER is excluded by the boolean condition iter_limit_free: max_iter > number of distinct nodes
   (start and edge targets); each node is closed at most once, so iterations <= that number. *)
Theorem C11_best_complete :
  (forall fuel adj start goals max_iter r,
     dijkstra_gen fuel adj start goals max_iter None = Some r -> r_status r <> MAX_ITER ->
     (r_status r = INFEASIBLE <-> no_goal_reachable adj start goals)
     /\ (some_goal_reachable adj start goals <-> graph_found adj start goals OPTIMAL r))
  /\ (forall fuel adj start goals htab weight max_iter r,
     astar_gen fuel adj start goals htab weight max_iter None = Some r -> r_status r <> MAX_ITER ->
     (r_status r = INFEASIBLE <-> no_goal_reachable adj start goals)
     /\ (some_goal_reachable adj start goals <-> graph_found adj start goals (if weight =? 1 then OPTIMAL else FEASIBLE) r)).
Proof. exact (conj dijkstra_complete_cond astar_complete_cond). Qed.
Print Assumptions C11_best_complete.

Theorem C11_best_no_max_iter :
  (forall fuel adj start goals max_iter max_cost r,
     dijkstra_gen fuel adj start goals max_iter max_cost = Some r ->
     r_iters r <= Z.of_nat (length (graph_nodes adj start)) /\
     (r_status r = MAX_ITER -> max_iter <= Z.of_nat (length (graph_nodes adj start))))
  /\ (forall fuel adj start goals htab weight max_iter max_cost r,
     astar_gen fuel adj start goals htab weight max_iter max_cost = Some r ->
     r_iters r <= Z.of_nat (length (graph_nodes adj start)) /\
     (r_status r = MAX_ITER -> max_iter <= Z.of_nat (length (graph_nodes adj start)))).
Proof. exact (conj dijkstra_iters astar_iters). Qed.
Print Assumptions C11_best_no_max_iter.

(* with the built-in fuel and max_iter above the node count the models DECIDE reachability of the goal set *)
Theorem C11_best_decides :
  (forall adj start goals max_iter, iter_limit_free adj start max_iter = true ->
     exists r, dijkstra adj start goals max_iter None = Some r /\ r_status r <> MAX_ITER
       /\ (r_status r = INFEASIBLE <-> no_goal_reachable adj start goals)
       /\ (some_goal_reachable adj start goals <-> graph_found adj start goals OPTIMAL r))
  /\ (forall adj start goals htab weight max_iter, iter_limit_free adj start max_iter = true ->
     exists r, astar adj start goals htab weight max_iter None = Some r /\ r_status r <> MAX_ITER
       /\ (r_status r = INFEASIBLE <-> no_goal_reachable adj start goals)
       /\ (some_goal_reachable adj start goals <-> graph_found adj start goals (if weight =? 1 then OPTIMAL else FEASIBLE) r)).
Proof. exact (conj dijkstra_decides astar_decides). Qed.
Print Assumptions C11_best_decides.

(* the grid: max_iter > rows*cols + 1 excludes MAX_ITER; then INFEASIBLE <-> goal unreachable in the exact grid graph,
   and a reachable goal yields a path *)
Theorem C11_grid_complete : forall g start goal directions h blocked cost_map weight max_iter r,
  astar_grid_zr g start goal directions h blocked cost_map weight max_iter = Some r ->
  (grid_iter_limit_free g max_iter = true -> r_status r <> MAX_ITER)
  /\ (r_status r <> MAX_ITER ->
      (r_status r = INFEASIBLE <-> unreachable_goal zr_add (zr_grid_nbrs g directions blocked cost_map) (cell_eqb goal) start)
      /\ ((exists a q t d, lwalk zr_add (zr_grid_nbrs g directions blocked cost_map) start a q t d /\ cell_eqb goal t = true)
          -> exists p d, r_path r = Some p /\ r_obj r = Some d
                         /\ path_spec zr_add (zr_grid_nbrs g directions blocked cost_map) zr_zero start (cell_eqb goal) p d)).
Proof. exact astar_grid_complete. Qed.
Print Assumptions C11_grid_complete.

(* (3) All solvers agree.  Non-negative weights (nonneg_adj), single goal node t, no max_cost, run not stopped by
   MAX_ITER, n a valid size argument for the part A solvers (BF.valid_input: 0 < n, start, t and all edge ends < n):
   dijkstra's objective (None = inf)  =  floyd_warshall's matrix entry [s][t]  =  bellman_ford's distance vector
   entry [t]  =  bellman_ford's single-target answer (Path _ d / Infeasible) - and the part A solvers do return a
   matrix / vector / answer on such inputs.  It is the shortest-walk distance (is_dist) or unreachability. *)
Theorem C11_dijkstra_all_pairs_agree : forall fuel adj s t max_iter r n,
  nonneg_adj adj = true -> BF.valid_input s (adj_edges adj) n (Some t) = true ->
  dijkstra_gen fuel adj s [t] max_iter None = Some r -> r_status r <> MAX_ITER ->
  match r_obj r with Some d => is_dist (adj_edges adj) s t d | None => ~ reachable (adj_edges adj) s t end
  /\ (exists m, FW.floyd_warshall n (adj_edges adj) true = FW.Dist m /\ FW.get m s t = r_obj r)
  /\ (exists dv, BF.bellman_ford s (adj_edges adj) n None = BF.Dists dv /\ nth t dv None = r_obj r)
  /\ match r_obj r with
     | Some d => exists p, BF.bellman_ford s (adj_edges adj) n (Some t) = BF.Path p d
     | None => BF.bellman_ford s (adj_edges adj) n (Some t) = BF.Infeasible
     end.
Proof.
  intros fuel adj s t max_iter r n Hn Hv H Hm. pose proof (dijkstra_dist_spec _ _ _ _ _ _ Hn H Hm) as Hd.
  split; [exact Hd|]. now apply agree_of_dist_spec.
Qed.
Print Assumptions C11_dijkstra_all_pairs_agree.

Theorem C11_astar_all_pairs_agree :
  (forall fuel adj s t htab max_iter r n,
     nonneg_adj adj = true -> consistent_adj adj [t] htab = true ->
     BF.valid_input s (adj_edges adj) n (Some t) = true ->
     astar_gen fuel adj s [t] htab 1 max_iter None = Some r -> r_status r <> MAX_ITER ->
     dist_spec (adj_edges adj) s t (r_obj r) /\ agree_with_part_a adj s t n (r_obj r))
  /\ (forall fuel fuel' adj s t htab max_iter max_iter' r r',
     nonneg_adj adj = true -> consistent_adj adj [t] htab = true ->
     dijkstra_gen fuel adj s [t] max_iter None = Some r -> r_status r <> MAX_ITER ->
     astar_gen fuel' adj s [t] htab 1 max_iter' None = Some r' -> r_status r' <> MAX_ITER ->
     r_obj r = r_obj r').
Proof.
  split.
  - intros fuel adj s t htab max_iter r n Hn Hc Hv H Hm. pose proof (astar_dist_spec _ _ _ _ _ _ _ Hn Hc H Hm) as Hd.
    split; [exact Hd|]. now apply agree_of_dist_spec.
  - intros fuel fuel' adj s t htab max_iter max_iter' r r' Hn Hc H Hm H' Hm'.
    eapply dist_spec_unique; [eapply dijkstra_dist_spec|eapply astar_dist_spec]; eassumption.
Qed.
Print Assumptions C11_astar_all_pairs_agree.

Theorem C11_dijkstra_all_pairs_agree_total : forall adj s t max_iter n,
  nonneg_adj adj = true -> BF.valid_input s (adj_edges adj) n (Some t) = true ->
  iter_limit_free adj s max_iter = true ->
  exists r, dijkstra adj s [t] max_iter None = Some r /\ agree_with_part_a adj s t n (r_obj r).
Proof.
  intros adj s t max_iter n Hn Hv Hl. destruct (dijkstra_decides adj s [t] max_iter Hl) as [r [Hr [Hm _]]].
  exists r. split; [exact Hr|]. now apply (C11_dijkstra_all_pairs_agree _ _ _ _ _ _ _ Hn Hv Hr Hm).
Qed.
Print Assumptions C11_dijkstra_all_pairs_agree_total.

(* (4) Bounded suboptimality of weighted A* (the closed-set, never-reopening loop of the code).  weight >= 1,
   non-negative weights, heuristic table consistent and 0 on the goals, no max_cost:
   objective <= weight * (weight of ANY walk from start to ANY goal node), so <= weight * distance. *)
Theorem C11_astar_weighted_bound : forall fuel adj start goals htab weight max_iter r,
  (1 <=? weight) = true -> nonneg_adj adj = true -> consistent_adj adj goals htab = true ->
  astar_gen fuel adj start goals htab weight max_iter None = Some r ->
  forall d0, r_obj r = Some d0 ->
    (forall t p d, goal_in goals t = true -> walk (adj_edges adj) start t p d -> d0 <= weight * d)
    /\ (forall t dmin, goal_in goals t = true -> is_dist (adj_edges adj) start t dmin -> d0 <= weight * dmin).
Proof. exact astar_weighted_bound. Qed.
Print Assumptions C11_astar_weighted_bound.

Theorem C11_astar_grid_weighted_bound : forall g start goal directions h blocked cost_map weight max_iter r,
  (1 <=? weight) = true -> costs_ge1 cost_map = true -> heur_ok directions (resolve_h directions h) = true ->
  astar_grid_zr g start goal directions h blocked cost_map weight max_iter = Some r ->
  forall d0, r_obj r = Some d0 ->
  forall t q d, cell_eqb goal t = true ->
    lwalk zr_add (zr_grid_nbrs g directions blocked cost_map) start zr_zero q t d ->
    cle zr_ltb d0 (zr_scale weight d).
Proof. exact astar_grid_weighted_bound. Qed.
Print Assumptions C11_astar_grid_weighted_bound.

Theorem C11_astar_weighted_generic :
  forall (N C : Type) (neqb : N -> N -> bool), (forall a b, neqb a b = true <-> a = b) ->
  forall czero cadd cltb, ordered_costs czero cadd cltb ->
  forall nbrs is_goal max_iter (start : N),
    (forall u v w, In (v, w) (nbrs u) -> cle cltb czero w) ->
  forall (h : N -> C) (sc : C -> C),
    (forall u v w, In (v, w) (nbrs u) -> cle cltb (h u) (cadd w (h v))) ->
    (forall t, is_goal t = true -> h t = czero) ->
    (forall a b, sc (cadd a b) = cadd (sc a) (sc b)) ->
    (forall a b, cle cltb a b -> cle cltb (sc a) (sc b)) ->
    (forall a, cle cltb czero a -> cle cltb a (sc a)) ->
    sc czero = czero ->
  forall found fuel r,
    astar_c neqb czero cadd cltb (fun v => sc (h v)) found nbrs is_goal max_iter None fuel start = Some r ->
    forall d0, r_obj r = Some d0 -> forall t q d, is_goal t = true -> lwalk cadd nbrs start czero q t d -> cle cltb d0 (sc d).
Proof. exact (@astar_c_weighted). Qed.
Print Assumptions C11_astar_weighted_generic.

Definition diamond : adjacency := [[(1%nat, 4); (2%nat, 1)]; [(3%nat, 1)]; [(1%nat, 2); (3%nat, 5)]; []].

(* (1) hypotheses hold on real inputs; a walled-in goal: the model terminates with INFEASIBLE *)
Example C11_deep_nonvacuous_grid_inputs :
  heur_repr 8 Hauto = true /\ heur_repr 4 Hchebyshev = true /\ heur_repr 4 Heuclidean = false
  /\ grid_wf [[0; 0; 0]; [0; 1; 0]; [0; 0; 0]] (0, 0) (2, 2) = true
  /\ grid_wf [[0; 0; 0]; [0; 1]] (0, 0) (1, 1) = false
  /\ grid_fuel [[0; 0; 0]; [0; 1; 0]; [0; 0; 0]] = 82%nat.
Proof. vm_compute. repeat split. Qed.

Example C11_deep_nonvacuous_grid_infeasible :
  obs_of (astar_grid_zr [[0; 1; 0]; [1; 1; 0]; [0; 0; 0]] (0, 0) (2, 2) 8 Hauto [1] [] 1 1000000)
  = Some (INFEASIBLE, None, None)
  /\ obs_of (astar_grid_zr [[0; 0]; [0; 0]] (5, 5) (1, 1) 4 Hauto [1] [] 1 1000000) = Some (INFEASIBLE, None, None)
  /\ obs_of (astar_grid_zr [[0; 0]; [0; 0]] (-1, 0) (1, 1) 4 Hauto [1] [] 1 1000000)
     = Some (OPTIMAL, Some [(-1, 0); (0, 0); (0, 1); (1, 1)], Some (3, 0)).
Proof. vm_compute. repeat split. Qed.

(* (2) the no-limit condition holds for the default max_iter; MAX_ITER must be excluded: with max_iter = 2 the reachable
   goal is not found *)
Example C11_deep_nonvacuous_complete :
  iter_limit_free diamond 0 1000000 = true /\ iter_limit_free diamond 0 4 = false
  /\ length (graph_nodes diamond 0) = 4%nat
  /\ obs_of (dijkstra diamond 0 [3%nat] 2 None) = Some (MAX_ITER, None, None)
  /\ obs_of (dijkstra diamond 0 [3%nat] 5 None) = Some (OPTIMAL, Some [0; 2; 1; 3]%nat, Some 4)
  /\ obs_of (dijkstra diamond 3 [0%nat] 5 None) = Some (INFEASIBLE, None, None).
Proof. vm_compute. repeat split. Qed.

(* (3) the three solvers on the same graph *)
Example C11_deep_nonvacuous_agree :
  nonneg_adj diamond = true /\ BF.valid_input 0 (adj_edges diamond) 4 (Some 3%nat) = true
  /\ obs_of (dijkstra diamond 0 [3%nat] 1000000 None) = Some (OPTIMAL, Some [0; 2; 1; 3]%nat, Some 4)
  /\ match FW.floyd_warshall 4 (adj_edges diamond) true with FW.Dist m => FW.get m 0 3 | _ => None end = Some 4
  /\ BF.bellman_ford 0 (adj_edges diamond) 4 (Some 3%nat) = BF.Path [0; 2; 1; 3]%nat 4
  /\ BF.bellman_ford 0 (adj_edges diamond) 4 None = BF.Dists [Some 0; Some 3; Some 1; Some 4]
  /\ BF.bellman_ford 3 (adj_edges diamond) 4 (Some 0%nat) = BF.Infeasible
  /\ obs_of (dijkstra diamond 3 [0%nat] 1000000 None) = Some (INFEASIBLE, None, None).
Proof. vm_compute. repeat split. Qed.

(* (4) weight 3 with a consistent heuristic returns 4 although the distance is 3: suboptimal, within the factor *)
Definition wgraph4 : adjacency := [[(1%nat, 1); (2%nat, 2)]; [(3%nat, 3)]; [(3%nat, 1)]; []].
Example C11_deep_nonvacuous_weighted :
  nonneg_adj wgraph4 = true /\ consistent_adj wgraph4 [3%nat] [1; 0; 1; 0] = true
  /\ obs_of (astar wgraph4 0 [3%nat] [1; 0; 1; 0] 3 1000000 None) = Some (FEASIBLE, Some [0; 1; 3]%nat, Some 4)
  /\ obs_of (astar wgraph4 0 [3%nat] [1; 0; 1; 0] 1 1000000 None) = Some (OPTIMAL, Some [0; 2; 3]%nat, Some 3).
Proof. vm_compute. repeat split. Qed.
