(* C17 deep - soundness of the master simplex of column generation (eps = 0) and what it buys: status OPTIMAL of the
   solve_cg model is the true minimum for EVERY input, with no per-run hypothesis left.
   The proofs are under coq/C17/Deep*.v (DeepSum: finite sums and entries of the row operations;
   DeepInv: tableau invariants R1 rows = tracked linear combinations of the original rows, R2 basis columns are unit
   vectors, O1 objective row = c0 - y.(original rows), O2 objective row = c - c_B.(current rows), P right-hand sides >= 0,
   all preserved by `pivot` (P on a row of minimum ratio); DeepPhase: the ratio test picks a minimum ratio, simplex_phase
   keeps the invariants, its silent "no leaving row" exit is impossible; DeepInit: initial tableau, phase-1 and phase-2
   objective rows, phase 1 ends with the basic artificials at 0, drive_out_artificials; DeepMaster: the final tableau of
   master_lp, its duals, x sums to the LP value; DeepBp: the root answers of solve_bp). *)
From Coq Require Import List QArith.
From SV Require Import C17.Cg C17.CgSpec C17.Bp C17.OptimalProofs C17.DeepMaster C17.DeepBp.
Import ListNotations.

(* (1) Strong duality at the final tableau of the master LP, as the model computes it (`_solve_master_lp` of cg.py,
   drive = false; the root LP of bp.py without column bounds, drive = true): whenever master_lp returns (no simplex_phase
   call ran out of its 100000 iterations), the dual vector y it reads off the objective row satisfies y >= 0, y.a_p <= 1
   for every column p of the pool, and y.d = the reported LP objective.  No hypothesis on columns or demands. *)
Theorem C17_master_lp_duals_ok : forall drive (cols : list pattern) demands x y lp,
  master_lp drive 0 cols demands = Some (x, y, lp) ->
  Forall (fun v => (0 <= v)%Q) y /\
  (forall p, In p cols -> (dotq y p <= 1)%Q) /\
  (forall o, lp = Some o -> (o == dotq y demands)%Q).
Proof. exact master_lp_duals_ok. Qed.
Print Assumptions C17_master_lp_duals_ok.

(* the hypothesis `simplex_residue` of C17_optimal_partial_eps0 holds of every run *)
Theorem C17_simplex_residue_holds : forall sizes width demands max_iter r,
  solve_cg 0 sizes width demands max_iter = Done r -> r_status r = OPTIMAL ->
  simplex_residue demands r = true.
Proof. exact simplex_residue_holds. Qed.
Print Assumptions C17_simplex_residue_holds.

(* (2) OPTIMAL is minimal: eps = 0, every input (sizes that are not positive integers <= width are answered Invalid by the
   model, so no validity hypothesis is needed). *)
Theorem C17_optimal_sound : forall sizes width demands max_iter r,
  solve_cg 0 sizes width demands max_iter = Done r -> r_status r = OPTIMAL ->
  is_min (fits sizes width) demands (r_obj r).
Proof.
  intros sizes width demands max_iter r H Hs.
  exact (optimal_partial_eps0 _ _ _ _ _ H Hs (simplex_residue_holds _ _ _ _ _ H Hs)).
Qed.
Print Assumptions C17_optimal_sound.

(* in the form of OptimalProofs.optimal_sound_full_statement *)
Theorem C17_optimal_sound_full : optimal_sound_full_statement.
Proof. exact C17_optimal_sound. Qed.
Print Assumptions C17_optimal_sound_full.

(* (3) The ROOT answers of the solve_bp model (Bp.v; eps = 0, i.e. the eps -> 0 limit of the model, see the header of Bp.v).
   Primal side of the master simplex: for non-negative demands the primal vector x read off the final tableau is
   non-negative and sums to the reported LP objective (the final tableau is primal feasible). *)
Theorem C17_master_lp_primal_ok : forall drive (cols : list pattern) demands x y lp,
  master_lp drive 0 cols demands = Some (x, y, Some lp) ->
  forallb (Z.leb 0) demands = true ->
  length x = length cols /\ (forall p, (0 <= getq x p)%Q) /\ (DeepSum.sumN (getq x) 0 (length cols) == lp)%Q.
Proof. exact master_lp_primal_ok. Qed.
Print Assumptions C17_master_lp_primal_ok.

(* An answer with status OPTIMAL given before the tree search (trivial instance, integral root LP, or rounded incumbent
   proven against ceil(root LP)) is the true minimum, provided the relative gap tolerance cannot hide a whole roll:
   gap_ok gap obj := gap * max(|obj|, 1e-10) <= 1 (default gap 1e-6: objectives up to 10^6 rolls). *)
Theorem C17_bp_root_optimal_sound : forall gap sizes width demands max_iter sol obj it,
  b_out (solve_bp_root 0 gap sizes width demands max_iter) = BpDone OPTIMAL (Some sol) (Some obj) it ->
  gap_ok gap obj = true ->
  is_min (fits sizes width) demands obj.
Proof. exact bp_root_optimal_sound. Qed.
Print Assumptions C17_bp_root_optimal_sound.

Example C17_deep_nonvacuous_optimal :
  exists r, solve_cg 0 [3;5;4;7]%Z 12%Z [6;5;4;3]%Z 1000 = Done r /\ r_status r = OPTIMAL /\ r_obj r = 7%Z /\
            r_duals r = [1 # 4; 5 # 12; 1 # 3; 7 # 12]%Q /\ r_lp r = Some (20 # 3)%Q.
Proof. eexists. split; [vm_compute; reflexivity|]. repeat split. Qed.

Example C17_deep_nonvacuous_master :
  master_lp false 0 [[4;0;0;0];[0;2;0;0];[0;0;3;0];[0;0;0;1]]%Z [6;5;4;3]%Z
  = Some ([3 # 2; 5 # 2; 4 # 3; 3]%Q, [1 # 4; 1 # 2; 1 # 3; 1]%Q, Some (25 # 3)%Q).
Proof. vm_compute. reflexivity. Qed.

(* The statement mentions the run twice: it is replaced by its value first, so that it is evaluated once. *)
Example C17_deep_nonvacuous_bp_rounded :
  exists sol it, b_out (solve_bp_root 0 gap_default [3;5;4;7]%Z 12%Z [6;5;4;3]%Z 1000) = BpDone OPTIMAL (Some sol) (Some 7%Z) it /\
                 b_lp (solve_bp_root 0 gap_default [3;5;4;7]%Z 12%Z [6;5;4;3]%Z 1000) = Some (20 # 3)%Q /\
                 gap_ok gap_default 7 = true.
Proof.
  pattern (solve_bp_root 0 gap_default [3;5;4;7]%Z 12%Z [6;5;4;3]%Z 1000).
  eapply eq_ind_r; [|vm_compute; reflexivity].
  do 2 eexists. repeat split.
Qed.

Example C17_deep_nonvacuous_bp_integral :
  exists sol it, b_out (solve_bp_root 0 gap_default [3;4]%Z 12%Z [8;6]%Z 1000) = BpDone OPTIMAL (Some sol) (Some 4%Z) it /\
                 b_x (solve_bp_root 0 gap_default [3;4]%Z 12%Z [8;6]%Z 1000) = [2; 2]%Q /\
                 gap_ok gap_default 4 = true.
Proof.
  pattern (solve_bp_root 0 gap_default [3;4]%Z 12%Z [8;6]%Z 1000).
  eapply eq_ind_r; [|vm_compute; reflexivity].
  do 2 eexists. repeat split.
Qed.
