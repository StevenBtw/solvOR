(* C17 deep - the WHOLE of solve_bp is inside the model (coq/C17/DeepBpTree.v: root node, best-first tree search,
   node records with column bounds, per-node column generation, bounded master LP with column-bound rows, max_nodes, the
   status rule against ceil(root LP)); harness/props/C17_deep.py ties its full answer (status, ordered plan, objective, nodes
   explored, cg iterations) to /repo on every run.  What is proved of that model, for EVERY input:
   (1) every plan returned with OPTIMAL / FEASIBLE passes the gate `plan_ok` (patterns fit, demands covered, objective = rolls)
       - invariant: the incumbent is only ever replaced by a plan that passed `_covers` / is the rounded root plan;
   (2) status OPTIMAL (wherever it is claimed: at the root or inside the tree) is the true minimum, eps = 0;
   (3) the objective of a returned plan is never below the true minimum;
   plus: without bounds the bounded master LP is the root master LP; the loop fuel of the model is never what stops it.
   The proofs are in coq/C17/BpGateProofs.v and DeepBpTreeProofs.v. *)
From Coq Require Import List QArith Lia.
From SV Require Import C17.Cg C17.CgSpec C17.Bp C17.GateProofs C17.BpGateProofs C17.DeepBp C17.DeepBpTree C17.DeepBpTreeProofs.
Import ListNotations.

(* (1) the gate, any eps in [0, 1) (the code's default is 1e-9) *)
Theorem C17_bp_tree_gate : forall eps gap sizes width demands max_iter max_nodes o,
  (0 <= eps)%Q -> (eps < 1)%Q ->
  solve_bp_tree eps gap sizes width demands max_iter max_nodes = TAns o ->
  ba_status (to_ans o) <> INFEASIBLE ->
  exists sol obj, ba_sol (to_ans o) = Some sol /\ ba_obj (to_ans o) = Some obj /\ plan_ok sizes width demands sol obj = true.
Proof. exact bp_tree_gate. Qed.
Print Assumptions C17_bp_tree_gate.

(* ... and what the gate means (GateProofs.plan_ok_sound): a covering plan of fitting patterns whose roll count is the objective *)
Theorem C17_bp_tree_plan_covers : forall eps gap sizes width demands max_iter max_nodes o,
  (0 <= eps)%Q -> (eps < 1)%Q ->
  solve_bp_tree eps gap sizes width demands max_iter max_nodes = TAns o ->
  ba_status (to_ans o) <> INFEASIBLE ->
  exists sol obj, ba_sol (to_ans o) = Some sol /\ ba_obj (to_ans o) = Some obj /\
                  covering (fits sizes width) demands sol /\ obj = rolls sol.
Proof.
  intros eps gap sizes width demands max_iter max_nodes o He0 He1 H Hs.
  destruct (bp_tree_gate _ _ _ _ _ _ _ _ He0 He1 H Hs) as (sol & obj & E1 & E2 & Hok).
  exists sol, obj. split; [exact E1|]. split; [exact E2|]. exact (plan_ok_sound _ _ _ _ _ Hok).
Qed.
Print Assumptions C17_bp_tree_plan_covers.

(* INFEASIBLE never comes with a plan *)
Theorem C17_bp_tree_infeasible_no_plan : forall eps gap sizes width demands max_iter max_nodes o,
  (0 <= eps)%Q -> (eps < 1)%Q ->
  solve_bp_tree eps gap sizes width demands max_iter max_nodes = TAns o ->
  ba_status (to_ans o) = INFEASIBLE -> ba_sol (to_ans o) = None /\ ba_obj (to_ans o) = None.
Proof.
  intros eps gap sizes width demands max_iter max_nodes o He0 He1 H Hs.
  pose proof (bp_tree_ans_gate _ _ _ _ _ _ _ _ He0 He1 H) as Hg. unfold ans_gate in Hg. rewrite Hs in Hg. exact Hg.
Qed.
Print Assumptions C17_bp_tree_infeasible_no_plan.

(* (2) OPTIMAL is minimal: eps = 0 (the eps -> 0 limit of the model, see the header of Bp.v), every input, every max_iter
   and max_nodes; gap_ok gap obj := gap * max(|obj|, 1e-10) <= 1: the relative gap tolerance cannot hide a whole roll
   (default gap 1e-6: objectives up to 10^6 rolls). *)
Theorem C17_bp_tree_optimal_sound : forall gap sizes width demands max_iter max_nodes o obj,
  solve_bp_tree 0 gap sizes width demands max_iter max_nodes = TAns o ->
  ba_status (to_ans o) = OPTIMAL -> ba_obj (to_ans o) = Some obj ->
  gap_ok gap obj = true ->
  is_min (fits sizes width) demands obj.
Proof. exact bp_tree_optimal_sound. Qed.
Print Assumptions C17_bp_tree_optimal_sound.

(* (3) never below the true minimum *)
Theorem C17_bp_tree_never_below : forall eps gap sizes width demands max_iter max_nodes o obj r,
  (0 <= eps)%Q -> (eps < 1)%Q ->
  solve_bp_tree eps gap sizes width demands max_iter max_nodes = TAns o ->
  ba_status (to_ans o) <> INFEASIBLE -> ba_obj (to_ans o) = Some obj ->
  is_min (fits sizes width) demands r -> (r <= obj)%Z.
Proof.
  intros eps gap sizes width demands max_iter max_nodes o obj r He0 He1 H Hs Ho [_ Hmin].
  destruct (bp_tree_gate _ _ _ _ _ _ _ _ He0 He1 H Hs) as (sol & obj' & _ & E2 & Hok).
  rewrite Ho in E2. injection E2 as <-.
  destruct (plan_ok_sound _ _ _ _ _ Hok) as [Hcov ->]. exact (Hmin _ Hcov).
Qed.
Print Assumptions C17_bp_tree_never_below.

(* the tree model continues the root model of Bp.v: without column bounds `_solve_bounded_master_lp` builds the tableau of the
   root master LP, and an answer of the tree model is the root model's answer or comes out of the loop started from its root *)
Theorem C17_bounded_master_nil : forall eps columns demands,
  bounded_master_lp eps columns demands [] = master_lp true eps columns demands.
Proof. exact bounded_master_nil. Qed.
Print Assumptions C17_bounded_master_nil.

Theorem C17_bp_tree_extends_root : forall eps gap sizes width demands max_iter max_nodes o,
  solve_bp_tree eps gap sizes width demands max_iter max_nodes = TAns o ->
  match b_out (solve_bp_root eps gap sizes width demands max_iter) with
  | BpDone st sol obj it => to_ans o = mkBA st sol obj 0 it
  | BpTree rb inc =>
      exists lp, b_lp (solve_bp_root eps gap sizes width demands max_iter) = Some lp /\
        tree_loop eps gap true (cs_pricing eps sizes width) demands max_iter max_nodes rb (tree_fuel max_nodes)
                  (b_pool (solve_bp_root eps gap sizes width demands max_iter)) inc [(lp, O, [])] 1 0
                  (b_iters (solve_bp_root eps gap sizes width demands max_iter)) [] = Some o
  | _ => False
  end.
Proof. exact solve_bp_tree_link. Qed.
Print Assumptions C17_bp_tree_extends_root.

(* `while tree and nodes_explored < max_nodes` terminates within the model's fuel: more fuel changes nothing, so an answer
   TNoFuel of the model is never caused by the loop (only by a simplex_phase call using up its 100000 iterations, or by knapsack_pricing taking its
   unmodelled greedy fallback, which C17_pricing_exact excludes for eps = 0) *)
Theorem C17_bp_tree_fuel_enough : forall eps gap is_cs pricing demands max_iter max_nodes rb extra cols best lp it,
  tree_loop eps gap is_cs pricing demands max_iter max_nodes rb (tree_fuel max_nodes + extra) cols best [(lp, O, [])] 1 0 it [] =
  tree_loop eps gap is_cs pricing demands max_iter max_nodes rb (tree_fuel max_nodes) cols best [(lp, O, [])] 1 0 it [].
Proof. intros. apply tree_loop_fuel_irrelevant; unfold tmeasure, tree_fuel; cbn [length]; lia. Qed.
Print Assumptions C17_bp_tree_fuel_enough.

Example C17_deep2_nonvacuous_optimal_in_tree :
  exists o, solve_bp_tree 0 gap_default [5;4;3]%Z 12%Z [3;4;5]%Z 30 20 = TAns o /\
            ba_status (to_ans o) = OPTIMAL /\ ba_obj (to_ans o) = Some 4%Z /\ ba_nodes (to_ans o) = 3%nat /\
            to_trace o = [([(2%nat, 1%Q, None)], Some 4%Q); ([(2%nat, 0%Q, Some 0%Q)], Some 5%Q); ([], Some (23 # 6)%Q)] /\
            gap_ok gap_default 4 = true.
Proof. eexists. split; [vm_compute; reflexivity|]. repeat split. Qed.

Example C17_deep2_nonvacuous_feasible_above_min :
  exists o, solve_bp_tree 0 gap_default [6;5;4]%Z 11%Z [2;3;3]%Z 30 20 = TAns o /\
            ba_status (to_ans o) = FEASIBLE /\ ba_obj (to_ans o) = Some 5%Z /\ ba_nodes (to_ans o) = 5%nat /\
            plan_ok [6;5;4]%Z 11%Z [2;3;3]%Z [([1;1;0], 2); ([0;1;1], 1); ([0;0;2], 1)]%Z 4%Z = true.
Proof. eexists. split; [vm_compute; reflexivity|]. repeat split. Qed.

Example C17_deep2_nonvacuous_bounded_master :
  cb_dict [(2%nat, 0%Q, Some 0%Q); (3%nat, 2%Q, None); (2%nat, 1%Q, None)] = [(2%nat, 1%Q, None); (3%nat, 2%Q, None)] /\
  bounded_master_lp 0 [[2;0;0];[0;3;0];[0;0;4];[1;1;1]]%Z [3;4;5]%Z [(2%nat, 1%Q, None); (3%nat, 2%Q, None)]
  = Some ([1 # 2; 2 # 3; 1; 2]%Q, [1 # 2; 1 # 3; 0]%Q, Some (25 # 6)%Q) /\
  bounded_master_lp 0 [[2;0;0];[0;3;0];[0;0;4];[1;1;1]]%Z [3;4;5]%Z [(2%nat, 0%Q, Some 0%Q)]
  = Some ([0; 0; 0; 5]%Q, [0; 0; 1]%Q, Some 5%Q).
Proof. repeat split; vm_compute; reflexivity. Qed.
