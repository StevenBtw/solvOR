(* Property C01, `C01_algorithm`: invariants of the FAITHFUL model of solve_sat, coq/C01/DeepCdcl.v.
   The model is a transliteration of solvor/sat.py (two-watched-literal propagation with its in-place swaps, binary
   implications, 1-UIP analysis, backjumping, Luby restarts, reduce_db, pure literals, units, blocking clauses, budgets);
   its only oracle is the sequence of variables pick_var() returned.  The check runs the model inside coqc on every
   call's decisions and requires its event trace and Result to be EQUAL to the implementation's (harness/props/C01_deep.py).
   The theorems below hold for every formula, every option value and every decision oracle.
   Statements, each derived in a line or two from the theorems of coq/C01/Deep*.v. *)
From Coq Require Import List ZArith Bool Arith.
Import ListNotations.
From SV Require Import C01.SatSpec C01.Machine C01.DeepCdcl.
From SV Require C01.DeepBase C01.DeepTrail C01.DeepTrailProp C01.DeepAnalyze C01.DeepWatch C01.DeepReason C01.DeepReasonProp
  C01.DeepRunOps C01.DeepReduce C01.DeepRun C01.DeepInit C01.DeepJ C01.DeepJOps C01.DeepJProp C01.DeepJLearn
  C01.DeepJRun C01.DeepSteps C01.DeepAlgo C01.DeepResult.
Import DeepTrail DeepTrailProp DeepAnalyze DeepWatch DeepReason DeepReasonProp DeepRun DeepJ DeepJProp DeepJRun DeepAlgo.

(* (a) deep_trail_inv (T): vals / trail / trail_lim / levels / prop_head are consistent:
   no variable twice on the trail, a variable is assigned iff it is on the trail, prop_head <= len(trail), trail_lim is
   sorted and within the trail, levels[v] = number of decision marks at or below v's trail position.
   TI = trail_inv + every literal stored in the clause database indexes into the arrays. *)
Theorem deep_trail_inv_assign : forall s v b r,
  trail_inv s -> val_of s v = None -> (v < length (s_vals s))%nat -> trail_inv (assign v b r s).
Proof. exact DeepTrail.assign_trail_inv. Qed.
Print Assumptions deep_trail_inv_assign.

Theorem deep_trail_inv_unassign_to : forall s level, trail_inv s -> trail_inv (unassign_to level s).
Proof. exact DeepTrail.unassign_to_trail_inv. Qed.
Print Assumptions deep_trail_inv_unassign_to.

(* decide = trail_lim.append(len(trail)); assign(var, phase[var], -1) *)
Theorem deep_trail_inv_decide : forall s v b,
  trail_inv s -> val_of s v = None -> (v < length (s_vals s))%nat -> trail_inv (assign v b None (push_lim s)).
Proof. exact DeepTrail.decide_trail_inv. Qed.
Print Assumptions deep_trail_inv_decide.

(* propagate(): assumptions at level 0, binary implications, watch lists with clause swaps and watch moves - whatever
   the fuel, whenever it returns *)
Theorem deep_trail_inv_propagate : forall fuel A s s' c,
  Forall (lit_in (nv s)) A -> TI s -> propagate fuel A s = Some (s', c) -> TI s'.
Proof. exact DeepTrailProp.propagate_TI. Qed.
Print Assumptions deep_trail_inv_propagate.

(* (c) deep_learned_entailed: the clause `analyze` builds (resolution of the conflict clause with the reason clauses
   along the trail, 1-UIP) is entailed by the clause database of that moment.  Hypotheses: (T); no literal 0; the conflict
   clause is a falsified clause of the database; reasons are as invariant (b) says. *)
Theorem deep_learned_entailed : forall s ci lc bt lbd,
  trail_inv s -> db_nonzero s -> reason_ok s -> decision_first s ->
  In (get_clause s ci) (db s) -> (forall l, In l (get_clause s ci) -> lit_value s l = Some false) ->
  analyze s ci = Some (lc, bt, lbd) -> entails (db s) lc.
Proof. exact DeepAnalyze.analyze_entailed. Qed.
Print Assumptions deep_learned_entailed.

(* (b) deep_reason_inv: the reason clause of every implied variable (level >= 1) is a clause of the database whose other
   literals are false and were assigned earlier (reason_inv); a reasonless variable of level >= 1 is the first of its level
   (decision_first).  Both live in the bundle BI together with (T), bi_nz (no literal 0 in the database), bi_v0 (variable 0 is
   unassigned), the "at most" half of (W) (watch_le: a clause sits in the
   watch list of l at most as often as l stands on its positions 0/1; big_ok: an implication entry is a binary clause of the
   database) and head_inv (decision marks <= prop_head, unprocessed trail entries lie on the current level). *)
Theorem deep_reason_inv_assign : forall s v b r0,
  trail_inv s -> reason_inv s -> val_of s v = None -> (v < length (s_vals s))%nat ->
  (forall r, r0 = Some r -> (1 <= cur_level s)%nat -> (r < n_clauses s)%nat
     /\ forall l, In l (get_clause s r) -> (lvar l = v /\ lpos l = b) \/ lit_value s l = Some false) ->
  reason_inv (assign v b r0 s).
Proof. exact DeepReason.reason_inv_assign. Qed.
Print Assumptions deep_reason_inv_assign.

Theorem deep_reason_inv_unassign_to : forall s level, trail_inv s -> reason_inv s -> reason_inv (unassign_to level s).
Proof. exact DeepReason.reason_inv_unassign_to. Qed.
Print Assumptions deep_reason_inv_unassign_to.

(* propagate() keeps the whole bundle; a conflict it reports is a falsified clause of the database with a literal of the
   current level; without conflict everything on the trail is processed *)
Theorem deep_reason_inv_propagate : forall fuel A s s' c,
  assum_ok (nv s) A -> BI s -> propagate fuel A s = Some (s', c) ->
  BI s' /\ (forall ci, c = CAt ci -> conflict_ok s' ci) /\ (c = CNone -> s_head s' = length (s_trail s'))
  /\ (c = CAssum -> cur_level s' = 0%nat).
Proof. exact DeepReasonProp.propagate_BI. Qed.
Print Assumptions deep_reason_inv_propagate.

(* the bundle gives `analyze` its hypotheses *)
Theorem deep_reason_inv_discharges : forall s, BI s -> trail_inv s /\ db_nonzero s /\ reason_ok s /\ decision_first s.
Proof. exact DeepReasonProp.BI_analyze_hyps. Qed.
Print Assumptions deep_reason_inv_discharges.

(* the whole run: for every valid input (no literal 0, assumption variables within range, at least one variable), every option value, every
   decision oracle and every fuel, every state the main loop goes through satisfies the loop invariant LI:
   the bundle BI - hence (T), (b) and the "at most" half of (W) - holds, dec_level = len(trail_lim), and a recorded
   conflict is a falsified clause of the database with a literal of the current level (or the level is 0).
   It covers backjumping, learned-clause attachment and assertion, restarts with reduce_db, blocking clauses, decisions. *)
Theorem deep_run_inv : forall fuel cls A mc mr limit lf orc P L0 L, valid_input cls A = true ->
  init_loop fuel cls A mc mr limit lf orc = ILoop P L0 -> reach fuel P L0 L -> LI P L.
Proof. exact DeepInit.run_LI. Qed.
Print Assumptions deep_run_inv.

(* (c) without hypotheses on the state: during any run, the clause analyze() learns is entailed by the clause database of that
   moment - the per-run RUP check of the guarded machine is discharged by proof for the model *)
Theorem deep_learned_entailed_run : forall fuel cls A mc mr limit lf orc P L0 L ci lc bt lbd, valid_input cls A = true ->
  init_loop fuel cls A mc mr limit lf orc = ILoop P L0 -> reach fuel P L0 L ->
  l_conflict L = CAt ci -> l_dec_level L <> 0%nat -> analyze (l_st L) ci = Some (lc, bt, lbd) -> entails (db (l_st L)) lc.
Proof. exact DeepInit.run_learned_entailed. Qed.
Print Assumptions deep_learned_entailed_run.

(* (d) deep_watch_inv (W + J).
   W: every clause of the database is looked after (cov_all): a unit clause is true at level 0; a longer clause stands in
      the watch lists of its literals at positions 0 and 1 at least as often as they occur there - together with watch_le of
      the bundle BI: EXACTLY on positions 0 and 1 - or, if binary, in both implication lists.
   J: no clause has both literals of positions 0/1 false and processed (fp = false and its trail entry before prop_head).
   arr_len: the four arrays of watch / implication lists have one slot per variable (a watch added to a literal in range is kept).
   propagate() keeps W and J; when it reports a conflict J is weakened to JC (a violating clause has a literal of the current
   level - the backjump that follows unassigns it). *)
Theorem deep_watch_inv_propagate : forall fuel A s s' c, assum_ok (nv s) A ->
  BI s /\ arr_len s /\ cov_all s /\ J s -> propagate fuel A s = Some (s', c) ->
  match c with
  | CNone => BI s' /\ arr_len s' /\ cov_all s' /\ J s'
  | CAt _ => BI s' /\ arr_len s' /\ cov_all s' /\ JC s'
  | CAssum => True
  end.
Proof. exact DeepJProp.propagate_PJ. Qed.
Print Assumptions deep_watch_inv_propagate.

(* for every state of every run: LJ = (no conflict pending: W and J) / (conflict pending at level >= 1: W and JC) *)
Theorem deep_watch_inv : forall fuel cls A mc mr limit lf orc P L0 L, valid_input cls A = true ->
  init_loop fuel cls A mc mr limit lf orc = ILoop P L0 -> reach fuel P L0 L -> LI P L /\ LJ L.
Proof.
  intros fuel cls A mc mr limit lf orc P L0 L Hv Hi R.
  destruct (DeepAlgo.run_all fuel cls A mc mr limit lf orc P L0 L Hv Hi R) as (H1 & H2 & _). exact (conj H1 H2).
Qed.
Print Assumptions deep_watch_inv.

(* (e) C01_algorithm: for every valid input, every option value, every decision oracle and every fuel: whenever a run of
   the model reaches the point where it records a solution - no conflict pending and every variable assigned, i.e. pick_var()
   returned 0 - the recorded dict satisfies every input clause, every assumption and every clause of the database (all learned
   and all blocking clauses, hence it differs from every model recorded before whose blocking clause is still there).
   From (T) + (W) + (J): all variables are assigned and processed, so by J no clause of length >= 2 has both literals of
   positions 0/1 false (J speaks of every clause; the watch lists of W are what keeps J alive through propagate), and W
   excludes the empty clause and makes a unit clause true; the input clauses keep their literals (only their order changes) and
   the assumptions stay true at level 0 - both shown via the decomposition of a run into elementary steps. *)
Theorem C01_algorithm : forall fuel cls A mc mr limit lf orc P L0 L, valid_input cls A = true ->
  init_loop fuel cls A mc mr limit lf orc = ILoop P L0 -> reach fuel P L0 L ->
  l_conflict L = CNone -> all_assigned (l_st L) (n_vars_of cls) = true ->
  let m := solution_of (l_st L) (n_vars_of cls) in
  models (asg_of m) cls /\ agrees (asg_of m) A /\ models (asg_of m) (db (l_st L)).
Proof.
  intros fuel cls A mc mr limit lf orc P L0 L Hv Hi R EC Hall.
  destruct (DeepAlgo.run_all _ _ _ _ _ _ _ _ _ _ _ Hv Hi R) as (H1 & H2 & H3).
  destruct (DeepAlgo.init_LE _ _ _ _ _ _ _ _ _ _ Hv Hi) as (_ & EA & En & _).
  rewrite <- En in *. rewrite <- EA. exact (DeepAlgo.algo_models cls P L H1 H2 H3 EC Hall).
Qed.
Print Assumptions C01_algorithm.

(* ... and end to end, for the Result the model returns: `solution` and every entry of `solutions` satisfy the input clauses and
   the assumptions, and the entries of `solutions` are pairwise distinct (the blocking clause of a recorded model keeps lbd 0,
   survives reduce_db, and is satisfied by every later model) *)
Theorem C01_algorithm_result : forall fuel cls A mc mr limit lf orc evs r, valid_input cls A = true ->
  solve_sat fuel cls A mc mr limit lf orc = Done evs r ->
  (forall m, d_solution r = Some m -> models (asg_of m) cls /\ agrees (asg_of m) A)
  /\ (forall ms, d_solutions r = Some ms -> NoDup ms /\ forall m, In m ms -> models (asg_of m) cls /\ agrees (asg_of m) A).
Proof. exact DeepResult.solve_sat_sound. Qed.
Print Assumptions C01_algorithm_result.

(* the tie to the implementation: `deep_check` is what the check evaluates inside coqc for every real call (the model, fed with
   the call's decisions, must reproduce the call's event trace and Result).  Whenever it holds, the solutions the IMPLEMENTATION
   returned are models and pairwise distinct - by proof about the algorithm, not by evaluating them *)
Theorem C01_deep_check_sound : forall cls A mc mr limit lf evs impl, valid_input cls A = true ->
  deep_check cls A mc mr limit lf evs impl = true ->
  (forall m, d_solution impl = Some m -> models (asg_of m) cls /\ agrees (asg_of m) A)
  /\ (forall ms, d_solutions impl = Some ms -> NoDup ms /\ forall m, In m ms -> models (asg_of m) cls /\ agrees (asg_of m) A).
Proof. exact DeepResult.deep_check_sound. Qed.
Print Assumptions C01_deep_check_sound.

(* non-vacuity: the model reproduces real runs of /repo (solve_sat under both hooks) *)
Definition dx_N : cnf := [[1; 2; 3]; [-1; -2]; [-2; -3]; [1; -3; 4]; [-4; 2; 1]; [-1; -4]]%Z.
Definition dx_evs : list devent :=
  [DEv (EInit 4 [] [] [-2]); DDecide 1; DDecide 3; DEv (ESolution [1; -2; 3; -4]); DEv (ELearn [-1; 2; -3; 4] true);
   DDecide 1; DEv (ESolution [1; -2; -3; -4]); DEv (ELearn [-1; 2; 3; 4] true); DDecide 1; DEv (ELearn [-1; 2] false);
   DRestart; DEv (EVerdict OPTIMAL)]%Z.

(* solve_sat(dx_N, assumptions=[-2], solution_limit=3, luby_factor=1): decisions 1 3 1 1 *)
Example deep_nonvacuous_run :
  solve_sat 40 dx_N [-2]%Z 100000%Z 10000%Z 3%Z 1%Z [1; 3; 1; 1]%nat
  = Done dx_evs (mkDres OPTIMAL (Some [1; -2; 3; -4]%Z) 4 4 13 (Some [[1; -2; 3; -4]; [1; -2; -3; -4]]%Z)).
Proof. vm_compute. reflexivity. Qed.

Definition dx_N2 : cnf :=
  [[1; 2; 3]; [-1; -2; 3]; [1; -2; -3]; [-1; 2; -3]; [1; 2; -3]; [-1; -2; -3]; [1; -2; 3; 4]; [-1; 2; 3; -4]]%Z.

(* a conflict, a learned clause, a restart, then a model: decisions 1 2 1 *)
Example deep_nonvacuous_learn :
  deep_check dx_N2 [] 100000%Z 10000%Z 1%Z 1%Z
    [DEv (EInit 4 [] [] []); DDecide 1; DDecide 2; DEv (ELearn [-2; -1] false); DRestart; DDecide 1;
     DEv (ESolution [1; -2; -3; -4]); DEv (EVerdict OPTIMAL)]%Z
    (mkDres OPTIMAL (Some [1; -2; -3; -4]%Z) 4 3 8 None) = true.
Proof. vm_compute. reflexivity. Qed.

Example deep_nonvacuous_valid : valid_input dx_N [-2]%Z = true /\ valid_input dx_N2 [] = true.
Proof. vm_compute. split; reflexivity. Qed.

(* a wrong oracle, exhausted fuel and a tampered trace are not accepted *)
Example deep_nonvacuous_rejects :
  (exists evs, solve_sat 40 dx_N [-2]%Z 100000%Z 10000%Z 3%Z 1%Z [2]%nat = Err (EOracleBad 2) evs)
  /\ (exists evs, solve_sat 3 dx_N [-2]%Z 100000%Z 10000%Z 3%Z 1%Z [1; 3; 1; 1]%nat = Err EFuel evs)
  /\ deep_check dx_N2 [] 100000%Z 10000%Z 1%Z 1%Z
       [DEv (EInit 4 [] [] []); DDecide 1; DDecide 2; DEv (ELearn [-1; -2] false); DRestart; DDecide 1;
        DEv (ESolution [1; -2; -3; -4]); DEv (EVerdict OPTIMAL)]%Z
       (mkDres OPTIMAL (Some [1; -2; -3; -4]%Z) 4 3 8 None) = false.
Proof. vm_compute. repeat split; eexists; reflexivity. Qed.
