(* Property C20: UnionFind and FenwickTree behave like their reference models.
   The statements, each proved here in a line or two from the theorems of C20/*.v. *)
From Coq Require Import List ZArith.
Import ListNotations.
From SV Require C20.Fenwick C20.FenwickProofs C20.UF C20.UFSpec C20.UFProofs C20.UFPure C20.UFCount C20.UFOrder.

(* every output of every in-range history equals the plain-array reference (hence never RFail) *)
Theorem C20_fenwick_refines : forall vals ops,
  Fenwick.ops_in_range (Fenwick.zn vals) ops = true ->
  Fenwick.run_from vals ops = Fenwick.ref_run vals ops.
Proof.
  intros vals ops Hr. apply FenwickProofs.run_refines; [apply FenwickProofs.build_Inv|exact Hr].
Qed.
Print Assumptions C20_fenwick_refines.

Theorem C20_fenwick_no_fail : forall vals ops,
  Fenwick.ops_in_range (Fenwick.zn vals) ops = true ->
  ~ In Fenwick.RFail (Fenwick.run_from vals ops).
Proof.
  intros vals ops Hr. rewrite C20_fenwick_refines by exact Hr. apply FenwickProofs.ref_run_no_fail.
Qed.
Print Assumptions C20_fenwick_no_fail.

(* the O(n) constructor establishes tree[j] = sum a[j&(j+1) .. j] *)
Theorem C20_fenwick_build_inv : forall vals, FenwickProofs.Inv vals (Fenwick.build vals).
Proof. exact FenwickProofs.build_Inv. Qed.
Print Assumptions C20_fenwick_build_inv.

(* queries are pure: the final tree is the one obtained with all queries removed *)
Theorem C20_fenwick_queries_pure : forall ops t,
  fst (Fenwick.run t ops) = fst (Fenwick.run t (filter FenwickProofs.is_update ops)).
Proof. exact FenwickProofs.fenwick_queries_pure. Qed.
Print Assumptions C20_fenwick_queries_pure.

(* every output of every in-range history is the answer of the partition generated by the pairs
   united strictly before it (UFSpec.out_ok); in particular never RFail *)
Theorem C20_uf_refines : forall n ops,
  UF.ops_in_range n ops = true -> UFSpec.spec_ok n [] ops (UF.run_from n ops).
Proof. exact UFProofs.uf_refines. Qed.
Print Assumptions C20_uf_refines.

Theorem C20_uf_refines_indexed : forall n ops,
  UF.ops_in_range n ops = true -> UFSpec.spec_ok_indexed n ops (UF.run_from n ops).
Proof. intros n ops Hr. apply UFSpec.spec_ok_to_indexed, C20_uf_refines, Hr. Qed.
Print Assumptions C20_uf_refines_indexed.

Theorem C20_uf_no_fail : forall n ops,
  UF.ops_in_range n ops = true -> ~ In UF.RFail (UF.run_from n ops).
Proof. intros n ops Hr. apply (UFProofs.spec_ok_no_fail n ops []), C20_uf_refines, Hr. Qed.
Print Assumptions C20_uf_no_fail.

Theorem C20_uf_inv : forall n ops, UF.ops_in_range n ops = true ->
  UFProofs.SInv n (UFSpec.united ops) (fst (UF.run (UF.uf_init n) ops)).
Proof.
  intros n ops Hr. exact (proj2 (UFProofs.run_spec n ops [] (UF.uf_init n) (UFProofs.init_SInv n) Hr)).
Qed.
Print Assumptions C20_uf_inv.

(* in any reachable state two consecutive finds agree iff same class *)
Theorem C20_uf_find_agree : forall n ops x y u1 rx u2 ry,
  UF.ops_in_range n ops = true -> x < n -> y < n ->
  UF.find_op (fst (UF.run (UF.uf_init n) ops)) x = Some (u1, rx) ->
  UF.find_op u1 y = Some (u2, ry) ->
  (rx = ry <-> UFSpec.joined (UFSpec.united ops) x y).
Proof. exact UFProofs.uf_find_agree. Qed.
Print Assumptions C20_uf_find_agree.

Theorem C20_uf_count_unique : forall n pre c c',
  UFSpec.num_classes n (UFSpec.joined pre) c -> UFSpec.num_classes n (UFSpec.joined pre) c' -> c = c'.
Proof. exact UFCount.num_classes_unique. Qed.
Print Assumptions C20_uf_count_unique.

(* get_components / component_sizes with their order: member lists ascending, components by smallest
   member (spec_ok_ord = spec_ok + UFOrder.comps_ordered); that answer is unique *)
Theorem C20_uf_refines_ordered : forall n ops,
  UF.ops_in_range n ops = true -> UFOrder.spec_ok_ord n [] ops (UF.run_from n ops).
Proof.
  intros n ops Hr. exact (proj1 (UFProofs.run_spec n ops [] (UF.uf_init n) (UFProofs.init_SInv n) Hr)).
Qed.
Print Assumptions C20_uf_refines_ordered.

Theorem C20_uf_comps_unique : forall n R cs cs',
  UFSpec.is_partition n R cs -> UFOrder.comps_ordered cs ->
  UFSpec.is_partition n R cs' -> UFOrder.comps_ordered cs' -> cs = cs'.
Proof. exact UFOrder.comps_unique. Qed.
Print Assumptions C20_uf_comps_unique.

(* queries never change later answers: dropping all reads from a prefix ops1 of the history leaves
   every output of the rest ops2 literally unchanged *)
Theorem C20_uf_queries_pure : forall n ops1 ops2,
  UF.ops_in_range n (ops1 ++ ops2) = true ->
  skipn (length ops1) (UF.run_from n (ops1 ++ ops2)) =
  skipn (length (filter UFPure.is_union ops1)) (UF.run_from n (filter UFPure.is_union ops1 ++ ops2)).
Proof.
  intros n ops1 ops2 Hr. unfold UF.run_from.
  rewrite !UFPure.run_app, !UFPure.skipn_len_app by apply UFPure.run_length.
  apply UFPure.uf_queries_pure_state, Hr.
Qed.
Print Assumptions C20_uf_queries_pure.

Definition fw_vals : list Z := [3; 1; 4; 1; 5; 9; 2; 6]%Z.
Definition fw_ops : list Fenwick.op :=
  [Fenwick.OPrefix 7; Fenwick.OUpdate 3 10; Fenwick.ORange 2 5; Fenwick.OUpdate 0 (-3);
   Fenwick.OPrefix 0; Fenwick.ORange 0 7; Fenwick.OUpdate 7 1; Fenwick.ORange 7 7]%Z.

Example C20_fenwick_nonvacuous :
  Fenwick.ops_in_range (Fenwick.zn fw_vals) fw_ops = true /\
  Fenwick.build fw_vals = [3; 4; 4; 9; 5; 14; 2; 31]%Z /\
  Fenwick.run_from fw_vals fw_ops =
    [Fenwick.RZ 31; Fenwick.RUnit; Fenwick.RZ 29; Fenwick.RUnit; Fenwick.RZ 0; Fenwick.RZ 38;
     Fenwick.RUnit; Fenwick.RZ 7]%Z.
Proof. vm_compute. auto. Qed.

Definition uf_ops : list UF.op :=
  [UF.OUnion 0 1; UF.OUnion 1 0; UF.OConnected 0 1; UF.OUnion 2 3; UF.OUnion 3 1; UF.OFind 0;
   UF.OCount; UF.OSizes; UF.OComps; UF.OUnion 4 4; UF.OConnected 4 5; UF.OConnected 2 0].

Example C20_uf_nonvacuous :
  UF.ops_in_range 6 uf_ops = true /\
  UF.run_from 6 uf_ops =
    [UF.RBool true; UF.RBool false; UF.RBool true; UF.RBool true; UF.RBool true; UF.RNat 2;
     UF.RNat 3; UF.RNats [4; 1; 1]; UF.RSets [[0; 1; 2; 3]; [4]; [5]];
     UF.RBool false; UF.RBool false; UF.RBool true].
Proof. vm_compute. auto. Qed.

(* the purity statement is exercised on a history with reads in the prefix *)
Example C20_uf_queries_pure_nonvacuous :
  filter UFPure.is_union (firstn 9 uf_ops) = [UF.OUnion 0 1; UF.OUnion 1 0; UF.OUnion 2 3; UF.OUnion 3 1] /\
  skipn 9 (UF.run_from 6 uf_ops) = [UF.RBool false; UF.RBool false; UF.RBool true].
Proof. vm_compute. auto. Qed.
