(* Property C09, deepening: the two statements that Props/C09.v only states (min_cost_flow answers OPTIMAL only with a
   minimum-cost flow, and terminates, on every input without a negative-cost cycle of positive capacity) are
   theorems here.  Only statements, each proved in a few lines from the theorems of C09/Deep*.v:
     DeepWalk (residual walks, loop erasure)   DeepBF (exactness of the in-place Bellman-Ford)
     DeepPar  (parent table, the model's call) DeepPot (potentials <-> no negative cycle, boolean test)
     DeepSSP  (augmentation keeps it; optimality; termination)
     AssignProofs (solve_assignment, unconditional)   DeepNS (network_simplex: exit condition of the pricing rule). *)
From Coq Require Import List ZArith.
Import ListNotations.
From SV Require Import C09.Mcf C09.McfSpec.
From SV Require C09.McfAug C09.McfBF C09.McfProofs.
From SV Require C09.DeepWalk C09.DeepBF C09.DeepPar C09.DeepPot C09.DeepSSP.
From SV Require Import C09.NetSimplex C09.AssignSpec.
From SV Require C09.AssignProofs C09.DeepNS.
From SV Require Props.C09.
Import Mcf McfSpec.
Import DeepWalk.
Open Scope Z_scope.

(* Vocabulary (DeepWalk.v): redge arcs res e = edge e of the 2m-edge residual list has positive residual capacity;
   rwalk arcs res a p b = p is a chain of such edges from a to b; pcost = sum of their costs;
   NoNegCycle arcs res = every closed rwalk has cost >= 0. *)

(* (1) Bellman-Ford as the model runs it (in place, edges in list order, at most n-1 rounds, early exit when a round
   changes nothing) is exact on a residual graph without negative cycle: dist[v] = Some dv iff dv is the minimum cost of
   a residual walk source ~> v; None iff no residual walk reaches v; and the labels are feasible potentials:
   dist[head] <= dist[tail] + cost on every residual edge whose tail is reached. *)
Theorem C09_bf_exact : forall n arcs res s dist par,
  valid_arcs n arcs = true -> length res = length arcs -> (s < n)%nat ->
  NoNegCycle arcs res ->
  bf_rounds (n - 1) (res_edges 0 arcs res) (upd (repeat None n) s (Some 0)) (repeat None n) = (dist, par) ->
  (forall v dv, nth v dist None = Some dv <->
     (exists p, rwalk arcs res s p v /\ pcost arcs p = dv) /\
     (forall p, rwalk arcs res s p v -> dv <= pcost arcs p)) /\
  (forall v, nth v dist None = None <-> ~ exists p, rwalk arcs res s p v) /\
  (forall e du, redge arcs res e -> nth (e_tail arcs e) dist None = Some du ->
     exists dv, nth (e_head arcs e) dist None = Some dv /\ dv <= du + e_cost arcs e).
Proof. exact DeepPar.bf_exact. Qed.
Print Assumptions C09_bf_exact.

(* the same for an arbitrary set of sources and arbitrary start labels (used with "every node is a source" to get
   potentials): Lw = every finite label is the cost of a residual walk from a source, Uall = every label is <= the cost
   of every residual walk from a source, FP = feasible potentials *)
Theorem C09_bf_exact_general : forall arcs res n (Src : nat -> Prop) es,
  (forall x, In x es -> McfBF.edge_ok arcs res x) ->
  (forall e, (fst e < length arcs)%nat -> In (e, e_tail arcs e, e_head arcs e, e_cost arcs e, e_res res e) es) ->
  (forall e, (fst e < length arcs)%nat -> (e_head arcs e < n)%nat) ->
  forall dist0 par0 d' p',
  NoNegCycle arcs res -> (forall a, Src a -> (a < n)%nat) ->
  length dist0 = n -> DeepBF.Lw arcs res Src dist0 -> DeepBF.Uw arcs res Src 0 dist0 ->
  bf_rounds (n - 1) es dist0 par0 = (d', p') ->
  length d' = n /\ DeepBF.Lw arcs res Src d' /\ DeepBF.Uall arcs res Src d' /\ DeepBF.FP arcs res d' /\
  DeepBF.le_lab dist0 d'.
Proof. exact DeepBF.bf_final. Qed.
Print Assumptions C09_bf_exact_general.

(* (2) augmenting, by any amount, along the path Bellman-Ford returns keeps the residual graph free of negative cycles *)
Theorem C09_ssp_invariant : forall n arcs res s t path d pf tc,
  valid_arcs n arcs = true -> length res = length arcs -> (s < n)%nat ->
  NoNegCycle arcs res ->
  bellman_ford n arcs res s t = BFPath path d ->
  NoNegCycle arcs (fst (augment arcs res path pf tc)).
Proof.
  intros n arcs res s t path d pf tc Hva Hlen Hs Hnn H.
  destruct (DeepPar.bf_path_tight n arcs res s t path d Hva Hlen Hs Hnn H) as (dist & HF & _ & Ht).
  exact (DeepSSP.ssp_nnc arcs res dist path HF Ht pf tc Hnn).
Qed.
Print Assumptions C09_ssp_invariant.

(* "no negative cycle" is equivalent to the existence of feasible node potentials, and is decided by the boolean test
   DeepPot.no_neg_cycle_b (n-1 rounds of the same relaxation from all-zero labels, then test the labels) *)
Theorem C09_nnc_potentials : forall n arcs res,
  valid_arcs n arcs = true -> length res = length arcs -> NoNegCycle arcs res ->
  exists pi, DeepPot.pot_ok arcs res pi.
Proof. exact DeepPot.nnc_potentials. Qed.
Print Assumptions C09_nnc_potentials.

Theorem C09_potentials_nnc : forall arcs res pi, DeepPot.pot_ok arcs res pi -> NoNegCycle arcs res.
Proof. exact DeepPot.pot_ok_nnc. Qed.
Print Assumptions C09_potentials_nnc.

Theorem C09_no_neg_cycle_b_sound : forall n arcs res, length res = length arcs ->
  DeepPot.no_neg_cycle_b n arcs res = true -> NoNegCycle arcs res.
Proof. exact DeepPot.no_neg_cycle_b_sound. Qed.
Print Assumptions C09_no_neg_cycle_b_sound.

Theorem C09_no_neg_cycle_b_complete : forall n arcs res, valid_arcs n arcs = true -> length res = length arcs ->
  NoNegCycle arcs res -> DeepPot.no_neg_cycle_b n arcs res = true.
Proof.
  intros n arcs res Hva Hlen Hnn. unfold DeepPot.no_neg_cycle_b.
  destruct (bf_rounds (n - 1) (res_edges 0 arcs res) (repeat (Some 0) n) (repeat None n)) as [d p] eqn:E.
  apply (DeepPot.pot_ok_b_iff arcs res d Hlen). exact (DeepPot.zero_labels n arcs res d p Hva Hlen Hnn E).
Qed.
Print Assumptions C09_no_neg_cycle_b_complete.

(* (3) for every valid input whose network (all arcs at their full capacity, no reverse edges) has no negative-cost
   cycle of positive capacity: status OPTIMAL => the final per-arc flow is feasible for `demand` and of minimum cost among
   ALL feasible flows shipping `demand` *)
Theorem C09_mcf_optimal : forall n arcs s t d k,
  valid_input n arcs s t d = true ->
  DeepPot.no_neg_cycle_b n arcs (init_res arcs) = true ->
  mcf_run n arcs s t d = Some k -> k_status k = OPTIMAL ->
  min_cost n arcs (demand_b s t d) (McfAug.flows (k_res k)).
Proof. intros n arcs s t d k Hvi Hb. exact (DeepSSP.mcf_optimal_nnc n arcs s t d k Hvi (DeepPot.input_nnc_b n arcs Hb)). Qed.
Print Assumptions C09_mcf_optimal.

(* the hypothesis as a Prop *)
Theorem C09_mcf_optimal_nnc : forall n arcs s t d k,
  valid_input n arcs s t d = true ->
  NoNegCycle arcs (init_res arcs) ->
  mcf_run n arcs s t d = Some k -> k_status k = OPTIMAL ->
  min_cost n arcs (demand_b s t d) (McfAug.flows (k_res k)).
Proof. exact DeepSSP.mcf_optimal_nnc. Qed.
Print Assumptions C09_mcf_optimal_nnc.

(* Props.C09.C09_mcf_optimal_full_statement (hypothesis: potentials pi0 passing the reduced-cost test on the zero flow) *)
Theorem C09_mcf_optimal_full : Props.C09.C09_mcf_optimal_full_statement.
Proof.
  intros n arcs s t d pi0 k Hvi Hpi. apply (DeepSSP.mcf_optimal_nnc n arcs s t d k Hvi).
  exact (DeepPot.input_nnc n arcs pi0 (proj1 (McfProofs.valid_input_parts _ _ _ _ _ Hvi)) Hpi).
Qed.
Print Assumptions C09_mcf_optimal_full.

(* the public Result: dictionary and objective are those of a minimum-cost flow *)
Theorem C09_mcf_public_optimal : forall n arcs s t d r,
  valid_input n arcs s t d = true ->
  DeepPot.no_neg_cycle_b n arcs (init_res arcs) = true ->
  mcf n arcs s t d = Some r -> r_status r = OPTIMAL ->
  optimal_answer n arcs (demand_b s t d) (r_flows r) (r_cost r).
Proof. intros n arcs s t d r Hvi Hb. exact (DeepSSP.mcf_public_optimal_nnc n arcs s t d r Hvi (DeepPot.input_nnc_b n arcs Hb)). Qed.
Print Assumptions C09_mcf_public_optimal.

(* (4) under the same hypothesis the model never runs out of fuel: the parent pointers never close a cycle, so the
   path reconstruction ends within its n steps (BFHang impossible), and every augmentation ships >= 1 unit, so at most
   `demand` augmentations happen *)
Theorem C09_bf_no_hang : forall n arcs res s t,
  valid_arcs n arcs = true -> length res = length arcs -> (s < n)%nat -> (t < n)%nat ->
  NoNegCycle arcs res -> bellman_ford n arcs res s t <> BFHang.
Proof. exact DeepPar.bf_no_hang. Qed.
Print Assumptions C09_bf_no_hang.

Theorem C09_mcf_terminates : forall n arcs s t d,
  valid_input n arcs s t d = true -> DeepPot.no_neg_cycle_b n arcs (init_res arcs) = true ->
  mcf_run n arcs s t d <> None.
Proof. intros n arcs s t d Hvi Hb. exact (DeepSSP.mcf_terminates_nnc n arcs s t d Hvi (DeepPot.input_nnc_b n arcs Hb)). Qed.
Print Assumptions C09_mcf_terminates.

Theorem C09_mcf_terminates_nnc : forall n arcs s t d,
  valid_input n arcs s t d = true -> NoNegCycle arcs (init_res arcs) ->
  mcf_run n arcs s t d <> None.
Proof. exact DeepSSP.mcf_terminates_nnc. Qed.
Print Assumptions C09_mcf_terminates_nnc.

Theorem C09_mcf_terminates_full : Props.C09.C09_mcf_terminates_full_statement.
Proof.
  intros n arcs s t d pi0 Hvi Hpi. apply (DeepSSP.mcf_terminates_nnc n arcs s t d Hvi).
  exact (DeepPot.input_nnc n arcs pi0 (proj1 (McfProofs.valid_input_parts _ _ _ _ _ Hvi)) Hpi).
Qed.
Print Assumptions C09_mcf_terminates_full.

Theorem C09_mcf_public_terminates : forall n arcs s t d,
  valid_input n arcs s t d = true -> DeepPot.no_neg_cycle_b n arcs (init_res arcs) = true ->
  mcf n arcs s t d <> None.
Proof.
  intros n arcs s t d Hvi Hb. apply McfProofs.mcf_some.
  exact (DeepSSP.mcf_terminates_nnc n arcs s t d Hvi (DeepPot.input_nnc_b n arcs Hb)).
Qed.
Print Assumptions C09_mcf_public_terminates.

(* the assignment network is layered (source -> L_i -> R_j -> sink), hence has no cycle of positive capacity whatever the
   cost matrix (negative entries included): solve_assignment never runs out of fuel ... *)
Theorem C09_assignment_terminates : forall M, solve_assignment M <> None.
Proof.
  intros M. unfold solve_assignment. fold (AssignSpec.rows M). fold (AssignSpec.cols M).
  pose proof (McfProofs.mcf_some _ _ _ _ _
    (DeepSSP.mcf_terminates_nnc _ _ _ _ _ (AssignProofs.assign_valid_input (AssignSpec.rows M) (AssignSpec.cols M) M)
       (AssignProofs.assign_nnc (AssignSpec.rows M) (AssignSpec.cols M) M))) as H.
  destruct (mcf _ _ 0 1 _); [discriminate|contradiction].
Qed.
Print Assumptions C09_assignment_terminates.

(* ... and an OPTIMAL answer is read off (Mcf.extract) the pooled dictionary of a MINIMUM-COST flow of min(n,m) units on
   that network, whose cost is the reported objective (with Props/C09.v C09_assignment: it is a matching) *)
Theorem C09_assignment_optimal : forall M r,
  solve_assignment M = Some r -> s_status r = OPTIMAL ->
  exists f d,
    min_cost (2 + AssignSpec.rows M + AssignSpec.cols M) (assign_arcs (AssignSpec.rows M) (AssignSpec.cols M) M)
             (AssignSpec.assign_b (AssignSpec.rows M) (AssignSpec.cols M)) f /\
    pooled (assign_arcs (AssignSpec.rows M) (AssignSpec.cols M) M) f d /\
    s_assign r = extract (AssignSpec.rows M) (AssignSpec.cols M) d /\
    s_cost r = flow_cost (assign_arcs (AssignSpec.rows M) (AssignSpec.cols M) M) f.
Proof.
  intros M r H Hst. destruct (AssignProofs.solve_assignment_inv M r H) as (r0 & Em & Est & -> & ->). rewrite Est in Hst.
  destruct (DeepSSP.mcf_public_optimal_nnc _ _ _ _ _ r0 (AssignProofs.assign_valid_input _ _ M)
              (AssignProofs.assign_nnc _ _ M) Em Hst) as (f & Hmin & Hpool & Hcost).
  exists f, (r_flows r0). split; [exact Hmin|]. split; [exact Hpool|]. split; [reflexivity|exact Hcost].
Qed.
Print Assumptions C09_assignment_optimal.

(* the exit condition of the pricing rule: when the main loop answers OPTIMAL, every arc (original or artificial) in
   state 1 has reduced cost >= 0 and every arc in state -1 has reduced cost <= 0, for the final potentials *)
Theorem C09_ns_exit_signs : forall n arcs sup fuel mi s it,
  NetSimplex.loop (NetSimplex.mk_consts n arcs sup) fuel mi (NetSimplex.init_st n arcs sup) 0
    = Some (NetSimplex.OPTIMAL, s, it) ->
  forall arc, (arc < length arcs + n)%nat ->
    (NetSimplex.nz (NetSimplex.state s) arc = 1 -> 0 <= NetSimplex.redcost (NetSimplex.mk_consts n arcs sup) s arc) /\
    (NetSimplex.nz (NetSimplex.state s) arc = -1 -> NetSimplex.redcost (NetSimplex.mk_consts n arcs sup) s arc <= 0).
Proof. exact DeepNS.ns_exit_signs. Qed.
Print Assumptions C09_ns_exit_signs.

(* hence the final flow on the original arcs is a minimum-cost flow for the supplies as soon as the FINAL state passes the
   boolean test DeepNS.ns_final_ok_b (flows of the original arcs feasible; state 1 => flow 0, state -1 => flow = cap,
   state 0 => reduced cost 0): the negated final potentials are the certificate of McfCert.cert_optimal *)
Theorem C09_ns_optimal_partial : forall n arcs sup fuel mi s it,
  NetSimplex.loop (NetSimplex.mk_consts n arcs sup) fuel mi (NetSimplex.init_st n arcs sup) 0
    = Some (NetSimplex.OPTIMAL, s, it) ->
  DeepNS.ns_final_ok_b n arcs sup s = true ->
  min_cost n arcs (supply_b sup) (firstn (length arcs) (NetSimplex.flow s)).
Proof. exact DeepNS.ns_optimal_partial. Qed.
Print Assumptions C09_ns_optimal_partial.

(* stated here, proved in Props/C09_deep2.v (C09_ns_optimal_full): the test always passes, i.e. it is an
   invariant of the pivots together with the feasibility of the flow once no artificial arc carries flow.  It rests
   on the spanning-tree invariants of
   parent / pred / depth / tree_adj through find_join, the ratio test, push and the re-hang traversal (tree arcs = state 0
   arcs = pred arcs, pi[v] = pi[parent v] +- cost[pred v], flow conservation of a push around the cycle). *)
Definition C09_ns_optimal_full_statement : Prop :=
  forall n arcs sup max_iter fl it,
    valid_arcs n arcs = true -> length sup = n ->
    NetSimplex.ns_run n arcs sup max_iter = Some (NetSimplex.OPTIMAL, fl, it) ->
    (forall x, In x (skipn (length arcs) fl) -> x <= 0) ->
    min_cost n arcs (supply_b sup) (firstn (length arcs) fl).

(* the network of Props/C09.v: it has an arc of negative cost (3 -> 2, cost -1) and no negative cycle *)
Example C09_deep_nonvacuous_ex1 :
  valid_input 4 Props.C09.ex_arcs 0 1 2 = true /\
  DeepPot.no_neg_cycle_b 4 Props.C09.ex_arcs (init_res Props.C09.ex_arcs) = true /\
  exists k, mcf_run 4 Props.C09.ex_arcs 0 1 2 = Some k /\ k_status k = OPTIMAL /\ k_cost k = 8.
Proof. split; [reflexivity|]. split; [vm_compute; reflexivity|]. eexists. vm_compute. repeat split. Qed.

(* the test rejects a network with a negative cycle 2 -> 3 -> 2 of cost -4 ... *)
Definition neg_arcs : list arc := [(0%nat, 1%nat, 1, 0); (2%nat, 3%nat, 1, -5); (3%nat, 2%nat, 1, 1)].

Example C09_deep_nonvacuous_ex2 :
  valid_input 4 neg_arcs 0 1 1 = true /\ DeepPot.no_neg_cycle_b 4 neg_arcs (init_res neg_arcs) = false.
Proof. split; vm_compute; reflexivity. Qed.

(* ... and the hypothesis is needed: on that network the model answers OPTIMAL with cost 0 although the feasible flow
   that also saturates the cycle costs -4 *)
Example C09_deep_negcycle_witness :
  exists k, mcf_run 4 neg_arcs 0 1 1 = Some k /\ k_status k = OPTIMAL /\ k_cost k = 0 /\
            feasible_b 4 neg_arcs (demand_b 0 1 1) [1; 1; 1] = true /\ flow_cost neg_arcs [1; 1; 1] = -4.
Proof. eexists. vm_compute. repeat split. Qed.

(* ... and when the negative cycle is reachable from the source the parent pointers close a cycle and the path
   reconstruction never ends (fuel exhausted = None; the real code loops forever) *)
Definition hang_arcs : list arc := [(0%nat, 2%nat, 1, 0); (2%nat, 3%nat, 1, -5); (2%nat, 1%nat, 1, 0); (3%nat, 2%nat, 1, 1)].

Example C09_deep_hang_witness :
  valid_input 4 hang_arcs 0 1 1 = true /\ DeepPot.no_neg_cycle_b 4 hang_arcs (init_res hang_arcs) = false /\
  mcf_run 4 hang_arcs 0 1 1 = None.
Proof. repeat split; vm_compute; reflexivity. Qed.

(* the final state of network_simplex on the network of Props/C09.v passes the test of C09_ns_optimal_partial *)
Example C09_deep_ns_partial_nonvacuous_ex3 :
  match NetSimplex.loop (NetSimplex.mk_consts 4 Props.C09.ex_arcs [2; -2; 0; 0]) 5000 1000000
                        (NetSimplex.init_st 4 Props.C09.ex_arcs [2; -2; 0; 0]) 0 with
  | Some (NetSimplex.OPTIMAL, s, it) => (DeepNS.ns_final_ok_b 4 Props.C09.ex_arcs [2; -2; 0; 0] s && (it =? 6))%bool
  | _ => false
  end = true.
Proof. vm_compute. reflexivity. Qed.

(* solve_assignment with negative entries *)
Example C09_deep_assignment_nonvacuous_ex4 :
  exists r, solve_assignment [[4; -2; 8]; [-4; 3; 7]] = Some r /\ s_status r = OPTIMAL /\
            s_assign r = [1; 0] /\ s_cost r = -6.
Proof. eexists. vm_compute. repeat split. Qed.
