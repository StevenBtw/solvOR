(* C14 - SCC, topological order and condensation match their definitions (solvor/scc.py).
   Model: SV.C14.Scc (the code WITH the fix "SCC ignores neighbours outside the given node set").
   Specification: SV.C14.SccSpec (edge / reach / has_cycle over the subgraph induced by the node list).
   Proved for all graphs, node orders, neighbour orders, self loops, duplicate edges, outside neighbours:
     topological_sort (duplicate-free node list): never out of fuel, order sound, INFEASIBLE iff cycle;
     strongly_connected_components (any node list, duplicates allowed): never out of fuel / no exception, the
       components partition the node list, are exactly the classes of mutual reachability, sinks first;
     condense: edge iff some original edge joins two different components, acyclic (C14_condense_spec has no
       hypothesis; C14_condense carries one on the classes, which its proof does not use);
     the boolean checkers scc_check / topo_check / cond_check evaluated by the harness are sound, and the Gallina
       transitive closure they use is sound and complete for the inductive reachability. *)
From Coq Require Import List Arith Bool.
From SV Require Import C14.Scc C14.SccSpec C14.Main C14.SccSpecProofs.
Import ListNotations.

Theorem C14_topo_sound : forall g nodes order,
  nodupb nodes = true -> topological_sort g nodes = Some (Some order) ->
  NoDup order /\ (forall x, In x order <-> In x nodes) /\ length order = length nodes /\
  forall u w, edge g nodes u w -> pos u order < pos w order.
Proof.
  intros g nodes order H E. destruct (topo_spec_holds g nodes H) as [out [E' [Hs _]]].
  rewrite E in E'. injection E' as <-. exact Hs.
Qed.
Print Assumptions C14_topo_sound.

Theorem C14_topo_fuel_ok : forall g nodes, nodupb nodes = true -> topological_sort g nodes <> None.
Proof. intros g nodes H. destruct (topo_spec_holds g nodes H) as [out [E _]]. congruence. Qed.
Print Assumptions C14_topo_fuel_ok.

Theorem C14_topo_iff_acyclic : forall g nodes,
  nodupb nodes = true -> (topological_sort g nodes = Some None <-> has_cycle g nodes).
Proof.
  intros g nodes H. destruct (topo_spec_holds g nodes H) as [out [E [_ Hc]]]. rewrite E, <- Hc. split; congruence.
Qed.
Print Assumptions C14_topo_iff_acyclic.

Theorem C14_topo_edges : forall n edges,
  exists out, topo_edges n edges = Some out /\ topo_spec (graph_of_edges n edges) (seq 0 n) out /\
              (out = None <-> has_cycle (graph_of_edges n edges) (seq 0 n)).
Proof. exact topo_edges_spec. Qed.
Print Assumptions C14_topo_edges.

Theorem C14_scc_partition : forall g nodes,
  exists cs, scc g nodes = Some cs /\
    Forall (fun c => c <> []) cs /\ NoDup (concat cs) /\ forall x, In x (concat cs) <-> In x nodes.
Proof. exact TarjanProofs.scc_partition. Qed.
Print Assumptions C14_scc_partition.

Theorem C14_scc_edges_partition : forall n edges,
  exists cs, scc_edges n edges = Some cs /\ is_partition (seq 0 n) cs.
Proof. intros n edges. apply TarjanProofs.scc_partition. Qed.
Print Assumptions C14_scc_edges_partition.

Theorem C14_condense : forall g nodes cs,
  scc g nodes = Some cs -> scc_classes g nodes cs ->
  exists succs, condense g nodes = Some (cs, succs) /\
    cond_edges_spec g nodes cs succs /\ cond_acyclic succs.
Proof. exact condense_correct. Qed.
Print Assumptions C14_condense.

Theorem C14_scc_classes : forall g nodes cs,
  scc g nodes = Some cs ->
  forall x y, In x nodes -> In y nodes ->
    ((exists c, In c cs /\ In x c /\ In y c) <-> (reach g nodes x y /\ reach g nodes y x)).
Proof. exact TarjanProofs.scc_classes_holds. Qed.
Print Assumptions C14_scc_classes.

Theorem C14_scc_order : forall g nodes cs,
  scc g nodes = Some cs ->
  forall i j ci cj u w, nth_error cs i = Some ci -> nth_error cs j = Some cj -> i < j ->
                        In u ci -> In w cj -> ~ edge g nodes u w.
Proof. exact TarjanProofs.scc_sinks_first. Qed.
Print Assumptions C14_scc_order.

Theorem C14_scc_spec : forall g nodes, exists cs, scc g nodes = Some cs /\ scc_spec g nodes cs.
Proof. exact scc_spec_holds. Qed.
Print Assumptions C14_scc_spec.

Theorem C14_scc_edges_spec : forall n edges,
  exists cs, scc_edges n edges = Some cs /\ scc_spec (graph_of_edges n edges) (seq 0 n) cs.
Proof. exact scc_edges_spec. Qed.
Print Assumptions C14_scc_edges_spec.

Theorem C14_condense_spec : forall g nodes,
  exists cs succs, scc g nodes = Some cs /\ condense g nodes = Some (cs, succs) /\
                   scc_spec g nodes cs /\ cond_spec g nodes (cs, succs).
Proof.
  intros g nodes. destruct (scc_spec_holds g nodes) as [cs [H1 H2]].
  destruct (condense_correct g nodes cs H1 (proj1 (proj2 H2))) as [succs [H3 H4]]. exists cs, succs. tauto.
Qed.
Print Assumptions C14_condense_spec.

Theorem C14_scc_check_sound : forall g nodes cs, scc_check g nodes cs = true -> scc_spec g nodes cs.
Proof. exact scc_check_sound. Qed.
Print Assumptions C14_scc_check_sound.

Theorem C14_topo_check_sound : forall g nodes out, topo_check g nodes out = true -> topo_spec g nodes out.
Proof. exact topo_check_sound. Qed.
Print Assumptions C14_topo_check_sound.

Theorem C14_cond_check_sound : forall g nodes out, cond_check g nodes out = true -> cond_spec g nodes out.
Proof. exact cond_check_sound. Qed.
Print Assumptions C14_cond_check_sound.

(* the Gallina transitive closure used by the certificates is exactly the inductive reachability *)
Theorem C14_reach_closure_correct : forall g nodes s x, reachb g nodes s x = true <-> reach g nodes s x.
Proof. exact reachb_reach. Qed.
Print Assumptions C14_reach_closure_correct.

Theorem C14_has_cycleb_correct : forall g nodes, has_cycleb g nodes = true <-> has_cycle g nodes.
Proof. exact has_cycleb_iff. Qed.
Print Assumptions C14_has_cycleb_correct.

Definition ex_g : graph := [(0,[1]); (1,[2;1]); (2,[0;3;9]); (3,[4;4]); (4,[3]); (5,[3]); (9,[0])].
Definition ex_nodes : list nat := [5;0;1;2;3;4].

Example C14_scc_example : scc ex_g ex_nodes = Some [[4;3]; [5]; [2;1;0]].
Proof. vm_compute. reflexivity. Qed.
Example C14_scc_check_example : scc_check ex_g ex_nodes [[4;3]; [5]; [2;1;0]] = true.
Proof. vm_compute. reflexivity. Qed.
Example C14_scc_check_rejects_example : scc_check ex_g ex_nodes [[5]; [4;3]; [2;1]; [0]] = false.
Proof. vm_compute. reflexivity. Qed.
Example C14_condense_example : condense ex_g ex_nodes = Some ([[4;3]; [5]; [2;1;0]], [[]; [0]; [0]]).
Proof. vm_compute. reflexivity. Qed.
Example C14_topo_infeasible_example : nodupb ex_nodes = true /\ topological_sort ex_g ex_nodes = Some None.
Proof. vm_compute. split; reflexivity. Qed.
Example C14_topo_order_example :
  nodupb [3;2;1;0] = true /\ topological_sort [(0,[1;2;7]); (1,[2;2]); (3,[0])] [3;2;1;0] = Some (Some [3;0;1;2]).
Proof. vm_compute. split; reflexivity. Qed.
Example C14_topo_check_example :
  topo_check [(0,[1;2;7]); (1,[2;2]); (3,[0])] [3;2;1;0] (Some [3;0;1;2]) = true /\
  topo_check [(0,[1;2;7]); (1,[2;2]); (3,[0])] [3;2;1;0] (Some [3;1;0;2]) = false /\
  topo_check ex_g ex_nodes None = true.
Proof. vm_compute. repeat split; reflexivity. Qed.
Example C14_cond_check_example : cond_check ex_g ex_nodes ([[4;3]; [5]; [2;1;0]], [[]; [0]; [0]]) = true.
Proof. vm_compute. reflexivity. Qed.
