(* Property C07, deepened: the POINTER-LEVEL model of solvor/dlx.py (SV.C07.DeepLinks: left/right/up/down/column/
   row/size maps indexed by node id, _build_links, _cover, _uncover, search transcribed assignment by assignment)
   refines the pointer-free functional model SV.C07.Dlx, for every input.
     abs  : lst -> active primary columns * active rows     (DeepAbs: header ring from root via `right`; a row =
            the right-ring of its leftmost node; active = linked into the down-ring of a column that is on a header ring)
     LInv : the representation invariant (DeepAbs.LInv / DeepRep.Rep: the two header rings, every active column's
            down/up ring with its size, the static right/left ring of every row, are well-formed doubly linked rings)
     active s c : column c is on the primary or on the secondary header ring
     (active, fstep, cover_all, uncover_all: head of DeepFinal.v; nonemptyb: DeepBuildAll.v). *)
From Coq Require Import List Arith Bool ZArith.
From SV Require Import C07.Dlx C07.DlxSpec C07.DlxTop.
From SV Require Import C07.DeepLinks C07.DeepAbs C07.DeepBuildAll C07.DeepFinal.
Import ListNotations.

(* _cover(col) = "column c leaves its header ring, every row that has c becomes inactive", and the invariant is kept *)
Theorem C07_deep_cover_refines : forall s c,
  LInv s -> active s c = true ->
  exists s', cover (hdr c) s = Some s' /\ LInv s' /\ abs s' = fstep c (abs s).
Proof. exact cover_refines. Qed.
Print Assumptions C07_deep_cover_refines.

(* _uncover(col) restores the state before _cover(col) EXACTLY (every map, every entry) *)
Theorem C07_deep_uncover_inverse : forall s c s',
  LInv s -> active s c = true -> cover (hdr c) s = Some s' -> uncover (hdr c) s' = Some s.
Proof. exact uncover_inverse. Qed.
Print Assumptions C07_deep_uncover_inverse.

(* ... and so do nested covers undone in the reverse order (the LIFO discipline of search) *)
Theorem C07_deep_uncover_inverse_nested : forall s ks,
  LInv s -> NoDup ks -> (forall k, In k ks -> active s k = true) ->
  exists s', cover_all ks s = Some s' /\ LInv s' /\ uncover_all (rev ks) s' = Some s.
Proof. exact uncover_inverse_nested. Qed.
Print Assumptions C07_deep_uncover_inverse_nested.

(* _build_links: unless it raises IndexError, the structure it builds satisfies the invariant and denotes the functional
   model's initial state (rows without any truthy entry have no node; they never matter: DeepFinal.search_ne) *)
Theorem C07_deep_build_refines : forall inp,
  rows_in_range (length (col_names inp)) (mk_rows (matrix inp)) = true ->
  exists s, build_links inp = Some s /\ LInv s
            /\ abs s = (prim_cols inp, filter nonemptyb (mk_rows (matrix inp))).
Proof. exact build_refines. Qed.
Print Assumptions C07_deep_build_refines.

Theorem C07_deep_build_index_error : forall inp,
  rows_in_range (length (col_names inp)) (mk_rows (matrix inp)) = false -> build_links inp = None.
Proof. exact DeepBuildAll.build_links_none. Qed.
Print Assumptions C07_deep_build_index_error.

(* search() on any state satisfying the invariant: same return flag, same counters and solutions as the functional
   search on the abstraction, no fuel exhaustion in any pointer loop, links restored exactly when it returns False *)
Theorem C07_deep_search_refines_state : forall fa ms mi f s cur st b st',
  LInv s ->
  search fa ms mi f (fst (abs s)) (snd (abs s)) cur st = Some (b, st') ->
  exists s', psearch fa ms mi f s cur st = Some (b, st', s') /\ (b = false -> s' = s).
Proof.
  intros fa ms mi f s cur st b st' [nc [N [G [cols [scols [rows [HR [HO HC]]]]]]]] Hs.
  rewrite (abs_Rep s nc N G _ _ _ HR HO HC) in Hs. exact (psearch_refines fa ms mi nc N G f s _ _ _ _ _ _ _ HR Hs).
Qed.
Print Assumptions C07_deep_search_refines_state.

(* the whole solver, every input (well-formed or not): identical outcome - ordered selections, objective,
   iterations, evaluations, status, IndexError *)
Theorem C07_deep_search_refines : forall inp, psolve inp = solve inp.
Proof. exact search_refines. Qed.
Print Assumptions C07_deep_search_refines.

(* the theorems of Props/C07.v about `solve` hold of the pointer-level solver *)
Theorem C07_pointer_sound : forall inp r,
  valid_input inp = true -> psolve inp = Done r -> forall S, In S (selections r) -> is_cover inp S.
Proof. exact (psolve_valid _ solve_sound). Qed.
Print Assumptions C07_pointer_sound.

Theorem C07_pointer_complete : forall inp r,
  valid_input inp = true -> psolve inp = Done r -> find_all inp = true -> r_status r = OPTIMAL ->
  (exists R, r_sol r = SMany R /\ r_obj r = length R) /\ lists_all_covers inp (selections r).
Proof. exact (psolve_valid _ solve_complete). Qed.
Print Assumptions C07_pointer_complete.

Theorem C07_pointer_nodup : forall inp r,
  valid_input inp = true -> psolve inp = Done r -> find_all inp = true -> r_status r = OPTIMAL ->
  forall i j, i < j < length (selections r) -> ~ same_set (nth i (selections r) []) (nth j (selections r) []).
Proof. exact (psolve_valid _ solve_nodup). Qed.
Print Assumptions C07_pointer_nodup.

Theorem C07_pointer_nodup_any : forall inp r,
  valid_input inp = true -> psolve inp = Done r ->
  forall i j, i < j < length (selections r) -> ~ same_set (nth i (selections r) []) (nth j (selections r) []).
Proof. exact (psolve_valid _ solve_nodup_any). Qed.
Print Assumptions C07_pointer_nodup_any.

Theorem C07_pointer_prefix : forall inp r,
  valid_input inp = true -> psolve inp = Done r -> find_all inp = true ->
  exists R Q, lists_all_covers inp R /\ R = selections r ++ Q.
Proof. exact (psolve_valid _ solve_prefix). Qed.
Print Assumptions C07_pointer_prefix.

Theorem C07_pointer_find_all_uncut : forall inp r,
  valid_input inp = true -> psolve inp = Done r -> find_all inp = true ->
  r_status r = OPTIMAL \/ r_status r = INFEASIBLE -> lists_all_covers inp (selections r).
Proof. exact (psolve_valid _ solve_find_all_uncut). Qed.
Print Assumptions C07_pointer_find_all_uncut.

Theorem C07_pointer_infeasible_iff : forall inp r,
  valid_input inp = true -> psolve inp = Done r -> r_status r <> MAX_ITER ->
  (r_status r = INFEASIBLE <-> ~ exists S, is_cover inp S).
Proof. exact (psolve_valid _ solve_infeasible_iff). Qed.
Print Assumptions C07_pointer_infeasible_iff.

Theorem C07_pointer_first : forall inp r,
  valid_input inp = true -> psolve inp = Done r -> find_all inp = false -> r_status r = OPTIMAL ->
  exists s, r_sol r = SOne s /\ r_obj r = length s /\ is_cover inp s.
Proof. exact (psolve_valid _ solve_first). Qed.
Print Assumptions C07_pointer_first.

Theorem C07_pointer_status : forall inp r, psolve inp = Done r -> status_facts inp r.
Proof. exact (psolve_done _ solve_status). Qed.
Print Assumptions C07_pointer_status.

Theorem C07_pointer_fuel : forall inp, psolve inp <> OutOfFuel.
Proof. intros inp. rewrite search_refines. apply solve_fuel_ok. Qed.
Print Assumptions C07_pointer_fuel.

Theorem C07_pointer_index_error : forall inp,
  psolve inp = IndexError <->
  degenerate inp = false /\ rows_in_range (length (col_names inp)) (mk_rows (matrix inp)) = false.
Proof. intros inp. rewrite search_refines. apply solve_index_error. Qed.
Print Assumptions C07_pointer_index_error.

Definition T := true.
Definition F := false.
Definition dx_matrix : list (list bool) :=
  [[T;F;T;F]; [F;T;F;F]; [F;F;F;F]; [F;T;F;T]; [T;F;F;F]; [F;F;T;F]; [T;T;F;F]; [F;F;T;T]].
(* named columns, one secondary column, one row without any entry *)
Definition dx_all : input :=
  {| matrix := dx_matrix; columns := Some [10; 11; 12; 13]; secondary := [13];
     find_all := true; max_solutions := None; max_iter := 10000000%Z |}.
Definition dx_state : lst := match build_links dx_all with Some s => s | None => init_links 0 end.

(* the hypothesis of build_refines holds, the built structure has 17 nodes + 6 headers/roots, and `abs` of it is
   the functional model's initial state without the empty row *)
Example C07_deep_nonvacuous_build :
  rows_in_range (length (col_names dx_all)) (mk_rows (matrix dx_all)) = true
  /\ n_ids dx_state = 17
  /\ abs dx_state = ([0; 1; 2], [(0, [0; 2]); (1, [1]); (3, [1; 3]); (4, [0]); (5, [2]); (6, [0; 1]); (7, [2; 3])])
  /\ ascols dx_state = [3].
Proof. vm_compute. repeat split. Qed.

(* covering column 1 (active) removes rows 1, 3, 6; covering then the secondary column 3; uncovering 3 then 1 gives
   back the very same maps *)
Example C07_deep_nonvacuous_cover :
  active dx_state 1 = true /\ active dx_state 3 = true
  /\ option_map abs (cover (hdr 1) dx_state) = Some ([0; 2], [(0, [0; 2]); (4, [0]); (5, [2]); (7, [2; 3])])
  /\ option_map abs (cover_all [1; 3] dx_state) = Some ([0; 2], [(0, [0; 2]); (4, [0]); (5, [2])])
  /\ match cover_all [1; 3] dx_state with Some s' => uncover_all [3; 1] s' | None => None end = Some dx_state
  /\ (match cover_all [1; 3] dx_state with Some s' => uncover_all [1; 3] s' | None => None end = Some dx_state -> False).
Proof. vm_compute. repeat split. intros H. discriminate H. Qed.

(* the whole pointer-level solver on this input: 7 covers, the same outcome as the functional model *)
Example C07_deep_nonvacuous_solve :
  valid_input dx_all = true
  /\ psolve dx_all = Done {| r_sol := SMany [[0; 1]; [0; 3]; [4; 1; 5]; [4; 1; 7]; [4; 3; 5]; [6; 5]; [6; 7]];
                             r_obj := 7; r_iters := 13; r_evals := 12; r_status := OPTIMAL |}.
Proof. vm_compute. repeat split. Qed.
