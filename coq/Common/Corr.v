(* Shared helpers for the generated correspondence files (coq/Cases/<id>/*.v);
   nothing here is specific to one property. *)
From Coq Require Import List ZArith Bool Arith.
Import ListNotations.

(* indices (from 0) of the cases on which the boolean check fails *)
Fixpoint failing_from {A} (i : nat) (f : A -> bool) (l : list A) : list nat :=
  match l with
  | [] => []
  | x :: xs => if f x then failing_from (S i) f xs else i :: failing_from (S i) f xs
  end.
Definition failing {A} (f : A -> bool) (l : list A) : list nat := failing_from 0 f l.

Lemma failing_from_nil_forallb {A} (f : A -> bool) l : forall i,
  failing_from i f l = [] -> forallb f l = true.
Proof.
  induction l as [|x xs IH]; intros i H; simpl in *; [reflexivity|].
  destruct (f x); [apply (IH (S i)); exact H | discriminate].
Qed.

Lemma failing_nil_forall {A} (f : A -> bool) l :
  failing f l = [] -> forall x, In x l -> f x = true.
Proof.
  intros H. apply forallb_forall. exact (failing_from_nil_forallb f l 0 H).
Qed.

(* list equality helpers used by observable comparison *)
Fixpoint list_eqb {A} (eqb : A -> A -> bool) (a b : list A) : bool :=
  match a, b with
  | [], [] => true
  | x :: xs, y :: ys => eqb x y && list_eqb eqb xs ys
  | _, _ => false
  end.

Definition option_eqb {A} (eqb : A -> A -> bool) (a b : option A) : bool :=
  match a, b with
  | None, None => true
  | Some x, Some y => eqb x y
  | _, _ => false
  end.

Definition pair_eqb {A B} (ea : A -> A -> bool) (eb : B -> B -> bool) (a b : A * B) : bool :=
  ea (fst a) (fst b) && eb (snd a) (snd b).
