(* C16 - specification of solve_bin_pack's answer + boolean checker with soundness lemma. *)
From Coq Require Import List Arith ZArith QArith Bool Lia.
From SV Require Import C16.KnapCore C16.Knapsack C16.BinPack.
Import ListNotations.

(* contrib: what item i adds to bin b; load: the total size of the items assigned to bin b *)
Definition contrib (sizes : list Q) (asg : list nat) (b : nat) (i : nat) : Q :=
  if (nth i asg 0%nat =? b)%nat then nth i sizes 0 else 0.
Definition load (sizes : list Q) (asg : list nat) (b : nat) : Q :=
  sumQ (map (contrib sizes asg b) (seq 0 (length sizes))).

Definition bin_raises (sizes : list Q) (cap : Q) : bool :=
  match sizes with
  | [] => false
  | _ => Qle_bool cap 0 || negb (valid_sizes sizes cap)
  end.

(* asg : item -> bin is total (one entry per item: every item in exactly one bin), every entry is a bin number
   below k, no load exceeds the capacity, every bin 0..k-1 is used, the objective k cannot be below
   total/capacity (stated without division: total <= k * capacity), and OPTIMAL is claimed only for k <= 1
   (k = 1 with at least one item, k = 0 with none: then k is trivially minimal, see bin_optimal_minimal).
   `slack` is 0 for the property as stated; the code's fit test has the absolute tolerance _EPS = 1e-9, which is
   what holds for arbitrary rationals (BinProofs: slack = eps in general, slack = 0 on a grid coarser than eps). *)
Definition bin_valid (slack : Q) (sizes : list Q) (cap : Q) (asg : list nat) (k : nat) (st : status) : Prop :=
  length asg = length sizes /\
  Forall (fun b => (b < k)%nat) asg /\
  (forall b, (b < k)%nat -> load sizes asg b <= cap + slack) /\
  (forall b, (b < k)%nat -> In b asg) /\
  sumQ sizes <= inject_Z (Z.of_nat k) * (cap + slack) /\
  (st = OPTIMAL -> (k <= 1)%nat) /\
  (sizes <> [] -> (1 <= k)%nat).

Definition bin_spec (slack : Q) (sizes : list Q) (cap : Q) (o : bobs) : Prop :=
  match o with
  | None => bin_raises sizes cap = true
  | Some (asg, k, st) => bin_raises sizes cap = false /\ bin_valid slack sizes cap asg k st
  end.

Definition bin_check (slack : Q) (sizes : list Q) (cap : Q) (o : bobs) : bool :=
  match o with
  | None => bin_raises sizes cap
  | Some (asg, k, st) =>
      negb (bin_raises sizes cap) &&
      (length asg =? length sizes)%nat &&
      forallb (fun b => (b <? k)%nat) asg &&
      forallb (fun b => Qle_bool (load sizes asg b) (cap + slack)) (seq 0 k) &&
      forallb (fun b => existsb (Nat.eqb b) asg) (seq 0 k) &&
      Qle_bool (sumQ sizes) (inject_Z (Z.of_nat k) * (cap + slack)) &&
      (match st with OPTIMAL => (k <=? 1)%nat | FEASIBLE => true end) &&
      (match sizes with [] => true | _ => (1 <=? k)%nat end)
  end.

Lemma bin_check_sound slack sizes cap o : bin_check slack sizes cap o = true -> bin_spec slack sizes cap o.
Proof.
  destruct o as [[[asg k] st]|]; cbn [bin_check bin_spec]; [|intros H; exact H].
  intros H.
  apply andb_prop in H as [H H8]. apply andb_prop in H as [H H7]. apply andb_prop in H as [H H6].
  apply andb_prop in H as [H H5]. apply andb_prop in H as [H H4]. apply andb_prop in H as [H H3].
  apply andb_prop in H as [H1 H2]. apply negb_true_iff in H1.
  split; [exact H1|].
  unfold bin_valid. repeat split.
  - apply Nat.eqb_eq. exact H2.
  - apply Forall_forall. intros b Hb. rewrite forallb_forall in H3. apply Nat.ltb_lt. apply H3. exact Hb.
  - intros b Hb. rewrite forallb_forall in H4. apply Qle_bool_iff. apply H4. apply in_seq. lia.
  - intros b Hb. rewrite forallb_forall in H5.
    assert (Hin : In b (seq 0 k)) by (apply in_seq; lia).
    specialize (H5 b Hin). apply existsb_exists in H5. destruct H5 as [x [Hx Hxb]].
    apply Nat.eqb_eq in Hxb. subst x. exact Hx.
  - apply Qle_bool_iff. exact H6.
  - intros Hst. subst st. apply Nat.leb_le. exact H7.
  - intros Hne. destruct sizes as [|s ss]; [contradiction|]. apply Nat.leb_le. exact H8.
Qed.

(* why k <= 1 is "provably minimal": any assignment of a non-empty item list into bins 0..k'-1 needs k' >= 1 *)
Lemma bin_optimal_minimal (sizes : list Q) (asg' : list nat) (k' : nat) :
  sizes <> [] -> length asg' = length sizes -> Forall (fun b => (b < k')%nat) asg' -> (1 <= k')%nat.
Proof.
  intros Hne Hlen Hall. destruct sizes as [|s ss]; [contradiction|].
  destruct asg' as [|a as']; [discriminate Hlen|].
  inversion Hall as [|x l Hx Hl]; subst. lia.
Qed.
