(* C16 - feasibility and faithful scoring of the rational instance knap_q, both exits:
   the DP answer that passed the code's own final weight check, and the greedy fallback. *)
From Coq Require Import List Arith ZArith QArith Bool Lia Lqa Permutation.
From SV Require Import C16.KnapCore C16.Knapsack C16.KnapSpec C16.KnapCoreProofs.
Import ListNotations.

Lemma sumQ_cons x l : sumQ (x :: l) = x + sumQ l.
Proof. reflexivity. Qed.

Lemma Qltb_false a b : Qltb a b = false -> b <= a.
Proof. unfold Qltb. intros H. apply negb_false_iff in H. apply Qle_bool_iff. exact H. Qed.

Lemma Qltb_true a b : Qltb a b = true -> a < b.
Proof.
  unfold Qltb. intros H. apply negb_true_iff in H. apply Qnot_le_lt. intros Hle.
  apply Qle_bool_iff in Hle. congruence.
Qed.

Lemma tol_nonneg : 0 <= tol.
Proof. unfold tol, Qle. cbn. lia. Qed.

Lemma knap_feasible_q_slack s s' values weights capacity sel obj :
  knap_feasible_q s values weights capacity sel obj ->
  (sumQ (pickQ weights sel) <= capacity + s -> sumQ (pickQ weights sel) <= capacity + s') ->
  knap_feasible_q s' values weights capacity sel obj.
Proof. intros [H1 [H2 [H3 [H4 H5]]]] H. exact (conj H1 (conj H2 (conj H3 (conj (H H4) H5)))). Qed.

Lemma insert_by_perm {A} (before : A -> A -> bool) x : forall l, Permutation (insert_by before x l) (x :: l).
Proof.
  induction l as [|y r IH]; cbn [insert_by]; [apply Permutation_refl|].
  destruct (before y x); [|apply Permutation_refl].
  eapply perm_trans; [apply perm_skip; exact IH|apply perm_swap].
Qed.

Lemma stable_sort_perm {A} (before : A -> A -> bool) : forall l, Permutation (stable_sort before l) l.
Proof.
  induction l as [|x l IH]; [apply Permutation_refl|]. unfold stable_sort in *. cbn [fold_right].
  eapply perm_trans; [apply insert_by_perm|apply perm_skip; exact IH].
Qed.

Lemma incr_cons a l : (forall x, In x l -> (a < x)%nat) -> incr l -> incr (a :: l).
Proof. destruct l as [|b t]; intros H Hi; [exact I|]. cbn [incr]. split; [apply H; left; reflexivity|exact Hi]. Qed.

Lemma insert_incr x : forall l, incr l -> ~ In x l -> incr (insert_by Nat.ltb x l).
Proof.
  induction l as [|y r IH]; intros Hi Hnin; cbn [insert_by]; [exact I|].
  destruct (y <? x)%nat eqn:E.
  - apply Nat.ltb_lt in E. apply incr_cons.
    + intros z Hz. apply (Permutation_in _ (insert_by_perm Nat.ltb x r)) in Hz.
      destruct Hz as [<-|Hz]; [exact E|]. exact (incr_lower y r Hi z Hz).
    + apply IH; [exact (incr_tail y r Hi)|]. intros Hin. apply Hnin. right. exact Hin.
  - apply Nat.ltb_ge in E. apply incr_cons; [|exact Hi].
    assert (Hxy : (x < y)%nat).
    { destruct (Nat.eq_dec x y) as [->|Hne]; [exfalso; apply Hnin; left; reflexivity|lia]. }
    intros z [<-|Hz]; [exact Hxy|]. pose proof (incr_lower y r Hi z Hz). lia.
Qed.

Lemma nat_sort_incr : forall l, NoDup l -> incr (nat_sort l).
Proof.
  induction l as [|x l IH]; intros Hnd; [exact I|].
  inversion Hnd as [|y l' Hnin Hnd']; subst. unfold nat_sort, stable_sort in *. cbn [fold_right].
  apply insert_incr; [apply IH; exact Hnd'|].
  intros Hin. apply Hnin. exact (Permutation_in _ (stable_sort_perm Nat.ltb l) Hin).
Qed.

Lemma sumQ_perm (f : nat -> Q) l l' : Permutation l l' -> sumQ (map f l) == sumQ (map f l').
Proof.
  intros H. induction H as [|x l l' H IH|x y l|l l' l'' H1 IH1 H2 IH2]; cbn [map]; rewrite ?sumQ_cons.
  - reflexivity.
  - rewrite IH. reflexivity.
  - lra.
  - rewrite IH1. exact IH2.
Qed.

Lemma subseq_NoDup {A} (a b : list A) : subseq a b -> NoDup b -> NoDup a.
Proof.
  intros H. induction H as [|x l1 l2 H IH|x l1 l2 H IH]; intros Hnd.
  - constructor.
  - inversion Hnd; subst. apply IH. assumption.
  - inversion Hnd as [|y l Hnin Hnd']; subst. constructor; [|apply IH; exact Hnd'].
    intros Hin. apply Hnin. exact (subseq_In _ _ H x Hin).
Qed.

Lemma greedy_take_subseq : forall order rem, subseq (greedy_take order rem) (map fst order).
Proof.
  induction order as [|[i w] rest IH]; intros rem; cbn [greedy_take map fst]; [constructor|].
  destruct (Qle_bool w rem); [apply sub_take|apply sub_skip]; apply IH.
Qed.

Lemma greedy_take_weight (weights : list Q) : forall order rem,
  0 <= rem -> (forall p, In p order -> snd p = nth (fst p) weights 0) ->
  sumQ (pickQ weights (greedy_take order rem)) <= rem.
Proof.
  induction order as [|[i w] rest IH]; intros rem Hrem Hw; cbn [greedy_take].
  - cbn. exact Hrem.
  - assert (Hw' : forall p, In p rest -> snd p = nth (fst p) weights 0) by (intros p Hp; apply Hw; right; exact Hp).
    destruct (Qle_bool w rem) eqn:E.
    + apply Qle_bool_iff in E. unfold pickQ. cbn [map]. rewrite sumQ_cons.
      specialize (Hw (i, w) (or_introl eq_refl)). cbn [fst snd] in Hw. rewrite <- Hw.
      assert (H0 : 0 <= rem - w) by lra.
      specialize (IH (rem - w) H0 Hw'). unfold pickQ in IH. lra.
    + apply IH; assumption.
Qed.

Lemma greedy_fallback_feasible values weights capacity minimize :
  0 <= capacity ->
  knap_feasible_q 0 values weights capacity
                  (qsel (greedy_fallback values weights capacity minimize))
                  (qobj (greedy_fallback values weights capacity minimize)).
Proof.
  intros Hcap. unfold greedy_fallback. cbn [qsel qobj].
  set (n := length values).
  set (keyed := map (fun i => (i, ratio (nth i values 0) (nth i weights 0))) (seq 0 n)).
  set (before := if minimize then (fun y x : nat * option Q => key_lt (snd y) (snd x))
                 else (fun y x : nat * option Q => key_lt (snd x) (snd y))).
  set (order := map (fun p : nat * option Q => (fst p, nth (fst p) weights 0)) (stable_sort before keyed)).
  set (taken := greedy_take order capacity).
  assert (Hord : Permutation (map fst order) (seq 0 n)).
  { unfold order. rewrite map_map. cbn [fst].
    eapply perm_trans; [apply Permutation_map; apply stable_sort_perm|].
    unfold keyed. rewrite map_map. cbn [fst]. rewrite map_id. apply Permutation_refl. }
  assert (Hnd : NoDup taken).
  { apply (subseq_NoDup _ _ (greedy_take_subseq order capacity)).
    apply (Permutation_NoDup (Permutation_sym Hord)). apply seq_NoDup. }
  assert (Hperm : Permutation (nat_sort taken) taken) by apply stable_sort_perm.
  pose proof (nat_sort_incr taken Hnd) as Hi.
  unfold knap_feasible_q. split; [exact Hi|]. split; [apply incr_NoDup; exact Hi|].
  split; [|split].
  - apply Forall_forall. intros i Hin.
    apply (Permutation_in _ Hperm) in Hin.
    apply (subseq_In _ _ (greedy_take_subseq order capacity)) in Hin.
    apply (Permutation_in _ Hord) in Hin. apply in_seq in Hin. fold n. lia.
  - unfold pickQ. rewrite (sumQ_perm (fun i => nth i weights 0) _ _ Hperm).
    pose proof (greedy_take_weight weights order capacity Hcap) as Hw.
    assert (Hsnd : forall p, In p order -> snd p = nth (fst p) weights 0).
    { intros p Hp. unfold order in Hp. apply in_map_iff in Hp. destruct Hp as [q [<- _]]. reflexivity. }
    specialize (Hw Hsnd). unfold pickQ in Hw. fold taken in Hw. lra.
  - reflexivity.
Qed.

(* the two exits: the DP answer, which has passed the code's final weight check, and the greedy fallback *)
Lemma knap_q_cases values weights capacity minimize r :
  0 <= capacity -> knap_q values weights capacity minimize = Some r ->
  qstatus r = OPTIMAL /\ knap_feasible_q tol values weights capacity (qsel r) (qobj r) \/
  r = greedy_fallback values weights capacity minimize.
Proof.
  intros Hcap Hr. pose proof tol_nonneg as Htol. unfold knap_q in Hr. destruct values as [|v0 vs] eqn:Ev.
  - injection Hr as <-. left. split; [reflexivity|]. cbn [qsel qobj].
    assert (Hw : sumQ (pickQ weights []) <= capacity + tol) by (cbn; lra).
    exact (conj I (conj (NoDup_nil _) (conj (Forall_nil _) (conj Hw (Qeq_refl 0))))).
  - rewrite <- Ev in *. clear Ev v0 vs.
    destruct (negb (length weights =? length values)%nat) eqn:Elen; [discriminate Hr|].
    destruct (Qltb capacity 0); [discriminate Hr|].
    apply negb_false_iff, Nat.eqb_eq in Elen.
    destruct (to_int_capacity capacity weights) as [ic scale].
    set (vals := map (Qmult (if minimize then -1 # 1 else 1)) values) in Hr.
    set (iw := map (int_weight_q scale) weights) in Hr.
    set (sel := solve_core 0 Qplus Qltb vals iw (Z.to_nat ic)) in Hr.
    destruct (Qltb (capacity + tol) (sumQ (pickQ weights sel))) eqn:Egate; injection Hr as <-; [right; reflexivity|left].
    split; [reflexivity|]. cbn [qsel qobj].
    assert (Hl : length iw = length vals) by (unfold iw, vals; rewrite !map_length; exact Elen).
    destruct (solve_core_struct Q 0 Qplus Qltb vals iw (Z.to_nat ic) Hl) as [Hi Hf]. fold sel in Hi, Hf.
    unfold vals in Hf. rewrite map_length in Hf.
    exact (conj Hi (conj (incr_NoDup _ Hi) (conj Hf (conj (Qltb_false _ _ Egate) (Qeq_refl _))))).
Qed.

Lemma knap_q_feasible values weights capacity minimize r :
  Qle_bool 0 capacity = true ->
  knap_q values weights capacity minimize = Some r ->
  knap_feasible_q tol values weights capacity (qsel r) (qobj r).
Proof.
  intros Hcap Hr. apply Qle_bool_iff in Hcap.
  destruct (knap_q_cases _ _ _ _ _ Hcap Hr) as [[_ H]| ->]; [exact H|].
  apply (knap_feasible_q_slack 0); [apply greedy_fallback_feasible; exact Hcap|].
  pose proof tol_nonneg. lra.
Qed.
