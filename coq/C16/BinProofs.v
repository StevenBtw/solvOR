(* C16 - solve_bin_pack: the loop invariant of the placement loop and the validity of the result.
   For every bin b:  remaining_b == capacity - (total size of the processed items assigned to b),
   remaining_b >= -eps, and b holds at least one processed item.
   The bound on the number of bins is not part of the invariant: the total size is the sum of the loads (double
   counting), so it follows from the bound on each load - with slack eps in general, without slack on a grid. *)
From Coq Require Import List Arith ZArith QArith Bool Lia Lqa Permutation.
From SV Require Import C16.KnapCore C16.Knapsack C16.KnapSpec C16.KnapCoreProofs C16.KnapQProofs C16.KnapGridProofs
                       C16.BinPack C16.BinSpec.
Import ListNotations.

Lemma set_nth_length {A} (v : A) : forall l i, length (set_nth i v l) = length l.
Proof. induction l as [|x l IH]; intros i; destruct i; cbn [set_nth length]; try reflexivity. f_equal. apply IH. Qed.

Lemma nth_set_nth_eq {A} (v d : A) : forall l i, (i < length l)%nat -> nth i (set_nth i v l) d = v.
Proof.
  induction l as [|x l IH]; intros i Hi; cbn [length] in Hi; [lia|].
  destruct i; cbn [set_nth nth]; [reflexivity|]. apply IH. lia.
Qed.

Lemma nth_set_nth_neq {A} (v d : A) : forall l i j, i <> j -> nth j (set_nth i v l) d = nth j l d.
Proof.
  induction l as [|x l IH]; intros i j Hij; destruct i, j; cbn [set_nth nth]; try reflexivity; try lia.
  apply IH. lia.
Qed.

Lemma map_nth_seq {A} (d : A) : forall l, map (fun i => nth i l d) (seq 0 (length l)) = l.
Proof.
  induction l as [|x l IH]; [reflexivity|]. cbn [length seq map nth].
  rewrite <- seq_shift, map_map. cbn [nth]. rewrite IH. reflexivity.
Qed.

Lemma sumQ_zero {A} (f : A -> Q) : forall l, (forall x, In x l -> f x == 0) -> sumQ (map f l) == 0.
Proof.
  induction l as [|x l IH]; intros H; [reflexivity|]. cbn [map]. rewrite sumQ_cons.
  rewrite (H x (or_introl eq_refl)), IH by (intros y Hy; apply H; right; exact Hy). lra.
Qed.

Lemma sum_hit (s : Q) a : forall k st, (st <= a < st + k)%nat ->
  sumQ (map (fun b => if (a =? b)%nat then s else 0) (seq st k)) == s.
Proof.
  induction k as [|k IH]; intros st Hr; [lia|].
  cbn [seq map]. rewrite sumQ_cons. destruct (Nat.eqb_spec a st) as [->|Hne].
  - rewrite sumQ_zero; [lra|]. intros b Hb. apply in_seq in Hb. destruct (Nat.eqb_spec st b); [lia|reflexivity].
  - rewrite IH by lia. lra.
Qed.

Lemma sum_add (f g : nat -> Q) : forall l, sumQ (map (fun b => f b + g b) l) == sumQ (map f l) + sumQ (map g l).
Proof. induction l as [|x l IH]; cbn [map]; rewrite ?sumQ_cons; [cbn; lra|]. rewrite IH. lra. Qed.

Lemma sum_bound (f : nat -> Q) (c : Q) : forall l, (forall b, In b l -> f b <= c) ->
  sumQ (map f l) <= inject_Z (Z.of_nat (length l)) * c.
Proof.
  induction l as [|x l IH]; intros H.
  - cbn [map length sumQ fold_right]. change (inject_Z (Z.of_nat 0)) with 0. lra.
  - cbn [map length]. rewrite sumQ_cons. rewrite Nat2Z.inj_succ. unfold Z.succ. rewrite inject_Z_plus.
    change (inject_Z 1) with 1. pose proof (H x (or_introl eq_refl)).
    assert (IH' : sumQ (map f l) <= inject_Z (Z.of_nat (length l)) * c) by (apply IH; intros b Hb; apply H; right; exact Hb).
    lra.
Qed.

(* double counting: summing the per-bin contributions of a list of items over all bins gives their total size *)
Lemma double_count sizes asg k : forall l, (forall i, In i l -> (nth i asg 0 < k)%nat) ->
  sumQ (map (fun b => sumQ (map (contrib sizes asg b) l)) (seq 0 k)) == sumQ (map (fun i => nth i sizes 0) l).
Proof.
  induction l as [|i l IH]; intros H.
  - apply sumQ_zero. reflexivity.
  - cbn [map]. rewrite sumQ_cons.
    rewrite (map_ext (fun b => sumQ (contrib sizes asg b i :: map (contrib sizes asg b) l))
                     (fun b => contrib sizes asg b i + sumQ (map (contrib sizes asg b) l))) by (intros b; reflexivity).
    rewrite sum_add. rewrite IH by (intros j Hj; apply H; right; exact Hj).
    unfold contrib at 1. rewrite sum_hit; [reflexivity|]. specialize (H i (or_introl eq_refl)). lia.
Qed.

(* k bins whose loads are at most c hold at most k * c: the clause "k >= total / capacity" of the property *)
Lemma loads_total sizes asg k c :
  length asg = length sizes -> Forall (fun b => (b < k)%nat) asg ->
  (forall b, (b < k)%nat -> load sizes asg b <= c) -> sumQ sizes <= inject_Z (Z.of_nat k) * c.
Proof.
  intros Hlen Hrng Hload. rewrite <- (map_nth_seq 0 sizes) at 1.
  rewrite <- (double_count sizes asg k).
  - rewrite <- (seq_length k 0) at 2. apply sum_bound. intros b Hb. apply in_seq in Hb. apply Hload. lia.
  - intros i Hi. apply in_seq in Hi. rewrite Forall_forall in Hrng. apply Hrng. apply nth_In. lia.
Qed.

Lemma first_fit_spec eps size : forall bins b0 b, first_fit eps size bins b0 = Some b ->
  (b0 <= b < b0 + length bins)%nat /\ size - nth (b - b0) bins 0 <= eps.
Proof.
  induction bins as [|r rest IH]; intros b0 b H; cbn [first_fit] in H; [discriminate|].
  destruct (Qle_bool (size - r) eps) eqn:E.
  - injection H as <-. rewrite Nat.sub_diag. cbn [nth length]. split; [lia|apply Qle_bool_iff; exact E].
  - destruct (IH (S b0) b H) as [Hr Hle]. cbn [length]. split; [lia|].
    replace (b - b0)%nat with (S (b - S b0)) by lia. exact Hle.
Qed.

Lemma best_fit_spec eps size : forall bins b0 best b r, best_fit eps size bins b0 best = Some (b, r) ->
  best = Some (b, r) \/ ((b0 <= b < b0 + length bins)%nat /\ size - nth (b - b0) bins 0 <= eps).
Proof.
  induction bins as [|x rest IH]; intros b0 best b r H; cbn [best_fit] in H; [left; exact H|].
  destruct (IH (S b0) _ b r H) as [Hb|[Hr Hle]].
  - destruct (Qle_bool (size - x) eps) eqn:E; cbn [andb] in Hb.
    + destruct (match best with None => true | Some (_, br) => Qltb eps (br - x) end).
      * injection Hb as <- <-. right. rewrite Nat.sub_diag. cbn [nth length]. split; [lia|apply Qle_bool_iff; exact E].
      * left. exact Hb.
    + left. exact Hb.
  - right. cbn [length]. split; [lia|]. replace (b - b0)%nat with (S (b - S b0)) by lia. exact Hle.
Qed.

Lemma choose_spec bf eps size bins b : choose bf eps size bins = Some b ->
  (b < length bins)%nat /\ size - nth b bins 0 <= eps.
Proof.
  unfold choose. destruct bf.
  - destruct (best_fit eps size bins 0 None) as [[b' r]|] eqn:E; cbn [option_map fst]; [|discriminate].
    intros H. injection H as <-. destruct (best_fit_spec _ _ _ _ _ _ _ E) as [Hb|[Hr Hle]]; [discriminate|].
    rewrite Nat.sub_0_r in Hle. split; [lia|exact Hle].
  - intros H. destruct (first_fit_spec _ _ _ _ _ H) as [Hr Hle]. rewrite Nat.sub_0_r in Hle. split; [lia|exact Hle].
Qed.

Section Loop.
  Variables (eps cap : Q) (sizes : list Q) (bf : bool).
  Hypothesis Heps : 0 <= eps.
  Hypothesis Hsz : forall i, (i < length sizes)%nat -> 0 <= nth i sizes 0 <= cap.

  Definition lsum (asg : list nat) (b : nat) (done : list nat) : Q := sumQ (map (contrib sizes asg b) done).

  Record pack_inv (bins : list Q) (asg : list nat) (done : list nat) : Prop := {
    i_len : length asg = length sizes;
    i_rng : forall i, In i done -> (nth i asg 0 < length bins)%nat;
    i_rem : forall b, (b < length bins)%nat -> nth b bins 0 == cap - lsum asg b done;
    i_low : forall b, (b < length bins)%nat -> - eps <= nth b bins 0;
    i_used : forall b, (b < length bins)%nat -> exists i, In i done /\ nth i asg 0%nat = b
  }.

  Lemma lsum_cons asg b done idx v : (idx < length asg)%nat -> ~ In idx done ->
    lsum (set_nth idx v asg) b (idx :: done) = (if (v =? b)%nat then nth idx sizes 0 else 0) + lsum asg b done.
  Proof.
    intros Hi Hnin. unfold lsum. cbn [map]. rewrite sumQ_cons. unfold contrib at 1.
    rewrite nth_set_nth_eq by exact Hi. f_equal. f_equal. apply map_ext_in. intros i Hin. unfold contrib.
    rewrite nth_set_nth_neq; [reflexivity|]. intros ->. contradiction.
  Qed.

  (* All four branches of `place` have one shape: item idx goes to bin b, and bins' lists the remaining capacities
     afterwards - the old bins keep theirs, except that b loses the item's size; at most one bin is new, and then it
     is b (so that no bin is ever empty). *)
  Lemma put_inv bins asg done idx b bins' :
    pack_inv bins asg done -> (idx < length sizes)%nat -> ~ In idx done ->
    (length bins <= length bins')%nat -> (b < length bins')%nat ->
    (forall c, (c < length bins)%nat ->
               nth c bins' 0 == nth c bins 0 - (if (b =? c)%nat then nth idx sizes 0 else 0)) ->
    (forall c, (length bins <= c < length bins')%nat -> c = b /\ nth c bins' 0 == cap - nth idx sizes 0) ->
    - eps <= nth b bins' 0 ->
    pack_inv bins' (set_nth idx b asg) (idx :: done).
  Proof.
    intros [Ilen Irng Irem Ilow Iused] Hidx Hnin Hlen Hb Hold Hnew Hlow.
    assert (Hidx' : (idx < length asg)%nat) by (rewrite Ilen; exact Hidx).
    assert (Hasg : forall i, In i done -> nth i (set_nth idx b asg) 0%nat = nth i asg 0%nat).
    { intros i Hi. apply nth_set_nth_neq. intros ->. contradiction. }
    assert (Hcases : forall c, (c < length bins')%nat -> (c < length bins)%nat \/ (length bins <= c < length bins')%nat) by lia.
    constructor.
    - rewrite set_nth_length. exact Ilen.
    - intros i [<-|Hi]; [rewrite nth_set_nth_eq by exact Hidx'; exact Hb|].
      rewrite Hasg by exact Hi. specialize (Irng i Hi). lia.
    - intros c Hc. rewrite lsum_cons by assumption. destruct (Hcases c Hc) as [Hc'|Hc'].
      + rewrite (Hold c Hc'), (Irem c Hc'). lra.
      + destruct (Hnew c Hc') as [-> E]. rewrite E, Nat.eqb_refl. unfold lsum. rewrite sumQ_zero; [lra|].
        intros i Hi. specialize (Irng i Hi). unfold contrib. destruct (Nat.eqb_spec (nth i asg 0%nat) b); [lia|reflexivity].
    - intros c Hc. destruct (Nat.eqb_spec b c) as [<-|Hne]; [exact Hlow|].
      destruct (Hcases c Hc) as [Hc'|Hc']; [|destruct (Hnew c Hc') as [E _]; congruence].
      rewrite (Hold c Hc'). apply Nat.eqb_neq in Hne. rewrite Hne. specialize (Ilow c Hc'). lra.
    - intros c Hc. destruct (Hcases c Hc) as [Hc'|Hc'].
      + destruct (Iused c Hc') as [i [Hi Hci]]. exists i. split; [right; exact Hi|]. rewrite Hasg by exact Hi. exact Hci.
      + destruct (Hnew c Hc') as [-> _]. exists idx. split; [left; reflexivity|]. apply nth_set_nth_eq. exact Hidx'.
  Qed.

  Lemma place_inv bins asg done idx size :
    pack_inv bins asg done -> (idx < length sizes)%nat -> ~ In idx done -> size = nth idx sizes 0 ->
    pack_inv (fst (place bf eps cap (bins, asg) (idx, size))) (snd (place bf eps cap (bins, asg) (idx, size))) (idx :: done).
  Proof.
    intros I Hidx Hnin ->. pose proof (Hsz idx Hidx) as Hs. unfold place. destruct (Qeq_bool (nth idx sizes 0) 0) eqn:Ez.
    - (* a zero-size item: bin 0, opened if need be; the capacities do not change *)
      apply Qeq_bool_iff in Ez. cbn [fst snd]. destruct bins as [|r rest].
      + apply (put_inv [] asg done idx 0%nat [cap] I Hidx Hnin); cbn [length nth]; [lia|lia|lia| |lra].
        intros c Hc. assert (c = 0)%nat by lia. subst c. split; [reflexivity|]. cbn [nth]. lra.
      + apply (put_inv _ asg done idx 0%nat _ I Hidx Hnin); cbn [length]; [lia|lia| |lia| ].
        * intros c Hc. destruct (0 =? c)%nat; lra.
        * apply (i_low _ _ _ I). cbn [length]. lia.
    - destruct (choose bf eps (nth idx sizes 0) bins) as [b0|] eqn:Ech; cbn [fst snd].
      + destruct (choose_spec _ _ _ _ _ Ech) as [Hb0 Hfit].
        apply (put_inv bins asg done idx b0 _ I Hidx Hnin); rewrite ?set_nth_length; [lia|lia| |lia| ].
        * intros c Hc. destruct (Nat.eqb_spec b0 c) as [<-|Hne].
          -- rewrite nth_set_nth_eq by exact Hc. reflexivity.
          -- rewrite nth_set_nth_neq by exact Hne. lra.
        * rewrite nth_set_nth_eq by exact Hb0. lra.
      + apply (put_inv bins asg done idx (length bins) _ I Hidx Hnin); rewrite ?app_length; cbn [length]; [lia|lia| | | ].
        * intros c Hc. rewrite app_nth1 by exact Hc.
          assert (E : (length bins =? c)%nat = false) by (apply Nat.eqb_neq; lia). rewrite E. lra.
        * intros c Hc. assert (c = length bins) by lia. subst c. rewrite app_nth2, Nat.sub_diag by lia.
          split; reflexivity.
        * rewrite app_nth2, Nat.sub_diag by lia. cbn [nth]. lra.
  Qed.

  Lemma fold_inv : forall order bins asg done,
    pack_inv bins asg done ->
    NoDup (map fst order) -> (forall p, In p order -> ~ In (fst p) done) ->
    (forall p, In p order -> (fst p < length sizes)%nat /\ snd p = nth (fst p) sizes 0) ->
    pack_inv (fst (fold_left (place bf eps cap) order (bins, asg))) (snd (fold_left (place bf eps cap) order (bins, asg)))
        (rev (map fst order) ++ done).
  Proof.
    induction order as [|[idx size] order IH]; intros bins asg done Hinv Hnd Hdis Hp; [exact Hinv|].
    cbn [fold_left map rev fst]. rewrite <- app_assoc. cbn [app].
    inversion Hnd as [|x l Hnin Hnd']; subst.
    destruct (Hp (idx, size) (or_introl eq_refl)) as [H1 H2]. cbn [fst snd] in *.
    pose proof (place_inv bins asg done idx size Hinv H1 (Hdis (idx, size) (or_introl eq_refl)) H2) as Hinv'.
    destruct (place bf eps cap (bins, asg) (idx, size)) as [bins' asg']. cbn [fst snd] in Hinv'.
    apply IH; [exact Hinv'|exact Hnd'| |].
    - intros p Hin [Heq|Hd]; [|exact (Hdis p (or_intror Hin) Hd)].
      apply Hnin. rewrite Heq. apply in_map. exact Hin.
    - intros p Hin. apply Hp. right. exact Hin.
  Qed.
End Loop.

Lemma inv_valid eps cap sizes bins asg done :
  pack_inv eps cap sizes bins asg done -> Permutation done (seq 0 (length sizes)) ->
  bin_valid eps sizes cap asg (length bins) (if (1 <? length bins)%nat then FEASIBLE else OPTIMAL).
Proof.
  intros [Ilen Irng Irem Ilow Iused] Hdone.
  assert (Hin_done : forall i, (i < length sizes)%nat -> In i done).
  { intros i Hi. apply (Permutation_in _ (Permutation_sym Hdone)). apply in_seq. lia. }
  assert (Hrng : Forall (fun b => (b < length bins)%nat) asg).
  { apply Forall_forall. intros x Hx. destruct (In_nth _ _ 0%nat Hx) as [i [Hi <-]].
    apply Irng. apply Hin_done. rewrite <- Ilen. exact Hi. }
  assert (Hload : forall b, (b < length bins)%nat -> load sizes asg b <= cap + eps).
  { intros b Hb. unfold load. rewrite <- (sumQ_perm (contrib sizes asg b) _ _ Hdone).
    specialize (Irem b Hb). specialize (Ilow b Hb). unfold lsum in Irem. lra. }
  unfold bin_valid. split; [exact Ilen|]. split; [exact Hrng|]. split; [exact Hload|]. split; [|split; [|split]].
  - intros b Hb. destruct (Iused b Hb) as [i [Hi <-]]. apply nth_In. rewrite Ilen.
    apply (Permutation_in _ Hdone) in Hi. apply in_seq in Hi. lia.
  - exact (loads_total sizes asg (length bins) (cap + eps) Ilen Hrng Hload).
  - destruct (1 <? length bins)%nat eqn:E; [discriminate|]. intros _. apply Nat.ltb_ge in E. exact E.
  - (* item 0 sits in some bin *)
    intros Hne. assert (Hn : (0 < length sizes)%nat) by (destruct sizes; [contradiction|cbn [length]; lia]).
    specialize (Irng 0%nat (Hin_done 0%nat Hn)). lia.
Qed.

Lemma map_fst_combine_seq : forall (l : list Q) a, map fst (combine (seq a (length l)) l) = seq a (length l).
Proof. induction l as [|x l IH]; intros a; [reflexivity|]. cbn [length seq combine map fst]. f_equal. apply IH. Qed.

Lemma order_of_perm sizes dec : Permutation (order_of sizes dec) (combine (seq 0 (length sizes)) sizes).
Proof. unfold order_of. destruct dec; [apply stable_sort_perm|apply Permutation_refl]. Qed.

(* For an empty item list the loop runs over nothing and leaves no bin, which is the early return of the code. *)
Lemma bin_pack_eq eps sizes cap bf dec r :
  bin_pack eps sizes cap bf dec = Some r ->
  valid_sizes sizes cap = true /\
  let (bins, asg) := fold_left (place bf eps cap) (order_of sizes dec) ([], repeat 0%nat (length sizes)) in
  r = {| basg := asg; bobj := length bins; bstatus := if (1 <? length bins)%nat then FEASIBLE else OPTIMAL |}.
Proof.
  unfold bin_pack. destruct sizes as [|s0 ss] eqn:Es.
  - intros H. injection H as <-. split; [reflexivity|]. destruct dec; reflexivity.
  - rewrite <- Es. destruct (Qle_bool cap 0); [discriminate|]. destruct (valid_sizes sizes cap); [|discriminate].
    cbn [negb]. intros H. split; [reflexivity|].
    destruct (fold_left (place bf eps cap) (order_of sizes dec) ([], repeat 0%nat (length sizes))) as [bins asg].
    injection H as <-. reflexivity.
Qed.

Lemma valid_sizes_nth sizes cap : valid_sizes sizes cap = true ->
  forall i, (i < length sizes)%nat -> 0 <= nth i sizes 0 <= cap.
Proof.
  unfold valid_sizes. rewrite forallb_forall. intros H i Hi. specialize (H _ (nth_In sizes 0 Hi)).
  rewrite andb_true_iff, !Qle_bool_iff in H. split; apply H.
Qed.

Lemma bin_pack_valid eps sizes cap bf dec r :
  0 <= eps ->
  bin_pack eps sizes cap bf dec = Some r ->
  bin_valid eps sizes cap (basg r) (bobj r) (bstatus r).
Proof.
  intros Heps Hr. destruct (bin_pack_eq _ _ _ _ _ _ Hr) as [Hval Hrun]. clear Hr.
  set (n := length sizes) in *. set (order := order_of sizes dec) in *.
  assert (Hperm : Permutation order (combine (seq 0 n) sizes)) by apply order_of_perm.
  assert (Hfst : Permutation (map fst order) (seq 0 n)).
  { unfold n. rewrite <- (map_fst_combine_seq sizes 0). apply Permutation_map. exact Hperm. }
  assert (Hp : forall p, In p order -> (fst p < n)%nat /\ snd p = nth (fst p) sizes 0).
  { intros p Hin. apply (Permutation_in _ Hperm) in Hin. destruct (In_nth _ _ (0%nat, 0) Hin) as [i [Hi <-]].
    rewrite combine_length, seq_length, Nat.min_id in Hi. rewrite combine_nth by apply seq_length.
    cbn [fst snd]. rewrite seq_nth by exact Hi. split; [exact Hi|reflexivity]. }
  assert (Hinv0 : pack_inv eps cap sizes [] (repeat 0%nat n) []).
  { constructor; [apply repeat_length|intros i []| | | ]; intros b Hb; cbn [length] in Hb; lia. }
  pose proof (fold_inv eps cap sizes bf Heps (valid_sizes_nth _ _ Hval) order [] (repeat 0%nat n) [] Hinv0
                (Permutation_NoDup (Permutation_sym Hfst) (seq_NoDup n 0)) (fun p _ H => H) Hp) as Hinv.
  rewrite app_nil_r in Hinv.
  destruct (fold_left (place bf eps cap) order ([], repeat 0%nat n)) as [bins asg]. subst r. cbn [fst snd basg bobj bstatus] in *.
  apply (inv_valid eps cap sizes bins asg _ Hinv).
  eapply perm_trans; [apply Permutation_sym, Permutation_rev|exact Hfst].
Qed.

(* Loads are sums of sizes, hence on the grid, so load <= cap + 1e-9 gives load <= cap. *)
Lemma bin_valid_grid d sizes cap asg k st :
  (d <? 1000000000)%positive = true -> on_gridb d cap = true -> forallb (on_gridb d) sizes = true ->
  bin_valid tol sizes cap asg k st -> bin_valid 0 sizes cap asg k st.
Proof.
  intros Hd Hc Hs [H1 [H2 [H3 [H4 [H5 [H6 H7]]]]]].
  apply on_gridb_sound in Hc.
  assert (Hload : forall b, (b < k)%nat -> load sizes asg b <= cap + 0).
  { intros b Hb. rewrite Qplus_0_r. apply (grid_tight d); [exact Hd| |exact Hc|apply H3; exact Hb].
    unfold load. apply grid_sum. apply Forall_forall. intros q Hq. apply in_map_iff in Hq.
    destruct Hq as [i [<- _]]. unfold contrib. destruct (nth i asg 0%nat =? b)%nat; [apply nth_on_grid; exact Hs|apply grid_zero]. }
  exact (conj H1 (conj H2 (conj Hload (conj H4 (conj (loads_total sizes asg k (cap + 0) H1 H2 Hload) (conj H6 H7)))))).
Qed.
