(* C16 - the integer instance knap_z: feasibility, faithful objective, optimality.
   The DP invariant of solve_knapsack over Z:
     after the first i items the table holds  opt (those items) w  for every w <= C,
     the keep table records which branch of the recurrence was taken, and the backtracking reconstructs a
     selection whose value is the table entry and whose integer weight is at most w.
   `opt` is the recurrence; `opt_upper` shows it bounds every duplicate-free index set within capacity, so the
   selection is feasible and optimal (`solve_core_best`, instantiated to knap_z in `knap_z_correct`). *)
From Coq Require Import List Arith ZArith Bool Lia.
From SV Require Import C16.KnapCore C16.Knapsack C16.KnapSpec C16.KnapCoreProofs.
Import ListNotations.

(* head of the list = the item processed last *)
Fixpoint opt (l : list (Z * nat)) (w : nat) : Z :=
  match l with
  | [] => 0%Z
  | (v, wi) :: l' => if (wi <=? w)%nat then Z.max (opt l' w) (opt l' (w - wi) + v) else opt l' w
  end.

Lemma zipcell_nth_shift0 v : forall dp1 dp2 w, (w < length dp1)%nat -> (length dp1 <= length dp2)%nat ->
  nth w (zipcell Z.add Z.ltb v dp1 (map Some dp2)) (false, 0%Z)
  = cell Z.add Z.ltb v (nth w dp1 0%Z) (Some (nth w dp2 0%Z)).
Proof.
  induction dp1 as [|o dp1 IH]; intros dp2 w Hw Hl; cbn [length] in *; [lia|].
  destruct dp2 as [|p dp2]; cbn [length] in *; [lia|].
  cbn [map zipcell]. destruct w as [|w]; [reflexivity|].
  cbn [nth]. apply IH; lia.
Qed.

Lemma zipcell_nth v : forall wi dp1 dp2 w, (w < length dp1)%nat -> (length dp1 <= wi + length dp2)%nat ->
  nth w (zipcell Z.add Z.ltb v dp1 (shift wi dp2)) (false, 0%Z)
  = cell Z.add Z.ltb v (nth w dp1 0%Z) (if (wi <=? w)%nat then Some (nth (w - wi) dp2 0%Z) else None).
Proof.
  induction wi as [|k IH]; intros dp1 dp2 w Hw Hl.
  - cbn [shift]. rewrite Nat.sub_0_r. cbn [Nat.leb]. apply zipcell_nth_shift0; lia.
  - destruct dp1 as [|o dp1]; cbn [length] in *; [lia|].
    cbn [shift zipcell]. destruct w as [|w]; [reflexivity|].
    cbn [nth]. rewrite IH by lia. reflexivity.
Qed.

Lemma zipcell_length v : forall wi dp1 dp2, (length dp1 <= wi + length dp2)%nat ->
  length (zipcell Z.add Z.ltb v dp1 (shift wi dp2)) = length dp1.
Proof.
  induction wi as [|k IH]; intros dp1 dp2 Hl.
  - cbn [shift]. revert dp2 Hl. induction dp1 as [|o dp1 IH1]; intros dp2 Hl; [reflexivity|].
    destruct dp2 as [|p dp2]; cbn [length] in *; [lia|]. cbn [map zipcell length]. f_equal. apply IH1. lia.
  - destruct dp1 as [|o dp1]; [reflexivity|]. cbn [length] in *. cbn [shift zipcell length]. f_equal. apply IH. lia.
Qed.

Lemma sumZ_cons x l : sumZ (x :: l) = (x + sumZ l)%Z.
Proof. reflexivity. Qed.

Lemma sumZ_app a b : sumZ (a ++ b) = (sumZ a + sumZ b)%Z.
Proof. induction a as [|x a IH]; [reflexivity|]. cbn [app]. rewrite !sumZ_cons, IH. lia. Qed.

Lemma sumZ_rev l : sumZ (rev l) = sumZ l.
Proof.
  induction l as [|x l IH]; [reflexivity|]. cbn [rev]. rewrite sumZ_app, IH, !sumZ_cons. cbn [sumZ fold_right]. lia.
Qed.

Lemma sum_split (g : nat -> Z) (k : nat) : forall s, NoDup s ->
  sumZ (map g s) = ((if existsb (Nat.eqb k) s then g k else 0) + sumZ (map g (filter (fun i => negb (k =? i)%nat) s)))%Z.
Proof.
  induction s as [|a t IH]; intros Hnd; [reflexivity|].
  inversion Hnd as [|x l Hnotin Hnd']; subst.
  cbn [map existsb filter]. rewrite sumZ_cons, (IH Hnd').
  destruct (k =? a)%nat eqn:E; cbn [orb negb].
  - apply Nat.eqb_eq in E. subst a.
    assert (Hex : existsb (Nat.eqb k) t = false).
    { destruct (existsb (Nat.eqb k) t) eqn:Ex; [|reflexivity].
      apply existsb_exists in Ex. destruct Ex as [y [Hy Hky]]. apply Nat.eqb_eq in Hky. subst y. contradiction. }
    rewrite Hex. lia.
  - cbn [map]. rewrite sumZ_cons. lia.
Qed.

Lemma cell_opt v wi l w :
  let c := cell Z.add Z.ltb v (opt l w) (if (wi <=? w)%nat then Some (opt l (w - wi)) else None) in
  snd c = opt ((v, wi) :: l) w /\
  if fst c then (wi <= w)%nat /\ opt ((v, wi) :: l) w = (opt l (w - wi) + v)%Z else opt ((v, wi) :: l) w = opt l w.
Proof.
  cbn [opt]. destruct (wi <=? w)%nat eqn:E; cbn [cell]; [|split; reflexivity].
  apply Nat.leb_le in E. destruct (Z.ltb (opt l w) (opt l (w - wi) + v)) eqn:E2; cbn [fst snd]; lia.
Qed.

Section Table.
  Variable C : nat.

  Definition row_ok (dp : list Z) (l : list (Z * nat)) : Prop :=
    length dp = S C /\ forall w, (w <= C)%nat -> nth w dp 0%Z = opt l w.

  Lemma step_spec v wi dp l :
    row_ok dp l ->
    row_ok (snd (step Z.add Z.ltb v wi dp)) ((v, wi) :: l) /\
    forall w, (w <= C)%nat ->
      if nth w (fst (step Z.add Z.ltb v wi dp)) false
      then (wi <= w)%nat /\ opt ((v, wi) :: l) w = (opt l (w - wi) + v)%Z
      else opt ((v, wi) :: l) w = opt l w.
  Proof.
    intros [Hlen Hdp]. unfold step. cbn [fst snd].
    assert (Hcell : forall w, (w <= C)%nat ->
              nth w (zipcell Z.add Z.ltb v dp (shift wi dp)) (false, 0%Z)
              = cell Z.add Z.ltb v (opt l w) (if (wi <=? w)%nat then Some (opt l (w - wi)) else None)).
    { intros w Hw. rewrite zipcell_nth by lia. rewrite (Hdp w Hw).
      destruct (wi <=? w)%nat eqn:E; [|reflexivity]. rewrite Hdp by lia. reflexivity. }
    split; [split|].
    - rewrite map_length. rewrite zipcell_length by lia. exact Hlen.
    - intros w Hw. change 0%Z with (snd (false, 0%Z)). rewrite map_nth, (Hcell w Hw). apply cell_opt.
    - intros w Hw. change false with (fst (false, 0%Z)). rewrite map_nth, (Hcell w Hw). apply cell_opt.
  Qed.

  Variable val : nat -> Z.
  Variable wt : nat -> nat.

  Definition sumv (s : list nat) : Z := sumZ (map val s).
  Definition sumw (s : list nat) : Z := sumZ (map (fun i => Z.of_nat (wt i)) s).

  Lemma sumw_nonneg s : (0 <= sumw s)%Z.
  Proof. unfold sumw. induction s as [|a t IH]; cbn [map]; rewrite ?sumZ_cons; [cbn|]; lia. Qed.

  (* opt bounds every duplicate-free index set within the capacity: split off the last item *)
  Lemma opt_upper : forall (items : list (Z * nat)) (s : list nat) (w : nat),
    (forall i, (i < length items)%nat -> nth i items (0%Z, 0%nat) = (val i, wt i)) ->
    NoDup s -> Forall (fun i => (i < length items)%nat) s -> (sumw s <= Z.of_nat w)%Z ->
    (sumv s <= opt (rev items) w)%Z.
  Proof.
    induction items as [|[v wi] items IH] using rev_ind; intros s w Hit Hnd Hrange Hw.
    - destruct s as [|a t]; [cbn; lia|]. inversion Hrange as [|x l Hx Hl]; subst. cbn [length] in Hx. lia.
    - assert (Hlen : length (items ++ [(v, wi)]) = S (length items)) by (rewrite app_length; cbn [length]; lia).
      rewrite Hlen in *. set (k := length items) in *.
      pose proof (Hit k (Nat.lt_succ_diag_r k)) as Hk. unfold k in Hk at 1.
      rewrite app_nth2, Nat.sub_diag in Hk by lia. cbn [nth] in Hk. injection Hk as -> ->.
      set (s' := filter (fun i => negb (k =? i)%nat) s).
      assert (Hrange' : Forall (fun i => (i < k)%nat) s').
      { apply Forall_forall. intros i Hi. apply filter_In in Hi. destruct Hi as [Hi Hne].
        rewrite Forall_forall in Hrange. specialize (Hrange i Hi).
        apply negb_true_iff in Hne. apply Nat.eqb_neq in Hne. lia. }
      assert (Hit' : forall i, (i < k)%nat -> nth i items (0%Z, 0%nat) = (val i, wt i)).
      { intros i Hi. rewrite <- Hit by lia. rewrite app_nth1 by exact Hi. reflexivity. }
      pose proof (fun w' => IH s' w' Hit' (NoDup_filter _ Hnd) Hrange') as IH'.
      pose proof (sumw_nonneg s') as Hpos. unfold sumv, sumw in *.
      rewrite (sum_split val k s Hnd). rewrite (sum_split (fun i => Z.of_nat (wt i)) k s Hnd) in Hw. fold s' in Hw |- *.
      rewrite rev_unit. cbn [opt]. destruct (existsb (Nat.eqb k) s).
      + assert (Hle : (wt k <=? w)%nat = true) by (apply Nat.leb_le; lia). rewrite Hle.
        apply Nat.leb_le in Hle. specialize (IH' (w - wt k)%nat ltac:(lia)). lia.
      + specialize (IH' w ltac:(lia)). destruct (wt k <=? w)%nat; lia.
  Qed.

  Definition bt_ok (acc : list (nat * list bool * nat)) (l : list (Z * nat)) : Prop :=
    forall w, (w <= C)%nat -> sumv (backtrack acc w) = opt l w /\ (sumw (backtrack acc w) <= Z.of_nat w)%Z.

  Lemma dp_run_inv : forall vs ws base l dp acc,
    length ws = length vs ->
    (forall j, (j < length vs)%nat -> val (base + j) = nth j vs 0%Z /\ wt (base + j) = nth j ws 0%nat) ->
    row_ok dp l -> bt_ok acc l ->
    bt_ok (rev (rows_from base (fst (dp_run Z.add Z.ltb (combine vs ws) dp)) ws) ++ acc)
          (rev (combine vs ws) ++ l) /\
    row_ok (snd (dp_run Z.add Z.ltb (combine vs ws) dp)) (rev (combine vs ws) ++ l).
  Proof.
    induction vs as [|v vs IH]; intros ws base l dp acc Hlen Hval Hrow Hbt.
    - destruct ws; [|discriminate Hlen]. cbn [combine dp_run fst snd rev app]. unfold rows_from. cbn. split; assumption.
    - destruct ws as [|wi ws]; [discriminate Hlen|]. cbn [length] in Hlen.
      cbn [combine dp_run].
      destruct (step_spec v wi dp l Hrow) as [Hrow' Hkeep].
      destruct (step Z.add Z.ltb v wi dp) as [k dp'] eqn:Estep. cbn [fst snd] in Hrow', Hkeep.
      assert (Hbt' : bt_ok ((base, k, wi) :: acc) ((v, wi) :: l)).
      { intros w Hw. specialize (Hkeep w Hw). cbn [backtrack].
        destruct (Hval 0%nat ltac:(cbn [length]; lia)) as [Hv0 Hw0]. rewrite Nat.add_0_r in Hv0, Hw0. cbn [nth] in Hv0, Hw0.
        destruct (nth w k false).
        - destruct Hkeep as [Hle Hopt]. destruct (Hbt (w - wi)%nat ltac:(lia)) as [H1 H2].
          unfold sumv, sumw in *. cbn [map]. rewrite !sumZ_cons, Hv0, Hw0, H1, Hopt. lia.
        - rewrite Hkeep. apply Hbt. exact Hw. }
      specialize (IH ws (S base) ((v, wi) :: l) dp' ((base, k, wi) :: acc) ltac:(lia)).
      assert (Hval' : forall j, (j < length vs)%nat ->
                val (S base + j) = nth j vs 0%Z /\ wt (S base + j) = nth j ws 0%nat).
      { intros j Hj. specialize (Hval (S j) ltac:(cbn [length]; lia)). cbn [nth] in Hval.
        replace (S base + j)%nat with (base + S j)%nat by lia. exact Hval. }
      specialize (IH Hval' Hrow' Hbt').
      destruct (dp_run Z.add Z.ltb (combine vs ws) dp') as [ks fin]. cbn [fst snd] in *.
      rewrite rows_from_cons. cbn [rev]. rewrite <- !app_assoc. cbn [app]. exact IH.
  Qed.
End Table.

Lemma solve_core_best (vals : list Z) (iw : list nat) (C : nat) :
  length iw = length vals ->
  let sel := solve_core 0%Z Z.add Z.ltb vals iw C in
  let weight := sumw (fun i => nth i iw 0%nat) in
  (weight sel <= Z.of_nat C)%Z /\
  forall s, NoDup s -> Forall (fun i => (i < length vals)%nat) s -> (weight s <= Z.of_nat C)%Z ->
            (sumZ (pickZ vals s) <= sumZ (pickZ vals sel))%Z.
Proof.
  intros Hlen sel weight. subst sel weight. unfold solve_core.
  set (val := fun i => nth i vals 0%Z). set (wt := fun i => nth i iw 0%nat).
  destruct (dp_run_inv C val wt vals iw 0%nat [] (repeat 0%Z (S C)) [] Hlen) as [Hbt _].
  - intros j _. split; reflexivity.
  - split; [apply repeat_length|]. intros w _. apply nth_repeat.
  - intros w _. cbn. split; [reflexivity|lia].
  - destruct (dp_run Z.add Z.ltb (combine vals iw) (repeat 0%Z (S C))) as [keeps fin]. cbn [fst] in Hbt.
    rewrite !app_nil_r in Hbt. destruct (Hbt C (le_n C)) as [Hv Hw].
    rewrite rows_of_from. unfold sumv, sumw, pickZ in *. fold val. rewrite !map_rev, !sumZ_rev.
    split; [exact Hw|]. intros s Hnd Hr Hs. rewrite Hv. apply (opt_upper val wt); [|exact Hnd| |exact Hs].
    + intros i _. apply combine_nth. symmetry. exact Hlen.
    + rewrite combine_length, Hlen, Nat.min_id. exact Hr.
Qed.

Lemma sum_pick_mul c values : forall s, sumZ (pickZ (map (Z.mul c) values) s) = (c * sumZ (pickZ values s))%Z.
Proof.
  assert (Hnth : forall l i, nth i (map (Z.mul c) l) 0%Z = (c * nth i l 0)%Z).
  { induction l as [|x l IH]; intros i; destruct i; cbn [map nth]; try lia. apply IH. }
  induction s as [|a t IH]; [cbn; lia|]. unfold pickZ in *. cbn [map]. rewrite !sumZ_cons, IH, Hnth. lia.
Qed.

Lemma int_weight_z_ok w : (0 <= w)%Z -> Z.of_nat (int_weight_z w) = w.
Proof. intros H. unfold int_weight_z. destruct (0 <? w)%Z eqn:E; lia. Qed.

Lemma pick_int_weights weights s : forallb (fun w => (0 <=? w)%Z) weights = true ->
  sumw (fun i => nth i (map int_weight_z weights) 0%nat) s = sumZ (pickZ weights s).
Proof.
  intros H. unfold sumw, pickZ. f_equal. apply map_ext. intros i.
  change 0%nat with (int_weight_z 0). rewrite map_nth. apply int_weight_z_ok.
  destruct (Nat.lt_ge_cases i (length weights)) as [Hi|Hi].
  - rewrite forallb_forall in H. apply Z.leb_le. apply H. apply nth_In. exact Hi.
  - rewrite nth_overflow by exact Hi. lia.
Qed.

Lemma valid_z_parts values weights capacity :
  knap_valid_z values weights capacity = true ->
  length weights = length values /\ (0 <= capacity)%Z /\ forallb (fun w => (0 <=? w)%Z) weights = true.
Proof.
  unfold knap_valid_z. rewrite !andb_true_iff, Nat.eqb_eq, Z.leb_le. intros [[H1 H2] H3]. split; [exact H1|]. split; assumption.
Qed.

(* what knap_z returns on valid input (for an empty item list the DP runs over no rows and selects nothing,
   which is the early return of the code) *)
Lemma knap_z_eq values weights capacity (minimize : bool) :
  knap_valid_z values weights capacity = true ->
  let sel := solve_core 0%Z Z.add Z.ltb (map (Z.mul (if minimize then (-1)%Z else 1%Z)) values)
                        (map int_weight_z weights) (Z.to_nat capacity) in
  knap_z values weights capacity minimize = Some {| zsel := sel; zobj := sumZ (pickZ values sel); zstatus := OPTIMAL |}.
Proof.
  intros Hv. destruct (valid_z_parts _ _ _ Hv) as [Hlen [Hcap _]]. unfold knap_z.
  destruct values as [|v0 vs].
  - destruct weights; [reflexivity|discriminate Hlen].
  - rewrite Hlen, Nat.eqb_refl. cbn [negb].
    assert (Hc : (capacity <? 0)%Z = false) by lia. rewrite Hc. reflexivity.
Qed.

Lemma knap_z_correct values weights capacity minimize r :
  knap_valid_z values weights capacity = true ->
  knap_z values weights capacity minimize = Some r ->
  knap_feasible_z values weights capacity (zsel r) (zobj r) /\
  knap_optimal_z values weights capacity minimize (zobj r).
Proof.
  intros Hv Hr. destruct (valid_z_parts _ _ _ Hv) as [Hlen [Hcap Hw]].
  rewrite (knap_z_eq _ _ _ minimize Hv) in Hr. injection Hr as <-. cbn [zsel zobj].
  set (sign := if minimize then (-1)%Z else 1%Z).
  set (vals := map (Z.mul sign) values).
  set (iw := map int_weight_z weights).
  assert (Hl : length iw = length vals) by (unfold iw, vals; rewrite !map_length; exact Hlen).
  destruct (solve_core_struct Z 0%Z Z.add Z.ltb vals iw (Z.to_nat capacity) Hl) as [Hi Hf].
  destruct (solve_core_best vals iw (Z.to_nat capacity) Hl) as [Hfit Hbest].
  set (sel := solve_core 0%Z Z.add Z.ltb vals iw (Z.to_nat capacity)) in *.
  unfold vals in Hf, Hbest. rewrite map_length in Hf, Hbest. unfold iw in Hfit, Hbest.
  split.
  - unfold knap_feasible_z. split; [exact Hi|]. split; [apply incr_NoDup; exact Hi|]. split; [exact Hf|].
    split; [|reflexivity]. rewrite pick_int_weights in Hfit by exact Hw. lia.
  - intros s Hnd Hrange Hsw. specialize (Hbest s Hnd Hrange). rewrite pick_int_weights in Hbest by exact Hw.
    specialize (Hbest ltac:(lia)). rewrite !sum_pick_mul in Hbest. unfold sign in Hbest.
    destruct minimize; lia.
Qed.
