(* C16 - specification of solve_knapsack's answer (what the property says) + boolean checkers that judge an
   observable (the implementation's or the model's) inside coqc, with soundness lemmas. *)
From Coq Require Import List Arith ZArith QArith Bool Lia.
From SV Require Import C16.KnapCore C16.Knapsack.
Import ListNotations.

(* strictly increasing list of indices (= sorted and distinct) *)
Fixpoint incr (l : list nat) : Prop :=
  match l with
  | a :: ((b :: _) as t) => (a < b)%nat /\ incr t
  | _ => True
  end.
Fixpoint incrb (l : list nat) : bool :=
  match l with
  | a :: ((b :: _) as t) => (a <? b)%nat && incrb t
  | _ => true
  end.

Lemma incrb_sound l : incrb l = true -> incr l.
Proof.
  induction l as [|a t IH]; [intros _; exact I|].
  destruct t as [|b t']; [intros _; exact I|].
  cbn [incrb incr]. intros H. apply andb_prop in H. destruct H as [H1 H2].
  split; [apply Nat.ltb_lt; exact H1 | apply IH; exact H2].
Qed.

Lemma incr_lower a l : incr (a :: l) -> forall x, In x l -> (a < x)%nat.
Proof.
  revert a. induction l as [|b t IH]; intros a H x Hx; [destruct Hx|].
  cbn [incr] in H. destruct H as [Hab Ht]. destruct Hx as [<-|Hx]; [exact Hab|].
  specialize (IH b Ht x Hx). lia.
Qed.

Lemma incr_tail a l : incr (a :: l) -> incr l.
Proof. destruct l as [|b t]; [intros _; exact I|]. cbn [incr]. intros [_ H]. exact H. Qed.

Lemma incr_NoDup l : incr l -> NoDup l.
Proof.
  induction l as [|a t IH]; intros H; [constructor|].
  constructor.
  - intros Hin. pose proof (incr_lower a t H a Hin). lia.
  - apply IH. exact (incr_tail a t H).
Qed.

(* feasibility and faithful scoring; `slack` is 0 for the property as stated, 1e-9 for what the code's own
   final check guarantees on arbitrary rationals *)
Definition knap_feasible_q (slack : Q) (values weights : list Q) (capacity : Q) (sel : list nat) (obj : Q) : Prop :=
  incr sel /\ NoDup sel /\ Forall (fun i => (i < length values)%nat) sel /\
  sumQ (pickQ weights sel) <= capacity + slack /\ obj == sumQ (pickQ values sel).

Definition knap_raises_q (values weights : list Q) (capacity : Q) : bool :=
  match values with
  | [] => false
  | _ => negb (length weights =? length values)%nat || Qltb capacity 0
  end.

(* the specification of an observable: ValueError exactly on malformed input, otherwise a feasible,
   faithfully scored selection.  (The guard 0 <= capacity only matters for the empty item list: the code returns
   the empty selection for n = 0 before it validates anything, so solve_knapsack([], [], -5) is accepted; a negative
   capacity is outside the property's quantifier.  For n > 0 `raises = false` already implies 0 <= capacity.) *)
Definition knap_spec_q (values weights : list Q) (capacity : Q) (o : qobs) : Prop :=
  match o with
  | None => knap_raises_q values weights capacity = true
  | Some (sel, obj, _) => knap_raises_q values weights capacity = false /\
                          (Qle_bool 0 capacity = true -> knap_feasible_q 0 values weights capacity sel obj)
  end.

Definition knap_check_q (values weights : list Q) (capacity : Q) (o : qobs) : bool :=
  match o with
  | None => knap_raises_q values weights capacity
  | Some (sel, obj, _) =>
      negb (knap_raises_q values weights capacity) &&
      (negb (Qle_bool 0 capacity) ||
       incrb sel && forallb (fun i => (i <? length values)%nat) sel &&
       Qle_bool (sumQ (pickQ weights sel)) capacity && Qeq_bool obj (sumQ (pickQ values sel)))
  end.

Lemma knap_check_q_sound values weights capacity o :
  knap_check_q values weights capacity o = true -> knap_spec_q values weights capacity o.
Proof.
  destruct o as [[[sel obj] st]|]; cbn [knap_check_q knap_spec_q]; [|intros H; exact H].
  intros H. apply andb_prop in H as [H1 H]. apply negb_true_iff in H1. split; [exact H1|].
  intros Hcap. rewrite Hcap in H. cbn [negb orb] in H.
  apply andb_prop in H as [H H5]. apply andb_prop in H as [H H4]. apply andb_prop in H as [H2 H3].
  pose proof (incrb_sound sel H2) as Hi.
  split; [exact Hi|]. split; [apply incr_NoDup; exact Hi|].
  split.
  - apply Forall_forall. intros i Hin. rewrite forallb_forall in H3. apply Nat.ltb_lt. apply H3. exact Hin.
  - split.
    + apply Qle_bool_iff in H4. rewrite Qplus_0_r. exact H4.
    + apply Qeq_bool_iff. exact H5.
Qed.

Definition knap_feasible_z (values weights : list Z) (capacity : Z) (sel : list nat) (obj : Z) : Prop :=
  incr sel /\ NoDup sel /\ Forall (fun i => (i < length values)%nat) sel /\
  (sumZ (pickZ weights sel) <= capacity)%Z /\ obj = sumZ (pickZ values sel).

(* what OPTIMAL means (maximize: no admissible index set has a larger value; minimize=True: none has a smaller
   one - the docstring's "minimize total value") *)
Definition knap_optimal_z (values weights : list Z) (capacity : Z) (minimize : bool) (obj : Z) : Prop :=
  forall s, NoDup s -> Forall (fun i => (i < length values)%nat) s ->
            (sumZ (pickZ weights s) <= capacity)%Z ->
            if minimize then (obj <= sumZ (pickZ values s))%Z else (sumZ (pickZ values s) <= obj)%Z.

(* inputs the integer theorems talk about: what the code accepts + non-negative weights (property's quantifier) *)
Definition knap_valid_z (values weights : list Z) (capacity : Z) : bool :=
  (length weights =? length values)%nat && (0 <=? capacity)%Z && forallb (fun w => (0 <=? w)%Z) weights.

Definition knap_valid_q (values weights : list Q) (capacity : Q) : bool :=
  (length weights =? length values)%nat && Qle_bool 0 capacity && forallb (fun w => Qle_bool 0 w) weights.
