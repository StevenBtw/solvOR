(* C16 - facts about the generic DP core that do not depend on the value type: the backtracking returns a
   strictly increasing list of item indices below n. *)
From Coq Require Import List Arith Bool Lia.
From SV Require Import C16.KnapCore C16.Knapsack C16.KnapSpec.
Import ListNotations.

Inductive subseq {A} : list A -> list A -> Prop :=
| sub_nil : subseq [] []
| sub_skip x l1 l2 : subseq l1 l2 -> subseq l1 (x :: l2)
| sub_take x l1 l2 : subseq l1 l2 -> subseq (x :: l1) (x :: l2).

Lemma subseq_nil_l {A} (l : list A) : subseq [] l.
Proof. induction l as [|x l IH]; [constructor|apply sub_skip; exact IH]. Qed.

Lemma subseq_refl {A} (l : list A) : subseq l l.
Proof. induction l as [|x l IH]; [constructor|apply sub_take; exact IH]. Qed.

Lemma subseq_app {A} (a b c d : list A) : subseq a b -> subseq c d -> subseq (a ++ c) (b ++ d).
Proof.
  intros H1 H2. induction H1 as [|x l1 l2 H IH|x l1 l2 H IH]; cbn [app].
  - exact H2.
  - apply sub_skip. exact IH.
  - apply sub_take. exact IH.
Qed.

Lemma subseq_rev {A} (a b : list A) : subseq a b -> subseq (rev a) (rev b).
Proof.
  intros H. induction H as [|x l1 l2 H IH|x l1 l2 H IH]; cbn [rev].
  - constructor.
  - rewrite <- (app_nil_r (rev l1)). apply subseq_app; [exact IH|apply subseq_nil_l].
  - apply subseq_app; [exact IH|apply subseq_refl].
Qed.

Lemma subseq_In {A} (a b : list A) : subseq a b -> forall x, In x a -> In x b.
Proof.
  intros H. induction H as [|y l1 l2 H IH|y l1 l2 H IH]; intros x Hx.
  - destruct Hx.
  - right. apply IH. exact Hx.
  - destruct Hx as [->|Hx]; [left; reflexivity|right; apply IH; exact Hx].
Qed.

Lemma subseq_seq_incr : forall m a l, subseq l (seq a m) -> incr l /\ Forall (fun i => a <= i < a + m) l.
Proof.
  induction m as [|m IH]; intros a l H; cbn [seq] in H.
  - inversion H; subst. split; [exact I|constructor].
  - inversion H as [|x l1 l2 H'|x l1 l2 H']; subst.
    + destruct (IH (S a) l H') as [Hi Hf]. split; [exact Hi|].
      eapply Forall_impl; [|exact Hf]. cbv beta. intros i Hi'. lia.
    + destruct (IH (S a) l1 H') as [Hi Hf]. split.
      * destruct l1 as [|b t]; [exact I|]. cbn [incr]. split; [|exact Hi].
        inversion Hf as [|y l' Hy Hl]; subst. lia.
      * constructor; [lia|]. eapply Forall_impl; [|exact Hf]. cbv beta. intros i Hi'. lia.
Qed.

Section Core.
  Variable V : Type.
  Variable vzero : V.
  Variable vadd : V -> V -> V.
  Variable vlt : V -> V -> bool.

  Definition idx (r : nat * list bool * nat) : nat := fst (fst r).
  Definition rows_from (b : nat) (ks : list (list bool)) (iws : list nat) : list (nat * list bool * nat) :=
    combine (combine (seq b (length ks)) ks) iws.

  Lemma rows_of_from ks iws : rows_of ks iws = rows_from 0 ks iws.
  Proof. reflexivity. Qed.

  Lemma rows_from_cons b k ks wi iws :
    rows_from b (k :: ks) (wi :: iws) = (b, k, wi) :: rows_from (S b) ks iws.
  Proof. reflexivity. Qed.

  Lemma rows_from_idx : forall ks b iws,
    map idx (rows_from b ks iws) = seq b (Nat.min (length ks) (length iws)).
  Proof.
    induction ks as [|k ks IH]; intros b iws; [reflexivity|].
    destruct iws as [|wi iws]; [reflexivity|].
    rewrite rows_from_cons. cbn [map length Nat.min seq]. unfold idx at 1. cbn [fst].
    f_equal. apply IH.
  Qed.

  Lemma backtrack_subseq : forall rows w, subseq (backtrack rows w) (map idx rows).
  Proof.
    induction rows as [|[[i k] wi] rows IH]; intros w; cbn [backtrack map].
    - constructor.
    - unfold idx at 1. cbn [fst]. destruct (nth w k false).
      + apply sub_take. apply IH.
      + apply sub_skip. apply IH.
  Qed.

  Lemma dp_run_length : forall items dp,
    length (fst (dp_run vadd vlt items dp)) = length items.
  Proof.
    induction items as [|[v wi] rest IH]; intros dp; [reflexivity|].
    cbn [dp_run]. unfold step.
    specialize (IH (map snd (zipcell vadd vlt v dp (shift wi dp)))).
    destruct (dp_run vadd vlt rest (map snd (zipcell vadd vlt v dp (shift wi dp)))) as [ks fin].
    cbn [fst length] in *. f_equal. exact IH.
  Qed.

  Lemma solve_core_struct vals iw C :
    length iw = length vals ->
    incr (solve_core vzero vadd vlt vals iw C) /\
    Forall (fun i => i < length vals) (solve_core vzero vadd vlt vals iw C).
  Proof.
    intros Hlen. unfold solve_core.
    pose proof (dp_run_length (combine vals iw) (repeat vzero (S C))) as Hl.
    destruct (dp_run vadd vlt (combine vals iw) (repeat vzero (S C))) as [keeps fin].
    cbn [fst] in Hl. rewrite combine_length, Hlen, Nat.min_id in Hl.
    pose proof (backtrack_subseq (rev (rows_of keeps iw)) C) as Hs.
    apply subseq_rev in Hs. rewrite map_rev, rev_involutive, rows_of_from, rows_from_idx in Hs.
    rewrite Hl, Hlen, Nat.min_id in Hs.
    destruct (subseq_seq_incr _ _ _ Hs) as [Hi Hf]. split; [exact Hi|].
    eapply Forall_impl; [|exact Hf]. cbv beta. intros i Hi'. lia.
  Qed.
End Core.
