(* C16 - a grid absorbs the tolerance.  The code's final knapsack check `total_weight > capacity + 1e-9` and the fit test
   of solve_bin_pack (`size - remaining <= 1e-9`) leave a slack of 1e-9.  When the weights (sizes) and the capacity are
   multiples of 1/d with d < 10^9 (decimal inputs with up to 8 places, dyadic inputs, integers) an excess is at least
   1/d > 1e-9, so a sum that is within capacity + 1e-9 is within the capacity exactly (grid_tight).  Used for knapsack
   selections here and for bin loads in BinProofs.v. *)
From Coq Require Import List Arith ZArith QArith Bool Lia.
From SV Require Import C16.KnapCore C16.Knapsack C16.KnapSpec C16.KnapQProofs.
Import ListNotations.

Definition on_grid (d : positive) (q : Q) : Prop := exists z : Z, q == z # d.
Definition on_gridb (d : positive) (q : Q) : bool := ((Qnum q * Zpos d) mod Zpos (Qden q) =? 0)%Z.

Lemma on_gridb_sound d q : on_gridb d q = true -> on_grid d q.
Proof.
  unfold on_gridb, on_grid. intros H. apply Z.eqb_eq in H.
  exists ((Qnum q * Zpos d) / Zpos (Qden q))%Z. unfold Qeq. cbn [Qnum Qden].
  pose proof (Z.div_mod (Qnum q * Zpos d) (Zpos (Qden q)) ltac:(lia)) as Hdm. rewrite H in Hdm. lia.
Qed.

Lemma grid_zero d : on_grid d 0.
Proof. exists 0%Z. unfold Qeq. cbn. reflexivity. Qed.

Lemma grid_plus d a b : on_grid d a -> on_grid d b -> on_grid d (a + b).
Proof.
  intros [za Ha] [zb Hb]. exists (za + zb)%Z. rewrite Ha, Hb. unfold Qeq, Qplus. cbn [Qnum Qden]. lia.
Qed.

Lemma grid_sum d l : Forall (on_grid d) l -> on_grid d (sumQ l).
Proof.
  induction l as [|x l IH]; intros H; [apply grid_zero|].
  inversion H as [|y l' Hx Hl]; subst. rewrite sumQ_cons. apply grid_plus; [exact Hx|apply IH; exact Hl].
Qed.

Lemma grid_arith (za zb D K : Z) :
  (0 < D)%Z -> (D < K)%Z -> (za * (D * K) <= (zb * K + 1 * D) * D)%Z -> (za <= zb)%Z.
Proof.
  intros HD HK H.
  destruct (Z_le_gt_dec za zb) as [Hle|Hgt]; [exact Hle|]. exfalso.
  assert (H1 : ((zb + 1) * (D * K) <= za * (D * K))%Z) by (apply Z.mul_le_mono_nonneg_r; nia).
  assert (H2 : (D * D < D * K)%Z) by (apply Z.mul_lt_mono_pos_l; lia).
  replace ((zb + 1) * (D * K))%Z with (zb * K * D + D * K)%Z in H1 by ring.
  replace ((zb * K + 1 * D) * D)%Z with (zb * K * D + D * D)%Z in H by ring.
  lia.
Qed.

Lemma grid_tight d a b :
  (d <? 1000000000)%positive = true -> on_grid d a -> on_grid d b -> a <= b + tol -> a <= b.
Proof.
  intros Hd [za Ha] [zb Hb] H. apply Pos.ltb_lt, Pos2Z.pos_lt_pos in Hd. rewrite Ha, Hb in *. unfold tol, Qle, Qplus in *. cbn [Qnum Qden] in *.
  rewrite Pos2Z.inj_mul in H.
  apply Z.mul_le_mono_nonneg_r; [lia|].
  exact (grid_arith za zb (Zpos d) (Zpos 1000000000) ltac:(lia) Hd H).
Qed.

Lemma nth_on_grid d l i : forallb (on_gridb d) l = true -> on_grid d (nth i l 0).
Proof.
  intros Hl. destruct (Nat.lt_ge_cases i (length l)) as [Hi|Hi].
  - apply on_gridb_sound. rewrite forallb_forall in Hl. apply Hl. apply nth_In. exact Hi.
  - rewrite nth_overflow by exact Hi. apply grid_zero.
Qed.

Lemma pick_on_grid d weights sel : forallb (on_gridb d) weights = true -> on_grid d (sumQ (pickQ weights sel)).
Proof.
  intros Hws. apply grid_sum. unfold pickQ. apply Forall_forall. intros q Hq.
  apply in_map_iff in Hq. destruct Hq as [i [<- _]]. apply nth_on_grid. exact Hws.
Qed.

Lemma knap_feasible_q_grid d values weights capacity sel obj :
  (d <? 1000000000)%positive = true -> on_gridb d capacity = true -> forallb (on_gridb d) weights = true ->
  knap_feasible_q tol values weights capacity sel obj -> knap_feasible_q 0 values weights capacity sel obj.
Proof.
  intros Hd Hc Hws H. apply (knap_feasible_q_slack tol); [exact H|].
  rewrite Qplus_0_r. exact (grid_tight d _ _ Hd (pick_on_grid d weights sel Hws) (on_gridb_sound _ _ Hc)).
Qed.
