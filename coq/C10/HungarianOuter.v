(* Optimality.  A final state whose potentials are dual feasible and tight on col_match certifies the
   returned assignment: certificate theorem (HungarianCert) + padding / max reductions (HungarianPad) + the
   matching invariant (HungarianMatching).  The outer loop maintains dual feasibility on the inserted rows
   and tightness of the matched pairs (numeric invariant of the inner loop, HungarianInner), so the final
   potentials are such a certificate (solve_optimal, the source of Props theorem C10_optimal). *)
From Coq Require Import List Arith ZArith Bool Lia.
From SV Require Import C10.Hungarian C10.HungarianSpec C10.HungarianLists C10.HungarianScan C10.HungarianInner
     C10.HungarianMatching C10.HungarianCert C10.HungarianPad.
Import ListNotations.
Local Open Scope nat_scope.

(* dual feasibility and tightness of a final state, 1-based as in the code *)
Definition dual_feasible (C : list (list Z)) (n : nat) (u v : list Z) : Prop :=
  forall i j, 1 <= i <= n -> 1 <= j <= n -> (nth i u 0 + nth j v 0 <= entry C (i - 1) (j - 1))%Z.
Definition tight (C : list (list Z)) (n : nat) (u v : list Z) (p : list nat) : Prop :=
  forall j, 1 <= j <= n -> (nth (nth j p 0%nat) u 0 + nth j v 0 = entry C (nth j p 0%nat - 1) (j - 1))%Z.

(* the perfect matching held in col_match, rows and columns numbered from 0 *)
Definition model_pairs (p : list nat) (n : nat) : list (nat * nat) :=
  map (fun c => (nth (S c) p 0 - 1, c)) (seq 0 n).

Lemma model_pairs_pmatch n p : hole_inv n n p 0 -> pmatch n (model_pairs p n).
Proof.
  intros Hh. pose proof Hh as [Hl Hinj Hsur Hle]. pose proof (all_matched n p Hh) as Hnz.
  unfold model_pairs. constructor.
  - rewrite map_map. simpl. apply NoDup_map_on; [apply seq_NoDup|].
    intros x y Hx Hy E. apply in_seq in Hx. apply in_seq in Hy.
    assert (Hx0 : nth (S x) p 0 <> 0) by (apply Hnz; lia). assert (Hy0 : nth (S y) p 0 <> 0) by (apply Hnz; lia).
    assert (E' : nth (S x) p 0 = nth (S y) p 0) by lia. clear E.
    assert (X : S x = S y) by (apply Hinj; [lia | lia | discriminate | discriminate | exact E' | exact Hx0]).
    injection X as ->. reflexivity.
  - rewrite map_map. simpl. rewrite map_id. apply seq_NoDup.
  - intros ij H. apply in_map_iff in H. destruct H as (c & <- & Hc). apply in_seq in Hc. simpl.
    assert (nth (S c) p 0 <> 0) by (apply Hnz; lia). assert (nth (S c) p 0 <= n) by (apply Hle; lia). lia.
  - rewrite map_length, seq_length. reflexivity.
Qed.

Lemma model_represents M p :
  hole_inv (Nat.max (n_rows M) (n_cols M)) (Nat.max (n_rows M) (n_cols M)) p 0 ->
  represents M (model_pairs p (Nat.max (n_rows M) (n_cols M)))
             (extract p (n_rows M) (n_cols M) (Nat.max (n_rows M) (n_cols M))).
Proof.
  intros Hh. set (n := Nat.max (n_rows M) (n_cols M)) in *.
  split; [apply model_pairs_pmatch; exact Hh|]. split.
  - destruct (extract_matching n p (n_rows M) (n_cols M) eq_refl Hh) as (H1 & H2 & H3 & H4).
    constructor; assumption.
  - intros i c Hi Hc. rewrite (extract_char n p (n_rows M) (n_cols M) eq_refl Hh i c Hi Hc).
    assert (Hnz : nth (S c) p 0 <> 0) by (apply (all_matched n p Hh); unfold n; lia).
    unfold model_pairs. rewrite in_map_iff. split.
    + intros (c' & [= E <-] & _). lia.
    + intros E. exists c. split; [rewrite E; f_equal; lia | apply in_seq; unfold n; lia].
Qed.

Lemma model_optimal M mz u v p :
  let n := Nat.max (n_rows M) (n_cols M) in
  hole_inv n n p 0 ->
  dual_feasible (padded M mz) n u v -> tight (padded M mz) n u v p ->
  optimal_spec M mz (extract p (n_rows M) (n_cols M) n).
Proof.
  intros n Hh Hf Ht.
  apply (pad_max_ok M mz (model_pairs p n)); [apply model_represents; exact Hh|].
  apply (cert_pairs n (padded M mz) (fun i => nth (S i) u 0%Z) (fun j => nth (S j) v 0%Z)).
  - intros i j Hi Hj. specialize (Hf (S i) (S j)). simpl in Hf. rewrite !Nat.sub_0_r in Hf. apply Hf; lia.
  - apply model_pairs_pmatch. exact Hh.
  - intros ij H. unfold model_pairs in H. apply in_map_iff in H. destruct H as (c & <- & Hc).
    apply in_seq in Hc. simpl.
    assert (Hnz : nth (S c) p 0 <> 0) by (apply (all_matched n p Hh); lia).
    specialize (Ht (S c)). destruct (nth (S c) p 0) as [|r]; [contradiction|].
    simpl in Ht. rewrite !Nat.sub_0_r in Ht. simpl. rewrite Nat.sub_0_r. apply Ht. lia.
Qed.

Lemma cert_check_sound C n u v p way :
  cert_check C n (u, v, p, way) = true -> dual_feasible C n u v /\ tight C n u v p.
Proof.
  unfold cert_check. rewrite !andb_true_iff. intros [[H1 H2] _]. split.
  - intros i j Hi Hj. rewrite forallb_forall in H1.
    specialize (H1 i (proj2 (in_seq n 1 i) ltac:(lia))). rewrite forallb_forall in H1.
    specialize (H1 j (proj2 (in_seq n 1 j) ltac:(lia))). apply Z.leb_le. exact H1.
  - intros j Hj. rewrite forallb_forall in H2.
    specialize (H2 j (proj2 (in_seq n 1 j) ltac:(lia))). simpl in H2.
    rewrite !andb_true_iff in H2. destruct H2 as [_ H2]. apply Z.eqb_eq. exact H2.
Qed.

(* `while current_col != 0`: the walk back along augment_path moves the hole of col_match from column c to column 0
   (p0 is col_match before the walk).  The pairs it creates are edges of the alternating tree, hence tight. *)
Lemma augment_spec C n i u v way (p0 : list nat) : forall f c rest p,
  f > length rest -> good_ord way (c :: rest) -> (forall k, In k (c :: rest) -> k <= n) ->
  hole_inv n i p c ->
  (forall k, In k (c :: rest) -> nth k p 0 = nth k p0 0) ->
  (forall j, In j (c :: rest) -> j <> 0 -> rc C u v (nth (nth j way 0) p0 0) j = 0%Z) ->
  (forall j, 1 <= j <= n -> j <> c -> nth j p 0 <> 0 -> rc C u v (nth j p 0) j = 0%Z) ->
  exists p', augment f way p c = Some p' /\ hole_inv n i p' 0 /\
             forall j, 1 <= j <= n -> nth j p' 0 <> 0 -> rc C u v (nth j p' 0) j = 0%Z.
Proof.
  induction f as [|f IH]; intros c rest p Hf Hg Hb Hh Hag Hw Ht; [lia|]. simpl.
  destruct (c =? 0) eqn:Ec.
  - apply Nat.eqb_eq in Ec. subst c. exists p. split; [reflexivity|]. split; [exact Hh|].
    intros j Hj. apply Ht; lia.
  - apply Nat.eqb_neq in Ec.
    inversion Hg as [|c' rest' Hc0 Hnin Hin Hg']; subst; [congruence|].
    (* the walk continues at the predecessor of c, with the used columns older than it *)
    destruct (good_ord_suffix _ _ Hg' _ Hin) as (L1 & L2 & E & G).
    assert (Hsub : forall k, In k (nth c way 0 :: L2) -> In k rest).
    { intros k Hk. rewrite E. apply in_or_app. right. exact Hk. }
    pose proof (Hb c (or_introl eq_refl)) as Hcn.
    apply (IH (nth c way 0) L2).
    + rewrite E, app_length in Hf. simpl in Hf. lia.
    + exact G.
    + intros k Hk. apply Hb. right. apply Hsub. exact Hk.
    + apply hole_step; [exact Hh | exact Hcn | apply Hb; right; exact Hin | intros X; apply Hnin; rewrite <- X; exact Hin].
    + intros k Hk. rewrite nth_upd_other; [apply Hag; right; apply Hsub; exact Hk|].
      intros ->. apply Hnin. apply Hsub. exact Hk.
    + intros j Hj. apply Hw. right. apply Hsub. exact Hj.
    + intros j Hj Hjw Hnz. destruct (Nat.eq_dec j c) as [->|Hjc].
      * rewrite nth_upd_same by (rewrite (hi_len _ _ _ _ Hh); lia).
        rewrite (Hag (nth c way 0) (or_intror Hin)). apply Hw; [left; reflexivity | exact Ec].
      * rewrite nth_upd_other in * by exact Hjc. apply Ht; assumption.
Qed.

(* the invariant of the outer loop (`for i in range(1, n + 1)`) after i rows: col_match matches them, the potentials are
   feasible on them and tight on the matched pairs *)
Definition outer_inv (C : list (list Z)) (n i : nat) (st : hstate) : Prop :=
  match st with
  | (u, v, p, way) =>
      hole_inv n i p 0 /\ length way = S n /\ length u = S n /\ length v = S n /\
      (forall r j, 1 <= r <= i -> 1 <= j <= n -> (0 <= rc C u v r j)%Z) /\
      (forall j, 1 <= j <= n -> nth j p 0 <> 0 -> rc C u v (nth j p 0) j = 0%Z)
  end.

Lemma outer_step_spec C n i st :
  outer_inv C n i st -> i < n ->
  exists st', outer_step C n (Some st) (S i) = Some st' /\ outer_inv C n (S i) st'.
Proof.
  destruct st as [[[u v] p] way]. intros (Hh & Hlw & Lu & Lv & ONF & ONT) Hi.
  destruct (hole_insert n i p Hh) as (Hl0 & Hp00 & Hp0j & Pinj & Prow & Hhole). set (p0 := upd p 0 (S i)) in *.
  assert (Hfree : exists j, 1 <= j <= n /\ nth j p0 0 = 0).
  { destruct (free_column n i p Hh Hi) as (j & Hj & E). exists j. split; [exact Hj|]. rewrite Hp0j by lia. exact E. }
  assert (Prng : forall j, j <= n -> nth j p0 0 <= n).
  { intros j Hj. destruct (Nat.eq_dec j 0) as [->|J0]; [rewrite Hp00; lia|]. specialize (Prow j ltac:(lia)). lia. }
  destruct (inner_spec C n p0 Hl0 Pinj Prng Hfree i Hp00 Prow (S n) u v (repeat None (S n)) way (repeat false (S n)) 0 [])
    as (u1 & v1 & minv1 & way1 & used1 & jf & ord' & Hrun & Hend & [HI' HN']); [|simpl; lia|].
  { apply full_inv_start; [exact Hlw | exact Lu | exact Lv | exact ONF|]. intros j Hj Hnz. rewrite Hp0j in * by lia. apply ONT; assumption. }
  pose proof (inner_inv_bound _ _ _ _ _ _ _ HI') as [Hnd Hb].
  assert (Hjf0 : jf <> 0) by (intros ->; rewrite Hp00 in Hend; discriminate).
  assert (H0 : In 0 ord') by (apply (proj2 (inner_inv_zero _ _ _ _ _ _ _ HI') jf); [lia | left; reflexivity]).
  destruct HI' as [_ Lw' _ Hjf _ _ Gf _].
  destruct HN' as ((Lu1 & Lv1) & NF & NT & NW & _).
  pose proof (Hhole jf Hjf0 Hend) as Hh0.
  pose proof (nodup_bounded_length _ n Hnd Hb) as Hlen. simpl in Hlen.
  destruct (augment_spec C n (S i) u1 v1 way1 p0 (S n) jf ord' p0) as (p1 & Ha & Hh1 & Ht1);
    [lia | exact Gf | exact Hb | exact Hh0 | intros; reflexivity | exact NW | intros j Hj _ Hnz; apply NT; assumption|].
  exists (u1, v1, p1, way1). split; [unfold outer_step; fold p0; rewrite Hrun, Ha; reflexivity|].
  split; [exact Hh1|]. split; [exact Lw'|]. split; [exact Lu1|]. split; [exact Lv1|]. split; [|exact Ht1].
  intros r j Hr Hj. apply NF; [|exact Hj].
    destruct (Nat.eq_dec r (S i)) as [->|Hne]; [right; split; [reflexivity | exact H0] | left; lia].
Qed.

Lemma core_prefix_spec C n : forall k, k <= n ->
  exists st, fold_left (outer_step C n) (seq 1 k) (Some (init_state n)) = Some st /\ outer_inv C n k st.
Proof.
  induction k as [|k IH]; intros Hk.
  - exists (init_state n). split; [reflexivity|]. split; [apply hole_init|]. repeat (split; [apply repeat_length|]).
    split; [intros r j Hr; lia | intros j _ Hnz; rewrite nth_repeat in Hnz; congruence].
  - destruct IH as (st & E & HI); [lia|].
    destruct (outer_step_spec C n k st HI) as (st' & E' & HI'); [lia|].
    exists st'. split; [|exact HI'].
    rewrite seq_S, fold_left_app, E. simpl. exact E'.
Qed.

Lemma core_spec C n : exists u v p way,
  core C n = Some (u, v, p, way) /\ hole_inv n n p 0 /\ dual_feasible C n u v /\ tight C n u v p.
Proof.
  destruct (core_prefix_spec C n n (le_n n)) as ([[[u v] p] way] & E & Hh & _ & _ & _ & ONF & ONT).
  exists u, v, p, way. split; [exact E|]. split; [exact Hh|]. split.
  - intros i j Hi Hj. specialize (ONF i j Hi Hj). unfold rc in ONF. lia.
  - intros j Hj. specialize (ONT j Hj (all_matched n p Hh j Hj)). unfold rc in ONT. lia.
Qed.

Definition solve_ok (M : list (list Z)) (mz : bool) : Prop :=
  exists a, solve M mz = Some (a, cost_of M a) /\ matching_spec M a /\ optimal_spec M mz a.

Lemma solve_zero_cols M mz : n_cols M = 0 -> solve_ok M mz.
Proof.
  intros H. exists (repeat (-1)%Z (n_rows M)). split; [|split].
  - unfold cost_of. rewrite cost_from_repeat.
    destruct M as [|[|x r] rest]; [reflexivity | reflexivity | discriminate].
  - apply zero_cols_matching, H.
  - intros b Hb. rewrite (zero_cols_cost M b H Hb), (zero_cols_cost M _ H (zero_cols_matching M H)).
    destruct mz; lia.
Qed.

Lemma solve_certified M mz u v p way :
  let n := Nat.max (n_rows M) (n_cols M) in
  n_cols M <> 0 -> core (padded M mz) n = Some (u, v, p, way) -> hole_inv n n p 0 ->
  dual_feasible (padded M mz) n u v -> tight (padded M mz) n u v p -> solve_ok M mz.
Proof.
  intros n Hc E Hh Hf Ht.
  destruct (extract_matching n p (n_rows M) (n_cols M) eq_refl Hh) as (H1 & H2 & H3 & H4).
  exists (extract p (n_rows M) (n_cols M) n). split; [|split].
  - destruct M as [|[|x r] rest]; [contradiction | contradiction |].
    unfold solve, solve_gen. fold n. rewrite E, total_cost_spec by exact H2. reflexivity.
  - constructor; assumption.
  - apply (model_optimal M mz u v p); assumption.
Qed.

(* by the loop invariant the final potentials are dual feasible and tight on col_match *)
Lemma solve_optimal M mz : solve_ok M mz.
Proof.
  destruct (Nat.eq_dec (n_cols M) 0) as [Hc|Hc]; [apply solve_zero_cols, Hc|].
  destruct (core_spec (padded M mz) (Nat.max (n_rows M) (n_cols M))) as (u & v & p & way & E & Hh & Hf & Ht).
  exact (solve_certified M mz u v p way Hc E Hh Hf Ht).
Qed.
