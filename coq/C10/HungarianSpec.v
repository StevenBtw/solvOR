(* Readable specification of property C10 and its boolean checker.
   An assignment is the list returned by solve_hungarian: a.(i) = column of row i, or -1. *)
From Coq Require Import List Arith ZArith Bool Lia.
From SV Require Import C10.Hungarian.
Import ListNotations.
Open Scope Z_scope.

(* well-formed input: every row has the length of the first one *)
Definition wf (M : list (list Z)) : bool :=
  forallb (fun row => (length row =? n_cols M)%nat) M.
(* no rows, or a non-empty first row.  Where it fails, the variant solve_pinned (the early return `Result([], ...)` of
   the code before commit 05cf383) violates matching_spec: C10_zero_cols_pinned_refuted.  No theorem about `solve`
   needs this predicate. *)
Definition has_cols (M : list (list Z)) : bool :=
  match M with
  | [] => true
  | [] :: _ => false
  | _ => true
  end.

Definition assigned (a : list Z) : list Z := filter (fun x => negb (x =? -1)) a.

(* total cost of the chosen entries of the ORIGINAL matrix *)
Fixpoint cost_from (M : list (list Z)) (i : nat) (a : list Z) : Z :=
  match a with
  | [] => 0
  | x :: t => (if x =? -1 then 0 else entry M i (Z.to_nat x)) + cost_from M (S i) t
  end.
Definition cost_of (M : list (list Z)) (a : list Z) : Z := cost_from M 0 a.

Record matching_spec (M : list (list Z)) (a : list Z) : Prop := {
  ms_len : length a = n_rows M;                                            (* one entry per row *)
  ms_range : Forall (fun x => x = -1 \/ 0 <= x < Z.of_nat (n_cols M)) a;   (* -1 or a column index *)
  ms_nodup : NoDup (assigned a);                                           (* no column twice *)
  ms_count : length (assigned a) = Nat.min (n_rows M) (n_cols M)           (* min(rows, cols) pairs *)
}.

Definition objective_spec (M : list (list Z)) (o : list Z * Z) : Prop :=
  snd o = cost_of M (fst o).

Definition optimal_spec (M : list (list Z)) (minimize : bool) (a : list Z) : Prop :=
  forall b, matching_spec M b ->
    if minimize then cost_of M a <= cost_of M b else cost_of M b <= cost_of M a.

(* ---------- boolean checker for (input, output) pairs, independent of the model *)
Fixpoint nodup_zb (l : list Z) : bool :=
  match l with
  | [] => true
  | x :: t => negb (existsb (Z.eqb x) t) && nodup_zb t
  end.

Definition in_range (nc : nat) (x : Z) : bool :=
  (x =? -1) || ((0 <=? x) && (x <? Z.of_nat nc)).

Definition matching_check (M : list (list Z)) (a : list Z) : bool :=
  (length a =? n_rows M)%nat
  && forallb (in_range (n_cols M)) a
  && nodup_zb (assigned a)
  && (length (assigned a) =? Nat.min (n_rows M) (n_cols M))%nat.

Definition spec_check (M : list (list Z)) (o : list Z * Z) : bool :=
  matching_check M (fst o) && (snd o =? cost_of M (fst o)).

Lemma nodup_zb_spec l : nodup_zb l = true <-> NoDup l.
Proof.
  induction l as [|x t IH]; simpl; [split; [constructor | reflexivity]|].
  rewrite andb_true_iff, negb_true_iff, IH, NoDup_cons_iff, <- not_true_iff_false, existsb_exists.
  split; intros [H1 H2]; (split; [|exact H2]).
  - intros Hin. apply H1. exists x. split; [exact Hin | apply Z.eqb_refl].
  - intros (y & Hy & E). apply Z.eqb_eq in E. subst y. exact (H1 Hy).
Qed.

Lemma matching_check_sound M a : matching_check M a = true -> matching_spec M a.
Proof.
  unfold matching_check. intros H.
  repeat (apply andb_true_iff in H; destruct H as [H ?]).
  constructor.
  - apply Nat.eqb_eq; assumption.
  - apply Forall_forall. intros x Hx.
    match goal with Hf : forallb _ a = true |- _ => rewrite forallb_forall in Hf; specialize (Hf x Hx) end.
    unfold in_range in *. lia.
  - apply nodup_zb_spec; assumption.
  - apply Nat.eqb_eq; assumption.
Qed.

Lemma matching_check_complete M a : matching_spec M a -> matching_check M a = true.
Proof.
  intros [H1 H2 H3 H4]. unfold matching_check.
  rewrite H1, Nat.eqb_refl, H4, Nat.eqb_refl, (proj2 (nodup_zb_spec _) H3). simpl.
  rewrite !andb_true_r. apply forallb_forall. intros x Hx.
  rewrite Forall_forall in H2. specialize (H2 x Hx). unfold in_range. lia.
Qed.

Lemma spec_check_sound M o :
  spec_check M o = true -> matching_spec M (fst o) /\ objective_spec M o.
Proof.
  unfold spec_check. intros H. apply andb_true_iff in H. destruct H as [H1 H2].
  split; [apply matching_check_sound; exact H1 | apply Z.eqb_eq; exact H2].
Qed.
