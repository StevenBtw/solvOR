(* List lemmas used by the C10 proofs: upd / nth, loops that rewrite one entry per step, pigeonhole helpers. *)
From Coq Require Import List Arith Lia.
From SV Require Import C10.Hungarian.
Import ListNotations.
Local Open Scope nat_scope.

Lemma upd_length {A} (l : list A) k x : length (upd l k x) = length l.
Proof.
  revert k; induction l as [|h t IH]; intros k; simpl; [reflexivity|].
  destruct k; simpl; [reflexivity | rewrite IH; reflexivity].
Qed.

Lemma nth_upd_same {A} (l : list A) k x d : (k < length l)%nat -> nth k (upd l k x) d = x.
Proof.
  revert k; induction l as [|h t IH]; intros k Hk; simpl in *; [lia|].
  destruct k; simpl; [reflexivity | apply IH; lia].
Qed.

Lemma nth_upd_other {A} (l : list A) k j x d : j <> k -> nth j (upd l k x) d = nth j l d.
Proof.
  revert k j; induction l as [|h t IH]; intros k j Hjk; simpl.
  - reflexivity.
  - destruct k; destruct j; simpl; try reflexivity; try lia.
    apply IH. lia.
Qed.

(* a loop that, at every j of js passing a test c, replaces entry g j of a list by f j of itself *)
Definition sweep {A} (c : nat -> bool) (g : nat -> nat) (f : nat -> A -> A) (dflt : A) (js : list nat)
           (l : list A) : list A :=
  fold_left (fun l j => if c j then upd l (g j) (f j (nth (g j) l dflt)) else l) js l.

Lemma sweep_cons {A} c g (f : nat -> A -> A) dflt j js l :
  sweep c g f dflt (j :: js) l = sweep c g f dflt js (if c j then upd l (g j) (f j (nth (g j) l dflt)) else l).
Proof. reflexivity. Qed.

Lemma sweep_spec {A} c g (f : nat -> A -> A) dflt : forall js l,
  NoDup js ->
  (forall j, In j js -> c j = true -> g j < length l) ->
  (forall j k, In j js -> In k js -> c j = true -> c k = true -> g j = g k -> j = k) ->
  length (sweep c g f dflt js l) = length l /\
  (forall j, In j js -> c j = true -> nth (g j) (sweep c g f dflt js l) dflt = f j (nth (g j) l dflt)) /\
  (forall r, (forall j, In j js -> c j = true -> g j <> r) -> nth r (sweep c g f dflt js l) dflt = nth r l dflt).
Proof.
  induction js as [|j js IH]; intros l Hnd Hlen Hinj.
  - split; [reflexivity|]. split; [intros j [] | reflexivity].
  - inversion Hnd as [|? ? Hnin Hnd']; subst. rewrite sweep_cons.
    destruct (c j) eqn:Hc.
    + assert (Hne : forall k, In k js -> c k = true -> g k <> g j).
      { intros k Hk Hck E. apply Hnin. rewrite <- (Hinj k j (or_intror Hk) (or_introl eq_refl) Hck Hc E). exact Hk. }
      destruct (IH (upd l (g j) (f j (nth (g j) l dflt))) Hnd') as (L & S1 & S2).
      * intros k Hk Hck. rewrite upd_length. apply Hlen; [right; exact Hk | exact Hck].
      * intros a b Ha Hb. apply Hinj; right; assumption.
      * split; [rewrite L; apply upd_length|]. split.
        -- intros k [<-|Hk] Hck.
           ++ rewrite S2 by exact Hne. apply nth_upd_same, Hlen; [left; reflexivity | exact Hc].
           ++ rewrite (S1 k Hk Hck), nth_upd_other; [reflexivity | apply Hne; assumption].
        -- intros r Hr. rewrite S2 by (intros k Hk; apply Hr; right; exact Hk).
           apply nth_upd_other. intros E. apply (Hr j); [left; reflexivity | exact Hc | symmetry; exact E].
    + destruct (IH l Hnd') as (L & S1 & S2).
      * intros k Hk. apply Hlen. right. exact Hk.
      * intros a b Ha Hb. apply Hinj; right; assumption.
      * split; [exact L|]. split.
        -- intros k [<-|Hk] Hck; [congruence | apply S1; assumption].
        -- intros r Hr. apply S2. intros k Hk. apply Hr. right. exact Hk.
Qed.

Lemma image_dec (p : list nat) (l : list nat) (i : nat) :
  (exists k, In k l /\ nth k p 0 = i) \/ (forall k, In k l -> nth k p 0 <> i).
Proof.
  induction l as [|x l IH]; [right; intros k []|].
  destruct (Nat.eq_dec (nth x p 0) i) as [E|E]; [left; exists x; split; [left; reflexivity | exact E]|].
  destruct IH as [(k & Hk & Ek)|IH]; [left; exists k; split; [right; exact Hk | exact Ek]|].
  right. intros k [<-|Hk]; [exact E | apply IH; exact Hk].
Qed.

Lemma NoDup_map_on {A B} (f : A -> B) l :
  NoDup l -> (forall x y, In x l -> In y l -> f x = f y -> x = y) -> NoDup (map f l).
Proof.
  induction 1 as [|x l Hn Hd IH]; intros Hinj; simpl; constructor.
  - intros Hin. apply in_map_iff in Hin. destruct Hin as (y & E & Hy).
    assert (y = x) by (apply Hinj; [right; exact Hy | left; reflexivity | exact E]). subst y. contradiction.
  - apply IH. intros a b Ha Hb. apply Hinj; right; assumption.
Qed.

Lemma nodup_bounded_length (l : list nat) n :
  NoDup l -> (forall x, In x l -> (x <= n)%nat) -> (length l <= S n)%nat.
Proof.
  intros Hnd Hb.
  rewrite <- (seq_length (S n) 0).
  apply NoDup_incl_length; [exact Hnd|].
  intros x Hx. apply in_seq. specialize (Hb x Hx). lia.
Qed.

Lemma in_split_suffix {A} (x : A) l : In x l -> exists l1 l2, l = l1 ++ x :: l2.
Proof. apply in_split. Qed.
