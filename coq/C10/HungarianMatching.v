(* col_match as a matching.  The outer loop of solve_hungarian keeps col_match a partial injection that
   matches rows 1..i; at the end it is a bijection between rows and columns 1..n of the padded matrix, from
   which the returned assignment is read off: matching_spec, and the objective is the sum of the chosen
   original entries.  No arithmetic on the costs here. *)
From Coq Require Import List Arith ZArith Bool Lia.
From SV Require Import C10.Hungarian C10.HungarianSpec C10.HungarianLists C10.HungarianInner.
Import ListNotations.
Local Open Scope nat_scope.

(* col_match restricted to the columns 0..n other than the "hole" c is injective on non-zero rows,
   covers the rows 1..i and has no other rows.  With c = 0 this is the loop invariant of the outer loop. *)
Record hole_inv (n i : nat) (p : list nat) (c : nat) : Prop := {
  hi_len : length p = S n;
  hi_inj : forall j j', j <= n -> j' <= n -> j <> c -> j' <> c ->
                        nth j p 0 = nth j' p 0 -> nth j p 0 <> 0 -> j = j';
  hi_sur : forall r, 1 <= r <= i -> exists j, j <= n /\ j <> c /\ nth j p 0 = r;
  hi_le : forall j, j <= n -> j <> c -> nth j p 0 <= i
}.

Lemma hole_init n : hole_inv n 0 (repeat 0 (S n)) 0.
Proof.
  constructor.
  - apply repeat_length.
  - intros j j' _ _ _ _ _ Hnz. rewrite nth_repeat in Hnz. congruence.
  - intros r Hr. lia.
  - intros j _ _. rewrite nth_repeat. lia.
Qed.

Lemma hole_step n i p c w :
  hole_inv n i p c -> c <= n -> w <= n -> w <> c ->
  hole_inv n i (upd p c (nth w p 0)) w.
Proof.
  intros [Hl Hinj Hsur Hle] Hc Hw Hwc.
  assert (Hsame : nth c (upd p c (nth w p 0)) 0 = nth w p 0) by (apply nth_upd_same; lia).
  assert (Hoth : forall j, j <> c -> nth j (upd p c (nth w p 0)) 0 = nth j p 0)
    by (intros j Hj; apply nth_upd_other; exact Hj).
  constructor.
  - rewrite upd_length. exact Hl.
  - intros j j' Hj Hj' Hjw Hj'w E Hnz.
    destruct (Nat.eq_dec j c) as [->|Hjc]; destruct (Nat.eq_dec j' c) as [->|Hj'c]; try reflexivity.
    + rewrite Hsame, (Hoth j' Hj'c) in E. rewrite Hsame in Hnz.
      exfalso. apply Hj'w. symmetry. apply Hinj; auto.
    + rewrite Hsame, (Hoth j Hjc) in E. rewrite (Hoth j Hjc) in Hnz.
      exfalso. apply Hjw. apply Hinj; auto.
    + rewrite (Hoth j Hjc), (Hoth j' Hj'c) in E. rewrite (Hoth j Hjc) in Hnz. apply Hinj; auto.
  - intros r Hr. destruct (Hsur r Hr) as (j & Hj & Hjc & E).
    destruct (Nat.eq_dec j w) as [->|Hjw].
    + exists c. repeat split; [exact Hc | congruence | rewrite Hsame; exact E].
    + exists j. repeat split; [exact Hj | exact Hjw | rewrite (Hoth j Hjc); exact E].
  - intros j Hj Hjw. destruct (Nat.eq_dec j c) as [->|Hjc].
    + rewrite Hsame. apply Hle; auto.
    + rewrite (Hoth j Hjc). apply Hle; auto.
Qed.

(* `col_match[0] = i`: putting the new row S i into the virtual column 0.  The new col_match is injective on all of
   0..n, and the hole may be put at any free column *)
Lemma hole_insert n i p : hole_inv n i p 0 ->
  let p0 := upd p 0 (S i) in
  length p0 = S n /\ nth 0 p0 0 = S i /\ (forall j, j <> 0 -> nth j p0 0 = nth j p 0) /\
  (forall j j', j <= n -> j' <= n -> nth j p0 0 = nth j' p0 0 -> nth j p0 0 <> 0 -> j = j') /\
  (forall k, 1 <= k <= n -> nth k p0 0 <= i) /\
  (forall jf, jf <> 0 -> nth jf p0 0 = 0 -> hole_inv n (S i) p0 jf).
Proof.
  intros [Hl Hinj Hsur Hle] p0.
  assert (Hl0 : length p0 = S n) by (unfold p0; rewrite upd_length; exact Hl).
  assert (Hp00 : nth 0 p0 0 = S i) by (unfold p0; apply nth_upd_same; lia).
  assert (Hp0j : forall j, j <> 0 -> nth j p0 0 = nth j p 0) by (intros j Hj; unfold p0; apply nth_upd_other; exact Hj).
  assert (Prow : forall k, 1 <= k <= n -> nth k p0 0 <= i).
  { intros k Hk. rewrite Hp0j by lia. apply Hle; lia. }
  assert (Pinj : forall j j', j <= n -> j' <= n -> nth j p0 0 = nth j' p0 0 -> nth j p0 0 <> 0 -> j = j').
  { intros j j' Hj Hj' E Hnz.
    destruct (Nat.eq_dec j 0) as [->|J0]; destruct (Nat.eq_dec j' 0) as [->|J'0]; try reflexivity.
    - rewrite Hp00 in E. specialize (Prow j' ltac:(lia)). lia.
    - rewrite Hp00 in E. specialize (Prow j ltac:(lia)). lia.
    - rewrite (Hp0j j J0), (Hp0j j' J'0) in E. rewrite (Hp0j j J0) in Hnz. apply Hinj; auto. }
  split; [exact Hl0|]. split; [exact Hp00|]. split; [exact Hp0j|]. split; [exact Pinj|]. split; [exact Prow|].
  intros jf Hjf0 Hend. constructor.
  - exact Hl0.
  - intros j j' Hj Hj' _ _ E Hnz. apply Pinj; assumption.
  - intros r Hr. destruct (Nat.eq_dec r (S i)) as [->|Hne].
    + exists 0. repeat split; [lia | congruence | exact Hp00].
    + destruct (Hsur r) as (j & Hj & Hj0 & E); [lia|].
      exists j. repeat split; [exact Hj | | rewrite (Hp0j j Hj0); exact E].
      intros ->. rewrite (Hp0j jf Hjf0) in Hend. lia.
  - intros j Hj Hjc. destruct (Nat.eq_dec j 0) as [->|J0]; [rewrite Hp00; lia|].
    specialize (Prow j ltac:(lia)). lia.
Qed.

Lemma free_column n i p : hole_inv n i p 0 -> i < n -> exists j, 1 <= j <= n /\ nth j p 0 = 0.
Proof.
  intros [Hl Hinj Hsur Hle] Hi.
  destruct (image_dec p (seq 1 n) 0) as [(j & Hj & E)|Hall].
  { exists j. apply in_seq in Hj. split; [lia | exact E]. }
  (* otherwise col_match would inject the n columns into the rows 1..i *)
  exfalso.
  assert (Hnd : NoDup (map (fun j => nth j p 0) (seq 1 n))).
  { apply NoDup_map_on; [apply seq_NoDup|].
    intros x y Hx Hy E. apply in_seq in Hx. apply in_seq in Hy.
    apply Hinj; try lia. apply Hall. apply in_seq. lia. }
  assert (Hincl : incl (map (fun j => nth j p 0) (seq 1 n)) (seq 1 i)).
  { intros r Hr. apply in_map_iff in Hr. destruct Hr as (j & <- & Hj).
    specialize (Hall j Hj). apply in_seq in Hj. apply in_seq.
    assert (nth j p 0 <= i) by (apply Hle; lia). lia. }
  pose proof (NoDup_incl_length Hnd Hincl) as Hlen.
  rewrite map_length, !seq_length in Hlen. lia.
Qed.

Lemma all_matched n p : hole_inv n n p 0 -> forall j, 1 <= j <= n -> nth j p 0 <> 0.
Proof.
  intros [Hl Hinj Hsur Hle] j Hj E.
  set (L := seq 1 (j - 1) ++ seq (S j) (n - j)).
  assert (Hincl : incl (seq 1 n) (map (fun k => nth k p 0) L)).
  { intros r Hr. apply in_seq in Hr. destruct (Hsur r) as (k & Hk & Hk0 & Ek); [lia|].
    apply in_map_iff. exists k. split; [exact Ek|].
    assert (k <> j) by (intros ->; lia).
    unfold L. apply in_or_app. destruct (Nat.lt_ge_cases k j); [left | right]; apply in_seq; lia. }
  pose proof (NoDup_incl_length (seq_NoDup n 1) Hincl) as Hlen.
  unfold L in Hlen. rewrite map_length, app_length, !seq_length in Hlen. lia.
Qed.

(* the extraction loop (`assignment[col_match[j] - 1] = j - 1`) is a sweep: column j is written into position col_match[j] - 1 *)
Lemma extract_sweep p nr nc n :
  extract p nr nc n =
  sweep (fun j => negb (nth j p 0 =? 0) && (nth j p 0 <=? nr) && (j <=? nc)) (fun j => nth j p 0 - 1)
        (fun j _ => Z.of_nat (j - 1)) (-1)%Z (seq 1 n) (repeat (-1)%Z nr).
Proof. reflexivity. Qed.

Lemma extract_nth n p nr nc : nc <= n -> hole_inv n n p 0 ->
  length (extract p nr nc n) = nr /\
  forall i, i < nr ->
    (nth i (extract p nr nc n) (-1)%Z = (-1)%Z /\ forall c, c < nc -> nth (S c) p 0 <> S i)
    \/ (exists c, c < nc /\ nth (S c) p 0 = S i /\ nth i (extract p nr nc n) (-1)%Z = Z.of_nat c).
Proof.
  intros Hn [Hl Hinj _ _]. rewrite extract_sweep.
  set (c := fun j => negb (nth j p 0 =? 0) && (nth j p 0 <=? nr) && (j <=? nc)).
  assert (Hc : forall j, c j = true <-> nth j p 0 <> 0 /\ nth j p 0 <= nr /\ j <= nc).
  { intros j. unfold c. rewrite !andb_true_iff, negb_true_iff, Nat.eqb_neq, !Nat.leb_le. tauto. }
  destruct (sweep_spec c (fun j => nth j p 0 - 1) (fun j _ => Z.of_nat (j - 1)) (-1)%Z
              (seq 1 n) (repeat (-1)%Z nr) (seq_NoDup _ _)) as (L & S1 & S2).
  { intros j _ Hj. apply Hc in Hj. rewrite repeat_length. lia. }
  { intros j k Hj Hk Hcj Hck E. apply Hc in Hcj. apply Hc in Hck. apply in_seq in Hj. apply in_seq in Hk.
    assert (E' : nth j p 0 = nth k p 0) by lia. clear E. apply Hinj; [lia | lia | lia | lia | exact E' | apply Hcj]. }
  split; [rewrite L; apply repeat_length|]. intros i Hi.
  destruct (image_dec p (seq 1 nc) (S i)) as [(j & Hj & E)|Hno].
  - right. apply in_seq in Hj. destruct j as [|c0]; [lia|]. exists c0. split; [lia|]. split; [exact E|].
    specialize (S1 (S c0)). cbv beta in S1. rewrite E in S1. cbn [Nat.sub] in S1. rewrite !Nat.sub_0_r in S1.
    apply S1; [apply in_seq; lia | apply Hc; lia].
  - left. split; [|intros c0 Hc0; apply Hno, in_seq; lia].
    rewrite S2; [apply nth_repeat|]. intros j Hj Hcj E. apply Hc in Hcj. apply in_seq in Hj.
    apply (Hno j); [apply in_seq; lia | lia].
Qed.

Lemma nodup_assigned (a : list Z) :
  (forall i i', i < length a -> i' < length a -> i <> i' -> nth i a (-1)%Z <> (-1)%Z ->
                nth i a (-1)%Z <> nth i' a (-1)%Z) ->
  NoDup (assigned a).
Proof.
  induction a as [|x t IH]; intros H; [constructor|].
  assert (Ht : NoDup (assigned t)).
  { apply IH. intros i i' Hi Hi' Hne Hx. apply (H (S i) (S i')); simpl; solve [lia | exact Hx]. }
  unfold assigned in *. simpl. destruct (x =? -1)%Z eqn:Ex; simpl; [exact Ht|].
  constructor; [|exact Ht].
  intros Hin. apply filter_In in Hin. destruct Hin as [Hin _].
  destruct (In_nth _ _ (-1)%Z Hin) as (i' & Hi' & E).
  apply Z.eqb_neq in Ex. apply (H 0 (S i')); simpl; solve [lia | exact Ex | symmetry; exact E].
Qed.

Lemma assigned_all (a : list Z) : (forall x, In x a -> x <> (-1)%Z) -> assigned a = a.
Proof.
  induction a as [|x t IH]; intros H; [reflexivity|].
  unfold assigned in *. simpl.
  assert (Hx : (x =? -1)%Z = false) by (apply Z.eqb_neq; apply H; left; reflexivity).
  rewrite Hx. simpl. f_equal. apply IH. intros y Hy. apply H. right. exact Hy.
Qed.

Lemma extract_matching n p nr nc :
  n = Nat.max nr nc -> hole_inv n n p 0 ->
  let a := extract p nr nc n in
  length a = nr /\
  Forall (fun x => x = (-1)%Z \/ (0 <= x < Z.of_nat nc)%Z) a /\
  NoDup (assigned a) /\
  length (assigned a) = Nat.min nr nc.
Proof.
  intros Hn Hh a.
  (* all that is used of n; lia is slow on max *)
  assert (Hmax : nc <= n /\ (nr < nc /\ n = nc \/ nc <= nr /\ n = nr)) by lia. clear Hn.
  destruct (extract_nth n p nr nc (proj1 Hmax) Hh) as [La Hchar]. fold a in La, Hchar.
  pose proof Hh as [Hl Hinj Hsur Hle].
  assert (Hrange : forall i, i < nr -> nth i a (-1)%Z = (-1)%Z \/ (0 <= nth i a (-1)%Z < Z.of_nat nc)%Z).
  { intros i Hi. destruct (Hchar i Hi) as [[E _]|(c & Hc & _ & E)]; [left; exact E | right; rewrite E; lia]. }
  assert (Hnd : NoDup (assigned a)).
  { apply nodup_assigned. rewrite La. intros i i' Hi Hi' Hne Hx E.
    destruct (Hchar i Hi) as [[X _]|(c & Hc & G1 & Ec)]; [congruence|].
    destruct (Hchar i' Hi') as [[X _]|(c' & Hc' & G1' & Ec')]; [congruence|].
    assert (c = c') by lia. subst c'. rewrite G1 in G1'. lia. }
  split; [exact La|]. split; [|split; [exact Hnd|]].
  - apply Forall_nth. intros i d Hi. rewrite La in Hi.
    rewrite (nth_indep a d (-1)%Z) by lia. apply Hrange. exact Hi.
  - destruct Hmax as [_ [[Hc Hm]|[Hc Hm]]].
    + rewrite Nat.min_l by lia.
      rewrite assigned_all; [exact La|].
      intros x Hx. destruct (In_nth _ _ (-1)%Z Hx) as (i & Hi & <-). rewrite La in Hi.
      destruct (Hchar i Hi) as [[_ Hno]|(c & _ & _ & E)].
      * exfalso. destruct (Hsur (S i)) as ([|c] & Hj & Hj0 & E); [lia | contradiction|]. apply (Hno c); [lia | exact E].
      * rewrite E. lia.
    + (* cols < rows: the assigned entries are exactly the columns 0..nc-1 *)
      rewrite Nat.min_r by lia.
      assert (I1 : incl (assigned a) (map Z.of_nat (seq 0 nc))).
      { intros x Hx. unfold assigned in Hx. apply filter_In in Hx. destruct Hx as [Hx Hx1].
        apply negb_true_iff, Z.eqb_neq in Hx1.
        destruct (In_nth _ _ (-1)%Z Hx) as (i & Hi & <-). rewrite La in Hi.
        destruct (Hrange i Hi) as [X|X]; [congruence|].
        apply in_map_iff. exists (Z.to_nat (nth i a (-1)%Z)). split; [lia | apply in_seq; lia]. }
      assert (I2 : incl (map Z.of_nat (seq 0 nc)) (assigned a)).
      { intros x Hx. apply in_map_iff in Hx. destruct Hx as (c & <- & Hc0). apply in_seq in Hc0.
        assert (Hj : 1 <= S c <= n) by lia.
        pose proof (all_matched n p Hh (S c) Hj) as Hnz.
        assert (Hr : nth (S c) p 0 <= n) by (apply Hle; lia).
        (* column c+1 is matched to some row i+1, and row i of the assignment holds c *)
        destruct (nth (S c) p 0) as [|i] eqn:Ei; [contradiction|].
        assert (Hi : i < nr) by lia.
        destruct (Hchar i Hi) as [[_ Hno]|(c' & Hc' & G1 & E)]; [destruct (Hno c); [lia | exact Ei]|].
        assert (E' : S c' = S c) by (apply Hinj; [lia | lia | discriminate | discriminate | congruence | congruence]).
        injection E' as ->.
        unfold assigned. apply filter_In. split.
        + rewrite <- E. apply nth_In. lia.
        + apply negb_true_iff, Z.eqb_neq. lia. }
      assert (N2 : NoDup (map Z.of_nat (seq 0 nc))).
      { apply NoDup_map_on; [apply seq_NoDup|]. intros x y _ _ E. lia. }
      pose proof (NoDup_incl_length Hnd I1) as H1.
      pose proof (NoDup_incl_length N2 I2) as H2.
      rewrite map_length, seq_length in H1, H2. lia.
Qed.

Lemma extract_char n p nr nc :
  n = Nat.max nr nc -> hole_inv n n p 0 ->
  forall i c, i < nr -> c < nc ->
  (nth i (extract p nr nc n) (-1)%Z = Z.of_nat c <-> nth (S c) p 0 = S i).
Proof.
  intros Hn Hh i c Hi Hc. pose proof Hh as [Hl Hinj Hsur Hle].
  assert (Hnc : nc <= n) by lia. clear Hn.
  destruct (proj2 (extract_nth n p nr nc Hnc Hh) i Hi) as [[E Hno]|(c' & Hc' & G1 & E)]; rewrite E.
  - split; [lia|]. intros G. destruct (Hno c Hc G).
  - split.
    + intros X. assert (c' = c) by lia. subst c'. exact G1.
    + intros G. assert (E' : S c' = S c) by (apply Hinj; [lia | lia | discriminate | discriminate | congruence | congruence]).
      injection E' as ->. reflexivity.
Qed.

(* the objective (`total_cost += cost_matrix[i][assignment[i]]`) *)
Lemma total_cost_from M nc : forall a i acc,
  Forall (fun x => x = (-1)%Z \/ (0 <= x < Z.of_nat nc)%Z) a ->
  fold_left (total_step M nc) (combine (seq i (length a)) a) acc = (acc + cost_from M i a)%Z.
Proof.
  induction a as [|x t IH]; intros i acc H; [simpl; lia|].
  inversion H as [|x' t' Hx Ht]; subst.
  cbn [length seq combine fold_left cost_from].
  rewrite IH by exact Ht. unfold total_step.
  destruct (x =? -1)%Z eqn:E; simpl.
  - lia.
  - apply Z.eqb_neq in E. assert (Hlt : (x <? Z.of_nat nc)%Z = true) by (apply Z.ltb_lt; lia).
    rewrite Hlt. lia.
Qed.

Lemma total_cost_spec M a :
  Forall (fun x => x = (-1)%Z \/ (0 <= x < Z.of_nat (n_cols M))%Z) a -> total_cost M a = cost_of M a.
Proof. intros H. unfold total_cost, cost_of. rewrite total_cost_from by exact H. lia. Qed.

Lemma assigned_repeat k : assigned (repeat (-1)%Z k) = [].
Proof. induction k as [|k IH]; [reflexivity | exact IH]. Qed.

Lemma cost_from_repeat M k : forall i, cost_from M i (repeat (-1)%Z k) = 0%Z.
Proof. induction k as [|k IH]; intros i; simpl; [reflexivity | rewrite IH; reflexivity]. Qed.

Lemma zero_cols_matching M : n_cols M = 0 -> matching_spec M (repeat (-1)%Z (n_rows M)).
Proof.
  intros H. constructor.
  - apply repeat_length.
  - apply Forall_forall. intros x Hx. apply repeat_spec in Hx. left. exact Hx.
  - rewrite assigned_repeat. constructor.
  - rewrite assigned_repeat, H, Nat.min_0_r. reflexivity.
Qed.

Lemma zero_cols_cost M b : n_cols M = 0 -> matching_spec M b -> cost_of M b = 0%Z.
Proof.
  intros H [_ Hr _ _]. rewrite H in Hr. unfold cost_of. generalize 0 as i.
  induction b as [|x t IH]; intros i; simpl; [reflexivity|].
  inversion Hr as [|x' t' Hx Ht]; subst.
  assert (x = (-1)%Z) by (simpl in Hx; lia). subst x. simpl. apply IH. exact Ht.
Qed.
