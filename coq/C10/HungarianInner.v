(* The inner while loop of solve_hungarian.  Structure: it ends within fuel n+1, delta is finite, and
   augment_path is a chain of used columns leading back to column 0.  Numbers: it maintains dual
   feasibility, tightness of the matched pairs and of the alternating tree edges (augment_path), and the
   meaning of min_slack. *)
From Coq Require Import List Arith ZArith Lia.
From SV Require Import C10.Hungarian C10.HungarianLists C10.HungarianScan.
Import ListNotations.
Local Open Scope nat_scope.

(* ord = the used columns, most recently used first; column 0 is used first.  Every used column j <> 0
   points (augment_path[j]) to a column used before it. *)
Inductive good_ord (way : list nat) : list nat -> Prop :=
| go0 : good_ord way [0]
| goS j rest : j <> 0 -> ~ In j rest -> In (nth j way 0) rest -> good_ord way rest -> good_ord way (j :: rest).

Lemma good_ord_ext way way' L :
  good_ord way L -> (forall j, In j L -> nth j way' 0 = nth j way 0) -> good_ord way' L.
Proof.
  induction 1 as [|j rest Hj Hn Hin Hg IH]; intros He; [constructor|].
  constructor; auto.
  - rewrite He by (left; reflexivity). exact Hin.
  - apply IH. intros k Hk. apply He. right. exact Hk.
Qed.

Lemma good_ord_suffix way L :
  good_ord way L -> forall x, In x L -> exists L1 L2, L = L1 ++ x :: L2 /\ good_ord way (x :: L2).
Proof.
  induction 1 as [|j rest Hj Hn Hin Hg IH]; intros x Hx.
  - destruct Hx as [<-|[]]. exists [], []. split; [reflexivity | constructor].
  - destruct Hx as [<-|Hx].
    + exists [], rest. split; [reflexivity | constructor; assumption].
    + destruct (IH x Hx) as (L1 & L2 & E & G). exists (j :: L1), L2. split; [rewrite E; reflexivity | exact G].
Qed.

Lemma good_ord_zero way rest : good_ord way (0 :: rest) -> rest = [].
Proof. intros H. inversion H; subst; [reflexivity | congruence]. Qed.

Lemma good_ord_nonnil way L : good_ord way L -> L <> [].
Proof. intros H. inversion H; discriminate. Qed.

Lemma good_ord_way_in way L : good_ord way L -> forall j, In j L -> j <> 0 -> In (nth j way 0) L.
Proof.
  induction 1 as [|j rest Hj Hn Hin Hg IH]; intros k Hk Hk0.
  - destruct Hk as [<-|[]]. congruence.
  - destruct Hk as [<-|Hk]; [right; exact Hin | right; apply IH; assumption].
Qed.

Lemma good_ord_has0 way L : good_ord way L -> In 0 L.
Proof. induction 1; [left; reflexivity | right; assumption]. Qed.

Lemma good_ord_nodup way L : good_ord way L -> NoDup L.
Proof. induction 1; constructor; [intros [] | constructor | assumption | assumption]. Qed.

Record inner_inv (n : nat) (p : list nat) (minv : list ez) (way : list nat) (used : list bool)
       (j0 : nat) (ord : list nat) : Prop := {
  ii_lm : length minv = S n;
  ii_lw : length way = S n;
  ii_lu : length used = S n;
  ii_j0 : j0 <= n;
  ii_used : forall j, nth j used false = true <-> In j ord;
  ii_ord : forall j, In j ord -> j <= n /\ nth j p 0 <> 0;
  ii_chain : good_ord way (j0 :: ord);
  ii_slack : forall j, 1 <= j <= n -> nth j used false = false -> nth j minv None <> None -> In (nth j way 0) ord
}.

Lemma inner_inv_bound n p minv way used j0 ord : inner_inv n p minv way used j0 ord ->
  NoDup (j0 :: ord) /\ (forall j, In j (j0 :: ord) -> j <= n).
Proof.
  intros H. split; [exact (good_ord_nodup _ _ (ii_chain _ _ _ _ _ _ _ H))|].
  intros j [<-|Hj]; [exact (ii_j0 _ _ _ _ _ _ _ H) | apply (ii_ord _ _ _ _ _ _ _ H j Hj)].
Qed.

Lemma inner_inv_zero n p minv way used j0 ord : inner_inv n p minv way used j0 ord ->
  In 0 (j0 :: ord) /\ forall j, 1 <= j -> In j (j0 :: ord) -> In 0 ord.
Proof.
  intros H. pose proof (ii_chain _ _ _ _ _ _ _ H) as G. split; [exact (good_ord_has0 _ _ G)|].
  intros j Hj Hin. inversion G as [|? ? _ _ _ G']; subst; [destruct Hin as [<-|[]]; lia | exact (good_ord_has0 _ _ G')].
Qed.

Section Round.
Variables (C : list (list Z)) (n : nat) (p : list nat).
Hypothesis Hlp : length p = S n.
Hypothesis Pinj : forall j j', j <= n -> j' <= n -> nth j p 0 = nth j' p 0 -> nth j p 0 <> 0 -> j = j'.
Hypothesis Prng : forall j, j <= n -> nth j p 0 <= n.
Hypothesis Hfree : exists j, 1 <= j <= n /\ nth j p 0 = 0.
(* the row being inserted is S i = col_match[0]; the columns 1..n hold rows <= i *)
Variable i : nat.
Hypothesis Hp0 : nth 0 p 0 = S i.
Hypothesis Prow : forall k, 1 <= k <= n -> nth k p 0 <= i.

(* rows whose reduced costs are already non-negative: the rows inserted earlier, and the current row
   as soon as column 0 has been processed (first round) *)
Definition frow (ord : list nat) (r : nat) : Prop := 1 <= r <= i \/ (r = S i /\ In 0 ord).

(* min_slack[j] is the least reduced cost of column j over the rows of the tree (the rows matched to the
   columns T), attained in the row matched to column augment_path[j] *)
Definition slack_ok (u v : list Z) (minv : list ez) (way : list nat) (T : list nat) (j : nat) : Prop :=
  (forall m, nth j minv None = Some m -> m = rc C u v (nth (nth j way 0) p 0) j) /\
  (forall k, In k T -> exists m, nth j minv None = Some m /\ (m <= rc C u v (nth k p 0%nat) j)%Z).

Definition num_inv (u v : list Z) (minv : list ez) (way : list nat) (used : list bool) (j0 : nat)
           (ord : list nat) : Prop :=
  (length u = S n /\ length v = S n) /\
  (forall r j, frow ord r -> 1 <= j <= n -> (0 <= rc C u v r j)%Z) /\
  (forall j, 1 <= j <= n -> nth j p 0 <> 0 -> rc C u v (nth j p 0) j = 0%Z) /\
  (forall j, In j (j0 :: ord) -> j <> 0 -> rc C u v (nth (nth j way 0) p 0) j = 0%Z) /\
  (forall j, 1 <= j <= n -> nth j used false = false -> slack_ok u v minv way ord j).

Lemma slack_scan u v (minv minv1 : list ez) way way1 ord j0 j :
  slack_ok u v minv way ord j ->
  (z_lt_ez (rc C u v (nth j0 p 0) j) (nth j minv None) = true
   /\ nth j minv1 None = Some (rc C u v (nth j0 p 0) j) /\ nth j way1 0 = j0)
  \/ (z_lt_ez (rc C u v (nth j0 p 0) j) (nth j minv None) = false
   /\ nth j minv1 None = nth j minv None /\ nth j way1 0 = nth j way 0) ->
  slack_ok u v minv1 way1 (j0 :: ord) j.
Proof.
  unfold slack_ok. intros [S1 S2] [(E3 & E1 & E2)|(E3 & E1 & E2)]; rewrite E1, E2.
  - split; [intros m [= <-]; reflexivity|].
    intros k Hk. exists (rc C u v (nth j0 p 0) j). split; [reflexivity|]. destruct Hk as [<-|Hk]; [lia|].
    destruct (S2 k Hk) as (m0 & Em0 & Hm0). rewrite Em0 in E3. simpl in E3. apply Z.ltb_lt in E3. lia.
  - split; [exact S1|]. intros k [<-|Hk]; [|apply S2, Hk].
    destruct (nth j minv None) as [y|]; [|discriminate]. simpl in E3. apply Z.ltb_ge in E3.
    exists y. split; [reflexivity | exact E3].
Qed.

Lemma slack_update u v u1 v1 d (minv1 minv2 : list ez) way1 T j :
  slack_ok u v minv1 way1 T j ->
  (forall k, In k T -> rc C u1 v1 (nth k p 0) j = (rc C u v (nth k p 0%nat) j - d)%Z) ->
  (nth j minv1 None <> None -> In (nth j way1 0) T) ->
  nth j minv2 None = ez_sub (nth j minv1 None) d ->
  slack_ok u1 v1 minv2 way1 T j.
Proof.
  unfold slack_ok. intros [S1 S2] R Hw ->. split.
  - intros m Em. destruct (nth j minv1 None) as [m1|]; [|discriminate]. injection Em as <-.
    rewrite R by (apply Hw; discriminate). rewrite <- (S1 m1 eq_refl). reflexivity.
  - intros k Hk. destruct (S2 k Hk) as (m & -> & Hm). exists (m - d)%Z. split; [reflexivity|].
    rewrite R by exact Hk. lia.
Qed.

Definition full_inv u v minv way used j0 ord : Prop :=
  inner_inv n p minv way used j0 ord /\ num_inv u v minv way used j0 ord.

(* One round.  Structure: delta is finite because some column is free, and the selected column continues the
   chain.  Numbers: the scan gives the slacks over the tree with the row of j0 added, d is the least of them,
   attained at j1, and the update shifts the reduced costs by d between the tree and the rest. *)
Lemma round_spec u v minv way used j0 ord :
  full_inv u v minv way used j0 ord -> nth j0 p 0 <> 0 ->
  exists minv1 way1 d j1 u1 v1 minv2,
    scan C u v (upd used j0 true) (nth j0 p 0) j0 (seq 1 n) minv way None 0 = (minv1, way1, Some d, j1) /\
    update p (upd used j0 true) d (seq 0 (S n)) u v minv1 = (u1, v1, minv2) /\
    full_inv u1 v1 minv2 way1 (upd used j0 true) j1 (j0 :: ord).
Proof.
  intros [HI ((Lu & Lv) & NF & NT & NW & NS)] Hp.
  destruct (inner_inv_zero _ _ _ _ _ _ _ HI) as [H0T Hzero].
  destruct HI as [Lm Lw Lus Hj0 Hused Hord Hchain Hslack]. destruct Hfree as [jf [Hjf Hpjf]].
  set (used1 := upd used j0 true). set (T := j0 :: ord) in *.
  destruct (scan C u v used1 (nth j0 p 0) j0 (seq 1 n) minv way None 0) as [[[minv1 way1] delta] j1] eqn:Hs.
  assert (Hu1 : forall j, nth j used1 false = true <-> In j T).
  { intros j. unfold used1. destruct (Nat.eq_dec j j0) as [->|Hne].
    - rewrite nth_upd_same by lia. split; [left | ]; reflexivity.
    - rewrite nth_upd_other by exact Hne. rewrite Hused.
      split; [intros H; right; exact H | intros [E|E]; [congruence | exact E]]. }
  assert (Hu1f : forall j, nth j used1 false = false -> nth j used false = false).
  { intros j Hj. destruct (nth j used false) eqn:E; [|reflexivity].
    apply Hused in E. rewrite (proj2 (Hu1 j) (or_intror E)) in Hj. discriminate. }
  assert (HT : forall k, In k T -> (k <= n /\ nth k p 0 <> 0) /\ nth k used1 false = true).
  { intros k Hk. split; [|apply Hu1, Hk]. destruct Hk as [<-|Hk]; [split; assumption | apply Hord, Hk]. }
  assert (Hss : scan_post C u v used1 (nth j0 p 0) j0 (seq 1 n) minv way None 0 minv1 way1 delta j1).
  { apply scan_spec; [exact Hs | apply seq_NoDup | intros j Hj; apply in_seq in Hj; lia]. }
  destruct Hss as ((L1 & L2) & A & B & D & _ & Sel).
  assert (Hfreeu : nth jf used1 false = false).
  { destruct (nth jf used1 false) eqn:X; [|reflexivity]. apply Hu1, HT in X. tauto. }
  destruct (D jf) as (m & d & _ & -> & _); [apply in_seq; lia | exact Hfreeu|].
  destruct Sel as [[[=] _]|(Hj1 & Hj1u & Hj1m)]. apply in_seq in Hj1.
  destruct (update p used1 d (seq 0 (S n)) u v minv1) as [[u1 v1] minv2] eqn:Hup.
  destruct (update_round C _ _ _ _ _ _ _ _ _ _ Hup) as ((Lu1 & Lv1 & L3) & M & Rt & Ro); [lia | lia | | |].
  { intros k Hk Hku. apply Hu1, HT in Hku. rewrite Lu. specialize (Prng k). lia. }
  { intros j k Hj Hk Hju _ E. apply Hu1, HT in Hju. apply Pinj; [exact Hj | exact Hk | exact E | apply Hju]. }
  exists minv1, way1, d, j1, u1, v1, minv2. split; [reflexivity|]. split; [exact Hup|].
  assert (Hway_used : forall j, In j T -> nth j way1 0 = nth j way 0).
  { intros j Hj. apply A. right. apply HT, Hj. }
  (* a column with a finite slack has a used column as its augment_path entry *)
  assert (Hsl : forall j, 1 <= j <= n -> nth j used1 false = false -> nth j minv1 None <> None ->
                In (nth j way1 0) T).
  { intros j Hj Hju Hm. destruct (B j) as [(_ & _ & X2)|(_ & X1 & X2)]; [apply in_seq; lia | exact Hju | |].
    - left. symmetry. exact X2.
    - right. rewrite X2. apply Hslack; [exact Hj | apply Hu1f, Hju | rewrite <- X1; exact Hm]. }
  assert (Hw1 : In (nth j1 way1 0) T) by (apply Hsl; [lia | exact Hj1u | rewrite Hj1m; discriminate]).
  split.
  { constructor.
    - lia.
    - lia.
    - unfold used1. rewrite upd_length. exact Lus.
    - lia.
    - exact Hu1.
    - intros j Hj. apply HT, Hj.
    - constructor; [lia | intros X; apply Hu1 in X; congruence | exact Hw1|].
      apply (good_ord_ext way); [exact Hchain | exact Hway_used].
    - intros j Hj Hju Hm. apply Hsl; [exact Hj | exact Hju|]. intros X. apply Hm. rewrite (M j ltac:(lia) Hju), X. reflexivity. }
  assert (S1 : forall j, 1 <= j <= n -> nth j used1 false = false -> slack_ok u v minv1 way1 T j).
  { intros j Hj Hju. apply (slack_scan u v minv minv1 way way1);
      [apply NS; [exact Hj | apply Hu1f, Hju] | apply B; [apply in_seq; lia | exact Hju]]. }
  assert (Hdle : forall j, 1 <= j <= n -> nth j used1 false = false -> forall k, In k T ->
                 (d <= rc C u v (nth k p 0%nat) j)%Z).
  { intros j Hj Hju k Hk. destruct (D j) as (m' & d' & Em & [= <-] & Hdm); [apply in_seq; lia | exact Hju|].
    destruct (proj2 (S1 j Hj Hju) k Hk) as (m'' & Em' & Hm'). rewrite Em in Em'. injection Em' as <-. lia. }
  (* from here on numbers only; the facts about the structure and the scan would be carried through every step *)
  clear L3 Lus Hfreeu Hpjf Hjf Hslack L2 Lw B D NS Hu1f Lm L1.
  assert (Rt' : forall k, In k T -> forall j, j <= n ->
                rc C u1 v1 (nth k p 0) j = (rc C u v (nth k p 0%nat) j - if nth j used1 false then 0 else d)%Z).
  { intros k Hk j Hj. apply Rt; [apply HT, Hk | apply HT, Hk | exact Hj]. }
  (* the rows of the tree were feasible before, except in the first round, when the tree is the new row *)
  assert (Himg : In 0 ord -> forall k, In k T -> frow ord (nth k p 0)).
  { intros H0 k Hk. destruct (Nat.eq_dec k 0) as [->|Hk0]; [right; split; assumption|].
    left. destruct (HT k Hk) as [[Hk1 Hk2] _]. specialize (Prow k ltac:(lia)). lia. }
  assert (Ed : d = rc C u v (nth (nth j1 way1 0) p 0) j1) by (apply (S1 j1); [lia | exact Hj1u | exact Hj1m]).
  assert (Hd0 : In 0 ord -> (0 <= d)%Z).
  { intros H0. rewrite Ed. apply NF; [apply Himg; assumption | lia]. }
  split; [split; congruence|]. split; [|split; [|split]].
  - (* feasibility: only a tree row loses anything, d on an unused column, and d is at most its slack there *)
    intros r j Hr Hj.
    assert (H0 : nth j used1 false = true -> In 0 ord).
    { intros Hju. apply (Hzero j); [lia | apply Hu1, Hju]. }
    destruct (image_dec p T r) as [(k & Hk & <-)|Hi'].
    + rewrite (Rt' k Hk) by lia. destruct (nth j used1 false) eqn:Hju.
      * rewrite Z.sub_0_r. apply NF; [apply Himg; auto | exact Hj].
      * specialize (Hdle j Hj Hju k Hk). lia.
    + assert (Hr' : frow ord r).
      { destruct Hr as [Hr|[-> _]]; [left; exact Hr|]. destruct (Hi' 0 H0T Hp0). }
      rewrite Ro; [|intros k _ Hku; apply Hi', Hu1, Hku | lia].
      specialize (NF r j Hr' Hj). destruct (nth j used1 false); [specialize (Hd0 (H0 eq_refl))|]; lia.
  - (* a matched pair has both ends in the tree or both outside *)
    intros j Hj Hpj. destruct (nth j used1 false) eqn:Hju.
    + rewrite (Rt' j) by (apply Hu1, Hju || lia). rewrite Hju, Z.sub_0_r. apply NT; assumption.
    + rewrite Ro, Hju, Z.add_0_r; [apply NT; assumption | | lia].
      intros k Hk Hku E. rewrite (Pinj k j Hk ltac:(lia) E) in Hku; [congruence | rewrite E; exact Hpj].
  - (* the new tree edge is tight because d is the slack of j1 *)
    intros j [<-|Hj] Hj0'.
    + rewrite (Rt' _ Hw1) by lia. rewrite Hj1u. lia.
    + destruct (HT j Hj) as [[Hjn _] Hju].
      rewrite (Hway_used j Hj), (Rt' _ (good_ord_way_in _ _ Hchain j Hj Hj0')), Hju, Z.sub_0_r by exact Hjn.
      apply NW; assumption.
  - intros j Hj Hju.
    apply (slack_update u v u1 v1 d minv1); [apply S1; assumption | | apply Hsl; assumption | apply M; [lia | exact Hju]].
    intros k Hk. rewrite (Rt' k Hk), Hju by lia. reflexivity.
Qed.

Lemma full_inv_start u v way :
  length way = S n -> length u = S n -> length v = S n ->
  (forall r j, 1 <= r <= i -> 1 <= j <= n -> (0 <= rc C u v r j)%Z) ->
  (forall j, 1 <= j <= n -> nth j p 0 <> 0 -> rc C u v (nth j p 0) j = 0%Z) ->
  full_inv u v (repeat None (S n)) way (repeat false (S n)) 0 [].
Proof.
  intros Lw Lu Lv NF NT. split.
  - constructor.
    + apply repeat_length.
    + exact Lw.
    + apply repeat_length.
    + apply Nat.le_0_l.
    + intros j. rewrite nth_repeat. simpl. split; [discriminate | tauto].
    + intros j [].
    + constructor.
    + intros j _ _ Hm. exfalso. apply Hm. apply (nth_repeat (@None Z)).
  - split; [split; assumption|]. split; [|split; [|split]].
    + intros r j [Hr|[_ []]] Hj. apply NF; assumption.
    + exact NT.
    + intros j [<-|[]] Hj0. congruence.
    + intros j _ _. split; [intros m Em; rewrite (nth_repeat (@None Z)) in Em; discriminate | intros k []].
Qed.

(* the loop `while col_match[current_col] != 0`: every round uses one more column, so fuel n+1 is enough; it stops at a free
   column with the invariant intact *)
Lemma inner_spec : forall f u v minv way used j0 ord,
  full_inv u v minv way used j0 ord -> f + length ord >= S n ->
  exists u' v' minv' way' used' jf ord',
    inner f C n p u v minv way used j0 = Some (u', v', way', jf) /\ nth jf p 0 = 0 /\
    full_inv u' v' minv' way' used' jf ord'.
Proof.
  induction f as [|f IH]; intros u v minv way used j0 ord [HI HN] Hf.
  - exfalso. destruct (inner_inv_bound _ _ _ _ _ _ _ HI) as [Hnd Hb].
    pose proof (nodup_bounded_length _ n Hnd Hb) as Hl. simpl in Hl, Hf. lia.
  - cbn [inner]. destruct (nth j0 p 0 =? 0) eqn:E.
    + apply Nat.eqb_eq in E. exists u, v, minv, way, used, j0, ord.
      split; [reflexivity|]. split; [exact E | split; assumption].
    + apply Nat.eqb_neq in E.
      destruct (round_spec u v minv way used j0 ord (conj HI HN) E)
        as (minv1 & way1 & d & j1 & u1 & v1 & minv2 & Hs & Hup & HI').
      rewrite Hs, Hup. apply (IH u1 v1 minv2 way1 (upd used j0 true) j1 (j0 :: ord) HI'). simpl. lia.
Qed.
End Round.
