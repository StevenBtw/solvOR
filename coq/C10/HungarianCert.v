(* LP-duality certificate for the assignment problem (pure mathematics, no model involved).
   A perfect matching of an n x n matrix is a list of n (row, column) pairs with pairwise distinct rows
   and pairwise distinct columns; permutations given as duplicate-free lists are the special case
   combine (seq 0 n) sigma. *)
From Coq Require Import List Arith ZArith Lia Permutation.
From SV Require Import C10.Hungarian.
Import ListNotations.
Local Open Scope Z_scope.

Definition zsum (l : list Z) : Z := fold_right Z.add 0 l.

Lemma zsum_app l l' : zsum (l ++ l') = zsum l + zsum l'.
Proof. induction l as [|x l IH]; simpl; [reflexivity | rewrite IH; lia]. Qed.

Lemma zsum_perm l l' : Permutation l l' -> zsum l = zsum l'.
Proof. induction 1; simpl; lia. Qed.

Lemma zsum_map_add {A} (f g : A -> Z) l :
  zsum (map (fun x => f x + g x) l) = zsum (map f l) + zsum (map g l).
Proof. induction l as [|x l IH]; simpl; [reflexivity | rewrite IH; lia]. Qed.

Lemma zsum_map_le {A} (f g : A -> Z) l :
  (forall x, In x l -> f x <= g x) -> zsum (map f l) <= zsum (map g l).
Proof.
  induction l as [|x l IH]; intros H; simpl; [lia|].
  assert (f x <= g x) by (apply H; left; reflexivity).
  assert (zsum (map f l) <= zsum (map g l)) by (apply IH; intros y Hy; apply H; right; exact Hy). lia.
Qed.

Lemma zsum_map_ext {A} (f g : A -> Z) l :
  (forall x, In x l -> f x = g x) -> zsum (map f l) = zsum (map g l).
Proof.
  induction l as [|x l IH]; intros H; simpl; [reflexivity|].
  rewrite (H x (or_introl eq_refl)), IH; [reflexivity|]. intros y Hy. apply H. right. exact Hy.
Qed.

Lemma zsum_map_const {A} (c : Z) (l : list A) : zsum (map (fun _ => c) l) = Z.of_nat (length l) * c.
Proof. induction l as [|x l IH]; [simpl; lia|]. cbn [map zsum fold_right length]. fold (zsum (map (fun _ : A => c) l)). rewrite IH. lia. Qed.

Lemma zsum_map_sub_const {A} (c : Z) (f : A -> Z) l :
  zsum (map (fun x => c - f x)%Z l) = (Z.of_nat (length l) * c - zsum (map f l))%Z.
Proof.
  induction l as [|x l IH]; [simpl; lia|].
  cbn [map zsum fold_right length]. fold (zsum (map (fun x0 : A => (c - f x0)%Z) l)). fold (zsum (map f l)).
  rewrite IH. lia.
Qed.

Lemma zsum_map_zero {A} (f : A -> Z) l : (forall x, In x l -> f x = 0) -> zsum (map f l) = 0.
Proof. intros H. rewrite (zsum_map_ext f (fun _ => 0) l H), zsum_map_const. lia. Qed.

Definition mcost (C : list (list Z)) (m : list (nat * nat)) : Z :=
  zsum (map (fun ij => entry C (fst ij) (snd ij)) m).

Record pmatch (n : nat) (m : list (nat * nat)) : Prop := {
  pm_rows : NoDup (map fst m);
  pm_cols : NoDup (map snd m);
  pm_rng : forall ij, In ij m -> (fst ij < n)%nat /\ (snd ij < n)%nat;
  pm_len : length m = n
}.

Lemma perm_of_nodup n (l : list nat) :
  NoDup l -> length l = n -> (forall x, In x l -> (x < n)%nat) -> Permutation l (seq 0 n).
Proof.
  intros Hnd Hl Hb. apply NoDup_Permutation_bis; [exact Hnd | rewrite seq_length; lia|].
  intros x Hx. apply in_seq. specialize (Hb x Hx). lia.
Qed.

Lemma dual_sum n (u v : nat -> Z) m : pmatch n m ->
  zsum (map (fun ij => u (fst ij) + v (snd ij)) m) = zsum (map u (seq 0 n)) + zsum (map v (seq 0 n)).
Proof.
  intros [Hr Hc Hb Hl]. rewrite (zsum_map_add (fun ij => u (fst ij)) (fun ij => v (snd ij))).
  rewrite <- (map_map fst u), <- (map_map snd v).
  f_equal; apply zsum_perm, Permutation_map, perm_of_nodup; try assumption;
    try (rewrite map_length; exact Hl);
    intros x Hx; apply in_map_iff in Hx; destruct Hx as (ij & <- & Hij); apply (Hb ij Hij).
Qed.

(* weak duality: every perfect matching costs at least the dual objective *)
Lemma weak_duality n C (u v : nat -> Z) m :
  (forall i j, (i < n)%nat -> (j < n)%nat -> u i + v j <= entry C i j) -> pmatch n m ->
  zsum (map u (seq 0 n)) + zsum (map v (seq 0 n)) <= mcost C m.
Proof.
  intros Hf Hm. rewrite <- (dual_sum n u v m Hm). unfold mcost. apply zsum_map_le.
  intros ij Hij. destruct (pm_rng _ _ Hm ij Hij). apply Hf; assumption.
Qed.

(* complementary slackness: a perfect matching that is tight for feasible potentials is optimal *)
Theorem cert_pairs n C (u v : nat -> Z) m :
  (forall i j, (i < n)%nat -> (j < n)%nat -> u i + v j <= entry C i j) ->
  pmatch n m ->
  (forall ij, In ij m -> u (fst ij) + v (snd ij) = entry C (fst ij) (snd ij)) ->
  forall m', pmatch n m' -> mcost C m <= mcost C m'.
Proof.
  intros Hf Hm Ht m' Hm'.
  assert (E : mcost C m = zsum (map u (seq 0 n)) + zsum (map v (seq 0 n))).
  { rewrite <- (dual_sum n u v m Hm). unfold mcost. apply zsum_map_ext. intros ij Hij. symmetry. apply Ht. exact Hij. }
  rewrite E. apply weak_duality; assumption.
Qed.

(* permutations written as duplicate-free lists: row i -> column sigma_i *)
Definition perm_list (n : nat) (s : list nat) : Prop :=
  length s = n /\ NoDup s /\ (forall x, In x s -> (x < n)%nat).
Definition pcost (C : list (list Z)) (s : list nat) : Z := mcost C (combine (seq 0 (length s)) s).

Lemma map_combine {A B} (l : list A) : forall l' : list B,
  length l = length l' -> map fst (combine l l') = l /\ map snd (combine l l') = l'.
Proof.
  induction l as [|x l IH]; intros [|y l'] H; try discriminate; [split; reflexivity|].
  simpl. destruct (IH l') as [-> ->]; [simpl in H; lia | split; reflexivity].
Qed.

Lemma in_combine_seq (s : list nat) : forall a i j,
  In (i, j) (combine (seq a (length s)) s) -> exists k, i = (a + k)%nat /\ (k < length s)%nat /\ nth k s O = j.
Proof.
  induction s as [|x s IH]; intros a i j H; simpl in H; [contradiction|].
  destruct H as [[= <- <-]|H].
  - exists O. simpl. repeat split; lia.
  - apply IH in H. destruct H as (k & -> & Hk & <-). exists (S k). simpl. repeat split; lia.
Qed.

Lemma perm_list_pmatch n s : perm_list n s -> pmatch n (combine (seq 0 (length s)) s).
Proof.
  intros (Hl & Hnd & Hb). constructor.
  - rewrite (proj1 (map_combine _ _ (seq_length _ _))). apply seq_NoDup.
  - rewrite (proj2 (map_combine _ _ (seq_length _ _))). exact Hnd.
  - intros [i j] Hij. simpl. split.
    + apply in_combine_l in Hij. apply in_seq in Hij. lia.
    + apply in_combine_r in Hij. apply Hb. exact Hij.
  - rewrite combine_length, seq_length. lia.
Qed.
