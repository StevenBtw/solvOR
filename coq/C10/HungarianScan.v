(* One round of the inner loop of solve_hungarian, loop by loop: what the scan (`for j in range(1, n + 1): if not used[j]: ...`) does to
   min_slack, augment_path, delta and the selected column, and what the update (`for j in range(n + 1): if used[j]: ... else: ...`) does to the
   potentials, the slacks and the reduced costs. *)
From Coq Require Import List Arith ZArith Lia.
From SV Require Import C10.Hungarian C10.HungarianLists.
Import ListNotations.
Local Open Scope nat_scope.

(* reduced cost of the cell in row i and column j, both numbered from 1 as in the code *)
Definition rc (C : list (list Z)) (u v : list Z) (i j : nat) : Z :=
  (entry C (i - 1) (j - 1) - nth i u 0 - nth j v 0)%Z.

Section Scan.
Variables (C : list (list Z)) (u v : list Z) (used : list bool) (r j0 : nat).

Definition scan_post (js : list nat) (minv : list ez) (way : list nat) (delta : ez) (j1 : nat)
           (minv' : list ez) (way' : list nat) (delta' : ez) (j1' : nat) : Prop :=
  (length minv' = length minv /\ length way' = length way) /\
  (forall j, ~ In j js \/ nth j used false = true ->
             nth j minv' None = nth j minv None /\ nth j way' 0 = nth j way 0) /\
  (forall j, In j js -> nth j used false = false ->
      (z_lt_ez (rc C u v r j) (nth j minv None) = true
       /\ nth j minv' None = Some (rc C u v r j) /\ nth j way' 0 = j0)
   \/ (z_lt_ez (rc C u v r j) (nth j minv None) = false
       /\ nth j minv' None = nth j minv None /\ nth j way' 0 = nth j way 0)) /\
  (forall j, In j js -> nth j used false = false ->
             exists m d, nth j minv' None = Some m /\ delta' = Some d /\ (d <= m)%Z) /\
  (forall d0, delta = Some d0 -> exists d, delta' = Some d /\ (d <= d0)%Z) /\
  ((delta' = delta /\ j1' = j1)
   \/ (In j1' js /\ nth j1' used false = false /\ nth j1' minv' None = delta')).

Lemma scan_spec : forall js minv way delta j1 minv' way' delta' j1',
  scan C u v used r j0 js minv way delta j1 = (minv', way', delta', j1') ->
  NoDup js -> (forall j, In j js -> j < length minv /\ j < length way) ->
  scan_post js minv way delta j1 minv' way' delta' j1'.
Proof.
  induction js as [|j js IH]; intros minv way delta j1 minv' way' delta' j1' Hs Hnd Hlen.
  - inversion Hs; subst. split; [split; reflexivity|]. split; [intros j _; split; reflexivity|].
    split; [intros j []|]. split; [intros j []|].
    split; [intros d0 E; exists d0; split; [exact E | lia] | left; split; reflexivity].
  - inversion Hnd as [|j' js' Hnin Hnd']; subst. cbn [scan] in Hs.
    destruct (nth j used false) eqn:Hu.
    + apply IH in Hs; [|exact Hnd'|intros k Hk; apply Hlen; right; exact Hk].
      destruct Hs as (L & A & B & D & F & G). split; [exact L|]. split; [|split; [|split; [|split]]].
      * intros k [Hk|Hk]; apply A; [left; intros X; apply Hk; right; exact X | right; exact Hk].
      * intros k [<-|Hk] Hku; [congruence | apply B; assumption].
      * intros k [<-|Hk] Hku; [congruence | apply D; assumption].
      * exact F.
      * destruct G as [G|(G1 & G2 & G3)]; [left; exact G | right; split; [right; exact G1 | split; assumption]].
    + (* an unused column: first the slack and the predecessor of j, then delta and the selection;
         the later steps leave the entries of j alone *)
      change (entry C (r - 1) (j - 1) - nth r u 0 - nth j v 0)%Z with (rc C u v r j) in Hs.
      remember (rc C u v r j) as x eqn:Ex in Hs.
      remember (z_lt_ez x (nth j minv None)) as lt eqn:Elt in Hs.
      remember (if lt then upd minv j (Some x) else minv) as minv1 eqn:Em in Hs.
      remember (if lt then upd way j j0 else way) as way1 eqn:Ew in Hs.
      destruct (Hlen j (or_introl eq_refl)) as [Hjm Hjw].
      assert (L1 : length minv1 = length minv /\ length way1 = length way).
      { rewrite Em, Ew. destruct lt; rewrite ?upd_length; split; reflexivity. }
      assert (Hoth : forall k, k <> j -> nth k minv1 None = nth k minv None /\ nth k way1 0 = nth k way 0).
      { intros k Hk. rewrite Em, Ew. destruct lt; [rewrite !nth_upd_other by exact Hk|]; split; reflexivity. }
      assert (Hj : (lt = true /\ nth j minv1 None = Some x /\ nth j way1 0 = j0)
                   \/ (lt = false /\ nth j minv1 None = nth j minv None /\ nth j way1 0 = nth j way 0)).
      { rewrite Em, Ew. destruct lt; [left; rewrite !nth_upd_same by assumption | right]; repeat split. }
      assert (Hm1 : exists m1, nth j minv1 None = Some m1).
      { destruct Hj as [(_ & E & _)|(E0 & E & _)]; [exists x; exact E|]. rewrite E.
        rewrite E0 in Elt. destruct (nth j minv None) as [y|]; [exists y; reflexivity | discriminate]. }
      destruct Hm1 as [m1 Em1].
      match type of Hs with scan _ _ _ _ _ _ _ _ _ ?dl ?jn = _ =>
        remember dl as delta1 eqn:Ed in Hs; remember jn as j11 eqn:Ej in Hs end.
      rewrite Em1 in Ed, Ej.
      assert (Hd1 : exists dd, delta1 = Some dd /\ (dd <= m1)%Z /\ (forall d0, delta = Some d0 -> (dd <= d0)%Z)
                               /\ ((dd = m1 /\ j11 = j) \/ (delta1 = delta /\ j11 = j1))).
      { rewrite Ed, Ej. destruct delta as [d0|]; simpl.
        - destruct (Z.ltb_spec m1 d0); [exists m1 | exists d0]; (split; [reflexivity|]); (split; [lia|]);
            (split; [intros ? [= <-]; lia|]); [left | right]; split; reflexivity.
        - exists m1. split; [reflexivity|]. split; [lia|]. split; [discriminate | left; split; reflexivity]. }
      destruct Hd1 as (dd & Edd & Hdm & Hdd & Hsel).
      apply IH in Hs; [|exact Hnd'|intros k Hk; rewrite (proj1 L1), (proj2 L1); apply Hlen; right; exact Hk].
      destruct Hs as (L & A & B & D & F & G).
      destruct (A j (or_introl Hnin)) as [Aj1 Aj2].
      destruct (F dd Edd) as (d & Ed' & Hd).
      split; [split; [rewrite (proj1 L); apply L1 | rewrite (proj2 L); apply L1]|].
      split; [|split; [|split; [|split]]].
      * intros k Hk.
        assert (Hkj : k <> j) by (intros ->; destruct Hk as [Hk|Hk]; [apply Hk; left; reflexivity | congruence]).
        destruct (A k) as [A1 A2]; [destruct Hk as [Hk|Hk]; [left; intros X; apply Hk; right; exact X | right; exact Hk]|].
        destruct (Hoth k Hkj) as [O1 O2]. split; congruence.
      * intros k [<-|Hk] Hku.
        -- rewrite Aj1, Aj2, <- Ex, <- Elt. destruct Hj as [(E0 & E1 & E2)|(E0 & E1 & E2)]; [left | right]; auto.
        -- assert (Hkj : k <> j) by (intros ->; contradiction).
           destruct (Hoth k Hkj) as [O1 O2]. rewrite <- O1, <- O2. apply B; assumption.
      * intros k [<-|Hk] Hku; [|apply D; assumption].
        exists m1, d. split; [congruence|]. split; [exact Ed' | lia].
      * intros d0 E. exists d. split; [exact Ed'|]. specialize (Hdd d0 E). lia.
      * destruct G as [[G1 G2]|(G1 & G2 & G3)]; [|right; split; [right; exact G1 | split; assumption]].
        destruct Hsel as [[-> ->]|[E1 ->]]; [right | left; split; congruence].
        subst j1'. split; [left; reflexivity|]. split; [exact Hu | congruence].
Qed.

End Scan.

(* the update loop is three independent sweeps *)
Lemma update_sweeps p used d : forall js u v minv u' v' minv',
  update p used d js u v minv = (u', v', minv') ->
  u' = sweep (fun j => nth j used false) (fun j => nth j p 0) (fun _ x => (x + d)%Z) 0%Z js u /\
  v' = sweep (fun j => nth j used false) (fun j => j) (fun _ x => (x - d)%Z) 0%Z js v /\
  minv' = sweep (fun j => negb (nth j used false)) (fun j => j) (fun _ x => ez_sub x d) None js minv.
Proof.
  induction js as [|j js IH]; intros u v minv u' v' minv' H.
  - injection H as <- <- <-. repeat split.
  - cbn [update] in H. rewrite !sweep_cons. destruct (nth j used false); exact (IH _ _ _ _ _ _ H).
Qed.

(* a whole update in terms of the reduced costs: a row of the tree (one matched to a used column)
   loses d on the unused columns, every other row gains d on the used ones; the slacks of the unused
   columns lose d *)
Lemma update_round C p used d n u v minv u' v' minv' :
  update p used d (seq 0 (S n)) u v minv = (u', v', minv') ->
  S n <= length v -> S n <= length minv ->
  (forall j, j <= n -> nth j used false = true -> nth j p 0 < length u) ->
  (forall j k, j <= n -> k <= n -> nth j used false = true -> nth k used false = true ->
               nth j p 0 = nth k p 0 -> j = k) ->
  (length u' = length u /\ length v' = length v /\ length minv' = length minv) /\
  (forall j, j <= n -> nth j used false = false -> nth j minv' None = ez_sub (nth j minv None) d) /\
  (forall k j, k <= n -> nth k used false = true -> j <= n ->
     rc C u' v' (nth k p 0) j = (rc C u v (nth k p 0%nat) j - if nth j used false then 0 else d)%Z) /\
  (forall r j, (forall k, k <= n -> nth k used false = true -> nth k p 0 <> r) -> j <= n ->
     rc C u' v' r j = (rc C u v r j + if nth j used false then d else 0)%Z).
Proof.
  intros H Lv Lm Hpl Hinj. destruct (update_sweeps _ _ _ _ _ _ _ _ _ _ H) as (-> & -> & ->). clear H.
  assert (Hin : forall j, In j (seq 0 (S n)) <-> j <= n) by (intros j; rewrite in_seq; lia).
  destruct (sweep_spec (fun j => nth j used false) (fun j => nth j p 0) (fun _ x => (x + d)%Z) 0%Z
              (seq 0 (S n)) u (seq_NoDup _ _)) as (Lu' & U1 & U2).
  { intros j Hj. apply Hpl, Hin, Hj. }
  { intros j k Hj Hk. apply Hinj; apply Hin; assumption. }
  destruct (sweep_spec (fun j => nth j used false) (fun j => j) (fun _ x => (x - d)%Z) 0%Z
              (seq 0 (S n)) v (seq_NoDup _ _)) as (Lv' & V1 & V2).
  { intros j Hj _. apply Hin in Hj. lia. }
  { intros j k _ _ _ _ E. exact E. }
  destruct (sweep_spec (fun j => negb (nth j used false)) (fun j => j) (fun _ x => ez_sub x d) None
              (seq 0 (S n)) minv (seq_NoDup _ _)) as (Lm' & M1 & _).
  { intros j Hj _. apply Hin in Hj. lia. }
  { intros j k _ _ _ _ E. exact E. }
  set (u' := sweep _ _ _ _ _ u) in *. set (v' := sweep _ _ _ _ _ v) in *.
  assert (V : forall j, j <= n -> nth j v' 0%Z = (nth j v 0 - if nth j used false then d else 0)%Z).
  { intros j Hj. destruct (nth j used false) eqn:Hu; [apply (V1 j); [apply Hin, Hj | exact Hu]|].
    rewrite V2; [lia|]. intros k _ Hk ->. congruence. }
  split; [repeat split; assumption|]. split; [|split].
  - intros j Hj Hu. apply (M1 j); [apply Hin, Hj | rewrite Hu; reflexivity].
  - intros k j Hk Hku Hj. unfold rc. rewrite (U1 k (proj2 (Hin k) Hk) Hku), (V j Hj).
    destruct (nth j used false); lia.
  - intros r j Hr Hj. unfold rc. rewrite U2, (V j Hj); [destruct (nth j used false); lia|].
    intros k Hk. apply Hr, Hin, Hk.
Qed.
