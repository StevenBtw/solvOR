(* Padding and max->min reductions: an assignment of the original r x c matrix (list with -1) against
   perfect matchings of the padded n x n matrix (n = max r c; dummy cells 0; max_val - c when maximising). *)
From Coq Require Import List Arith ZArith Bool Lia Permutation.
From SV Require Import C10.Hungarian C10.HungarianSpec C10.HungarianLists C10.HungarianCert.
Import ListNotations.
Local Open Scope nat_scope.

Lemma nth_map_seq {A} (F : nat -> A) n i d : i < n -> nth i (map F (seq 0 n)) d = F i.
Proof.
  intros Hi. rewrite (nth_indep _ d (F 0)) by (rewrite map_length, seq_length; exact Hi).
  rewrite map_nth, seq_nth by exact Hi. reflexivity.
Qed.

Lemma padded_entry M mz i j :
  i < Nat.max (n_rows M) (n_cols M) -> j < Nat.max (n_rows M) (n_cols M) ->
  entry (padded M mz) i j =
  if (i <? n_rows M) && (j <? n_cols M)
  then (if mz then entry M i j else max_val M - entry M i j)%Z else 0%Z.
Proof.
  intros Hi Hj. unfold entry at 1, padded. cbv zeta. rewrite nth_map_seq by exact Hi. apply nth_map_seq, Hj.
Qed.

(* the cells chosen by an assignment *)
Fixpoint pairs_from (i : nat) (a : list Z) : list (nat * nat) :=
  match a with
  | [] => []
  | x :: t => if (x =? -1)%Z then pairs_from (S i) t else (i, Z.to_nat x) :: pairs_from (S i) t
  end.
Definition pairs (a : list Z) : list (nat * nat) := pairs_from 0 a.

Lemma pf_in : forall a i r c,
  In (r, c) (pairs_from i a) <->
  exists k, r = i + k /\ k < length a /\ nth k a (-1)%Z <> (-1)%Z /\ c = Z.to_nat (nth k a (-1)%Z).
Proof.
  induction a as [|x t IH]; intros i r c; simpl.
  - split; [intros [] | intros (k & _ & Hk & _); lia].
  - destruct (x =? -1)%Z eqn:E; [apply Z.eqb_eq in E | apply Z.eqb_neq in E; simpl]; rewrite IH; split.
    + intros (k & -> & Hk & Hn & ->). exists (S k). repeat split; [lia | lia | exact Hn].
    + intros ([|k] & -> & Hk & Hn & ->); [contradiction|]. exists k. repeat split; [lia | lia | exact Hn].
    + intros [[= <- <-]|(k & -> & Hk & Hn & ->)].
      * exists 0. repeat split; [lia | lia | exact E].
      * exists (S k). repeat split; [lia | lia | exact Hn].
    + intros ([|k] & -> & Hk & Hn & ->); [left; f_equal; lia | right].
      exists k. repeat split; [lia | lia | exact Hn].
Qed.

Lemma pf_fst_nodup : forall a i, NoDup (map fst (pairs_from i a)).
Proof.
  induction a as [|x t IH]; intros i; simpl; [constructor|].
  destruct (x =? -1)%Z; [apply IH|]. simpl. constructor; [|apply IH].
  intros H. apply in_map_iff in H. destruct H as ([r c] & E & H). simpl in E. subst r.
  apply pf_in in H. destruct H as (k & Hk & _). lia.
Qed.

Lemma pf_snd : forall a i, map snd (pairs_from i a) = map Z.to_nat (assigned a).
Proof.
  induction a as [|x t IH]; intros i; simpl; [reflexivity|]. unfold assigned in *. simpl.
  destruct (x =? -1)%Z; simpl; [apply IH | f_equal; apply IH].
Qed.

Lemma pf_length a i : length (pairs_from i a) = length (assigned a).
Proof. rewrite <- (map_length snd), pf_snd, map_length. reflexivity. Qed.

Lemma pf_cost M : forall a i,
  zsum (map (fun rc => entry M (fst rc) (snd rc)) (pairs_from i a)) = cost_from M i a.
Proof.
  induction a as [|x t IH]; intros i; simpl; [reflexivity|].
  destruct (x =? -1)%Z; simpl; rewrite IH; lia.
Qed.

(* the objective transform of the padded problem *)
Definition kappa (M : list (list Z)) (mz : bool) (x : Z) : Z :=
  if mz then x else (Z.of_nat (Nat.min (n_rows M) (n_cols M)) * max_val M - x)%Z.

(* a perfect matching of the padded matrix that restricts to the assignment a *)
Definition represents (M : list (list Z)) (m : list (nat * nat)) (a : list Z) : Prop :=
  pmatch (Nat.max (n_rows M) (n_cols M)) m /\ matching_spec M a /\
  forall i c, i < n_rows M -> c < n_cols M -> (In (i, c) m <-> nth i a (-1)%Z = Z.of_nat c).

Section Assignment.
Variable M : list (list Z).
Let nr := n_rows M.
Let nc := n_cols M.

Lemma pairs_bounds b : matching_spec M b ->
  forall r c, In (r, c) (pairs b) -> r < nr /\ c < nc /\ nth r b (-1)%Z = Z.of_nat c.
Proof.
  intros [Hl Hr _ _] r c H. apply pf_in in H. destruct H as (k & -> & Hrn & H2 & H3). simpl.
  rewrite Forall_forall in Hr. specialize (Hr _ (nth_In b (-1)%Z Hrn)).
  fold nr in Hl. fold nc in Hr. split; [lia|]. split; lia.
Qed.

Lemma pairs_cost mz b : matching_spec M b -> mcost (padded M mz) (pairs b) = kappa M mz (cost_of M b).
Proof.
  intros Hb. pose proof (pairs_bounds b Hb) as Hbd.
  assert (E : mcost (padded M mz) (pairs b) =
              zsum (map (fun rc => if mz then entry M (fst rc) (snd rc)
                                   else (max_val M - entry M (fst rc) (snd rc))%Z) (pairs b))).
  { unfold mcost. apply zsum_map_ext. intros [r c] H. simpl. destruct (Hbd r c H) as (H1 & H2 & _).
    rewrite padded_entry by (fold nr nc; lia). fold nr nc.
    rewrite (proj2 (Nat.ltb_lt r nr) H1), (proj2 (Nat.ltb_lt c nc) H2). reflexivity. }
  rewrite E. unfold kappa, cost_of. rewrite <- (pf_cost M b 0). fold (pairs b).
  destruct mz.
  - reflexivity.
  - rewrite <- (ms_count _ _ Hb). rewrite <- (pf_length b 0). fold (pairs b).
    apply zsum_map_sub_const.
Qed.

Lemma pairs_cols_nodup b : matching_spec M b -> NoDup (map snd (pairs b)).
Proof.
  intros [Hl Hr Hnd _]. unfold pairs. rewrite pf_snd.
  assert (Hpos : forall x, In x (assigned b) -> (0 <= x)%Z).
  { intros x Hx. unfold assigned in Hx. apply filter_In in Hx. destruct Hx as [Hx Hx1].
    apply negb_true_iff, Z.eqb_neq in Hx1. rewrite Forall_forall in Hr. specialize (Hr x Hx). lia. }
  apply NoDup_map_on; [exact Hnd|].
  intros x y Hx Hy E. pose proof (Hpos x Hx). pose proof (Hpos y Hy). lia.
Qed.
End Assignment.

(* extending a partial matching of the n x n square to a perfect one: pair the unused rows with the unused columns *)
Definition unused (n : nat) (l : list nat) : list nat :=
  filter (fun x => negb (existsb (Nat.eqb x) l)) (seq 0 n).

Lemma unused_in n l x : In x (unused n l) <-> x < n /\ ~ In x l.
Proof.
  unfold unused. rewrite filter_In, in_seq, negb_true_iff. split.
  - intros [H1 H2]. split; [lia|]. intros Hin.
    assert (E : existsb (Nat.eqb x) l = true) by (apply existsb_exists; exists x; split; [exact Hin | apply Nat.eqb_refl]).
    congruence.
  - intros [H1 H2]. split; [lia|]. destruct (existsb (Nat.eqb x) l) eqn:E; [|reflexivity].
    apply existsb_exists in E. destruct E as (y & Hy & Exy). apply Nat.eqb_eq in Exy. subst y. contradiction.
Qed.

Lemma nodup_app {A} (l l' : list A) :
  NoDup l -> NoDup l' -> (forall x, In x l -> ~ In x l') -> NoDup (l ++ l').
Proof.
  induction 1 as [|x l Hx Hl IH]; intros Hl' Hd; simpl; [exact Hl'|].
  constructor.
  - intros H. apply in_app_or in H. destruct H as [H|H]; [contradiction | apply (Hd x); [left; reflexivity | exact H]].
  - apply IH; [exact Hl' | intros y Hy; apply Hd; right; exact Hy].
Qed.

Lemma unused_nodup n l : NoDup l -> NoDup (l ++ unused n l).
Proof.
  intros Hnd. apply nodup_app; [exact Hnd | apply NoDup_filter, seq_NoDup|].
  intros x Hx Hu. apply unused_in in Hu. tauto.
Qed.

Lemma unused_length n l : NoDup l -> (forall x, In x l -> x < n) -> length l + length (unused n l) = n.
Proof.
  intros Hnd Hb.
  assert (P : Permutation (l ++ unused n l) (seq 0 n)).
  { apply NoDup_Permutation.
    - apply unused_nodup, Hnd.
    - apply seq_NoDup.
    - intros x. rewrite in_app_iff, unused_in, in_seq. split.
      + intros [H|[H _]]; [specialize (Hb x H)|]; lia.
      + intros H. destruct (in_dec Nat.eq_dec x l) as [Hi|Hi]; [left; exact Hi | right; split; [lia | exact Hi]]. }
  apply Permutation_length in P. rewrite app_length, seq_length in P. exact P.
Qed.

Record partial_match (n : nat) (m : list (nat * nat)) : Prop := {
  pa_rows : NoDup (map fst m);
  pa_cols : NoDup (map snd m);
  pa_rng : forall ij, In ij m -> fst ij < n /\ snd ij < n
}.

Definition extend (n : nat) (m : list (nat * nat)) : list (nat * nat) :=
  m ++ combine (unused n (map fst m)) (unused n (map snd m)).

Lemma extend_pmatch n m : partial_match n m -> pmatch n (extend n m).
Proof.
  intros [Hr Hc Hb].
  assert (Lr : length (map fst m) + length (unused n (map fst m)) = n).
  { apply unused_length; [exact Hr|]. intros x Hx. apply in_map_iff in Hx. destruct Hx as (ij & <- & H). apply (Hb ij H). }
  assert (Lc : length (map snd m) + length (unused n (map snd m)) = n).
  { apply unused_length; [exact Hc|]. intros x Hx. apply in_map_iff in Hx. destruct Hx as (ij & <- & H). apply (Hb ij H). }
  rewrite map_length in Lr, Lc.
  assert (Leq : length (unused n (map fst m)) = length (unused n (map snd m))) by lia.
  unfold extend. constructor.
  - rewrite map_app, (proj1 (map_combine _ _ Leq)). apply unused_nodup, Hr.
  - rewrite map_app, (proj2 (map_combine _ _ Leq)). apply unused_nodup, Hc.
  - intros [i j] H. apply in_app_or in H. destruct H as [H|H]; [apply (Hb _ H)|]. simpl. split.
    + apply in_combine_l in H. apply unused_in in H. tauto.
    + apply in_combine_r in H. apply unused_in in H. tauto.
  - rewrite app_length, combine_length. lia.
Qed.

Lemma extend_cost C n m :
  (forall r c, In r (unused n (map fst m)) -> In c (unused n (map snd m)) -> entry C r c = 0%Z) ->
  mcost C (extend n m) = mcost C m.
Proof.
  intros H. unfold mcost, extend. rewrite map_app, zsum_app, (zsum_map_zero _ (combine _ _)); [lia|].
  intros [r c] Hrc. simpl. apply H; [eapply in_combine_l | eapply in_combine_r]; exact Hrc.
Qed.

Lemma pad_extend M mz b : matching_spec M b ->
  exists m', pmatch (Nat.max (n_rows M) (n_cols M)) m' /\
             mcost (padded M mz) m' = kappa M mz (cost_of M b).
Proof.
  intros Hb. set (nr := n_rows M). set (nc := n_cols M). set (n := Nat.max nr nc).
  pose proof (pairs_bounds M b Hb) as Hbd. fold nr nc in Hbd.
  assert (Hpa : partial_match n (pairs b)).
  { constructor.
    - apply pf_fst_nodup.
    - apply (pairs_cols_nodup M b Hb).
    - intros [r c] H. destruct (Hbd r c H) as (H1 & H2 & _). simpl. unfold n. lia. }
  exists (extend n (pairs b)). split; [apply extend_pmatch; exact Hpa|].
  rewrite <- (pairs_cost M mz b Hb). apply extend_cost.
  intros r c Hr Hc. apply unused_in in Hr. apply unused_in in Hc. destruct Hr as [Hr Hr']. destruct Hc as [Hc Hc'].
  rewrite padded_entry by (fold nr nc n; assumption). fold nr nc.
  assert (Hlen : length (pairs b) = Nat.min nr nc).
  { unfold pairs. rewrite pf_length. apply (ms_count _ _ Hb). }
  (* min(rows, cols) distinct indices below that number are all of them: the smaller side is used up *)
  assert (Hfull : forall (f : nat * nat -> nat) k, NoDup (map f (pairs b)) -> k = Nat.min nr nc ->
            (forall ij, In ij (pairs b) -> f ij < k) -> forall x, x < k -> In x (map f (pairs b))).
  { intros f k Hnd Hk Hf. assert (I : incl (seq 0 k) (map f (pairs b))); [|intros x Hx; apply I, in_seq; lia].
    apply NoDup_length_incl; [exact Hnd | rewrite map_length, Hlen, seq_length; lia|].
    intros x Hx. apply in_map_iff in Hx. destruct Hx as (ij & <- & H). apply in_seq. specialize (Hf ij H). lia. }
  destruct (Nat.le_gt_cases nr nc) as [Hle|Hgt].
  - assert (Hrge : nr <= r).
    { destruct (Nat.lt_ge_cases r nr) as [Hlt|Hge]; [|exact Hge]. destruct Hr'.
      apply (Hfull fst nr (pf_fst_nodup b 0)); [lia | intros [r0 c0] H; apply (Hbd r0 c0 H) | exact Hlt]. }
    replace (r <? nr) with false by (symmetry; apply Nat.ltb_ge; exact Hrge). reflexivity.
  - assert (Hcge : nc <= c).
    { destruct (Nat.lt_ge_cases c nc) as [Hlt|Hge]; [|exact Hge]. destruct Hc'.
      apply (Hfull snd nc (pairs_cols_nodup M b Hb)); [lia | intros [r0 c0] H; apply (Hbd r0 c0 H) | exact Hlt]. }
    replace (c <? nc) with false by (symmetry; apply Nat.ltb_ge; exact Hcge). rewrite andb_false_r. reflexivity.
Qed.

Lemma mcost_filter C (f : nat * nat -> bool) m :
  (forall ij, In ij m -> f ij = false -> entry C (fst ij) (snd ij) = 0%Z) ->
  mcost C m = mcost C (filter f m).
Proof.
  unfold mcost. induction m as [|x m IH]; intros H; simpl; [reflexivity|].
  rewrite IH by (intros ij Hij; apply H; right; exact Hij).
  destruct (f x) eqn:E; simpl; [reflexivity|]. rewrite (H x (or_introl eq_refl) E). lia.
Qed.

Lemma represents_cost M mz m a : represents M m a -> mcost (padded M mz) m = kappa M mz (cost_of M a).
Proof.
  intros (Hm & Ha & Hiff). set (nr := n_rows M) in *. set (nc := n_cols M) in *.
  set (real := fun ij : nat * nat => (fst ij <? nr) && (snd ij <? nc)).
  rewrite (mcost_filter _ real).
  - rewrite <- (pairs_cost M mz a Ha). unfold mcost. apply zsum_perm, Permutation_map.
    apply NoDup_Permutation.
    + apply NoDup_filter. apply (NoDup_map_inv fst). apply (pm_rows _ _ Hm).
    + apply (NoDup_map_inv fst). apply pf_fst_nodup.
    + intros [i c]. rewrite filter_In. unfold real. simpl. rewrite andb_true_iff, !Nat.ltb_lt. split.
      * intros (H & H1 & H2). apply Hiff in H; [|exact H1|exact H2].
        apply pf_in. exists i. rewrite (ms_len _ _ Ha). fold nr. rewrite H. repeat split; lia.
      * intros H. destruct (pairs_bounds M a Ha i c H) as (H1 & H2 & H3). fold nr nc in H1, H2.
        split; [|split; assumption]. apply Hiff; assumption.
  - intros [i c] Hic E. simpl. destruct (pm_rng _ _ Hm _ Hic) as [H1 H2]. simpl in H1, H2.
    rewrite padded_entry by assumption. fold nr nc. unfold real in E. simpl in E. rewrite E. reflexivity.
Qed.

(* Props theorems pad_ok (mz = true) and max_ok (mz = false): an optimal perfect matching of the padded matrix restricts
   to an optimal matching of size min(rows, cols) of the original, for minimisation and - through
   max_val - c, whatever the signs of the entries - for maximisation *)
Theorem pad_max_ok M mz m a :
  represents M m a ->
  (forall m', pmatch (Nat.max (n_rows M) (n_cols M)) m' -> (mcost (padded M mz) m <= mcost (padded M mz) m')%Z) ->
  optimal_spec M mz a.
Proof.
  intros Hrep Hopt b Hb.
  destruct (pad_extend M mz b Hb) as (m' & Hm' & Ec).
  specialize (Hopt m' Hm'). rewrite (represents_cost M mz m a Hrep), Ec in Hopt.
  unfold kappa in Hopt. destruct mz; lia.
Qed.
