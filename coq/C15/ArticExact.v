(* Exact correctness of the low-link DFS model of solvor/articulation.py (Artic.v):
   the reported articulation points are exactly the cut vertices and the reported bridges are exactly
   the (canonically oriented) bridges of the symmetrised simple graph, for every valid input.

   ArticExactConn turns the counting definitions into separation statements (graph theory only),
   ArticExactBase holds the invariants Good / NB / Post / LI.  Here: one child iteration of the loop of v
   (recursive call, then after_child) re-establishes LI; the other iterations; the end of the loop
   (postcondition of dfs); the induction over the fuel; the scan over the roots; the two theorems. *)
From Coq Require Import List Arith Relations Lia.
From SV Require Import C15.Graph C15.GraphLemmas C15.ArticSpec C15.Artic C15.ArticSpecProofs C15.ArticProofs
  C15.ArticExactConn C15.ArticExactBase.
Import ListNotations.

Definition dfs_exact (g : graph) (f : nat) : Prop :=
  forall v s s' stk po, In v (nodes g) -> aget (disc s) v = None ->
    Good g s stk -> NB g noexc s stk -> aget (par s) v = Some po -> stk_top g v stk po ->
    dfs f g v s = Some s' ->
    Good g s' stk /\ NB g (pexc v po) s' stk /\ ext v s s' /\ Post g s s' v po.

Section Call.
Variable g : graph.
Variables (v : nat) (stk : list nat) (po : option nat) (s0 : ast).
Hypothesis Hv : In v (nodes g).
Hypothesis H0v : aget (disc s0) v = None.
Hypothesis G0 : Good g s0 stk.
Hypothesis Htop : stk_top g v stk po.

Lemma v_notstk : ~ In v stk.
Proof. intro Hin. exact (g_stk G0 v Hin H0v). Qed.

(* the stack hangs at its top without v *)
Lemma stk_to_top : forall p r y, stk = p :: r -> In y stk ->
  conn (without_vertex g v) (edge_b g) y p.
Proof.
  intros p r y Estk Hy. apply conn_sym; [apply edge_b_sym|].
  apply (connP_conn_vertex g v (fun z => In z (p :: r)) p y).
  - intros z Hz E. subst z. apply v_notstk. rewrite Estk. exact Hz.
  - apply chain_connP; [rewrite <- Estk; exact (g_chain G0) | rewrite <- Estk; exact Hy].
Qed.

(* In this section s is the state before the recursive call for w, s' the state it returns, s'' the state
   after after_child; the lemma names carry the primes of the state they speak of. *)
Section Child.
Variables (s s' : ast) (w : nat) (ws' : list nat) (children : nat).
Hypothesis L : LI g v stk po s0 (w :: ws') children s.
Hypothesis Hw : aget (disc s) w = None.
Hypothesis He : edge_b g v w = true.
Hypothesis G1 : Good g s' (v :: stk).
Hypothesis N1 : NB g (pexc w (Some v)) s' (v :: stk).
Hypothesis X1 : forall u, ext u s s'.
Hypothesis P1 : Post g s s' w (Some v).

Let s'' := after_child s' v w (S children).
Let Gs : Good g s (v :: stk) := li_good L.

Lemma c_vw : v <> w.
Proof. intro E. subst w. rewrite (li_discv L) in Hw. discriminate. Qed.

Lemma c_dscv : dsc s v.
Proof. unfold dsc. rewrite (li_discv L). discriminate. Qed.

Lemma c_discdv' : discd s' v = time s0.
Proof. apply discd_Some. apply (e_disc (X1 v)). exact (li_discv L). Qed.

Lemma c_t0 : time s0 < time s.
Proof. destruct (inv_disc s v _ (g_inv Gs) (li_discv L)) as (_ & H & _). exact H. Qed.

Lemma c_new : forall y, Dn s s' y -> time s <= discd s' y.
Proof.
  intros y [Hy Hy']. unfold dsc in Hy'. destruct (aget (disc s') y) as [d|] eqn:E; [|congruence].
  rewrite (discd_Some _ _ _ E). exact (e_new (X1 v) y d Hy E).
Qed.

Lemma c_stk_lt : forall y, In y stk -> discd s' y < time s0.
Proof.
  intros y Hy. pose proof (g_stk G0 y Hy) as H0.
  destruct (inv_dsc s0 y (g_inv G0) H0) as (_ & Hlt & _).
  pose proof (ext_discd v s0 s y (li_ext L) H0) as E1.
  pose proof (ext_discd v s s' y (X1 v) (ext_dsc v s0 s y (li_ext L) H0)) as E2. lia.
Qed.

Lemma c_w_notvstk : ~ In w (v :: stk).
Proof. intro Hin. exact (g_stk Gs w Hin Hw). Qed.

Lemma c_Dn_ne_v : forall x, Dn s s' x -> x <> v.
Proof. intros x [Hx _] E. subst x. rewrite (li_discv L) in Hx. discriminate. Qed.

Lemma c_Dn_w : Dn s s' w.
Proof. split; [exact Hw|]. unfold dsc. rewrite (p_disc P1). discriminate. Qed.

Lemma c_esc : forall x y, Dn s s' x -> edge_b g x y = true -> Dn s s' y \/ In y (v :: stk).
Proof. exact (escape s s' (v :: stk) (g_stk Gs) (g_closed Gs) (g_closed G1)). Qed.

Lemma c_shape :
  disc s'' = disc s' /\ par s'' = par s' /\ time s'' = time s' /\
  low s'' = aset (low s') v (Nat.min (lowd s' v) (lowd s' w)) /\
  (forall x, In x (aps s'') <-> In x (aps s') \/ (x = v /\ ac_ap s' v w (S children) = true)) /\
  (forall p, In p (brs s'') <-> In p (brs s') \/ (p = canon v w /\ ac_br s' v w = true)).
Proof. exact (after_child_shape s' v w (S children) c_vw). Qed.

Lemma c_dsc'' : forall x, dsc s'' x <-> dsc s' x.
Proof. intro x. destruct c_shape as (S1 & _). unfold dsc. rewrite S1. tauto. Qed.

Lemma c_discd'' : forall x, discd s'' x = discd s' x.
Proof. intro x. destruct c_shape as (S1 & _). unfold discd. rewrite S1. reflexivity. Qed.

Lemma c_low'' : lowd s'' v = Nat.min (lowd s v) (lowd s' w).
Proof.
  destruct c_shape as (_ & _ & _ & S4 & _). unfold lowd at 1, agetd. rewrite S4, aget_aset_same.
  f_equal. unfold lowd, agetd. rewrite (e_low (X1 w) v c_dscv c_vw). reflexivity.
Qed.

(* low[w] bounds what the child's set reaches, the tree edge back to v apart *)
Lemma c_below' : forall x y, Dn s s' x -> edge_b g x y = true -> ~ (x = w /\ y = v) ->
  lowd s' w <= discd s' y.
Proof.
  intros x y Hx Hexy Hn. apply (p_below P1 x y Hx Hexy). intro E.
  split; [intros [] | intro E'; injection E' as E'; apply Hn; auto].
Qed.

Lemma c_seal : (forall y, In y stk -> discd s' v <= lowd s' w) ->
  forall x y, Dn s s' x -> edge_b g x y = true -> y <> v -> Dn s s' y.
Proof.
  intros Hlow x y Hx Hexy Hyv. destruct (c_esc x y Hx Hexy) as [Hy|[Hy|Hy]];
    [exact Hy | congruence |].
  exfalso. pose proof (c_below' x y Hx Hexy (fun H => Hyv (proj2 H))) as Hl.
  pose proof (c_stk_lt y Hy). specialize (Hlow y Hy). rewrite c_discdv' in Hlow. lia.
Qed.

Lemma c_conn_wv : conn (nodes g) (edge_b g) w v.
Proof. apply conn_step_edge. rewrite edge_b_sym. exact He. Qed.

Lemma c_cut_nonroot : forall p r, stk = p :: r -> edge_b g v p = true ->
  discd s' v <= lowd s' w -> CutSep g v.
Proof.
  intros p r Estk Hvp Hlow. destruct (edge_b_nodes g v p Hvp) as (_ & _ & Hpv).
  split; [exact Hv|]. exists w, p. split; [intro E; exact (c_vw (eq_sym E))|].
  split; [auto|]. split; [exact c_conn_wv|].
  split; [apply conn_step_edge; rewrite edge_b_sym; exact Hvp|].
  apply (sealed_vertex g v (Dn s s') w p); [exact c_Dn_w | | exact (c_seal (fun _ _ => Hlow))].
  intros [Hp _]. apply (g_stk Gs p); [|exact Hp]. right. rewrite Estk. left. reflexivity.
Qed.

Lemma c_cut_root : po = None -> 1 <= children -> CutSep g v.
Proof.
  intros Hpo Hc. destruct (li_seal L Hpo Hc) as (w1 & S & Hvw1 & Sw1 & Sd & Scl).
  destruct (edge_b_nodes g v w1 Hvw1) as (_ & _ & Hne).
  split; [exact Hv|]. exists w1, w. split; [auto|]. split; [intro E; exact (c_vw (eq_sym E))|].
  split; [apply conn_step_edge; rewrite edge_b_sym; exact Hvw1|]. split; [exact c_conn_wv|].
  apply (sealed_vertex g v S w1 w); [exact Sw1 | | exact Scl].
  intro Sw. exact (Sd w Sw Hw).
Qed.

Lemma c_par' : aget (par s') v = Some po.
Proof. rewrite (e_par (X1 v) v c_dscv). exact (li_par L). Qed.

Lemma c_ap : ac_ap s' v w (S children) = true -> CutSep g v.
Proof.
  intro Hap. unfold ac_ap in Hap. rewrite (is_root_po s' v po c_par') in Hap.
  destruct (stk_top_cases g v stk po Htop) as [[Epo _] | (p & r & Epo & Estk & Hvp)];
    rewrite Epo in Hap; apply Nat.leb_le in Hap.
  - apply c_cut_root; [exact Epo | lia].
  - exact (c_cut_nonroot p r Estk Hvp Hap).
Qed.

Lemma c_br : ac_br s' v w = true -> BridgeSep g v w.
Proof.
  intro Hbr. unfold ac_br in Hbr. apply Nat.ltb_lt in Hbr. rewrite c_discdv' in Hbr.
  apply BridgeSep_swap. split; [rewrite edge_b_sym; exact He|].
  apply (sealed_edge g w v (Dn s s') w v c_Dn_w).
  - intro H. exact (c_Dn_ne_v v H eq_refl).
  - intros x y Hx Hexy Hn1 Hn2. destruct (c_esc x y Hx Hexy) as [Hy|Hy]; [exact Hy|]. exfalso.
    pose proof (c_below' x y Hx Hexy Hn1) as Hl. destruct Hy as [Hy|Hy].
    + subst y. rewrite c_discdv' in Hl. lia.
    + pose proof (c_stk_lt y Hy). lia.
Qed.

Lemma c_good'' : Good g s'' (v :: stk).
Proof. apply Good_after_child; [exact c_vw | exact Hv | exact He | exact G1 | exact c_ap | exact c_br]. Qed.

(* low[w] <= disc[v] is witnessed by an edge from the child's set to v or below, not the tree edge *)
Lemma c_back : lowd s' w <= time s0 ->
  exists x y, Dn s s' x /\ edge_b g x y = true /\ ~ (x = w /\ Some v = Some y) /\
              In y (v :: stk) /\ discd s' y <= lowd s' w.
Proof.
  intro Hlow. pose proof c_t0 as Ht0.
  destruct (p_reached P1) as [Hl | (x & y & Hx & Hexy & Hn & _ & Hl)]; [lia|].
  exists x, y. split; [exact Hx|]. split; [exact Hexy|]. split; [exact Hn|]. split; [|exact Hl].
  destruct (c_esc x y Hx Hexy) as [Hy|Hy]; [|exact Hy]. pose proof (c_new y Hy). lia.
Qed.

(* the tree edge (v,w) is not a bridge when low[w] <= disc[v] *)
Lemma c_pair : ac_br s' v w = false -> conn (nodes g) (without_edge g w v) w v.
Proof.
  intro Hbr. unfold ac_br in Hbr. apply Nat.ltb_ge in Hbr. rewrite c_discdv' in Hbr.
  destruct (c_back Hbr) as (x & y & Hx & Hexy & Hn & Hy & _).
  apply connP_trans with x.
  - apply (connP_conn_edge g w v (Dn s s') w x); [|exact (p_tree P1 x Hx)].
    right. intro H. exact (c_Dn_ne_v v H eq_refl).
  - apply connP_trans with y.
    + apply rt_step. destruct (edge_b_nodes g x y Hexy) as (Nx & Ny & _).
      split; [exact Nx|]. split; [exact Ny|]. apply without_edge_true. split; [exact Hexy|]. split.
      * intros [E1 E2]. apply Hn. split; [exact E1 | rewrite E2; reflexivity].
      * intros [E1 _]. exact (c_Dn_ne_v x Hx E1).
    + apply (connP_conn_edge g w v (fun z => In z (v :: stk)) y v); [left; exact c_w_notvstk|].
      apply connP_sym; [apply edge_b_sym|]. apply chain_connP; [exact (g_chain Gs) | exact Hy].
Qed.

Lemma c_nb'' : NB g noexc s'' (v :: stk).
Proof.
  intros x y Hx Hns Hexy Hlt. destruct c_shape as (_ & _ & _ & _ & _ & S6).
  apply c_dsc'' in Hx. rewrite !c_discd'' in Hlt.
  destruct (N1 x y Hx Hns Hexy Hlt) as [[E1 E2] | [Hin | Hc]].
  - injection E2 as E2. subst x y. right. destruct (ac_br s' v w) eqn:Ebr.
    + left. apply S6. right. split; [apply canon_sym; intro E; exact (c_vw (eq_sym E)) | reflexivity].
    + right. exact (c_pair Ebr).
  - right. left. apply S6. left. exact Hin.
  - right. right. exact Hc.
Qed.

Lemma c_Dn_split : forall a, Dn s0 s'' a -> Dn s0 s a \/ Dn s s' a.
Proof.
  intros a [Ha Ha']. apply c_dsc'' in Ha'. destruct (dsc_dec s a) as [Hd|Hd].
  - left. split; assumption.
  - right. split; assumption.
Qed.

Lemma c_Dn_old : forall a, Dn s0 s a -> Dn s0 s'' a.
Proof. intros a [Ha Ha']. split; [exact Ha|]. apply c_dsc''. exact (ext_dsc v s s' a (X1 v) Ha'). Qed.

Lemma c_Dn_new : forall a, Dn s s' a -> Dn s0 s'' a.
Proof.
  intros a [Ha Ha']. split; [|apply c_dsc''; exact Ha'].
  destruct (aget (disc s0) a) as [d|] eqn:E; [|reflexivity].
  rewrite (e_disc (li_ext L) a d E) in Ha. discriminate.
Qed.

Lemma c_Dn_v : Dn s0 s'' v.
Proof. apply c_Dn_old. split; [exact H0v | exact c_dscv]. Qed.

Lemma c_closed_old : forall x y, Dn s0 s x -> x <> v -> edge_b g x y = true -> dsc s y.
Proof.
  intros x y [Hx Hx'] Hxv Hexy. apply (g_closed Gs x y Hx'); [|exact Hexy].
  intros [Hin|Hin]; [auto|]. exact (g_stk G0 x Hin Hx).
Qed.

Lemma c_seen'' : forall y, edge_b g v y = true -> ~ In y ws' -> dsc s'' y.
Proof.
  intros y Hey Hny. apply c_dsc''. destruct (Nat.eq_dec y w) as [E|E].
  - subst y. exact (proj2 c_Dn_w).
  - apply (ext_dsc v s s' y (X1 v)). apply (li_seen L y Hey). intros [Hin|Hin]; auto.
Qed.

Lemma c_tree'' : tree_at g s0 s'' v.
Proof.
  intros a Ha. destruct (c_Dn_split a Ha) as [Ho|Hn].
  - exact (connP_sub _ _ _ _ _ c_Dn_old (li_tree L a Ho)).
  - apply connP_trans with w.
    + apply connP_step; [exact c_Dn_v | exact (c_Dn_new w c_Dn_w) | exact He].
    + exact (connP_sub _ _ _ _ _ c_Dn_new (p_tree P1 a Hn)).
Qed.

Lemma c_below'' : low_below g s0 s'' v po ws'.
Proof.
  intros x y Hx Hexy Hc. rewrite c_low'', c_discd''. apply Nat.min_le_iff.
  destruct (c_Dn_split x Hx) as [Ho|Hn].
  - destruct (Nat.eq_dec x v) as [Exv|Exv].
    + destruct (Hc Exv) as [Hny Hpo]. subst x. destruct (Nat.eq_dec y w) as [E|E].
      * subst y. right. exact (proj2 (proj2 (inv_dsc s' w (g_inv G1) (proj2 c_Dn_w)))).
      * assert (Hny' : ~ In y (w :: ws')) by (intros [Hin|Hin]; auto).
        left. rewrite (ext_discd v s s' y (X1 v) (li_seen L y Hexy Hny')).
        exact (li_below L v y Ho Hexy (fun _ => conj Hny' Hpo)).
    + left. rewrite (ext_discd v s s' y (X1 v) (c_closed_old x y Ho Exv Hexy)).
      apply (li_below L x y Ho Hexy). intro E. contradiction.
  - destruct (Nat.eq_dec x w) as [Exw|Exw]; [destruct (Nat.eq_dec y v) as [Eyv|Eyv]|].
    + subst x y. left. rewrite (ext_discd v s s' v (X1 v) c_dscv).
      exact (proj2 (proj2 (inv_dsc s v (g_inv Gs) c_dscv))).
    + right. apply (c_below' x y Hn Hexy). intros [_ E]. auto.
    + right. apply (c_below' x y Hn Hexy). intros [E _]. auto.
Qed.

Lemma c_po_w : po <> Some w.
Proof.
  intro Hpo. destruct (stk_top_cases g v stk po Htop) as [[Epo _] | (p & r & Epo & Estk & _)];
    [congruence|].
  apply c_w_notvstk. right. rewrite Estk. left. congruence.
Qed.

Lemma c_reached'' : low_reached g s0 s'' v po.
Proof.
  unfold low_reached. rewrite c_low''. destruct (le_lt_dec (lowd s v) (lowd s' w)) as [Hle|Hlt].
  - rewrite Nat.min_l by exact Hle.
    destruct (li_reached L) as [Hl | (x & y & Hx & Hexy & Hn & Hy & Hl)]; [left; exact Hl|].
    right. exists x, y. split; [exact (c_Dn_old x Hx)|]. split; [exact Hexy|]. split; [exact Hn|].
    split; [apply c_dsc''; exact (ext_dsc v s s' y (X1 v) Hy)|].
    rewrite c_discd'', (ext_discd v s s' y (X1 v) Hy). exact Hl.
  - rewrite Nat.min_r by exact (Nat.lt_le_incl _ _ Hlt). right.
    destruct (p_reached P1) as [Hl | (x & y & Hx & Hexy & Hn & Hy & Hl)].
    + exists v, w. split; [exact c_Dn_v|]. split; [exact He|].
      split; [intros [_ E]; exact (c_po_w E)|].
      split; [apply c_dsc''; exact (proj2 c_Dn_w)|].
      rewrite c_discd'', (discd_Some s' w _ (p_disc P1)). exact Hl.
    + exists x, y. split; [exact (c_Dn_new x Hx)|]. split; [exact Hexy|].
      split; [intros [E _]; exact (c_Dn_ne_v x Hx E)|].
      split; [apply c_dsc''; exact Hy|]. rewrite c_discd''. exact Hl.
Qed.

Lemma c_aps_mono : forall x, In x (aps s) -> In x (aps s'').
Proof.
  intros x Hx. destruct c_shape as (_ & _ & _ & _ & S5 & _). apply S5. left.
  exact (e_aps (X1 v) x Hx).
Qed.

Lemma c_to_w : forall a, Dn s s' a -> conn (without_vertex g v) (edge_b g) a w.
Proof.
  intros a Ha. apply conn_sym; [apply edge_b_sym|].
  apply (connP_conn_vertex g v (Dn s s') w a c_Dn_ne_v). exact (p_tree P1 a Ha).
Qed.

Lemma c_w_to_p : forall p r, stk = p :: r -> lowd s' w < discd s' v ->
  conn (without_vertex g v) (edge_b g) w p.
Proof.
  intros p r Estk Hlow. rewrite c_discdv' in Hlow.
  destruct (c_back (Nat.lt_le_incl _ _ Hlow)) as (x & y & Hx & Hexy & _ & [Hy|Hy] & Hl);
    [subst y; rewrite c_discdv' in Hl; lia|].
  assert (Hyv : y <> v) by (intro E; subst y; exact (v_notstk Hy)).
  apply connP_trans with x.
  - apply (connP_conn_vertex g v (Dn s s') w x c_Dn_ne_v). exact (p_tree P1 x Hx).
  - apply connP_trans with y.
    + apply rt_step. destruct (edge_b_nodes g x y Hexy) as (Nx & Ny & _).
      rewrite !without_vertex_In. pose proof (c_Dn_ne_v x Hx). auto.
    + exact (stk_to_top p r y Estk Hy).
Qed.

Lemma c_nocut'' : nocut_at g s0 s'' v po (S children).
Proof.
  destruct c_shape as (_ & _ & _ & _ & S5 & _). pose proof (li_nocut L) as Hold.
  destruct (stk_top_cases g v stk po Htop) as [[Epo _] | (p & r & Epo & Estk & _)].
  - assert (Hr : is_root s' v = true) by (rewrite (is_root_po s' v po c_par'), Epo; reflexivity).
    rewrite Epo in Hold |- *.
    destruct Hold as [[Hc Hall] | [[Hc [w1 Hall]] | [Hc Hin]]].
    + right. left. split; [lia|]. exists w. intros a Ha Hav.
      destruct (c_Dn_split a Ha) as [Ho|Hn]; [exfalso; exact (Hav (Hall a Ho)) | exact (c_to_w a Hn)].
    + right. right. split; [lia|]. apply S5. right. split; [reflexivity|].
      unfold ac_ap. rewrite Hr. subst children. reflexivity.
    + right. right. split; [lia | exact (c_aps_mono v Hin)].
  - assert (Hr : is_root s' v = false) by (rewrite (is_root_po s' v po c_par'), Epo; reflexivity).
    rewrite Epo in Hold |- *.
    destruct Hold as [Hin|Hall]; [left; exact (c_aps_mono v Hin)|].
    destruct (discd s' v <=? lowd s' w) eqn:Ecmp.
    + left. apply S5. right. split; [reflexivity|]. unfold ac_ap. rewrite Hr. exact Ecmp.
    + apply Nat.leb_gt in Ecmp. right. intros a Ha Hav.
      destruct (c_Dn_split a Ha) as [Ho|Hn]; [exact (Hall a Ho Hav)|].
      apply connP_trans with w; [exact (c_to_w a Hn) | exact (c_w_to_p p r Estk Ecmp)].
Qed.

Lemma c_seal'' : seal_at g s'' v po (S children).
Proof.
  intros Hpo _. destruct (le_lt_dec 1 children) as [Hc|Hc].
  - destruct (li_seal L Hpo Hc) as (w1 & S & Hvw1 & Sw1 & Sd & Scl).
    exists w1, S. split; [exact Hvw1|]. split; [exact Sw1|]. split; [|exact Scl].
    intros x Sx. apply c_dsc''. exact (ext_dsc v s s' x (X1 v) (Sd x Sx)).
  - exists w, (Dn s s'). split; [exact He|]. split; [exact c_Dn_w|]. split.
    + intros x [_ Hx]. apply c_dsc''. exact Hx.
    + apply c_seal. intros y Hy. exfalso.
      destruct (stk_top_cases g v stk po Htop) as [[_ E] | (p & r & Epo & _)]; [|congruence].
      rewrite E in Hy. exact Hy.
Qed.

Theorem LI_child : LI g v stk po s0 ws' (S children) s''.
Proof.
  destruct c_shape as (S1 & S2 & _).
  constructor.
  - exact c_good''.
  - exact c_nb''.
  - apply ext_trans with s; [exact (li_ext L)|]. apply ext_trans with s'; [exact (X1 v)|].
    apply ext_after_child. exact c_vw.
  - rewrite S1. apply (e_disc (X1 v)). exact (li_discv L).
  - rewrite S2. exact c_par'.
  - exact c_seen''.
  - exact c_tree''.
  - exact c_below''.
  - exact c_reached''.
  - exact c_nocut''.
  - exact c_seal''.
Qed.

End Child.

(* discovered neighbour: the parent is skipped *)
Lemma LI_skip : forall w ws' c s,
  LI g v stk po s0 (w :: ws') c s -> dsc s w -> po = Some w -> LI g v stk po s0 ws' c s.
Proof.
  intros w ws' c s [Lgood Lnb Lext Ldiscv Lpar Lseen Ltree Lbelow Lreached Lnocut Lseal] Hw Hpo.
  constructor; try assumption. (* only li_seen and li_below mention the list of neighbours to come *)
  - intros y Hey Hny. destruct (Nat.eq_dec y w) as [Eq|Ne]; [subst y; exact Hw|].
    apply (Lseen y Hey). intros [Hin|Hin]; auto.
  - intros x y Hx Hexy Hc. apply (Lbelow x y Hx Hexy). intro Exv. destruct (Hc Exv) as [Hny Hp].
    split; [|exact Hp]. intros [Hin|Hin]; [|exact (Hny Hin)]. subst y. exact (Hp Hpo).
Qed.

(* discovered neighbour, not the parent: low[v] = min(low[v], disc[w]) *)
Lemma LI_back : forall w ws' c s dw, edge_b g v w = true ->
  LI g v stk po s0 (w :: ws') c s -> aget (disc s) w = Some dw -> po <> Some w ->
  LI g v stk po s0 ws' c (set_low s v (Nat.min (lowd s v) dw)).
Proof.
  intros w ws' c s dw He [Lgood Lnb Lext Ldiscv Lpar Lseen Ltree Lbelow Lreached Lnocut Lseal] Hw Hpo.
  assert (Hdw : dsc s w) by (unfold dsc; rewrite Hw; discriminate).
  assert (Hdv : dsc s v) by (unfold dsc; rewrite Ldiscv; discriminate).
  assert (Hlow : lowd (set_low s v (Nat.min (lowd s v) dw)) v = Nat.min (lowd s v) dw).
  { unfold lowd at 1, agetd. simpl. rewrite aget_aset_same. reflexivity. }
  assert (Hd : forall t z, discd (set_low s v t) z = discd s z) by reflexivity.
  (* the state changes in low[v] only: li_good, li_ext, li_seen, li_below, li_reached are left *)
  constructor; try assumption.
  - apply Good_set_low. exact Lgood.
  - apply ext_trans with s; [exact Lext | apply ext_set_low].
  - intros y Hey Hny. destruct (Nat.eq_dec y w) as [Eq|Ne]; [subst y; exact Hdw|].
    apply (Lseen y Hey). intros [Hin|Hin]; auto.
  - intros x y Hx Hexy Hc. rewrite Hlow.
    rewrite Hd.
    destruct (Nat.eq_dec x v) as [Exv|Exv].
    + destruct (Hc Exv) as [Hny Hp]. destruct (Nat.eq_dec y w) as [Eq|Ne].
      * subst y. rewrite (discd_Some s w dw Hw). apply Nat.le_min_r.
      * apply Nat.min_le_iff. left. apply (Lbelow x y Hx Hexy). intros _.
        split; [|exact Hp]. intros [Hin|Hin]; auto.
    + apply Nat.min_le_iff. left. apply (Lbelow x y Hx Hexy). intro Eq. contradiction.
  - unfold low_reached. rewrite Hlow. destruct (le_lt_dec (lowd s v) dw) as [Hle|Hlt].
    + rewrite Nat.min_l by exact Hle. exact Lreached.
    + rewrite Nat.min_r by exact (Nat.lt_le_incl _ _ Hlt). right. exists v, w.
      split; [split; [exact H0v | exact Hdv]|]. split; [exact He|].
      split; [intros [_ Ep]; exact (Hpo Ep)|]. split; [exact Hdw|].
      rewrite Hd, (discd_Some s w dw Hw). apply le_n.
Qed.

Section Finish.
Variables (s' : ast) (children : nat).
Hypothesis L : LI g v stk po s0 [] children s'.

Lemma f_dscv : dsc s' v.
Proof. unfold dsc. rewrite (li_discv L). discriminate. Qed.

Lemma f_Dn_v : Dn s0 s' v.
Proof. split; [exact H0v | exact f_dscv]. Qed.

Lemma f_closed : forall x y, dsc s' x -> ~ In x stk -> edge_b g x y = true -> dsc s' y.
Proof.
  intros x y Hx Hns Hexy. destruct (Nat.eq_dec x v) as [E|E].
  - subst x. exact (li_seen L y Hexy (fun H => H)).
  - apply (g_closed (li_good L) x y Hx); [|exact Hexy]. intros [Hin|Hin]; auto.
Qed.

Lemma f_esc : forall x y, Dn s0 s' x -> edge_b g x y = true -> Dn s0 s' y \/ In y stk.
Proof. exact (escape s0 s' stk (g_stk G0) (g_closed G0) f_closed). Qed.

(* the component of v: discovered during the call, or attached to the stack avoiding v *)
Lemma f_comp : forall a, conn (nodes g) (edge_b g) a v ->
  Dn s0 s' a \/ exists y, In y stk /\ conn (without_vertex g v) (edge_b g) a y.
Proof.
  assert (Hgen : forall a b,
    clos_refl_trans_1n nat (fun x y => In x (nodes g) /\ In y (nodes g) /\ edge_b g x y = true) a b ->
    b = v -> Dn s0 s' a \/ exists y, In y stk /\ conn (without_vertex g v) (edge_b g) a y).
  { intros a b H. induction H as [a | a a1 b Hstep Hrest IH]; intro Eb.
    - subst a. left. exact f_Dn_v.
    - destruct Hstep as (Na & Na1 & Hexy).
      destruct (Dn_dec s0 s' a) as [Ha|Ha]; [left; exact Ha|]. right.
      assert (Hav : a <> v) by (intro E; subst a; exact (Ha f_Dn_v)).
      destruct (Dn_dec s0 s' a1) as [Ha1|Ha1].
      + rewrite edge_b_sym in Hexy. destruct (f_esc a1 a Ha1 Hexy) as [Hd|Hin]; [contradiction|].
        exists a. split; [exact Hin | apply rt_refl].
      + destruct (IH Eb) as [Hd|(y & Hy & Hc)]; [contradiction|].
        assert (Ha1v : a1 <> v) by (intro E; subst a1; exact (Ha1 f_Dn_v)).
        exists y. split; [exact Hy|]. apply connP_trans with a1; [|exact Hc].
        apply rt_step. rewrite !without_vertex_In. auto. }
  intros a H. apply clos_rt_rt1n in H. exact (Hgen a v H eq_refl).
Qed.

Lemma f_nocut_v : In v (aps s') \/ NonCut g v.
Proof.
  pose proof (li_nocut L) as Hold.
  destruct (stk_top_cases g v stk po Htop) as [[Epo Estk] | (p & r & Epo & Estk & _)];
    rewrite Epo in Hold.
  - destruct Hold as [[Hc Hall] | [[Hc [w1 Hall]] | [Hc Hin]]].
    + right. exists v. intros a Hav Hca. exfalso.
      destruct (f_comp a Hca) as [Ha|(y & Hy & _)]; [exact (Hav (Hall a Ha))|].
      rewrite Estk in Hy. destruct Hy.
    + right. exists w1. intros a Hav Hca.
      destruct (f_comp a Hca) as [Ha|(y & Hy & _)]; [exact (Hall a Ha Hav)|].
      rewrite Estk in Hy. destruct Hy.
    + left. exact Hin.
  - destruct Hold as [Hin|Hall]; [left; exact Hin|]. right. exists p. intros a Hav Hca.
    destruct (f_comp a Hca) as [Ha|(y & Hy & Hcy)]; [exact (Hall a Ha Hav)|].
    apply connP_trans with y; [exact Hcy | exact (stk_to_top p r y Estk Hy)].
Qed.

Lemma f_good : Good g s' stk.
Proof.
  pose proof (li_good L) as [Ginv Ginj Gstk Gchain Gclosed Gaps Gbrs Gnocut].
  constructor; try assumption. (* the fields that mention the stack: g_stk, g_chain, g_closed, g_nocut *)
  - intros x Hx. apply Gstk. right. exact Hx.
  - exact (chain_tail _ v stk Gchain).
  - exact f_closed.
  - intros x Hx Hns. destruct (Nat.eq_dec x v) as [Eq|Ne]; [subst x; exact f_nocut_v|].
    apply (Gnocut x Hx). intros [Hin|Hin]; auto.
Qed.

Lemma f_nb : NB g (pexc v po) s' stk.
Proof.
  intros x y Hx Hns Hexy Hlt. destruct (Nat.eq_dec x v) as [Exv|Exv].
  - subst x. rewrite (discd_Some s' v _ (li_discv L)) in Hlt.
    pose proof (f_closed v y Hx Hns Hexy) as Hy'.
    assert (Hy0 : dsc s0 y).
    { unfold dsc. intro E. unfold dsc in Hy'. destruct (aget (disc s') y) as [d|] eqn:E'; [|congruence].
      rewrite (discd_Some s' y d E') in Hlt. pose proof (e_new (li_ext L) y d E E'). lia. }
    assert (Hin : In y stk).
    { destruct (in_dec Nat.eq_dec y stk) as [Hin|Hout]; [exact Hin|]. exfalso.
      rewrite edge_b_sym in Hexy. exact (g_closed G0 y v Hy0 Hout Hexy H0v). }
    destruct (stk_top_cases g v stk po Htop) as [[Epo Estk] | (p & r & Epo & Estk & Hvp)].
    + exfalso. rewrite Estk in Hin. destruct Hin.
    + destruct (Nat.eq_dec p y) as [Epy|Epy];
        [left; split; [reflexivity | rewrite Epo, Epy; reflexivity]|].
      right. right. destruct (edge_b_nodes g v p Hvp) as (Nv & Np & Hne).
      destruct (edge_b_nodes g v y Hexy) as (_ & _ & Hvy).
      apply connP_trans with p.
      * apply rt_step. split; [exact Nv|]. split; [exact Np|]. apply without_edge_true.
        split; [exact Hvp|]. split; intros [E1 E2]; auto.
      * apply (connP_conn_edge g v y (fun z => In z (p :: r)) p y).
        -- left. rewrite <- Estk. exact v_notstk.
        -- apply chain_connP; [rewrite <- Estk; exact (g_chain G0) | rewrite <- Estk; exact Hin].
  - destruct (li_nb L x y Hx) as [[]|Hr]; [intros [Hin|Hin]; auto | exact Hexy | exact Hlt |].
    right. exact Hr.
Qed.

Lemma f_post : Post g s0 s' v po.
Proof.
  constructor; [exact (li_discv L) | exact (li_tree L) | exact (li_below L) | exact (li_reached L)].
Qed.

End Finish.

Lemma loop_exact : forall f, dfs_exact g f ->
  forall ws c s s', (forall w, In w ws -> edge_b g v w = true) ->
    LI g v stk po s0 ws c s -> dfs_loop (dfs f g) v ws c s = Some s' ->
    exists c', LI g v stk po s0 [] c' s'.
Proof.
  intros f IHf. induction ws as [|w ws IH]; intros c s s' Hws L H; simpl in H.
  - injection H as H. subst s'. exists c. exact L.
  - assert (He : edge_b g v w = true) by (apply Hws; left; reflexivity).
    assert (Hws' : forall w0, In w0 ws -> edge_b g v w0 = true)
      by (intros w0 Hw0; apply Hws; right; exact Hw0).
    destruct (aget (disc s) w) as [dw|] eqn:Hd.
    + assert (Hdw : dsc s w) by (unfold dsc; rewrite Hd; discriminate).
      destruct (parent_is s v w) eqn:Hp.
      * apply (parent_is_po s v w po (li_par L)) in Hp.
        exact (IH c s s' Hws' (LI_skip w ws c s L Hdw Hp) H).
      * assert (Hpo : po <> Some w).
        { intro E. apply (parent_is_po s v w po (li_par L)) in E. congruence. }
        exact (IH c _ s' Hws' (LI_back w ws c s dw He L Hd Hpo) H).
    + destruct (dfs f g w (set_par s w (Some v))) as [a|] eqn:Hr; [|discriminate].
      destruct (edge_b_nodes g v w He) as (_ & Hw & _).
      assert (Htop' : stk_top g w (v :: stk) (Some v)).
      { simpl. split; [reflexivity | rewrite edge_b_sym; exact He]. }
      assert (Hpar : aget (par (set_par s w (Some v))) w = Some (Some v))
        by (simpl; apply aget_aset_same).
      destruct (IHf w (set_par s w (Some v)) a (v :: stk) (Some v) Hw Hd
                  (Good_set_par s (v :: stk) w (Some v) (li_good L))
                  (NB_set_par noexc s (v :: stk) w (Some v) (li_nb L)) Hpar Htop' Hr)
        as (G1 & N1 & X1 & P1).
      apply (IH (S c) (after_child a v w (S c)) s' Hws'); [|exact H].
      apply (LI_child s a w ws c L Hd He G1 N1).
      * intro u. exact (ext_child u w (Some v) s a Hd X1).
      * exact (Post_set_par s a w (Some v) w (Some v) P1).
Qed.

End Call.

Lemma dfs_exact_all : forall g, valid_graph g = true -> forall f, dfs_exact g f.
Proof.
  intros g Hg f. induction f as [|f IHf]; intros v s s' stk po Hv H0v G0 N0 Hpar Htop H.
  - discriminate.
  - rewrite dfs_S in H.
    destruct (loop_exact g v stk po s Hv H0v G0 Htop f IHf (uadj g v) 0 (enter s v) s') as [c' L].
    + intros w Hw. apply (uadj_In g v w Hv). exact Hw.
    + apply LI_enter; assumption.
    + exact H.
    + split; [exact (f_good g v stk po s H0v G0 Htop s' c' L)|].
      split; [exact (f_nb g v stk po s H0v G0 Htop s' c' L)|].
      split; [exact (li_ext L) | exact (f_post g v stk po s s' c' L)].
Qed.

Lemma Good_ainit : forall g, Good g ainit [] /\ NB g noexc ainit [].
Proof.
  intro g. assert (Hn : forall x, ~ dsc ainit x) by (intros x Hx; apply Hx; reflexivity).
  split.
  - constructor.
    + apply Inv_ainit.
    + intros x y Hx. exfalso. exact (Hn x Hx).
    + intros x [].
    + exact I.
    + intros x y Hx. exfalso. exact (Hn x Hx).
    + intros u [].
    + intros a b [].
    + intros x Hx. exfalso. exact (Hn x Hx).
  - intros x y Hx. exfalso. exact (Hn x Hx).
Qed.

Lemma roots_exact : forall g fuel, valid_graph g = true ->
  forall vs s s', incl vs (nodes g) -> Good g s [] -> NB g noexc s [] ->
    roots fuel g vs s = Some s' -> Good g s' [] /\ NB g noexc s' [].
Proof.
  intros g fuel Hg. induction vs as [|v vs IH]; intros s s' Hincl G0 N0 H; simpl in H.
  - injection H as H. subst s'. split; assumption.
  - assert (Hv : In v (nodes g)) by (apply Hincl; left; reflexivity).
    assert (Hincl' : incl vs (nodes g)) by (intros z Hz; apply Hincl; right; exact Hz).
    destruct (aget (disc s) v) as [d|] eqn:Hd; [exact (IH s s' Hincl' G0 N0 H)|].
    destruct (dfs fuel g v (set_par s v None)) as [a|] eqn:Hr; [|discriminate].
    assert (Hpar : aget (par (set_par s v None)) v = Some None) by (simpl; apply aget_aset_same).
    destruct (dfs_exact_all g Hg fuel v (set_par s v None) a [] None Hv Hd
                (Good_set_par s [] v None G0) (NB_set_par noexc s [] v None N0) Hpar eq_refl Hr)
      as (G1 & N1 & _ & _).
    apply (IH a s' Hincl' G1); [|exact H].
    intros x y Hx Hns Hexy Hlt. destruct (N1 x y Hx Hns Hexy Hlt) as [[_ E]|Hr']; [discriminate|].
    right. exact Hr'.
Qed.

Lemma CutSep_iff : forall g v, CutSep g v <-> is_cut_vertex g v.
Proof. intros g v. unfold CutSep. symmetry. apply cut_vertex_separation_iff. Qed.

Lemma BridgeSep_iff : forall g a b, BridgeSep g a b <-> is_bridge g a b.
Proof. intros g a b. unfold BridgeSep. symmetry. apply bridge_separation_iff. Qed.

Lemma run_final : forall g s, valid_graph g = true -> run g = Some s ->
  Good g s [] /\ NB g noexc s [] /\ (forall v, In v (nodes g) -> dsc s v).
Proof.
  intros g s Hg H. destruct (run_ok g) as (s0 & H0 & _ & Hall).
  rewrite H in H0. injection H0 as H0. subst s0. unfold run in H.
  destruct (Good_ainit g) as [G0 N0].
  destruct (roots_exact g _ Hg (nodes g) ainit s (incl_refl _) G0 N0 H) as [G1 N1].
  split; [exact G1|]. split; [exact N1 | exact Hall].
Qed.

Theorem artic_points_exact : forall g s, valid_graph g = true -> run g = Some s ->
  forall v, In v (aps s) <-> is_cut_vertex g v.
Proof.
  intros g s Hg H v. destruct (run_final g s Hg H) as (G1 & _ & Hall). split.
  - intro Hv. apply CutSep_iff. exact (g_aps G1 v Hv).
  - intro Hc. apply CutSep_iff in Hc. pose proof Hc as [Hv _].
    destruct (g_nocut G1 v (Hall v Hv) (fun F => F)) as [Hin|Hnc]; [exact Hin|].
    exfalso. exact (NonCut_not_CutSep g v Hnc Hc).
Qed.

(* at the end an edge is reported from its later-discovered end, unless it lies on a cycle *)
Lemma final_bridge : forall g s x y, NB g noexc s [] -> dsc s x -> BridgeSep g x y ->
  discd s y < discd s x -> In (canon x y) (brs s).
Proof.
  intros g s x y N1 Dx [He Hn] Hd.
  destruct (N1 x y Dx (fun F => F) He Hd) as [[]|[Hin|Hc]]; [exact Hin | exfalso; exact (Hn Hc)].
Qed.

Theorem artic_bridges_exact : forall g s, valid_graph g = true -> run g = Some s ->
  forall a b, In (a, b) (brs s) <-> (a < b /\ is_bridge g a b).
Proof.
  intros g s Hg H a b. destruct (run_final g s Hg H) as (G1 & N1 & Hall). split.
  - intro Hab. split.
    + exact (proj1 (i_brs (g_inv G1) a b Hab)).
    + apply BridgeSep_iff. exact (g_brs G1 a b Hab).
  - intros [Hlt Hbr]. apply BridgeSep_iff in Hbr.
    destruct (edge_b_nodes g a b (proj1 Hbr)) as (Na & Nb & Hne).
    assert (Hcan : canon a b = (a, b)) by (unfold canon; apply Nat.ltb_lt in Hlt; rewrite Hlt; reflexivity).
    rewrite <- Hcan. destruct (lt_eq_lt_dec (discd s a) (discd s b)) as [[Hd|Hd]|Hd].
    + rewrite (canon_sym a b Hne).
      exact (final_bridge g s b a N1 (Hall b Nb) (BridgeSep_swap g a b Hbr) Hd).
    + exfalso. exact (Hne (g_inj G1 a b (Hall a Na) (Hall b Nb) Hd)).
    + exact (final_bridge g s a b N1 (Hall a Na) Hbr Hd).
Qed.

(* non-vacuity: a path 0-1-2 with a pendant triangle 2-3-4; cut vertices 1 and 2, bridges (0,1),(1,2) *)
Example exact_example :
  let g := [(0, [1]); (1, [2]); (2, [3; 4]); (3, [4]); (4, [])] in
  valid_graph g = true /\
  match run g with Some s => aps s = [2; 1] /\ brs s = [(1, 2); (0, 1)] | None => False end.
Proof. vm_compute. repeat split. Qed.

Print Assumptions artic_points_exact.
Print Assumptions artic_bridges_exact.
