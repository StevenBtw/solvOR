(* Finite sums over Q (qsum) and the double-sum exchange of the PageRank model (C15/PageRank.v):
   sum_v sum_{u in incoming v} f u = sum_u out_count u * f u  for a duplicate-free node list. *)
From Coq Require Import List Arith Bool ZArith QArith Qabs Lqa.
From SV Require Import C15.Graph C15.PageRank.
From SV Require Export C15.GraphLemmas.
Import ListNotations.
Open Scope Q_scope.

Lemma Qdiv_nonneg : forall a b, 0 <= a -> 0 <= b -> 0 <= a / b.
Proof.
  intros a b Ha Hb. unfold Qdiv. apply Qmult_le_0_compat. exact Ha.
  apply Qinv_le_0_compat. exact Hb.
Qed.

Lemma Qplus_nonneg : forall a b, 0 <= a -> 0 <= b -> 0 <= a + b.
Proof. intros a b Ha Hb. lra. Qed.

Lemma Qabs_div_nonneg : forall a b, 0 <= b -> Qabs (a / b) == Qabs a / b.
Proof.
  intros a b Hb. unfold Qdiv. rewrite Qabs_Qmult, Qabs_Qinv, (Qabs_pos b Hb). reflexivity.
Qed.

Lemma qsum_cons : forall a l, qsum (a :: l) = a + qsum l.
Proof. reflexivity. Qed.

Lemma qsum_app : forall l1 l2, qsum (l1 ++ l2) == qsum l1 + qsum l2.
Proof.
  induction l1 as [|a l1 IH]; intros l2.
  - cbn [app]. change (qsum []) with 0. lra.
  - cbn [app]. rewrite !qsum_cons. rewrite IH. lra.
Qed.

Lemma qsum_map_le : forall (A : Type) (f h : A -> Q) (l : list A),
  (forall x, In x l -> f x <= h x) -> qsum (map f l) <= qsum (map h l).
Proof.
  intros A f h l. induction l as [|a l IH]; intros Hext.
  - cbn [map qsum fold_right]. lra.
  - cbn [map]. rewrite !qsum_cons.
    assert (H1 : f a <= h a) by (apply Hext; left; reflexivity).
    assert (H2 : qsum (map f l) <= qsum (map h l)).
    { apply IH. intros x Hx. apply Hext. right. exact Hx. }
    lra.
Qed.

Lemma qsum_map_ext_eq : forall (A : Type) (f h : A -> Q) (l : list A),
  (forall x, In x l -> f x == h x) -> qsum (map f l) == qsum (map h l).
Proof.
  intros A f h l Hext.
  apply Qle_antisym; apply qsum_map_le; intros x Hx; rewrite (Hext x Hx); apply Qle_refl.
Qed.

Lemma qsum_map_plus : forall (A : Type) (f h : A -> Q) (l : list A),
  qsum (map (fun x => f x + h x) l) == qsum (map f l) + qsum (map h l).
Proof.
  intros A f h l. induction l as [|a l IH].
  - cbn [map qsum fold_right]. lra.
  - cbn [map]. rewrite !qsum_cons. rewrite IH. lra.
Qed.

Lemma qsum_map_scale : forall (A : Type) (c : Q) (f : A -> Q) (l : list A),
  qsum (map (fun x => c * f x) l) == c * qsum (map f l).
Proof.
  intros A c f l. induction l as [|a l IH].
  - cbn [map qsum fold_right]. ring.
  - cbn [map]. rewrite !qsum_cons. rewrite IH. ring.
Qed.

Lemma qn_S : forall n, qn (S n) == 1 + qn n.
Proof.
  intros n. unfold qn. rewrite Nat2Z.inj_succ. unfold Z.succ.
  rewrite inject_Z_plus. change (inject_Z 1) with 1. lra.
Qed.

Lemma qn_0 : qn 0 == 0.
Proof. reflexivity. Qed.

Lemma qn_plus : forall a b, qn (a + b) == qn a + qn b.
Proof.
  intros a b. unfold qn. rewrite Nat2Z.inj_add. rewrite inject_Z_plus. reflexivity.
Qed.

Lemma qn_nonneg : forall n, 0 <= qn n.
Proof.
  induction n as [|n IH].
  - rewrite qn_0. lra.
  - rewrite qn_S. lra.
Qed.

Lemma qn_pos : forall n, (n <> 0)%nat -> 0 < qn n.
Proof.
  intros [|n] Hn.
  - contradiction.
  - rewrite qn_S. pose proof (qn_nonneg n) as H. lra.
Qed.

Lemma qn_length_pos : forall (A : Type) (l : list A), l <> [] -> 0 < qn (length l).
Proof. intros A l Hl. apply qn_pos. now rewrite length_zero_iff_nil. Qed.

Lemma qsum_map_const : forall (A : Type) (c : Q) (l : list A),
  qsum (map (fun _ => c) l) == qn (length l) * c.
Proof.
  intros A c l. induction l as [|a l IH].
  - cbn [map qsum fold_right length]. rewrite qn_0. lra.
  - cbn [map length]. rewrite qsum_cons, IH, qn_S. ring.
Qed.

Lemma qsum_map_nonneg : forall (A : Type) (f : A -> Q) (l : list A),
  (forall x, In x l -> 0 <= f x) -> 0 <= qsum (map f l).
Proof.
  intros A f l Hf. apply Qle_trans with (qsum (map (fun _ => 0) l)).
  - rewrite qsum_map_const. apply Qle_lteq. right. ring.
  - apply qsum_map_le. exact Hf.
Qed.

Lemma Qabs_qsum_map_le : forall (A : Type) (f : A -> Q) (l : list A),
  Qabs (qsum (map f l)) <= qsum (map (fun x => Qabs (f x)) l).
Proof.
  intros A f l. induction l as [|a l IH].
  - cbn [map qsum fold_right]. change (Qabs 0) with 0. lra.
  - cbn [map]. rewrite !qsum_cons.
    pose proof (Qabs_triangle (f a) (qsum (map f l))) as Ht. lra.
Qed.

Lemma qsum_map_minus : forall (A : Type) (f h : A -> Q) (l : list A),
  qsum (map (fun x => f x - h x) l) == qsum (map f l) - qsum (map h l).
Proof.
  intros A f h l. induction l as [|a l IH].
  - cbn [map qsum fold_right]. lra.
  - cbn [map]. rewrite !qsum_cons. rewrite IH. lra.
Qed.

Lemma in_set_nbrs_In : forall g u w, In w (in_set_nbrs g u) -> In w (nodes g).
Proof.
  intros g u w Hw. unfold in_set_nbrs in Hw. apply filter_In in Hw.
  destruct Hw as [_ Hm]. apply memb_In. exact Hm.
Qed.

Lemma qsum_indicator : forall x vs, NoDup vs ->
  qsum (map (fun v => if Nat.eqb v x then 1 else 0) vs) == if memb x vs then 1 else 0.
Proof.
  intros x vs Hnd. induction Hnd as [|a vs Ha Hnd IH]; [reflexivity|].
  cbn [map]. rewrite qsum_cons, IH. unfold memb. cbn [existsb]. fold (memb x vs).
  rewrite (Nat.eqb_sym x a). destruct (Nat.eqb_spec a x) as [->|E]; cbn [orb].
  - apply memb_false in Ha. rewrite Ha. lra.
  - destruct (memb x vs); lra.
Qed.

Lemma qsum_count : forall vs l, NoDup vs -> (forall x, In x l -> In x vs) ->
  qsum (map (fun v => qn (length (filter (Nat.eqb v) l))) vs) == qn (length l).
Proof.
  intros vs l Hnd. induction l as [|x l IH]; intros Hin.
  - cbn [filter length]. rewrite qsum_map_const. rewrite qn_0. lra.
  - rewrite (qsum_map_ext_eq _ _
       (fun v => (if Nat.eqb v x then 1 else 0) + qn (length (filter (Nat.eqb v) l)))).
    + rewrite qsum_map_plus, (qsum_indicator x vs Hnd), IH.
      * rewrite (proj2 (memb_In x vs) (Hin x (or_introl eq_refl))). cbn [length]. rewrite qn_S.
        reflexivity.
      * intros y Hy. apply Hin. right. exact Hy.
    + intros v _. cbn [filter]. destruct (Nat.eqb v x).
      * cbn [length]. rewrite qn_S. reflexivity.
      * lra.
Qed.

Definition inc_over (g : graph) (us : list nat) (v : nat) : list nat :=
  flat_map (fun u => map (fun _ => u) (filter (Nat.eqb v) (in_set_nbrs g u))) us.

Lemma incoming_inc_over : forall g v, incoming g v = inc_over g (nodes g) v.
Proof. reflexivity. Qed.

Lemma qsum_inc_cons : forall g f u us v,
  qsum (map f (inc_over g (u :: us) v))
  == f u * qn (length (filter (Nat.eqb v) (in_set_nbrs g u))) + qsum (map f (inc_over g us v)).
Proof.
  intros g f u us v. unfold inc_over. cbn [flat_map].
  rewrite map_app, qsum_app, map_map, qsum_map_const. ring.
Qed.

Lemma exchange_over : forall g (f : nat -> Q) us, NoDup (nodes g) ->
  qsum (map (fun v => qsum (map f (inc_over g us v))) (nodes g))
  == qsum (map (fun u => qn (out_count g u) * f u) us).
Proof.
  intros g f us Hnd. induction us as [|u us IH].
  - cbn [inc_over flat_map map]. change (qsum []) with 0.
    rewrite qsum_map_const. lra.
  - rewrite (qsum_map_ext_eq _ _
      (fun v => f u * qn (length (filter (Nat.eqb v) (in_set_nbrs g u)))
                + qsum (map f (inc_over g us v)))).
    + rewrite qsum_map_plus, qsum_map_scale, IH.
      rewrite qsum_count.
      * cbn [map]. rewrite qsum_cons. unfold out_count. ring.
      * exact Hnd.
      * intros x Hx. apply (in_set_nbrs_In g u). exact Hx.
    + intros v _. apply qsum_inc_cons.
Qed.

Lemma exchange : forall g (f : nat -> Q), NoDup (nodes g) ->
  qsum (map (fun v => qsum (map f (incoming g v))) (nodes g))
  == qsum (map (fun u => qn (out_count g u) * f u) (nodes g)).
Proof.
  intros g f Hnd. apply (exchange_over g f (nodes g) Hnd).
Qed.

Lemma In_incoming : forall g v u, In u (incoming g v) -> In u (nodes g).
Proof.
  intros g v u Hu. unfold incoming in Hu. apply in_flat_map in Hu.
  destruct Hu as [w [Hw Hm]]. apply in_map_iff in Hm. destruct Hm as [y [Hy _]].
  subst u. exact Hw.
Qed.

Lemma split_dangling : forall g (h : nat -> Q) (l : list nat),
  qsum (map (fun u => qn (out_count g u) * (h u / qn (out_count g u))) l)
  + qsum (map h (filter (fun v => (out_count g v =? 0)%nat) l))
  == qsum (map h l).
Proof.
  intros g h l. induction l as [|a l IH].
  - reflexivity.
  - cbn [map filter]. destruct (out_count g a =? 0)%nat eqn:E.
    + apply Nat.eqb_eq in E. cbn [map]. rewrite !qsum_cons. rewrite <- IH.
      rewrite E. rewrite qn_0. unfold Qdiv. ring.
    + apply Nat.eqb_neq in E. rewrite !qsum_cons. rewrite <- IH.
      pose proof (qn_pos _ E) as Hp. field. lra.
Qed.
