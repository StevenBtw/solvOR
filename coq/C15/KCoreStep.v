(* The peeling invariant and its preservation by one pop (KCore.pop_step). *)
From Coq Require Import List Arith Bool Lia.
From SV Require Import C15.Graph C15.GraphLemmas C15.KCore C15.KCoreSpec C15.KCoreLemmas.
Import ListNotations.

(* remaining nodes (no core number yet) and the degree of v among them *)
Definition remL (g : graph) (c : list (nat * nat)) : list nat :=
  filter (fun v => negb (has_core c v)) (nodes g).
Definition degR (g : graph) (c : list (nat * nat)) (v : nat) : nat := deg_in g (remL g c) v.

Lemma has_core_false : forall c w, has_core c w = false <-> aget c w = None.
Proof. intros c w. unfold has_core. destruct (aget c w); split; congruence. Qed.

Lemma remL_In : forall g c v, In v (remL g c) <-> In v (nodes g) /\ aget c v = None.
Proof.
  intros g c v. unfold remL. rewrite filter_In, negb_true_iff, has_core_false. tauto.
Qed.

(* The state while bucket k is drained.  i_keys, i_nodup: core is a partial map on the nodes.  i_inb, i_bkt,
   i_bnd: the buckets index the remaining nodes by stored degree.  i_deg, i_max: the stored degree is
   max(k, degree among the remaining nodes), at most max_degree.  i_up: every subgraph of minimum degree
   j > k lies inside the remaining nodes; i_low: the remaining nodes lie in one of minimum degree >= k;
   i_ok: the core numbers assigned so far are right and at most k. *)
Record Inv (g : graph) (k : nat) (s : kst) : Prop := {
  i_keys : forall v c, aget (core s) v = Some c -> In v (nodes g);
  i_nodup : NoDup (map fst (core s));
  i_inb : forall v, In v (nodes g) -> aget (core s) v = None -> In v (bkt s (deg s v));
  i_bkt : forall d v, In v (bkt s d) -> In v (nodes g) /\ aget (core s) v = None /\ deg s v = d;
  i_bnd : forall d, NoDup (bkt s d);
  i_deg : forall v, In v (nodes g) -> aget (core s) v = None ->
                    deg s v = Nat.max k (degR g (core s) v);
  i_max : forall v, In v (nodes g) -> deg s v <= max_degree g;
  i_up : forall S j, min_deg_ge g j S -> k < j -> forall v, In v S -> aget (core s) v = None;
  i_low : exists T, (forall v, In v (nodes g) -> aget (core s) v = None -> In v T) /\ min_deg_ge g k T;
  i_ok : forall v c, aget (core s) v = Some c -> core_number g v c /\ c <= k
}.

Lemma deg_in_mono : forall g S S' v, (forall w, In w S -> In w S') -> deg_in g S v <= deg_in g S' v.
Proof.
  intros g S S' v H. unfold deg_in. apply filter_length_mono.
  intros w _ Hw. apply memb_In. apply H. now apply memb_In.
Qed.

Lemma Inv_Bkts : forall g k s, Inv g k s -> Bkts (fun v => In v (remL g (core s))) (deg s) (bkt s).
Proof.
  intros g k s HI. constructor.
  - intros v Hv. apply remL_In in Hv. now apply (i_inb g k s HI).
  - intros d v Hv. destruct (i_bkt g k s HI d v Hv) as (H1 & H2 & H3).
    split; [apply remL_In; auto | exact H3].
  - apply (i_bnd g k s HI).
Qed.

Section Fold.
  Variable g : graph.
  Variable k : nat.
  Variable c1 : list (nat * nat).
  Variable degR0 : nat -> nat.

  (* state of the loop `for w in adj[v]` after the neighbours in P have been handled *)
  Record J (P : list nat) (s : kst) : Prop := {
    j_core : core s = c1;
    j_bkts : Bkts (fun w => In w (remL g c1)) (deg s) (bkt s);
    j_deg : forall w, In w (nodes g) -> aget c1 w = None ->
                      deg s w = Nat.max k (degR0 w - (if memb w P then 1 else 0));
    j_max : forall w, In w (nodes g) -> deg s w <= max_degree g
  }.

  Lemma relax_J : forall P s w, J P s -> In w (nodes g) -> ~ In w P -> J (P ++ [w]) (relax k s w).
  Proof.
    intros P s w HJ Hw HnP. destruct HJ as [Hc Hbkts Hdeg Hmax].
    unfold relax. rewrite Hc.
    destruct (has_core c1 w) eqn:Ehc.
    { (* w already has a core number: nothing changes, and no remaining node is w *)
      constructor; auto.
      intros u Hu Hn. rewrite memb_app_single.
      destruct (Nat.eqb_spec u w) as [->|Hne].
      - apply has_core_false in Hn. congruence.
      - rewrite orb_false_r. now apply Hdeg. }
    apply has_core_false in Ehc.
    assert (HwP : memb w P = false) by now apply memb_false.
    assert (Hdw : deg s w = Nat.max k (degR0 w)).
    { rewrite (Hdeg w Hw Ehc), HwP. f_equal. lia. }
    destruct (k <? deg s w) eqn:Elt.
    - apply Nat.ltb_lt in Elt.
      replace (Nat.max k (deg s w - 1)) with (deg s w - 1) by lia.
      constructor; simpl.
      + reflexivity.
      + apply Bkts_move; [exact Hbkts | apply remL_In; auto].
      + intros u Hu Hn. rewrite memb_app_single.
        destruct (Nat.eqb_spec u w) as [->|Hne].
        * rewrite upd_same, orb_true_r. lia.
        * rewrite upd_other by exact Hne. rewrite orb_false_r. now apply Hdeg.
      + intros u Hu. destruct (Nat.eqb_spec u w) as [->|Hne].
        * rewrite upd_same. specialize (Hmax w Hu). lia.
        * rewrite upd_other by exact Hne. now apply Hmax.
    - apply Nat.ltb_ge in Elt.
      constructor; auto.
      intros u Hu Hn. rewrite memb_app_single.
      destruct (Nat.eqb_spec u w) as [->|Hne].
      + rewrite orb_true_r. lia.
      + rewrite orb_false_r. now apply Hdeg.
  Qed.

  Lemma fold_J : forall ws P s, NoDup (P ++ ws) -> (forall w, In w ws -> In w (nodes g)) ->
    J P s -> J (P ++ ws) (fold_left (relax k) ws s).
  Proof.
    induction ws as [|w ws IH]; intros P s Hn Hin HJ; simpl.
    - now rewrite app_nil_r.
    - replace (P ++ w :: ws) with ((P ++ [w]) ++ ws) in * by (rewrite <- app_assoc; reflexivity).
      apply IH; [exact Hn | intros u Hu; apply Hin; now right |].
      apply relax_J; [exact HJ | apply Hin; now left |].
      intros HP. rewrite <- app_assoc in Hn. simpl in Hn.
      apply NoDup_remove_2 in Hn. apply Hn. apply in_or_app. now left.
  Qed.
End Fold.

Lemma has_core_snoc : forall c v k x, has_core (c ++ [(v, k)]) x = has_core c x || (v =? x).
Proof.
  intros c v k x. unfold has_core. rewrite aget_snoc.
  destruct (aget c x); [reflexivity | now destruct (v =? x)].
Qed.

Lemma remL_snoc : forall g c v k,
  remL g (c ++ [(v, k)]) = filter (fun x => negb (has_core c x) && negb (x =? v)) (nodes g).
Proof.
  intros g c v k. unfold remL. apply filter_ext. intros x.
  now rewrite has_core_snoc, negb_orb, (Nat.eqb_sym v x).
Qed.

Lemma degR_after : forall g c v k w, NoDup (nodes g) -> In v (nodes g) -> aget c v = None ->
  degR g (c ++ [(v, k)]) w = degR g c w - (if memb w (sadj g v) then 1 else 0).
Proof.
  intros g c v k w Hnd Hv Hcv. unfold degR, deg_in.
  rewrite (filter_ext _ (fun x => memb x (remL g c) && negb (x =? v))).
  - rewrite filter_length_remove1 by now apply sadj_NoDup.
    assert (Hm : memb v (remL g c) = true) by (apply memb_In, remL_In; auto).
    rewrite Hm, andb_true_r.
    replace (memb v (sadj g w)) with (memb w (sadj g v)); [reflexivity|].
    apply eq_iff_eq_true. rewrite !memb_In. apply sadj_sym.
  - intros x. rewrite remL_snoc. unfold remL. rewrite !memb_filter. now rewrite andb_assoc.
Qed.

Lemma remL_length_pop : forall g c v k, NoDup (nodes g) -> In v (nodes g) -> aget c v = None ->
  S (length (remL g (c ++ [(v, k)]))) = length (remL g c).
Proof.
  intros g c v k Hnd Hv Hc. rewrite remL_snoc, filter_length_remove1 by exact Hnd.
  assert (Hin : In v (remL g c)) by (apply remL_In; auto).
  apply memb_In in Hv. apply has_core_false in Hc. rewrite Hv, Hc. simpl. fold (remL g c).
  destruct (remL g c); [destruct Hin | simpl; lia].
Qed.

Lemma aget_snoc_some : forall c v (k : nat) u x,
  aget (c ++ [(v, k)]) u = Some x -> aget c u = Some x \/ u = v /\ x = k.
Proof.
  intros c v k u x. rewrite aget_snoc. destruct (aget c u); [now left|].
  destruct (Nat.eqb_spec v u) as [->|Hne]; [|discriminate]. intros [= <-]. now right.
Qed.

Lemma aget_snoc_none : forall c v (k : nat) u,
  aget (c ++ [(v, k)]) u = None <-> u <> v /\ aget c u = None.
Proof.
  intros c v k u. rewrite aget_snoc. destruct (aget c u); [intuition discriminate|].
  destruct (Nat.eqb_spec v u); intuition congruence.
Qed.

(* a subgraph of minimum degree > k is made of remaining nodes only, so degR bounds degrees in it *)
Lemma low_degR_not_above : forall g c k v,
  (forall S j, min_deg_ge g j S -> k < j -> forall u, In u S -> aget c u = None) ->
  degR g c v <= k -> forall S j, min_deg_ge g j S -> In v S -> j <= k.
Proof.
  intros g c k v Hup Hdegv S j HS HvS. destruct (le_lt_dec j k) as [Hle|Hlt]; [exact Hle|].
  destruct (HS v HvS) as [_ Hd].
  assert (deg_in g S v <= degR g c v).
  { apply deg_in_mono. intros w Hw. apply remL_In.
    split; [now destruct (HS w Hw) | now apply (Hup S j HS Hlt)]. }
  lia.
Qed.

Lemma pop_step_Inv : forall pick g k s, NoDup (nodes g) -> Inv g k s -> bkt s k <> [] ->
  Inv g k (pop_step pick g k s) /\
  S (length (remL g (core (pop_step pick g k s)))) = length (remL g (core s)).
Proof.
  intros pick g k s Hnd HI Hb. unfold pop_step.
  set (b := bkt s k) in *.
  set (v := nth (pick b mod length b) b 0).
  assert (Hvb : In v b) by (apply nth_mod_In; exact Hb).
  pose proof (Inv_Bkts g k s HI) as HB.
  destruct HI as [Hkeys Hnodup _ Hbkt _ Hdeg Hmax Hup Hlow Hok].
  destruct (Hbkt k v Hvb) as (Hv & Hcv & Hdv).
  set (s1 := {| deg := deg s; bkt := upd (bkt s) k (remove_nat v b); core := core s ++ [(v, k)] |}).
  assert (HJ0 : J g k (core s ++ [(v, k)]) (degR g (core s)) [] s1).
  { constructor; simpl.
    - reflexivity.
    - apply (Bkts_ext (fun w => In w (remL g (core s)) /\ w <> v)).
      + intros w. rewrite !remL_In, aget_snoc_none. tauto.
      + apply Bkts_remove; [exact HB | exact Hdv].
    - intros w Hw Hn. apply aget_snoc_none in Hn. destruct Hn as [_ Hn'].
      rewrite (Hdeg w Hw Hn'). f_equal. lia.
    - exact Hmax. }
  assert (HJ := fold_J g k _ (degR g (core s)) (sadj g v) [] s1
                  (sadj_NoDup g v Hnd) (fun w Hw => proj1 (sadj_nodes g v w Hw)) HJ0).
  simpl in HJ. revert HJ. generalize (fold_left (relax k) (sadj g v) s1).
  intros s2 [Jc Jb Jdeg Jmax].
  assert (Hnov : forall S j, min_deg_ge g j S -> In v S -> j <= k).
  { apply (low_degR_not_above g (core s)); [exact Hup|]. specialize (Hdeg v Hv Hcv). lia. }
  destruct Hlow as [T [HT1 HT2]].
  split.
  - constructor; rewrite ?Jc.
    + intros u c Hu. destruct (aget_snoc_some _ _ _ _ _ Hu) as [Hu'|[-> _]]; [|exact Hv].
      eapply Hkeys; eauto.
    + rewrite map_app. simpl.
      apply NoDup_app_single; [exact Hnodup|]. now apply aget_none_notin.
    + intros u Hu Hn. apply (b_in _ _ _ Jb). apply remL_In. auto.
    + intros d u Hin. destruct (b_mem _ _ _ Jb d u Hin) as [Hr Hd]. apply remL_In in Hr. tauto.
    + exact (b_nd _ _ _ Jb).
    + intros w Hw Hn. rewrite (Jdeg w Hw Hn). f_equal.
      rewrite (degR_after g (core s) v k w Hnd Hv Hcv). reflexivity.
    + exact Jmax.
    + intros S j HS Hj u Hu. apply aget_snoc_none. split; [|now apply (Hup S j HS Hj)].
      intros ->. specialize (Hnov S j HS Hu). lia.
    + exists T. split; [|exact HT2].
      intros u Hu Hn. apply aget_snoc_none in Hn. now apply HT1.
    + intros u c Hu. destruct (aget_snoc_some _ _ _ _ _ Hu) as [Hu'|[-> ->]]; [now apply Hok|].
      split; [|lia]. split.
      * exists T. split; [now apply HT1 | exact HT2].
      * intros S j HvS HS. now apply (Hnov S j).
  - rewrite Jc. now apply remL_length_pop.
Qed.
