(* Proofs about the model C15/Louvain.v (local moving phase of solvor/community.py: louvain), for all
   graphs and all oracle move sequences accepted by the model: node_to_comm / comm_nodes / comm_degree
   stay mutually consistent (lv_consistent), the returned communities partition the node set, the
   returned objective is the modularity formula of that partition, and the boolean checkers applied to
   the implementation's answers are sound. *)
From Coq Require Import List Arith Bool ZArith QArith Qabs Lia Permutation.
From SV Require Import C15.Graph C15.GraphLemmas C15.Louvain.
Import ListNotations.
Close Scope Q_scope.
Local Open Scope nat_scope.

Lemma comm_deg_cons : forall g a r, comm_deg g (a :: r) = (ldeg g a + comm_deg g r)%Z.
Proof. reflexivity. Qed.

Lemma comm_deg_snoc : forall g a v, comm_deg g (a ++ [v]) = (comm_deg g a + ldeg g v)%Z.
Proof.
  intros g a v. induction a as [|x r IH]; simpl app; rewrite !comm_deg_cons.
  - change (comm_deg g []) with 0%Z. lia.
  - rewrite IH. lia.
Qed.

Lemma comm_deg_remove : forall g v l, NoDup l -> In v l ->
  comm_deg g (remove_nat v l) = (comm_deg g l - ldeg g v)%Z.
Proof.
  intros g v l Hnd. induction Hnd as [|a r Hnot Hnd IH]; intros Hin.
  - contradiction.
  - simpl remove_nat. destruct (Nat.eqb_spec v a) as [E|E].
    + subst a. rewrite remove_nat_notin by exact Hnot. rewrite comm_deg_cons. lia.
    + rewrite !comm_deg_cons. rewrite IH; [lia|]. destruct Hin as [H|H]; [congruence | exact H].
Qed.

Lemma enum_keys_swap : forall ns i,
  map fst (map (fun p : nat * nat => (snd p, fst p)) (enumerate_from i ns)) = ns.
Proof.
  induction ns as [|x r IH]; intros i; simpl.
  - reflexivity.
  - f_equal. apply IH.
Qed.

Lemma enum_keys : forall {A B} (f : A -> B) ns i,
  map fst (map (fun p : nat * A => (fst p, f (snd p))) (enumerate_from i ns))
  = seq i (length ns).
Proof.
  intros A B f. induction ns as [|x r IH]; intros i; simpl.
  - reflexivity.
  - f_equal. apply IH.
Qed.

(* the three initial dictionaries, read along the enumeration from any start index *)
Lemma enum_n2c : forall ns i v c,
  aget (map (fun p : nat * nat => (snd p, fst p)) (enumerate_from i ns)) v = Some c ->
  i <= c < i + length ns /\
  aget (map (fun p : nat * nat => (fst p, [snd p])) (enumerate_from i ns)) c = Some [v].
Proof.
  induction ns as [|x r IH]; intros i v c H; simpl in H |- *; [discriminate H|].
  destruct (Nat.eqb_spec x v) as [->|E].
  - injection H as <-. rewrite Nat.eqb_refl. split; [lia | reflexivity].
  - destruct (IH (S i) v c H) as [Hc Ha]. split; [lia|].
    destruct (Nat.eqb_spec i c); [lia | exact Ha].
Qed.

Lemma enum_cnodes : forall ns i c l, NoDup ns ->
  aget (map (fun p : nat * nat => (fst p, [snd p])) (enumerate_from i ns)) c = Some l ->
  exists v, l = [v] /\ In v ns /\
    aget (map (fun p : nat * nat => (snd p, fst p)) (enumerate_from i ns)) v = Some c.
Proof.
  induction ns as [|x r IH]; intros i c l Hnd H; simpl in H |- *; [discriminate H|].
  inversion Hnd as [|x' r' Hnot Hnd']; subst.
  destruct (Nat.eqb_spec i c) as [->|E].
  - injection H as <-. exists x. rewrite Nat.eqb_refl. auto.
  - destruct (IH (S i) c l Hnd' H) as (v & Hl & Hin & Ha). exists v.
    destruct (Nat.eqb_spec x v) as [->|]; [contradiction | auto].
Qed.

Lemma enum_cdeg : forall g ns i c,
  aget (map (fun p : nat * nat => (fst p, ldeg g (snd p))) (enumerate_from i ns)) c
  = option_map (comm_deg g) (aget (map (fun p : nat * nat => (fst p, [snd p])) (enumerate_from i ns)) c).
Proof.
  intros g. induction ns as [|x r IH]; intros i c; simpl; [reflexivity|].
  destruct (i =? c); [|apply IH]. simpl. rewrite comm_deg_cons. change (comm_deg g []) with 0%Z.
  f_equal. lia.
Qed.

Lemma map_fst_aset_seq : forall {A} (l : list (nat * A)) n k x,
  map fst l = seq 0 n -> k < n -> map fst (aset l k x) = seq 0 n.
Proof. intros A l n k x H Hk. rewrite map_fst_aset; [exact H|]. rewrite H. apply in_seq. lia. Qed.

(* lc_kn, lc_kc, lc_kd: the key lists of node_to_comm, comm_nodes, comm_degree are the node list and the
   community ids 0..n-1.  lc_n: a node lies in the member list of its community; lc_c: member lists are
   duplicate-free and their members point back to the community; lc_d: comm_degree holds the degree sum
   of the member list. *)
Record lv_consistent (g : graph) (s : lst) : Prop := {
  lc_kn : map fst (n2c s) = nodes g;
  lc_kc : map fst (cnodes s) = seq 0 (length (nodes g));
  lc_kd : map fst (cdeg s) = seq 0 (length (nodes g));
  lc_n : forall v c, aget (n2c s) v = Some c ->
         c < length (nodes g) /\ In v (agetd [] (cnodes s) c);
  lc_c : forall c l, aget (cnodes s) c = Some l ->
         NoDup l /\ forall v, In v l -> In v (nodes g) /\ aget (n2c s) v = Some c;
  lc_d : forall c, c < length (nodes g) ->
         aget (cdeg s) c = Some (comm_deg g (agetd [] (cnodes s) c))
}.

Lemma linit_consistent : forall g, valid_graph g = true -> lv_consistent g (linit g).
Proof.
  intros g Hv. unfold valid_graph in Hv. apply nodup_b_NoDup in Hv.
  unfold linit. constructor; cbn [n2c cnodes cdeg].
  - apply enum_keys_swap.
  - apply (enum_keys (fun x : nat => [x])).
  - apply (enum_keys (ldeg g)).
  - intros v c H. destruct (enum_n2c _ 0 v c H) as [Hc Ha]. split; [lia|].
    unfold agetd. rewrite Ha. now left.
  - intros c l H. destruct (enum_cnodes _ 0 c l Hv H) as (v & -> & Hin & Ha). split.
    + constructor; [intros [] | constructor].
    + intros u [<-|[]]. auto.
  - intros c Hc. rewrite enum_cdeg. unfold agetd.
    destruct (aget_keys (map (fun p : nat * nat => (fst p, [snd p])) (enumerate_from 0 (nodes g))) c)
      as [l Hl]; [rewrite (enum_keys (fun x : nat => [x])); apply in_seq; lia|].
    rewrite Hl. reflexivity.
Qed.

Lemma lc_members : forall g s, lv_consistent g s -> forall c,
  NoDup (agetd [] (cnodes s) c) /\
  forall v, In v (agetd [] (cnodes s) c) -> In v (nodes g) /\ aget (n2c s) v = Some c.
Proof.
  intros g s HC c. unfold agetd. destruct (aget (cnodes s) c) as [l|] eqn:E.
  - apply (lc_c g s HC c l E).
  - split; [constructor | intros v []].
Qed.

Lemma node_comm : forall g s v, lv_consistent g s -> In v (nodes g) ->
  aget (n2c s) v = Some (comm_of s v).
Proof.
  intros g s v HC Hv. rewrite <- (lc_kn g s HC) in Hv.
  destruct (aget_keys _ _ Hv) as [c Hc]. unfold comm_of, agetd. rewrite Hc. reflexivity.
Qed.

Lemma admissible_lt : forall g s v t, lv_consistent g s -> In v (nodes g) ->
  admissible g s v t = true -> t < length (nodes g).
Proof.
  intros g s v t HC Hv H. unfold admissible in H. apply orb_true_iff in H.
  destruct H as [H|H].
  - apply Nat.eqb_eq in H. subst t.
    apply (lc_n g s HC v _ (node_comm g s v HC Hv)).
  - apply existsb_exists in H. destruct H as [w [Hw He]]. apply Nat.eqb_eq in He. subst t.
    unfold sadj in Hw. apply filter_In in Hw. destruct Hw as [Hw _].
    apply (lc_n g s HC w _ (node_comm g s w HC Hw)).
Qed.

Lemma visit_update_consistent : forall g s v t, lv_consistent g s -> In v (nodes g) ->
  t < length (nodes g) ->
  let cur := comm_of s v in
  let cn1 := aset (cnodes s) cur (remove_nat v (agetd [] (cnodes s) cur)) in
  let cd1 := aset (cdeg s) cur (agetd 0%Z (cdeg s) cur - ldeg g v)%Z in
  let cn2 := aset cn1 t (agetd [] cn1 t ++ [v]) in
  let cd2 := aset cd1 t (agetd 0%Z cd1 t + ldeg g v)%Z in
  lv_consistent g {| n2c := aset (n2c s) v t; cnodes := cn2; cdeg := cd2 |}.
Proof.
  intros g s v t HC Hv Ht cur cn1 cd1 cn2 cd2.
  pose proof (node_comm g s v HC Hv) as Hcur. fold cur in Hcur.
  destruct (lc_n g s HC v cur Hcur) as [Hcurlt HvL].
  pose proof (lc_members g s HC) as HM.
  (* v lies in its own community only, so the update is: remove v from every member list, then append it
     to the list of t *)
  assert (HV : forall c, c <> cur -> remove_nat v (agetd [] (cnodes s) c) = agetd [] (cnodes s) c).
  { intros c Hc. apply remove_nat_notin. intros Hin. apply HM in Hin. destruct Hin as [_ Hin]. congruence. }
  assert (HU : forall c, agetd [] cn2 c =
            if t =? c then remove_nat v (agetd [] (cnodes s) c) ++ [v]
            else remove_nat v (agetd [] (cnodes s) c)).
  { intros c. unfold cn2, cn1. rewrite !agetd_aset. destruct (Nat.eqb_spec t c) as [<-|Htc].
    - destruct (Nat.eqb_spec cur t) as [E|E]; [rewrite E | rewrite (HV t) by auto]; reflexivity.
    - destruct (Nat.eqb_spec cur c) as [E|E]; [rewrite E | rewrite (HV c) by auto]; reflexivity. }
  assert (Hmem : forall u c, In u (agetd [] cn2 c) <->
                 (t = c /\ u = v) \/ (In u (agetd [] (cnodes s) c) /\ u <> v)).
  { intros u c. rewrite HU. destruct (Nat.eqb_spec t c) as [E|E].
    - rewrite in_app_iff, remove_nat_In. simpl. split.
      + intros [H|[<-|[]]]; auto.
      + intros [[_ ->]|H]; auto.
    - rewrite remove_nat_In. split; [auto | intros [[H _]|H]; [contradiction | exact H]]. }
  constructor; cbn [n2c cnodes cdeg].
  - rewrite map_fst_aset; [apply (lc_kn g s HC)|]. rewrite (lc_kn g s HC). exact Hv.
  - apply map_fst_aset_seq; [apply map_fst_aset_seq; [apply (lc_kc g s HC) | exact Hcurlt] | exact Ht].
  - apply map_fst_aset_seq; [apply map_fst_aset_seq; [apply (lc_kd g s HC) | exact Hcurlt] | exact Ht].
  - intros u c Hu. rewrite aget_aset in Hu. rewrite Hmem.
    destruct (Nat.eqb_spec v u) as [<-|E].
    + injection Hu as <-. auto.
    + destruct (lc_n g s HC u c Hu) as [Hc Hin]. auto.
  - intros c l Hl. assert (El : l = agetd [] cn2 c) by (unfold agetd; now rewrite Hl). subst l. split.
    + rewrite HU. assert (Hr : NoDup (remove_nat v (agetd [] (cnodes s) c))) by apply remove_nat_NoDup, HM.
      destruct (t =? c); [|exact Hr]. apply NoDup_app_single; [exact Hr|]. rewrite remove_nat_In. tauto.
    + intros u Hu. apply Hmem in Hu. rewrite aget_aset. destruct Hu as [[<- ->]|[Hu Hne]].
      * rewrite Nat.eqb_refl. auto.
      * apply not_eq_sym, Nat.eqb_neq in Hne. rewrite Hne. apply HM. exact Hu.
  - intros c Hc. rewrite HU. unfold cd2, cd1. rewrite aget_aset, agetd_aset, aget_aset.
    assert (HR : forall k, k < length (nodes g) ->
                 comm_deg g (remove_nat v (agetd [] (cnodes s) k))
                 = if cur =? k then (agetd 0 (cdeg s) cur - ldeg g v)%Z else agetd 0%Z (cdeg s) k).
    { intros k Hk. unfold agetd at 2 3. destruct (Nat.eqb_spec cur k) as [<-|E].
      - rewrite (lc_d g s HC cur Hk). apply comm_deg_remove; [apply HM | exact HvL].
      - rewrite (lc_d g s HC k Hk), (HV k) by auto. reflexivity. }
    destruct (Nat.eqb_spec t c) as [<-|E1].
    + rewrite comm_deg_snoc, (HR t Ht). reflexivity.
    + rewrite (HR c Hc). destruct (cur =? c); [reflexivity|]. unfold agetd. rewrite (lc_d g s HC c Hc). reflexivity.
Qed.

Theorem visit_consistent : forall g s v t s' moved, lv_consistent g s -> In v (nodes g) ->
  visit g s v t = Some (s', moved) -> lv_consistent g s'.
Proof.
  intros g s v t s' moved HC Hv H. unfold visit in H.
  destruct (admissible g s v t) eqn:Hadm; [|discriminate H].
  pose proof (admissible_lt g s v t HC Hv Hadm) as Ht.
  inversion H; subst s' moved. apply visit_update_consistent; assumption.
Qed.
Print Assumptions visit_consistent.

Lemma sweep_consistent : forall g vs ch s imp s' imp',
  (forall v, In v vs -> In v (nodes g)) -> lv_consistent g s ->
  sweep g vs ch s imp = Some (s', imp') -> lv_consistent g s'.
Proof.
  intros g vs. induction vs as [|v vs' IH]; intros ch s imp s' imp' Hvs HC H.
  - destruct ch as [|t ch']; simpl in H; [|discriminate H]. inversion H; subst. exact HC.
  - destruct ch as [|t ch']; simpl in H; [discriminate H|].
    destruct (visit g s v t) as [[s1 moved]|] eqn:Hvis; [|discriminate H].
    apply (IH ch' s1 (imp || moved)%bool s' imp').
    + intros u Hu. apply Hvs. right. exact Hu.
    + apply (visit_consistent g s v t s1 moved HC); [|exact Hvis]. apply Hvs. left. reflexivity.
    + exact H.
Qed.

Theorem sweeps_consistent : forall g passes s it s' it', lv_consistent g s ->
  sweeps g passes s it = Some (s', it') -> lv_consistent g s'.
Proof.
  intros g passes. induction passes as [|p rest IH]; intros s it s' it' HC H; simpl in H.
  - discriminate H.
  - destruct (sweep g (nodes g) p s false) as [[s1 improved]|] eqn:Hsw; [|discriminate H].
    assert (HC1 : lv_consistent g s1).
    { apply (sweep_consistent g (nodes g) p s false s1 improved); auto. }
    destruct improved.
    + apply (IH s1 (S it) s' it' HC1 H).
    + destruct rest; [|discriminate H]. inversion H; subst. exact HC1.
Qed.
Print Assumptions sweeps_consistent.

Lemma sweeps_iterations : forall g passes s it s' it',
  sweeps g passes s it = Some (s', it') -> it' = it + length passes.
Proof.
  intros g passes. induction passes as [|p rest IH]; intros s it s' it' H; simpl in H.
  - discriminate H.
  - destruct (sweep g (nodes g) p s false) as [[s1 improved]|]; [|discriminate H].
    destruct improved.
    + apply IH in H. simpl. lia.
    + destruct rest; [|discriminate H]. inversion H; subst. simpl. lia.
Qed.

Definition nonempty_b (c : list nat) : bool := match c with [] => false | _ => true end.

Lemma concat_filter_nonempty : forall ls : list (list nat),
  concat (filter nonempty_b ls) = concat ls.
Proof.
  induction ls as [|[|x r] ls' IH]; simpl.
  - reflexivity.
  - exact IH.
  - rewrite IH. reflexivity.
Qed.

Lemma In_concat_snd : forall (cn : list (nat * list nat)) u,
  In u (concat (map snd cn)) <-> exists c l, In (c, l) cn /\ In u l.
Proof.
  intros cn u. rewrite in_concat. split.
  - intros [l [Hl Hu]]. apply in_map_iff in Hl. destruct Hl as [[c l'] [E Hin]]. simpl in E. subst l'.
    exists c, l. split; assumption.
  - intros [c [l [Hin Hu]]]. exists l. split; [|exact Hu].
    change l with (snd (c, l)). apply in_map. exact Hin.
Qed.

Lemma NoDup_concat_assoc : forall (m : list (nat * nat)) (cn : list (nat * list nat)),
  NoDup (map fst cn) ->
  (forall c l, In (c, l) cn -> NoDup l /\ forall u, In u l -> aget m u = Some c) ->
  NoDup (concat (map snd cn)).
Proof.
  intros m cn. induction cn as [|[c l] r IH]; intros Hk HP; simpl.
  - constructor.
  - inversion Hk as [|c' r' Hnot Hk']; subst. apply NoDup_app_intro.
    + apply (HP c l). left. reflexivity.
    + apply IH; [exact Hk'|]. intros c2 l2 Hin. apply HP. right. exact Hin.
    + intros u Hu Hu2. apply In_concat_snd in Hu2. destruct Hu2 as [c2 [l2 [Hin2 Hu2]]].
      assert (E1 : aget m u = Some c). { apply (HP c l); [left; reflexivity | exact Hu]. }
      assert (E2 : aget m u = Some c2). { apply (HP c2 l2); [right; exact Hin2 | exact Hu2]. }
      assert (c = c2) by congruence. subst c2. apply Hnot.
      change c with (fst (c, l2)). apply in_map. exact Hin2.
Qed.

Lemma consistent_partition : forall g s, NoDup (nodes g) -> lv_consistent g s ->
  Permutation (concat (filter nonempty_b (map snd (cnodes s)))) (nodes g).
Proof.
  intros g s Hnd HC. rewrite concat_filter_nonempty.
  assert (Hk : NoDup (map fst (cnodes s))). { rewrite (lc_kc g s HC). apply seq_NoDup. }
  apply NoDup_Permutation.
  - apply (NoDup_concat_assoc (n2c s)); [exact Hk|].
    intros c l Hin. apply (In_pair_aget _ _ _ Hk) in Hin.
    destruct (lc_c g s HC c l Hin) as [H1 H2]. split; [exact H1|]. intros u Hu. apply H2. exact Hu.
  - exact Hnd.
  - intros u. rewrite In_concat_snd. split.
    + intros [c [l [Hin Hu]]]. apply (In_pair_aget _ _ _ Hk) in Hin.
      apply (lc_c g s HC c l Hin). exact Hu.
    + intros Hu. pose proof (node_comm g s u HC Hu) as Hc.
      destruct (lc_n g s HC u _ Hc) as [_ Hin]. unfold agetd in Hin.
      destruct (aget (cnodes s) (comm_of s u)) as [l|] eqn:E; [|destruct Hin].
      exists (comm_of s u), l. split; [apply aget_In_pair; exact E | exact Hin].
Qed.

Lemma concat_singletons : forall l : list nat, concat (map (fun v => [v]) l) = l.
Proof.
  induction l as [|x r IH]; simpl; [reflexivity | f_equal; exact IH].
Qed.

(* the early returns (at most one node, or no edge) all give singleton communities, objective 0 and no
   iteration; otherwise the result is read off the state after the sweeps *)
Lemma louvain_inv : forall g res passes r, louvain g res passes = Some r ->
  ((length (nodes g) <= 1 \/ (total_weight g == 0)%Q) /\
   l_comms r = map (fun v => [v]) (nodes g) /\ l_objective r = 0%Q /\ l_iterations r = 0) \/
  (2 <= length (nodes g) /\ ~ (total_weight g == 0)%Q /\
   exists s it, sweeps g passes (linit g) 0 = Some (s, it) /\
     l_comms r = filter nonempty_b (map snd (cnodes s)) /\
     l_objective r = Qred (modularity g res (l_comms r)) /\ l_iterations r = it).
Proof.
  intros g res passes r H. unfold louvain in H. destruct (nodes g) as [|a [|b rest]] eqn:En.
  - injection H as <-. left. simpl. auto.
  - injection H as <-. left. simpl. auto.
  - destruct (Qeq_bool (total_weight g) 0) eqn:Eq.
    + apply Qeq_bool_iff in Eq. injection H as <-. left. simpl. auto.
    + apply Qeq_bool_neq in Eq.
      destruct (sweeps g passes (linit g) 0) as [[s it]|]; [|discriminate H].
      injection H as <-. right. split; [simpl; lia|]. split; [exact Eq|].
      exists s, it. repeat split.
Qed.

Theorem louvain_partition : forall g res passes r, valid_graph g = true ->
  louvain g res passes = Some r ->
  (forall c, In c (l_comms r) -> c <> []) /\ Permutation (concat (l_comms r)) (nodes g).
Proof.
  intros g res passes r Hv H.
  destruct (louvain_inv g res passes r H) as [(_ & Hc & _)|(_ & _ & s & it & Hsw & Hc & _)]; rewrite Hc.
  - split.
    + intros c Hin. apply in_map_iff in Hin. destruct Hin as [x [<- _]]. discriminate.
    + rewrite concat_singletons. apply Permutation_refl.
  - split.
    + intros c Hin. apply filter_In in Hin. destruct Hin as [_ Hin]. intros ->. discriminate Hin.
    + apply consistent_partition.
      * apply nodup_b_NoDup. exact Hv.
      * exact (sweeps_consistent g passes (linit g) 0 s it (linit_consistent g Hv) Hsw).
Qed.
Print Assumptions louvain_partition.

(* definitional for the model: `louvain` computes l_objective with the modularity formula *)
Theorem louvain_modularity : forall g res passes r, louvain g res passes = Some r ->
  ((total_weight g == 0)%Q \/ length (nodes g) <= 1 -> (l_objective r == 0)%Q) /\
  (~ (total_weight g == 0)%Q -> 2 <= length (nodes g) ->
   (l_objective r == modularity g res (l_comms r))%Q).
Proof.
  intros g res passes r H.
  destruct (louvain_inv g res passes r H) as [(Ht & _ & Ho & _)|(Hl & Hne & s & it & _ & _ & Ho & _)];
    rewrite Ho.
  - split; [reflexivity|]. intros Hne Hl. destruct Ht; [lia | contradiction].
  - split; [|intros _ _; apply Qred_correct]. intros [H0|Hl']; [contradiction | lia].
Qed.
Print Assumptions louvain_modularity.

Lemma louvain_iterations : forall g res passes r, louvain g res passes = Some r ->
  ~ (total_weight g == 0)%Q -> 2 <= length (nodes g) -> l_iterations r = length passes.
Proof.
  intros g res passes r H Hne Hl.
  destruct (louvain_inv g res passes r H) as [([Ht|Ht] & _)|(_ & _ & s & it & Hsw & _ & _ & ->)].
  - lia.
  - contradiction.
  - apply sweeps_iterations in Hsw. lia.
Qed.

Theorem is_partition_b_sound : forall g cs, valid_graph g = true -> is_partition_b g cs = true ->
  (forall c, In c cs -> c <> []) /\ NoDup (concat cs) /\
  (forall v, In v (concat cs) <-> In v (nodes g)).
Proof.
  intros g cs _ H. unfold is_partition_b in H.
  apply andb_true_iff in H. destruct H as [H H3]. apply andb_true_iff in H. destruct H as [H1 H2].
  split; [|split].
  - intros c Hc E. subst c. rewrite forallb_forall in H1. specialize (H1 [] Hc). discriminate H1.
  - apply nodup_b_NoDup. exact H2.
  - unfold set_eqb in H3. apply andb_true_iff in H3. destruct H3 as [Ha Hb].
    intros v. split; apply incl_b_incl; assumption.
Qed.
Print Assumptions is_partition_b_sound.

Theorem lv_spec_check_sound : forall eps g res cs obj, lv_spec_check eps g res cs obj = true ->
  is_partition_b g cs = true /\
  (~ (total_weight g == 0)%Q -> (Qabs (modularity g res cs - obj) <= eps)%Q) /\
  ((total_weight g == 0)%Q -> (obj == 0)%Q).
Proof.
  intros eps g res cs obj H. unfold lv_spec_check in H.
  apply andb_true_iff in H. destruct H as [H1 H2]. split; [exact H1|].
  destruct (Qeq_bool (total_weight g) 0) eqn:Eq.
  - apply Qeq_bool_iff in Eq. split; [intros Hne; contradiction|].
    intros _. apply Qeq_bool_iff. exact H2.
  - apply Qeq_bool_neq in Eq. split; [|intros H0; contradiction].
    intros _. apply Qle_bool_iff. exact H2.
Qed.
Print Assumptions lv_spec_check_sound.

(* non-vacuity: a valid graph (path 0-1-2) and an accepted oracle sequence with real moves *)
Example louvain_nonvacuous :
  let g := [(0, [1]); (1, [2]); (2, [])] in
  valid_graph g = true /\
  option_map l_comms (louvain g 1%Q [[1; 1; 1]; [1; 1; 1]]) = Some [[0; 1; 2]] /\
  option_map l_iterations (louvain g 1%Q [[1; 1; 1]; [1; 1; 1]]) = Some 2.
Proof. vm_compute. repeat split. Qed.
