(* Facts about the shared input representation C15/Graph.v: membership tests, the symmetrised
   adjacency, insertion-ordered association lists, remove_nat. *)
From Coq Require Import List Arith Bool.
From SV Require Import C15.Graph.
Import ListNotations.

Lemma memb_In : forall x l, memb x l = true <-> In x l.
Proof.
  intros x l. unfold memb. rewrite existsb_exists. split.
  - intros [y [Hy He]]. apply Nat.eqb_eq in He. now subst.
  - intros H. exists x. split; [exact H | apply Nat.eqb_refl].
Qed.

Lemma memb_app_single : forall w P x, memb w (P ++ [x]) = memb w P || (w =? x).
Proof. intros. unfold memb. rewrite existsb_app. simpl. now rewrite orb_false_r. Qed.

Lemma memb_filter : forall p x l, memb x (filter p l) = memb x l && p x.
Proof.
  intros p x l. apply eq_iff_eq_true. rewrite andb_true_iff, !memb_In, filter_In. reflexivity.
Qed.

Lemma memb_false : forall x l, memb x l = false <-> ~ In x l.
Proof.
  intros x l. rewrite <- memb_In. destruct (memb x l); split; intros H; congruence.
Qed.

Lemma nodup_b_NoDup : forall l, nodup_b l = true <-> NoDup l.
Proof.
  induction l as [|x r IH]; simpl.
  - split; [constructor | reflexivity].
  - rewrite andb_true_iff, negb_true_iff, memb_false, IH. split.
    + intros [H1 H2]. now constructor.
    + intros H. inversion H; subst. now split.
Qed.

Lemma incl_b_incl : forall a b, incl_b a b = true -> forall x, In x a -> In x b.
Proof.
  intros a b H x Hx. unfold incl_b in H. rewrite forallb_forall in H.
  apply memb_In. apply H. exact Hx.
Qed.

Lemma edge_b_sym : forall g u v, edge_b g u v = edge_b g v u.
Proof.
  intros g u v. unfold edge_b. rewrite (Nat.eqb_sym u v).
  destruct (v =? u), (memb u (nodes g)), (memb v (nodes g)); simpl; try reflexivity.
  apply orb_comm.
Qed.

Lemma edge_b_nodes : forall g u v, edge_b g u v = true -> In u (nodes g) /\ In v (nodes g) /\ u <> v.
Proof.
  intros g u v H. unfold edge_b in H.
  repeat (apply andb_true_iff in H; destruct H as [H ?]).
  apply negb_true_iff, Nat.eqb_neq in H. rewrite <- !memb_In. auto.
Qed.

Lemma sadj_In : forall g v w, In w (sadj g v) <-> edge_b g v w = true.
Proof.
  intros g v w. unfold sadj. rewrite filter_In. split.
  - intros [_ H]. exact H.
  - intros H. split; [|exact H]. apply edge_b_nodes in H. tauto.
Qed.

Lemma sadj_sym : forall g v w, In w (sadj g v) <-> In v (sadj g w).
Proof. intros. rewrite !sadj_In, edge_b_sym. tauto. Qed.

Lemma sadj_NoDup : forall g v, NoDup (nodes g) -> NoDup (sadj g v).
Proof. intros. now apply NoDup_filter. Qed.

Lemma sadj_nodes : forall g v w, In w (sadj g v) -> In w (nodes g) /\ In v (nodes g) /\ v <> w.
Proof. intros g v w H. apply sadj_In, edge_b_nodes in H. tauto. Qed.

Lemma aget_none_notin {A} (l : list (nat * A)) k : aget l k = None <-> ~ In k (map fst l).
Proof.
  induction l as [|[k' y] l IH]; simpl; [tauto|].
  destruct (Nat.eqb_spec k' k) as [->|Hne].
  - split; [discriminate | intros H; exfalso; apply H; now left].
  - rewrite IH. tauto.
Qed.

Lemma aget_keys {A} (l : list (nat * A)) k : In k (map fst l) -> exists x, aget l k = Some x.
Proof.
  intros H. destruct (aget l k) eqn:E; [eauto|]. now apply aget_none_notin in E.
Qed.

Lemma aget_In_pair {A} (l : list (nat * A)) k x : aget l k = Some x -> In (k, x) l.
Proof.
  induction l as [|[k' y] l IH]; simpl; intros H; [discriminate|].
  destruct (Nat.eqb_spec k' k) as [->|Hne]; [left; congruence | right; auto].
Qed.

Lemma aget_In_fst {A} (l : list (nat * A)) k x : aget l k = Some x -> In k (map fst l).
Proof. intros H. apply aget_In_pair in H. now apply (in_map fst) in H. Qed.

Lemma In_pair_aget {A} (l : list (nat * A)) k x : NoDup (map fst l) -> In (k, x) l -> aget l k = Some x.
Proof.
  induction l as [|[k' y] l IH]; simpl; intros Hn H; [destruct H|].
  inversion Hn as [|? ? Hk Hn']; subst.
  destruct H as [H|H].
  - inversion H; subst. now rewrite Nat.eqb_refl.
  - destruct (Nat.eqb_spec k' k) as [->|Hne]; [|auto].
    exfalso. apply Hk. now apply (in_map fst) in H.
Qed.

Lemma aget_map_key {A} (h : nat -> A) (l : list nat) (v : nat) :
  In v l -> aget (map (fun w => (w, h w)) l) v = Some (h v).
Proof.
  intros Hv. induction l as [|a l IH]; [destruct Hv|].
  cbn [map aget]. destruct (Nat.eqb_spec a v) as [->|Hne]; [reflexivity|].
  destruct Hv as [Hv|Hv]; [contradiction | now apply IH].
Qed.

Lemma aget_snoc {A} (l : list (nat * A)) v x k :
  aget (l ++ [(v, x)]) k
  = match aget l k with Some y => Some y | None => if v =? k then Some x else None end.
Proof.
  induction l as [|[k' y] l IH]; simpl; [reflexivity|].
  destruct (k' =? k); [reflexivity | exact IH].
Qed.

Lemma aget_aset {A} (l : list (nat * A)) k x k' :
  aget (aset l k x) k' = if k =? k' then Some x else aget l k'.
Proof.
  induction l as [|[a y] r IH]; simpl; [reflexivity|].
  destruct (Nat.eqb_spec a k) as [->|E]; simpl.
  - destruct (k =? k'); reflexivity.
  - destruct (Nat.eqb_spec a k') as [->|E2]; [|exact IH].
    apply Nat.eqb_neq in E. now rewrite Nat.eqb_sym, E.
Qed.

Lemma agetd_aset {A} (d : A) (l : list (nat * A)) k x k' :
  agetd d (aset l k x) k' = if k =? k' then x else agetd d l k'.
Proof. unfold agetd. rewrite aget_aset. destruct (k =? k'); reflexivity. Qed.

Lemma map_fst_aset {A} (l : list (nat * A)) k x : In k (map fst l) -> map fst (aset l k x) = map fst l.
Proof.
  induction l as [|[a y] r IH]; simpl; intros H; [contradiction|].
  destruct (Nat.eqb_spec a k) as [E|E]; simpl; [reflexivity|].
  f_equal. apply IH. destruct H as [H|H]; [congruence | exact H].
Qed.

Lemma remove_nat_filter : forall x l, remove_nat x l = filter (fun y => negb (x =? y)) l.
Proof.
  intros x l. induction l as [|y l IH]; simpl; [reflexivity|]. rewrite IH. now destruct (x =? y).
Qed.

Lemma remove_nat_In : forall x y l, In y (remove_nat x l) <-> In y l /\ y <> x.
Proof.
  intros x y l. rewrite remove_nat_filter, filter_In, negb_true_iff, Nat.eqb_neq.
  split; intros [H1 H2]; auto.
Qed.

Lemma remove_nat_NoDup : forall x l, NoDup l -> NoDup (remove_nat x l).
Proof. intros x l H. rewrite remove_nat_filter. now apply NoDup_filter. Qed.

Lemma remove_nat_notin : forall x l, ~ In x l -> remove_nat x l = l.
Proof.
  intros x l. induction l as [|a r IH]; simpl; intros H; [reflexivity|].
  destruct (Nat.eqb_spec x a) as [E|E]; [exfalso; apply H; now left|].
  f_equal. apply IH. tauto.
Qed.

Lemma NoDup_app_intro {A} (a b : list A) :
  NoDup a -> NoDup b -> (forall x, In x a -> ~ In x b) -> NoDup (a ++ b).
Proof.
  intros Ha Hb Hd. induction Ha as [|x r Hnot Hnd IH]; simpl; [exact Hb|].
  constructor.
  - rewrite in_app_iff. intros [Hin|Hin]; [tauto | apply (Hd x); [now left | exact Hin]].
  - apply IH. intros y Hy. apply Hd. now right.
Qed.

Lemma NoDup_app_single {A} (l : list A) x : NoDup l -> ~ In x l -> NoDup (l ++ [x]).
Proof.
  intros Hl Hx. apply NoDup_app_intro; [exact Hl | constructor; [intros [] | constructor] |].
  intros y Hy [<-|[]]. contradiction.
Qed.
