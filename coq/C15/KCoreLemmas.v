(* Containers of the k-core model: counting with filters, the total maps updated with `upd`, the bucket
   map as a structure of its own (Bkts, with its lemmas for a pop and for moving a node), bucket choice
   by index. *)
From Coq Require Import List Arith Bool Lia.
From SV Require Import C15.Graph C15.GraphLemmas C15.KCore.
Import ListNotations.

Lemma filter_length_le {A} (f : A -> bool) l : length (filter f l) <= length l.
Proof. induction l as [|x l IH]; simpl; [lia|]. destruct (f x); simpl; lia. Qed.

Lemma filter_all {A} (f : A -> bool) l : (forall x, In x l -> f x = true) -> filter f l = l.
Proof.
  induction l as [|x l IH]; intros H; simpl; [reflexivity|].
  rewrite (H x (or_introl eq_refl)), IH; [reflexivity|]. intros y Hy. apply H. now right.
Qed.

Lemma filter_length_mono {A} (f h : A -> bool) l :
  (forall x, In x l -> f x = true -> h x = true) -> length (filter f l) <= length (filter h l).
Proof.
  induction l as [|x l IH]; intros H; simpl; [lia|].
  assert (IH' := IH (fun y Hy => H y (or_intror Hy))).
  destruct (f x) eqn:Ef.
  - rewrite (H x (or_introl eq_refl) Ef). simpl. lia.
  - destruct (h x); simpl; lia.
Qed.

Lemma filter_length_remove1 : forall (p : nat -> bool) v l, NoDup l ->
  length (filter (fun x => p x && negb (x =? v)) l)
  = length (filter p l) - (if memb v l && p v then 1 else 0).
Proof.
  intros p v l Hl. induction Hl as [|x l Hx Hl IH]; simpl; [reflexivity|].
  destruct (Nat.eqb_spec v x) as [->|Hne].
  - rewrite Nat.eqb_refl, andb_false_r. simpl.
    assert (Hm : memb x l = false) by now apply memb_false.
    rewrite Hm in IH. simpl in IH. rewrite IH.
    destruct (p x); simpl; lia.
  - assert (Hxv : (x =? v) = false) by (apply Nat.eqb_neq; congruence).
    rewrite Hxv, andb_true_r. simpl. destruct (p x); simpl; rewrite IH.
    + destruct (memb v l && p v) eqn:E; [|lia].
      apply andb_true_iff in E. destruct E as [E1 E2]. apply memb_In in E1.
      assert (Hin : In v (filter p l)) by (apply filter_In; auto).
      destruct (filter p l); [destruct Hin | simpl; lia].
    + reflexivity.
Qed.

Lemma upd_same {A} (f : nat -> A) k x : upd f k x k = x.
Proof. unfold upd. now rewrite Nat.eqb_refl. Qed.
Lemma upd_other {A} (f : nat -> A) k x y : y <> k -> upd f k x y = f y.
Proof. intros H. unfold upd. apply Nat.eqb_neq in H. now rewrite H. Qed.

(* Buckets: `b` indexes the nodes satisfying `rem` (those still to be popped) by their stored
   degree `dg`.  A pop removes a node; relaxing a neighbour moves it to another bucket. *)
Record Bkts (rem : nat -> Prop) (dg : nat -> nat) (b : nat -> list nat) : Prop := {
  b_in : forall w, rem w -> In w (b (dg w));
  b_mem : forall d w, In w (b d) -> rem w /\ dg w = d;
  b_nd : forall d, NoDup (b d)
}.

Lemma Bkts_ext : forall rem rem' dg b, (forall w, rem w <-> rem' w) -> Bkts rem dg b -> Bkts rem' dg b.
Proof.
  intros rem rem' dg b H [Hin Hmem Hnd]. constructor; [| | exact Hnd].
  - intros w Hw. apply Hin, H, Hw.
  - intros d w Hw. destruct (Hmem d w Hw). split; [apply H|]; assumption.
Qed.

Lemma Bkts_remove : forall rem dg b v d, Bkts rem dg b -> dg v = d ->
  Bkts (fun w => rem w /\ w <> v) dg (upd b d (remove_nat v (b d))).
Proof.
  intros rem dg b v d [Hin Hmem Hnd] Hd. constructor.
  - intros w [Hw Hne]. destruct (Nat.eq_dec (dg w) d) as [E|E].
    + rewrite E, upd_same. apply remove_nat_In. split; [rewrite <- E; auto | exact Hne].
    + rewrite upd_other by exact E. auto.
  - intros d' w Hw. destruct (Nat.eq_dec d' d) as [->|E].
    + rewrite upd_same in Hw. apply remove_nat_In in Hw. destruct Hw as [Hw Hne].
      destruct (Hmem _ _ Hw). auto.
    + rewrite upd_other in Hw by exact E. destruct (Hmem _ _ Hw) as [H1 H2].
      split; [split; [exact H1|] | exact H2]. intros ->. congruence.
  - intros d'. destruct (Nat.eq_dec d' d) as [->|E].
    + rewrite upd_same. apply remove_nat_NoDup, Hnd.
    + rewrite upd_other by exact E. apply Hnd.
Qed.

Lemma Bkts_insert : forall rem dg b v d, Bkts rem dg b -> ~ rem v ->
  Bkts (fun w => rem w \/ w = v) (upd dg v d) (upd b d (v :: b d)).
Proof.
  intros rem dg b v d [Hin Hmem Hnd] Hv.
  assert (Hother : forall w, rem w -> upd dg v d w = dg w).
  { intros w Hw. apply upd_other. intros ->. contradiction. }
  constructor.
  - intros w [Hw| ->].
    + rewrite (Hother w Hw). destruct (Nat.eq_dec (dg w) d) as [E|E].
      * rewrite E, upd_same. right. rewrite <- E. auto.
      * rewrite upd_other by exact E. auto.
    + rewrite !upd_same. now left.
  - intros d' w Hw. destruct (Nat.eq_dec d' d) as [->|E].
    + rewrite upd_same in Hw. destruct Hw as [<-|Hw].
      * rewrite upd_same. auto.
      * destruct (Hmem _ _ Hw) as [H1 H2]. rewrite (Hother w H1). auto.
    + rewrite upd_other in Hw by exact E. destruct (Hmem _ _ Hw) as [H1 H2].
      rewrite (Hother w H1). auto.
  - intros d'. destruct (Nat.eq_dec d' d) as [->|E].
    + rewrite upd_same. constructor; [|apply Hnd]. intros H. apply Hv, (Hmem _ _ H).
    + rewrite upd_other by exact E. apply Hnd.
Qed.

Lemma Bkts_move : forall rem dg b w d, Bkts rem dg b -> rem w ->
  let b1 := upd b (dg w) (remove_nat w (b (dg w))) in
  Bkts rem (upd dg w d) (upd b1 d (w :: b1 d)).
Proof.
  intros rem dg b w d HB Hw b1.
  apply (Bkts_ext (fun u => (rem u /\ u <> w) \/ u = w)).
  - intros u. destruct (Nat.eq_dec u w) as [->|]; tauto.
  - apply Bkts_insert; [apply Bkts_remove; auto | tauto].
Qed.

Lemma remove_nat_length : forall x l, NoDup l -> In x l -> S (length (remove_nat x l)) = length l.
Proof.
  intros x l H. induction H as [|z l Hz Hl IH]; simpl; intros Hx; [destruct Hx|].
  destruct (Nat.eqb_spec x z) as [->|Hne].
  - now rewrite remove_nat_notin.
  - simpl. f_equal. apply IH. destruct Hx; congruence.
Qed.

Lemma nth_mod_In : forall (b : list nat) i, b <> [] -> In (nth (i mod length b) b 0) b.
Proof.
  intros b i Hb. apply nth_In. apply Nat.mod_upper_bound.
  destruct b; [congruence | simpl; lia].
Qed.

Lemma list_max_ge : forall l x, In x l -> x <= list_max l.
Proof.
  induction l as [|y l IH]; simpl; intros x H; [destruct H|].
  destruct H as [->|H]; [lia|]. specialize (IH x H). lia.
Qed.

