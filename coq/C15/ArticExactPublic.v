(* Exactness lifted to the two public functions articulation_points / bridges of the model (including the
   early return for n <= 1 and the absence of fuel exhaustion). *)
From Coq Require Import List Arith Lia.
From SV Require Import C15.Graph C15.GraphLemmas C15.ArticSpec C15.Artic C15.ArticSpecProofs C15.ArticProofs
  C15.ArticExactConn C15.ArticExact.
Import ListNotations.

Lemma short_list_eq : forall (l : list nat) a b, length l <= 1 -> In a l -> In b l -> a = b.
Proof.
  intros [|x [|y l]] a b Hlen Ha Hb; simpl in *; [contradiction | | lia].
  destruct Ha as [Ha|[]]. destruct Hb as [Hb|[]]. congruence.
Qed.

Lemma small_no_cut : forall g v, length (nodes g) <= 1 -> ~ is_cut_vertex g v.
Proof.
  intros g v Hlen Hc. apply cut_vertex_separation_iff in Hc.
  destruct Hc as [Hv (a & b & Hav & _ & Hca & _)].
  assert (Ha : In a (nodes g)).
  { destruct (conn_endpoints _ _ _ _ Hca) as [E|[H _]]; [congruence | exact H]. }
  exact (Hav (short_list_eq (nodes g) a v Hlen Ha Hv)).
Qed.

Lemma small_no_bridge : forall g a b, length (nodes g) <= 1 -> ~ is_bridge g a b.
Proof.
  intros g a b Hlen [He _]. apply edge_b_nodes in He. destruct He as (Ha & Hb & Hne).
  exact (Hne (short_list_eq (nodes g) a b Hlen Ha Hb)).
Qed.

Theorem articulation_points_exact : forall g, valid_graph g = true ->
  exists sol it, articulation_points g = Some (sol, length sol, it, length (nodes g)) /\
    NoDup sol /\ forall v, In v sol <-> is_cut_vertex g v.
Proof.
  intros g Hg. unfold articulation_points.
  destruct (length (nodes g) <=? 1) eqn:E.
  - apply Nat.leb_le in E. exists [], 0. split; [reflexivity|]. split; [constructor|].
    intros v. split; [intros [] | intros H; exfalso; now apply (small_no_cut g v E)].
  - destruct (run g) as [s|] eqn:Er; [|exfalso; now apply (run_fuel_ok g Hg)].
    exists (aps s), (iters s). split; [reflexivity|].
    destruct (artic_sound_partial g s Hg Er) as (_ & Hnd & _).
    split; [exact Hnd|]. now apply artic_points_exact.
Qed.

Theorem bridges_exact : forall g, valid_graph g = true ->
  exists sol it, bridges g = Some (sol, length sol, it, length (nodes g)) /\
    forall a b, In (a, b) sol <-> (a < b /\ is_bridge g a b).
Proof.
  intros g Hg. unfold bridges.
  destruct (length (nodes g) <=? 1) eqn:E.
  - apply Nat.leb_le in E. exists [], 0. split; [reflexivity|].
    intros a b. split; [intros [] | intros [_ H]; exfalso; now apply (small_no_bridge g a b E)].
  - destruct (run g) as [s|] eqn:Er; [|exfalso; now apply (run_fuel_ok g Hg)].
    exists (brs s), (iters s). split; [reflexivity|]. now apply artic_bridges_exact.
Qed.

Print Assumptions articulation_points_exact.
Print Assumptions bridges_exact.
