(* Graph-theoretic characterisations of the counting definitions of ArticSpec.v:
     v is a cut vertex  <->  two nodes of v's component are separated by removing v
     {a,b} is a bridge  <->  it is an edge and a, b are disconnected once it is removed.
   First generic facts about conn / num_components: path decompositions, decidability (as a Prop
   disjunction) of conn on a finite node list, existence of a component count. *)
From Coq Require Import List Arith Bool Relations Lia.
From SV Require Import C15.Graph C15.GraphLemmas C15.ArticSpec C15.ArticSpecProofs.
Import ListNotations.

Lemma conn_ind_r : forall vs (e : nat -> nat -> bool) x (P : nat -> Prop),
  P x ->
  (forall y z, conn vs e x y -> P y -> In y vs -> In z vs -> e y z = true -> P z) ->
  forall z, conn vs e x z -> P z.
Proof.
  intros vs e x P H0 Hs z H.
  refine (clos_refl_trans_ind_left nat _ x P H0 _ z H).
  intros y w Hxy Py Hst. destruct Hst as (Hy & Hw & He). exact (Hs y w Hxy Py Hy Hw He).
Qed.

Lemma conn_endpoints : forall vs (e : nat -> nat -> bool) x y,
  conn vs e x y -> x = y \/ (In x vs /\ In y vs).
Proof.
  intros vs e x y H. pattern y. apply (conn_ind_r vs e x); [left; reflexivity | | exact H].
  intros y' z Hxy IH Hy Hz He. right. split; [|exact Hz].
  destruct IH as [IH | [IH _]]; [subst y'; exact Hy | exact IH].
Qed.

Lemma remove_nat_sub : forall a vs z, In z (remove_nat a vs) -> In z vs.
Proof. intros a vs z H. apply remove_nat_In in H. tauto. Qed.

Lemma conn_remove_mono : forall a vs (e : nat -> nat -> bool) x y,
  conn (remove_nat a vs) e x y -> conn vs e x y.
Proof.
  intros a vs e x y. apply connP_mono. intros u w Hu Hw He.
  split; [exact (remove_nat_sub a vs u Hu)|]. split; [exact (remove_nat_sub a vs w Hw) | exact He].
Qed.

Lemma conn_avoid : forall vs (e : nat -> nat -> bool) a x y,
  conn vs e x y ->
  conn (remove_nat a vs) e x y \/ (conn vs e x a /\ conn vs e a y).
Proof.
  intros vs e a x y H. pattern y. apply (conn_ind_r vs e x); [left; apply connP_refl | | exact H].
  intros y' z Hxy IH Hy Hz He.
  assert (Hst : conn vs e y' z) by (apply connP_step; assumption).
  destruct (Nat.eq_dec y' a) as [E1|N1].
  - subst y'. right. split; assumption.
  - destruct (Nat.eq_dec z a) as [E2|N2].
    + subst z. right. split; [apply connP_trans with y'; assumption | apply connP_refl].
    + destruct IH as [IH | [IH1 IH2]].
      * left. apply connP_trans with y'; [exact IH|].
        apply connP_step; [apply remove_nat_In; auto | apply remove_nat_In; auto | exact He].
      * right. split; [exact IH1 | apply connP_trans with y'; assumption].
Qed.

Lemma conn_first_step : forall vs (e : nat -> nat -> bool) x y,
  conn vs e x y ->
  y = x \/ exists z, In z vs /\ z <> x /\ e x z = true /\ conn (remove_nat x vs) e z y.
Proof.
  intros vs e x y H. pattern y. apply (conn_ind_r vs e x); [left; reflexivity | | exact H].
  intros y' w Hxy IH Hy Hw He.
  destruct (Nat.eq_dec w x) as [E|N]; [left; exact E|]. right.
  destruct (Nat.eq_dec y' x) as [E1|N1].
  - subst y'. exists w. repeat split; auto. apply connP_refl.
  - destruct IH as [IH | [z (Hz & Hzx & Hez & Hc)]]; [contradiction|].
    exists z. repeat split; auto. apply connP_trans with y'; [exact Hc|].
    apply connP_step; [apply remove_nat_In; auto | apply remove_nat_In; auto | exact He].
Qed.

Lemma remove_nat_length_le : forall x vs, length (remove_nat x vs) <= length vs.
Proof.
  intros x vs. induction vs as [|a vs IH]; simpl; [lia|].
  destruct (x =? a); simpl; lia.
Qed.

Lemma remove_nat_length_lt : forall x vs, In x vs -> length (remove_nat x vs) < length vs.
Proof.
  intros x vs. induction vs as [|a vs IH]; simpl; intro H; [contradiction|].
  destruct (x =? a) eqn:E.
  - pose proof (remove_nat_length_le x vs) as Hle. lia.
  - apply Nat.eqb_neq in E. destruct H as [H|H]; [congruence|].
    specialize (IH H). simpl. lia.
Qed.

Lemma ex_dec_list : forall (P : nat -> Prop) l,
  (forall z, P z \/ ~ P z) ->
  (exists z, In z l /\ P z) \/ ~ (exists z, In z l /\ P z).
Proof.
  intros P l HP. induction l as [|a l IH].
  - right. intros [z [[] _]].
  - destruct (HP a) as [Ha|Ha].
    + left. exists a. split; [left; reflexivity | exact Ha].
    + destruct IH as [[z [Hz Pz]] | IH].
      * left. exists z. split; [right; exact Hz | exact Pz].
      * right. intros [z [[Hz|Hz] Pz]].
        -- subst z. exact (Ha Pz).
        -- apply IH. exists z. auto.
Qed.

Lemma conn_dec_bounded : forall (e : nat -> nat -> bool) n vs, length vs <= n ->
  forall x y, conn vs e x y \/ ~ conn vs e x y.
Proof.
  intros e n. induction n as [|n IH]; intros vs Hlen x y.
  - destruct vs as [|a vs]; [|simpl in Hlen; lia].
    destruct (Nat.eq_dec x y) as [E|N]; [subst y; left; apply connP_refl|].
    right. intro H. apply conn_endpoints in H. destruct H as [H | [[] _]]. exact (N H).
  - destruct (Nat.eq_dec x y) as [E|N]; [subst y; left; apply connP_refl|].
    destruct (in_dec Nat.eq_dec x vs) as [Hx|Hx].
    + assert (Hlen' : length (remove_nat x vs) <= n).
      { pose proof (remove_nat_length_lt x vs Hx) as Hlt. lia. }
      destruct (ex_dec_list
                  (fun z => z <> x /\ e x z = true /\ conn (remove_nat x vs) e z y) vs) as [Hex|Hnex].
      * intro z. destruct (Nat.eq_dec z x) as [Ez|Nz]; [right; intros [Hz _]; exact (Hz Ez)|].
        destruct (e x z) eqn:Ee; [|right; intros [_ [Hz _]]; discriminate].
        destruct (IH (remove_nat x vs) Hlen' z y) as [Hc|Hc].
        -- left. auto.
        -- right. intros [_ [_ Hz]]. exact (Hc Hz).
      * left. destruct Hex as [z (Hz & Hzx & Hez & Hc)].
        apply connP_trans with z; [apply connP_step; assumption|].
        apply conn_remove_mono with (a := x). exact Hc.
      * right. intro H. apply conn_first_step in H.
        destruct H as [H | [z (Hz & Hzx & Hez & Hc)]]; [exact (N (eq_sym H))|].
        apply Hnex. exists z. auto.
    + right. intro H. apply conn_endpoints in H. destruct H as [H | [H _]]; auto.
Qed.

Lemma conn_dec : forall vs (e : nat -> nat -> bool) x y, conn vs e x y \/ ~ conn vs e x y.
Proof. intros vs e x y. exact (conn_dec_bounded e (length vs) vs (le_n _) x y). Qed.

Lemma reps_exists : forall vs (e : nat -> nat -> bool), (forall x y, e x y = e y x) ->
  forall l, incl l vs ->
  exists reps, indep vs e reps /\ forall x, In x l -> exists r, In r reps /\ conn vs e x r.
Proof.
  intros vs e e_sym l. induction l as [|x l IH]; intro Hl.
  - exists []. split; [apply indep_nil | intros x []].
  - assert (Hl' : incl l vs) by (intros z Hz; apply Hl; right; exact Hz).
    assert (Hx : In x vs) by (apply Hl; left; reflexivity).
    destruct (IH Hl') as (reps & I & Cov).
    destruct (ex_dec_list (fun r => conn vs e x r) reps) as [Hex|Hnex].
    + intro z. apply conn_dec.
    + exists reps. split; [exact I|].
      intros z [Hz|Hz]; [subst z; exact Hex | apply Cov; exact Hz].
    + exists (x :: reps). split.
      * apply indep_cons; [exact e_sym | exact I | exact Hx |].
        intros r Hr Hc. apply Hnex. exists r. auto.
      * intros z [Hz|Hz].
        -- subst z. exists x. split; [left; reflexivity | apply connP_refl].
        -- destruct (Cov z Hz) as [r [Hr Hc]]. exists r. split; [right; exact Hr | exact Hc].
Qed.

Lemma indep_dec : forall vs (e : nat -> nat -> bool), (forall x y, e x y = e y x) ->
  forall l, NoDup l -> incl l vs ->
  indep vs e l \/ exists x x', In x l /\ In x' l /\ x <> x' /\ conn vs e x x'.
Proof.
  intros vs e e_sym l ND. induction ND as [|x l Hx ND IH]; intro Hl.
  - left. apply indep_nil.
  - assert (Hl' : incl l vs) by (intros z Hz; apply Hl; right; exact Hz).
    destruct (IH Hl') as [I | (y & y' & Hy & Hy' & Hne & Hc)].
    + destruct (ex_dec_list (fun r => conn vs e x r) l) as [[r [Hr Hc]] | Hn].
      * intro z. apply conn_dec.
      * right. exists x, r. split; [left; reflexivity|]. split; [right; exact Hr|].
        split; [|exact Hc]. intro E. subst r. exact (Hx Hr).
      * left. apply indep_cons; [exact e_sym | exact I | apply Hl; left; reflexivity |].
        intros r Hr Hc. apply Hn. exists r. auto.
    + right. exists y, y'. split; [right; exact Hy|]. split; [right; exact Hy'|]. auto.
Qed.

Lemma num_components_exists : forall vs (e : nat -> nat -> bool), (forall x y, e x y = e y x) ->
  exists c, num_components vs e c.
Proof.
  intros vs e e_sym.
  destruct (reps_exists vs e e_sym vs (incl_refl vs)) as (reps & (ND & Inc & PW) & Cov).
  exists (length reps). exists reps. repeat split; auto.
Qed.

(* (vs', e') is a restriction of (vs, e) that keeps every node outside the class of a.  If a and b are
   connected in (vs, e) but not in (vs', e'), the restriction has more components: a, b and the
   representatives of the other classes of (vs, e) are pairwise disconnected in (vs', e'). *)
Section Separated.
Variables vs vs' : list nat.
Variables e e' : nat -> nat -> bool.
Variables a b : nat.
Hypothesis e_sym : forall x y, e x y = e y x.
Hypothesis e'_sym : forall x y, e' x y = e' y x.
Hypothesis Hvs : incl vs' vs.
Hypothesis He : forall x y, e' x y = true -> e x y = true.
Hypothesis keep : forall x, In x vs -> ~ conn vs e x a -> In x vs'.
Hypothesis Ha : In a vs'.
Hypothesis Hb : In b vs'.
Hypothesis Hab : conn vs e a b.
Hypothesis Hsep : ~ conn vs' e' a b.

Lemma separated_incr : forall c c',
  num_components vs e c -> num_components vs' e' c' -> c < c'.
Proof.
  intros c c' (reps & ND & Len & Inc & Cov & PW) (reps' & ND' & Len' & Inc' & Cov' & PW').
  assert (sub : forall x y, conn vs' e' x y -> conn vs e x y).
  { intros x y. apply connP_mono. intros u w Hu Hw Huw. auto. }
  assert (sy : forall x y, conn vs e x y -> conn vs e y x) by (intros x y; apply conn_sym; exact e_sym).
  assert (sy' : forall x y, conn vs' e' x y -> conn vs' e' y x)
    by (intros x y; apply conn_sym; exact e'_sym).
  destruct (Cov a (Hvs a Ha)) as [ra [Hra Hara]].
  destruct (in_split ra reps Hra) as [l1 [l2 E]]. subst reps.
  pose proof (NoDup_remove l1 l2 ra ND) as [ND12 Hnin].
  (* the other representatives are not connected to a ... *)
  assert (F : forall r, In r (l1 ++ l2) -> In r (l1 ++ ra :: l2) /\ ~ conn vs e r a).
  { intros r Hr.
    assert (Hin : In r (l1 ++ ra :: l2)).
    { apply in_or_app. apply in_app_or in Hr. destruct Hr as [Hr|Hr]; [left | right; right]; exact Hr. }
    split; [exact Hin|]. intro Hc. apply Hnin.
    rewrite <- (PW r ra Hin Hra (connP_trans _ _ _ _ _ Hc Hara)). exact Hr. }
  (* ... hence, after the restriction, to nothing of a's class *)
  assert (G : forall x r, conn vs e x a -> In r (l1 ++ l2) -> ~ conn vs' e' x r).
  { intros x r Hxa Hr Hc. apply (proj2 (F r Hr)).
    apply connP_trans with x; [exact (sy _ _ (sub _ _ Hc)) | exact Hxa]. }
  assert (I : indep vs' e' (a :: b :: l1 ++ l2)).
  { apply indep_cons; [exact e'_sym | apply indep_cons; [exact e'_sym | | exact Hb |] | exact Ha |].
    - split; [exact ND12|]. split.
      + intros r Hr. destruct (F r Hr) as [Hin Hn]. exact (keep r (Inc r Hin) Hn).
      + intros r r' Hr Hr' Hc. exact (PW r r' (proj1 (F r Hr)) (proj1 (F r' Hr')) (sub _ _ Hc)).
    - intros r Hr. exact (G b r (sy _ _ Hab) Hr).
    - intros r [Hr|Hr]; [subst r; exact Hsep | exact (G a r (connP_refl _ _ _) Hr)]. }
  pose proof (indep_length vs' e' e'_sym _ reps' I Cov') as L.
  rewrite app_length in Len. simpl in Len, L. rewrite app_length in L. lia.
Qed.

End Separated.

Lemma without_edge_sub : forall g a b x y, without_edge g a b x y = true -> edge_b g x y = true.
Proof. intros g a b x y H. apply without_edge_true in H. tauto. Qed.

Lemma without_edge_cases : forall g a b x y, edge_b g x y = true ->
  without_edge g a b x y = true \/ (x = a /\ y = b) \/ (x = b /\ y = a).
Proof.
  intros g a b x y H. unfold without_edge. rewrite H. simpl.
  destruct ((x =? a) && (y =? b) || (x =? b) && (y =? a)) eqn:E; [right | left; reflexivity].
  rewrite orb_true_iff, !andb_true_iff, !Nat.eqb_eq in E. exact E.
Qed.

(* an edge whose ends stay connected without it can be replaced in every path *)
Lemma bridge_carry : forall g a b x y, conn (nodes g) (without_edge g a b) a b ->
  conn (nodes g) (edge_b g) x y -> conn (nodes g) (without_edge g a b) x y.
Proof.
  intros g a b x y Hab. apply connP_paths. intros u w Hu Hw He.
  destruct (without_edge_cases g a b u w He) as [H | [[E1 E2] | [E1 E2]]]; subst.
  - apply connP_step; assumption.
  - exact Hab.
  - apply conn_sym; [apply without_edge_sym | exact Hab].
Qed.

Theorem bridge_separation_iff : forall g a b,
  is_bridge g a b <-> edge_b g a b = true /\ ~ conn (nodes g) (without_edge g a b) a b.
Proof.
  intros g a b. unfold is_bridge. split.
  - intros [Hab (c & c' & H1 & H2 & Hlt)]. split; [exact Hab|]. intro Hc.
    (* the representatives counted without the edge are independent with it *)
    destruct H1 as (reps & _ & Len & _ & Cov & _). destruct H2 as (reps' & ND' & Len' & Inc' & _ & PW').
    assert (I : indep (nodes g) (edge_b g) reps').
    { split; [exact ND'|]. split; [exact Inc'|]. intros r r' Hr Hr' H.
      exact (PW' r r' Hr Hr' (bridge_carry g a b r r' Hc H)). }
    pose proof (indep_length _ _ (edge_b_sym g) reps' reps I Cov). lia.
  - intros [Hab Hnc]. split; [exact Hab|].
    destruct (num_components_exists (nodes g) (edge_b g) (edge_b_sym g)) as [c Hc].
    destruct (num_components_exists (nodes g) (without_edge g a b) (without_edge_sym g a b))
      as [c' Hc'].
    destruct (edge_b_nodes g a b Hab) as (Ha & Hb & _).
    exists c, c'. split; [exact Hc|]. split; [exact Hc'|].
    apply (separated_incr (nodes g) (nodes g) (edge_b g) (without_edge g a b) a b (edge_b_sym g)
             (without_edge_sym g a b) (incl_refl _) (without_edge_sub g a b)) with (c := c) (c' := c');
      auto.
    apply connP_step; assumption.
Qed.

Section Cut.
Variable vs : list nat.
Variable e : nat -> nat -> bool.
Variable v : nat.
Hypothesis e_sym : forall x y, e x y = e y x.

Lemma cut_sep_incr : forall a b c c',
  a <> v -> b <> v -> conn vs e a v -> conn vs e b v -> ~ conn (remove_nat v vs) e a b ->
  num_components vs e c -> num_components (remove_nat v vs) e c' -> c < c'.
Proof.
  intros a b c c' Hav Hbv Hca Hcb Hnc.
  assert (Ha : In a vs).
  { destruct (conn_endpoints vs e a v Hca) as [E | [Hin _]]; [contradiction | exact Hin]. }
  assert (Hb : In b vs).
  { destruct (conn_endpoints vs e b v Hcb) as [E | [Hin _]]; [contradiction | exact Hin]. }
  apply (separated_incr vs (remove_nat v vs) e e a b e_sym e_sym (remove_nat_sub v vs)); auto.
  - (* only the class of v, which is that of a, loses a node *)
    intros x Hx Hn. apply remove_nat_In. split; [exact Hx|]. intro E. subst x.
    apply Hn. apply conn_sym; assumption.
  - apply remove_nat_In. auto.
  - apply remove_nat_In. auto.
  - apply connP_trans with v; [exact Hca | apply conn_sym; assumption].
Qed.

Lemma cut_sep_exists : forall c c',
  num_components vs e c -> num_components (remove_nat v vs) e c' -> c < c' ->
  exists a b, a <> v /\ b <> v /\ conn vs e a v /\ conn vs e b v /\
              ~ conn (remove_nat v vs) e a b.
Proof.
  intros c c' (reps & ND & Len & Inc & Cov & PW) (reps' & ND' & Len' & Inc' & Cov' & PW') Hlt.
  destruct (indep_dec vs e e_sym reps' ND') as [I | (x & x' & Hx & Hx' & Hne & Hxx)].
  - intros z Hz. exact (remove_nat_sub v vs z (Inc' z Hz)).
  - pose proof (indep_length vs e e_sym reps' reps I Cov). lia.
  - (* two representatives counted without v are connected with it: their path needs v *)
    exists x, x'.
    pose proof (Inc' x Hx) as Hxv. apply remove_nat_In in Hxv.
    pose proof (Inc' x' Hx') as Hxv'. apply remove_nat_In in Hxv'.
    assert (C : ~ conn (remove_nat v vs) e x x') by (intro C; exact (Hne (PW' x x' Hx Hx' C))).
    destruct (conn_avoid vs e v x x' Hxx) as [C1 | [C1 C2]]; [contradiction|].
    split; [exact (proj2 Hxv)|]. split; [exact (proj2 Hxv')|]. split; [exact C1|].
    split; [apply conn_sym; assumption | exact C].
Qed.

End Cut.

Theorem cut_vertex_separation_iff : forall g v,
  is_cut_vertex g v <->
  In v (nodes g) /\ exists a b, a <> v /\ b <> v /\
     conn (nodes g) (edge_b g) a v /\ conn (nodes g) (edge_b g) b v /\
     ~ conn (without_vertex g v) (edge_b g) a b.
Proof.
  intros g v. unfold is_cut_vertex, without_vertex. split.
  - intros [Hin (c & c' & H1 & H2 & Hlt)]. split; [exact Hin|].
    exact (cut_sep_exists (nodes g) (edge_b g) v (edge_b_sym g) c c' H1 H2 Hlt).
  - intros [Hin (a & b & Hav & Hbv & Hca & Hcb & Hnc)]. split; [exact Hin|].
    destruct (num_components_exists (nodes g) (edge_b g) (edge_b_sym g)) as [c Hc].
    destruct (num_components_exists (remove_nat v (nodes g)) (edge_b g) (edge_b_sym g)) as [c' Hc'].
    exists c, c'. split; [exact Hc|]. split; [exact Hc'|].
    exact (cut_sep_incr (nodes g) (edge_b g) v (edge_b_sym g) a b c c' Hav Hbv Hca Hcb Hnc Hc Hc').
Qed.

Print Assumptions cut_vertex_separation_iff.
Print Assumptions bridge_separation_iff.
