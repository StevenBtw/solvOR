(* Bookkeeping facts of the low-link DFS model Artic.v:
   uadj is the symmetric simple adjacency (uadj_edge); an invariant of dfs/roots, kept by a run that
   never exhausts its fuel (run_ok), giving artic_sound_partial: reported cut vertices are distinct
   nodes, reported bridges are canonical edges, every node is discovered with low <= discovery,
   iterations = number of nodes; and run_fuel_ok.  dfs_loop is the nested loop of dfs as a top-level
   function (dfs_S), which the exactness proof uses too. *)
From Coq Require Import List Arith Bool Lia.
From SV Require Import C15.Graph C15.GraphLemmas C15.Artic C15.ArticSpecProofs.
Import ListNotations.

Lemma aget_aset_same : forall A (l : list (nat * A)) k x, aget (aset l k x) k = Some x.
Proof. intros A l k x. rewrite aget_aset, Nat.eqb_refl. reflexivity. Qed.

Lemma aget_aset_other : forall A (l : list (nat * A)) k k' x,
  k <> k' -> aget (aset l k x) k' = aget l k'.
Proof. intros A l k k' x Hne. rewrite aget_aset. apply Nat.eqb_neq in Hne. rewrite Hne. reflexivity. Qed.

Lemma aset_keys_new : forall A (l : list (nat * A)) k x,
  aget l k = None -> map fst (aset l k x) = map fst l ++ [k].
Proof.
  intros A l k x. induction l as [|[k0 y] l IH]; simpl; intro H.
  - reflexivity.
  - destruct (k0 =? k) eqn:E; [discriminate|]. simpl. rewrite IH; [reflexivity | exact H].
Qed.

Lemma dedup_In : forall l seen x, In x (dedup l seen) <-> In x l /\ ~ In x seen.
Proof.
  induction l as [|a l IH]; simpl; intros seen x.
  - split; [intros [] | intros [[] _]].
  - destruct (memb a seen) eqn:E.
    + apply memb_In in E. rewrite IH. split.
      * intros [H1 H2]. split; auto.
      * intros [[H1|H1] H2]; [subst a; contradiction | auto].
    + apply memb_false in E. simpl. rewrite IH. simpl. split.
      * intros [H | [H1 H2]]; [subst a; split; auto | split; auto].
      * intros [[H|H] H2]; [left; exact H|].
        destruct (Nat.eq_dec a x) as [Heq|Hne]; [left; exact Heq|].
        right. split; [exact H|]. intros [H3|H3]; auto.
Qed.

Lemma dedup_NoDup : forall l seen, NoDup (dedup l seen).
Proof.
  induction l as [|a l IH]; simpl; intro seen.
  - constructor.
  - destruct (memb a seen); [apply IH|]. constructor; [|apply IH].
    rewrite dedup_In. intros [_ H]. apply H. left. reflexivity.
Qed.

Lemma own_In : forall g v w, In w (own g v) <-> In w (nbrs g v) /\ In w (nodes g) /\ w <> v.
Proof.
  intros g v w. unfold own. split.
  - intro H. apply dedup_In in H. destruct H as [H _]. apply filter_In in H. destruct H as [H1 H].
    apply andb_prop in H. destruct H as [H2 H3]. apply memb_In in H2.
    apply negb_true_iff, Nat.eqb_neq in H3. auto.
  - intros (H1 & H2 & H3). apply dedup_In. split; [|intros []]. apply filter_In. split; [exact H1|].
    apply andb_true_intro. split; [apply memb_In; exact H2 | apply negb_true_iff, Nat.eqb_neq; exact H3].
Qed.

Lemma uadj_In : forall g v w, In v (nodes g) ->
  (In w (uadj g v) <-> edge_b g v w = true).
Proof.
  intros g v w Hv. unfold uadj. split.
  - intro H. apply edge_b_In. apply in_app_or in H. destruct H as [H|H].
    + apply own_In in H. destruct H as (H1 & H2 & H3). auto.
    + apply filter_In in H. destruct H as [H2 H]. apply andb_prop in H. destruct H as [H _].
      apply memb_In, own_In in H. destruct H as (H1 & _ & H3). auto.
  - intro H. apply edge_b_In in H. destruct H as (H1 & _ & H3 & H4). apply in_or_app.
    (* w is listed in own v if it can be, in the appended part otherwise *)
    destruct (memb w (own g v)) eqn:E; [left; apply memb_In; exact E | right].
    apply filter_In. split; [exact H3|]. rewrite E, andb_true_r. apply memb_In, own_In.
    split; [|auto]. destruct H4 as [H4|H4]; [|exact H4].
    apply memb_false in E. exfalso. apply E. apply own_In. auto.
Qed.

Theorem uadj_edge : forall g v, valid_graph g = true -> In v (nodes g) ->
  (forall w, In w (uadj g v) <-> edge_b g v w = true) /\ NoDup (uadj g v).
Proof.
  intros g v Hg Hv. split; [intro w; apply uadj_In; exact Hv|].
  unfold uadj. apply NoDup_app_intro.
  - apply dedup_NoDup.
  - apply NoDup_filter. apply nodup_b_NoDup. exact Hg.
  - intros x Hx Hf. apply filter_In in Hf. destruct Hf as [_ Hf].
    apply andb_prop in Hf. destruct Hf as [_ Hf]. apply negb_true_iff in Hf.
    apply memb_false in Hf. exact (Hf Hx).
Qed.

Section Loop.
Variable rec : nat -> ast -> option ast.
Variable v : nat.
Fixpoint dfs_loop (ws : list nat) (children : nat) (s : ast) {struct ws} : option ast :=
  match ws with
  | [] => Some s
  | w :: ws' =>
    match aget (disc s) w with
    | None =>
      match rec w (set_par s w (Some v)) with
      | None => None
      | Some s' => dfs_loop ws' (S children) (after_child s' v w (S children))
      end
    | Some dw =>
      if parent_is s v w then dfs_loop ws' children s
      else dfs_loop ws' children (set_low s v (Nat.min (lowd s v) dw))
    end
  end.
End Loop.

Lemma dfs_S : forall f g v s,
  dfs (S f) g v s = dfs_loop (dfs f g) v (uadj g v) 0 (enter s v).
Proof. intros f g v s. reflexivity. Qed.

(* after_child, with both tests read on the state before: low[v] is updated, then v may be reported as a
   cut vertex (ac_ap), then {v,w} as a bridge (ac_br) *)
Definition ac_ap (s : ast) (v w c : nat) : bool :=
  if is_root s v then 2 <=? c else discd s v <=? lowd s w.
Definition ac_br (s : ast) (v w : nat) : bool := discd s v <? lowd s w.

Lemma after_child_eq : forall s v w c, v <> w ->
  after_child s v w c =
  let s1 := set_low s v (Nat.min (lowd s v) (lowd s w)) in
  let s2 := if ac_ap s v w c then add_ap s1 v else s1 in
  if ac_br s v w then add_br s2 (canon v w) else s2.
Proof.
  intros s v w c Hne. unfold after_child, ac_ap, ac_br. cbv zeta.
  set (s1 := set_low s v (Nat.min (lowd s v) (lowd s w))).
  assert (Hl : lowd s1 w = lowd s w).
  { unfold lowd, agetd. simpl. rewrite aget_aset_other by exact Hne. reflexivity. }
  change (is_root s1 v) with (is_root s v). change (discd s1 v) with (discd s v). rewrite Hl.
  (* a report changes neither disc nor low *)
  destruct (is_root s v); [destruct (2 <=? c) | destruct (discd s v <=? lowd s w)];
    change (lowd (add_ap s1 v) w) with (lowd s1 w); rewrite Hl; reflexivity.
Qed.

Lemma after_child_frame : forall s v w c,
  disc (after_child s v w c) = disc s /\ time (after_child s v w c) = time s.
Proof.
  intros s v w c. unfold after_child.
  repeat match goal with |- context [if ?b then _ else _] => destruct b end; split; reflexivity.
Qed.

Record Inv {g : graph} {s : ast} : Prop := mkInv {
  i_aps : forall v, In v (aps s) -> In v (nodes g);
  i_nodup : NoDup (aps s);
  i_brs : forall a b, In (a, b) (brs s) -> a < b /\ edge_b g a b = true;
  i_disc : forall v d, aget (disc s) v = Some d ->
             In v (nodes g) /\ d < time s /\ exists l, aget (low s) v = Some l /\ l <= d;
  i_iters : iters s = length (disc s);
  i_time : iters s = time s;
  i_keys : NoDup (map fst (disc s))
}.
Arguments Inv : clear implicits.

Lemma Inv_set_par : forall g s w p, Inv g s -> Inv g (set_par s w p).
Proof. intros g s w p [Haps Hnodup Hbrs Hdisc Hiters Htime Hkeys]. constructor; assumption. Qed.

Lemma Inv_set_low : forall g s v x, Inv g s -> Inv g (set_low s v (Nat.min (lowd s v) x)).
Proof.
  intros g s v x [Haps Hnodup Hbrs Hdisc Hiters Htime Hkeys].
  constructor; try assumption. simpl. (* only i_disc mentions low *)
  intros u d Hu. destruct (Hdisc u d Hu) as (A & B & l & Hl & Hle).
  split; [exact A|]. split; [exact B|].
  destruct (Nat.eq_dec v u) as [Heq|Hne].
  - subst u. exists (Nat.min (lowd s v) x). split; [apply aget_aset_same|].
    unfold lowd, agetd. rewrite Hl. lia.
  - exists l. split; [|exact Hle]. rewrite aget_aset_other; [exact Hl | exact Hne].
Qed.

Lemma Inv_add_ap : forall g s v, In v (nodes g) -> Inv g s -> Inv g (add_ap s v).
Proof.
  intros g s v Hv [Haps Hnodup Hbrs Hdisc Hiters Htime Hkeys].
  (* only i_aps and i_nodup mention aps, and only when v is new *)
  constructor; try assumption; simpl; destruct (memb v (aps s)) eqn:E; try assumption.
  - intros u Hu. apply in_app_or in Hu. destruct Hu as [Hu|[Hu|[]]]; [auto | subst u; exact Hv].
  - apply memb_false in E. apply NoDup_app_single; assumption.
Qed.

Lemma Inv_add_br : forall g s v w, edge_b g v w = true -> Inv g s -> Inv g (add_br s (canon v w)).
Proof.
  intros g s v w He [Haps Hnodup Hbrs Hdisc Hiters Htime Hkeys].
  constructor; try assumption. simpl. (* only i_brs mentions brs *)
  intros a b Hab. apply in_app_or in Hab. destruct Hab as [Hab|[Hab|[]]]; [auto|].
  destruct (edge_b_nodes g v w He) as (_ & _ & Hne).
  unfold canon in Hab. destruct (v <? w) eqn:E; injection Hab as Ha Hb; subst a b.
  - apply Nat.ltb_lt in E. auto.
  - apply Nat.ltb_ge in E. split; [lia | rewrite edge_b_sym; exact He].
Qed.

Lemma Inv_enter : forall g s v, In v (nodes g) -> aget (disc s) v = None -> Inv g s ->
  Inv g (enter s v).
Proof.
  intros g s v Hv Hnone [Haps Hnodup Hbrs Hdisc Hiters Htime Hkeys].
  assert (Hk := aset_keys_new _ (disc s) v (time s) Hnone).
  (* i_aps, i_nodup, i_brs are untouched; then i_disc, i_iters, i_time, i_keys *)
  constructor; try assumption; simpl.
  - intros u d Hu. destruct (Nat.eq_dec v u) as [Heq|Hne].
    + subst u. rewrite aget_aset_same in Hu. injection Hu as Hu. subst d.
      split; [exact Hv|]. split; [lia|]. exists (time s). split; [apply aget_aset_same | lia].
    + rewrite aget_aset_other in Hu by exact Hne.
      destruct (Hdisc u d Hu) as (A & B & l & Hl & Hle). split; [exact A|]. split; [lia|].
      exists l. split; [|exact Hle]. rewrite aget_aset_other; [exact Hl | exact Hne].
  - rewrite <- (map_length fst (aset (disc s) v (time s))), Hk, app_length, map_length. simpl. lia.
  - lia.
  - rewrite Hk. apply NoDup_app_single; [exact Hkeys|]. apply aget_none_notin. exact Hnone.
Qed.

Lemma Inv_after_child : forall g s v w c, In v (nodes g) -> edge_b g v w = true -> Inv g s ->
  Inv g (after_child s v w c).
Proof.
  intros g s v w c Hv He H. destruct (edge_b_nodes g v w He) as (_ & _ & Hne).
  rewrite (after_child_eq s v w c Hne). cbv zeta.
  pose proof (Inv_set_low g s v (lowd s w) H) as H1.
  set (s1 := set_low s v (Nat.min (lowd s v) (lowd s w))) in *.
  assert (H2 : Inv g (if ac_ap s v w c then add_ap s1 v else s1))
    by (destruct (ac_ap s v w c); [apply Inv_add_ap|]; assumption).
  destruct (ac_br s v w); [apply Inv_add_br|]; assumption.
Qed.

Lemma Inv_ainit : forall g, Inv g ainit.
Proof.
  intro g. constructor; simpl; try reflexivity.
  - intros v [].
  - constructor.
  - intros a b [].
  - intros v d Hd. discriminate.
  - constructor.
Qed.

(* the clock counts the discovered nodes *)
Lemma inv_time_le : forall g s, Inv g s -> time s <= length (nodes g).
Proof.
  intros g s [_ _ _ Hdisc Hiters Htime Hkeys]. rewrite <- Htime, Hiters, <- (map_length fst).
  apply NoDup_incl_length; [exact Hkeys|]. intros k Hk.
  destruct (aget (disc s) k) as [d|] eqn:Hd; [exact (proj1 (Hdisc k d Hd))|].
  apply aget_none_notin in Hd. contradiction.
Qed.

Definition grows (s s' : ast) : Prop :=
  (forall x, aget (disc s) x <> None -> aget (disc s') x <> None) /\ time s <= time s'.

Lemma grows_refl : forall s, grows s s.
Proof. intro s. split; [intros x H; exact H | apply le_n]. Qed.

Lemma grows_trans : forall s1 s2 s3, grows s1 s2 -> grows s2 s3 -> grows s1 s3.
Proof. intros s1 s2 s3 [A1 B1] [A2 B2]. split; [intros x H; exact (A2 x (A1 x H)) | lia]. Qed.

Lemma grows_enter : forall s v, grows s (enter s v).
Proof.
  intros s v. split; [|simpl; lia]. intros x H. simpl. destruct (Nat.eq_dec v x) as [Heq|Hne].
  - subst x. rewrite aget_aset_same. discriminate.
  - rewrite aget_aset_other by exact Hne. exact H.
Qed.

Lemma grows_after_child : forall s v w c, grows s (after_child s v w c).
Proof.
  intros s v w c. destruct (after_child_frame s v w c) as [Ed Et]. unfold grows.
  rewrite Ed, Et. apply grows_refl.
Qed.

(* Fuel for every node not yet on the clock suffices.  One induction gives both the bookkeeping facts
   and the absence of fuel exhaustion. *)
Definition dfs_ok (g : graph) (f : nat) : Prop :=
  forall w s, In w (nodes g) -> aget (disc s) w = None -> Inv g s -> length (nodes g) <= f + time s ->
    exists s', dfs f g w s = Some s' /\ Inv g s' /\ grows s s' /\ aget (disc s') w <> None.

Lemma loop_ok : forall g f v, dfs_ok g f -> In v (nodes g) ->
  forall ws children s,
    (forall w, In w ws -> edge_b g v w = true) -> Inv g s -> length (nodes g) <= f + time s ->
    exists s', dfs_loop (dfs f g) v ws children s = Some s' /\ Inv g s' /\ grows s s'.
Proof.
  intros g f v IHf Hv. induction ws as [|w ws IH]; intros children s Hws HI Hf; simpl.
  - exists s. split; [reflexivity|]. split; [exact HI | apply grows_refl].
  - assert (He : edge_b g v w = true) by (apply Hws; left; reflexivity).
    assert (Hws' : forall w0, In w0 ws -> edge_b g v w0 = true)
      by (intros w0 Hw0; apply Hws; right; exact Hw0).
    destruct (aget (disc s) w) as [dw|] eqn:Hd.
    + destruct (parent_is s v w).
      * exact (IH children s Hws' HI Hf).
      * exact (IH children _ Hws' (Inv_set_low g s v dw HI) Hf).
    + destruct (edge_b_nodes g v w He) as (_ & Hw & _).
      destruct (IHf w (set_par s w (Some v)) Hw Hd (Inv_set_par g s w (Some v) HI) Hf)
        as (a & Hr & Ia & Ga & _).
      rewrite Hr. pose proof (grows_after_child a v w (S children)) as Gc.
      destruct (IH (S children) _ Hws' (Inv_after_child g a v w (S children) Hv He Ia))
        as (s' & Hl & Is' & Gs').
      * destruct Ga as [_ Ha]. destruct Gc as [_ Hc]. simpl in Ha. lia.
      * exists s'. split; [exact Hl|]. split; [exact Is'|].
        exact (grows_trans _ _ _ Ga (grows_trans _ _ _ Gc Gs')).
Qed.

Lemma dfs_ok_all : forall g f, dfs_ok g f.
Proof.
  intros g f. induction f as [|f IHf]; intros v s Hv Hnone HI Hf;
    pose proof (Inv_enter g s v Hv Hnone HI) as HI'.
  - apply inv_time_le in HI'. simpl in HI'. lia.
  - rewrite dfs_S.
    destruct (loop_ok g f v IHf Hv (uadj g v) 0 (enter s v)) as (s' & Hl & Is' & Gs').
    + intros w Hw. apply (uadj_In g v w Hv). exact Hw.
    + exact HI'.
    + simpl. lia.
    + exists s'. split; [exact Hl|]. split; [exact Is'|].
      split; [exact (grows_trans _ _ _ (grows_enter s v) Gs')|].
      apply Gs'. simpl. rewrite aget_aset_same. discriminate.
Qed.

Lemma roots_ok : forall g fuel, length (nodes g) <= fuel ->
  forall vs s, incl vs (nodes g) -> Inv g s ->
    exists s', roots fuel g vs s = Some s' /\ Inv g s' /\ grows s s' /\
               forall v, In v vs -> aget (disc s') v <> None.
Proof.
  intros g fuel Hfuel. induction vs as [|v vs IH]; intros s Hincl HI; simpl.
  - exists s. split; [reflexivity|]. split; [exact HI|]. split; [apply grows_refl | intros v []].
  - assert (Hv : In v (nodes g)) by (apply Hincl; left; reflexivity).
    assert (Hincl' : incl vs (nodes g)) by (intros z Hz; apply Hincl; right; exact Hz).
    destruct (aget (disc s) v) as [d|] eqn:Hd.
    + destruct (IH s Hincl' HI) as (s' & Hr & Is' & Gs' & Hall).
      exists s'. split; [exact Hr|]. split; [exact Is'|]. split; [exact Gs'|].
      intros u [Hu|Hu]; [|exact (Hall u Hu)]. subst u. apply Gs'. rewrite Hd. discriminate.
    + destruct (dfs_ok_all g fuel v (set_par s v None) Hv Hd (Inv_set_par g s v None HI))
        as (a & Hr & Ia & Ga & Da); [lia|].
      rewrite Hr. destruct (IH a Hincl' Ia) as (s' & Hr' & Is' & Gs' & Hall).
      exists s'. split; [exact Hr'|]. split; [exact Is'|]. split; [exact (grows_trans _ _ _ Ga Gs')|].
      intros u [Hu|Hu]; [|exact (Hall u Hu)]. subst u. apply Gs'. exact Da.
Qed.

Lemma run_ok : forall g, exists s,
  run g = Some s /\ Inv g s /\ forall v, In v (nodes g) -> aget (disc s) v <> None.
Proof.
  intro g. destruct (roots_ok g (S (length (nodes g))) (Nat.le_succ_diag_r _) (nodes g) ainit
                       (incl_refl _) (Inv_ainit g)) as (s & Hr & Is & _ & Hall).
  exists s. auto.
Qed.

Theorem artic_sound_partial : forall g s, valid_graph g = true -> run g = Some s ->
  (forall v, In v (aps s) -> In v (nodes g)) /\ NoDup (aps s) /\
  (forall a b, In (a, b) (brs s) -> a < b /\ edge_b g a b = true) /\
  (forall v, In v (nodes g) ->
     exists d l, aget (disc s) v = Some d /\ aget (low s) v = Some l /\ l <= d) /\
  iters s = length (nodes g).
Proof.
  intros g s Hg H. destruct (run_ok g) as (s0 & H0 & HI & Hall).
  rewrite H in H0. injection H0 as H0. subst s0.
  pose proof (inv_time_le g s HI) as Hle. destruct HI as [Haps Hnodup Hbrs Hdisc Hiters Htime Hkeys].
  split; [exact Haps|]. split; [exact Hnodup|]. split; [exact Hbrs|]. split.
  - intros v Hv. specialize (Hall v Hv). destruct (aget (disc s) v) as [d|] eqn:Hd; [|congruence].
    destruct (Hdisc v d Hd) as (_ & _ & l & Hl & Hle'). exists d, l. auto.
  - (* every node is a key of disc, and the node list has no repeats *)
    assert (B : length (nodes g) <= length (map fst (disc s))).
    { apply NoDup_incl_length; [exact (proj1 (nodup_b_NoDup _) Hg)|]. intros k Hk.
      destruct (in_dec Nat.eq_dec k (map fst (disc s))) as [Hin|Hout]; [exact Hin|].
      apply aget_none_notin in Hout. exact (False_ind _ (Hall k Hk Hout)). }
    rewrite map_length in B. lia.
Qed.

Theorem run_fuel_ok : forall g, valid_graph g = true -> run g <> None.
Proof. intros g _. destruct (run_ok g) as (s & H & _). rewrite H. discriminate. Qed.

Print Assumptions uadj_edge.
Print Assumptions artic_sound_partial.
Print Assumptions run_fuel_ok.
