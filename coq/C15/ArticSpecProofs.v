(* Soundness of the boolean removal-and-recount certificate of ArticSpec.v:
   count_components computes a number c with num_components vs e c, that number is unique, hence
   is_cut_vertex_b / is_bridge_b / not_cut_vertex_b / not_bridge_b / ap_spec_check / br_spec_check
   are sound for the Prop-level definitions is_cut_vertex / is_bridge.  Also the reachability lemmas
   (connP) and independent lists (indep) that the other Artic files argue with. *)
From Coq Require Import List Arith Bool Relations Lia.
From SV Require Import C15.Graph C15.GraphLemmas C15.ArticSpec.
Import ListNotations.

Lemma without_edge_sym : forall g a b x y, without_edge g a b x y = without_edge g a b y x.
Proof.
  intros g a b x y. unfold without_edge. rewrite (edge_b_sym g x y). f_equal. f_equal.
  rewrite orb_comm. f_equal; apply andb_comm.
Qed.

Lemma without_edge_true : forall g a b x y,
  without_edge g a b x y = true <->
  edge_b g x y = true /\ ~ (x = a /\ y = b) /\ ~ (x = b /\ y = a).
Proof.
  intros g a b x y. unfold without_edge. split.
  - intro H. apply andb_prop in H. destruct H as [H1 H2]. split; [exact H1|].
    apply negb_true_iff, orb_false_iff in H2. destruct H2 as [H2 H3].
    split; intros [E1 E2]; subst x y; rewrite !Nat.eqb_refl in *; discriminate.
  - intros (H1 & H2 & H3). rewrite H1. simpl. apply negb_true_iff, orb_false_iff.
    split; apply andb_false_iff.
    + destruct (Nat.eqb_spec x a) as [E|E]; [right | left; reflexivity].
      apply Nat.eqb_neq. intro E'. exact (H2 (conj E E')).
    + destruct (Nat.eqb_spec x b) as [E|E]; [right | left; reflexivity].
      apply Nat.eqb_neq. intro E'. exact (H3 (conj E E')).
Qed.

Lemma edge_b_In : forall g u v, edge_b g u v = true <->
  u <> v /\ In u (nodes g) /\ In v (nodes g) /\ (In v (nbrs g u) \/ In u (nbrs g v)).
Proof.
  intros g u v. unfold edge_b. split.
  - intro H. apply andb_prop in H. destruct H as [H H4].
    apply andb_prop in H. destruct H as [H H3]. apply andb_prop in H. destruct H as [H1 H2].
    apply negb_true_iff, Nat.eqb_neq in H1. apply memb_In in H2, H3.
    apply orb_prop in H4. rewrite !memb_In in H4. auto.
  - intros (H1 & H2 & H3 & H4). apply Nat.eqb_neq in H1. apply memb_In in H2, H3.
    rewrite H1, H2, H3. simpl. apply orb_true_intro. rewrite !memb_In. exact H4.
Qed.

(* `conn vs e` is `connP (fun x => In x vs) e` by definition: the lemmas about connP apply to conn goals
   as they stand. *)
Definition connP (P : nat -> Prop) (e : nat -> nat -> bool) : nat -> nat -> Prop :=
  clos_refl_trans nat (fun x y => P x /\ P y /\ e x y = true).

Lemma connP_refl : forall P e a, connP P e a a.
Proof. intros P e a. apply rt_refl. Qed.

Lemma connP_trans : forall P e a b c, connP P e a b -> connP P e b c -> connP P e a c.
Proof. intros P e a b c H1 H2. exact (rt_trans _ _ _ _ _ H1 H2). Qed.

Lemma connP_step : forall (P : nat -> Prop) e a b, P a -> P b -> e a b = true -> connP P e a b.
Proof. intros P e a b Ha Hb He. apply rt_step. auto. Qed.

Lemma connP_paths : forall (P Q : nat -> Prop) (e e' : nat -> nat -> bool) a b,
  (forall x y, P x -> P y -> e x y = true -> connP Q e' x y) ->
  connP P e a b -> connP Q e' a b.
Proof.
  intros P Q e e' a b Hst H. unfold connP in *.
  induction H as [x y H | x | x y z H1 IH1 H2 IH2].
  - destruct H as (Hx & Hy & He). exact (Hst x y Hx Hy He).
  - apply rt_refl.
  - apply rt_trans with y; assumption.
Qed.

Lemma connP_mono : forall (P Q : nat -> Prop) (e e' : nat -> nat -> bool) a b,
  (forall x y, P x -> P y -> e x y = true -> Q x /\ Q y /\ e' x y = true) ->
  connP P e a b -> connP Q e' a b.
Proof.
  intros P Q e e' a b Hst. apply connP_paths. intros x y Hx Hy He. apply rt_step.
  exact (Hst x y Hx Hy He).
Qed.

Lemma connP_sub : forall (P Q : nat -> Prop) e a b,
  (forall x, P x -> Q x) -> connP P e a b -> connP Q e a b.
Proof. intros P Q e a b HPQ. apply connP_mono. auto. Qed.

Lemma connP_sym : forall (P : nat -> Prop) e a b, (forall x y, e x y = e y x) ->
  connP P e a b -> connP P e b a.
Proof.
  intros P e a b Hs H. unfold connP in *.
  induction H as [x y H | x | x y z H1 IH1 H2 IH2].
  - destruct H as (Hx & Hy & He). apply rt_step. rewrite Hs. auto.
  - apply rt_refl.
  - apply rt_trans with y; assumption.
Qed.

Lemma connP_closed : forall (P S : nat -> Prop) e a b,
  (forall x y, S x -> P x -> P y -> e x y = true -> S y) ->
  connP P e a b -> S a -> S b.
Proof.
  intros P S e a b Hcl H. unfold connP in H.
  induction H as [x y H | x | x y z H1 IH1 H2 IH2]; intro Ha.
  - destruct H as (Hx & Hy & He). exact (Hcl x y Ha Hx Hy He).
  - exact Ha.
  - auto.
Qed.

Section Conn.
Variable vs : list nat.
Variable e : nat -> nat -> bool.
Hypothesis e_sym : forall x y, e x y = e y x.

Lemma conn_in : forall x y, conn vs e x y -> In x vs -> In y vs.
Proof.
  intros x y. apply (connP_closed _ (fun z => In z vs)). intros a b _ _ Hb _. exact Hb.
Qed.

Lemma conn_sym : forall x y, conn vs e x y -> conn vs e y x.
Proof. intros x y. apply connP_sym. exact e_sym. Qed.

Lemma grow_In : forall R y, In y (grow vs e R) ->
  In y R \/ (In y vs /\ exists x, In x R /\ e x y = true).
Proof.
  intros R y H. unfold grow in H. apply in_app_or in H. destruct H as [H|H]; [left; exact H|].
  right. apply filter_In in H. destruct H as [Hy H]. apply andb_prop in H. destruct H as [_ H].
  apply existsb_exists in H. destruct H as [x [Hx He]]. split; [exact Hy|]. exists x. auto.
Qed.

Lemma grow_n_inv : forall s k R,
  (forall y, In y R -> In y vs /\ conn vs e s y) ->
  forall y, In y (grow_n k vs e R) -> In y vs /\ conn vs e s y.
Proof.
  intros s k. induction k as [|k IH]; simpl; intros R HR y Hy.
  - auto.
  - apply IH with (R := grow vs e R); [|exact Hy].
    intros z Hz. apply grow_In in Hz. destruct Hz as [Hz | (Hzv & x & Hx & He)]; [auto|].
    split; [exact Hzv|]. destruct (HR x Hx) as [Hxv Hc].
    apply connP_trans with x; [exact Hc|]. apply rt_step. auto.
Qed.

Lemma grow_n_incl : forall k R y, In y R -> In y (grow_n k vs e R).
Proof.
  induction k as [|k IH]; simpl; intros R y H; [exact H|].
  apply IH. unfold grow. apply in_or_app. left. exact H.
Qed.

Lemma closed_spec : forall R, closed_b vs e R = true ->
  forall x y, In x R -> In y vs -> e x y = true -> In y R.
Proof.
  intros R H x y Hx Hy He. unfold closed_b in H. rewrite forallb_forall in H.
  specialize (H y Hy). apply orb_prop in H. destruct H as [H|H].
  - apply memb_In. exact H.
  - apply negb_true_iff in H.
    assert (Hex : existsb (fun x0 => e x0 y) R = true).
    { apply existsb_exists. exists x. auto. }
    congruence.
Qed.

Lemma closed_conn : forall R, closed_b vs e R = true ->
  forall x y, conn vs e x y -> In x R -> In y R.
Proof.
  intros R HR x y. apply (connP_closed _ (fun z => In z R)). intros a b Ha _ Hb He. exact (closed_spec R HR a b Ha Hb He).
Qed.

Lemma component_spec : forall s R, In s vs -> component vs e s = Some R ->
  forall y, In y R <-> conn vs e s y.
Proof.
  intros s R Hs H y. unfold component in H.
  destruct (closed_b vs e (grow_n (length vs) vs e [s])) eqn:Hc; [|discriminate].
  injection H as H. subst R. split.
  - intro Hy. apply (grow_n_inv s (length vs) [s]); [|exact Hy].
    intros z [Hz|[]]. subst z. split; [exact Hs | apply connP_refl].
  - intro Hy. apply (closed_conn _ Hc s y Hy). apply grow_n_incl. left. reflexivity.
Qed.

Lemma rel_inj_length : forall (R : nat -> nat -> Prop) (l l' : list nat),
  NoDup l ->
  (forall x, In x l -> exists y, In y l' /\ R x y) ->
  (forall x x' y, In x l -> In x' l -> R x y -> R x' y -> x = x') ->
  length l <= length l'.
Proof.
  intros R l. induction l as [|a l IH]; intros l' Hnd Hex Hinj; simpl; [lia|].
  inversion Hnd as [|a0 l0 Ha Hl]; subst a0 l0.
  destruct (Hex a (or_introl eq_refl)) as [y [Hy Hay]].
  apply in_split in Hy. destruct Hy as [l1 [l2 Hl']]. subst l'.
  rewrite app_length. simpl.
  assert (Hle : length l <= length (l1 ++ l2)).
  { apply IH; [exact Hl | |].
    - intros x Hx. destruct (Hex x (or_intror Hx)) as [y' [Hy' Hxy']].
      exists y'. split; [|exact Hxy'].
      apply in_app_or in Hy'. apply in_or_app. destruct Hy' as [Hy'|[Hy'|Hy']]; auto.
      subst y'. exfalso. apply Ha.
      rewrite (Hinj a x y (or_introl eq_refl) (or_intror Hx) Hay Hxy'). exact Hx.
    - intros x x' y0 Hx Hx'. apply Hinj; right; assumption. }
  rewrite app_length in Hle. lia.
Qed.

(* lists of pairwise unconnected nodes: what the representatives of num_components are *)
Definition indep (l : list nat) : Prop :=
  NoDup l /\ incl l vs /\ forall r r', In r l -> In r' l -> conn vs e r r' -> r = r'.

Lemma indep_nil : indep [].
Proof. split; [constructor|]. split; [intros z [] | intros r r' []]. Qed.

Lemma indep_cons : forall x l, indep l -> In x vs -> (forall r, In r l -> ~ conn vs e x r) ->
  indep (x :: l).
Proof.
  intros x l (ND & Inc & PW) Hx Hn. split; [|split].
  - constructor; [|exact ND]. intro Hin. exact (Hn x Hin (connP_refl _ _ _)).
  - intros z [Hz|Hz]; [subst z; exact Hx | exact (Inc z Hz)].
  - intros r r' [Hr|Hr] [Hr'|Hr'] Hc.
    + congruence.
    + subst r. exfalso. exact (Hn r' Hr' Hc).
    + subst r'. exfalso. exact (Hn r Hr (conn_sym _ _ Hc)).
    + exact (PW r r' Hr Hr' Hc).
Qed.

Lemma indep_length : forall l l', indep l ->
  (forall x, In x vs -> exists r, In r l' /\ conn vs e x r) -> length l <= length l'.
Proof.
  intros l l' (ND & Inc & PW) Cov. apply (rel_inj_length (conn vs e)); [exact ND | |].
  - intros x Hx. exact (Cov x (Inc x Hx)).
  - intros x x' y Hx Hx' H1 H2. apply PW; [exact Hx | exact Hx' |].
    apply connP_trans with y; [exact H1 | apply conn_sym; exact H2].
Qed.

(* invariant of the scan: reps represents exactly the classes met so far; it only grows *)
Lemma count_from_sound : forall todo seen reps c',
  incl todo vs -> indep reps ->
  (forall x, In x seen <-> exists r, In r reps /\ conn vs e r x) ->
  count_from vs e todo seen (length reps) = Some c' ->
  exists reps', indep reps' /\ length reps' = c' /\ incl reps reps' /\
    forall x, In x todo -> exists r, In r reps' /\ conn vs e x r.
Proof.
  induction todo as [|v todo IH]; intros seen reps c' Htodo Hind Hseen H; simpl in H.
  - injection H as H. exists reps. split; [exact Hind|]. split; [exact H|].
    split; [apply incl_refl | intros x []].
  - assert (Hv : In v vs) by (apply Htodo; left; reflexivity).
    assert (Htodo' : incl todo vs) by (intros z Hz; apply Htodo; right; exact Hz).
    destruct (memb v seen) eqn:Hm.
    + destruct (IH seen reps c' Htodo' Hind Hseen H) as (reps' & A & B & C & D).
      exists reps'. split; [exact A|]. split; [exact B|]. split; [exact C|].
      intros x [Hx|Hx]; [subst x | exact (D x Hx)].
      apply memb_In, Hseen in Hm. destruct Hm as [r [Hr Hc]].
      exists r. split; [exact (C r Hr) | apply conn_sym; exact Hc].
    + destruct (component vs e v) as [R|] eqn:Hcomp; [|discriminate].
      pose proof (component_spec v R Hv Hcomp) as HR. apply memb_false in Hm.
      destruct (IH (R ++ seen) (v :: reps) c' Htodo') as (reps' & A & B & C & D).
      * apply indep_cons; [exact Hind | exact Hv |]. intros r Hr Hc. apply Hm. apply Hseen.
        exists r. split; [exact Hr | apply conn_sym; exact Hc].
      * intro x. rewrite in_app_iff, HR, Hseen. split.
        -- intros [Hx | [r [Hr Hc]]]; [exists v | exists r]; simpl; auto.
        -- intros [r [[Hr|Hr] Hc]]; [subst r; left; exact Hc | right; exists r; auto].
      * exact H.
      * exists reps'. split; [exact A|]. split; [exact B|].
        split; [intros r Hr; apply C; right; exact Hr|].
        intros x [Hx|Hx]; [subst x | exact (D x Hx)].
        exists v. split; [apply C; left; reflexivity | apply connP_refl].
Qed.

Lemma count_is_num_components : forall c,
  count_components vs e = Some c -> num_components vs e c.
Proof.
  intros c H.
  destruct (count_from_sound vs [] [] c (incl_refl vs) indep_nil) as (reps & (A & C & E) & B & _ & D).
  - intro x. split; [intros [] | intros [r [[] _]]].
  - exact H.
  - exists reps. repeat split; auto.
Qed.

Lemma num_components_le : forall c c',
  num_components vs e c -> num_components vs e c' -> c <= c'.
Proof.
  intros c c' (reps & A & B & C & D & E) (reps' & A' & B' & C' & D' & E').
  subst c c'. exact (indep_length reps reps' (conj A (conj C E)) D').
Qed.

End Conn.

Theorem count_components_sound : forall vs e c,
  NoDup vs -> (forall x y, e x y = e y x) ->
  count_components vs e = Some c -> num_components vs e c.
Proof.
  intros vs e c _ Hsym H. apply count_is_num_components; assumption.
Qed.

Theorem num_components_unique : forall vs e c c',
  (forall x y, e x y = e y x) ->
  num_components vs e c -> num_components vs e c' -> c = c'.
Proof.
  intros vs e c c' Hsym H H'.
  pose proof (num_components_le vs e Hsym c c' H H').
  pose proof (num_components_le vs e Hsym c' c H' H). lia.
Qed.

Lemma recount_sound : forall vs e vs' e' (cmp : nat -> nat -> bool),
  (forall x y, e x y = e y x) -> (forall x y, e' x y = e' y x) ->
  match count_components vs e, count_components vs' e' with
  | Some c, Some c' => cmp c c'
  | _, _ => false
  end = true ->
  exists c c', num_components vs e c /\ num_components vs' e' c' /\ cmp c c' = true.
Proof.
  intros vs e vs' e' cmp Hs Hs' H.
  destruct (count_components vs e) as [c|] eqn:Hc; [|discriminate].
  destruct (count_components vs' e') as [c'|] eqn:Hc'; [|discriminate].
  exists c, c'. split; [|split; [|exact H]]; apply count_is_num_components; assumption.
Qed.

Theorem is_cut_vertex_b_sound : forall g v,
  valid_graph g = true -> is_cut_vertex_b g v = true -> is_cut_vertex g v.
Proof.
  intros g v _ H. unfold is_cut_vertex_b in H. apply andb_prop in H. destruct H as [Hv H].
  split; [apply memb_In; exact Hv|].
  destruct (recount_sound _ _ _ _ Nat.ltb (edge_b_sym g) (edge_b_sym g) H) as (c & c' & Hc & Hc' & Hlt).
  exists c, c'. apply Nat.ltb_lt in Hlt. auto.
Qed.

Theorem is_bridge_b_sound : forall g e,
  valid_graph g = true -> is_bridge_b g e = true -> is_bridge g (fst e) (snd e).
Proof.
  intros g e _ H. unfold is_bridge_b in H. apply andb_prop in H. destruct H as [He H].
  split; [exact He|].
  destruct (recount_sound _ _ _ _ Nat.ltb (edge_b_sym g) (without_edge_sym g (fst e) (snd e)) H)
    as (c & c' & Hc & Hc' & Hlt).
  exists c, c'. apply Nat.ltb_lt in Hlt. auto.
Qed.

(* the negative certificates: the counts are unique, so "not increased" refutes the definition *)
Theorem not_cut_vertex_b_sound : forall g v,
  valid_graph g = true -> not_cut_vertex_b g v = true -> ~ is_cut_vertex g v.
Proof.
  intros g v _ H [Hv (c1 & c1' & H1 & H1' & Hlt)]. unfold not_cut_vertex_b in H.
  apply orb_prop in H. destruct H as [H|H].
  - apply negb_true_iff in H. apply memb_false in H. exact (H Hv).
  - destruct (recount_sound _ _ _ _ (fun c c' => c' <=? c) (edge_b_sym g) (edge_b_sym g) H)
      as (c & c' & Hc & Hc' & Hle).
    apply Nat.leb_le in Hle.
    pose proof (num_components_unique _ _ _ _ (edge_b_sym g) H1 Hc).
    pose proof (num_components_unique _ _ _ _ (edge_b_sym g) H1' Hc'). lia.
Qed.

Theorem not_bridge_b_sound : forall g e,
  valid_graph g = true -> not_bridge_b g e = true -> ~ is_bridge g (fst e) (snd e).
Proof.
  intros g e _ H [He (c1 & c1' & H1 & H1' & Hlt)]. unfold not_bridge_b in H.
  apply orb_prop in H. destruct H as [H|H].
  - rewrite He in H. discriminate.
  - destruct (recount_sound _ _ _ _ (fun c c' => c' <=? c) (edge_b_sym g)
                (without_edge_sym g (fst e) (snd e)) H) as (c & c' & Hc & Hc' & Hle).
    apply Nat.leb_le in Hle.
    pose proof (num_components_unique _ _ _ _ (edge_b_sym g) H1 Hc).
    pose proof (num_components_unique _ _ _ _ (without_edge_sym g (fst e) (snd e)) H1' Hc'). lia.
Qed.

Lemma pair_memb_In : forall a b l, pair_memb (a, b) l = true <-> In (a, b) l.
Proof.
  intros a b l. unfold pair_memb. rewrite existsb_exists. simpl. split.
  - intros [[a' b'] [Hq H]]. simpl in H. apply andb_prop in H. destruct H as [H1 H2].
    apply Nat.eqb_eq in H1. apply Nat.eqb_eq in H2. subst a' b'. exact Hq.
  - intro H. exists (a, b). simpl. rewrite !Nat.eqb_refl. auto.
Qed.

Lemma all_edges_In : forall g a b,
  a < b -> edge_b g a b = true -> In (a, b) (all_edges g).
Proof.
  intros g a b Hlt He. destruct (edge_b_nodes g a b He) as (Ha & Hb & _).
  unfold all_edges. apply in_flat_map. exists a. split; [exact Ha|].
  apply in_map_iff. exists b. split; [reflexivity|].
  apply filter_In. split; [exact Hb|].
  apply andb_true_intro. split; [apply Nat.ltb_lt; exact Hlt | exact He].
Qed.

Theorem ap_spec_check_sound_iff : forall g sol,
  valid_graph g = true -> ap_spec_check g sol = true ->
  forall v, In v sol <-> is_cut_vertex g v.
Proof.
  intros g sol Hg H v. unfold ap_spec_check in H. apply andb_prop in H. destruct H as [H1 H2].
  rewrite forallb_forall in H1. rewrite forallb_forall in H2. split.
  - intro Hv. apply is_cut_vertex_b_sound; [exact Hg | apply H1; exact Hv].
  - intro Hc. pose proof Hc as [Hv _]. specialize (H2 v Hv).
    apply orb_prop in H2. destruct H2 as [H2|H2]; [apply memb_In; exact H2|].
    exfalso. exact (not_cut_vertex_b_sound g v Hg H2 Hc).
Qed.

Theorem ap_spec_check_sound : forall g sol,
  valid_graph g = true -> ap_spec_check g sol = true ->
  (forall v, In v sol -> is_cut_vertex g v) /\
  (forall v, In v (nodes g) -> (In v sol <-> is_cut_vertex g v)).
Proof.
  intros g sol Hg H. split.
  - intros v Hv. apply (ap_spec_check_sound_iff g sol Hg H v). exact Hv.
  - intros v _. apply (ap_spec_check_sound_iff g sol Hg H v).
Qed.

Theorem br_spec_check_sound : forall g sol,
  valid_graph g = true -> br_spec_check g sol = true ->
  (forall a b, In (a, b) sol -> a < b /\ is_bridge g a b) /\
  (forall a b, a < b -> is_bridge g a b -> In (a, b) sol).
Proof.
  intros g sol Hg H. unfold br_spec_check in H.
  apply andb_prop in H. destruct H as [H _].
  apply andb_prop in H. destruct H as [H1 H2].
  rewrite forallb_forall in H1. rewrite forallb_forall in H2. split.
  - intros a b Hab. specialize (H1 (a, b) Hab). simpl in H1.
    apply andb_prop in H1. destruct H1 as [Hlt Hb]. apply Nat.ltb_lt in Hlt.
    split; [exact Hlt|]. exact (is_bridge_b_sound g (a, b) Hg Hb).
  - intros a b Hlt Hbr. pose proof Hbr as [He _].
    specialize (H2 (a, b) (all_edges_In g a b Hlt He)).
    apply orb_prop in H2. destruct H2 as [H2|H2]; [apply pair_memb_In; exact H2|].
    exfalso. exact (not_bridge_b_sound g (a, b) Hg H2 Hbr).
Qed.

Print Assumptions count_components_sound.
Print Assumptions is_cut_vertex_b_sound.
Print Assumptions is_bridge_b_sound.
Print Assumptions num_components_unique.
Print Assumptions not_cut_vertex_b_sound.
Print Assumptions not_bridge_b_sound.
Print Assumptions ap_spec_check_sound_iff.
Print Assumptions ap_spec_check_sound.
Print Assumptions br_spec_check_sound.
