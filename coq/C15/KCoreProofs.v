(* kcore_decomposition / kcore compute the core numbers of the definition, for every pop order;
   soundness of the checker KCoreSpec.kcore_check. *)
From Coq Require Import List Arith Bool Lia Permutation.
From SV Require Import C15.Graph C15.GraphLemmas C15.KCore C15.KCoreSpec C15.KCoreLemmas C15.KCoreStep.
Import ListNotations.

Lemma bkt0_fold : forall g (l : list nat) (b0 : nat -> list nat) d,
  fold_left (fun b v => upd b (deg0 g v) (b (deg0 g v) ++ [v])) l b0 d
  = b0 d ++ filter (fun v => deg0 g v =? d) l.
Proof.
  intros g l. induction l as [|x l IH]; intros b0 d; simpl; [now rewrite app_nil_r|].
  rewrite IH. destruct (Nat.eqb_spec (deg0 g x) d) as [<-|Hne].
  - rewrite upd_same, <- app_assoc. reflexivity.
  - rewrite upd_other by auto. reflexivity.
Qed.

Lemma bkt0_filter : forall g d, bkt0 g d = filter (fun v => deg0 g v =? d) (nodes g).
Proof. intros g d. unfold bkt0. now rewrite bkt0_fold. Qed.

Lemma remL_nil : forall g, remL g [] = nodes g.
Proof. intros g. apply filter_all. reflexivity. Qed.

Lemma degR_nil : forall g v, degR g [] v = deg0 g v.
Proof.
  intros g v. unfold degR, deg_in, deg0. rewrite remL_nil, filter_all; [reflexivity|].
  intros w Hw. apply memb_In. now destruct (sadj_nodes g v w Hw).
Qed.

Lemma init_Inv : forall g, NoDup (nodes g) -> Inv g 0 (init g).
Proof.
  intros g Hnd. constructor; simpl.
  - intros v c H. discriminate.
  - constructor.
  - intros v Hv _. rewrite bkt0_filter. apply filter_In. split; [exact Hv | apply Nat.eqb_refl].
  - intros d v Hin. rewrite bkt0_filter in Hin. apply filter_In in Hin. destruct Hin as [H1 H2].
    apply Nat.eqb_eq in H2. auto.
  - intros d. rewrite bkt0_filter. now apply NoDup_filter.
  - intros v Hv _. now rewrite degR_nil.
  - intros v Hv. unfold max_degree. apply list_max_ge. now apply in_map.
  - reflexivity.
  - exists (nodes g). split; [auto|]. intros v Hv. split; [exact Hv | lia].
  - intros v c H. discriminate.
Qed.

Lemma drain_Inv : forall pick g k fuel s, NoDup (nodes g) -> Inv g k s ->
  length (remL g (core s)) <= fuel ->
  exists s', drain fuel pick g k s = Some s' /\ Inv g k s' /\ bkt s' k = [] /\
             length (remL g (core s')) <= length (remL g (core s)).
Proof.
  intros pick g k fuel. induction fuel as [|f IH]; intros s Hnd HI Hlen; simpl;
    (destruct (bkt s k) as [|x b] eqn:Eb; [exists s; auto|]).
  - exfalso. assert (Hx : In x (bkt s k)) by (rewrite Eb; now left).
    destruct (i_bkt g k s HI k x Hx) as (H1 & H2 & _).
    assert (Hin : In x (remL g (core s))) by (apply remL_In; auto).
    destruct (remL g (core s)); [destruct Hin | simpl in Hlen; lia].
  - assert (Hne : bkt s k <> []) by (rewrite Eb; discriminate).
    destruct (pop_step_Inv pick g k s Hnd HI Hne) as [HI' Hl'].
    destruct (IH (pop_step pick g k s) Hnd HI') as (s' & Hd & HI'' & Hb & Hl''); [lia|].
    exists s'. split; [exact Hd | split; [exact HI'' | split; [exact Hb | lia]]].
Qed.

Lemma level_up : forall g k s, Inv g k s -> bkt s k = [] -> Inv g (S k) s.
Proof.
  intros g k s HI Hb. destruct HI as [Hkeys Hnodup Hinb Hbkt Hbnd Hdeg Hmax Hup Hlow Hok].
  assert (Hgt : forall v, In v (nodes g) -> aget (core s) v = None ->
                          deg s v = degR g (core s) v /\ S k <= degR g (core s) v).
  { intros v Hv Hn. specialize (Hdeg v Hv Hn). specialize (Hinb v Hv Hn).
    destruct (Nat.eq_dec (deg s v) k) as [E|E].
    - rewrite E, Hb in Hinb. destruct Hinb.
    - lia. }
  constructor; auto.
  - intros v Hv Hn. destruct (Hgt v Hv Hn). lia.
  - intros S j HS Hj. apply (Hup S j HS). lia.
  - exists (remL g (core s)). split.
    + intros v Hv Hn. apply remL_In. auto.
    + intros v Hv. apply remL_In in Hv. destruct Hv as [Hv Hn]. split; [exact Hv|].
      destruct (Hgt v Hv Hn). exact H0.
  - intros v c Hc. destruct (Hok v c Hc). split; [assumption | lia].
Qed.

Lemma levels_Inv : forall pick g fuel m k0 s, NoDup (nodes g) -> Inv g k0 s ->
  length (remL g (core s)) <= fuel ->
  exists s', levels pick g fuel (seq k0 m) s = Some s' /\ Inv g (k0 + m) s'.
Proof.
  intros pick g fuel m. induction m as [|m IH]; intros k0 s Hnd HI Hlen; simpl.
  - exists s. rewrite Nat.add_0_r. auto.
  - destruct (drain_Inv pick g k0 fuel s Hnd HI Hlen) as (s1 & Hd & HI1 & Hb & Hl).
    rewrite Hd.
    destruct (IH (S k0) s1 Hnd (level_up g k0 s1 HI1 Hb)) as (s' & Hs' & HI'); [lia|].
    exists s'. split; [exact Hs'|]. now rewrite Nat.add_succ_r.
Qed.

Lemma peel_correct : forall pick g, NoDup (nodes g) ->
  exists s, peel pick g = Some s /\ kcore_spec g (core s) /\ NoDup (map fst (core s)) /\
            length (core s) = length (nodes g).
Proof.
  intros pick g Hnd. unfold peel.
  destruct (levels_Inv pick g (length (nodes g)) (S (max_degree g)) 0 (init g) Hnd (init_Inv g Hnd))
    as (s & Hs & HI).
  { simpl. rewrite remL_nil. lia. }
  exists s. split; [exact Hs|]. simpl in HI.
  assert (Hall : forall v, In v (nodes g) -> exists c, aget (core s) v = Some c).
  { intros v Hv. destruct (aget (core s) v) eqn:E; [eauto|]. exfalso.
    assert (H1 := i_deg g _ s HI v Hv E). assert (H2 := i_max g _ s HI v Hv). lia. }
  split; [|split].
  - split.
    + intros v. split; [apply Hall|]. intros [c Hc]. eapply (i_keys g _ s HI); eauto.
    + intros v c Hc. now destruct (i_ok g _ s HI v c Hc).
  - apply (i_nodup g _ s HI).
  - rewrite <- (map_length fst (core s)).
    apply Permutation_length, NoDup_Permutation; [apply (i_nodup g _ s HI) | exact Hnd |].
    intros v. split; intros Hv.
    + destruct (aget (core s) v) eqn:E; [eapply (i_keys g _ s HI); eauto | now apply aget_none_notin in E].
    + destruct (Hall v Hv) as [c Hc]. eapply aget_In_fst; eauto.
Qed.

Theorem kcore_decomposition_correct : forall pick g, valid_graph g = true ->
  exists r, kcore_decomposition pick g = Some r /\ kcore_spec g (k_solution r) /\
            k_iterations r = length (nodes g) /\ k_evaluations r = length (nodes g).
Proof.
  intros pick g Hv. apply nodup_b_NoDup in Hv. unfold kcore_decomposition.
  destruct (nodes g) as [|x l] eqn:En.
  - eexists. split; [reflexivity|]. simpl. split; [|split; reflexivity].
    unfold kcore_spec. rewrite En. split.
    + intros v. split; [intros [] | intros [c Hc]; discriminate].
    + intros v c Hc. discriminate.
  - rewrite <- En in *. destruct (peel_correct pick g Hv) as (s & Hs & Hspec & _ & Hlen).
    rewrite Hs. eexists. split; [reflexivity|]. simpl. rewrite En in *. auto.
Qed.

Lemma core_number_unique : forall g v c c', core_number g v c -> core_number g v c' -> c = c'.
Proof.
  intros g v c c' [[S [HS1 HS2]] Hu] [[S' [HS1' HS2']] Hu'].
  apply Nat.le_antisymm; [apply (Hu' S c) | apply (Hu S' c')]; assumption.
Qed.

(* the specification determines the answer as a map, whatever buckets[k].pop() returns *)
Lemma kcore_spec_unique : forall g sol1 sol2, kcore_spec g sol1 -> kcore_spec g sol2 ->
  forall v, aget sol1 v = aget sol2 v.
Proof.
  intros g sol1 sol2 [Hk1 Hc1] [Hk2 Hc2] v.
  destruct (aget sol1 v) as [c1|] eqn:A1; destruct (aget sol2 v) as [c2|] eqn:A2; try reflexivity.
  - f_equal. eapply core_number_unique; eauto.
  - destruct (proj1 (Hk2 v) (proj2 (Hk1 v) (ex_intro _ c1 A1))) as [c Hc]. congruence.
  - destruct (proj1 (Hk1 v) (proj2 (Hk2 v) (ex_intro _ c2 A2))) as [c Hc]. congruence.
Qed.

Theorem kcore_correct : forall pick g k, valid_graph g = true ->
  exists cs it ev, kcore pick g k = Some (cs, length cs, it, ev) /\
    forall v, In v cs <-> exists c, In v (nodes g) /\ core_number g v c /\ k <= c.
Proof.
  intros pick g k Hv. unfold kcore, kcore_decomposition.
  assert (Hnd := proj1 (nodup_b_NoDup _) Hv).
  destruct (nodes g) as [|x l] eqn:En.
  - do 3 eexists. split; [reflexivity|]. simpl. intros v. split; [intros [] | intros [c [[] _]]].
  - rewrite <- En in *.
    destruct (peel_correct pick g Hnd) as (s & Hs & [Hk Hc] & Hnodup & _).
    rewrite Hs. do 3 eexists. split; [reflexivity|]. simpl. intros v.
    rewrite in_map_iff. split.
    + intros [[v' c] [<- Hin]]. simpl. apply filter_In in Hin. destruct Hin as [Hin Hle].
      simpl in Hle. apply Nat.leb_le in Hle.
      assert (Ha : aget (core s) v' = Some c) by now apply In_pair_aget.
      exists c. split; [apply Hk; eauto | split; [now apply Hc | exact Hle]].
    + intros [c (Hin & Hcn & Hle)]. apply Hk in Hin. destruct Hin as [c' Hc'].
      assert (c' = c) by (eapply core_number_unique; eauto). subst c'.
      exists (v, c). split; [reflexivity|]. apply filter_In. split.
      * now apply aget_In_pair.
      * simpl. now apply Nat.leb_le.
Qed.

(* only bucket indices <= max_degree are ever non-empty (the Python list has max_degree+1 buckets) *)
Lemma Inv_bucket_range : forall g k s d, Inv g k s -> bkt s d <> [] -> d <= max_degree g.
Proof.
  intros g k s d HI Hne. destruct (bkt s d) as [|x b] eqn:Eb; [congruence|].
  assert (Hx : In x (bkt s d)) by (rewrite Eb; now left).
  destruct (i_bkt g k s HI d x Hx) as (H1 & _ & H3). rewrite <- H3. now apply (i_max g k s HI).
Qed.

Lemma min_deg_ge_b_sound : forall g k S, min_deg_ge_b g k S = true -> min_deg_ge g k S.
Proof.
  intros g k S H v Hv. unfold min_deg_ge_b in H. rewrite forallb_forall in H.
  specialize (H v Hv). apply andb_true_iff in H. destruct H as [H1 H2].
  split; [now apply memb_In | now apply Nat.leb_le].
Qed.

Lemma min_deg_ge_mono : forall g j j' S, min_deg_ge g j S -> j' <= j -> min_deg_ge g j' S.
Proof. intros g j j' S H Hle v Hv. destruct (H v Hv). split; [assumption | lia]. Qed.

Lemma del_iter_keeps : forall g j S, min_deg_ge g j S -> forall f X,
  (forall v, In v S -> In v X) -> forall v, In v S -> In v (del_iter f g j X).
Proof.
  intros g j S HS f. induction f as [|f IH]; intros X HX v Hv; simpl; [now apply HX|].
  apply IH; [|exact Hv]. intros u Hu. unfold del_round. apply filter_In. split; [now apply HX|].
  apply Nat.leb_le. destruct (HS u Hu) as [_ Hd].
  assert (deg_in g S u <= deg_in g X u) by now apply deg_in_mono. lia.
Qed.

Theorem kcore_check_sound : forall g sol, kcore_check g sol = true -> kcore_spec g sol.
Proof.
  intros g sol H. unfold kcore_check in H.
  apply andb_true_iff in H. destruct H as [H H3].
  apply andb_true_iff in H. destruct H as [H1 H2].
  rewrite forallb_forall in H1, H2, H3. split.
  - intros v. split.
    + intros Hv. specialize (H1 v Hv). destruct (aget sol v); [eauto | discriminate].
    + intros [c Hc]. apply aget_In_pair in Hc. specialize (H2 _ Hc). now apply memb_In.
  - intros v c Hc. assert (Hin := aget_In_pair _ _ _ Hc). specialize (H3 _ Hin). simpl in H3.
    rewrite Hc in H3.
    apply andb_true_iff in H3. destruct H3 as [H3 Hnot].
    apply andb_true_iff in H3. destruct H3 as [Hmin Hmem].
    split.
    + exists (survivors g c). split; [now apply memb_In | now apply min_deg_ge_b_sound].
    + intros S j HvS HS. destruct (le_lt_dec j c) as [Hle|Hlt]; [exact Hle|]. exfalso.
      apply negb_true_iff, memb_false in Hnot. apply Hnot. unfold survivors.
      apply (del_iter_keeps g (Datatypes.S c) S); [apply (min_deg_ge_mono g j); [exact HS | lia] | | exact HvS].
      intros u Hu. now destruct (HS u Hu).
Qed.

Lemma kcore_set_check_sound : forall sol k out, kcore_set_check sol k out = true ->
  forall v, In v out <-> In v (map fst (filter (fun p => k <=? snd p) sol)).
Proof.
  intros sol k out H v. unfold kcore_set_check, set_eqb, incl_b in H.
  apply andb_true_iff in H. destruct H as [H1 H2]. rewrite forallb_forall in H1, H2.
  split; intros Hv; apply memb_In; auto.
Qed.
