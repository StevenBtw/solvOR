(* Proofs about the PageRank model (C15/PageRank.v): the scores stay on the probability simplex
   (non-negative, sum 1) along every iteration, and on OPTIMAL the L1 residual of the damped equation is
   bounded by  d * n * tol; bounds on the iteration count; the checker pr_spec_check accepts every
   OPTIMAL answer of the model.  All statements are for arbitrary graphs (no size bound). *)
From Coq Require Import List Arith Bool ZArith QArith Qabs Qminmax Lia Lqa.
From SV Require Import C15.Graph C15.GraphLemmas C15.PageRank C15.PageRankLemmas.
Import ListNotations.
Open Scope Q_scope.

(* F(x): one update written over a score FUNCTION x instead of an association list; new_score g d s v is
   Fn g d (score s) v *)
Definition Fn (g : graph) (d : Q) (x : nat -> Q) (v : nat) : Q :=
  (1 - d) / qn (length (nodes g))
  + d * qsum (map (fun u => x u / qn (out_count g u)) (incoming g v))
  + d * qsum (map x (filter (fun v => (out_count g v =? 0)%nat) (nodes g))) / qn (length (nodes g)).

Lemma new_score_Fn : forall g d s v, new_score g d s v = Fn g d (score s) v.
Proof. reflexivity. Qed.

Lemma sum_Fn : forall g d x, NoDup (nodes g) -> nodes g <> [] ->
  qsum (map (Fn g d x) (nodes g)) == (1 - d) + d * qsum (map x (nodes g)).
Proof.
  intros g d x Hnd Hne.
  pose proof (qn_length_pos _ _ Hne) as Hn.
  set (n := qn (length (nodes g))) in *.
  set (D := qsum (map x (filter (fun v => (out_count g v =? 0)%nat) (nodes g)))).
  rewrite (qsum_map_ext_eq _ (Fn g d x)
    (fun v => ((1 - d) / n + d * D / n)
              + d * qsum (map (fun u => x u / qn (out_count g u)) (incoming g v)))).
  - rewrite qsum_map_plus, qsum_map_const, qsum_map_scale.
    rewrite (exchange g (fun u => x u / qn (out_count g u)) Hnd).
    pose proof (split_dangling g x (nodes g)) as Hs. fold D in Hs. fold n.
    rewrite <- Hs. field. lra.
  - intros v _. unfold Fn. fold n. fold D. ring.
Qed.

Lemma Fn_nonneg : forall g d x v, nodes g <> [] -> 0 <= d -> d <= 1 ->
  (forall u, In u (nodes g) -> 0 <= x u) -> 0 <= Fn g d x v.
Proof.
  intros g d x v Hne Hd0 Hd1 Hx.
  pose proof (qn_nonneg (length (nodes g))) as Hn.
  unfold Fn. apply Qplus_nonneg; [apply Qplus_nonneg|].
  - apply Qdiv_nonneg; [lra | exact Hn].
  - apply Qmult_le_0_compat; [exact Hd0|]. apply qsum_map_nonneg. intros u Hu.
    apply Qdiv_nonneg; [apply Hx, (In_incoming g v u Hu) | apply qn_nonneg].
  - apply Qdiv_nonneg; [|exact Hn]. apply Qmult_le_0_compat; [exact Hd0|].
    apply qsum_map_nonneg. intros u Hu. apply Hx. apply filter_In in Hu. apply Hu.
Qed.

Lemma score_step : forall g d s v, In v (nodes g) ->
  score (step g d s) v == new_score g d s v.
Proof.
  intros g d s v Hv. unfold score, agetd, step.
  rewrite (aget_map_key (fun w => Qred (new_score g d s w)) (nodes g) v Hv).
  apply Qred_correct.
Qed.

Lemma score_init : forall g v, In v (nodes g) ->
  score (init_scores g) v == 1 / qn (length (nodes g)).
Proof.
  intros g v Hv. unfold score, agetd, init_scores.
  rewrite (aget_map_key (fun _ => Qred (1 / qn (length (nodes g)))) (nodes g) v Hv).
  apply Qred_correct.
Qed.

Definition simplex (g : graph) (s : list (nat * Q)) : Prop :=
  (forall v, In v (nodes g) -> 0 <= score s v) /\ qsum (map (score s) (nodes g)) == 1.

Lemma simplex_init : forall g, nodes g <> [] -> simplex g (init_scores g).
Proof.
  intros g Hne.
  pose proof (qn_length_pos _ _ Hne) as Hn.
  split.
  - intros v Hv. rewrite (score_init g v Hv). apply Qdiv_nonneg; lra.
  - rewrite (qsum_map_ext_eq _ (score (init_scores g))
       (fun _ => 1 / qn (length (nodes g)))).
    + rewrite qsum_map_const. field. lra.
    + intros v Hv. apply score_init. exact Hv.
Qed.

Lemma simplex_step : forall g d s, NoDup (nodes g) -> nodes g <> [] -> 0 <= d -> d <= 1 ->
  simplex g s -> simplex g (step g d s).
Proof.
  intros g d s Hnd Hne Hd0 Hd1 [Hpos Hsum]. split.
  - intros v Hv. rewrite (score_step g d s v Hv). rewrite new_score_Fn.
    apply Fn_nonneg; assumption.
  - rewrite (qsum_map_ext_eq _ (score (step g d s)) (Fn g d (score s))).
    + rewrite (sum_Fn g d (score s) Hnd Hne). rewrite Hsum. ring.
    + intros v Hv. rewrite (score_step g d s v Hv). rewrite new_score_Fn. reflexivity.
Qed.

Lemma simplex_iterate : forall g d k s, NoDup (nodes g) -> nodes g <> [] -> 0 <= d -> d <= 1 ->
  simplex g s -> simplex g (iterate k g d s).
Proof.
  intros g d k. induction k as [|k IH]; intros s Hnd Hne Hd0 Hd1 Hs.
  - exact Hs.
  - cbn [iterate]. apply IH; [exact Hnd | exact Hne | exact Hd0 | exact Hd1 |]. apply simplex_step; assumption.
Qed.

Lemma simplex_pr_loop : forall g d tol fuel it s last,
  NoDup (nodes g) -> nodes g <> [] -> 0 <= d -> d <= 1 ->
  simplex g s -> simplex g (p_scores (pr_loop fuel it g d tol s last)).
Proof.
  intros g d tol fuel. induction fuel as [|f IH]; intros it s last Hnd Hne Hd0 Hd1 Hs.
  - exact Hs.
  - cbn [pr_loop].
    destruct (qltb (Qred (max_diff g s (step g d s))) tol).
    + cbn [p_scores]. apply simplex_step; assumption.
    + apply IH; [exact Hnd | exact Hne | exact Hd0 | exact Hd1 |]. apply simplex_step; assumption.
Qed.

Lemma Fn_diff_abs : forall g d x y v, nodes g <> [] -> 0 <= d ->
  Qabs (Fn g d x v - Fn g d y v)
  <= Fn g d (fun u => Qabs (x u - y u)) v - (1 - d) / qn (length (nodes g)).
Proof.
  intros g d x y v Hne Hd0.
  pose proof (qn_nonneg (length (nodes g))) as Hn.
  set (n := qn (length (nodes g))) in *.
  set (dl := filter (fun v => (out_count g v =? 0)%nat) (nodes g)).
  set (R := qsum (map (fun u => (x u - y u) / qn (out_count g u)) (incoming g v))).
  set (Dd := qsum (map (fun u => x u - y u) dl)).
  set (RW := qsum (map (fun u => Qabs (x u - y u) / qn (out_count g u)) (incoming g v))).
  set (DW := qsum (map (fun u => Qabs (x u - y u)) dl)).
  assert (E : Fn g d x v - Fn g d y v == d * (R + Dd / n)).
  { unfold Fn, R, Dd. fold n. fold dl.
    rewrite (qsum_map_ext_eq _ (fun u => (x u - y u) / qn (out_count g u))
               (fun u => x u / qn (out_count g u) - y u / qn (out_count g u))).
    - rewrite !qsum_map_minus. unfold Qdiv. ring.
    - intros u _. unfold Qdiv. ring. }
  assert (HR : Qabs R <= RW).
  { unfold R, RW. eapply Qle_trans. apply Qabs_qsum_map_le.
    apply qsum_map_le. intros u _. rewrite Qabs_div_nonneg. apply Qle_refl. apply qn_nonneg. }
  assert (HD : Qabs (Dd / n) <= DW / n).
  { rewrite Qabs_div_nonneg by exact Hn. unfold Qdiv. apply Qmult_le_compat_r.
    - apply Qabs_qsum_map_le.
    - apply Qinv_le_0_compat. exact Hn. }
  assert (EF : Fn g d (fun u => Qabs (x u - y u)) v - (1 - d) / n == d * (RW + DW / n)).
  { unfold Fn, RW, DW. fold n. fold dl. unfold Qdiv. ring. }
  rewrite E, EF, Qabs_Qmult, (Qabs_pos d Hd0), !(Qmult_comm d).
  apply Qmult_le_compat_r; [|exact Hd0].
  eapply Qle_trans; [apply Qabs_triangle|]. apply Qplus_le_compat; assumption.
Qed.

Lemma contraction : forall g d x y, NoDup (nodes g) -> nodes g <> [] -> 0 <= d ->
  qsum (map (fun v => Qabs (Fn g d x v - Fn g d y v)) (nodes g))
  <= d * qsum (map (fun u => Qabs (x u - y u)) (nodes g)).
Proof.
  intros g d x y Hnd Hne Hd0.
  pose proof (qn_length_pos _ _ Hne) as Hn.
  eapply Qle_trans.
  - apply qsum_map_le. intros v _. apply Fn_diff_abs; assumption.
  - rewrite (qsum_map_minus _ (Fn g d (fun u => Qabs (x u - y u)))
               (fun _ => (1 - d) / qn (length (nodes g)))).
    rewrite sum_Fn by assumption. rewrite qsum_map_const.
    apply Qle_lteq. right. field. lra.
Qed.

Lemma fold_max_ge_init : forall (t : nat -> Q) l m,
  m <= fold_left (fun m v => Qmax m (t v)) l m.
Proof.
  intros t l. induction l as [|a l IH]; intros m.
  - apply Qle_refl.
  - cbn [fold_left]. eapply Qle_trans. apply (Q.le_max_l m (t a)). apply IH.
Qed.

Lemma fold_max_ge : forall (t : nat -> Q) l m v, In v l ->
  t v <= fold_left (fun m v => Qmax m (t v)) l m.
Proof.
  intros t l. induction l as [|a l IH]; intros m v Hv.
  - destruct Hv.
  - cbn [fold_left]. destruct Hv as [Hv|Hv].
    + subst a. eapply Qle_trans. apply (Q.le_max_r m (t v)). apply fold_max_ge_init.
    + apply IH. exact Hv.
Qed.

Lemma max_diff_ge : forall g s s' v, In v (nodes g) ->
  Qabs (score s' v - score s v) <= max_diff g s s'.
Proof.
  intros g s s' v Hv. unfold max_diff.
  apply (fold_max_ge (fun v => Qabs (score s' v - score s v)) (nodes g) 0 v Hv).
Qed.

Lemma qltb_lt : forall a b, qltb a b = true -> a < b.
Proof.
  intros a b H. unfold qltb in H. apply negb_true_iff in H.
  apply Qnot_le_lt. intros Hle. apply Qle_bool_iff in Hle. rewrite Hle in H. discriminate H.
Qed.

Lemma residual_step : forall g d tol sp, NoDup (nodes g) -> nodes g <> [] -> 0 <= d ->
  max_diff g sp (step g d sp) < tol ->
  residual g d (step g d sp) <= d * qn (length (nodes g)) * tol.
Proof.
  intros g d tol sp Hnd Hne Hd0 Hmd. unfold residual.
  rewrite (qsum_map_ext_eq _
     (fun v => Qabs (score (step g d sp) v - new_score g d (step g d sp) v))
     (fun v => Qabs (Fn g d (score sp) v - Fn g d (score (step g d sp)) v))).
  - eapply Qle_trans. apply contraction; assumption.
    assert (Hs : qsum (map (fun u => Qabs (score sp u - score (step g d sp) u)) (nodes g))
                 <= qn (length (nodes g)) * tol).
    { rewrite <- qsum_map_const. apply qsum_map_le. intros u Hu.
      rewrite Qabs_Qminus. apply Qlt_le_weak. eapply Qle_lt_trans.
      apply (max_diff_ge g sp (step g d sp) u Hu). exact Hmd. }
    rewrite <- Qmult_assoc. rewrite !(Qmult_comm d). apply Qmult_le_compat_r; assumption.
  - intros v Hv. rewrite (score_step g d sp v Hv). rewrite !new_score_Fn. reflexivity.
Qed.

Lemma pr_loop_optimal : forall g d tol fuel it s last,
  p_status (pr_loop fuel it g d tol s last) = P_OPTIMAL ->
  exists sp, p_scores (pr_loop fuel it g d tol s last) = step g d sp
             /\ qltb (Qred (max_diff g sp (step g d sp))) tol = true.
Proof.
  intros g d tol fuel. induction fuel as [|f IH]; intros it s last Hst.
  - cbn [pr_loop p_status] in Hst. discriminate Hst.
  - cbn [pr_loop] in Hst |- *.
    destruct (qltb (Qred (max_diff g s (step g d s))) tol) eqn:E.
    + exists s. split. reflexivity. exact E.
    + apply IH. exact Hst.
Qed.

Lemma pr_loop_iterations : forall g d tol fuel it s last,
  (it + (if (fuel =? 0)%nat then 0 else 1) <= p_iterations (pr_loop fuel it g d tol s last)
   <= it + fuel)%nat
  /\ (p_status (pr_loop fuel it g d tol s last) = P_MAX_ITER ->
      p_iterations (pr_loop fuel it g d tol s last) = (it + fuel)%nat).
Proof.
  intros g d tol fuel. induction fuel as [|f IH]; intros it s last.
  - cbn [pr_loop p_iterations p_status Nat.eqb]. split. lia. intros _. lia.
  - cbn [pr_loop Nat.eqb].
    destruct (qltb (Qred (max_diff g s (step g d s))) tol).
    + cbn [p_iterations p_status]. split. lia. intros H. discriminate H.
    + specialize (IH (S it) (step g d s) (Qred (max_diff g s (step g d s)))).
      destruct IH as [[Ha Hb] Hc]. split.
      * split. destruct (f =? 0)%nat; lia. lia.
      * intros H. rewrite (Hc H). lia.
Qed.

Lemma pagerank_ok_inv : forall g d tol mi r, pagerank g d tol mi = PR_ok r ->
  nodes g <> [] /\ mi <> 0%nat /\ r = pr_loop mi 0 g d tol (init_scores g) 0.
Proof.
  intros g d tol mi r H. unfold pagerank in H.
  destruct (nodes g) as [|a l] eqn:E.
  - discriminate H.
  - destruct mi as [|m].
    + discriminate H.
    + injection H as H. split. discriminate. split. discriminate. symmetry. exact H.
Qed.

Lemma pagerank_noiter_inv : forall g d tol mi s, pagerank g d tol mi = PR_noiter s ->
  nodes g <> [] /\ mi = 0%nat /\ s = init_scores g.
Proof.
  intros g d tol mi s H. unfold pagerank in H.
  destruct (nodes g) as [|a l] eqn:E.
  - discriminate H.
  - destruct mi as [|m].
    + injection H as H. split. discriminate. split. reflexivity. symmetry. exact H.
    + discriminate H.
Qed.

Theorem pr_simplex_iterate : forall g d k,
  valid_graph g = true -> nodes g <> [] -> 0 <= d -> d <= 1 ->
  let s := iterate k g d (init_scores g) in
  (forall v, In v (nodes g) -> 0 <= score s v) /\ qsum (map (score s) (nodes g)) == 1.
Proof.
  intros g d k Hv Hne Hd0 Hd1. cbv zeta.
  apply (simplex_iterate g d k (init_scores g)); [| exact Hne | exact Hd0 | exact Hd1 |].
  - apply nodup_b_NoDup. exact Hv.
  - apply simplex_init. exact Hne.
Qed.

Theorem pr_simplex : forall g d tol mi r,
  valid_graph g = true -> 0 <= d -> d <= 1 -> pagerank g d tol mi = PR_ok r ->
  (forall v, In v (nodes g) -> 0 <= score (p_scores r) v)
  /\ qsum (map (score (p_scores r)) (nodes g)) == 1.
Proof.
  intros g d tol mi r Hv Hd0 Hd1 Hpr.
  apply pagerank_ok_inv in Hpr. destruct Hpr as [Hne [_ Hr]]. subst r.
  apply (simplex_pr_loop g d tol mi 0 (init_scores g) 0); [| exact Hne | exact Hd0 | exact Hd1 |].
  - apply nodup_b_NoDup. exact Hv.
  - apply simplex_init. exact Hne.
Qed.

Theorem pr_simplex_noiter : forall g d tol mi s,
  valid_graph g = true -> 0 <= d -> d <= 1 -> pagerank g d tol mi = PR_noiter s ->
  (forall v, In v (nodes g) -> 0 <= score s v) /\ qsum (map (score s) (nodes g)) == 1.
Proof.
  intros g d tol mi s Hv Hd0 Hd1 Hpr.
  apply pagerank_noiter_inv in Hpr. destruct Hpr as [Hne [_ Hs]]. subst s.
  apply simplex_init. exact Hne.
Qed.

Theorem pr_residual : forall g d tol mi r,
  valid_graph g = true -> 0 <= d -> d <= 1 -> pagerank g d tol mi = PR_ok r ->
  p_status r = P_OPTIMAL ->
  residual g d (p_scores r) <= d * qn (length (nodes g)) * tol.
Proof.
  intros g d tol mi r Hv Hd0 Hd1 Hpr Hst.
  apply pagerank_ok_inv in Hpr. destruct Hpr as [Hne [_ Hr]]. subst r.
  apply pr_loop_optimal in Hst. destruct Hst as [sp [Hsc Hlt]].
  rewrite Hsc. apply residual_step; [| exact Hne | exact Hd0 |].
  - apply nodup_b_NoDup. exact Hv.
  - apply qltb_lt in Hlt. rewrite Qred_correct in Hlt. exact Hlt.
Qed.

Theorem pr_iterations_bound : forall g d tol mi r, pagerank g d tol mi = PR_ok r ->
  (1 <= p_iterations r <= mi)%nat
  /\ (p_status r = P_MAX_ITER -> p_iterations r = mi).
Proof.
  intros g d tol mi r Hpr.
  apply pagerank_ok_inv in Hpr. destruct Hpr as [_ [Hmi Hr]]. subst r.
  pose proof (pr_loop_iterations g d tol mi 0 (init_scores g) 0) as [[Ha Hb] Hc].
  split.
  - apply Nat.eqb_neq in Hmi. rewrite Hmi in Ha. lia.
  - intros H. rewrite (Hc H). reflexivity.
Qed.

Lemma pr_spec_check_complete : forall eps g d tol mi r,
  valid_graph g = true -> 0 <= d -> d <= 1 -> 0 <= eps -> pagerank g d tol mi = PR_ok r ->
  p_status r = P_OPTIMAL ->
  pr_spec_check eps g d (d * qn (length (nodes g)) * tol) (p_scores r) = true.
Proof.
  intros eps g d tol mi r Hv Hd0 Hd1 Heps Hpr Hst.
  destruct (pr_simplex g d tol mi r Hv Hd0 Hd1 Hpr) as [Hpos Hsum].
  pose proof (pr_residual g d tol mi r Hv Hd0 Hd1 Hpr Hst) as Hres.
  apply pagerank_ok_inv in Hpr. destruct Hpr as [_ [_ Hr]]. subst r.
  apply pr_loop_optimal in Hst. destruct Hst as [sp [Hsc _]]. rewrite Hsc in *.
  unfold pr_spec_check. rewrite !andb_true_iff. repeat split.
  - apply forallb_forall. intros v Hin. specialize (Hpos v Hin).
    unfold score, agetd, step in Hpos |- *.
    rewrite aget_map_key in Hpos |- * by exact Hin. apply Qle_bool_iff. exact Hpos.
  - unfold close. apply Qle_bool_iff. rewrite Hsum. exact Heps.
  - apply Qle_bool_iff. exact Hres.
Qed.

Print Assumptions pr_simplex_iterate.
Print Assumptions pr_simplex.
Print Assumptions pr_simplex_noiter.
Print Assumptions pr_residual.
Print Assumptions pr_iterations_bound.
