(* Notions of the exactness proof for the low-link DFS model (Artic.v): the separation forms of "cut
   vertex" / "bridge", the frame relation `ext` between DFS states, the invariants Good (finished nodes are
   closed, the answers so far are sound and complete), NB (bridge completeness), Post and LI (the discovered
   set hangs at v, meaning of low), and their preservation by the elementary state updates. *)
From Coq Require Import List Arith Bool Relations Lia.
From SV Require Import C15.Graph C15.GraphLemmas C15.ArticSpec C15.Artic C15.ArticSpecProofs C15.ArticProofs.
Import ListNotations.

(* the DFS stack: consecutive elements are adjacent *)
Fixpoint chain (e : nat -> nat -> bool) (l : list nat) : Prop :=
  match l with
  | a :: r => match r with b :: _ => e a b = true /\ chain e r | [] => True end
  | [] => True
  end.

Lemma chain_tail : forall e a l, chain e (a :: l) -> chain e l.
Proof. intros e a l H. destruct l as [|b l]; simpl in *; [exact I | tauto]. Qed.

Lemma chain_connP : forall e l a y, chain e (a :: l) -> In y (a :: l) ->
  connP (fun x => In x (a :: l)) e a y.
Proof.
  intros e l. induction l as [|b l IH]; intros a y Hc Hy.
  - destruct Hy as [Hy|[]]. subst y. apply connP_refl.
  - destruct Hy as [Hy|Hy]; [subst y; apply connP_refl|].
    destruct Hc as [Hab Hc].
    apply connP_trans with b.
    + apply connP_step; [left; reflexivity | right; left; reflexivity | exact Hab].
    + apply (connP_sub (fun x => In x (b :: l))); [intros x Hx; right; exact Hx|].
      apply IH; assumption.
Qed.

Definition CutSep (g : graph) (v : nat) : Prop :=
  In v (nodes g) /\ exists a b, a <> v /\ b <> v /\
    conn (nodes g) (edge_b g) a v /\ conn (nodes g) (edge_b g) b v /\
    ~ conn (without_vertex g v) (edge_b g) a b.

Definition BridgeSep (g : graph) (a b : nat) : Prop :=
  edge_b g a b = true /\ ~ conn (nodes g) (without_edge g a b) a b.

(* v is not a cut vertex: everything else in its component hangs together at an anchor c *)
Definition NonCut (g : graph) (v : nat) : Prop :=
  exists c, forall a, a <> v -> conn (nodes g) (edge_b g) a v ->
    conn (without_vertex g v) (edge_b g) a c.

Lemma NonCut_not_CutSep : forall g v, NonCut g v -> ~ CutSep g v.
Proof.
  intros g v [c Hc] [_ (a & b & Ha & Hb & Hav & Hbv & Hn)]. apply Hn.
  apply connP_trans with c; [apply Hc; assumption|].
  apply conn_sym; [apply edge_b_sym | apply Hc; assumption].
Qed.

Lemma without_vertex_In : forall g v x, In x (without_vertex g v) <-> In x (nodes g) /\ x <> v.
Proof. intros g v x. unfold without_vertex. apply remove_nat_In. Qed.

Lemma without_edge_swap : forall g a b x y, without_edge g a b x y = without_edge g b a x y.
Proof. intros g a b x y. unfold without_edge. rewrite orb_comm. reflexivity. Qed.

Lemma conn_without_edge_swap : forall g a b x y,
  conn (nodes g) (without_edge g a b) x y -> conn (nodes g) (without_edge g b a) x y.
Proof.
  intros g a b x y. apply connP_mono. intros u w Hu Hw H. rewrite without_edge_swap in H. auto.
Qed.

Lemma BridgeSep_swap : forall g a b, BridgeSep g a b -> BridgeSep g b a.
Proof.
  intros g a b [He Hn]. split; [rewrite edge_b_sym; exact He|].
  intro H. apply Hn. apply conn_without_edge_swap.
  apply conn_sym; [apply without_edge_sym | exact H].
Qed.

(* sealed sets give non-connectivity *)
Lemma sealed_vertex : forall g v (S : nat -> Prop) a b,
  S a -> ~ S b ->
  (forall x y, S x -> edge_b g x y = true -> y <> v -> S y) ->
  ~ conn (without_vertex g v) (edge_b g) a b.
Proof.
  intros g v S a b Ha Hb Hcl H. apply Hb. revert H Ha. apply connP_closed.
  intros x y Sx _ Py He. apply (Hcl x y Sx He). apply without_vertex_In in Py. tauto.
Qed.

Lemma sealed_edge : forall g a0 b0 (S : nat -> Prop) a b,
  S a -> ~ S b ->
  (forall x y, S x -> edge_b g x y = true -> ~ (x = a0 /\ y = b0) -> ~ (x = b0 /\ y = a0) -> S y) ->
  ~ conn (nodes g) (without_edge g a0 b0) a b.
Proof.
  intros g a0 b0 S a b Ha Hb Hcl H. apply Hb. revert H Ha. apply connP_closed.
  intros x y Sx _ _ He. apply without_edge_true in He. destruct He as (He & H1 & H2).
  exact (Hcl x y Sx He H1 H2).
Qed.

Lemma connP_conn_vertex : forall g v (P : nat -> Prop) a b,
  (forall x, P x -> x <> v) -> connP P (edge_b g) a b ->
  conn (without_vertex g v) (edge_b g) a b.
Proof.
  intros g v P a b HP. apply connP_mono. intros x y Hx Hy He.
  destruct (edge_b_nodes g x y He) as (Nx & Ny & _). rewrite !without_vertex_In. auto.
Qed.

Lemma connP_conn_edge : forall g a0 b0 (P : nat -> Prop) a b,
  (~ P a0 \/ ~ P b0) -> connP P (edge_b g) a b ->
  conn (nodes g) (without_edge g a0 b0) a b.
Proof.
  intros g a0 b0 P a b HP. apply connP_mono. intros x y Hx Hy He.
  destruct (edge_b_nodes g x y He) as (Nx & Ny & _).
  split; [exact Nx|]. split; [exact Ny|]. apply without_edge_true.
  split; [exact He|]. split; intros [E1 E2]; subst x y; tauto.
Qed.

Lemma conn_step_edge : forall g x y, edge_b g x y = true -> conn (nodes g) (edge_b g) x y.
Proof.
  intros g x y He. destruct (edge_b_nodes g x y He) as (Nx & Ny & _). apply rt_step. auto.
Qed.

Definition dsc (s : ast) (x : nat) : Prop := aget (disc s) x <> None.

Lemma dsc_dec : forall s x, dsc s x \/ aget (disc s) x = None.
Proof. intros s x. unfold dsc. destruct (aget (disc s) x); [left; discriminate | right; reflexivity]. Qed.

Lemma discd_Some : forall s x d, aget (disc s) x = Some d -> discd s x = d.
Proof. intros s x d H. unfold discd, agetd. rewrite H. reflexivity. Qed.

Record ext (v : nat) (s s' : ast) : Prop := mkExt {
  e_disc : forall x d, aget (disc s) x = Some d -> aget (disc s') x = Some d;
  e_new : forall x d, aget (disc s) x = None -> aget (disc s') x = Some d -> time s <= d;
  e_par : forall x, dsc s x -> aget (par s') x = aget (par s) x;
  e_low : forall x, dsc s x -> x <> v -> aget (low s') x = aget (low s) x;
  e_aps : forall x, In x (aps s) -> In x (aps s');
  e_brs : forall p, In p (brs s) -> In p (brs s');
  e_time : time s <= time s'
}.

Lemma ext_dsc : forall v s s' x, ext v s s' -> dsc s x -> dsc s' x.
Proof.
  intros v s s' x H Hx. unfold dsc in *. destruct (aget (disc s) x) as [d|] eqn:E; [|congruence].
  rewrite (e_disc _ _ _ H x d E). discriminate.
Qed.

Lemma ext_discd : forall v s s' x, ext v s s' -> dsc s x -> discd s' x = discd s x.
Proof.
  intros v s s' x H Hx. unfold dsc in Hx. destruct (aget (disc s) x) as [d|] eqn:E; [|congruence].
  rewrite (discd_Some s x d E). apply discd_Some. exact (e_disc _ _ _ H x d E).
Qed.

Lemma ext_refl : forall v s, ext v s s.
Proof. intros v s. constructor; auto. intros x d H1 H2. congruence. Qed.

Lemma ext_trans : forall v s1 s2 s3, ext v s1 s2 -> ext v s2 s3 -> ext v s1 s3.
Proof.
  intros v s1 s2 s3 H1 H2. constructor.
  - intros x d Hd. apply (e_disc _ _ _ H2). apply (e_disc _ _ _ H1). exact Hd.
  - intros x d Hn Hd. destruct (aget (disc s2) x) as [d2|] eqn:E2.
    + pose proof (e_disc _ _ _ H2 x d2 E2) as E3. rewrite E3 in Hd. injection Hd as Hd. subst d2.
      exact (e_new _ _ _ H1 x d Hn E2).
    + pose proof (e_new _ _ _ H2 x d E2 Hd). pose proof (e_time _ _ _ H1). lia.
  - intros x Hx. rewrite (e_par _ _ _ H2 x (ext_dsc _ _ _ _ H1 Hx)). apply (e_par _ _ _ H1 x Hx).
  - intros x Hx Hne. rewrite (e_low _ _ _ H2 x (ext_dsc _ _ _ _ H1 Hx) Hne).
    apply (e_low _ _ _ H1 x Hx Hne).
  - intros x Hx. apply (e_aps _ _ _ H2). apply (e_aps _ _ _ H1). exact Hx.
  - intros p Hp. apply (e_brs _ _ _ H2). apply (e_brs _ _ _ H1). exact Hp.
  - pose proof (e_time _ _ _ H1). pose proof (e_time _ _ _ H2). lia.
Qed.

(* a call for the undiscovered w (after set_par) is a frame step for every v *)
Lemma ext_child : forall v w p s s', aget (disc s) w = None ->
  ext w (set_par s w p) s' -> ext v s s'.
Proof.
  intros v w p s s' Hw H. destruct H as [A B C D E F G]. simpl in *. constructor; auto.
  - intros x Hx. rewrite (C x Hx). apply aget_aset_other. intro Heq. subst x. exact (Hx Hw).
  - intros x Hx _. apply D; [exact Hx|]. intro Heq. subst x. exact (Hx Hw).
Qed.

Lemma ext_enter : forall v s, aget (disc s) v = None -> ext v s (enter s v).
Proof.
  intros v s Hv. constructor; simpl; auto.
  - intros x d Hd. rewrite aget_aset_other; [exact Hd|]. intro Heq. subst x. congruence.
  - intros x d Hn Hd. destruct (Nat.eq_dec v x) as [Heq|Hne].
    + subst x. rewrite aget_aset_same in Hd. injection Hd as Hd. lia.
    + rewrite aget_aset_other in Hd by exact Hne. congruence.
  - intros x _ Hne. apply aget_aset_other. auto.
Qed.

Lemma ext_set_low : forall v s x, ext v s (set_low s v x).
Proof.
  intros v s x. constructor; simpl; auto.
  - intros y d H1 H2. congruence.
  - intros y _ Hne. apply aget_aset_other. auto.
Qed.

Lemma after_child_shape : forall s v w c, v <> w ->
  let s' := after_child s v w c in
  disc s' = disc s /\ par s' = par s /\ time s' = time s /\
  low s' = aset (low s) v (Nat.min (lowd s v) (lowd s w)) /\
  (forall x, In x (aps s') <-> In x (aps s) \/ (x = v /\ ac_ap s v w c = true)) /\
  (forall p, In p (brs s') <-> In p (brs s) \/ (p = canon v w /\ ac_br s v w = true)).
Proof.
  intros s v w c Hne. cbv zeta. rewrite (after_child_eq s v w c Hne). cbv zeta.
  set (s1 := set_low s v (Nat.min (lowd s v) (lowd s w))).
  assert (Hap : forall x, In x (aps (add_ap s1 v)) <-> In x (aps s) \/ x = v).
  { intro x. simpl. destruct (memb v (aps s)) eqn:E.
    - apply memb_In in E. split; [auto | intros [H|H]; [exact H | subst x; exact E]].
    - rewrite in_app_iff. simpl. split; [intros [H|[H|[]]]; auto | intros [H|H]; auto]. }
  (* the four frame facts hold whichever reports are made; then the two reports one by one *)
  assert (Hfr : forall b b' : bool,
            let s2 := if b then add_ap s1 v else s1 in
            let s3 := if b' then add_br s2 (canon v w) else s2 in
            disc s3 = disc s /\ par s3 = par s /\ time s3 = time s /\ low s3 = low s1 /\
            aps s3 = aps s2 /\ brs s2 = brs s)
    by (intros [|] [|]; repeat split).
  destruct (Hfr (ac_ap s v w c) (ac_br s v w)) as (A & B & C & D & E & F).
  split; [exact A|]. split; [exact B|]. split; [exact C|]. split; [exact D|]. split.
  - intro x. rewrite E. destruct (ac_ap s v w c).
    + rewrite Hap. split; [intros [H|H]; auto | intros [H|[H _]]; auto].
    + split; [auto | intros [H|[_ H]]; [exact H | discriminate]].
  - intro p. destruct (ac_br s v w); simpl; rewrite F.
    + rewrite in_app_iff. simpl. split; [intros [H|[H|[]]]; auto | intros [H|[H _]]; auto].
    + split; [auto | intros [H|[_ H]]; [exact H | discriminate]].
Qed.

Lemma ext_after_child : forall s v w c, v <> w -> ext v s (after_child s v w c).
Proof.
  intros s v w c Hne. destruct (after_child_shape s v w c Hne) as (A & B & C & D & E & F).
  constructor.
  - intros x d Hd. rewrite A. exact Hd.
  - intros x d Hn Hd. rewrite A in Hd. congruence.
  - intros x _. rewrite B. reflexivity.
  - intros x _ Hx. rewrite D. apply aget_aset_other. auto.
  - intros x Hx. apply E. left. exact Hx.
  - intros p Hp. apply F. left. exact Hp.
  - rewrite C. lia.
Qed.

Section G.
Context {g : graph}.

Record Good {s : ast} {stk : list nat} : Prop := mkGood {
  g_inv : Inv g s;
  g_inj : forall x y, dsc s x -> dsc s y -> discd s x = discd s y -> x = y;
  g_stk : forall x, In x stk -> dsc s x;
  g_chain : chain (edge_b g) stk;
  g_closed : forall x y, dsc s x -> ~ In x stk -> edge_b g x y = true -> dsc s y;
  g_aps : forall u, In u (aps s) -> CutSep g u;
  g_brs : forall a b, In (a, b) (brs s) -> BridgeSep g a b;
  g_nocut : forall x, dsc s x -> ~ In x stk -> In x (aps s) \/ NonCut g x
}.
Arguments Good : clear implicits.

(* every edge from a finished node x to a node discovered earlier is reported or not a bridge; exc excepts
   the tree edge from v to its parent, which only the caller judges (pexc), or nothing (noexc) *)
Definition NB (exc : nat -> nat -> Prop) (s : ast) (stk : list nat) : Prop :=
  forall x y, dsc s x -> ~ In x stk -> edge_b g x y = true -> discd s y < discd s x ->
    exc x y \/ In (canon x y) (brs s) \/ conn (nodes g) (without_edge g x y) x y.

Definition noexc : nat -> nat -> Prop := fun _ _ => False.
Definition pexc (v : nat) (po : option nat) : nat -> nat -> Prop := fun x y => x = v /\ po = Some y.

(* nodes discovered between s0 and s *)
Definition Dn (s0 s : ast) (a : nat) : Prop := aget (disc s0) a = None /\ dsc s a.

(* What holds of the set discovered since s0 by the call of v, during its loop (ws: the neighbours still to
   come) and after it (ws = []): it hangs at v; low[v] is below every discovery time that an edge out of it
   reaches, the edge to the parent po and the edges of v still to come left out; and low[v] is such a time,
   unless it is still at least the entry time. *)
Definition tree_at (s0 s : ast) (v : nat) : Prop :=
  forall a, Dn s0 s a -> connP (Dn s0 s) (edge_b g) v a.
Definition low_below (s0 s : ast) (v : nat) (po : option nat) (ws : list nat) : Prop :=
  forall x y, Dn s0 s x -> edge_b g x y = true -> (x = v -> ~ In y ws /\ po <> Some y) ->
    lowd s v <= discd s y.
Definition low_reached (s0 s : ast) (v : nat) (po : option nat) : Prop :=
  time s0 <= lowd s v \/
  exists x y, Dn s0 s x /\ edge_b g x y = true /\ ~ (x = v /\ po = Some y) /\
              dsc s y /\ discd s y <= lowd s v.

Record Post {s s' : ast} {v : nat} {po : option nat} : Prop := mkPost {
  p_disc : aget (disc s') v = Some (time s);
  p_tree : tree_at s s' v;
  p_below : low_below s s' v po [];
  p_reached : low_reached s s' v po
}.
Arguments Post : clear implicits.

Definition stk_top (v : nat) (stk : list nat) (po : option nat) : Prop :=
  match stk with
  | [] => po = None
  | p :: _ => po = Some p /\ edge_b g v p = true
  end.

(* v is not (yet) known to be a cut vertex: what it has discovered hangs together without it *)
Definition nocut_at (s0 s : ast) (v : nat) (po : option nat) (children : nat) : Prop :=
  match po with
  | Some p => In v (aps s) \/
              forall a, Dn s0 s a -> a <> v -> conn (without_vertex g v) (edge_b g) a p
  | None => (children = 0 /\ forall a, Dn s0 s a -> a = v) \/
            (children = 1 /\ exists w1, forall a, Dn s0 s a -> a <> v ->
                                conn (without_vertex g v) (edge_b g) a w1) \/
            (2 <= children /\ In v (aps s))
  end.
(* at a root with a child: a discovered set at a neighbour that only v can be left through *)
Definition seal_at (s : ast) (v : nat) (po : option nat) (children : nat) : Prop :=
  po = None -> 1 <= children ->
  exists w1 (S : nat -> Prop), edge_b g v w1 = true /\ S w1 /\ (forall x, S x -> dsc s x) /\
    (forall x y, S x -> edge_b g x y = true -> y <> v -> S y).

Record LI {v : nat} {stk : list nat} {po : option nat} {s0 : ast} {ws : list nat} {children : nat}
          {s : ast} : Prop := mkLI {
  li_good : Good s (v :: stk);
  li_nb : NB noexc s (v :: stk);
  li_ext : ext v s0 s;
  li_discv : aget (disc s) v = Some (time s0);
  li_par : aget (par s) v = Some po;
  li_seen : forall y, edge_b g v y = true -> ~ In y ws -> dsc s y;
  li_tree : tree_at s0 s v;
  li_below : low_below s0 s v po ws;
  li_reached : low_reached s0 s v po;
  li_nocut : nocut_at s0 s v po children;
  li_seal : seal_at s v po children
}.
Arguments LI : clear implicits.

Lemma inv_disc : forall s x d, Inv g s -> aget (disc s) x = Some d ->
  In x (nodes g) /\ d < time s /\ lowd s x <= d.
Proof.
  intros s x d HI Hd. destruct (i_disc HI x d Hd) as (A & B & l & Hl & Hle).
  split; [exact A|]. split; [exact B|]. unfold lowd, agetd. rewrite Hl. exact Hle.
Qed.

Lemma inv_dsc : forall s x, Inv g s -> dsc s x ->
  In x (nodes g) /\ discd s x < time s /\ lowd s x <= discd s x.
Proof.
  intros s x HI Hx. unfold dsc in Hx. destruct (aget (disc s) x) as [d|] eqn:E; [|congruence].
  rewrite (discd_Some s x d E). exact (inv_disc s x d HI E).
Qed.

Lemma Good_set_par : forall s stk w p, Good s stk -> Good (set_par s w p) stk.
Proof.
  intros s stk w p [Ginv Ginj Gstk Gchain Gclosed Gaps Gbrs Gnocut].
  constructor; try assumption. (* only g_inv names the state *) apply Inv_set_par. exact Ginv.
Qed.

Lemma NB_set_par : forall exc s stk w p, NB exc s stk -> NB exc (set_par s w p) stk.
Proof. intros exc s stk w p H. exact H. Qed.

Lemma Post_set_par : forall s s' w p v po, Post (set_par s w p) s' v po -> Post s s' v po.
Proof. intros s s' w p v po [A B C D]. constructor; assumption. Qed.

Lemma Good_set_low : forall s stk v x, Good s stk -> Good (set_low s v (Nat.min (lowd s v) x)) stk.
Proof.
  intros s stk v x [Ginv Ginj Gstk Gchain Gclosed Gaps Gbrs Gnocut].
  constructor; try assumption. (* only g_inv mentions low *) apply Inv_set_low. exact Ginv.
Qed.

Lemma canon_sym : forall v w, v <> w -> canon v w = canon w v.
Proof.
  intros v w Hne. unfold canon. destruct (v <? w) eqn:E1; destruct (w <? v) eqn:E2;
    try reflexivity.
  - apply Nat.ltb_lt in E1. apply Nat.ltb_lt in E2. lia.
  - apply Nat.ltb_ge in E1. apply Nat.ltb_ge in E2. lia.
Qed.

(* edges out of the newly discovered set go to the new set or to the stack, as soon as the finished
   nodes are closed before and after *)
Lemma escape : forall s s' stk,
  (forall x, In x stk -> dsc s x) ->
  (forall x y, dsc s x -> ~ In x stk -> edge_b g x y = true -> dsc s y) ->
  (forall x y, dsc s' x -> ~ In x stk -> edge_b g x y = true -> dsc s' y) ->
  forall x y, Dn s s' x -> edge_b g x y = true -> Dn s s' y \/ In y stk.
Proof.
  intros s s' stk Hstk C1 C2 x y [Hx Hx'] He.
  assert (Hns : ~ In x stk). { intro Hin. exact (Hstk x Hin Hx). }
  pose proof (C2 x y Hx' Hns He) as Hy'.
  destruct (aget (disc s) y) as [d|] eqn:E; [|left; split; assumption].
  destruct (in_dec Nat.eq_dec y stk) as [Hin|Hout]; [right; exact Hin|].
  exfalso. assert (Hy : dsc s y) by (unfold dsc; rewrite E; discriminate).
  rewrite edge_b_sym in He. exact (C1 y x Hy Hout He Hx).
Qed.

Lemma Good_after_child : forall s stk v w c, v <> w ->
  In v (nodes g) -> edge_b g v w = true -> Good s stk ->
  (ac_ap s v w c = true -> CutSep g v) ->
  (ac_br s v w = true -> BridgeSep g v w) ->
  Good (after_child s v w c) stk.
Proof.
  intros s stk v w c Hne Hv He [Ginv Ginj Gstk Gchain Gclosed Gaps Gbrs Gnocut] Hap Hbr.
  destruct (after_child_shape s v w c Hne) as (S1 & S2 & S3 & S4 & S5 & S6).
  constructor.
  - apply Inv_after_child; assumption.
  - unfold dsc, discd. rewrite S1. exact Ginj.
  - unfold dsc. rewrite S1. exact Gstk.
  - exact Gchain.
  - unfold dsc. rewrite S1. exact Gclosed.
  - intros u Hu. apply S5 in Hu. destruct Hu as [Hu|[Hu Hc]]; [exact (Gaps u Hu) | subst u; auto].
  - intros a b Hab. apply S6 in Hab. destruct Hab as [Hab|[Hab Hc]]; [exact (Gbrs a b Hab)|].
    specialize (Hbr Hc). unfold canon in Hab. destruct (v <? w); injection Hab as Ea Eb; subst a b;
      [exact Hbr | apply BridgeSep_swap; exact Hbr].
  - intros x Hx Hns. unfold dsc in Hx. rewrite S1 in Hx.
    destruct (Gnocut x Hx Hns) as [Hin|Hnc]; [left; apply S5; left; exact Hin | right; exact Hnc].
Qed.

Lemma is_root_po : forall s v po, aget (par s) v = Some po ->
  is_root s v = match po with Some _ => false | None => true end.
Proof. intros s v po H. unfold is_root. rewrite H. reflexivity. Qed.

Lemma parent_is_po : forall s v w po, aget (par s) v = Some po ->
  (parent_is s v w = true <-> po = Some w).
Proof.
  intros s v w po H. unfold parent_is. rewrite H. destruct po as [p|].
  - rewrite Nat.eqb_eq. split; [intro E; subst p; reflexivity | intro E; injection E as E; exact E].
  - split; discriminate.
Qed.

(* entering v gives it the newest time; every other node is as before *)
Lemma enter_disc_other : forall s0 v x, x <> v -> aget (disc (enter s0 v)) x = aget (disc s0) x.
Proof. intros s0 v x Hx. simpl. apply aget_aset_other. auto. Qed.

Lemma enter_v : forall s0 v, discd (enter s0 v) v = time s0.
Proof. intros s0 v. unfold discd, agetd. simpl. rewrite aget_aset_same. reflexivity. Qed.

Lemma enter_discd_other : forall s0 v x, x <> v -> discd (enter s0 v) x = discd s0 x.
Proof. intros s0 v x Hx. unfold discd, agetd. rewrite (enter_disc_other s0 v x Hx). reflexivity. Qed.

Lemma enter_old : forall s0 v x, Inv g s0 -> dsc (enter s0 v) x -> x <> v ->
  dsc s0 x /\ discd (enter s0 v) x = discd s0 x /\ discd (enter s0 v) x < discd (enter s0 v) v.
Proof.
  intros s0 v x Ginv Hx Hxv. unfold dsc in Hx. rewrite (enter_disc_other s0 v x Hxv) in Hx.
  split; [exact Hx|]. split; [exact (enter_discd_other s0 v x Hxv)|].
  rewrite (enter_v s0 v), (enter_discd_other s0 v x Hxv). exact (proj1 (proj2 (inv_dsc s0 x Ginv Hx))).
Qed.

Lemma Dn_enter : forall s0 v a, Dn s0 (enter s0 v) a -> a = v.
Proof.
  intros s0 v a [Ha Ha']. destruct (Nat.eq_dec a v) as [Heq|Hne]; [exact Heq|].
  exfalso. unfold dsc in Ha'. rewrite (enter_disc_other s0 v a Hne) in Ha'. exact (Ha' Ha).
Qed.

Lemma LI_enter : forall v stk po s0,
  valid_graph g = true -> In v (nodes g) -> aget (disc s0) v = None ->
  Good s0 stk -> NB noexc s0 stk -> aget (par s0) v = Some po -> stk_top v stk po ->
  LI v stk po s0 (uadj g v) 0 (enter s0 v).
Proof.
  intros v stk po s0 Hg Hv H0v [Ginv Ginj Gstk Gchain Gclosed Gaps Gbrs Gnocut] N0 Hpar Htop.
  pose proof (Dn_enter s0 v) as Hnew.
  pose proof (fun x => enter_old s0 v x Ginv) as Do.
  constructor.
  - constructor.
    + apply Inv_enter; assumption.
    + intros x y Hx Hy Hd.
      destruct (Nat.eq_dec x v) as [Ex|Ex]; destruct (Nat.eq_dec y v) as [Ey|Ey].
      * congruence.
      * subst x. destruct (Do y Hy Ey) as (_ & _ & E). lia.
      * subst y. destruct (Do x Hx Ex) as (_ & _ & E). lia.
      * destruct (Do x Hx Ex) as (Hx0 & E1 & _). destruct (Do y Hy Ey) as (Hy0 & E2 & _).
        rewrite E1, E2 in Hd. exact (Ginj x y Hx0 Hy0 Hd).
    + intros x [Hx|Hx].
      * subst x. unfold dsc. simpl. rewrite aget_aset_same. discriminate.
      * apply (grows_enter s0 v). exact (Gstk x Hx).
    + destruct stk as [|p r]; simpl; [exact I|]. destruct Htop as [_ Hvp]. split; [exact Hvp | exact Gchain].
    + intros x y Hx Hns He. apply not_in_cons in Hns. destruct Hns as [Hxv Hns0].
      destruct (Do x Hx Hxv) as (Hx0 & _).
      apply (grows_enter s0 v). exact (Gclosed x y Hx0 Hns0 He).
    + exact Gaps.
    + exact Gbrs.
    + intros x Hx Hns. apply not_in_cons in Hns. destruct Hns as [Hxv Hns0].
      destruct (Do x Hx Hxv) as (Hx0 & _). exact (Gnocut x Hx0 Hns0).
  - intros x y Hx Hns He Hlt. apply not_in_cons in Hns. destruct Hns as [Hxv Hns0].
    destruct (Do x Hx Hxv) as (Hx0 & Ex & Hxt).
    assert (Hyv : y <> v) by (intro Heq; subst y; lia).
    rewrite Ex, (enter_discd_other s0 v y Hyv) in Hlt. exact (N0 x y Hx0 Hns0 He Hlt).
  - apply ext_enter. exact H0v.
  - simpl. apply aget_aset_same.
  - exact Hpar.
  - intros y He Hy. exfalso. apply Hy. apply (uadj_In g v y Hv). exact He.
  - intros a Ha. rewrite (Hnew a Ha). apply connP_refl.
  - intros x y Hx He Hc. exfalso. destruct (Hc (Hnew x Hx)) as [Hy _]. apply Hy.
    apply (uadj_In g v y Hv). rewrite <- (Hnew x Hx). exact He.
  - left. unfold lowd, agetd. simpl. rewrite aget_aset_same. lia.
  - destruct po as [p|].
    + right. intros a Ha Hne. exfalso. exact (Hne (Hnew a Ha)).
    + left. split; [reflexivity | exact Hnew].
  - intros _ Hc. lia.
Qed.

End G.

Arguments Good : clear implicits. Arguments NB : clear implicits. Arguments Post : clear implicits.
Arguments stk_top : clear implicits. Arguments LI : clear implicits.
Arguments tree_at : clear implicits. Arguments low_below : clear implicits.
Arguments low_reached : clear implicits. Arguments nocut_at : clear implicits.
Arguments seal_at : clear implicits.
Arguments e_disc {v s s'}. Arguments e_new {v s s'}. Arguments e_par {v s s'}.
Arguments e_low {v s s'}. Arguments e_aps {v s s'}. Arguments e_brs {v s s'}.
Arguments e_time {v s s'}.

Lemma stk_top_cases : forall g v stk po, stk_top g v stk po ->
  (po = None /\ stk = []) \/ exists p r, po = Some p /\ stk = p :: r /\ edge_b g v p = true.
Proof.
  intros g v [|p r] po H; simpl in H; [left; auto | right; exists p, r].
  destruct H as [E Hvp]. auto.
Qed.

Lemma Dn_dec : forall s0 s a, Dn s0 s a \/ ~ Dn s0 s a.
Proof.
  intros s0 s a. unfold Dn. destruct (aget (disc s0) a) as [d|] eqn:E.
  - right. intros [H _]. discriminate.
  - destruct (dsc_dec s a) as [H|H]; [left; auto | right; intros [_ H']; exact (H' H)].
Qed.
