(* The BFS of max_flow: a returned path is a simple path of positive residual capacity from the source to
   the sink; when it returns None the visited set contains the source, not the sink, and is closed under
   the arcs (u, v) with v a key of capacity[u] and positive residual capacity; the fuel is sufficient. *)
From Coq Require Import List ZArith Bool Lia.
Import ListNotations.
From SV Require Import C08.MaxFlow C08.MaxFlowSpec C08.MaxFlowMaps C08.MaxFlowAug.
Open Scope Z_scope.

Section Bfs.
Variables (cap flow : nmap) (s sink : nat) (P : nat -> Prop).
Hypothesis Ps : P s.
Hypothesis Pkeys : forall u x, In x (keys (nget cap u)) -> P x.

(* a queue entry: a simple path from s to n inside the visited set, every arc of positive residual *)
Definition good (visited : list nat) (p : list nat) (n : nat) : Prop :=
  NoDup p /\ hd s p = s /\ last p s = n /\ p <> []
  /\ (forall x, In x p -> In x visited /\ P x)
  /\ (forall u v, In (u, v) (pairs p) -> 0 < residual cap flow u v).

Definition queue_inv (visited : list nat) (queue : list (nat * list nat)) : Prop :=
  forall n p, In (n, p) queue -> In n visited /\ good visited p n.

Lemma good_start : good [s] [s] s.
Proof.
  split; [constructor; [intros []|constructor]|].
  split; [reflexivity|]. split; [reflexivity|]. split; [discriminate|]. split.
  - intros x [<-|[]]. split; [left; reflexivity | exact Ps].
  - intros u v [].
Qed.

Lemma good_mono : forall vis vis' p n, (forall x, In x vis -> In x vis') -> good vis p n -> good vis' p n.
Proof.
  intros vis vis' p n Hsub (H1 & H2 & H3 & H4 & H5 & H6).
  split; [exact H1|]. split; [exact H2|]. split; [exact H3|]. split; [exact H4|]. split; [|exact H6].
  intros x Hx. destruct (H5 x Hx) as [Ha Hb]. split; [apply Hsub; exact Ha | exact Hb].
Qed.

Lemma good_snoc : forall vis p node nb, good vis p node -> ~ In nb vis -> P nb ->
  0 < residual cap flow node nb -> good (nb :: vis) (p ++ [nb]) nb.
Proof.
  intros vis p node nb (H1 & H2 & H3 & H4 & H5 & H6) Hnb HP Hres.
  split; [|split; [|split; [|split; [|split]]]].
  - apply (NoDup_Add (Add_app nb p [])). rewrite app_nil_r.
    split; [exact H1 | intros Hin; apply Hnb, (H5 nb Hin)].
  - destruct p; [contradiction | exact H2].
  - apply last_last.
  - intros E. apply app_eq_nil in E. destruct E as [_ E]. discriminate.
  - intros x Hx. apply in_app_or in Hx. destruct Hx as [Hx|[Hx|[]]].
    + destruct (H5 x Hx) as [Ha Hb]. split; [right; exact Ha | exact Hb].
    + subst x. split; [left; reflexivity | exact HP].
  - intros u v Huv. rewrite (pairs_snoc p nb s H4) in Huv. apply in_app_or in Huv.
    destruct Huv as [Huv|[Huv|[]]]; [apply H6; exact Huv|].
    injection Huv as <- <-. rewrite H3. exact Hres.
Qed.

(* U: any list holding the neighbours; the last line says that queue and visited set grow together *)
Lemma scan_spec : forall U node path nbrs visited queue vis' q',
  (forall x, In x nbrs -> P x /\ In x U) ->
  scan cap flow node path nbrs visited queue = (vis', q') ->
  good visited path node -> queue_inv visited queue -> NoDup visited -> incl visited U ->
  (forall x, In x visited -> In x vis')
  /\ (forall e, In e queue -> In e q')
  /\ (forall x, In x vis' -> In x visited \/ exists p, In (x, p) q')
  /\ (forall v, In v nbrs -> 0 < residual cap flow node v -> In v vis')
  /\ queue_inv vis' q' /\ NoDup vis' /\ incl vis' U
  /\ (length q' + length visited = length queue + length vis')%nat.
Proof.
  intros U node path. induction nbrs as [|nb r IH]; intros visited queue vis' q' HP H Hg Hq Hnd HU; simpl in H.
  - injection H as <- <-. split; [auto|]. split; [auto|]. split; [auto|]. split; [intros v []|].
    split; [exact Hq|]. split; [exact Hnd|]. split; [exact HU | reflexivity].
  - assert (HP' : forall x, In x r -> P x /\ In x U) by (intros x Hx; apply HP; right; exact Hx).
    destruct (HP nb (or_introl eq_refl)) as [HPnb HUnb].
    destruct (negb (memb nb visited) && (0 <? residual cap flow node nb)) eqn:E.
    + apply andb_prop in E. destruct E as [E1 E2].
      apply negb_true_iff, memb_false in E1. apply Z.ltb_lt in E2.
      assert (Hsub : forall x, In x visited -> In x (nb :: visited)) by (intros x Hx; right; exact Hx).
      apply IH in H; [| exact HP' | apply (good_mono visited); assumption | | constructor; assumption
                      | intros x [<-|Hx]; [exact HUnb | apply HU; exact Hx]].
      * destruct H as (A & B & C & D & Q & N & I & M). rewrite app_length in M. simpl in M.
        split; [intros x Hx; apply A; right; exact Hx|].
        split; [intros e He; apply B, in_or_app; left; exact He|].
        split.
        { intros x Hx. destruct (C x Hx) as [[->|Hx']|Hx']; auto.
          right. exists (path ++ [x]). apply B, in_or_app. right. left. reflexivity. }
        split; [intros v [->|Hv] Hres; [apply A; left; reflexivity | apply D; assumption]|].
        split; [exact Q|]. split; [exact N|]. split; [exact I | lia].
      * intros n p Hin. apply in_app_or in Hin. destruct Hin as [Hin|[Hin|[]]].
        -- destruct (Hq n p Hin) as [Q1 Q2]. split; [right; exact Q1 | apply (good_mono visited); assumption].
        -- injection Hin as <- <-. split; [left; reflexivity | apply (good_snoc visited path node); assumption].
    + apply IH in H; try assumption. destruct H as (A & B & C & D & Q).
      split; [exact A|]. split; [exact B|]. split; [exact C|]. split; [|exact Q].
      intros v [->|Hv] Hres; [|apply D; assumption].
      apply A. apply Z.ltb_lt in Hres. rewrite Hres, andb_true_r in E.
      apply negb_false_iff, memb_In in E. exact E.
Qed.

Definition scanned (visited : list nat) (u : nat) : Prop :=
  u <> sink /\ forall v, In v (keys (nget cap u)) -> 0 < residual cap flow u v -> In v visited.

Definition closed_inv (visited : list nat) (queue : list (nat * list nat)) : Prop :=
  forall u, In u visited -> (exists p, In (u, p) queue) \/ scanned visited u.

Definition bfs_post (r : list nat + list nat) : Prop :=
  match r with
  | inl p => exists vis, good vis p sink
  | inr vis => In s vis /\ ~ In sink vis
               /\ forall u v, In u vis -> In v (keys (nget cap u)) -> 0 < residual cap flow u v -> In v vis
  end.

(* the visited nodes are distinct members of the universe, so their number bounds the fuel spent *)
Lemma bfs_loop_total : forall fuel visited queue,
  In s visited -> queue_inv visited queue -> closed_inv visited queue ->
  NoDup visited -> incl visited (universe cap s) ->
  (length queue + length (universe cap s) < fuel + length visited)%nat ->
  exists r, bfs_loop fuel cap flow sink visited queue = Some r /\ bfs_post r.
Proof.
  induction fuel as [|f IH]; intros visited queue Hs Hq Hc Hnd HU Hm.
  { pose proof (NoDup_incl_length Hnd HU). lia. }
  simpl. destruct queue as [|[node path] q].
  - exists (inr visited). split; [reflexivity|]. split; [exact Hs|]. split.
    + intros Hin. destruct (Hc sink Hin) as [[p []]|[Hne _]]. apply Hne. reflexivity.
    + intros u v Hu Hv Hres. destruct (Hc u Hu) as [[p []]|[_ Hd]]. apply Hd; assumption.
  - destruct (Nat.eqb node sink) eqn:E.
    + exists (inl path). split; [reflexivity|]. apply Nat.eqb_eq in E. subst node. exists visited.
      apply (Hq sink path). left. reflexivity.
    + apply Nat.eqb_neq in E.
      destruct (scan cap flow node path (keys (nget cap node)) visited q) as [vis' q'] eqn:Es.
      apply (scan_spec (universe cap s)) in Es; [| | apply (Hq node path); left; reflexivity
        | intros n p Hin; apply Hq; right; exact Hin | exact Hnd | exact HU].
      2:{ intros x Hx. split; [apply (Pkeys node x Hx) | apply (keys_in_universe cap s node x Hx)]. }
      destruct Es as (A & B & C & D & Q & N & I & M). cbn [length] in Hm.
      apply IH; [apply A; exact Hs | exact Q | | exact N | exact I | lia].
      intros u Hu. destruct (C u Hu) as [Hold|Hnew]; [|left; exact Hnew].
      destruct (Hc u Hold) as [[p [Hp|Hp]]|[Hne Hd]].
      * injection Hp as -> ->. right. split; [exact E|]. intros v Hv Hres. apply D; assumption.
      * left. exists p. apply B. exact Hp.
      * right. split; [exact Hne|]. intros v Hv Hres. apply A. apply Hd; assumption.
Qed.

Lemma bfs_total : exists r, bfs cap flow s sink = Some r /\ bfs_post r.
Proof.
  unfold bfs. apply bfs_loop_total; [left; reflexivity | | | | |].
  - intros n p [Hin|[]]. injection Hin as <- <-. split; [left; reflexivity | apply good_start].
  - intros u [<-|[]]. left. exists [s]. left. reflexivity.
  - constructor; [intros [] | constructor].
  - intros x [<-|[]]. left. reflexivity.
  - unfold bfs_fuel. cbn [length]. lia.
Qed.

Lemma bfs_spec : forall r, bfs cap flow s sink = Some r -> bfs_post r.
Proof. intros r H. destruct bfs_total as [r' [E H']]. rewrite E in H. injection H as <-. exact H'. Qed.

End Bfs.
