(* Weak duality (value of a feasible flow <= capacity of any s-t cut), equality for a cut closed under
   positive-residual arcs, hence maximality; soundness of the boolean spec_check. *)
From Coq Require Import List ZArith Bool Lia.
Import ListNotations.
From SV Require Import C08.MaxFlowSpec C08.MaxFlowMaps.
Open Scope Z_scope.

Section Cut.
Variables (V : list nat) (s t : nat) (inS : nat -> bool).
Hypothesis HV : NoDup V.
Hypothesis Ht : In t V.
Hypothesis HinS : inS s = true.
Hypothesis HinT : inS t = false.

Let Sl := filter inS V.
Let Tl := filter (fun v => negb (inS v)) V.

Definition conserved (f : fmap) : Prop := forall u, In u V -> u <> s -> u <> t -> net_out V f u = 0.

Lemma value_across_cut : forall f, conserved f ->
  flow_value V f t = sumz (map (fun u => sumz (map (fun v => f v u - f u v) Sl)) Tl).
Proof.
  intros f Hc. unfold flow_value.
  rewrite <- (sumz_single (fun u => - net_out V f u) t Tl).
  - rewrite (sumz_map_ext _ _ (fun u => sumz (map (fun v => f v u - f u v) Sl)
                                        + sumz (map (fun v => f v u - f u v) Tl))).
    + rewrite sumz_map_add, (sumz_antisym (fun u v => f v u)). lia.
    + intros u _. unfold Sl, Tl. rewrite <- sumz_filter_split, sumz_map_sub. unfold net_out. lia.
  - apply NoDup_filter. exact HV.
  - apply filter_In. split; [exact Ht | rewrite HinT; reflexivity].
  - intros x Hx Hne. apply filter_In in Hx. destruct Hx as [HxV Hx].
    rewrite Hc; [reflexivity | exact HxV | | exact Hne]. intros ->. rewrite HinS in Hx. discriminate.
Qed.

Lemma cut_cap_swap : forall g,
  cut_cap V g inS = sumz (map (fun u => sumz (map (fun v => cap_of g v u) Sl)) Tl).
Proof. intros g. unfold cut_cap. apply sumz_swap. Qed.

Theorem weak_duality_cut : forall g f, feasible_flow V g s t f -> flow_value V f t <= cut_cap V g inS.
Proof.
  intros g f [Hb Hc]. rewrite (value_across_cut f Hc), cut_cap_swap.
  apply sumz_map_le. intros u _. apply sumz_map_le. intros v _.
  pose proof (Hb v u). pose proof (Hb u v). lia.
Qed.

Definition closed_cut (g : wgraph) (f : fmap) : Prop :=
  forall u v, In u V -> In v V -> inS u = true -> 0 < residual_f g f u v -> inS v = true.

Theorem closed_cut_value : forall g f, feasible_flow V g s t f -> closed_cut g f ->
  flow_value V f t = cut_cap V g inS.
Proof.
  intros g f [Hb Hc] Hcl. rewrite (value_across_cut f Hc), cut_cap_swap.
  apply sumz_map_ext. intros u Hu. apply sumz_map_ext. intros v Hv.
  apply filter_In in Hu. destruct Hu as [HuV Hu]. apply filter_In in Hv. destruct Hv as [HvV Hv].
  pose proof (Hb v u). pose proof (Hb u v).
  destruct (Z_lt_le_dec 0 (residual_f g f v u)) as [Hpos|Hle].
  - rewrite (Hcl v u HvV HuV Hv Hpos) in Hu. discriminate.
  - unfold residual_f in Hle. lia.
Qed.

Theorem closed_cut_max : forall g f, feasible_flow V g s t f -> closed_cut g f -> is_max_flow V g s t f.
Proof.
  intros g f Hf Hcl. split; [exact Hf|]. intros f' Hf'.
  rewrite (closed_cut_value g f Hf Hcl). apply weak_duality_cut. exact Hf'.
Qed.

End Cut.

Lemma nodes_of_NoDup : forall g s t, NoDup (nodes_of g s t).
Proof. intros. unfold nodes_of. apply NoDup_nodup. Qed.

Lemma nodes_of_s : forall g s t, In s (nodes_of g s t).
Proof. intros. unfold nodes_of. apply nodup_In. left. reflexivity. Qed.

Lemma nodes_of_t : forall g s t, In t (nodes_of g s t).
Proof. intros. unfold nodes_of. apply nodup_In. right. left. reflexivity. Qed.

Lemma nodes_of_arc : forall g s t u v c, In (u, v, c) g -> In u (nodes_of g s t) /\ In v (nodes_of g s t).
Proof.
  intros g s t u v c H. unfold nodes_of. split; apply nodup_In; right; right; apply in_flat_map;
    exists (u, v, c); (split; [exact H|]); simpl; auto.
Qed.

Lemma cap_of_outside : forall (l : wgraph) (N : list nat) u v,
  (forall a b c, In (a, b, c) l -> In a N /\ In b N) -> ~ (In u N /\ In v N) -> cap_of l u v = 0.
Proof.
  intros l N u v HN H. destruct (Z.eq_dec (cap_of l u v) 0) as [E|E]; [exact E|].
  exfalso. apply H. destruct (cap_of_nonzero l u v E) as [c Hc]. apply (HN u v c Hc).
Qed.

Lemma keys_in_b_sound : forall sol N, keys_in_b sol N = true ->
  forall a b c, In (a, b, c) sol -> In a N /\ In b N.
Proof.
  intros sol N H a b c Hin. unfold keys_in_b in H. rewrite forallb_forall in H.
  apply H in Hin. simpl in Hin. apply andb_prop in Hin. rewrite !memn_In in Hin. exact Hin.
Qed.

Lemma bounds_b_sound : forall g f N, bounds_b g f N = true ->
  forall u v, In u N -> In v N -> 0 <= f u v <= cap_of g u v.
Proof.
  intros g f N H u v Hu Hv. unfold bounds_b in H. rewrite forallb_forall in H. specialize (H u Hu).
  rewrite forallb_forall in H. specialize (H v Hv). apply andb_true_iff in H. rewrite !Z.leb_le in H. exact H.
Qed.

Lemma bounds_everywhere : forall g f N, bounds_b g f N = true ->
  (forall u v, ~ (In u N /\ In v N) -> f u v = 0 /\ cap_of g u v = 0) ->
  forall u v, 0 <= f u v <= cap_of g u v.
Proof.
  intros g f N Hb Hout u v.
  destruct (in_dec Nat.eq_dec u N) as [Hu|Hu], (in_dec Nat.eq_dec v N) as [Hv|Hv];
    [apply (bounds_b_sound g f N Hb u v Hu Hv) | destruct (Hout u v) as [-> ->]; [tauto | lia] ..].
Qed.

Lemma conserv_b_sound : forall f N s t, conserv_b f N s t = true ->
  forall u, In u N -> u <> s -> u <> t -> net_out N f u = 0.
Proof.
  intros f N s t H u Hu Hs Ht. unfold conserv_b in H. rewrite forallb_forall in H. specialize (H u Hu).
  apply Nat.eqb_neq in Hs. apply Nat.eqb_neq in Ht. rewrite Hs, Ht in H. apply Z.eqb_eq. exact H.
Qed.

Lemma closed_b_sound : forall g f N S, closed_b g f N S = true -> closed_cut N (fun x => memn x S) g f.
Proof.
  intros g f N S H u v Hu Hv HuS Hres. unfold closed_b in H. rewrite forallb_forall in H.
  specialize (H u Hu). rewrite HuS in H. simpl in H. rewrite forallb_forall in H. specialize (H v Hv).
  apply Z.ltb_lt in Hres. rewrite Hres in H. exact H.
Qed.

Theorem spec_check_sound : forall g s t sol obj, spec_check g s t sol obj = true -> Spec g s t sol obj.
Proof.
  intros g s t sol obj H. unfold spec_check in H.
  apply andb_prop in H.
  destruct H as [[[[[[[_ Hkeys]%andb_prop Hbnd]%andb_prop Hcons]%andb_prop Hval]%andb_prop HsS]%andb_prop HtS]%andb_prop Hclosed].
  apply negb_true_iff in HtS. apply Z.eqb_eq in Hval. apply closed_b_sound in Hclosed.
  assert (Hfeas : feasible_flow (nodes_of g s t) g s t (fmap_of sol)).
  { split; [|apply conserv_b_sound; exact Hcons].
    apply (bounds_everywhere _ _ _ Hbnd). intros u v Hout. split.
    - rewrite fmap_of_cap_of. apply (cap_of_outside sol _ u v (keys_in_b_sound _ _ Hkeys) Hout).
    - apply (cap_of_outside g _ u v (nodes_of_arc g s t) Hout). }
  split; [|split].
  - exact (closed_cut_max _ s t (fun x => memn x _) (nodes_of_NoDup g s t) (nodes_of_t g s t) HsS HtS g _ Hfeas Hclosed).
  - exact Hval.
  - exact (ex_intro _ (fun x => memn x _) (conj HsS (conj HtS Hclosed))).
Qed.
