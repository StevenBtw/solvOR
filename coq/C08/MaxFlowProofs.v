(* The outer loop of max_flow: its invariant, total correctness (max_flow_run), the final state from which the
   results of Props/C08.v are read (final_state), the minimum cut, BFS closedness for the code after commit
   f2b9028; the code before that commit is refuted on the witness graph. *)
From Coq Require Import List ZArith Bool Lia.
Import ListNotations.
From SV Require Import C08.MaxFlow C08.MaxFlowSpec C08.MaxFlowMaps C08.MaxFlowAug
                       C08.MaxFlowBfs C08.MaxFlowDuality.
Open Scope Z_scope.

Lemma build_keys_nodes : forall fx g s t u x,
  In x (keys (nget (build_capacity fx g) u)) -> In x (nodes_of (arcs g) s t).
Proof.
  intros fx g s t u x H. apply build_capacity_keys, Exists_exists in H.
  destruct H as [[[a b] c] [Hin [[-> ->]|[_ [-> ->]]]]]; apply (nodes_of_arc _ s t) in Hin; tauto.
Qed.

Lemma valid_input_spec : forall g s t, valid_input g s t = true ->
  s <> t /\ forall a, In a (arcs g) -> 0 <= snd a.
Proof.
  intros g s t H. apply andb_prop in H. destruct H as [H1 H2].
  apply negb_true_iff, Nat.eqb_neq in H1. rewrite forallb_forall in H2.
  split; [exact H1 | intros a Ha; apply Z.leb_le, H2, Ha].
Qed.

Section Loop.
Variables (g : graph) (s t : nat).
Hypothesis Hvalid : valid_input g s t = true.

Let cap := build_capacity true g.
Let wg := arcs g.
Let V := nodes_of wg s t.

Lemma source_ne_sink : s <> t.
Proof. apply (valid_input_spec g s t Hvalid). Qed.

Definition loop_inv (flow : nmap) (total : Z) : Prop := flow_inv cap V s t flow total /\ unique_keys flow.

Lemma loop_inv_init : loop_inv [] 0.
Proof.
  split; [|apply unique_keys_nil].
  assert (Z0 : forall x, net_out V (get2 []) x = 0).
  { intros x. unfold net_out. rewrite !sumz_zero. reflexivity. }
  split; [|split; [|split]].
  - intros u v. unfold cap. rewrite build_capacity_get2. split; [reflexivity|].
    apply cap_of_nonneg, (valid_input_spec g s t Hvalid).
  - intros u _ _ _. apply Z0.
  - apply Z0.
  - rewrite Z0. reflexivity.
Qed.

(* outside its section `good` reads: good cap flow s P visited p n *)
Lemma good_aug_path : forall flow p vis, good cap flow s (fun x => In x V) vis p t ->
  aug_path cap flow s t p /\ (forall x, In x p -> In x V) /\ pairs p <> [].
Proof.
  intros flow p vis (H1 & H2 & H3 & H4 & H5 & H6). split; [|split].
  - unfold aug_path. auto.
  - intros x Hx. apply (H5 x Hx).
  - destruct p as [|x [|y r]]; [contradiction| |discriminate].
    simpl in H2, H3. exfalso. apply source_ne_sink. congruence.
Qed.

Lemma loop_inv_step : forall flow total p d, loop_inv flow total ->
  aug_path cap flow s t p -> (forall x, In x p -> In x V) -> path_flow cap flow p = Some d ->
  0 < d /\ loop_inv (augment flow d p) (total + d).
Proof.
  intros flow total p d [Hi Hw] Ha HpV Hp.
  destruct (aug_preserves cap V s t flow total p d (nodes_of_NoDup wg s t) HpV source_ne_sink Hi Ha Hp) as [Hd Hi'].
  split; [exact Hd|]. split; [exact Hi' | apply augment_unique_keys; exact Hw].
Qed.

(* the flow out of the source is bounded by the capacities of capacity[source], which `mf_fuel` adds up *)
Lemma total_le_source_cap : forall flow total, loop_inv flow total -> total <= source_cap cap s.
Proof.
  intros flow total [(Hb & Hc & Hs & Ht) Hw]. rewrite <- Hs. unfold net_out.
  assert (0 <= sumz (map (fun v => get2 flow v s) V)).
  { apply sumz_map_nonneg. intros x _. apply (Hb x s). }
  assert (sumz (map (get2 flow s) V) <= sumz (map (get2 cap s) V)).
  { apply sumz_map_le. intros x _. apply (Hb s x). }
  assert (sumz (map (get2 cap s) V) = source_cap cap s).
  { apply sum_reads.
    - apply nodes_of_NoDup.
    - apply unique_keys_nget, build_unique_keys.
    - intros x Hx. apply (build_keys_nodes true g s t s x Hx). }
  lia.
Qed.

(* each round adds at least 1 to the total, which never exceeds source_cap *)
Lemma mf_loop_total : forall fuel flow total iters, loop_inv flow total ->
  (Z.to_nat (source_cap cap s - total) < fuel)%nat ->
  exists flow' total' iters' vis, mf_loop fuel cap flow s t total iters = Some (flow', total', iters')
    /\ loop_inv flow' total' /\ bfs cap flow' s t = Some (inr vis).
Proof.
  induction fuel as [|f IH]; intros flow total iters Hi Hm; [lia|]. simpl.
  destruct (bfs_total cap flow s t (fun x => In x V) (nodes_of_s wg s t) (build_keys_nodes true g s t))
    as [[p|vis] [Eb Hpost]]; rewrite Eb.
  - destruct Hpost as [vis' Hg]. destruct (good_aug_path flow p vis' Hg) as (Ha & HpV & Hne).
    destruct p as [|x p']; [exfalso; apply Hne; reflexivity|].
    destruct (path_flow_some cap flow (x :: p') Hne) as [d Hd]. rewrite Hd.
    destruct (loop_inv_step flow total (x :: p') d Hi Ha HpV Hd) as [Hpos Hi'].
    apply IH; [exact Hi'|].
    pose proof (total_le_source_cap _ _ Hi'). lia.
  - exists flow, total, iters, vis. auto.
Qed.

Lemma max_flow_run : exists r flow vis, max_flow g s t = Some r
  /\ loop_inv flow (objective r) /\ solution r = extract flow /\ bfs cap flow s t = Some (inr vis).
Proof.
  destruct (mf_loop_total (mf_fuel cap s) [] 0 0%nat loop_inv_init) as (flow & total & iters & vis & E & Hi & Hb).
  { unfold mf_fuel. rewrite Z.sub_0_r. lia. }
  exists {| solution := extract flow; objective := total; iterations := iters |}, flow, vis.
  unfold max_flow, max_flow_gen. fold cap. rewrite E. auto.
Qed.

(* a positive residual on (u, v) needs capacity on (u, v) or flow, hence capacity, on (v, u) *)
Lemma residual_key : forall flow u v, bounded cap flow -> 0 < residual cap flow u v ->
  In v (keys (nget cap u)).
Proof.
  intros flow u v Hb Hres. unfold residual in Hres.
  pose proof (Hb u v) as B1. pose proof (Hb v u) as B2.
  apply build_capacity_keys, Exists_exists. unfold cap in B1, B2, Hres. rewrite !build_capacity_get2 in *.
  destruct (Z_lt_le_dec 0 (cap_of (arcs g) u v)) as [Hc|Hc].
  - destruct (cap_of_nonzero (arcs g) u v) as [c Hin]; [lia|]. exists (u, v, c). split; [exact Hin | left; auto].
  - destruct (cap_of_nonzero (arcs g) v u) as [c Hin]; [lia|]. exists (v, u, c). split; [exact Hin | right; auto].
Qed.

(* true of every graph: the hypothesis Hvalid of the section is not used *)
Theorem bfs_closed : forall flow vis, bounded cap flow -> bfs cap flow s t = Some (inr vis) ->
  In s vis /\ ~ In t vis /\ forall u v, In u vis -> 0 < residual cap flow u v -> In v vis.
Proof.
  intros flow vis Hb H.
  apply (bfs_spec cap flow s t (fun _ => True) I (fun _ _ _ => I)) in H.
  destruct H as (H1 & H2 & H3). split; [exact H1|]. split; [exact H2|].
  intros u v Hu Hres. apply (H3 u v Hu); [|exact Hres]. apply (residual_key flow u v Hb Hres).
Qed.

Lemma final_state : forall r, max_flow g s t = Some r -> exists vis,
  feasible_flow V wg s t (fmap_of (solution r))
  /\ flow_value V (fmap_of (solution r)) t = objective r
  /\ net_out V (fmap_of (solution r)) s = objective r
  /\ closed_cut V (fun x => memb x vis) wg (fmap_of (solution r))
  /\ memb s vis = true /\ memb t vis = false.
Proof.
  intros r H. destruct max_flow_run as (r' & flow & vis & E0 & [(Hb & Hc & Hs & Ht) Hw] & Hsol & Hbfs).
  rewrite E0 in H. injection H as <-. rewrite Hsol. exists vis.
  assert (E := extract_fmap flow Hw (fun u v => proj1 (Hb u v))).
  assert (En : forall x, net_out V (fmap_of (extract flow)) x = net_out V (get2 flow) x).
  { intros x. unfold net_out. f_equal; apply sumz_map_ext; intros y _; apply E. }
  destruct (bfs_closed flow vis Hb Hbfs) as (C1 & C2 & C3).
  split; [split|split; [|split; [|split; [|split]]]].
  - intros u v. rewrite E. unfold wg. rewrite <- build_capacity_get2 with (fx := true). apply Hb.
  - intros u Hu H1 H2. rewrite En. apply Hc; assumption.
  - unfold flow_value. rewrite En, Ht. lia.
  - rewrite En. exact Hs.
  - intros u v _ _ Hu Hres. apply memb_In. apply memb_In in Hu. apply (C3 u v Hu).
    unfold residual_f in Hres. rewrite !E in Hres.
    unfold residual, cap. rewrite build_capacity_get2. exact Hres.
  - apply memb_In. exact C1.
  - apply memb_false. exact C2.
Qed.

Theorem max_flow_min_cut : forall r, max_flow g s t = Some r ->
  exists inS, inS s = true /\ inS t = false /\ cut_cap V wg inS = objective r
    /\ forall inS', inS' s = true -> inS' t = false -> objective r <= cut_cap V wg inS'.
Proof.
  intros r H. destruct (final_state r H) as (vis & Hf & Hv & _ & Hcl & Hs & Ht).
  exists (fun x => memb x vis). split; [exact Hs|]. split; [exact Ht|]. rewrite <- Hv. split.
  - symmetry.
    apply (closed_cut_value V s t _ (nodes_of_NoDup wg s t) (nodes_of_t wg s t) Hs Ht wg _ Hf Hcl).
  - intros inS' Hs' Ht'.
    apply (weak_duality_cut V s t inS' (nodes_of_NoDup wg s t) (nodes_of_t wg s t) Hs' Ht' wg _ Hf).
Qed.

End Loop.

(* The code before commit f2b9028: without `capacity[v][u] += 0` the result is not maximal on the witness
   s->a, s->b, a->c, a->d, b->c, c->t, d->t (all capacity 1): the code returns 1, a feasible flow of value 2 exists. *)
Definition witness_result : result :=
  {| solution := [(0%nat, 1%nat, 1); (1%nat, 3%nat, 1); (3%nat, 5%nat, 1)]; objective := 1; iterations := 1 |}.

Definition better_flow : list (nat * nat * Z) :=
  [(0%nat, 1%nat, 1); (0%nat, 2%nat, 1); (1%nat, 4%nat, 1); (2%nat, 3%nat, 1); (3%nat, 5%nat, 1); (4%nat, 5%nat, 1)].

Theorem pinned_refuted :
  exists g s t r,
    valid_input g s t = true /\ max_flow_pinned g s t = Some r /\ objective r = 1
    /\ flow_value (nodes_of (arcs g) s t) (fmap_of (solution r)) t = 1
    /\ (exists f', feasible_flow (nodes_of (arcs g) s t) (arcs g) s t f'
                   /\ flow_value (nodes_of (arcs g) s t) f' t = 2)
    /\ ~ is_max_flow (nodes_of (arcs g) s t) (arcs g) s t (fmap_of (solution r)).
Proof.
  assert (E : flow_value (nodes_of (arcs witness_graph) 0 5) (fmap_of (solution witness_result)) 5 = 1)
    by (vm_compute; reflexivity).
  assert (H : spec_check (arcs witness_graph) 0 5 better_flow 2 = true) by (vm_compute; reflexivity).
  apply spec_check_sound in H. destruct H as [[Hf _] [Hv _]].
  exists witness_graph, 0%nat, 5%nat, witness_result.
  split; [vm_compute; reflexivity|]. split; [vm_compute; reflexivity|].
  split; [reflexivity|]. split; [exact E|]. split.
  - exists (fmap_of better_flow). split; assumption.
  - intros [_ Hmax]. specialize (Hmax _ Hf). rewrite Hv, E in Hmax. lia.
Qed.
