(* Finite sums over lists of nodes, and the association-list dictionaries of the model: reads after writes,
   key sets, uniqueness of keys, the returned dictionary; build_capacity computes the pooled capacities and
   (code after f2b9028) registers both directions of every arc. *)
From Coq Require Import List ZArith Bool Lia.
Import ListNotations.
From SV Require Import C08.MaxFlow C08.MaxFlowSpec.
Open Scope Z_scope.

Lemma sumz_app : forall a b, sumz (a ++ b) = sumz a + sumz b.
Proof. induction a as [|x a IH]; intros b; simpl; [reflexivity | rewrite IH; lia]. Qed.

Lemma sumz_map_ext : forall (A : Type) (g h : A -> Z) l,
  (forall x, In x l -> g x = h x) -> sumz (map g l) = sumz (map h l).
Proof.
  induction l as [|x l IH]; intros H; simpl; [reflexivity|].
  rewrite (H x (or_introl eq_refl)), IH; [reflexivity | intros y Hy; apply H; right; exact Hy].
Qed.

Lemma sumz_map_add : forall (A : Type) (g h : A -> Z) l,
  sumz (map (fun x => g x + h x) l) = sumz (map g l) + sumz (map h l).
Proof. induction l as [|x l IH]; simpl; [reflexivity | rewrite IH; lia]. Qed.

Lemma sumz_map_sub : forall (A : Type) (g h : A -> Z) l,
  sumz (map (fun x => g x - h x) l) = sumz (map g l) - sumz (map h l).
Proof. induction l as [|x l IH]; simpl; [reflexivity | rewrite IH; lia]. Qed.

Lemma sumz_map_le : forall (A : Type) (g h : A -> Z) l,
  (forall x, In x l -> g x <= h x) -> sumz (map g l) <= sumz (map h l).
Proof.
  induction l as [|x l IH]; intros H; simpl; [lia|].
  assert (g x <= h x) by (apply H; left; reflexivity).
  assert (sumz (map g l) <= sumz (map h l)) by (apply IH; intros y Hy; apply H; right; exact Hy).
  lia.
Qed.

Lemma sumz_zero : forall (A : Type) (l : list A), sumz (map (fun _ => 0) l) = 0.
Proof. induction l as [|x l IH]; simpl; [reflexivity | rewrite IH; reflexivity]. Qed.

Lemma sumz_map_zero : forall (A : Type) (g : A -> Z) l,
  (forall x, In x l -> g x = 0) -> sumz (map g l) = 0.
Proof. intros A g l H. rewrite (sumz_map_ext A g (fun _ => 0) l H). apply sumz_zero. Qed.

Lemma sumz_map_nonneg : forall (A : Type) (g : A -> Z) l,
  (forall x, In x l -> 0 <= g x) -> 0 <= sumz (map g l).
Proof. intros A g l H. rewrite <- (sumz_zero A l). apply sumz_map_le. exact H. Qed.

Lemma sumz_filter_split : forall (A : Type) (p : A -> bool) (g : A -> Z) l,
  sumz (map g l) = sumz (map g (filter p l)) + sumz (map g (filter (fun x => negb (p x)) l)).
Proof.
  induction l as [|x l IH]; simpl; [reflexivity|].
  destruct (p x); simpl; rewrite IH; lia.
Qed.

Lemma sumz_swap : forall (A B : Type) (g : A -> B -> Z) la lb,
  sumz (map (fun a => sumz (map (fun b => g a b) lb)) la)
  = sumz (map (fun b => sumz (map (fun a => g a b) la)) lb).
Proof.
  induction la as [|a la IH]; intros lb; simpl.
  - symmetry. apply sumz_zero.
  - rewrite IH. rewrite <- sumz_map_add. reflexivity.
Qed.

Lemma sumz_antisym : forall (f : nat -> nat -> Z) l,
  sumz (map (fun u => sumz (map (fun v => f u v - f v u) l)) l) = 0.
Proof.
  intros f l.
  rewrite (sumz_map_ext _ _ (fun u => sumz (map (fun v => f u v) l) - sumz (map (fun v => f v u) l))).
  2:{ intros u _. apply sumz_map_sub. }
  rewrite sumz_map_sub.
  rewrite (sumz_swap _ _ (fun u v => f v u) l l). lia.
Qed.

Lemma sumz_single : forall (g : nat -> Z) (w : nat) l, NoDup l -> In w l ->
  (forall x, In x l -> x <> w -> g x = 0) -> sumz (map g l) = g w.
Proof.
  induction l as [|x l IH]; intros Hnd Hin Hz; [contradiction|].
  apply NoDup_cons_iff in Hnd. destruct Hnd as [Hx Hnd']. simpl.
  destruct (Nat.eq_dec x w) as [E|E].
  - subst x. rewrite sumz_map_zero; [lia|].
    intros y Hy. apply Hz; [right; exact Hy | intros ->; contradiction].
  - destruct Hin as [Hin|Hin]; [contradiction|].
    rewrite (Hz x (or_introl eq_refl) E). rewrite IH; [lia | exact Hnd' | exact Hin |].
    intros y Hy Hne. apply Hz; [right; exact Hy | exact Hne].
Qed.

Lemma sumz_delta : forall (w : nat) (a : Z) l, NoDup l -> In w l ->
  sumz (map (fun y => if Nat.eqb y w then a else 0) l) = a.
Proof.
  intros w a l Hnd Hin. rewrite (sumz_single _ w l Hnd Hin).
  - rewrite Nat.eqb_refl. reflexivity.
  - intros x _ Hne. apply Nat.eqb_neq in Hne. rewrite Hne. reflexivity.
Qed.

Lemma existsb_eqb_In : forall w l, existsb (Nat.eqb w) l = true <-> In w l.
Proof.
  intros w l. rewrite existsb_exists. split.
  - intros [y [Hy E]]. apply Nat.eqb_eq in E. subst. exact Hy.
  - intros H. exists w. split; [exact H | apply Nat.eqb_refl].
Qed.

(* `memb` (model) and `memn` (specification) are the same test under two names: the specification file
   does not depend on the model file *)
Lemma memb_In : forall x l, memb x l = true <-> In x l.
Proof. intros. unfold memb. apply existsb_eqb_In. Qed.

Lemma memb_false : forall x l, memb x l = false <-> ~ In x l.
Proof.
  intros x l. split.
  - intros H Hin. apply memb_In in Hin. congruence.
  - intros H. destruct (memb x l) eqn:E; [|reflexivity]. apply memb_In in E. contradiction.
Qed.

Lemma memn_In : forall x l, memn x l = true <-> In x l.
Proof. intros. unfold memn. apply existsb_eqb_In. Qed.

Lemma eqb2_true : forall x y u v, Nat.eqb x u && Nat.eqb y v = true -> x = u /\ y = v.
Proof.
  intros x y u v H. apply andb_prop in H. destruct H as [H1 H2].
  apply Nat.eqb_eq in H1. apply Nat.eqb_eq in H2. split; assumption.
Qed.

Lemma fold_left_inv : forall (A B : Type) (P : A -> Prop) (h : A -> B -> A),
  (forall a b, P a -> P (h a b)) -> forall l a, P a -> P (fold_left h l a).
Proof. intros A B P h Hh. induction l as [|b l IH]; intros a Ha; simpl; [exact Ha | apply IH, Hh, Ha]. Qed.

Lemma aget_aadd : forall m k d k',
  aget (aadd m k d) k' = aget m k' + (if Nat.eqb k' k then d else 0).
Proof.
  induction m as [|[k0 x] r IH]; intros k d k'; simpl.
  - destruct (Nat.eqb k' k); lia.
  - destruct (Nat.eqb k k0) eqn:E; simpl.
    + apply Nat.eqb_eq in E. subst k0. destruct (Nat.eqb k' k); lia.
    + destruct (Nat.eqb k' k0) eqn:E2.
      * apply Nat.eqb_eq in E2. subst k0. rewrite Nat.eqb_sym, E. lia.
      * apply IH.
Qed.

Lemma nget_add2 : forall m u v d u',
  nget (add2 m u v d) u' = if Nat.eqb u' u then aadd (nget m u) v d else nget m u'.
Proof.
  induction m as [|[u0 a] r IH]; intros u v d u'; simpl.
  - destruct (Nat.eqb u' u); reflexivity.
  - destruct (Nat.eqb u u0) eqn:E; simpl.
    + apply Nat.eqb_eq in E. subst u0. destruct (Nat.eqb u' u); reflexivity.
    + destruct (Nat.eqb u' u0) eqn:E2.
      * apply Nat.eqb_eq in E2. subst u0. rewrite Nat.eqb_sym, E. reflexivity.
      * apply IH.
Qed.

Lemma get2_add2 : forall m u v d u' v',
  get2 (add2 m u v d) u' v' = get2 m u' v' + (if Nat.eqb u' u && Nat.eqb v' v then d else 0).
Proof.
  intros. unfold get2. rewrite nget_add2.
  destruct (Nat.eqb u' u) eqn:E; simpl.
  - apply Nat.eqb_eq in E. subst u'. apply aget_aadd.
  - lia.
Qed.

Lemma keys_aadd : forall a v d x, In x (keys (aadd a v d)) <-> x = v \/ In x (keys a).
Proof.
  induction a as [|[k y] r IH]; intros v d x; simpl.
  - split; intros [H|[]]; auto.
  - destruct (Nat.eqb v k) eqn:E; simpl.
    + apply Nat.eqb_eq in E. subst k. split; intros [H|H]; auto.
    + split.
      * intros [H|H]; [auto|]. apply IH in H. destruct H; auto.
      * intros [H|[H|H]]; [right; apply IH; auto | auto | right; apply IH; auto].
Qed.

Lemma keys_nget_add2 : forall m u v d u' x,
  In x (keys (nget (add2 m u v d) u')) <-> In x (keys (nget m u')) \/ (u' = u /\ x = v).
Proof.
  intros m u v d u' x. rewrite nget_add2. destruct (Nat.eqb u' u) eqn:E.
  - apply Nat.eqb_eq in E. subst u'. split.
    + intros H. apply keys_aadd in H. destruct H; auto.
    + intros [H|[_ H]]; apply keys_aadd; auto.
  - apply Nat.eqb_neq in E. split; [auto | intros [H|[H _]]; [exact H | contradiction]].
Qed.

Lemma aget_notin : forall a v, ~ In v (keys a) -> aget a v = 0.
Proof.
  induction a as [|[k y] r IH]; intros v H; simpl in *; [reflexivity|].
  destruct (Nat.eqb v k) eqn:E.
  - apply Nat.eqb_eq in E. subst. exfalso. apply H. left. reflexivity.
  - apply IH. intros Hin. apply H. right. exact Hin.
Qed.

Lemma nget_notin : forall m u, ~ In u (map fst m) -> nget m u = [].
Proof.
  induction m as [|[k a] r IH]; intros u H; simpl in *; [reflexivity|].
  destruct (Nat.eqb u k) eqn:E.
  - apply Nat.eqb_eq in E. subst. exfalso. apply H. left. reflexivity.
  - apply IH. intros Hin. apply H. right. exact Hin.
Qed.

Lemma nget_In : forall m u, nget m u = [] \/ In (u, nget m u) m.
Proof.
  induction m as [|[k a] r IH]; intros u; simpl; [left; reflexivity|].
  destruct (Nat.eqb u k) eqn:E.
  - apply Nat.eqb_eq in E. subst. right. left. reflexivity.
  - destruct (IH u); auto.
Qed.

Lemma keys_in_universe : forall cap s u x, In x (keys (nget cap u)) -> In x (universe cap s).
Proof.
  intros cap s u x H. unfold universe. right. apply in_or_app. right.
  destruct (nget_In cap u) as [E|E]; [rewrite E in H; contradiction|].
  apply in_flat_map. exists (u, nget cap u). split; [exact E | exact H].
Qed.

Definition unique_keys (m : nmap) : Prop :=
  NoDup (map fst m) /\ Forall (fun ua => NoDup (keys (snd ua))) m.

Lemma unique_keys_nil : unique_keys [].
Proof. split; constructor. Qed.

Lemma unique_keys_nget : forall m u, unique_keys m -> NoDup (keys (nget m u)).
Proof.
  intros m u [_ H]. destruct (nget_In m u) as [E|E]; [rewrite E; constructor|].
  rewrite Forall_forall in H. apply (H _ E).
Qed.

Lemma NoDup_keys_aadd : forall a v d, NoDup (keys a) -> NoDup (keys (aadd a v d)).
Proof.
  induction a as [|[k y] r IH]; intros v d H; simpl in *.
  - constructor; [intros [] | constructor].
  - apply NoDup_cons_iff in H. destruct H as [Hk Hr].
    destruct (Nat.eqb v k) eqn:E; simpl.
    + constructor; assumption.
    + constructor; [|apply IH; exact Hr].
      intros Hin. apply keys_aadd in Hin. destruct Hin as [->|Hin]; [|contradiction].
      rewrite Nat.eqb_refl in E. discriminate.
Qed.

Lemma add2_outer_inv : forall m u v d x, In x (map fst (add2 m u v d)) -> x = u \/ In x (map fst m).
Proof.
  induction m as [|[k a] r IH]; intros u v d x H; simpl in *.
  - destruct H as [H|[]]; auto.
  - destruct (Nat.eqb u k); simpl in H; destruct H as [H|H]; auto.
    destruct (IH _ _ _ _ H); auto.
Qed.

Lemma unique_keys_add2 : forall m u v d, unique_keys m -> unique_keys (add2 m u v d).
Proof.
  induction m as [|[k a] r IH]; intros u v d [H1 H2]; simpl in *.
  - split; simpl.
    + constructor; [intros []|constructor].
    + constructor; [|constructor]. simpl. constructor; [intros []|constructor].
  - apply NoDup_cons_iff in H1. destruct H1 as [Hk Hr]. apply Forall_cons_iff in H2. destruct H2 as [Ha Hr2].
    destruct (Nat.eqb u k) eqn:E; simpl.
    + split; simpl; [constructor; assumption|]. constructor; [|exact Hr2].
      simpl. apply NoDup_keys_aadd. exact Ha.
    + destruct (IH u v d (conj Hr Hr2)) as [I1 I2].
      split; simpl; [|constructor; assumption].
      constructor; [|exact I1].
      intros Hin. apply add2_outer_inv in Hin. destruct Hin as [->|Hin]; [|contradiction].
      rewrite Nat.eqb_refl in E. discriminate.
Qed.

Lemma sum_reads : forall V a, NoDup V -> NoDup (keys a) -> (forall x, In x (keys a) -> In x V) ->
  sumz (map (aget a) V) = sumz (map snd a).
Proof.
  intros V a HV. induction a as [|[k x] r IH]; intros Hnd Hsub; simpl.
  - apply sumz_zero.
  - apply NoDup_cons_iff in Hnd. destruct Hnd as [Hk Hr].
    rewrite (sumz_map_ext _ _ (fun v => (if Nat.eqb v k then x else 0) + aget r v)).
    + rewrite sumz_map_add, sumz_delta; [|exact HV|apply Hsub; left; reflexivity].
      rewrite IH; [reflexivity | exact Hr | intros y Hy; apply Hsub; right; exact Hy].
    + intros v _. destruct (Nat.eqb v k) eqn:E; [|reflexivity].
      apply Nat.eqb_eq in E. subst. rewrite (aget_notin r k Hk). lia.
Qed.

(* what the entry a contributes to position (u, v): the summand of fmap_of and of cap_of *)
Definition sel (u v : nat) (a : nat * nat * Z) : Z :=
  if Nat.eqb (fst (fst a)) u && Nat.eqb (snd (fst a)) v then snd a else 0.

Lemma fmap_of_app : forall l1 l2 u v, fmap_of (l1 ++ l2) u v = fmap_of l1 u v + fmap_of l2 u v.
Proof. intros. unfold fmap_of. rewrite map_app, sumz_app. reflexivity. Qed.

Definition inner_extract (u0 : nat) (a : amap) : list (nat * nat * Z) :=
  flat_map (fun vx => if 0 <? snd vx then [(u0, fst vx, snd vx)] else []) a.

Lemma inner_extract_val : forall u0 a u v, NoDup (keys a) ->
  fmap_of (inner_extract u0 a) u v
  = if Nat.eqb u0 u then (if 0 <? aget a v then aget a v else 0) else 0.
Proof.
  induction a as [|[k x] r IH]; intros u v Hnd; simpl in *.
  - destruct (Nat.eqb u0 u); reflexivity.
  - apply NoDup_cons_iff in Hnd. destruct Hnd as [Hk Hr].
    unfold inner_extract in *. simpl. rewrite fmap_of_app. rewrite (IH u v Hr).
    destruct (Nat.eqb u0 u) eqn:E.
    + destruct (Nat.eqb v k) eqn:E2.
      * apply Nat.eqb_eq in E2. subst k. rewrite (aget_notin r v Hk). simpl.
        destruct (0 <? x) eqn:E3; unfold fmap_of; simpl; [|reflexivity].
        rewrite E, Nat.eqb_refl. simpl. lia.
      * destruct (0 <? x) eqn:E3; unfold fmap_of; simpl; [|reflexivity].
        rewrite E, (Nat.eqb_sym k v), E2. simpl. lia.
    + destruct (0 <? x); unfold fmap_of; simpl; [rewrite E; simpl|]; lia.
Qed.

Lemma extract_val : forall m u v, unique_keys m ->
  fmap_of (extract m) u v = if 0 <? get2 m u v then get2 m u v else 0.
Proof.
  induction m as [|[k a] r IH]; intros u v [H1 H2]; simpl in *.
  - reflexivity.
  - apply NoDup_cons_iff in H1. destruct H1 as [Hk Hr]. apply Forall_cons_iff in H2. destruct H2 as [Ha Hr2]. simpl in Ha.
    unfold extract in *. simpl. rewrite fmap_of_app.
    change (flat_map (fun vx : nat * Z => if 0 <? snd vx then [(k, fst vx, snd vx)] else []) a)
      with (inner_extract k a).
    rewrite (inner_extract_val k a u v Ha). rewrite (IH u v (conj Hr Hr2)).
    unfold get2. simpl. rewrite (Nat.eqb_sym u k).
    destruct (Nat.eqb k u) eqn:E.
    + apply Nat.eqb_eq in E. subst k. rewrite (nget_notin r u Hk). simpl. lia.
    + lia.
Qed.

Lemma extract_fmap : forall m, unique_keys m -> (forall u v, 0 <= get2 m u v) ->
  forall u v, fmap_of (extract m) u v = get2 m u v.
Proof.
  intros m Hwf Hpos u v. rewrite (extract_val m u v Hwf).
  specialize (Hpos u v). destruct (0 <? get2 m u v) eqn:E; [reflexivity|].
  apply Z.ltb_ge in E. lia.
Qed.

(* a returned dictionary and a list of input arcs are read in the same way: the specification names the
   function twice, `fmap_of` for dictionaries and `cap_of` for arcs *)
Lemma fmap_of_cap_of : forall l, fmap_of l = cap_of l.
Proof. reflexivity. Qed.

Lemma cap_of_cons : forall a l u v, cap_of (a :: l) u v = sel u v a + cap_of l u v.
Proof. reflexivity. Qed.

Lemma cap_of_nonzero : forall l u v, cap_of l u v <> 0 -> exists c, In (u, v, c) l.
Proof.
  induction l as [|[[a b] c] l IH]; intros u v H.
  - exfalso. apply H. reflexivity.
  - rewrite cap_of_cons in H. unfold sel in H. simpl in H.
    destruct (Nat.eqb a u && Nat.eqb b v) eqn:E.
    + apply eqb2_true in E. destruct E as [-> ->]. exists c. left. reflexivity.
    + destruct (IH u v) as [c' Hc']; [lia|]. exists c'. right. exact Hc'.
Qed.

Lemma cap_of_nonneg : forall l u v, (forall a, In a l -> 0 <= snd a) -> 0 <= cap_of l u v.
Proof.
  intros l u v H. apply (sumz_map_nonneg _ (sel u v)). intros a Ha.
  specialize (H a Ha). unfold sel. destruct (Nat.eqb (fst (fst a)) u && Nat.eqb (snd (fst a)) v); lia.
Qed.

Lemma cap_step_get2 : forall fx m a u v, get2 (cap_step fx m a) u v = get2 m u v + sel u v a.
Proof.
  intros fx m [[a b] c] u v. unfold cap_step, sel. simpl.
  destruct fx; [rewrite get2_add2|]; rewrite get2_add2;
    rewrite (Nat.eqb_sym u a), (Nat.eqb_sym v b).
  - destruct (Nat.eqb u b && Nat.eqb v a); lia.
  - reflexivity.
Qed.

Lemma fold_cap_get2 : forall fx l m u v,
  get2 (fold_left (cap_step fx) l m) u v = get2 m u v + cap_of l u v.
Proof.
  induction l as [|a l IH]; intros m u v; simpl.
  - unfold cap_of. simpl. lia.
  - rewrite IH, cap_step_get2, cap_of_cons. lia.
Qed.

Lemma build_capacity_get2 : forall fx g u v, get2 (build_capacity fx g) u v = cap_of (arcs g) u v.
Proof. intros. unfold build_capacity. rewrite fold_cap_get2. reflexivity. Qed.

Lemma build_unique_keys : forall fx g, unique_keys (build_capacity fx g).
Proof.
  intros fx g. apply (fold_left_inv _ _ unique_keys); [|apply unique_keys_nil].
  intros m [[a b] c] H. unfold cap_step. destruct fx; repeat apply unique_keys_add2; exact H.
Qed.

(* the arc a puts x among the keys of capacity[u]: as its head, or (code after f2b9028) as its tail *)
Definition arc_key (fx : bool) (u x : nat) (a : nat * nat * Z) : Prop :=
  (u = fst (fst a) /\ x = snd (fst a)) \/ (fx = true /\ u = snd (fst a) /\ x = fst (fst a)).

Lemma cap_step_keys : forall fx m a u x,
  In x (keys (nget (cap_step fx m a) u)) <-> In x (keys (nget m u)) \/ arc_key fx u x a.
Proof.
  intros fx m [[a b] c] u x. unfold cap_step, arc_key. simpl. destruct fx; split.
  - intros H. apply keys_nget_add2 in H. destruct H as [H|H]; [|auto].
    apply keys_nget_add2 in H. destruct H; auto.
  - intros H. apply keys_nget_add2. destruct H as [H|[H|[_ H]]]; [| |auto]; left; apply keys_nget_add2; auto.
  - intros H. apply keys_nget_add2 in H. destruct H; auto.
  - intros [H|[H|[H _]]]; [| |discriminate]; apply keys_nget_add2; auto.
Qed.

Lemma fold_cap_keys : forall fx l m u x,
  In x (keys (nget (fold_left (cap_step fx) l m) u)) <-> In x (keys (nget m u)) \/ Exists (arc_key fx u x) l.
Proof.
  induction l as [|a l IH]; intros m u x; simpl.
  - split; [auto | intros [H|H]; [exact H | apply Exists_nil in H; contradiction]].
  - split.
    + intros H. apply IH in H. destruct H as [H|H]; [|auto]. apply cap_step_keys in H. destruct H; auto.
    + intros H. apply IH. destruct H as [H|H]; [left; apply cap_step_keys; auto|].
      apply Exists_cons in H. destruct H; [left; apply cap_step_keys|]; auto.
Qed.

(* the keys of capacity[u] are the heads of the arcs out of u and, with `capacity[v][u] += 0` (the point of
   commit f2b9028), the tails of the arcs into u *)
Lemma build_capacity_keys : forall fx g u x,
  In x (keys (nget (build_capacity fx g) u)) <-> Exists (arc_key fx u x) (arcs g).
Proof.
  intros fx g u x. unfold build_capacity. split; intros H.
  - apply fold_cap_keys in H. destruct H as [[]|H]. exact H.
  - apply fold_cap_keys. right. exact H.
Qed.
