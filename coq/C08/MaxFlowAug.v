(* One augmentation (aug_step / augment / path_flow): capacity bounds and conservation are preserved,
   the net outflow of the two ends of the path moves by the path flow. *)
From Coq Require Import List ZArith Bool Lia.
Import ListNotations.
From SV Require Import C08.MaxFlow C08.MaxFlowSpec C08.MaxFlowMaps.
Open Scope Z_scope.

Definition bounded (cap flow : nmap) : Prop := forall u v, 0 <= get2 flow u v <= get2 cap u v.

(* the `reduce` of the code: amount of reverse flow cancelled on the arc (u, v) *)
Definition red (f : nmap) (d : Z) (u v : nat) : Z :=
  if 0 <? get2 f v u then Z.min d (get2 f v u) else 0.

Lemma aug_step_get2 : forall d f u v x y,
  get2 (aug_step d f (u, v)) x y
  = get2 f x y + (if Nat.eqb x u && Nat.eqb y v then d - red f d u v else 0)
               + (if Nat.eqb x v && Nat.eqb y u then - red f d u v else 0).
Proof.
  intros d f u v x y. unfold aug_step, red.
  destruct (0 <? get2 f v u).
  - rewrite !get2_add2. lia.
  - rewrite get2_add2. destruct (Nat.eqb x u && Nat.eqb y v); destruct (Nat.eqb x v && Nat.eqb y u); lia.
Qed.

(* on a flow without negative entries the test `flow[v][u] > 0` makes no difference *)
Lemma red_min : forall f d u v, 0 <= d -> 0 <= get2 f v u -> red f d u v = Z.min d (get2 f v u).
Proof.
  intros f d u v Hd Hf. unfold red. destruct (0 <? get2 f v u) eqn:E; [reflexivity|].
  apply Z.ltb_ge in E. lia.
Qed.

Lemma aug_step_bounded : forall cap f d u v,
  bounded cap f -> u <> v -> 0 <= d -> d <= residual cap f u v -> bounded cap (aug_step d f (u, v)).
Proof.
  intros cap f d u v Hb Huv Hd0 Hd x y. rewrite aug_step_get2.
  pose proof (Hb u v) as B1. pose proof (Hb v u) as B2. pose proof (Hb x y) as B3.
  unfold residual in Hd. rewrite (red_min f d u v Hd0) by apply B2.
  destruct (Nat.eqb x u && Nat.eqb y v) eqn:E1; destruct (Nat.eqb x v && Nat.eqb y u) eqn:E2;
    try apply eqb2_true in E1; try apply eqb2_true in E2.
  - exfalso. apply Huv. destruct E1, E2. congruence.
  - destruct E1 as [-> ->]. lia.
  - destruct E2 as [-> ->]. lia.
  - lia.
Qed.

Lemma aug_step_residual_other : forall cap f d u v a b,
  a <> u -> b <> u -> residual cap (aug_step d f (u, v)) a b = residual cap f a b.
Proof.
  intros cap f d u v a b Ha Hb. unfold residual. rewrite !aug_step_get2.
  apply Nat.eqb_neq in Ha. apply Nat.eqb_neq in Hb. rewrite Ha, Hb. simpl.
  rewrite !andb_false_r. lia.
Qed.

Lemma sumz_upd : forall (h h' : nat -> Z) (c : bool) w a V, NoDup V -> In w V ->
  (forall y, h' y = h y + (if c && Nat.eqb y w then a else 0)) ->
  sumz (map h' V) = sumz (map h V) + (if c then a else 0).
Proof.
  intros h h' c w a V Hnd Hin Hh. rewrite (sumz_map_ext _ h' _ V (fun y _ => Hh y)), sumz_map_add.
  f_equal. destruct c; simpl; [apply sumz_delta; assumption | apply sumz_zero].
Qed.

Lemma net_out_upd : forall V (f f' : fmap) p q a, NoDup V -> In p V -> In q V ->
  (forall x y, f' x y = f x y + (if Nat.eqb x p && Nat.eqb y q then a else 0)) ->
  forall x, net_out V f' x = net_out V f x + (if Nat.eqb x p then a else 0) - (if Nat.eqb x q then a else 0).
Proof.
  intros V f f' p q a Hnd Hp Hq Hf x. unfold net_out.
  rewrite (sumz_upd (f x) (f' x) (Nat.eqb x p) q a V Hnd Hq) by (intros y; apply Hf).
  rewrite (sumz_upd (fun v => f v x) (fun v => f' v x) (Nat.eqb x q) p a V Hnd Hp); [lia|].
  intros y. rewrite Hf, andb_comm. reflexivity.
Qed.

Lemma add2_net_out : forall V m p q a, NoDup V -> In p V -> In q V ->
  forall x, net_out V (get2 (add2 m p q a)) x
            = net_out V (get2 m) x + (if Nat.eqb x p then a else 0) - (if Nat.eqb x q then a else 0).
Proof. intros V m p q a Hnd Hp Hq. apply (net_out_upd V _ _ p q a Hnd Hp Hq). intros x y. apply get2_add2. Qed.

Lemma aug_step_net_out : forall V f d u v, NoDup V -> In u V -> In v V ->
  forall x, net_out V (get2 (aug_step d f (u, v))) x
            = net_out V (get2 f) x + (if Nat.eqb x u then d else 0) - (if Nat.eqb x v then d else 0).
Proof.
  intros V f d u v Hnd Hu Hv x. unfold aug_step. destruct (0 <? get2 f v u).
  - rewrite (add2_net_out V _ u v _ Hnd Hu Hv), (add2_net_out V f v u _ Hnd Hv Hu).
    destruct (Nat.eqb x u); destruct (Nat.eqb x v); lia.
  - apply (add2_net_out V f u v d Hnd Hu Hv).
Qed.

Lemma pairs_cons2 : forall u v r, pairs (u :: v :: r) = (u, v) :: pairs (v :: r).
Proof. reflexivity. Qed.

Lemma pairs_In : forall p a b, In (a, b) (pairs p) -> In a p /\ In b p.
Proof.
  intros p a b H. unfold pairs in H. split.
  - apply (in_combine_l _ _ _ _ H).
  - apply in_combine_r in H. destruct p; simpl in *; [contradiction | right; exact H].
Qed.

Lemma pairs_snoc : forall p x (d : nat), p <> [] -> pairs (p ++ [x]) = pairs p ++ [(last p d, x)].
Proof.
  induction p as [|a p IH]; intros x d Hne; [contradiction|].
  destruct p as [|b r]; [reflexivity|].
  change ((a :: b :: r) ++ [x]) with (a :: b :: (r ++ [x])).
  rewrite !pairs_cons2.
  change (b :: r ++ [x]) with ((b :: r) ++ [x]).
  rewrite (IH x d) by discriminate. reflexivity.
Qed.

Lemma augment_cons2 : forall f d u v r,
  augment f d (u :: v :: r) = augment (aug_step d f (u, v)) d (v :: r).
Proof. reflexivity. Qed.

Lemma aug_step_unique_keys : forall d f uv, unique_keys f -> unique_keys (aug_step d f uv).
Proof.
  intros d f [u v] H. unfold aug_step. destruct (0 <? get2 f v u); repeat apply unique_keys_add2; exact H.
Qed.

Lemma augment_unique_keys : forall d p f, unique_keys f -> unique_keys (augment f d p).
Proof. intros d p. unfold augment. apply (fold_left_inv _ _ unique_keys). apply aug_step_unique_keys. Qed.

Lemma last_default : forall r (v d d' : nat), last (v :: r) d = last (v :: r) d'.
Proof. induction r as [|w r IH]; intros v d d'; [reflexivity | apply (IH w d d')]. Qed.

Lemma augment_spec : forall cap V d r u f,
  NoDup V -> NoDup (u :: r) -> (forall x, In x (u :: r) -> In x V) ->
  bounded cap f -> 0 <= d -> (forall a b, In (a, b) (pairs (u :: r)) -> d <= residual cap f a b) ->
  bounded cap (augment f d (u :: r))
  /\ forall x, net_out V (get2 (augment f d (u :: r))) x
               = net_out V (get2 f) x + (if Nat.eqb x u then d else 0)
                 - (if Nat.eqb x (last (u :: r) u) then d else 0).
Proof.
  intros cap V d r. induction r as [|v r IH]; intros u f HV Hnd Hin Hb Hd Hres.
  - split; [exact Hb|]. intros x. unfold augment. simpl. lia.
  - rewrite augment_cons2. apply NoDup_cons_iff in Hnd. destruct Hnd as [Hu Hnd].
    destruct (IH v (aug_step d f (u, v)) HV Hnd) as [IB IN].
    + intros y Hy. apply Hin. right. exact Hy.
    + apply aug_step_bounded; [exact Hb | | exact Hd | apply Hres; left; reflexivity].
      intros ->. apply Hu. left. reflexivity.
    + exact Hd.
    + intros a b Hab. rewrite aug_step_residual_other; [apply Hres; right; exact Hab | |];
        apply pairs_In in Hab; intros ->; apply Hu; tauto.
    + split; [exact IB|]. intros x.
      rewrite IN, aug_step_net_out; [|exact HV|apply Hin; left; reflexivity|apply Hin; right; left; reflexivity].
      change (last (u :: v :: r) u) with (last (v :: r) u). rewrite (last_default r v u v). lia.
Qed.

Lemma fold_min_glb : forall (h : nat * nat -> Z) r acc z,
  z <= fold_left (fun a uv => Z.min a (h uv)) r acc <-> z <= acc /\ forall uv, In uv r -> z <= h uv.
Proof.
  induction r as [|x r IH]; intros acc z; simpl.
  - split; [intros H; split; [exact H | intros uv []] | intros [H _]; exact H].
  - split.
    + intros H. apply IH in H. destruct H as [H1 H2].
      split; [lia | intros uv [->|Hin]; [lia | apply H2; exact Hin]].
    + intros [H1 H2]. apply IH. split; [|intros uv Hin; apply H2; right; exact Hin].
      specialize (H2 x (or_introl eq_refl)). lia.
Qed.

Lemma path_flow_glb : forall cap f p d, path_flow cap f p = Some d ->
  forall z, z <= d <-> forall u v, In (u, v) (pairs p) -> z <= residual cap f u v.
Proof.
  intros cap f p d H z. unfold path_flow in H.
  destruct (pairs p) as [|[u v] r]; [discriminate|]. injection H as <-. split.
  - intros H a b Hab. apply fold_min_glb in H. destruct H as [H1 H2].
    destruct Hab as [Hab|Hab]; [injection Hab as <- <-; exact H1 | apply (H2 (a, b) Hab)].
  - intros H. apply fold_min_glb. split; [apply H; left; reflexivity | intros [a b] Hab; apply H; right; exact Hab].
Qed.

Lemma path_flow_some : forall cap f p, pairs p <> [] -> exists d, path_flow cap f p = Some d.
Proof.
  intros cap f p H. unfold path_flow. destruct (pairs p) as [|[u v] r]; [contradiction|]. eauto.
Qed.

(* V: a duplicate-free list of nodes containing the path; s, t the ends *)
Definition flow_inv (cap : nmap) (V : list nat) (s t : nat) (flow : nmap) (total : Z) : Prop :=
  bounded cap flow
  /\ (forall u, In u V -> u <> s -> u <> t -> net_out V (get2 flow) u = 0)
  /\ net_out V (get2 flow) s = total
  /\ net_out V (get2 flow) t = - total.

(* an augmenting path as BFS returns it *)
Definition aug_path (cap flow : nmap) (s t : nat) (p : list nat) : Prop :=
  NoDup p /\ hd s p = s /\ last p s = t /\ p <> []
  /\ forall u v, In (u, v) (pairs p) -> 0 < residual cap flow u v.

Theorem aug_preserves : forall cap V s t flow total p d,
  NoDup V -> (forall x, In x p -> In x V) -> s <> t ->
  flow_inv cap V s t flow total -> aug_path cap flow s t p -> path_flow cap flow p = Some d ->
  0 < d /\ flow_inv cap V s t (augment flow d p) (total + d).
Proof.
  intros cap V s t flow total p d HV HpV Hst [Hb [Hc [Hs Ht]]] [Hnd [Hhd [Hlast [Hne Hres]]]] Hpf.
  assert (Hle := proj1 (path_flow_glb _ _ _ _ Hpf d) (Z.le_refl d)).
  assert (Hpos : 1 <= d).
  { apply (path_flow_glb _ _ _ _ Hpf). intros u v Huv. specialize (Hres u v Huv). lia. }
  split; [lia|].
  destruct p as [|u r]; [contradiction|]. simpl in Hhd. subst u.
  destruct (augment_spec cap V d r s flow HV Hnd HpV Hb) as [Hb' Hnet]; [lia | exact Hle |].
  rewrite Hlast in Hnet.
  apply Nat.eqb_neq in Hst. rewrite Nat.eqb_sym in Hst.
  split; [exact Hb'|]. split; [|split].
  - intros x Hx Hxs Hxt. rewrite Hnet, (Hc x Hx Hxs Hxt).
    apply Nat.eqb_neq in Hxs, Hxt. rewrite Hxs, Hxt. lia.
  - rewrite Hnet, Hs, Nat.eqb_refl, Nat.eqb_sym, Hst. lia.
  - rewrite Hnet, Ht, Nat.eqb_refl, Hst. lia.
Qed.
