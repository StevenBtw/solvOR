From Coq Require Import List ZArith Bool Arith Lia.
From SV Require Import C19.Common C19.A_Tabu.
Import ListNotations.
Open Scope Z_scope.

Definition t_inv (seen : list Z) (s : tst) : Prop :=
  Holds seen (t_cur s) (t_cur_obj s)
  /\ IsBest seen (t_best s) (t_best_obj s)
  /\ t_evals s = length seen.

Lemma t_inv_init m u0 : t_inv [ev_call m u0] (t_init m u0).
Proof. split; [reflexivity|]. split; [apply IsBest_single | reflexivity]. Qed.

(* the best admissible neighbour so far holds an evaluated point *)
Definition bn_holds (seen : list Z) (bn : option (Z * nat * nat)) : Prop :=
  match bn with None => True | Some (bx, bid, _) => Holds seen bid bx end.

(* every scanned value is either not better than best_obj (skipped as tabu) or not better than bn *)
Definition Covered (bobj : Z) (bn : option (Z * nat * nat)) (v : Z) : Prop :=
  bobj <= v \/ match bn with None => False | Some (bx, _, _) => bx <= v end.

Lemma t_scan_inv m bobj tset : forall cands seen id bn bn' id',
  id = length seen -> bn_holds seen bn ->
  t_scan m bobj tset cands id bn = (bn', id') ->
  id' = length (seen ++ map (ev_call m) (map snd cands))
  /\ bn_holds (seen ++ map (ev_call m) (map snd cands)) bn'
  /\ (forall v, Covered bobj bn v -> Covered bobj bn' v)
  /\ Forall (Covered bobj bn') (map (ev_call m) (map snd cands)).
Proof.
  induction cands as [|[mv u] rest IH]; intros seen id bn bn' id' Hid Hbn Hs; cbn [t_scan] in Hs.
  - injection Hs as <- <-. simpl. rewrite app_nil_r. repeat split; auto.
  - set (x := ev_call m u) in *.
    set (bn1 := if memb mv tset && (bobj <=? x) then bn
                else match bn with
                     | None => Some (x, id, mv)
                     | Some (bx, _, _) => if x <? bx then Some (x, id, mv) else bn
                     end) in *.
    (* one candidate: bn1 holds an evaluated point, covers what bn covered, and covers x *)
    assert (H1 : bn_holds (seen ++ [x]) bn1 /\ (forall v, Covered bobj bn v -> Covered bobj bn1 v)
                 /\ Covered bobj bn1 x).
    { assert (Hold : bn_holds (seen ++ [x]) bn).
      { destruct bn as [[[bx bid] bm]|]; [apply Holds_app; exact Hbn | exact I]. }
      assert (Hnew : bn_holds (seen ++ [x]) (Some (x, id, mv))) by (simpl; rewrite Hid; apply Holds_new).
      unfold bn1. destruct (memb mv tset && (bobj <=? x)) eqn:Hsk.
      - apply andb_true_iff in Hsk as [_ Hle%Z.leb_le].
        split; [exact Hold|]. split; [auto | left; exact Hle].
      - destruct bn as [[[bx bid] bm]|]; [destruct (Z.ltb_spec x bx) as [Hlt|Hlt]|].
        + split; [exact Hnew|]. split; [|right; simpl; lia].
          intros v [Hv|Hv]; [left; exact Hv | right; simpl in Hv; lia].
        + split; [exact Hold|]. split; [auto | right; exact Hlt].
        + split; [exact Hnew|]. split; [|right; simpl; lia]. intros v [Hv|[]]. left; exact Hv. }
    destruct H1 as [Hh1 [Hmono1 Hx]].
    assert (Hid1 : S id = length (seen ++ [x])) by (rewrite last_length, Hid; reflexivity).
    destruct (IH (seen ++ [x]) (S id) bn1 bn' id' Hid1 Hh1 Hs) as [Ha [Hb [Hc Hd]]].
    simpl. fold x. rewrite <- app_assoc in Ha, Hb. simpl in Ha, Hb.
    split; [exact Ha|]. split; [exact Hb|]. split.
    + intros v Hv. apply Hc. apply Hmono1. exact Hv.
    + constructor; [apply Hc; exact Hx | exact Hd].
Qed.

Lemma t_step_inv m cd mni it s e seen :
  t_inv seen s -> t_inv (seen ++ map (ev_call m) (t_vals e)) (fst (t_step m cd mni it s e)).
Proof.
  intros [Hc [Hb He]]. destruct e as [[|c0 cs] stop]; unfold t_step, t_vals; cbn [t_cands t_stop].
  - simpl. rewrite app_nil_r. split; [exact Hc|]. split; [exact Hb | exact He].
  - destruct (t_scan m (t_best_obj s) (t_set s) (c0 :: cs) (t_evals s) None) as [bn ev'] eqn:Hs.
    destruct (t_scan_inv m (t_best_obj s) (t_set s) (c0 :: cs) seen (t_evals s) None bn ev' He I Hs)
      as [Hev [Hbn [_ Hcov]]].
    set (more := map (ev_call m) (map snd (c0 :: cs))) in *.
    destruct bn as [[[x id] mv]|]; cbn [fst].
    + simpl in Hbn.
      destruct (Z.ltb_spec x (t_best_obj s)) as [Hlt|Hlt];
        unfold t_inv; cbn [t_cur t_cur_obj t_best t_best_obj t_evals]; (split; [exact Hbn|]); (split; [|exact Hev]).
      * split; [exact Hbn|]. apply Forall_app. split.
        -- apply Forall_le_trans with (b := t_best_obj s); [lia | exact (proj2 Hb)].
        -- eapply Forall_impl; [|exact Hcov]. intros v [Hv|Hv]; simpl in Hv; lia.
      * apply IsBest_app; [exact Hb|].
        eapply Forall_impl; [|exact Hcov]. intros v [Hv|Hv]; simpl in Hv; lia.
    + (* every candidate was tabu and not better than best *)
      unfold t_inv; cbn [t_cur t_cur_obj t_best t_best_obj t_evals].
      split; [apply Holds_app; exact Hc|]. split; [|exact Hev]. apply IsBest_app; [exact Hb|].
      eapply Forall_impl; [|exact Hcov]. intros v [Hv|Hv]; simpl in Hv; [lia | contradiction].
Qed.

Lemma tabu_spec m cd mi mni u0 evs r :
  tabu m cd mi mni u0 evs = Some r -> BestSpec m (tabu_log u0 evs) r.
Proof.
  unfold tabu. intros H. destruct (Nat.eqb cd 0); [discriminate|].
  destruct (loop (t_step m cd mni) mi 1 (t_init m u0) evs) as [[s it]|] eqn:HL; [|discriminate].
  injection H as <-.
  destruct (loop_inv_log (t_step m cd mni) t_vals t_inv m (t_step_inv m cd mni) _ _ _ _ [u0] _ _
              (t_inv_init m u0) HL) as [_ [Hb He]].
  apply IsBest_BestSpec; [exact Hb | rewrite He; apply map_length].
Qed.

Definition c_neg (c : nat * Z) : nat * Z := (fst c, - snd c).

Lemma t_scan_mirror bobj tset : forall cands id bn,
  t_scan false bobj tset cands id bn = t_scan true bobj tset (map c_neg cands) id bn.
Proof.
  induction cands as [|[mv u] rest IH]; intros id bn; simpl; [reflexivity|].
  rewrite ev_call_mirror. apply IH.
Qed.

Lemma t_step_mirror cd mni it s e : t_step false cd mni it s e = t_step true cd mni it s (t_neg e).
Proof.
  destruct e as [[|c0 cs] stop]; [reflexivity|].
  unfold t_step, t_neg. cbn [t_cands t_stop]. rewrite (t_scan_mirror _ _ (c0 :: cs)). reflexivity.
Qed.

Lemma tabu_mirror cd mi mni u0 evs :
  tabu false cd mi mni u0 evs = option_map neg_result (tabu true cd mi mni (- u0) (map t_neg evs)).
Proof.
  unfold tabu, t_init. destruct (Nat.eqb cd 0); [reflexivity|]. rewrite ev_call_mirror.
  apply (loop_mirror _ _ t_neg (fun s it => Some (t_result false s it)) (fun s it => Some (t_result true s it))
           (t_step_mirror cd mni)).
  intros s it. exact (f_equal Some (result_mirror _ _ _ _)).
Qed.

(* non-vacuity: a forced uphill move (only non-tabu neighbour is worse), aspiration on a tabu move,
   then every candidate tabu and not better: break *)
Example tabu_example :
  tabu true 2 10 100 5
    [mkT [(0%nat, 3); (1%nat, 4)] false;      (* move 0 taken: 3 is the new best *)
     mkT [(0%nat, 6); (1%nat, 7)] false;      (* 0 is tabu and 6 >= 3: skipped; uphill to 7 *)
     mkT [(0%nat, 2); (1%nat, 9)] false;      (* both tabu; 2 < 3 passes by aspiration *)
     mkT [(0%nat, 8); (1%nat, 8)] false]      (* both tabu, neither better: no admissible neighbour *)
  = Some {| r_id := 5; r_obj := 2; r_evals := 9; r_iters := 4 |}.
Proof. vm_compute. reflexivity. Qed.
