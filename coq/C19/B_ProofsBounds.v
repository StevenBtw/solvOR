(* C19 part B - in_bounds: clipped / uniformly drawn / crossed-over points lie inside the box. *)
From Coq Require Import List QArith Qminmax Lia.
From SV Require Import C19.B_Bounds.
Import ListNotations.
Open Scope Q_scope.

Lemma clip1_in lo hi x : lo <= hi -> lo <= clip1 lo hi x /\ clip1 lo hi x <= hi.
Proof.
  intros H. unfold clip1. split; [apply Q.le_max_l|].
  apply Q.max_lub; [exact H | apply Q.le_min_l].
Qed.

Lemma clip_in_box bounds : forall x,
  valid_bounds bounds -> (length bounds <= length x)%nat -> in_box bounds (clip bounds x).
Proof.
  induction bounds as [|[lo hi] bs IH]; intros x V L; cbn [clip].
  - constructor.
  - destruct x as [|v vs]; [cbn in L; lia|]. inversion V as [|? ? V1 V2]; subst. cbn [fst snd] in V1.
    constructor.
    + unfold in1; cbn [fst snd]. apply clip1_in. exact V1.
    + apply IH; [exact V2 | cbn in L; lia].
Qed.

Lemma mix_in_box bounds : forall mask a b,
  length mask = length bounds -> in_box bounds a -> in_box bounds b -> in_box bounds (mix mask a b).
Proof.
  induction bounds as [|bd bs IH]; intros mask a b L Ha Hb.
  - inversion Ha; subst. destruct mask; cbn; constructor.
  - inversion Ha as [|? x ? xs Hx Hxs]; subst. inversion Hb as [|? y ? ys Hy Hys]; subst.
    destruct mask as [|m ms]; [cbn in L; lia|]. cbn [mix]. constructor.
    + destruct m; assumption.
    + apply IH; [cbn in L; lia | assumption | assumption].
Qed.

Theorem bounded_point_in_box bounds x :
  valid_bounds bounds -> bounded_point bounds x -> in_box bounds x.
Proof.
  intros V H. induction H as [x Hx | x Hl | mask a b Hl Ha IHa Hb IHb].
  - exact Hx.
  - apply clip_in_box; assumption.
  - apply mix_in_box; assumption.
Qed.

Lemma valid_boundsb_sound bounds : valid_boundsb bounds = true -> valid_bounds bounds.
Proof.
  unfold valid_boundsb, valid_bounds. intros H. apply Forall_forall. intros b Hb.
  rewrite forallb_forall in H. apply Qle_bool_iff. exact (H b Hb).
Qed.

Lemma in_boxb_sound bounds : forall x, in_boxb bounds x = true -> in_box bounds x.
Proof.
  induction bounds as [|bd bs IH]; intros x H; unfold in_boxb in H; apply andb_prop in H; destruct H as [H1 H2].
  - destruct x; [constructor | discriminate].
  - destruct x as [|v vs]; [discriminate|]. cbn [combine forallb fst snd] in H2.
    apply andb_prop in H2 as [H2 H3]. apply andb_prop in H2 as [H2a H2b].
    constructor.
    + split; apply Qle_bool_iff; assumption.
    + apply IH. unfold in_boxb. apply andb_true_intro. split; [exact H1 | exact H3].
Qed.
