From Coq Require Import List ZArith Bool Arith Lia.
From SV Require Import C19.B_Common C19.B_PSO C19.B_ProofsCommon.
Import ListNotations.
Open Scope Z_scope.

Section PSO.
Variable ivs : list Z.

Definition pgood (n : nat) (p : particle) : Prop := good ivs n (snd p).

Lemma pso_sweep_inv ps : forall best st ps' best' st',
  wf ivs st -> Forall (pgood (evals st)) ps -> is_min ivs (evals st) best ->
  pso_sweep ps best st = Some (ps', best', st') ->
  wf ivs st' /\ (evals st <= evals st')%nat /\ Forall (pgood (evals st')) ps' /\ is_min ivs (evals st') best'.
Proof.
  induction ps as [|[cur pb] r IH]; intros best st ps' best' st' W HG HM H; cbn [pso_sweep] in H.
  - injection H as <- <- <-. split; [exact W|]. split; [lia|]. split; [constructor | exact HM].
  - destruct (eval st) as [[c st1]|] eqn:E; [|discriminate].
    destruct (pso_sweep r _ st1) as [[[r' b] st2]|] eqn:E2; [|discriminate].
    injection H as <- <- <-.
    pose proof (Forall_inv HG) as Gp. pose proof (Forall_inv_tail HG) as Gr.
    destruct (slot_step ivs _ _ _ pb best (eval_ c <? eval_ pb) W E Gp HM) as (W1 & A1 & Gp1 & HM1).
    { intros C%Z.ltb_ge. exact C. }
    assert (HG1 : Forall (pgood (evals st1)) r).
    { eapply Forall_impl; [|exact Gr]. intros q Hq. exact (good_mono ivs _ _ _ Hq A1). }
    destruct (IH _ _ _ _ _ W1 HG1 HM1 E2) as (W2 & B2 & B3 & B4).
    split; [exact W2|]. split; [lia|]. split; [|exact B4].
    constructor; [exact (good_mono ivs _ _ _ Gp1 B2) | exact B3].
Qed.
End PSO.

Lemma pso_loop_ok minimize us cb interval k : forall it ps best st r st',
  let ivs := ev_internal (ev_sign minimize) us in
  wf ivs st -> Forall (pgood ivs (evals st)) ps -> is_min ivs (evals st) best ->
  pso_loop (ev_sign minimize) cb interval k it ps best st = Some (r, st') ->
  result_ok minimize us r st'.
Proof.
  induction k as [|k IH]; intros it ps best st r st' ivs W HG HM H; cbn [pso_loop] in H.
  - injection H as <- <-. apply mk_result_ok; assumption.
  - destruct (pso_sweep ps best st) as [[[ps1 best1] st1]|] eqn:E; [|discriminate].
    destruct (pso_sweep_inv ivs _ _ _ _ _ _ W HG HM E) as (W1 & B2 & B3 & B4).
    destruct (report_progress cb interval it).
    + injection H as <- <-. apply mk_result_ok; assumption.
    + eapply IH; eauto.
Qed.

Theorem pso_run_ok minimize n_particles max_iter cb interval us r st :
  pso_run_st minimize n_particles max_iter cb interval us = Some (r, st) ->
  result_ok minimize us r st.
Proof.
  unfold pso_run_st. set (ivs := ev_internal (ev_sign minimize) us).
  destruct (eval_n _ (est0 ivs)) as [[fit st0]|] eqn:E; [|discriminate].
  destruct (argmin_first fit) as [best|] eqn:EA; [|discriminate].
  destruct (eval_n_est0 ivs _ _ _ E) as (W & G & C & _).
  apply pso_loop_ok; [exact W | | exact (argmin_is_min ivs _ _ _ C G EA)].
  apply Forall_map. exact G.
Qed.

Lemma pso_loop_mirror cb interval k : forall it ps best st,
  pso_loop (-1) cb interval k it ps best st = neg_out (pso_loop 1 cb interval k it ps best st).
Proof.
  induction k as [|k IH]; intros it ps best st; cbn [pso_loop].
  - cbn. rewrite mk_result_neg. reflexivity.
  - destruct (pso_sweep ps best st) as [[[ps1 best1] st1]|]; [|reflexivity].
    destruct (report_progress cb interval it); [cbn; rewrite mk_result_neg; reflexivity|].
    apply IH.
Qed.

Theorem pso_run_mirror n_particles max_iter cb interval us :
  pso_run_st false n_particles max_iter cb interval us
  = neg_out (pso_run_st true n_particles max_iter cb interval (map Z.opp us)).
Proof.
  unfold pso_run_st. cbn [ev_sign]. rewrite internal_mirror.
  destruct (eval_n _ _) as [[fit st0]|]; [|reflexivity].
  destruct (argmin_first fit) as [best|]; [|reflexivity].
  apply pso_loop_mirror.
Qed.
