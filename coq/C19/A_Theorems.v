(* C19 part A - beside the machines' `*_spec` theorems: the reading of BestSpec in the user's words and the transfer
   from a kernel-checked correspondence case to the implementation's observable (both used by Props/C19.v), and the
   remark that the start point is among the logged values.  `*_log` is the list of user-sign objective values the run
   consumed, in call order, start point(s) first; a run that is not a well-formed recording (events
   missing / left over / wrong number of children) is None and is excluded explicitly. *)
From Coq Require Import List ZArith Bool Arith.
From SV Require Import Common.Corr C19.Common C19.A_Anneal C19.A_Lns C19.A_Tabu C19.A_Evolve C19.A_Check.
Import ListNotations.
Open Scope Z_scope.

(* best_is_min in the user's own words: minimising, nothing evaluated is smaller; maximising,
   nothing evaluated is larger *)
Lemma spec_user_words m us r :
  BestSpec m us r ->
  (m = true -> forall u, In u us -> r_obj r <= u) /\ (m = false -> forall u, In u us -> u <= r_obj r).
Proof.
  intros H. split; intros ->; [apply BestSpec_minimize | apply BestSpec_maximize]; exact H.
Qed.

(* the start point is among the logged values (so "at least as good as the start") *)
Lemma anneal_start_logged u0 evs : In u0 (anneal_log u0 evs).
Proof. left. reflexivity. Qed.
Lemma lns_start_logged u0 evs : In u0 (lns_log u0 evs).
Proof. left. reflexivity. Qed.
Lemma tabu_start_logged u0 evs : In u0 (tabu_log u0 evs).
Proof. left. reflexivity. Qed.
Lemma evolve_start_logged us0 evs u : In u us0 -> In u (evolve_log us0 evs).
Proof. intros H. apply in_or_app. left. exact H. Qed.

(* transfer: a kernel-checked correspondence case means the IMPLEMENTATION's observable on that
   run satisfies the specification w.r.t. the log the harness recorded *)
Lemma zlist_eqb_eq a b : zlist_eqb a b = true -> a = b.
Proof.
  unfold zlist_eqb. revert b. induction a as [|x a IH]; intros [|y b] H; simpl in H; try discriminate.
  - reflexivity.
  - apply andb_true_iff in H as [H1 H2]. apply Z.eqb_eq in H1. subst y.
    rewrite (IH b H2). reflexivity.
Qed.

Lemma matches_transfer m us ci r o :
  BestSpec m us r -> obs_matches ci (Some r) o = true -> ObsSpec m us o.
Proof.
  intros [H1 [H2 H3]] H. simpl in H.
  apply andb_true_iff in H as [H _].
  apply andb_true_iff in H as [H He].
  apply andb_true_iff in H as [Hi Ho].
  apply Z.eqb_eq in Ho. apply Nat.eqb_eq in He.
  apply existsb_exists in Hi. destruct Hi as [i [Hi Hie]]. apply Nat.eqb_eq in Hie. subst i.
  split; [|split].
  - exists (r_id r). split; [exact Hi|]. rewrite <- Ho. exact H1.
  - rewrite <- Ho. exact H2.
  - rewrite <- He. exact H3.
Qed.

(* the shape the five case checkers share: the model's run matches the observable, its log is the recorded one *)
Lemma corr_transfer m (run : option result) log us o :
  (forall r, run = Some r -> BestSpec m log r) ->
  obs_matches true run o && zlist_eqb log us = true -> ObsSpec m us o.
Proof.
  intros Hspec H. apply andb_true_iff in H as [H1 H2]. apply zlist_eqb_eq in H2. subst us.
  destruct run as [r|]; [|discriminate]. exact (matches_transfer _ _ _ _ _ (Hspec r eq_refl) H1).
Qed.
