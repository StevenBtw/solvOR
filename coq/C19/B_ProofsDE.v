From Coq Require Import List ZArith Bool Arith Lia.
From SV Require Import C19.B_Common C19.B_DE C19.B_ProofsCommon.
Import ListNotations.
Open Scope Z_scope.

Section DE.
Variable ivs : list Z.

Lemma de_gen_inv pop : forall best st pop' best' st',
  wf ivs st -> Forall (good ivs (evals st)) pop -> is_min ivs (evals st) best ->
  de_gen pop best st = Some (pop', best', st') ->
  wf ivs st' /\ (evals st <= evals st')%nat /\ Forall (good ivs (evals st')) pop' /\ is_min ivs (evals st') best'.
Proof.
  induction pop as [|p ps IH]; intros best st pop' best' st' W HG HM H; cbn [de_gen] in H.
  - injection H as <- <- <-. split; [exact W|]. split; [lia|]. split; [constructor | exact HM].
  - destruct (eval st) as [[t st1]|] eqn:E; [|discriminate].
    destruct (de_gen ps _ st1) as [[[ps' b] st2]|] eqn:E2; [|discriminate].
    injection H as <- <- <-.
    pose proof (Forall_inv HG) as Gp. pose proof (Forall_inv_tail HG) as Gps.
    destruct (slot_step ivs _ _ _ p best (eval_ t <=? eval_ p) W E Gp HM) as (W1 & A1 & Gp1 & HM1).
    { intros C%Z.leb_gt. lia. }
    assert (HG1 : Forall (good ivs (evals st1)) ps) by (eapply Forall_good_mono; [exact Gps | exact A1]).
    destruct (IH _ _ _ _ _ W1 HG1 HM1 E2) as (W2 & B2 & B3 & B4).
    split; [exact W2|]. split; [lia|]. split; [|exact B4].
    constructor; [exact (good_mono ivs _ _ _ Gp1 B2) | exact B3].
Qed.
End DE.

Lemma de_loop_ok minimize us max_iter conv cb interval k : forall it pop best st r st',
  let ivs := ev_internal (ev_sign minimize) us in
  wf ivs st -> Forall (good ivs (evals st)) pop -> is_min ivs (evals st) best ->
  de_loop (ev_sign minimize) max_iter conv cb interval k it pop best st = Some (r, st') ->
  result_ok minimize us r st'.
Proof.
  induction k as [|k IH]; intros it pop best st r st' ivs W HG HM H; cbn [de_loop] in H.
  - injection H as <- <-. apply mk_result_ok; assumption.
  - destruct (de_gen pop best st) as [[[pop1 best1] st1]|] eqn:E; [|discriminate].
    destruct (de_gen_inv ivs _ _ _ _ _ _ W HG HM E) as (W1 & B2 & B3 & B4).
    destruct (conv it).
    + injection H as <- <-. apply mk_result_ok; assumption.
    + destruct (report_progress cb interval it).
      * injection H as <- <-. apply mk_result_ok; assumption.
      * eapply IH; eauto.
Qed.

Theorem de_run_ok minimize population_size max_iter conv cb interval us r st :
  de_run_st minimize population_size max_iter conv cb interval us = Some (r, st) ->
  result_ok minimize us r st.
Proof.
  unfold de_run_st. set (ivs := ev_internal (ev_sign minimize) us).
  destruct (eval_n _ (est0 ivs)) as [[pop st0]|] eqn:E; [|discriminate].
  destruct (argmin_first pop) as [best|] eqn:EA; [|discriminate].
  destruct (eval_n_est0 ivs _ _ _ E) as (W & G & C & _).
  apply de_loop_ok; [exact W | exact G | exact (argmin_is_min ivs _ _ _ C G EA)].
Qed.

Lemma de_loop_mirror max_iter conv cb interval k : forall it pop best st,
  de_loop (-1) max_iter conv cb interval k it pop best st
  = neg_out (de_loop 1 max_iter conv cb interval k it pop best st).
Proof.
  induction k as [|k IH]; intros it pop best st; cbn [de_loop].
  - cbn. rewrite mk_result_neg. reflexivity.
  - destruct (de_gen pop best st) as [[[pop1 best1] st1]|]; [|reflexivity].
    destruct (conv it); [cbn; rewrite mk_result_neg; reflexivity|].
    destruct (report_progress cb interval it); [cbn; rewrite mk_result_neg; reflexivity|].
    apply IH.
Qed.

Theorem de_run_mirror population_size max_iter conv cb interval us :
  de_run_st false population_size max_iter conv cb interval us
  = neg_out (de_run_st true population_size max_iter conv cb interval (map Z.opp us)).
Proof.
  unfold de_run_st. cbn [ev_sign]. rewrite internal_mirror.
  destruct (eval_n _ _) as [[pop st0]|]; [|reflexivity].
  destruct (argmin_first pop) as [best|]; [|reflexivity].
  apply de_loop_mirror.
Qed.
