(* C19 part B - from the run invariants (result_ok, flow_ok) to the clauses of the statements of Props/C19_b.v,
   in the user's terms.
   us = the user's objective values f(x) in call order (identity of a point = index of its call). *)
From Coq Require Import List ZArith Bool Arith Lia.
From SV Require Import C19.B_Common C19.B_DE C19.B_PSO C19.B_NM C19.B_Bayes C19.B_Flow C19.B_Spec
     C19.B_ProofsCommon C19.B_ProofsDE C19.B_ProofsPSO C19.B_ProofsNM C19.B_ProofsBayes C19.B_ProofsFlow.
Import ListNotations.
Open Scope Z_scope.

(* the three clauses of a group-1 Result (group 1 / group 2: see B_Spec.v) *)
Definition is_f (us : list Z) (r : result) : Prop := nth_error us (r_sol r) = Some (r_obj r).
Definition is_best (minimize : bool) (us : list Z) (r : result) : Prop :=
  forall k v, (k < r_evals r)%nat -> nth_error us k = Some v -> if minimize then r_obj r <= v else v <= r_obj r.
Definition counts (us : list Z) (r : result) (st : est) : Prop :=
  r_evals r = evals st /\ (r_evals r + length (rest st) = length us)%nat.

Lemma run_of_st (o : option (result * est)) r : option_map fst o = Some r -> exists st, o = Some (r, st).
Proof. destruct o as [[r' st]|]; cbn; [|discriminate]. intros H. injection H as <-. exists st. reflexivity. Qed.

Lemma ok_is_f m us r st : result_ok m us r st -> is_f us r.
Proof. intros (_ & _ & _ & H & _). exact H. Qed.
Lemma ok_is_best m us r st : result_ok m us r st -> is_best m us r.
Proof. intros (_ & _ & _ & _ & H). exact H. Qed.
Lemma ok_counts m us r st : result_ok m us r st -> counts us r st.
Proof. intros (H1 & H2 & _). split; assumption. Qed.

(* the clauses about the Result alone, for a run whose final stream state is forgotten *)
Lemma run_is_f m us o :
  (forall r st, o = Some (r, st) -> result_ok m us r st) -> forall r, option_map fst o = Some r -> is_f us r.
Proof. intros Hok r H. destruct (run_of_st _ _ H) as [st Hs]. exact (ok_is_f _ _ _ _ (Hok r st Hs)). Qed.
Lemma run_is_best m us o :
  (forall r st, o = Some (r, st) -> result_ok m us r st) -> forall r, option_map fst o = Some r -> is_best m us r.
Proof. intros Hok r H. destruct (run_of_st _ _ H) as [st Hs]. exact (ok_is_best _ _ _ _ (Hok r st Hs)). Qed.
Lemma run_flow_is_f us o :
  (forall r st, o = Some (r, st) -> flow_ok us r st) -> forall r, option_map fst o = Some r -> is_f us r.
Proof. intros Hok r H. destruct (run_of_st _ _ H) as [st Hs]. exact (proj1 (proj2 (Hok r st Hs))). Qed.

Lemma neg_out_fst o : option_map fst (neg_out o) = option_map neg_res (option_map fst o).
Proof. destruct o as [[r st]|]; reflexivity. Qed.

(* mirror of the Result alone *)
Lemma de_mirror ps mi conv cb iv us :
  de_run false ps mi conv cb iv us = option_map neg_res (de_run true ps mi conv cb iv (map Z.opp us)).
Proof. unfold de_run. rewrite de_run_mirror. apply neg_out_fst. Qed.
Lemma pso_mirror np mi cb iv us :
  pso_run false np mi cb iv us = option_map neg_res (pso_run true np mi cb iv (map Z.opp us)).
Proof. unfold pso_run. rewrite pso_run_mirror. apply neg_out_fst. Qed.
Lemma nm_mirror eb n mi tolc cb iv us :
  nm_run eb false n mi tolc cb iv us = option_map neg_res (nm_run eb true n mi tolc cb iv (map Z.opp us)).
Proof. unfold nm_run. rewrite nm_run_mirror. apply neg_out_fst. Qed.
Lemma bo_mirror ni mi cb iv us :
  bo_run false ni mi cb iv us = option_map neg_res (bo_run true ni mi cb iv (map Z.opp us)).
Proof. unfold bo_run. rewrite bo_run_mirror. apply neg_out_fst. Qed.

(* a complete run (every recorded objective call consumed) satisfies the specification B_Spec.Spec1 - the same
   predicate whose boolean checker judges the implementation's outputs *)
Lemma ok_spec1 m us r st : result_ok m us r st -> rest st = [] -> Spec1 m us [r_sol r] (r_obj r) (r_evals r).
Proof.
  intros (H1 & H2 & H3 & H4 & H5) Hr. rewrite Hr in H2. cbn [length] in H2.
  split; [|split].
  - exists (r_sol r). split; [left; reflexivity | exact H4].
  - intros v Hv. destruct (In_nth_error _ _ Hv) as [k Hk].
    apply (H5 k v); [|exact Hk].
    assert (k < length us)%nat by (apply nth_error_Some; congruence). lia.
  - lia.
Qed.

(* the pinned code (early return of simplex[0] before the sort) did NOT have best_is_min *)
Lemma nm_pinned_refuted :
  exists m n mi tolc cb iv us r,
    nm_run false m n mi tolc cb iv us = Some r /\ ~ is_best m us r.
Proof.
  exists true, 1%nat, 5%nat, 0, (Some (fun _ => true)), 1%nat, [100; 105; 95; 90].
  eexists. split; [vm_compute; reflexivity|].
  intros H. specialize (H 3%nat 90). cbn in H. specialize (H ltac:(lia) eq_refl). lia.
Qed.

(* bfgs / lbfgs report a FRESH evaluation: the returned point is the point of the LAST objective call *)
Lemma bfgs_reports_last_call mi conv bt cb iv us r st :
  bfgs_run_st mi conv bt cb iv us = Some (r, st) -> S (r_sol r) = evals st /\ rest st = skipn (evals st) us.
Proof.
  intros Hs. destruct (qn_loop_ok us _ _ _ _ _ _ _ _ _ _ _ (wf_est0 us) Hs) as (W & _ & H2).
  split; [exact H2 | exact (proj1 W)].
Qed.
