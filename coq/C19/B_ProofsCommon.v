(* C19 part B - invariants shared by the bookkeeping proofs.
   Everything is relative to the stream [ivs] of INTERNAL values (sign * f) the evaluator returns in call order. *)
From Coq Require Import List ZArith Bool Arith Lia.
From SV Require Import C19.B_Common.
Import ListNotations.
Open Scope Z_scope.

Lemma skipn_cons_nth {A} (l : list A) : forall n v r,
  skipn n l = v :: r -> nth_error l n = Some v /\ skipn (S n) l = r /\ (n < length l)%nat.
Proof.
  induction l as [|x xs IH]; intros [|n] v r H; try discriminate.
  - injection H as -> ->. cbn. repeat split; lia.
  - destruct (IH n v r H) as (A1 & A2 & A3). cbn. repeat split; try assumption; lia.
Qed.

Section Inv.
Variable ivs : list Z.

Definition wf (st : est) : Prop := rest st = skipn (evals st) ivs /\ (evals st <= length ivs)%nat.
Definition good (n : nat) (e : ent) : Prop := (eid e < n)%nat /\ nth_error ivs (eid e) = Some (eval_ e).
Definition lower (n : nat) (x : Z) : Prop := forall k v, (k < n)%nat -> nth_error ivs k = Some v -> x <= v.
Definition is_min (n : nat) (e : ent) : Prop := good n e /\ lower n (eval_ e).
(* every value evaluated so far is >= some entry of l *)
Definition covers (n : nat) (l : list ent) : Prop :=
  forall k v, (k < n)%nat -> nth_error ivs k = Some v -> exists e, In e l /\ eval_ e <= v.

Lemma wf_est0 : wf (est0 ivs).
Proof. split; cbn; [reflexivity | lia]. Qed.

Lemma good_mono n m e : good n e -> (n <= m)%nat -> good m e.
Proof. intros [H1 H2] H. split; [lia | exact H2]. Qed.

Lemma Forall_good_mono n m l : Forall (good n) l -> (n <= m)%nat -> Forall (good m) l.
Proof. intros H Hm. eapply Forall_impl; [|exact H]. intros e He. eapply good_mono; eauto. Qed.

Lemma good_lower n e x : good n e -> lower n x -> x <= eval_ e.
Proof. intros [H1 H2] HL. exact (HL _ _ H1 H2). Qed.

Lemma eval_spec st e st' :
  wf st -> eval st = Some (e, st') ->
  wf st' /\ evals st' = S (evals st) /\ eid e = evals st /\ nth_error ivs (evals st) = Some (eval_ e).
Proof.
  intros [W1 W2] H. unfold eval in H. destruct (rest st) as [|v r] eqn:E; [discriminate|].
  injection H as <- <-. symmetry in W1.
  destruct (skipn_cons_nth ivs _ _ _ W1) as (A1 & A2 & A3).
  cbn. repeat split; try assumption; try lia. symmetry; exact A2.
Qed.

Lemma eval_good st e st' : wf st -> eval st = Some (e, st') -> good (evals st') e.
Proof.
  intros W H. destruct (eval_spec _ _ _ W H) as (_ & A2 & A3 & A4).
  split; [lia | rewrite A3; exact A4].
Qed.

Lemma eval_wf st e st' : wf st -> eval st = Some (e, st') -> wf st' /\ (evals st <= evals st')%nat.
Proof. intros W H. destruct (eval_spec _ _ _ W H) as (W1 & A2 & _). split; [exact W1 | lia]. Qed.

(* the new value: whoever is below all old values and below the new one is below everything *)
Lemma lower_step st e st' x :
  wf st -> eval st = Some (e, st') -> lower (evals st) x -> x <= eval_ e -> lower (evals st') x.
Proof.
  intros W H HL Hx k v Hk Hv. destruct (eval_spec _ _ _ W H) as (_ & A2 & A3 & A4).
  destruct (Nat.eq_dec k (evals st)) as [->|Hne].
  - rewrite A4 in Hv. inversion Hv; subst. exact Hx.
  - apply (HL k v); [lia | exact Hv].
Qed.

Lemma is_min_keep st e st' b :
  wf st -> eval st = Some (e, st') -> is_min (evals st) b -> eval_ b <= eval_ e -> is_min (evals st') b.
Proof.
  intros W H [G L] Hx. destruct (eval_spec _ _ _ W H) as (_ & A2 & _).
  split; [eapply good_mono; [exact G | lia] | eapply lower_step; eauto].
Qed.

Lemma is_min_new st e st' b :
  wf st -> eval st = Some (e, st') -> is_min (evals st) b -> eval_ e <= eval_ b -> is_min (evals st') e.
Proof.
  intros W H [G L] Hx. split; [eapply eval_good; eauto|].
  eapply lower_step; eauto; [|lia].
  intros k v Hk Hv. specialize (L k v Hk Hv). lia.
Qed.

(* the update `if c and e < best: best = e`; where c fails, e is not below best anyway *)
Lemma is_min_update st e st' b (c : bool) :
  wf st -> eval st = Some (e, st') -> is_min (evals st) b -> (c = false -> eval_ b <= eval_ e) ->
  is_min (evals st') (if c && (eval_ e <? eval_ b) then e else b).
Proof.
  intros W H M Hc. destruct c; cbn [andb]; [|apply (is_min_keep st e); auto].
  destruct (Z.ltb_spec (eval_ e) (eval_ b)); [apply (is_min_new st e st' b) | apply (is_min_keep st e)]; auto; lia.
Qed.

(* one slot of a population sweep (DE: c = the trial is accepted into slot `old`; PSO: c = the personal best
   `old` improves): the slot takes e when c holds, and c can only fail when e is not below old - hence,
   old being an evaluated point, not below best either *)
Lemma slot_step st e st' old b (c : bool) :
  wf st -> eval st = Some (e, st') -> good (evals st) old -> is_min (evals st) b ->
  (c = false -> eval_ old <= eval_ e) ->
  wf st' /\ (evals st <= evals st')%nat /\ good (evals st') (if c then e else old)
  /\ is_min (evals st') (if c && (eval_ e <? eval_ b) then e else b).
Proof.
  intros W H G M Hc. destruct (eval_wf _ _ _ W H) as (W1 & A1).
  split; [exact W1|]. split; [exact A1|]. split.
  - destruct c; [exact (eval_good _ _ _ W H) | exact (good_mono _ _ _ G A1)].
  - apply (is_min_update st); auto. intros C. pose proof (good_lower _ _ _ G (proj2 M)). specialize (Hc C). lia.
Qed.

Lemma covers_step st e st' l l' :
  wf st -> eval st = Some (e, st') -> covers (evals st) l ->
  (forall x, In x l -> exists y, In y l' /\ eval_ y <= eval_ x) ->
  (exists y, In y l' /\ eval_ y <= eval_ e) ->
  covers (evals st') l'.
Proof.
  intros W H HC Hold Hnew k v Hk Hv. destruct (eval_spec _ _ _ W H) as (_ & A2 & A3 & A4).
  destruct (Nat.eq_dec k (evals st)) as [->|Hne].
  - rewrite A4 in Hv. inversion Hv; subst. exact Hnew.
  - destruct (HC k v) as (x & Hx & Hxv); [lia | exact Hv |].
    destruct (Hold x Hx) as (y & Hy & Hyx). exists y. split; [exact Hy | lia].
Qed.

Lemma covers_weaken n l l' :
  covers n l -> (forall x, In x l -> exists y, In y l' /\ eval_ y <= eval_ x) -> covers n l'.
Proof.
  intros HC Hold k v Hk Hv. destruct (HC k v Hk Hv) as (x & Hx & Hxv).
  destruct (Hold x Hx) as (y & Hy & Hyx). exists y. split; [exact Hy | lia].
Qed.

Lemma is_min_covers n b : is_min n b -> covers n [b].
Proof. intros [G L] k v Hk Hv. exists b. split; [left; reflexivity | exact (L k v Hk Hv)]. Qed.

Lemma min_of_cover n l b :
  covers n l -> good n b -> (forall e, In e l -> eval_ b <= eval_ e) -> is_min n b.
Proof.
  intros HC G Hmin. split; [exact G|]. intros k v Hk Hv.
  destruct (HC k v Hk Hv) as (e & He & Hev). specialize (Hmin e He). lia.
Qed.

(* [evaluate(p) for p in ...] *)
Lemma eval_n_spec k : forall st es st',
  wf st -> eval_n k st = Some (es, st') ->
  wf st' /\ evals st' = (evals st + k)%nat /\ Forall (good (evals st')) es /\ length es = k /\
  (forall l, covers (evals st) l -> covers (evals st') (l ++ es)).
Proof.
  induction k as [|k IH]; intros st es st' W H; cbn [eval_n] in H.
  - injection H as <- <-. split; [exact W|]. split; [apply plus_n_O|]. split; [constructor|]. split; [reflexivity|].
    intros l HC. rewrite app_nil_r. exact HC.
  - destruct (eval st) as [[e st1]|] eqn:E; [|discriminate].
    destruct (eval_n k st1) as [[es1 st2]|] eqn:E2; [|discriminate].
    injection H as <- <-.
    destruct (eval_spec _ _ _ W E) as (W1 & A2 & _).
    destruct (IH _ _ _ W1 E2) as (W2 & B2 & B3 & B4 & B5).
    split; [exact W2|]. split; [rewrite B2, A2; apply plus_n_Sm|]. split; [|split].
    + constructor; [|exact B3]. apply (good_mono (evals st1)); [exact (eval_good _ _ _ W E) | lia].
    + cbn [length]. rewrite B4. reflexivity.
    + intros l HC. change (l ++ e :: es1) with (l ++ [e] ++ es1). rewrite app_assoc. apply B5.
      apply (covers_step st e st1 l); auto.
      * intros x Hx. exists x. split; [apply in_or_app; left; exact Hx | apply Z.le_refl].
      * exists e. split; [apply in_or_app; right; left; reflexivity | apply Z.le_refl].
Qed.

Lemma covers_nil0 : covers 0 [].
Proof. intros k v Hk. lia. Qed.

(* how every group-1 run starts: k points evaluated on the fresh stream *)
Lemma eval_n_est0 k es st :
  eval_n k (est0 ivs) = Some (es, st) ->
  wf st /\ Forall (good (evals st)) es /\ covers (evals st) es /\ length es = k.
Proof.
  intros H. destruct (eval_n_spec _ _ _ _ wf_est0 H) as (W & _ & G & L & C).
  split; [exact W|]. split; [exact G|]. split; [exact (C [] covers_nil0) | exact L].
Qed.

Lemma argmin_from_spec l : forall b,
  (In (argmin_from b l) (b :: l)) /\ (forall e, In e (b :: l) -> eval_ (argmin_from b l) <= eval_ e).
Proof.
  induction l as [|x xs IH]; intros b; cbn [argmin_from].
  - split; [left; reflexivity|]. intros e [<-|[]]. lia.
  - destruct (Z.ltb_spec (eval_ x) (eval_ b)) as [C|C].
    + destruct (IH x) as [I1 I2]. split; [right; exact I1|].
      intros e [<-|He]; [|exact (I2 e He)]. specialize (I2 x (or_introl eq_refl)). lia.
    + destruct (IH b) as [I1 I2]. split.
      * destruct I1 as [<-|I1]; [left; reflexivity | right; right; exact I1].
      * intros e [<-|[<-|He]]; [apply I2; left; reflexivity | | apply I2; right; exact He].
        specialize (I2 b (or_introl eq_refl)). lia.
Qed.

Lemma argmin_first_spec l b :
  argmin_first l = Some b -> In b l /\ (forall e, In e l -> eval_ b <= eval_ e).
Proof.
  destruct l as [|x xs]; cbn; [discriminate|]. intros H. injection H as <-. apply argmin_from_spec.
Qed.

Lemma argmin_is_min n l b :
  covers n l -> Forall (good n) l -> argmin_first l = Some b -> is_min n b.
Proof.
  intros HC HG H. destruct (argmin_first_spec _ _ H) as [I1 I2].
  eapply min_of_cover; eauto. rewrite Forall_forall in HG. exact (HG b I1).
Qed.

End Inv.

Lemma sign_cases m : ev_sign m = 1 \/ ev_sign m = -1.
Proof. destruct m; cbn; auto. Qed.

Lemma nth_error_internal s us k :
  nth_error (ev_internal s us) k = option_map (Z.mul s) (nth_error us k).
Proof. unfold ev_internal. apply nth_error_map. Qed.

(* what every group-1 run establishes about its Result, in the user's terms:
   us = the user's objective values in call order *)
Definition result_ok (minimize : bool) (us : list Z) (r : result) (st : est) : Prop :=
  r_evals r = evals st /\
  (r_evals r + length (rest st) = length us)%nat /\
  (r_sol r < r_evals r)%nat /\
  nth_error us (r_sol r) = Some (r_obj r) /\
  (forall k v, (k < r_evals r)%nat -> nth_error us k = Some v ->
               if minimize then r_obj r <= v else v <= r_obj r).

Lemma wf_length ivs st : wf ivs st -> (evals st + length (rest st) = length ivs)%nat.
Proof. intros [W1 W2]. rewrite W1, skipn_length. lia. Qed.

Lemma mk_result_ok minimize us best it st s :
  wf (ev_internal (ev_sign minimize) us) st ->
  is_min (ev_internal (ev_sign minimize) us) (evals st) best ->
  result_ok minimize us (mk_result (ev_sign minimize) best it st s) st.
Proof.
  intros W [[G1 G2] L]. unfold result_ok, mk_result; cbn [r_evals r_sol r_obj].
  rewrite nth_error_internal in G2.
  destruct (nth_error us (eid best)) as [u|] eqn:Eu; [|discriminate]. cbn in G2. inversion G2 as [G3].
  split; [reflexivity|]. split.
  { pose proof (wf_length _ _ W) as HL. unfold ev_internal in HL. rewrite map_length in HL. exact HL. }
  split; [exact G1|]. split.
  { f_equal. unfold to_user. destruct minimize; cbn [ev_sign] in *; lia. }
  intros k v Hk Hv.
  assert (Hi : nth_error (ev_internal (ev_sign minimize) us) k = Some (ev_sign minimize * v)).
  { rewrite nth_error_internal, Hv. reflexivity. }
  specialize (L k _ Hk Hi). rewrite <- G3 in L. unfold to_user.
  destruct minimize; cbn [ev_sign] in *; lia.
Qed.

(* what every group-2 run (powell, bfgs, lbfgs) establishes: us = raw user values of the objective calls *)
Definition flow_ok (us : list Z) (r : result) (st : est) : Prop :=
  (r_sol r < evals st)%nat /\ nth_error us (r_sol r) = Some (r_obj r) /\
  (evals st + length (rest st) = length us)%nat.

Definition neg_res (r : result) : result := mkR (r_sol r) (- r_obj r) (r_iter r) (r_evals r) (r_status r).
Definition neg_out (o : option (result * est)) : option (result * est) :=
  option_map (fun p => (neg_res (fst p), snd p)) o.

Lemma mk_result_neg b it st s : mk_result (-1) b it st s = neg_res (mk_result 1 b it st s).
Proof. unfold mk_result, neg_res, to_user. cbn. f_equal. lia. Qed.

Lemma internal_mirror us : ev_internal (-1) us = ev_internal 1 (map Z.opp us).
Proof.
  unfold ev_internal. rewrite map_map. apply map_ext. intros a. lia.
Qed.
