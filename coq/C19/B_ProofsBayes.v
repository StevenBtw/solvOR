From Coq Require Import List ZArith Bool Arith.
From SV Require Import C19.B_Common C19.B_Bayes C19.B_ProofsCommon.
Import ListNotations.
Open Scope Z_scope.

Lemma bo_loop_ok minimize us max_iter cb interval k : forall it last best st r st',
  let ivs := ev_internal (ev_sign minimize) us in
  wf ivs st -> is_min ivs (evals st) best ->
  bo_loop (ev_sign minimize) max_iter cb interval k it last best st = Some (r, st') ->
  result_ok minimize us r st'.
Proof.
  induction k as [|k IH]; intros it last best st r st' ivs W HM H; cbn [bo_loop] in H.
  - injection H as <- <-. apply mk_result_ok; assumption.
  - destruct (eval st) as [[y st1]|] eqn:E; [|discriminate].
    destruct (eval_wf ivs _ _ _ W E) as (W1 & _).
    assert (HM1 : is_min ivs (evals st1) (if eval_ y <? eval_ best then y else best)).
    { apply (is_min_update ivs st y st1 best true); auto. discriminate. }
    destruct (report_progress cb interval (it + 1)).
    + injection H as <- <-. apply mk_result_ok; assumption.
    + eapply IH; eauto.
Qed.

Theorem bo_run_ok minimize n_initial max_iter cb interval us r st :
  bo_run_st minimize n_initial max_iter cb interval us = Some (r, st) ->
  result_ok minimize us r st.
Proof.
  unfold bo_run_st. set (ivs := ev_internal (ev_sign minimize) us).
  destruct (eval_n _ (est0 ivs)) as [[ys st0]|] eqn:E; [|discriminate].
  destruct (argmin_first ys) as [best|] eqn:EA; [|discriminate].
  destruct (eval_n_est0 ivs _ _ _ E) as (W & G & C & _).
  apply bo_loop_ok; [exact W | exact (argmin_is_min ivs _ _ _ C G EA)].
Qed.

Lemma bo_loop_mirror max_iter cb interval k : forall it last best st,
  bo_loop (-1) max_iter cb interval k it last best st
  = neg_out (bo_loop 1 max_iter cb interval k it last best st).
Proof.
  induction k as [|k IH]; intros it last best st; cbn [bo_loop].
  - cbn. rewrite mk_result_neg. reflexivity.
  - destruct (eval st) as [[y st1]|]; [|reflexivity].
    destruct (report_progress cb interval (it + 1)); [cbn; rewrite mk_result_neg; reflexivity|].
    apply IH.
Qed.

Theorem bo_run_mirror n_initial max_iter cb interval us :
  bo_run_st false n_initial max_iter cb interval us
  = neg_out (bo_run_st true n_initial max_iter cb interval (map Z.opp us)).
Proof.
  unfold bo_run_st. cbn [ev_sign]. rewrite internal_mirror.
  destruct (eval_n _ _) as [[ys st0]|]; [|reflexivity].
  destruct (argmin_first ys) as [best|]; [|reflexivity].
  apply bo_loop_mirror.
Qed.
