From Coq Require Import List ZArith Bool Arith Lia.
From SV Require Import C19.B_Common C19.B_NM C19.B_ProofsCommon.
Import ListNotations.
Open Scope Z_scope.

Lemma nm_insert_in x l y : In y (nm_insert x l) <-> y = x \/ In y l.
Proof.
  induction l as [|z zs IH]; cbn [nm_insert In].
  - split; intros [H|[]]; left; symmetry; exact H.
  - destruct (eval_ x <=? eval_ z); cbn [In].
    + split; (intros [H|H]; [left; symmetry; exact H | right; exact H]).
    + rewrite IH. split; (intros [H|[H|H]]; auto).
Qed.

Lemma nm_sort_in l y : In y (nm_sort l) <-> In y l.
Proof.
  induction l as [|z zs IH]; cbn [nm_sort]; [reflexivity|].
  rewrite nm_insert_in, IH. split; (intros [H|H]; [left; symmetry; exact H | right; exact H]).
Qed.

Lemma nm_insert_length x l : length (nm_insert x l) = S (length l).
Proof.
  induction l as [|z zs IH]; cbn [nm_insert]; [reflexivity|].
  destruct (eval_ x <=? eval_ z); cbn [length]; [reflexivity | rewrite IH; reflexivity].
Qed.

Lemma nm_sort_length l : length (nm_sort l) = length l.
Proof. induction l as [|z zs IH]; cbn [nm_sort length]; [reflexivity|]. rewrite nm_insert_length, IH. reflexivity. Qed.

Fixpoint ssorted (l : list ent) : Prop :=
  match l with
  | [] => True
  | x :: r => (forall y, In y r -> eval_ x <= eval_ y) /\ ssorted r
  end.

Lemma nm_insert_sorted x l : ssorted l -> ssorted (nm_insert x l).
Proof.
  induction l as [|z zs IH]; intros H; cbn [nm_insert].
  - cbn. split; [intros y []| exact I].
  - destruct H as [H1 H2]. destruct (Z.leb_spec (eval_ x) (eval_ z)) as [C|C]; cbn [ssorted].
    + split; [|split; assumption]. intros y [<-|Hy]; [exact C | specialize (H1 y Hy); lia].
    + split; [|apply IH; exact H2]. intros y Hy. apply (proj1 (nm_insert_in _ _ _)) in Hy. destruct Hy as [->|Hy]; [lia | exact (H1 y Hy)].
Qed.

Lemma nm_sort_sorted l : ssorted (nm_sort l).
Proof. induction l as [|z zs IH]; cbn [nm_sort]; [exact I | apply nm_insert_sorted; exact IH]. Qed.

Lemma sorted_hd_min l e : ssorted l -> In e l -> eval_ (hd ent0 l) <= eval_ e.
Proof.
  destruct l as [|x r]; [intros _ []|]. intros [H _] [<-|He]; cbn [hd]; [lia | exact (H e He)].
Qed.

Lemma in_removelast (l : list ent) y : In y (removelast l) -> In y l.
Proof.
  induction l as [|a r IH]; [intros []|]. cbn [removelast]. destruct r as [|b t]; [intros []|].
  intros [<-|H]; [left; reflexivity | right; exact (IH H)].
Qed.

Lemma in_set_last s x y : In y (set_last s x) -> In y s \/ y = x.
Proof.
  unfold set_last. intros H. apply in_app_or in H. destruct H as [H|[<-|[]]].
  - left. exact (in_removelast _ _ H).
  - right. reflexivity.
Qed.

Lemma x_in_set_last s x : In x (set_last s x).
Proof. unfold set_last. apply in_or_app. right. left. reflexivity. Qed.

Lemma hd_in_set_last s x : (2 <= length s)%nat -> In (hd ent0 s) (set_last s x).
Proof.
  destruct s as [|a [|b t]]; cbn [length]; try lia. intros _.
  unfold set_last. cbn. left. reflexivity.
Qed.

Lemma set_last_length s x : s <> [] -> length (set_last s x) = length s.
Proof.
  intros H. unfold set_last. rewrite app_length. cbn [length].
  rewrite (app_removelast_last ent0 H) at 2. rewrite app_length. cbn [length]. reflexivity.
Qed.

Lemma hd_in (s : list ent) : s <> [] -> In (hd ent0 s) s.
Proof. destruct s; [congruence | intros _; left; reflexivity]. Qed.

Lemma last_in (s : list ent) : s <> [] -> In (last s ent0) s.
Proof.
  intros H. rewrite (app_removelast_last ent0 H) at 2. apply in_or_app. right. left. reflexivity.
Qed.

Section NM.
Variable ivs : list Z.

(* every vertex is an evaluated point with its own value; the simplex minimum bounds everything evaluated *)
Definition sinv (n : nat) (s : list ent) : Prop :=
  Forall (good ivs n) s /\ covers ivs n s /\ (2 <= length s)%nat.

Lemma sinv_sort n s : sinv n s -> sinv n (nm_sort s).
Proof.
  intros (G & C & L). split; [|split].
  - apply Forall_forall. intros e He. apply (proj1 (nm_sort_in _ _)) in He. rewrite Forall_forall in G. exact (G e He).
  - eapply covers_weaken; [exact C|]. intros x Hx. exists x. split; [apply (proj2 (nm_sort_in _ _)); exact Hx | lia].
  - rewrite nm_sort_length. exact L.
Qed.

Lemma sinv_hd_min n s : sinv n s -> ssorted s -> is_min ivs n (hd ent0 s).
Proof.
  intros (G & C & L) Srt. assert (Hin : In (hd ent0 s) s) by (apply hd_in; intros ->; cbn in L; lia).
  apply (min_of_cover ivs n s); [exact C | | intros e He; apply sorted_hd_min; assumption].
  rewrite Forall_forall in G. exact (G _ Hin).
Qed.

Lemma sinv_of_min n s b :
  Forall (good ivs n) s -> (2 <= length s)%nat -> In b s -> is_min ivs n b -> sinv n s.
Proof.
  intros G L Hb M. split; [exact G|]. split; [|exact L].
  apply (covers_weaken ivs n [b]); [apply is_min_covers; exact M|].
  intros x [<-|[]]. exists b. split; [exact Hb | lia].
Qed.

Lemma good_set_last n m s x :
  Forall (good ivs n) s -> (n <= m)%nat -> good ivs m x -> Forall (good ivs m) (set_last s x).
Proof.
  intros G Hm Gx. apply Forall_forall. intros y Hy. apply in_set_last in Hy. destruct Hy as [Hy| ->]; [|exact Gx].
  rewrite Forall_forall in G. eapply good_mono; [exact (G y Hy) | exact Hm].
Qed.

Lemma sinv_set_last n m s x b :
  Forall (good ivs n) s -> (2 <= length s)%nat -> (n <= m)%nat -> good ivs m x ->
  is_min ivs m b -> b = x \/ b = hd ent0 s -> sinv m (set_last s x).
Proof.
  intros G L Hm Gx M Hb. apply (sinv_of_min m _ b); [| | |exact M].
  - apply (good_set_last n); assumption.
  - rewrite set_last_length; [exact L | intros ->; cbn in L; lia].
  - destruct Hb as [->| ->]; [apply x_in_set_last | apply hd_in_set_last; exact L].
Qed.

Lemma nm_shrink_inv s st s2 st2 :
  wf ivs st -> Forall (good ivs (evals st)) s -> (2 <= length s)%nat -> is_min ivs (evals st) (hd ent0 s) ->
  nm_shrink s st = Some (s2, st2) ->
  wf ivs st2 /\ (evals st <= evals st2)%nat /\ sinv (evals st2) s2 /\ length s2 = length s.
Proof.
  intros W G Len M H. unfold nm_shrink in H. destruct s as [|b r]; [discriminate|].
  destruct (eval_n (length r) st) as [[es st']|] eqn:E; [|discriminate]. injection H as <- <-.
  destruct (eval_n_spec ivs _ _ _ _ W E) as (W2 & A2 & A3 & A4 & A5).
  split; [exact W2|]. split; [lia|]. split; [|cbn [length]; lia]. split; [|split].
  - constructor; [|exact A3]. inversion G; subst. eapply good_mono; [eassumption | lia].
  - exact (A5 [b] (is_min_covers ivs _ _ M)).
  - cbn [length] in *. lia.
Qed.

Lemma nm_step_inv s st s2 st2 :
  wf ivs st -> sinv (evals st) s -> ssorted s ->
  nm_step s st = Some (s2, st2) ->
  wf ivs st2 /\ (evals st <= evals st2)%nat /\ sinv (evals st2) s2.
Proof.
  intros W HS Srt H. pose proof (sinv_hd_min _ _ HS Srt) as Mb. destruct HS as (G & _ & Len).
  unfold nm_step in H. set (b := hd ent0 s) in *.
  destruct (eval st) as [[r st1]|] eqn:E1; [|discriminate].
  destruct (eval_wf ivs _ _ _ W E1) as (W1 & A1). pose proof (eval_good ivs _ _ _ W E1) as Gr.
  (* every branch ends in `simplex[n] = x` with x the last point evaluated, or in a shrink *)
  assert (Hset : forall x st' m, wf ivs st' -> (evals st1 <= evals st')%nat -> good ivs (evals st') x ->
            is_min ivs (evals st') m -> m = x \/ m = b ->
            wf ivs st' /\ (evals st <= evals st')%nat /\ sinv (evals st') (set_last s x)).
  { intros x st' m W' A' Gx M Hm. split; [exact W'|]. split; [exact (Nat.le_trans _ _ _ A1 A')|].
    exact (sinv_set_last (evals st) _ s x m G Len (Nat.le_trans _ _ _ A1 A') Gx M Hm). }
  destruct ((eval_ b <=? eval_ r) && (eval_ r <? eval_ (nth (length s - 2) s ent0))) eqn:CA.
  { (* reflection accepted: b <= r *)
    apply andb_prop in CA as [CA%Z.leb_le _]. injection H as <- <-.
    exact (Hset r st1 b W1 (le_n _) Gr (is_min_keep ivs _ _ _ _ W E1 Mb CA) (or_intror eq_refl)). }
  destruct (Z.ltb_spec (eval_ r) (eval_ b)) as [CB|CB].
  { (* expansion: r is the new minimum, then the better of r and e *)
    pose proof (is_min_new ivs _ _ _ _ W E1 Mb (Z.lt_le_incl _ _ CB)) as Mr.
    destruct (eval st1) as [[e st2']|] eqn:E2; [|discriminate].
    destruct (eval_wf ivs _ _ _ W1 E2) as (W2 & A2).
    destruct (Z.ltb_spec (eval_ e) (eval_ r)) as [CE|CE]; injection H as <- <-.
    - exact (Hset e _ e W2 A2 (eval_good ivs _ _ _ W1 E2)
               (is_min_new ivs _ _ _ _ W1 E2 Mr (Z.lt_le_incl _ _ CE)) (or_introl eq_refl)).
    - exact (Hset r _ r W2 A2 (good_mono ivs _ _ _ Gr A2) (is_min_keep ivs _ _ _ _ W1 E2 Mr CE) (or_introl eq_refl)). }
  (* contraction: b <= r, so b is still the minimum; c replaces the worst vertex or the simplex shrinks *)
  pose proof (is_min_keep ivs _ _ _ _ W E1 Mb CB) as Mb1.
  assert (Hcontr : forall (keep : ent -> bool),
            (forall c, keep c = false -> eval_ b <= eval_ c) ->
            match eval st1 with
            | None => None
            | Some (c, st2) => if keep c then Some (set_last s c, st2) else nm_shrink s st2
            end = Some (s2, st2) ->
            wf ivs st2 /\ (evals st <= evals st2)%nat /\ sinv (evals st2) s2).
  { intros keep Hkeep HH.
    destruct (eval st1) as [[c st2']|] eqn:E2; [|discriminate].
    destruct (eval_wf ivs _ _ _ W1 E2) as (W2 & A2). pose proof (eval_good ivs _ _ _ W1 E2) as Gc.
    destruct (keep c) eqn:K.
    - injection HH as <- <-. destruct (Z.le_gt_cases (eval_ b) (eval_ c)) as [C|C].
      + exact (Hset c _ b W2 A2 Gc (is_min_keep ivs _ _ _ _ W1 E2 Mb1 C) (or_intror eq_refl)).
      + exact (Hset c _ c W2 A2 Gc (is_min_new ivs _ _ _ _ W1 E2 Mb1 (Z.lt_le_incl _ _ C)) (or_introl eq_refl)).
    - pose proof (is_min_keep ivs _ _ _ _ W1 E2 Mb1 (Hkeep c K)) as Mb2.
      pose proof (Forall_good_mono ivs _ _ _ G (Nat.le_trans _ _ _ A1 A2)) as G2.
      destruct (nm_shrink_inv s st2' s2 st2 W2 G2 Len Mb2 HH) as (W3 & D2 & D3 & _).
      split; [exact W3|]. split; [exact (Nat.le_trans _ _ _ A1 (Nat.le_trans _ _ _ A2 D2)) | exact D3]. }
  assert (Hw : eval_ b <= eval_ (last s ent0)).
  { apply sorted_hd_min; [exact Srt|]. apply last_in. intros ->. cbn in Len. lia. }
  destruct (eval_ r <? eval_ (last s ent0)).
  - apply (Hcontr (fun c => eval_ c <=? eval_ r)); [|exact H].
    intros c K%Z.leb_gt. exact (Z.le_trans _ _ _ CB (Z.lt_le_incl _ _ K)).
  - apply (Hcontr (fun c => eval_ c <? eval_ (last s ent0))); [|exact H].
    intros c K%Z.ltb_ge. exact (Z.le_trans _ _ _ Hw K).
Qed.

Lemma sinv_argmin n s b : sinv n s -> argmin_first s = Some b -> is_min ivs n b.
Proof. intros (G & C & _) H. exact (argmin_is_min ivs n s b C G H). Qed.

Lemma nm_finish_min sign max_iter it s st r st' :
  sinv (evals st) s -> nm_finish sign max_iter it s st = Some (r, st') ->
  exists b s0, is_min ivs (evals st) b /\ st' = st /\ r = mk_result sign b it st s0.
Proof.
  intros HS H. unfold nm_finish in H. destruct (argmin_first s) as [b|] eqn:E; [|discriminate].
  injection H as <- <-. exists b, (nm_final_status it max_iter).
  split; [exact (sinv_argmin _ _ _ HS E) | split; reflexivity].
Qed.

End NM.

Lemma nm_loop_ok minimize us max_iter tolc cb interval k : forall it s st r st',
  let ivs := ev_internal (ev_sign minimize) us in
  wf ivs st -> sinv ivs (evals st) s ->
  nm_loop true (ev_sign minimize) max_iter tolc cb interval k it s st = Some (r, st') ->
  result_ok minimize us r st'.
Proof.
  induction k as [|k IH]; intros it s st r st' ivs W HS H; cbn [nm_loop] in H.
  - destruct (nm_finish_min ivs _ _ _ _ _ _ _ HS H) as (b & s0 & M & -> & ->). apply mk_result_ok; assumption.
  - pose proof (sinv_sort ivs _ _ HS) as HS1.
    destruct (Z.abs _ <? tolc).
    + destruct (nm_finish_min ivs _ _ _ _ _ _ _ HS1 H) as (b & s0 & M & -> & ->). apply mk_result_ok; assumption.
    + destruct (nm_step (nm_sort s) st) as [[s2 st2]|] eqn:E; [|discriminate].
      destruct (nm_step_inv ivs _ _ _ _ W HS1 (nm_sort_sorted s) E) as (W2 & B2 & HS2).
      destruct (report_progress cb interval it).
      * unfold nm_early in H. destruct (argmin_first s2) as [b|] eqn:EA; [|discriminate]. injection H as <- <-.
        apply mk_result_ok; [exact W2 | exact (sinv_argmin ivs _ _ _ HS2 EA)].
      * eapply IH; eauto.
Qed.

Theorem nm_run_ok minimize n max_iter tolc cb interval us r st :
  nm_run_st true minimize n max_iter tolc cb interval us = Some (r, st) ->
  result_ok minimize us r st.
Proof.
  unfold nm_run_st. set (ivs := ev_internal (ev_sign minimize) us).
  destruct n as [|n]; [discriminate|].
  destruct (eval_n _ (est0 ivs)) as [[s st0]|] eqn:E; [|discriminate].
  destruct (eval_n_est0 ivs _ _ _ E) as (W & G & C & L).
  apply nm_loop_ok; [exact W|]. split; [exact G|]. split; [exact C | lia].
Qed.

Lemma nm_finish_mirror max_iter it s st :
  nm_finish (-1) max_iter it s st = neg_out (nm_finish 1 max_iter it s st).
Proof. unfold nm_finish. destruct (argmin_first s); [cbn; rewrite mk_result_neg|]; reflexivity. Qed.

Lemma nm_loop_mirror eb max_iter tolc cb interval k : forall it s st,
  nm_loop eb (-1) max_iter tolc cb interval k it s st
  = neg_out (nm_loop eb 1 max_iter tolc cb interval k it s st).
Proof.
  induction k as [|k IH]; intros it s st; cbn [nm_loop].
  - apply nm_finish_mirror.
  - destruct (Z.abs _ <? tolc); [apply nm_finish_mirror|].
    destruct (nm_step (nm_sort s) st) as [[s2 st2]|]; [|reflexivity].
    destruct (report_progress cb interval it); [|apply IH].
    unfold nm_early. destruct eb.
    + destruct (argmin_first s2); [cbn; rewrite mk_result_neg|]; reflexivity.
    + cbn. rewrite mk_result_neg. reflexivity.
Qed.

Theorem nm_run_mirror eb n max_iter tolc cb interval us :
  nm_run_st eb false n max_iter tolc cb interval us
  = neg_out (nm_run_st eb true n max_iter tolc cb interval (map Z.opp us)).
Proof.
  unfold nm_run_st. cbn [ev_sign]. rewrite internal_mirror.
  destruct n as [|n]; [reflexivity|].
  destruct (eval_n _ _) as [[s st0]|]; [|reflexivity].
  apply nm_loop_mirror.
Qed.
