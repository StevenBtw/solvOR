(* Proofs about the evolve machine (A_Evolve.v): population bookkeeping with elitism and stable
   sorting, for every stream of child values and every stop oracle. *)
From Coq Require Import List ZArith Bool Arith Lia.
From SV Require Import C19.Common C19.A_Evolve.
Import ListNotations.
Open Scope Z_scope.

Lemma ins_In p q l : In p (ins q l) <-> p = q \/ In p l.
Proof.
  induction l as [|r l IH]; simpl.
  - split; intros [H|H]; auto; try contradiction.
  - destruct (snd q <=? snd r); simpl.
    + split; intros [H|H]; auto.
    + rewrite IH. split; (intros [H|[H|H]]; auto).
Qed.

Lemma isort_In p l : In p (isort l) <-> In p l.
Proof.
  induction l as [|q l IH]; simpl; [reflexivity|]. rewrite ins_In, IH. split; intros [H|H]; auto.
Qed.

Lemma isort_Forall (P : slot -> Prop) l : Forall P l -> Forall P (isort l).
Proof. rewrite !Forall_forall. intros H p Hp. apply H. apply isort_In. exact Hp. Qed.

Fixpoint lsorted (l : list slot) : Prop :=
  match l with [] => True | p :: r => Forall (fun q => snd p <= snd q) r /\ lsorted r end.

Lemma ins_sorted q l : lsorted l -> lsorted (ins q l).
Proof.
  induction l as [|r l IH]; simpl; intros H.
  - split; [constructor | exact I].
  - destruct H as [Hr Hl]. destruct (Z.leb_spec (snd q) (snd r)) as [Hle|Hle]; simpl.
    + split; [|split; assumption].
      constructor; [exact Hle|]. eapply Forall_impl; [|exact Hr]. simpl. intros a Ha. lia.
    + split; [|apply IH; exact Hl]. apply Forall_forall. intros a Ha. apply ins_In in Ha. destruct Ha as [->|Ha]; [lia|].
      rewrite Forall_forall in Hr. apply Hr. exact Ha.
Qed.

Lemma isort_sorted l : lsorted (isort l).
Proof. induction l as [|q l IH]; simpl; [exact I | apply ins_sorted; exact IH]. Qed.

Lemma isort_head_min l p r : isort l = p :: r -> forall q, In q l -> snd p <= snd q.
Proof.
  intros H q Hq. pose proof (isort_sorted l) as Hs. rewrite H in Hs. destruct Hs as [Hr _].
  apply isort_In in Hq. rewrite H in Hq. destruct Hq as [<-|Hq]; [lia|].
  rewrite Forall_forall in Hr. apply Hr. exact Hq.
Qed.

Lemma firstn_Forall {A} (P : A -> Prop) n l : Forall P l -> Forall P (firstn n l).
Proof.
  revert l. induction n as [|n IH]; intros l H; simpl; [constructor|].
  destruct l as [|a l]; [constructor|]. inversion H; subst. constructor; auto.
Qed.

Lemma firstn_head {A} n (l : list A) p r : firstn n l = p :: r -> exists r', l = p :: r'.
Proof.
  destruct n; simpl; [discriminate|]. destruct l as [|a l]; [discriminate|].
  intros H. injection H as -> _. exists l. reflexivity.
Qed.

Definition HoldsP (seen : list Z) (p : slot) : Prop := Holds seen (fst p) (snd p).

Lemma slots_from_cons m first u us :
  slots_from m first (u :: us) = (first, ev_call m u) :: slots_from m (S first) us.
Proof. reflexivity. Qed.

Lemma slots_from_holds m : forall us seen,
  Forall (HoldsP (seen ++ map (ev_call m) us)) (slots_from m (length seen) us).
Proof.
  induction us as [|u us IH]; intros seen; [constructor|].
  rewrite slots_from_cons. constructor.
  - unfold HoldsP. simpl. apply Holds_new.
  - specialize (IH (seen ++ [ev_call m u])).
    rewrite <- app_assoc in IH. simpl in IH.
    rewrite app_length in IH. simpl in IH. rewrite Nat.add_1_r in IH. exact IH.
Qed.

Lemma slots_from_snd m : forall us first, map snd (slots_from m first us) = map (ev_call m) us.
Proof.
  induction us as [|u us IH]; intros first; [reflexivity|].
  rewrite slots_from_cons. simpl. rewrite IH. reflexivity.
Qed.

Lemma HoldsP_app seen more l : Forall (HoldsP seen) l -> Forall (HoldsP (seen ++ more)) l.
Proof. intros H. eapply Forall_impl; [|exact H]. intros p Hp. apply Holds_app. exact Hp. Qed.

(* only runs that are well-formed so far (g_ok) are constrained: a malformed run yields None *)
Definition g_inv (seen : list Z) (s : gst) : Prop :=
  g_ok s = true ->
  Forall (HoldsP seen) (g_pop s)
  /\ IsBest seen (g_best s) (g_best_obj s)
  /\ g_evals s = length seen.

Lemma head_min_values m l us first p r :
  isort l = p :: r -> incl (slots_from m first us) l -> Forall (Z.le (snd p)) (map (ev_call m) us).
Proof.
  intros Hs Hin. rewrite <- (slots_from_snd m us first). apply Forall_map, Forall_forall.
  intros q Hq. exact (isort_head_min _ _ _ Hs q (Hin q Hq)).
Qed.

Lemma g_init_inv m us0 s0 : g_init m us0 = Some s0 -> g_inv (map (ev_call m) us0) s0.
Proof.
  unfold g_init. destruct (isort (slots_from m 0 us0)) as [|[id x] r] eqn:Hs; [discriminate|].
  intros H. injection H as <-. intros _. simpl.
  pose proof (slots_from_holds m us0 []) as Hh. simpl in Hh. apply isort_Forall in Hh. rewrite Hs in Hh.
  split; [exact Hh|]. split; [|rewrite map_length; reflexivity].
  split; [inversion Hh; assumption|]. exact (head_min_values m _ us0 0%nat _ _ Hs (incl_refl _)).
Qed.

Lemma g_step_ok m el ps it s e : g_ok (fst (g_step m el ps it s e)) = true -> g_ok s = true.
Proof.
  unfold g_step. simpl.
  destruct (firstn ps (isort (firstn el (g_pop s) ++ slots_from m (g_evals s) (g_kids e)))) as [|[id x] r]; simpl.
  - discriminate.
  - destruct (x <? g_best_obj s); simpl; intros H; apply andb_true_iff in H; exact (proj1 H).
Qed.

Lemma g_step_inv m el ps it s e seen :
  g_inv seen s -> g_inv (seen ++ map (ev_call m) (g_vals e)) (fst (g_step m el ps it s e)).
Proof.
  intros Hinv Hok'. pose proof (g_step_ok _ _ _ _ _ _ Hok') as Hok.
  destruct (Hinv Hok) as [Hp [Hb He]]. clear Hinv.
  unfold g_vals. revert Hok'. unfold g_step. cbn [fst].
  set (more := map (ev_call m) (g_kids e)).
  set (newp := firstn el (g_pop s) ++ slots_from m (g_evals s) (g_kids e)).
  assert (Hpop : Forall (HoldsP (seen ++ more)) (firstn ps (isort newp))).
  { apply firstn_Forall, isort_Forall, Forall_app. split.
    - apply HoldsP_app, firstn_Forall, Hp.
    - rewrite He. apply slots_from_holds. }
  assert (Hlen : (g_evals s + length (g_kids e))%nat = length (seen ++ more)).
  { rewrite app_length. unfold more. rewrite map_length, He. reflexivity. }
  destruct (firstn ps (isort newp)) as [|[id x] r] eqn:Hf; simpl; [discriminate|].
  destruct (firstn_head _ _ _ _ Hf) as [r' Hs].
  assert (Hmin : Forall (Z.le x) more).
  { apply (head_min_values m newp _ (g_evals s) _ _ Hs), incl_appr, incl_refl. }
  assert (Hhead : Holds (seen ++ more) id x) by (inversion Hpop; assumption).
  destruct (Z.ltb_spec x (g_best_obj s)) as [Hlt|Hlt]; simpl; intros _;
    (split; [exact Hpop|]); (split; [|exact Hlen]).
  - split; [exact Hhead|]. apply Forall_app. split; [|exact Hmin].
    apply Forall_le_trans with (b := g_best_obj s); [lia | exact (proj2 Hb)].
  - apply IsBest_app; [exact Hb|]. apply Forall_le_trans with (b := x); assumption.
Qed.

Lemma evolve_spec m el mi us0 evs r :
  evolve m el mi us0 evs = Some r -> BestSpec m (evolve_log us0 evs) r.
Proof.
  unfold evolve. intros H.
  destruct (g_init m us0) as [s0|] eqn:Hi; [|discriminate].
  destruct (loop (g_step m el (length us0)) mi 1 s0 evs) as [[s it]|] eqn:HL; [|discriminate].
  destruct (g_ok s) eqn:Hok; [|discriminate]. injection H as <-.
  destruct (loop_inv_log (g_step m el (length us0)) g_vals g_inv m (g_step_inv m el (length us0)) _ _ _ _ us0 _ _
              (g_init_inv m us0 s0 Hi) HL Hok) as [_ [Hb He]].
  apply IsBest_BestSpec; [exact Hb | rewrite He; apply map_length].
Qed.

Lemma slots_from_mirror first us : slots_from false first us = slots_from true first (map Z.opp us).
Proof. unfold slots_from. rewrite map_ev_call_mirror, !map_length. reflexivity. Qed.

Lemma g_step_mirror el ps it s e : g_step false el ps it s e = g_step true el ps it s (g_neg e).
Proof. unfold g_step, g_neg. simpl. rewrite slots_from_mirror, map_length. reflexivity. Qed.

Lemma g_init_mirror us0 : g_init false us0 = g_init true (map Z.opp us0).
Proof. unfold g_init. rewrite slots_from_mirror, map_length. reflexivity. Qed.

Lemma evolve_mirror el mi us0 evs :
  evolve false el mi us0 evs = option_map neg_result (evolve true el mi (map Z.opp us0) (map g_neg evs)).
Proof.
  unfold evolve. rewrite g_init_mirror, map_length.
  destruct (g_init true (map Z.opp us0)) as [s0|]; [|reflexivity].
  apply (loop_mirror _ _ g_neg (fun s it => if g_ok s then Some (g_result false s it) else None)
           (fun s it => if g_ok s then Some (g_result true s it) else None) (g_step_mirror el (length us0))).
  intros s it. destruct (g_ok s); [exact (f_equal Some (result_mirror _ _ _ _)) | reflexivity].
Qed.

(* non-vacuity: no elitism - the best individual (value 1, identity 1) is dropped from the population
   in generation 1 and must survive in best_solution; a tie in generation 2 does not replace it *)
Example evolve_example :
  evolve true 0 2 [4; 1; 3] [mkG [5; 6; 2] false; mkG [1; 7; 7] false]
  = Some {| r_id := 1; r_obj := 1; r_evals := 9; r_iters := 2 |}.
Proof. vm_compute. reflexivity. Qed.

Example evolve_malformed : evolve true 1 1 [4; 1; 3] [mkG [5] false] = None.
Proof. vm_compute. reflexivity. Qed.
