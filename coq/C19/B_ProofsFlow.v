(* C19 part B - proofs about the value-flow machines of bfgs / lbfgs (B_Flow.v) and powell (B_Powell.v):
   the reported objective is the value of exactly the objective call whose point is returned. *)
From Coq Require Import List ZArith Bool Arith Lia.
From SV Require Import C19.B_Common C19.B_Flow C19.B_Powell C19.B_ProofsCommon.
Import ListNotations.
Open Scope Z_scope.

Section Flow.
Variable us : list Z.

Lemma good_flow_ok cur it ev s st :
  wf us st -> good us (evals st) cur -> flow_ok us (pw_result cur it ev s) st.
Proof.
  intros W [G1 G2]. unfold flow_ok, pw_result; cbn [r_sol r_obj].
  split; [exact G1|]. split; [exact G2 | apply wf_length; exact W].
Qed.

Lemma last_call_ok st c st' it ev s :
  wf us st -> eval st = Some (c, st') ->
  wf us st' /\ flow_ok us (mkR (eid c) (eval_ c) it ev s) st' /\ S (eid c) = evals st'.
Proof.
  intros W E. destruct (eval_spec us _ _ _ W E) as (W1 & A2 & A3 & _).
  split; [exact W1|]. split; [|cbn [r_sol]; lia]. exact (good_flow_ok c it ev s st' W1 (eval_good us _ _ _ W E)).
Qed.

Lemma qn_report_ok st it ev s r st' :
  wf us st -> qn_report st it ev s = Some (r, st') ->
  wf us st' /\ flow_ok us r st' /\ S (r_sol r) = evals st'.
Proof.
  intros W H. unfold qn_report in H. destruct (eval st) as [[c st1]|] eqn:E; [|discriminate].
  injection H as <- <-. apply (last_call_ok st); assumption.
Qed.

Lemma qn_loop_ok max_iter conv bt cb interval k : forall it ev st r st',
  wf us st ->
  qn_loop max_iter conv bt cb interval k it ev st = Some (r, st') ->
  wf us st' /\ flow_ok us r st' /\ S (r_sol r) = evals st'.
Proof.
  induction k as [|k IH]; intros it ev st r st' W H; cbn [qn_loop] in H.
  - eapply qn_report_ok; eauto.
  - destruct (conv it); [eapply qn_report_ok; eauto|].
    destruct ((bt it =? 0)%nat || (30 <? bt it)%nat); [discriminate|].
    destruct (eval_n (1 + bt it) st) as [[es st1]|] eqn:E; [|discriminate].
    destruct (eval_n_spec us _ _ _ _ W E) as (W1 & _).
    destruct (eval st1) as [[c st2]|] eqn:E2; [|discriminate].
    destruct (report_progress cb interval (it + 1)).
    + injection H as <- <-. apply (last_call_ok st1); assumption.
    + apply (IH _ _ _ _ _ (proj1 (eval_wf us _ _ _ W1 E2)) H).
Qed.

End Flow.

Theorem bfgs_run_ok max_iter conv bt cb interval us r st :
  bfgs_run_st max_iter conv bt cb interval us = Some (r, st) ->
  flow_ok us r st /\ S (r_sol r) = evals st.
Proof. intros H. exact (proj2 (qn_loop_ok us _ _ _ _ _ _ _ _ _ _ _ (wf_est0 us) H)). Qed.

Theorem lbfgs_run_ok max_iter conv bt cb interval us r st :
  lbfgs_run_st max_iter conv bt cb interval us = Some (r, st) ->
  flow_ok us r st /\ S (r_sol r) = evals st.
Proof. exact (bfgs_run_ok max_iter conv bt cb interval us r st). Qed.

Section Powell.
Variable us : list Z.
Variable sign : Z.
Hypothesis Hsign : sign = 1 \/ sign = -1.

Lemma bracket_loop_wf fuel : forall ev fb fc st k st',
  wf us st -> bracket_loop fuel sign ev fb fc st = Some (k, st') -> wf us st' /\ (evals st <= evals st')%nat.
Proof.
  induction fuel as [|fuel IH]; intros ev fb fc st k st' W H; cbn [bracket_loop] in H; [discriminate|].
  destruct ((fc <? fb) && (ev <? 50)%nat).
  - destruct (eval st) as [[c st1]|] eqn:E; [|discriminate].
    destruct (eval_wf us _ _ _ W E) as (W1 & A1).
    destruct (IH _ _ _ _ _ _ W1 H) as (W2 & B2). split; [exact W2 | lia].
  - injection H as <- <-. split; [exact W | lia].
Qed.

Lemma bracket_wf st k st' : wf us st -> bracket sign st = Some (k, st') -> wf us st' /\ (evals st <= evals st')%nat.
Proof.
  intros W H. unfold bracket in H.
  destruct (eval st) as [[a st1]|] eqn:E1; [|discriminate]. destruct (eval_wf us _ _ _ W E1) as (W1 & A1).
  destruct (eval st1) as [[b st2]|] eqn:E2; [|discriminate]. destruct (eval_wf us _ _ _ W1 E2) as (W2 & A2).
  destruct (eval st2) as [[c st3]|] eqn:E3; [|discriminate]. destruct (eval_wf us _ _ _ W2 E3) as (W3 & A3).
  destruct (bracket_loop_wf _ _ _ _ _ _ _ W3 H) as (W4 & A4). split; [exact W4 | lia].
Qed.

Lemma golden_loop_wf m : forall fb fd st st',
  wf us st -> golden_loop m sign fb fd st = Some st' -> wf us st' /\ (evals st <= evals st')%nat.
Proof.
  induction m as [|m IH]; intros fb fd st st' W H; cbn [golden_loop] in H.
  - injection H as <-. split; [exact W | lia].
  - destruct (eval st) as [[x st1]|] eqn:E; [|discriminate].
    destruct (eval_wf us _ _ _ W E) as (W1 & A1).
    destruct (fb <? fd); destruct (IH _ _ _ _ W1 H) as (W2 & A2); (split; [exact W2 | lia]).
Qed.

(* the golden-section search hands back its LAST call: identity + internal value sign * f *)
Lemma golden_spec m st e k st' :
  wf us st -> golden sign m st = Some (e, k, st') ->
  wf us st' /\ (evals st <= evals st')%nat /\ (eid e < evals st')%nat /\
  exists v, nth_error us (eid e) = Some v /\ eval_ e = sign * v.
Proof.
  intros W H. unfold golden in H. destruct (100 <? m)%nat; [discriminate|].
  destruct (eval st) as [[b st1]|] eqn:E1; [|discriminate]. destruct (eval_wf us _ _ _ W E1) as (W1 & A1).
  destruct (eval st1) as [[d st2]|] eqn:E2; [|discriminate]. destruct (eval_wf us _ _ _ W1 E2) as (W2 & A2).
  destruct (golden_loop m sign _ _ st2) as [st3|] eqn:E3; [|discriminate].
  destruct (golden_loop_wf _ _ _ _ _ W2 E3) as (W3 & A3).
  destruct (eval st3) as [[x st4]|] eqn:E4; [|discriminate].
  destruct (eval_spec us _ _ _ W3 E4) as (W4 & A4 & A5 & A6).
  injection H as <- <- <-. cbn [eid eval_ fst snd].
  split; [exact W4|]. split; [lia|]. split; [rewrite A5; lia|].
  exists (eval_ x). split; [rewrite A5; exact A6 | reflexivity].
Qed.

(* a line search hands back an evaluated point together with its USER value *)
Lemma line_search_spec o st e k st' :
  wf us st -> line_search sign o st = Some (e, k, st') ->
  wf us st' /\ (evals st <= evals st')%nat /\ good us (evals st') e.
Proof.
  intros W H. unfold line_search in H. destruct (fst o).
  - destruct (eval st) as [[x st1]|] eqn:E; [|discriminate]. injection H as <- <- <-.
    destruct (eval_wf us _ _ _ W E) as (W1 & A1).
    split; [exact W1|]. split; [exact A1 | exact (eval_good us _ _ _ W E)].
  - destruct (bracket sign st) as [[bk st1]|] eqn:E1; [|discriminate].
    destruct (bracket_wf _ _ _ W E1) as (W1 & A1).
    destruct (golden sign (snd o) st1) as [[[xm sk] st2]|] eqn:E2; [|discriminate].
    destruct (golden_spec _ _ _ _ _ W1 E2) as (W2 & A2 & A3 & v & Hv & Hx).
    injection H as <- <- <-.
    split; [exact W2|]. split; [lia|]. split; cbn [eid eval_ fst snd]; [exact A3|].
    rewrite Hv. f_equal. rewrite Hx. destruct Hsign as [->| ->]; lia.
Qed.

Lemma pw_dirs_inv ls n : forall j cur ev st c j' ev' st',
  wf us st -> good us (evals st) cur ->
  pw_dirs sign ls n j cur ev st = Some (c, j', ev', st') ->
  wf us st' /\ good us (evals st') c.
Proof.
  induction n as [|n IH]; intros j cur ev st c j' ev' st' W G H; cbn [pw_dirs] in H.
  - injection H as <- <- <- <-. split; assumption.
  - destruct (line_search sign (ls j) st) as [[[c1 k1] st1]|] eqn:E; [|discriminate].
    destruct (line_search_spec _ _ _ _ _ W E) as (W1 & _ & G1).
    eapply IH; eauto.
Qed.

Lemma pw_loop_ok max_iter n ls conv moved cb interval k : forall it j cur ev st r st',
  wf us st -> good us (evals st) cur ->
  pw_loop sign max_iter n ls conv moved cb interval k it j cur ev st = Some (r, st') ->
  flow_ok us r st'.
Proof.
  induction k as [|k IH]; intros it j cur ev st r st' W G H; cbn [pw_loop] in H.
  - injection H as <- <-. apply good_flow_ok; assumption.
  - destruct (pw_dirs sign ls n j cur ev st) as [[[[c j1] ev1] st1]|] eqn:E; [|discriminate].
    destruct (pw_dirs_inv _ _ _ _ _ _ _ _ _ _ W G E) as (W1 & G1).
    destruct (conv it).
    + injection H as <- <-. apply good_flow_ok; assumption.
    + destruct (moved it).
      * destruct (line_search sign (ls j1) st1) as [[[c2 k2] st2]|] eqn:E2; [|discriminate].
        destruct (line_search_spec _ _ _ _ _ W1 E2) as (W2 & _ & G2).
        destruct (report_progress cb interval (it + 1)).
        -- injection H as <- <-. apply good_flow_ok; assumption.
        -- eapply IH; eauto.
      * destruct (report_progress cb interval (it + 1)).
        -- injection H as <- <-. apply good_flow_ok; assumption.
        -- eapply IH; eauto.
Qed.

End Powell.

Theorem powell_run_ok minimize n max_iter ls conv moved cb interval us r st :
  powell_run_st minimize n max_iter ls conv moved cb interval us = Some (r, st) -> flow_ok us r st.
Proof.
  unfold powell_run_st. destruct (eval (est0 us)) as [[c0 st0]|] eqn:E; [|discriminate].
  intros H.
  destruct (eval_spec us _ _ _ (wf_est0 us) E) as (W & _).
  eapply (pw_loop_ok us (ev_sign minimize) (sign_cases minimize)); [exact W | | exact H].
  exact (eval_good us _ _ _ (wf_est0 us) E).
Qed.
