(* Proofs about the lns / alns machines (A_Lns.v), for every value stream and every accept / stop
   oracle, and the refutation of best_is_min for the lns of the pinned tree. *)
From Coq Require Import List ZArith Bool Arith.
From SV Require Import C19.Common C19.A_Lns.
Import ListNotations.
Open Scope Z_scope.

Definition l_inv (seen : list Z) (s : lst) : Prop :=
  Holds seen (l_cur s) (l_cur_obj s)
  /\ IsBest seen (l_best s) (l_best_obj s)
  /\ l_evals s = length seen.

Lemma l_inv_init m u0 : l_inv [ev_call m u0] (l_init m u0).
Proof. split; [reflexivity|]. split; [apply IsBest_single | reflexivity]. Qed.

Lemma lns_step_inv m mni it s e seen :
  l_inv seen s -> l_inv (seen ++ map (ev_call m) (l_vals e)) (fst (lns_step m mni it s e)).
Proof.
  intros [Hc [Hb He]]. unfold lns_step, l_vals. simpl. rewrite He.
  pose proof (roles_snoc _ _ _ _ _ (ev_call m (l_u e)) (l_acc e) Hc Hb) as H.
  destruct (_ <? l_best_obj s); destruct (l_acc e); exact H.
Qed.

Lemma alns_step_inv m mni it s e seen :
  l_inv seen s -> l_inv (seen ++ map (ev_call m) (l_vals e)) (fst (alns_step m mni it s e)).
Proof.
  intros [Hc [Hb He]]. unfold alns_step, l_vals. simpl. rewrite He. set (x := ev_call m (l_u e)).
  pose proof (roles_snoc _ _ _ _ _ x true Hc Hb) as H1.
  pose proof (roles_snoc _ _ _ _ _ x ((x <? l_cur_obj s) || l_acc e) Hc Hb) as H2.
  destruct (x <? l_best_obj s); [exact H1|]. destruct (_ || _); exact H2.
Qed.

Section Run.
  Variable step : bool -> Z -> nat -> lst -> levent -> lst * bool.
  Hypothesis step_inv : forall m mni it s e seen,
    l_inv seen s -> l_inv (seen ++ map (ev_call m) (l_vals e)) (fst (step m mni it s e)).

  Lemma l_run_spec m mi mni u0 evs r :
    l_run (step m mni) m mi u0 evs = Some r -> BestSpec m (lns_log u0 evs) r.
  Proof.
    unfold l_run. intros H.
    destruct (loop (step m mni) mi 1 (l_init m u0) evs) as [[s it]|] eqn:HL; [|discriminate].
    injection H as <-.
    destruct (loop_inv_log (step m mni) l_vals l_inv m (step_inv m mni) _ _ _ _ [u0] _ _ (l_inv_init m u0) HL)
      as [_ [Hb He]].
    apply IsBest_BestSpec; [exact Hb | rewrite He; apply map_length].
  Qed.

  Hypothesis step_mirror : forall mni it s e, step false mni it s e = step true mni it s (l_neg e).

  Lemma l_run_mirror mi mni u0 evs :
    l_run (step false mni) false mi u0 evs
    = option_map neg_result (l_run (step true mni) true mi (- u0) (map l_neg evs)).
  Proof.
    unfold l_run, l_init. rewrite ev_call_mirror.
    apply (loop_mirror _ _ l_neg (fun s it => Some (l_result false s it)) (fun s it => Some (l_result true s it))
             (step_mirror mni)).
    intros s it. exact (f_equal Some (result_mirror _ _ _ _)).
  Qed.
End Run.

Lemma lns_spec m mi mni u0 evs r : lns m mi mni u0 evs = Some r -> BestSpec m (lns_log u0 evs) r.
Proof. apply (l_run_spec lns_step lns_step_inv). Qed.

Lemma alns_spec m mi mni u0 evs r : alns m mi mni u0 evs = Some r -> BestSpec m (lns_log u0 evs) r.
Proof. apply (l_run_spec alns_step alns_step_inv). Qed.

Lemma lns_step_mirror mni it s e : lns_step false mni it s e = lns_step true mni it s (l_neg e).
Proof. unfold lns_step, l_neg. simpl. rewrite ev_call_mirror. reflexivity. Qed.

Lemma alns_step_mirror mni it s e : alns_step false mni it s e = alns_step true mni it s (l_neg e).
Proof. unfold alns_step, l_neg. simpl. rewrite ev_call_mirror. reflexivity. Qed.

Lemma lns_mirror mi mni u0 evs :
  lns false mi mni u0 evs = option_map neg_result (lns true mi mni (- u0) (map l_neg evs)).
Proof. apply (l_run_mirror lns_step lns_step_mirror). Qed.

Lemma alns_mirror mi mni u0 evs :
  alns false mi mni u0 evs = option_map neg_result (alns true mi mni (- u0) (map l_neg evs)).
Proof. apply (l_run_mirror alns_step alns_step_mirror). Qed.

(* the lns of the pinned tree loses the best evaluated point: witness of DESIGN.md C19
   lns(5, f = id, destroy = id, repair = x-1, accept = always False, max_iter = 3):
   evaluates 5, 4, 4, 4 (current never moves), the machine - like the pinned code - reports (5, 5). *)
Definition lns_witness_events : list levent := [mkL 4 false false; mkL 4 false false; mkL 4 false false].

Lemma lns_pinned_witness_run :
  lns_pinned true 3 100 5 lns_witness_events = Some {| r_id := 0; r_obj := 5; r_evals := 4; r_iters := 3 |}.
Proof. vm_compute. reflexivity. Qed.

Lemma lns_pinned_refuted :
  exists m mi mni u0 evs r,
    lns_pinned m mi mni u0 evs = Some r /\ ~ Forall (better_eq m (r_obj r)) (lns_log u0 evs).
Proof.
  exists true, 3%nat, 100, 5, lns_witness_events, {| r_id := 0; r_obj := 5; r_evals := 4; r_iters := 3 |}.
  split; [exact lns_pinned_witness_run|].
  intros H. rewrite Forall_forall in H. exact (H 4 (or_intror (or_introl eq_refl)) eq_refl).
Qed.

(* the repaired machine on the same streams reports the evaluated 4 *)
Example lns_fixed_on_witness :
  lns true 3 100 5 lns_witness_events = Some {| r_id := 1; r_obj := 4; r_evals := 4; r_iters := 3 |}.
Proof. vm_compute. reflexivity. Qed.

(* under the side condition that accept never rejects a candidate better than the incumbent the
   pinned machine and the repaired one coincide step by step *)
Lemma lns_pinned_step_agrees m mni it s e :
  (ev_call m (l_u e) <? l_best_obj s = true -> l_acc e = true) ->
  lns_step_pinned m mni it s e = lns_step m mni it s e.
Proof.
  intros H. unfold lns_step_pinned, lns_step.
  destruct (ev_call m (l_u e) <? l_best_obj s) eqn:Hlt.
  - rewrite (H eq_refl). simpl. reflexivity.
  - destruct (l_acc e); simpl; reflexivity.
Qed.

Example alns_example :
  alns false 5 2 1 [mkL 3 false false; mkL 2 true false; mkL 3 false false]
  = Some {| r_id := 1; r_obj := 3; r_evals := 4; r_iters := 3 |}.
Proof. vm_compute. reflexivity. Qed.
