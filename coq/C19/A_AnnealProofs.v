From Coq Require Import List ZArith Bool Arith Lia.
From SV Require Import C19.Common C19.A_Anneal.
Import ListNotations.
Open Scope Z_scope.

Definition a_inv (seen : list Z) (s : ast) : Prop :=
  Holds seen (a_cur s) (a_cur_obj s)
  /\ IsBest seen (a_best s) (a_best_obj s)
  /\ a_evals s = length seen.

Lemma a_inv_init m u0 : a_inv [ev_call m u0] (a_init m u0).
Proof. split; [reflexivity|]. split; [apply IsBest_single | reflexivity]. Qed.

Lemma IsBest_le_Holds seen b o id x : IsBest seen b o -> Holds seen id x -> o <= x.
Proof.
  intros [_ H] Hh. rewrite Forall_forall in H. apply H. eapply nth_error_In. exact Hh.
Qed.

Lemma a_step_inv m it s e seen :
  a_inv seen s -> a_inv (seen ++ map (ev_call m) (a_vals e)) (fst (a_step m it s e)).
Proof.
  intros [Hc [Hb He]]. destruct e as [|u acc stop]; simpl.
  - rewrite app_nil_r. split; [exact Hc|]. split; [exact Hb | exact He].
  - rewrite He. set (x := ev_call m u).
    destruct ((x - a_cur_obj s <? 0) || acc) eqn:Hacc.
    + pose proof (roles_snoc _ _ _ _ _ x true Hc Hb) as H. destruct (x <? a_best_obj s); exact H.
    + (* rejected: not (delta < 0), so best <= cur <= x and the comparison with best is not needed *)
      apply orb_false_iff in Hacc as [Hd%Z.ltb_ge _].
      pose proof (IsBest_le_Holds _ _ _ _ _ Hb Hc) as Hbc.
      pose proof (roles_snoc _ _ _ _ _ x false Hc Hb) as H.
      destruct (Z.ltb_spec x (a_best_obj s)); [lia | exact H].
Qed.

Lemma anneal_spec m mi u0 evs r :
  anneal m mi u0 evs = Some r -> BestSpec m (anneal_log u0 evs) r.
Proof.
  unfold anneal. intros H.
  destruct (loop (a_step m) mi 1 (a_init m u0) evs) as [[s it]|] eqn:HL; [|discriminate].
  injection H as <-.
  destruct (loop_inv_log (a_step m) a_vals a_inv m (a_step_inv m) _ _ _ _ [u0] _ _ (a_inv_init m u0) HL)
    as [_ [Hb He]].
  apply IsBest_BestSpec; [exact Hb | rewrite He; apply map_length].
Qed.

Lemma anneal_iters_le m mi u0 evs r :
  anneal m mi u0 evs = Some r -> (r_iters r <= mi)%nat.
Proof.
  unfold anneal. intros H.
  destruct (loop (a_step m) mi 1 (a_init m u0) evs) as [[s it]|] eqn:HL; [|discriminate].
  injection H as <-. apply loop_iters in HL. simpl in *. lia.
Qed.

Lemma a_step_mirror it s e : a_step false it s e = a_step true it s (a_neg e).
Proof. destruct e as [|u acc stop]; simpl; [reflexivity|]. rewrite ev_call_mirror. reflexivity. Qed.

Lemma anneal_mirror mi u0 evs :
  anneal false mi u0 evs = option_map neg_result (anneal true mi (- u0) (map a_neg evs)).
Proof.
  unfold anneal, a_init. rewrite ev_call_mirror.
  apply (loop_mirror _ _ a_neg (fun s it => Some (a_result false s it)) (fun s it => Some (a_result true s it))
           a_step_mirror).
  intros s it. exact (f_equal Some (result_mirror _ _ _ _)).
Qed.

(* non-vacuity: a run in which an uphill move is accepted after the best point was seen *)
Example anneal_example :
  anneal true 4 5 [AEval 3 false false; AEval 7 true false; AEval 3 false false; AEval 9 false true]
  = Some {| r_id := 1; r_obj := 3; r_evals := 5; r_iters := 4 |}.
Proof. vm_compute. reflexivity. Qed.
