(* C19 part B.  Group 1 = differential_evolution, particle_swarm, nelder_mead, bayesian_opt (they report the best
   point they evaluated); group 2 = powell, bfgs, lbfgs (only: the reported objective is that of the returned point).
   The readable specification of a group-1 Result and a boolean checker for it, so that the
   IMPLEMENTATION's outputs can be judged inside coqc independently of the bookkeeping machines.
     us   = the user's objective values of all objective calls of the run, in call order
     ids  = indices of the calls whose (copied) point equals the returned solution
     obj, evaluations = Result.objective, Result.evaluations *)
From Coq Require Import List ZArith Bool Arith.
Import ListNotations.
Open Scope Z_scope.

Definition Spec1 (minimize : bool) (us : list Z) (ids : list nat) (obj : Z) (evaluations : nat) : Prop :=
  (exists i, In i ids /\ nth_error us i = Some obj) /\          (* objective = f(returned solution), user's sign *)
  (forall v, In v us -> if minimize then obj <= v else v <= obj) /\   (* at least as good as everything evaluated *)
  evaluations = length us.                                      (* evaluations = number of objective calls *)

Definition nth_is (us : list Z) (obj : Z) (i : nat) : bool :=
  match nth_error us i with Some v => v =? obj | None => false end.

Definition spec1_check (minimize : bool) (us : list Z) (ids : list nat) (obj : Z) (evaluations : nat) : bool :=
  existsb (nth_is us obj) ids &&
  forallb (fun v => if minimize then obj <=? v else v <=? obj) us &&
  (evaluations =? length us)%nat.

(* group 2 (powell, bfgs, lbfgs): only "the reported objective is f(returned point)" *)
Definition Spec2 (us : list Z) (ids : list nat) (obj : Z) : Prop := exists i, In i ids /\ nth_error us i = Some obj.
Definition spec2_check (us : list Z) (ids : list nat) (obj : Z) : bool := existsb (nth_is us obj) ids.
Lemma spec2_check_sound us ids obj : spec2_check us ids obj = true -> Spec2 us ids obj.
Proof.
  unfold spec2_check, Spec2. intros H1.
  apply existsb_exists in H1 as (i & Hi & Hn). exists i. split; [exact Hi|].
  unfold nth_is in Hn. destruct (nth_error us i) as [v|]; [|discriminate].
  apply Z.eqb_eq in Hn. subst. reflexivity.
Qed.

Lemma spec1_check_sound minimize us ids obj evaluations :
  spec1_check minimize us ids obj evaluations = true -> Spec1 minimize us ids obj evaluations.
Proof.
  unfold spec1_check, Spec1. intros H.
  apply andb_prop in H as [H H3]. apply andb_prop in H as [H1 H2].
  split; [exact (spec2_check_sound _ _ _ H1)|]. split.
  - intros v Hv. rewrite forallb_forall in H2. specialize (H2 v Hv).
    destruct minimize; apply Z.leb_le in H2; exact H2.
  - apply Nat.eqb_eq in H3. exact H3.
Qed.
