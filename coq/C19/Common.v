(* C19 part A - vocabulary of the bookkeeping machines of anneal, tabu_search, lns, alns, evolve (A_*.v).
   Part B (B_*.v) has its own, B_Common.v, and imports nothing from here.

   The machines never compute points.  Every point handed to the
   objective gets its EVALUATION INDEX (0-based position in the evaluator's call log) as identity;
   the machines move identities between the roles the code has (current, best, population slot...)
   according to comparisons of objective values and recorded oracle bits.

   Objective values are Z (the harness feeds integer-valued objectives: comparisons are exact).
   `us` always denotes the log of USER-sign values f(x) in call order; the Evaluator of
   solvor/utils/helpers.py multiplies by sign = +1 (minimize) / -1 (maximize) on the way in and
   again on the way out (`to_user`). *)
From Coq Require Import List ZArith Bool Arith Lia.
Import ListNotations.
Open Scope Z_scope.

(* class Evaluator of solvor/utils/helpers.py *)
Definition sgn (minimize : bool) : Z := if minimize then 1 else -1.
(* Evaluator.__call__: self.sign * self.objective_fn(sol)   (evals += 1 is done by the machines) *)
Definition ev_call (minimize : bool) (u : Z) : Z := sgn minimize * u.
(* Evaluator.to_user: internal_obj * self.sign *)
Definition to_user (minimize : bool) (x : Z) : Z := x * sgn minimize.

Lemma to_user_ev_call m u : to_user m (ev_call m u) = u.
Proof. unfold to_user, ev_call, sgn. destruct m; lia. Qed.

Lemma ev_call_to_user m x : ev_call m (to_user m x) = x.
Proof. unfold to_user, ev_call, sgn. destruct m; lia. Qed.

Lemma ev_call_mirror u : ev_call false u = ev_call true (- u).
Proof. unfold ev_call, sgn. lia. Qed.

Lemma to_user_mirror x : to_user false x = - to_user true x.
Proof. unfold to_user, sgn. lia. Qed.

Lemma ev_call_inj m a b : ev_call m a = ev_call m b -> a = b.
Proof. unfold ev_call, sgn. destruct m; lia. Qed.

(* "a is at least as good as b" in the user's own sign *)
Definition better_eq (minimize : bool) (a b : Z) : Prop := if minimize then a <= b else b <= a.
Definition better_eqb (minimize : bool) (a b : Z) : bool := if minimize then a <=? b else b <=? a.

Lemma better_eqb_spec m a b : better_eqb m a b = true <-> better_eq m a b.
Proof. unfold better_eqb, better_eq. destruct m; apply Z.leb_le. Qed.

Lemma better_eq_internal m a b : better_eq m a b <-> ev_call m a <= ev_call m b.
Proof. unfold better_eq, ev_call, sgn. destruct m; lia. Qed.

Lemma better_eq_mirror a b : better_eq false a b <-> better_eq true (- a) (- b).
Proof. unfold better_eq. lia. Qed.

(* what a machine reports: identity of the returned solution, objective in the USER's sign,
   Result.evaluations, Result.iterations *)
Record result := mkResult { r_id : nat; r_obj : Z; r_evals : nat; r_iters : nat }.

Definition neg_result (r : result) : result :=
  {| r_id := r_id r; r_obj := - r_obj r; r_evals := r_evals r; r_iters := r_iters r |}.

Definition result_eqb (a b : result) : bool :=
  Nat.eqb (r_id a) (r_id b) && Z.eqb (r_obj a) (r_obj b) && Nat.eqb (r_evals a) (r_evals b)
  && Nat.eqb (r_iters a) (r_iters b).

(* what the harness observes of the implementation: the set of log indices whose (deep-copied)
   point equals the returned solution, Result.objective, .evaluations, .iterations *)
Record observed := mkObs { o_ids : list nat; o_obj : Z; o_evals : nat; o_iters : nat }.

(* model output vs implementation observable; `cmp_iters=false` skips Result.iterations *)
Definition obs_matches (cmp_iters : bool) (r : option result) (o : observed) : bool :=
  match r with
  | None => false
  | Some r => existsb (Nat.eqb (r_id r)) (o_ids o) && Z.eqb (r_obj r) (o_obj o)
              && Nat.eqb (r_evals r) (o_evals o)
              && (negb cmp_iters || Nat.eqb (r_iters r) (o_iters o))
  end.

(* the property C19 for one run of a part-A solver: `us` = user-sign values the objective returned, in call order.
   best_is_f   : the reported objective is the value logged for the returned identity;
   best_is_min : it is at least as good (user sign) as every logged value, start point(s) included;
   evals_count : Result.evaluations = number of objective calls. *)
Definition BestSpec (minimize : bool) (us : list Z) (r : result) : Prop :=
  nth_error us (r_id r) = Some (r_obj r)
  /\ Forall (better_eq minimize (r_obj r)) us
  /\ r_evals r = length us.

(* the same judgement on an implementation observable (some matching index carries the objective) *)
Definition ObsSpec (minimize : bool) (us : list Z) (o : observed) : Prop :=
  (exists i, In i (o_ids o) /\ nth_error us i = Some (o_obj o))
  /\ Forall (better_eq minimize (o_obj o)) us
  /\ o_evals o = length us.

Definition nth_is (us : list Z) (v : Z) (i : nat) : bool :=
  match nth_error us i with Some w => Z.eqb w v | None => false end.

Definition obs_spec_check (minimize : bool) (us : list Z) (o : observed) : bool :=
  existsb (nth_is us (o_obj o)) (o_ids o)
  && forallb (better_eqb minimize (o_obj o)) us
  && Nat.eqb (o_evals o) (length us).

Lemma obs_spec_check_sound m us o : obs_spec_check m us o = true -> ObsSpec m us o.
Proof.
  unfold obs_spec_check, ObsSpec. intros H.
  apply andb_true_iff in H as [H H3].
  apply andb_true_iff in H as [H1 H2].
  split; [|split].
  - apply existsb_exists in H1. destruct H1 as [i [Hi Hn]]. exists i. split; [exact Hi|].
    unfold nth_is in Hn. destruct (nth_error us i) as [w|]; [|discriminate].
    apply Z.eqb_eq in Hn. subst w. reflexivity.
  - apply Forall_forall. intros u Hu. apply better_eqb_spec.
    rewrite forallb_forall in H2. apply H2. exact Hu.
  - apply Nat.eqb_eq. exact H3.
Qed.

Definition obs_of_result (r : result) : observed :=
  {| o_ids := [r_id r]; o_obj := r_obj r; o_evals := r_evals r; o_iters := r_iters r |}.

Lemma BestSpec_ObsSpec m us r : BestSpec m us r -> ObsSpec m us (obs_of_result r).
Proof.
  intros [H1 [H2 H3]]. split; [|split]; simpl; auto.
  exists (r_id r). split; [left; reflexivity | exact H1].
Qed.

(* `seen` = INTERNAL values (sign applied) consumed so far, in call order.
   IsBest seen bid bobj : role `best` holds identity bid with value bobj, minimal among seen. *)
Definition IsBest (seen : list Z) (bid : nat) (bobj : Z) : Prop :=
  nth_error seen bid = Some bobj /\ Forall (Z.le bobj) seen.

(* a role that merely holds some evaluated point with its own value (current, population slot) *)
Definition Holds (seen : list Z) (id : nat) (obj : Z) : Prop := nth_error seen id = Some obj.

Lemma Holds_app seen more id obj : Holds seen id obj -> Holds (seen ++ more) id obj.
Proof.
  unfold Holds. intros H. rewrite nth_error_app1; [exact H|].
  apply nth_error_Some. rewrite H. discriminate.
Qed.

Lemma Holds_new seen x more : Holds (seen ++ x :: more) (length seen) x.
Proof. unfold Holds. rewrite nth_error_app2 by lia. rewrite Nat.sub_diag. reflexivity. Qed.

Lemma Holds_lt seen id obj : Holds seen id obj -> (id < length seen)%nat.
Proof. unfold Holds. intros H. apply nth_error_Some. rewrite H. discriminate. Qed.

Lemma IsBest_single x : IsBest [x] 0 x.
Proof. split; [reflexivity|]. constructor; [lia|constructor]. Qed.

Lemma IsBest_app seen more b o : IsBest seen b o -> Forall (Z.le o) more -> IsBest (seen ++ more) b o.
Proof.
  intros [H1 H2] Hm. split; [apply Holds_app; exact H1|]. apply Forall_app. split; assumption.
Qed.

Lemma IsBest_keep seen b o x : IsBest seen b o -> o <= x -> IsBest (seen ++ [x]) b o.
Proof. intros H Hle. apply IsBest_app; [exact H|]. constructor; [exact Hle | constructor]. Qed.

Lemma Forall_le_trans (a b : Z) l : a <= b -> Forall (Z.le b) l -> Forall (Z.le a) l.
Proof. intros Hab H. eapply Forall_impl; [|exact H]. simpl. intros c Hc. lia. Qed.

Lemma IsBest_new seen b o x : IsBest seen b o -> x <= o -> IsBest (seen ++ [x]) (length seen) x.
Proof.
  intros [H1 H2] Hlt. split.
  - apply Holds_new.
  - apply Forall_app. split.
    + apply Forall_le_trans with (b := o); [exact Hlt | exact H2].
    + constructor; [lia|constructor].
Qed.

Lemma IsBest_Holds seen b o : IsBest seen b o -> Holds seen b o.
Proof. intros [H _]. exact H. Qed.

Lemma IsBest_nil_app seen b o : IsBest seen b o -> IsBest (seen ++ []) b o.
Proof. rewrite app_nil_r. auto. Qed.

(* a holder whose value is <= the best value IS a best (used when a role replaces `best`) *)
Lemma IsBest_of_Holds seen b o id x : IsBest seen b o -> Holds seen id x -> x <= o -> IsBest seen id x.
Proof.
  intros [_ H2] Hh Hle. split; [exact Hh|]. apply Forall_le_trans with (b := o); assumption.
Qed.

(* one more value x: `best` moves to it iff it is strictly better; a role that merely holds a point
   (anneal's / lns's `current`) moves or stays as the machine decides (mv).  The step invariants of the
   one-value-per-event machines are instances. *)
Lemma roles_snoc seen cur cobj b o x (mv : bool) :
  Holds seen cur cobj -> IsBest seen b o ->
  Holds (seen ++ [x]) (if mv then length seen else cur) (if mv then x else cobj)
  /\ IsBest (seen ++ [x]) (if x <? o then length seen else b) (if x <? o then x else o)
  /\ S (length seen) = length (seen ++ [x]).
Proof.
  intros Hc Hb. split; [|split].
  - destruct mv; [apply Holds_new | apply Holds_app; exact Hc].
  - destruct (Z.ltb_spec x o); [apply (IsBest_new seen b o) | apply IsBest_keep]; auto. lia.
  - symmetry. apply last_length.
Qed.

(* from the internal invariant to the user-sign specification *)
Lemma nth_error_map_ev m us i x :
  nth_error (map (ev_call m) us) i = Some x -> nth_error us i = Some (to_user m x).
Proof.
  rewrite nth_error_map. destruct (nth_error us i) as [u|]; simpl; [|discriminate].
  intros H. injection H as H. subst x. rewrite to_user_ev_call. reflexivity.
Qed.

Lemma IsBest_BestSpec m us bid bobj evals iters :
  IsBest (map (ev_call m) us) bid bobj -> evals = length us ->
  BestSpec m us {| r_id := bid; r_obj := to_user m bobj; r_evals := evals; r_iters := iters |}.
Proof.
  intros [H1 H2] He. split; [|split]; simpl.
  - apply nth_error_map_ev. exact H1.
  - apply Forall_forall. intros u Hu. apply better_eq_internal. rewrite ev_call_to_user.
    rewrite Forall_forall in H2. apply H2. apply in_map. exact Hu.
  - exact He.
Qed.

Lemma BestSpec_minimize us r :
  BestSpec true us r -> forall u, In u us -> r_obj r <= u.
Proof. intros [_ [H _]] u Hu. rewrite Forall_forall in H. exact (H u Hu). Qed.

Lemma BestSpec_maximize us r :
  BestSpec false us r -> forall u, In u us -> u <= r_obj r.
Proof. intros [_ [H _]] u Hu. rewrite Forall_forall in H. exact (H u Hu). Qed.

(* `for iteration in range(1, max_iter + 1): <body>` where the body consumes one recorded event and
   may leave the loop (break / return): step it s e = (s', leave).  The event list must be exactly
   what the run consumed: running out of events, or stopping with events left over, is the explicit
   error None.  Returns the final state and the value of `iteration` the code reports
   (the iteration at which it left, or max_iter when the range was exhausted). *)
Section Loop.
  Context {S E : Type}.
  Variable step : nat -> S -> E -> S * bool.

  Fixpoint loop (n it : nat) (s : S) (evs : list E) : option (S * nat) :=
    match n with
    | O => match evs with [] => Some (s, Nat.pred it) | _ :: _ => None end
    | Datatypes.S n' =>
        match evs with
        | [] => None
        | e :: evs' =>
            let '(s', leave) := step it s e in
            if leave then match evs' with [] => Some (s', it) | _ :: _ => None end
            else loop n' (Datatypes.S it) s' evs'
        end
    end.

  (* invariants indexed by the values consumed so far *)
  Variable ev_vals : E -> list Z.
  Variable Inv : list Z -> S -> Prop.
  Hypothesis step_inv : forall it s e seen,
    Inv seen s -> Inv (seen ++ ev_vals e) (fst (step it s e)).

  Lemma loop_inv : forall n it s evs seen s' it',
    Inv seen s -> loop n it s evs = Some (s', it') ->
    Inv (seen ++ flat_map ev_vals evs) s'.
  Proof.
    induction n as [|n IH]; intros it s evs seen s' it' HI HL; simpl in HL.
    - destruct evs; [|discriminate]. injection HL as <- _. simpl. rewrite app_nil_r. exact HI.
    - destruct evs as [|e evs']; [discriminate|].
      pose proof (step_inv it s e seen HI) as HS.
      destruct (step it s e) as [s1 leave]. simpl in HS.
      destruct leave.
      + destruct evs'; [|discriminate]. injection HL as <- _. simpl. rewrite app_nil_r. exact HS.
      + simpl. rewrite app_assoc. eapply IH; [exact HS | exact HL].
  Qed.

  Lemma loop_iters : forall n it s evs s' it',
    loop n it s evs = Some (s', it') -> (Nat.pred it <= it' <= Nat.pred it + n)%nat.
  Proof.
    induction n as [|n IH]; intros it s evs s' it' HL; simpl in HL.
    - destruct evs; [|discriminate]. injection HL as _ <-. lia.
    - destruct evs as [|e evs']; [discriminate|].
      destruct (step it s e) as [s1 leave]. destruct leave.
      + destruct evs'; [|discriminate]. injection HL as _ <-. lia.
      + apply IH in HL. simpl in HL. lia.
  Qed.
End Loop.

(* the machines keep the log in the user's sign; the invariants speak of its image under ev_call *)
Lemma map_flat_map {A} (f : Z -> Z) (g : A -> list Z) (l : list A) :
  map f (flat_map g l) = flat_map (fun e => map f (g e)) l.
Proof. induction l as [|e l IH]; simpl; [reflexivity|]. rewrite map_app, IH. reflexivity. Qed.

Lemma loop_inv_log {S E} (step : nat -> S -> E -> S * bool) (vals : E -> list Z) (Inv : list Z -> S -> Prop) m :
  (forall it s e seen, Inv seen s -> Inv (seen ++ map (ev_call m) (vals e)) (fst (step it s e))) ->
  forall n it s evs us0 s' it',
  Inv (map (ev_call m) us0) s -> loop step n it s evs = Some (s', it') ->
  Inv (map (ev_call m) (us0 ++ flat_map vals evs)) s'.
Proof.
  intros Hstep n it s evs us0 s' it' HI HL. rewrite map_app, map_flat_map.
  exact (loop_inv step _ Inv Hstep n it s evs _ s' it' HI HL).
Qed.

(* two step functions that agree up to a renaming of events give the same run (used for mirror) *)
Lemma loop_map {S E} (step1 step2 : nat -> S -> E -> S * bool) (f : E -> E) :
  (forall it s e, step1 it s e = step2 it s (f e)) ->
  forall n it s evs, loop step1 n it s evs = loop step2 n it s (map f evs).
Proof.
  intros Hstep. induction n as [|n IH]; intros it s evs; simpl.
  - destruct evs; reflexivity.
  - destruct evs as [|e evs']; [reflexivity|]. simpl. rewrite <- Hstep.
    destruct (step1 it s e) as [s1 leave]. destruct leave.
    + destruct evs'; reflexivity.
    + apply IH.
Qed.

Lemma map_ev_call_mirror us : map (ev_call false) us = map (ev_call true) (map Z.opp us).
Proof. rewrite map_map. apply map_ext. intros u. apply ev_call_mirror. Qed.

Lemma loop_mirror {S E} (step1 step2 : nat -> S -> E -> S * bool) (f : E -> E)
      (res1 res2 : S -> nat -> option result) :
  (forall it s e, step1 it s e = step2 it s (f e)) ->
  (forall s it, res1 s it = option_map neg_result (res2 s it)) ->
  forall n s evs,
  match loop step1 n 1 s evs with None => None | Some (s', it) => res1 s' it end
  = option_map neg_result (match loop step2 n 1 s (map f evs) with None => None | Some (s', it) => res2 s' it end).
Proof.
  intros Hstep Hres n s evs. rewrite (loop_map step1 step2 f Hstep).
  destruct (loop step2 n 1 s (map f evs)) as [[s' it]|]; [apply Hres | reflexivity].
Qed.

Lemma result_mirror id x ev it :
  mkResult id (to_user false x) ev it = neg_result (mkResult id (to_user true x) ev it).
Proof. unfold neg_result. simpl. rewrite to_user_mirror. reflexivity. Qed.
