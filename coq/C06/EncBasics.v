(* C06 - basic facts: CNF semantics of small clauses, ranges, at-most-one / exactly-one, decoding. *)
From Coq Require Import List ZArith Bool Lia.
From SV Require Import C06.CpAst C06.CpAstProofs C06.CpEnc.
Import ListNotations.
Open Scope Z_scope.

Lemma models_app b f g : models b (f ++ g) <-> models b f /\ models b g.
Proof.
  unfold models. split.
  - intros H. split; intros c Hc; apply H; apply in_or_app; auto.
  - intros [H1 H2] c Hc. apply in_app_or in Hc. destruct Hc; auto.
Qed.

Lemma models_nil b : models b [] <-> True.
Proof. unfold models. split; [auto | intros _ c []]. Qed.

Lemma models_cons b c f : models b (c :: f) <-> clause_true b c = true /\ models b f.
Proof.
  unfold models. split.
  - intros H. split; [apply H; left; reflexivity | intros c' Hc; apply H; right; exact Hc].
  - intros [H1 H2] c' [<-|Hc]; auto.
Qed.

Lemma models_one b c : models b [c] <-> clause_true b c = true.
Proof. rewrite models_cons, models_nil. tauto. Qed.

Lemma models_flat_map {A} b (F : A -> cnf) xs :
  models b (flat_map F xs) <-> forall x, In x xs -> models b (F x).
Proof.
  induction xs as [|a tl IH]; simpl.
  - rewrite models_nil. split; [intros _ x []|auto].
  - rewrite models_app, IH. split.
    + intros [H1 H2] x [<-|Hx]; auto.
    + intros H. split; [apply H; auto | intros x Hx; apply H; auto].
Qed.

Lemma models_map {A} b (F : A -> clause) xs :
  models b (map F xs) <-> forall x, In x xs -> clause_true b (F x) = true.
Proof.
  induction xs as [|a tl IH]; simpl.
  - rewrite models_nil. split; [intros _ x []|auto].
  - rewrite models_cons, IH. split.
    + intros [H1 H2] x [<-|Hx]; auto.
    + intros H. split; [apply H; auto | intros x Hx; apply H; auto].
Qed.

Lemma models_empty_clause b : models b [[]] <-> False.
Proof. rewrite models_one. simpl. split; [discriminate|tauto]. Qed.

Lemma models_b_spec b f : models_b b f = true <-> models b f.
Proof. unfold models_b, models. apply forallb_forall. Qed.

Lemma lit_true_pos b l : 0 < l -> lit_true b l = b l.
Proof. intros H. unfold lit_true. destruct (0 <? l) eqn:E; [reflexivity|lia]. Qed.

Lemma lit_true_neg b l : 0 < l -> lit_true b (- l) = negb (b l).
Proof.
  intros H. unfold lit_true. destruct (0 <? - l) eqn:E; [lia|].
  replace (- - l) with l by lia. reflexivity.
Qed.

(* clause_true on short clauses, by sign pattern: p = positive literal, n = negated *)
Lemma ct_p b a : 0 < a -> clause_true b [a] = b a.
Proof. intros H. unfold clause_true. simpl. rewrite lit_true_pos by exact H. apply orb_false_r. Qed.
Lemma ct_n b a : 0 < a -> clause_true b [- a] = negb (b a).
Proof. intros H. unfold clause_true. simpl. rewrite lit_true_neg by exact H. apply orb_false_r. Qed.
Lemma ct_nn b a c : 0 < a -> 0 < c -> clause_true b [- a; - c] = negb (b a) || negb (b c).
Proof. intros H1 H2. unfold clause_true. simpl. rewrite !lit_true_neg by assumption. rewrite orb_false_r. reflexivity. Qed.
Lemma ct_np b a c : 0 < a -> 0 < c -> clause_true b [- a; c] = negb (b a) || b c.
Proof. intros H1 H2. unfold clause_true. simpl. rewrite lit_true_neg, lit_true_pos by assumption. rewrite orb_false_r. reflexivity. Qed.
Lemma ct_pn b a c : 0 < a -> 0 < c -> clause_true b [a; - c] = b a || negb (b c).
Proof. intros H1 H2. unfold clause_true. simpl. rewrite lit_true_neg, lit_true_pos by assumption. rewrite orb_false_r. reflexivity. Qed.
Lemma ct_nnp b a c d : 0 < a -> 0 < c -> 0 < d -> clause_true b [- a; - c; d] = negb (b a) || (negb (b c) || b d).
Proof. intros H1 H2 H3. unfold clause_true. simpl. rewrite !lit_true_neg, lit_true_pos by assumption. rewrite orb_false_r. reflexivity. Qed.
Lemma ct_nnn b a c d : 0 < a -> 0 < c -> 0 < d -> clause_true b [- a; - c; - d] = negb (b a) || (negb (b c) || negb (b d)).
Proof. intros H1 H2 H3. unfold clause_true. simpl. rewrite !lit_true_neg by assumption. rewrite orb_false_r. reflexivity. Qed.

Lemma ct_negs b ls : (forall l, In l ls -> 0 < l) -> clause_true b (map Z.opp ls) = negb (forallb b ls).
Proof.
  unfold clause_true. induction ls as [|a tl IH]; intros H; [reflexivity|]. cbn [map forallb existsb].
  rewrite lit_true_neg by (apply H; left; reflexivity). rewrite IH by (intros l Hl; apply H; right; exact Hl).
  symmetry. apply negb_andb.
Qed.

Lemma ct_poslist b ls : (forall l, In l ls -> 0 < l) -> existsb (lit_true b) ls = existsb b ls.
Proof.
  induction ls as [|a tl IH]; intros H; simpl; [reflexivity|].
  rewrite lit_true_pos by (apply H; left; reflexivity).
  rewrite IH by (intros l Hl; apply H; right; exact Hl). reflexivity.
Qed.

Lemma zseq_In x s n : In x (zseq s n) <-> s <= x < s + Z.of_nat n.
Proof. apply In_zseq. Qed.

Lemma zrange_In x lo hi : In x (zrange lo hi) <-> lo <= x <= hi.
Proof. apply In_zrange. Qed.

Lemma zseq_NoDup s n : NoDup (zseq s n).
Proof.
  revert s. induction n as [|n IH]; intros s; simpl; constructor.
  - rewrite zseq_In. lia.
  - apply IH.
Qed.

Lemma zrange_NoDup lo hi : NoDup (zrange lo hi).
Proof. apply zseq_NoDup. Qed.

Lemma zseq_length s n : length (zseq s n) = n.
Proof. revert s. induction n as [|n IH]; intros s; simpl; [reflexivity|rewrite IH; reflexivity]. Qed.

Lemma in_dom_iff v x : in_dom v x = true <-> vlb v <= x <= vub v.
Proof. unfold in_dom. lia. Qed.

Lemma vdom_In v x : In x (vdom v) <-> vlb v <= x <= vub v.
Proof. apply zrange_In. Qed.

Lemma vlit_inj v x y : vlit v x = vlit v y -> x = y.
Proof. unfold vlit. lia. Qed.

Lemma vlit_pos v x : 0 < vbase v -> vlb v <= x -> 0 < vlit v x.
Proof. unfold vlit. lia. Qed.

Lemma lits_of_eq v : lits_of v = map (vlit v) (vdom v).
Proof. unfold lits_of, bool_vars. rewrite map_map. reflexivity. Qed.

Lemma bool_vars_In v x l : In (x, l) (bool_vars v) <-> (vlb v <= x <= vub v) /\ l = vlit v x.
Proof.
  unfold bool_vars. rewrite in_map_iff. split.
  - intros [y [E Hy]]. inversion E; subst. apply vdom_In in Hy. auto.
  - intros [Hx ->]. exists x. split; [reflexivity|apply vdom_In; exact Hx].
Qed.

Fixpoint amo_sem (b : asg) (ls : list lit) : Prop :=
  match ls with
  | [] => True
  | a :: tl => (b a = true -> forall c, In c tl -> b c = false) /\ amo_sem b tl
  end.

Lemma amo_models b ls : (forall l, In l ls -> 0 < l) -> (models b (amo ls) <-> amo_sem b ls).
Proof.
  induction ls as [|a tl IH]; intros Hpos; simpl.
  - apply models_nil.
  - rewrite models_app, models_map, IH by (intros l Hl; apply Hpos; right; exact Hl).
    assert (Ha : 0 < a) by (apply Hpos; left; reflexivity).
    split; intros [H1 H2]; split; auto.
    + intros Hb c Hc. specialize (H1 c Hc). rewrite ct_nn in H1 by (auto; apply Hpos; right; exact Hc).
      rewrite Hb in H1. simpl in H1. destruct (b c); [discriminate|reflexivity].
    + intros c Hc. rewrite ct_nn by (auto; apply Hpos; right; exact Hc).
      destruct (b a) eqn:Ea; [|reflexivity]. rewrite (H1 eq_refl c Hc). reflexivity.
Qed.

Lemma amo_sem_unique b ls : amo_sem b ls -> NoDup ls ->
  forall a c, In a ls -> In c ls -> b a = true -> b c = true -> a = c.
Proof.
  induction ls as [|x tl IH]; intros Hs Hnd a c Ha Hc Hba Hbc; [destruct Ha|].
  simpl in Hs. destruct Hs as [H1 H2]. inversion Hnd as [|? ? Hnx Hnd']; subst.
  destruct Ha as [<-|Ha]; destruct Hc as [<-|Hc]; auto.
  - rewrite (H1 Hba c Hc) in Hbc. discriminate.
  - rewrite (H1 Hbc a Ha) in Hba. discriminate.
Qed.

Lemma amo_sem_intro b ls : NoDup ls ->
  (forall a c, In a ls -> In c ls -> b a = true -> b c = true -> a = c) -> amo_sem b ls.
Proof.
  induction ls as [|x tl IH]; intros Hnd H; simpl; [exact I|].
  inversion Hnd as [|? ? Hnx Hnd']; subst. split.
  - intros Hbx c Hc. destruct (b c) eqn:E; [|reflexivity].
    assert (x = c) by (apply H; simpl; auto). subst. contradiction.
  - apply IH; [exact Hnd'|]. intros a c Ha Hc. apply H; simpl; auto.
Qed.

Lemma eo_models b ls : (forall l, In l ls -> 0 < l) -> ls <> [] ->
  (models b (exactly_one ls) <-> (exists l, In l ls /\ b l = true) /\ amo_sem b ls).
Proof.
  intros Hpos Hne. destruct ls as [|a tl]; [contradiction|].
  unfold exactly_one. rewrite models_cons, amo_models by exact Hpos.
  assert (E : clause_true b (a :: tl) = true <-> exists l, In l (a :: tl) /\ b l = true).
  { unfold clause_true. rewrite existsb_exists. split; intros [l [Hl Hb]]; exists l; split; auto.
    - rewrite lit_true_pos in Hb by (apply Hpos; exact Hl). exact Hb.
    - rewrite lit_true_pos by (apply Hpos; exact Hl). exact Hb. }
  rewrite E. tauto.
Qed.

(* hv: v has the value x under b; EO: exactly one value; bv: that value *)
Definition hv (b : asg) (v : var) (x : Z) : bool := in_dom v x && b (vlit v x).
Definition EO (b : asg) (v : var) : Prop :=
  exists x, hv b v x = true /\ forall y, hv b v y = true -> y = x.
(* the value read off a SAT model (decode_sat_solution); 0 when no literal is true *)
Definition bv (b : asg) (v : var) : Z := match dec_var b v with Some x => x | None => 0 end.

Lemma hv_iff b v x : hv b v x = true <-> vlb v <= x <= vub v /\ b (vlit v x) = true.
Proof. unfold hv. rewrite andb_true_iff, in_dom_iff. reflexivity. Qed.

Lemma lits_of_pos v : 0 < vbase v -> forall l, In l (lits_of v) -> 0 < l.
Proof.
  intros Hb l Hl. rewrite lits_of_eq in Hl. apply in_map_iff in Hl. destruct Hl as [x [<- Hx]].
  apply vdom_In in Hx. apply vlit_pos; lia.
Qed.

Lemma lits_of_NoDup v : NoDup (lits_of v).
Proof.
  rewrite lits_of_eq. assert (H : NoDup (vdom v)) by apply zrange_NoDup.
  induction H as [|x l Hx Hnd IH]; simpl; constructor; auto.
  rewrite in_map_iff. intros [y [E Hy]]. apply vlit_inj in E. subst. contradiction.
Qed.

Theorem exactly_one_ok b v : 0 < vbase v -> vlb v <= vub v ->
  (models b (exactly_one (lits_of v)) <-> EO b v).
Proof.
  intros Hb Hd.
  assert (Hin : forall x, vlb v <= x <= vub v -> In (vlit v x) (lits_of v))
    by (intros x Hx; rewrite lits_of_eq; apply in_map, vdom_In, Hx).
  assert (Hne : lits_of v <> []) by (intros E; specialize (Hin (vlb v)); rewrite E in Hin; destruct Hin; lia).
  rewrite eo_models by (try exact Hne; apply lits_of_pos; exact Hb). unfold EO. setoid_rewrite hv_iff. split.
  - intros [[l [Hl Hbl]] Hamo]. rewrite lits_of_eq in Hl. apply in_map_iff in Hl. destruct Hl as [x [<- Hx]].
    apply vdom_In in Hx. exists x. split; [auto|].
    intros y [Hy Hby]. apply (vlit_inj v), (amo_sem_unique b _ Hamo (lits_of_NoDup v)); auto.
  - intros [x [[Hx Hbx] Hu]]. split; [exists (vlit v x); auto|].
    apply amo_sem_intro; [apply lits_of_NoDup|].
    intros a c Ha Hc Hba Hbc. rewrite lits_of_eq in Ha, Hc. apply in_map_iff in Ha, Hc.
    destruct Ha as [ya [<- Hya]], Hc as [yc [<- Hyc]]. apply vdom_In in Hya, Hyc.
    rewrite (Hu ya), (Hu yc); auto.
Qed.

Lemma EO_dec_var b v : EO b v -> exists x, dec_var b v = Some x /\ hv b v x = true /\ forall y, hv b v y = true -> y = x.
Proof.
  intros [x [Hx Hu]]. unfold dec_var.
  destruct (find (fun x0 => b (vlit v x0)) (vdom v)) as [x'|] eqn:F.
  - apply find_some in F. rewrite vdom_In in F.
    assert (x' = x) by (apply Hu, hv_iff; exact F). subst. exists x. auto.
  - apply hv_iff in Hx. destruct Hx as [Hx1 Hx2].
    pose proof (find_none _ _ F x (proj2 (vdom_In v x) Hx1)) as Hn. simpl in Hn. congruence.
Qed.

Lemma EO_dec_var_bv b v : EO b v -> dec_var b v = Some (bv b v).
Proof. intros H. destruct (EO_dec_var b v H) as [x [Hd _]]. unfold bv. rewrite Hd. reflexivity. Qed.

Lemma EO_hv b v : EO b v -> forall x, hv b v x = true <-> x = bv b v.
Proof.
  intros H x. destruct (EO_dec_var b v H) as [x0 [Hd [Hx0 Hu]]]. unfold bv. rewrite Hd. split.
  - apply Hu.
  - intros ->. exact Hx0.
Qed.

Lemma EO_bv_dom b v : EO b v -> vlb v <= bv b v <= vub v.
Proof. intros H. apply (proj1 (hv_iff b v (bv b v))), (EO_hv b v H). reflexivity. Qed.

Lemma EO_lit b v x : EO b v -> vlb v <= x <= vub v -> (b (vlit v x) = true <-> x = bv b v).
Proof. intros H Hx. rewrite <- (EO_hv b v H x), hv_iff. tauto. Qed.

Lemma EO_lit_false b v x : EO b v -> vlb v <= x <= vub v -> x <> bv b v -> b (vlit v x) = false.
Proof. intros H Hx Hne. apply not_true_iff_false. rewrite (EO_lit b v x H Hx). exact Hne. Qed.

Definition var_ok (v : var) : Prop := 0 < vbase v /\ vlb v <= vub v.

Lemma enc_vars_models b vs : (forall v, In v vs -> var_ok v) ->
  (models b (enc_vars vs) <-> forall v, In v vs -> EO b v).
Proof.
  intros Hok. unfold enc_vars. rewrite models_flat_map.
  split; intros H v Hv; apply exactly_one_ok; try apply (Hok v Hv); apply H; exact Hv.
Qed.
