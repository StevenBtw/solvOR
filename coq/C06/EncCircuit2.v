(* C06 - the circuit encoding, part 2: the graph argument (successor function + strictly increasing
   positions along every arc not entering node 0  <->  one cycle through all nodes), then soundness and
   completeness of enc_circuit. *)
From Coq Require Import List ZArith Lia.
From SV Require Import C06.CpAst C06.CpEnc C06.EncBasics C06.EncPairwise C06.EncFrame C06.EncCircuit.
Import ListNotations. Open Scope Z_scope.

Lemma iter_nxt_S ss k i : iter_nxt ss (S k) i = nxt ss (iter_nxt ss k i).
Proof.
  revert i. induction k as [|k IH]; intros i; [reflexivity|].
  change (iter_nxt ss (S (S k)) i) with (iter_nxt ss (S k) (nxt ss i)). rewrite IH. reflexivity.
Qed.

Lemma iter_nxt_add ss a c i : iter_nxt ss (a + c) i = iter_nxt ss c (iter_nxt ss a i).
Proof. revert i. induction a as [|a IH]; intros i; [reflexivity|]. simpl. apply IH. Qed.

Lemma least_below (P : nat -> Prop) (Pdec : forall k, P k \/ ~ P k) m :
  (forall j, (j < m)%nat -> ~ P j)
  \/ (exists k, (k < m)%nat /\ P k /\ forall j, (j < k)%nat -> ~ P j).
Proof.
  induction m as [|m IH].
  - left. intros j Hj. lia.
  - destruct IH as [IH|[k [Hk [Pk Hl]]]].
    + destruct (Pdec m) as [Pm|Pm].
      * right. exists m. split; [lia|]. split; [exact Pm|exact IH].
      * left. intros j Hj. assert (Hc : (j < m)%nat \/ j = m) by lia. destruct Hc as [Hc| ->]; auto.
    + right. exists k. split; [lia|]. split; assumption.
Qed.

Lemma nth_map_seq {A} (f : nat -> A) d len i : (i < len)%nat -> nth i (map f (seq 0 len)) d = f i.
Proof.
  intros H. rewrite (nth_indep _ d (f 0%nat)) by (rewrite map_length, seq_length; exact H).
  rewrite map_nth. rewrite seq_nth by exact H. reflexivity.
Qed.

Section Graph.
  Variable ss : list Z.
  Variable n : Z.
  Hypothesis Hn : n = Z.of_nat (length ss).
  Hypothesis Hrng : forall i, (i < length ss)%nat -> 0 <= nth i ss 0 < n.

  Lemma nxt_range i : 0 <= i < n -> 0 <= nxt ss i < n.
  Proof. intros H. unfold nxt. apply Hrng. lia. Qed.

  Lemma iter_range k : forall i, 0 <= i < n -> 0 <= iter_nxt ss k i < n.
  Proof. induction k as [|k IH]; intros i H; [exact H|]. simpl. apply IH. apply nxt_range. exact H. Qed.

  Lemma nxt_nth i : nxt ss (Z.of_nat i) = nth i ss 0.
  Proof. unfold nxt. rewrite Nat2Z.id. reflexivity. Qed.

  Section Sound.
    Variable p : Z -> Z.
    Hypothesis Hpos : 0 < n.
    Hypothesis Hnd : NoDup ss.
    Hypothesis Hp : forall j, 0 <= j < n -> 0 <= p j <= n - 1.
    Hypothesis Hord : forall i, 0 <= i < n -> nxt ss i <> 0 -> p i < p (nxt ss i).

    Lemma nxt_inj i j : 0 <= i < n -> 0 <= j < n -> nxt ss i = nxt ss j -> i = j.
    Proof.
      intros Hi Hj E. unfold nxt in E.
      assert (Hij : Z.to_nat i = Z.to_nat j).
      { apply (proj1 (NoDup_nth ss 0) Hnd); [lia|lia|exact E]. }
      lia.
    Qed.

    Lemma climb m : forall u, 0 <= u < n ->
      (forall k, (1 <= k <= m)%nat -> iter_nxt ss k u <> 0) -> p u + Z.of_nat m <= p (iter_nxt ss m u).
    Proof.
      induction m as [|m IH]; intros u Hu H; [simpl; lia|].
      change (iter_nxt ss (S m) u) with (iter_nxt ss m (nxt ss u)).
      assert (H1 : nxt ss u <> 0) by (apply (H 1%nat); lia).
      pose proof (Hord u Hu H1) as H2. pose proof (nxt_range u Hu) as H3.
      assert (H4 : forall k, (1 <= k <= m)%nat -> iter_nxt ss k (nxt ss u) <> 0).
      { intros k Hk. apply (H (S k)). lia. }
      specialize (IH (nxt ss u) H3 H4). lia.
    Qed.

    (* from every node the walk reaches node 0 within n steps; k is least *)
    Lemma reach0 u : 0 <= u < n ->
      exists k, (k < length ss)%nat /\ iter_nxt ss (S k) u = 0
                /\ forall j, (j < k)%nat -> iter_nxt ss (S j) u <> 0.
    Proof.
      intros Hu.
      destruct (least_below (fun k => iter_nxt ss (S k) u = 0)
                  (fun k => Z.eq_decidable (iter_nxt ss (S k) u) 0) (length ss)) as [H|H]; [|exact H].
      exfalso.
      assert (H1 : forall k, (1 <= k <= length ss)%nat -> iter_nxt ss k u <> 0).
      { intros k Hk. destruct k as [|k]; [lia|]. apply H. lia. }
      pose proof (climb (length ss) u Hu H1) as H2.
      pose proof (Hp _ (iter_range (length ss) u Hu)) as H3. pose proof (Hp u Hu) as H4. lia.
    Qed.

    Section FirstReturn.
      Variable k0 : nat.   (* first return time of node 0, minus one *)
      Hypothesis Hret : iter_nxt ss (S k0) 0 = 0.

      Definition inO (u : Z) : Prop := exists m, (m <= k0)%nat /\ iter_nxt ss m 0 = u.

      Lemma back_step v : 0 <= v < n -> inO (nxt ss v) -> inO v.
      Proof.
        intros Hv [m [Hm E]]. assert (H0 : 0 <= 0 < n) by lia. destruct m as [|m].
        - simpl in E. exists k0. split; [lia|].
          apply nxt_inj; [apply iter_range; exact H0|exact Hv|].
          rewrite <- iter_nxt_S, Hret. exact E.
        - exists m. split; [lia|].
          apply nxt_inj; [apply iter_range; exact H0|exact Hv|].
          rewrite <- iter_nxt_S. exact E.
      Qed.

      Lemma back_closure k : forall u, 0 <= u < n -> inO (iter_nxt ss k u) -> inO u.
      Proof.
        induction k as [|k IH]; intros u Hu H; [exact H|].
        apply back_step; [exact Hu|]. apply IH; [apply nxt_range; exact Hu|exact H].
      Qed.

      Lemma all_inO u : 0 <= u < n -> inO u.
      Proof.
        intros Hu. destruct (reach0 u Hu) as [k [_ [Hk _]]].
        apply (back_closure (S k) u Hu). rewrite Hk. exists 0%nat. split; [lia|reflexivity].
      Qed.

      Lemma orbit_long : (length ss <= S k0)%nat.
      Proof.
        pose proof (NoDup_incl_length (l := zseq 0 (length ss))
                      (l' := map (fun m => iter_nxt ss m 0) (seq 0 (S k0))) (zseq_NoDup 0 (length ss))) as H.
        rewrite zseq_length, map_length, seq_length in H. apply H.
        intros u Hu. apply zseq_In in Hu.
        destruct (all_inO u) as [m [Hm E]]; [lia|].
        apply in_map_iff. exists m. split; [exact E|]. apply in_seq. lia.
      Qed.
    End FirstReturn.

    Lemma positions_circuit : (forall i, (i < length ss)%nat -> nth i ss 0 <> Z.of_nat i) -> circuit_vals ss.
    Proof.
      intros Hself. assert (H0 : 0 <= 0 < n) by lia.
      destruct (reach0 0 H0) as [k [Hk [Hret Hmin]]].
      pose proof (orbit_long k Hret) as Hlong.
      assert (Ek : S k = length ss) by lia.
      unfold circuit_vals. cbv zeta. split; [|split].
      - intros i Hi. split; [rewrite <- Hn; apply Hrng; exact Hi|apply Hself; exact Hi].
      - intros j Hj. destruct j as [|j]; [lia|]. apply Hmin. lia.
      - rewrite <- Ek. exact Hret.
    Qed.
  End Sound.

  Section Complete.
    Hypothesis Hfirst : forall k, (0 < k < length ss)%nat -> iter_nxt ss k 0 <> 0.
    Hypothesis Hback : iter_nxt ss (length ss) 0 = 0.
    Hypothesis Hpos : 0 < n.

    Lemma orbit_distinct a c : (a < c <= length ss)%nat -> iter_nxt ss a 0 = iter_nxt ss c 0 ->
      a = 0%nat /\ c = length ss.
    Proof.
      intros Hac E.
      assert (H : iter_nxt ss (a + (length ss - c)) 0 = 0).
      { rewrite iter_nxt_add, E, <- iter_nxt_add.
        replace (c + (length ss - c))%nat with (length ss) by lia. exact Hback. }
      assert (Hc : ~ (0 < a + (length ss - c) < length ss)%nat) by (intros Hc; exact (Hfirst _ Hc H)).
      lia.
    Qed.

    Lemma orbit_inj a c : (a < length ss)%nat -> (c < length ss)%nat ->
      iter_nxt ss a 0 = iter_nxt ss c 0 -> a = c.
    Proof.
      intros Ha Hc E. destruct (lt_eq_lt_dec a c) as [[H|H]|H]; [|exact H|].
      - destruct (orbit_distinct a c) as [_ H1]; [lia|exact E|lia].
      - destruct (orbit_distinct c a) as [_ H1]; [lia|symmetry; exact E|lia].
    Qed.

    Definition orbit : list Z := map (fun m => iter_nxt ss m 0) (seq 0 (length ss)).

    Lemma orbit_NoDup : NoDup orbit.
    Proof.
      apply (NoDup_nth orbit 0). unfold orbit. rewrite map_length, seq_length. intros i j Hi Hj.
      rewrite !nth_map_seq by assumption. apply orbit_inj; assumption.
    Qed.

    Lemma orbit_covers j : 0 <= j < n -> In j orbit.
    Proof.
      intros Hj.
      assert (Hincl : incl (zseq 0 (length ss)) orbit).
      { apply NoDup_length_incl.
        - exact orbit_NoDup.
        - unfold orbit. rewrite zseq_length, map_length, seq_length. lia.
        - intros u Hu. unfold orbit in Hu. apply in_map_iff in Hu. destruct Hu as [m [<- _]].
          apply zseq_In. pose proof (iter_range m 0) as Hir. lia. }
      apply Hincl. apply zseq_In. lia.
    Qed.

    Definition posn (j : Z) : nat :=
      match find (fun k => iter_nxt ss k 0 =? j) (seq 0 (length ss)) with Some k => k | None => 0%nat end.

    Lemma posn_spec j : 0 <= j < n -> (posn j < length ss)%nat /\ iter_nxt ss (posn j) 0 = j.
    Proof.
      intros Hj. unfold posn.
      destruct (find (fun k => iter_nxt ss k 0 =? j) (seq 0 (length ss))) as [k|] eqn:F.
      - apply find_some in F. destruct F as [F1 F2]. apply in_seq in F1. apply Z.eqb_eq in F2. split; [lia|exact F2].
      - exfalso. pose proof (orbit_covers j Hj) as Hin. unfold orbit in Hin. apply in_map_iff in Hin.
        destruct Hin as [m [E Hm]]. pose proof (find_none _ _ F m Hm) as Hnone. simpl in Hnone.
        rewrite E, Z.eqb_refl in Hnone. discriminate.
    Qed.

    Lemma posn_iter a : (a < length ss)%nat -> posn (iter_nxt ss a 0) = a.
    Proof.
      intros Ha. assert (H0 : 0 <= 0 < n) by lia.
      destruct (posn_spec (iter_nxt ss a 0) (iter_range a 0 H0)) as [H1 H2].
      apply orbit_inj; assumption.
    Qed.

    Lemma circuit_NoDup : NoDup ss.
    Proof.
      apply (NoDup_nth ss 0). intros i j Hi Hj E.
      destruct (posn_spec (Z.of_nat i)) as [Ha Ea]; [lia|].
      destruct (posn_spec (Z.of_nat j)) as [Hc Ec]; [lia|].
      rewrite <- (nxt_nth i), <- (nxt_nth j), <- Ea, <- Ec, <- !iter_nxt_S in E.
      assert (Hac : posn (Z.of_nat i) = posn (Z.of_nat j)).
      { destruct (lt_eq_lt_dec (posn (Z.of_nat i)) (posn (Z.of_nat j))) as [[H|H]|H]; [|exact H|].
        - destruct (orbit_distinct _ _ (conj (proj1 (Nat.succ_lt_mono _ _) H) Hc) E) as [H1 _]. lia.
        - symmetry in E. destruct (orbit_distinct _ _ (conj (proj1 (Nat.succ_lt_mono _ _) H) Ha) E) as [H1 _]. lia. }
      rewrite Hac in Ea. rewrite Ea in Ec. lia.
    Qed.

    Lemma posn_succ i : 0 <= i < n -> nxt ss i <> 0 -> posn (nxt ss i) = S (posn i).
    Proof.
      intros Hi Hne. destruct (posn_spec i Hi) as [Ha Ea].
      assert (E : nxt ss i = iter_nxt ss (S (posn i)) 0) by (rewrite iter_nxt_S, Ea; reflexivity).
      assert (Hlt : (S (posn i) < length ss)%nat).
      { assert (Hc : S (posn i) <> length ss) by (intros Hc; rewrite Hc, Hback in E; contradiction). lia. }
      rewrite E. apply posn_iter. exact Hlt.
    Qed.

    Lemma posn_zero : posn 0 = 0%nat.
    Proof. apply (posn_iter 0). lia. Qed.

    Lemma posn_nonzero j : 0 <= j < n -> j <> 0 -> (1 <= posn j < length ss)%nat.
    Proof.
      intros Hj Hne. destruct (posn_spec j Hj) as [Ha Ea].
      destruct (posn j) as [|k]; [simpl in Ea; congruence|lia].
    Qed.
  End Complete.
End Graph.

Lemma circuit_positions ss n : n = Z.of_nat (length ss) -> 0 < n -> circuit_vals ss ->
  NoDup ss
  /\ exists pos : Z -> Z,
       pos 0 = 0
       /\ (forall j, 1 <= j < n -> 1 <= pos j <= n - 1)
       /\ (forall i, 0 <= i < n -> nxt ss i <> 0 -> pos i < pos (nxt ss i)).
Proof.
  intros Hn Hpos [Hr [Hf Hb]].
  assert (Hrng : forall i, (i < length ss)%nat -> 0 <= nth i ss 0 < n)
    by (intros i Hi; rewrite Hn; apply Hr; exact Hi).
  split; [exact (circuit_NoDup ss n Hn Hrng Hf Hb Hpos)|].
  exists (fun j => Z.of_nat (posn ss j)). split; [|split].
  - rewrite (posn_zero ss n Hn Hrng Hf Hb Hpos). reflexivity.
  - intros j Hj. pose proof (posn_nonzero ss n Hn Hrng Hf Hb Hpos j) as Hpj. lia.
  - intros i Hi Hne. rewrite (posn_succ ss n Hn Hrng Hf Hb Hpos i Hi Hne). lia.
Qed.

Lemma circ_big_sound b cnt n vs : n = Z.of_nat (length vs) -> 2 <= n -> 0 < cnt ->
  (forall v, In v vs -> VOK b v) -> models b (circ_big cnt n vs) -> circuit_vals (map (bv b) vs).
Proof.
  intros Hn H2 Hc Hok Hm.
  destruct (proj1 (circ_big_ok b cnt n vs Hn H2 Hc Hok) Hm) as (Had & Hrg & HT & _ & Hor).
  assert (Hlen : n = Z.of_nat (length (map (bv b) vs))) by (rewrite map_length; exact Hn).
  apply (positions_circuit (map (bv b) vs) n Hlen)
    with (p := fun j => bv b (nth (Z.to_nat j) (pos_vars n cnt) dummy_var)).
  (* successors in range, 0 < n, injective, positions in 0..n-1, increasing along arcs not entering 0, no self loop *)
  - intros i Hi. rewrite map_length in Hi. rewrite nth_map_bv. apply Hrg. exact Hi.
  - lia.
  - exact Had.
  - intros j Hj. assert (Hk : (Z.to_nat j < length vs)%nat) by lia.
    pose proof (EO_bv_dom b _ (proj2 (HT _ Hk))).
    pose proof (pos_vars_dom n cnt (Z.to_nat j) H2 ltac:(lia)). lia.
  - intros i Hi Hne. assert (Hk : (Z.to_nat i < length vs)%nat) by lia.
    unfold nxt in *. rewrite nth_map_bv in *. destruct (Hrg _ Hk) as [H1 H3]. apply (Hor _ Hk); lia.
  - intros i Hi. rewrite map_length in Hi. rewrite nth_map_bv. apply Hrg. exact Hi.
Qed.

Lemma enc_circuit_sound b n vs : 0 < n -> (forall v, In v vs -> VOK b v) ->
  models b (fst (enc_circuit n vs)) -> circuit_vals (map (bv b) vs).
Proof.
  intros Hn Hok Hm. destruct vs as [|v [|w tl]].
  - unfold circuit_vals. simpl. split; [intros i Hi; lia|]. split; [intros k Hk; lia|reflexivity].
  - exfalso. rewrite enc_circuit_one in Hm. cbn [fst] in Hm. apply models_app in Hm. destruct Hm as [_ Hm].
    pose proof (proj1 (circ_rng_ok b 1 [v] Hok) Hm) as Hm'. specialize (Hm' 0%nat). simpl in Hm'. lia.
  - rewrite enc_circuit_big in Hm by (simpl; lia). cbn [fst] in Hm.
    apply (circ_big_sound b n _ _ eq_refl); [simpl length; lia|exact Hn|exact Hok|exact Hm].
Qed.

Lemma circ_big_complete b cnt n vs : n = Z.of_nat (length vs) -> 2 <= n -> 0 < cnt ->
  (forall v, In v vs -> VOK b v /\ var_below cnt v) -> circuit_vals (map (bv b) vs) ->
  exists b', agree_below cnt b b' /\ settled (pos_cnt n cnt) b' (circ_big cnt n vs).
Proof.
  intros Hn H2 Hc Hok Hcv.
  assert (Hlen : n = Z.of_nat (length (map (bv b) vs))) by (rewrite map_length; exact Hn).
  destruct (circuit_positions (map (bv b) vs) n Hlen) as [Hnd [pos [P0 [P1 P2]]]]; [lia|exact Hcv|].
  destruct Hcv as [Hr _]. rewrite <- Hlen, map_length in Hr.
  (* the position variables get the positions along the cycle *)
  destruct (pos_vars_complete b n cnt pos H2 Hc P0 P1) as [b1 [Hag1 HT1]].
  exists b1. split; [exact Hag1|]. intros b' Ha'.
  assert (HT : forall k, (k < length vs)%nat ->
             VOK b' (nth k (pos_vars n cnt) dummy_var) /\ bv b' (nth k (pos_vars n cnt) dummy_var) = pos (Z.of_nat k))
    by (intros k Hk0; apply (HT1 b' Ha'); lia).
  assert (Hag : agree_below cnt b b') by exact (agree_below_trans cnt _ b b1 b' (pos_cnt_ge n cnt) Hag1 Ha').
  assert (Hok' : forall u, In u vs -> VOK b' u).
  { intros u Hu. destruct (Hok u Hu) as [H1 H3]. exact (VOK_agree cnt b b' u H3 Hag H1). }
  assert (Hbv : map (bv b') vs = map (bv b) vs).
  { apply map_ext_in. intros u Hu. destruct (Hok u Hu) as [[H1 H3] H4]. exact (bv_agree cnt b b' u H1 H4 Hag H3). }
  apply (circ_big_ok b' cnt n vs Hn H2 Hc Hok').
  split; [rewrite Hbv; exact Hnd|]. split; [|split; [|split]].
  - intros i Hi. rewrite <- nth_map_bv, Hbv. apply Hr. exact Hi.
  - intros k Hk0. apply (HT k Hk0).
  - rewrite (proj2 (HT 0%nat ltac:(lia))). exact P0.
  - intros i Hi Hj Hne. assert (Hjn : (Z.to_nat (bv b' (nth i vs dummy_var)) < length vs)%nat) by lia.
    rewrite (proj2 (HT i Hi)), (proj2 (HT _ Hjn)), Z2Nat.id by lia.
    assert (E : bv b' (nth i vs dummy_var) = nxt (map (bv b) vs) (Z.of_nat i)).
    { unfold nxt. rewrite Nat2Z.id, <- Hbv, nth_map_bv. reflexivity. }
    rewrite E in *. apply P2; lia.
Qed.

Lemma enc_circuit_complete b n vs : 0 < n -> (forall v, In v vs -> VOK b v /\ var_below n v) ->
  circuit_vals (map (bv b) vs) ->
  exists b', agree_below n b b' /\ settled (snd (enc_circuit n vs)) b' (fst (enc_circuit n vs)).
Proof.
  intros Hn Hok Hc. destruct vs as [|v [|w tl]].
  - exists b. split; [apply agree_below_refl|]. intros b' _. simpl. apply models_nil. exact I.
  - exfalso. destruct Hc as [Hr _]. destruct (Hr 0%nat) as [H1 H2]; [simpl; lia|]. simpl in H1, H2. lia.
  - rewrite enc_circuit_big by (simpl; lia). cbn [fst snd].
    apply (circ_big_complete b n _ _ eq_refl); [simpl length; lia|exact Hn|exact Hok|exact Hc].
Qed.
