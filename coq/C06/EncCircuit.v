(* C06 - the circuit encoding (_encode_circuit), part 1: structure of the clause list, the position
   variables created by mk_positions, the counter, and the meaning of the range / ordering clauses and of the
   whole clause list on the decoded values.  Part 2 (EncCircuit2.v): the graph argument, soundness and
   completeness. *)
From Coq Require Import List ZArith Bool Lia.
From SV Require Import C06.CpAst C06.CpEnc C06.EncBasics C06.EncPairwise C06.EncFrame.
Import ListNotations. Open Scope Z_scope.

(* the successor v of node i is a node other than i *)
Definition rng_cl (n i : Z) (v : var) : cnf :=
  unit_forbid v (fun x => (x =? i) || negb ((0 <=? x) && (x <? n))).

Definition circ_rng (n : Z) (vs : list var) : cnf :=
  flat_map (fun iv : Z * var => rng_cl n (fst iv) (snd iv)) (indexed 0 vs).

(* under the literal l (the arc i -> j is chosen) the position ti comes before the position tj *)
Definition arc_cl (l : lit) (ti tj : var) : cnf :=
  flat_map (fun pi : Z * Z => flat_map (fun pj : Z * Z =>
    if fst pj <=? fst pi then [[- l; - snd pi; - snd pj]] else []) (bool_vars tj)) (bool_vars ti).

(* positions increase along the arc from i to its successor v, unless that is node 0 *)
Definition ord_cl (n : Z) (t : list var) (i : Z) (v : var) : cnf :=
  flat_map (fun j =>
    if negb (j =? i) && in_dom v j
    then arc_cl (vlit v j) (nth (Z.to_nat i) t dummy_var) (nth (Z.to_nat j) t dummy_var)
    else []) (zrange 1 (n - 1)).

Definition circ_ord (n : Z) (vs t : list var) : cnf :=
  flat_map (fun iv : Z * var => ord_cl n t (fst iv) (snd iv)) (indexed 0 vs).

Definition circ_pos (n cnt : Z) : list var * cnf * Z := mk_positions n cnt (zrange 0 (n - 1)).
Definition pos_vars (n cnt : Z) : list var := fst (fst (circ_pos n cnt)).
Definition pos_eos (n cnt : Z) : cnf := snd (fst (circ_pos n cnt)).
Definition pos_cnt (n cnt : Z) : Z := snd (circ_pos n cnt).

(* the clause list of a circuit on n >= 2 nodes (circ_big_*, enc_circuit_big: that case) *)
Definition circ_big (cnt n : Z) (vs : list var) : cnf :=
  enc_all_different vs ++ circ_rng n vs ++ pos_eos n cnt
    ++ [[vlit (nth 0 (pos_vars n cnt) dummy_var) 0]] ++ circ_ord n vs (pos_vars n cnt).

(* the encoder walks over bool_vars (value, literal) pairs where unit_forbid walks over the values *)
Lemma circ_rng_eq n vs :
  flat_map (fun iv : Z * var => flat_map (fun p : Z * Z =>
      if (fst p =? fst iv) || negb ((0 <=? fst p) && (fst p <? n)) then [[- snd p]] else [])
    (bool_vars (snd iv))) (indexed 0 vs)
  = circ_rng n vs.
Proof.
  apply flat_map_ext. intros iv. unfold rng_cl, unit_forbid, bool_vars.
  rewrite !flat_map_concat_map, map_map. reflexivity.
Qed.

Lemma enc_circuit_nil cnt : enc_circuit cnt [] = ([], cnt).
Proof. reflexivity. Qed.

Lemma enc_circuit_one cnt v : enc_circuit cnt [v] = (enc_all_different [v] ++ circ_rng 1 [v], cnt).
Proof. rewrite <- circ_rng_eq. reflexivity. Qed.

Lemma enc_circuit_big cnt vs : (2 <= length vs)%nat ->
  enc_circuit cnt vs = (circ_big cnt (Z.of_nat (length vs)) vs, pos_cnt (Z.of_nat (length vs)) cnt).
Proof.
  intros H. destruct vs as [|v tl]; [simpl in H; lia|].
  unfold enc_circuit. cbv zeta.
  set (n := Z.of_nat (length (v :: tl))).
  assert (Hn : 2 <= n) by (unfold n; lia).
  destruct (n <=? 1) eqn:E; [apply Z.leb_le in E; lia|].
  unfold circ_big, pos_eos, pos_vars, pos_cnt, circ_pos.
  destruct (mk_positions n cnt (zrange 0 (n - 1))) as [[t eos] c1]. rewrite <- circ_rng_eq. reflexivity.
Qed.

Lemma indexed_forall {A} (d : A) (P : Z -> A -> Prop) l : forall s,
  (forall p, In p (indexed s l) -> P (fst p) (snd p))
  <-> (forall k, (k < length l)%nat -> P (s + Z.of_nat k) (nth k l d)).
Proof.
  induction l as [|a tl IH]; intros s; simpl.
  - split; [intros _ k Hk; lia|intros _ p []].
  - split.
    + intros H [|k] Hk.
      * rewrite Z.add_0_r. apply (H (s, a)). left. reflexivity.
      * replace (s + Z.of_nat (S k)) with (s + 1 + Z.of_nat k) by lia.
        apply (proj1 (IH (s + 1))); [|lia]. intros p Hp. apply H. right. exact Hp.
    + intros H p [<-|Hp].
      * specialize (H 0%nat). rewrite Z.add_0_r in H. apply H. lia.
      * apply (proj2 (IH (s + 1))); [|exact Hp]. intros k Hk.
        replace (s + 1 + Z.of_nat k) with (s + Z.of_nat (S k)) by lia. apply (H (S k)). lia.
Qed.

Lemma models_indexed b (F : Z -> var -> cnf) vs :
  models b (flat_map (fun iv => F (fst iv) (snd iv)) (indexed 0 vs))
  <-> forall i, (i < length vs)%nat -> models b (F (Z.of_nat i) (nth i vs dummy_var)).
Proof. rewrite models_flat_map. apply (indexed_forall dummy_var (fun i v => models b (F i v)) vs 0). Qed.

Lemma models_app5 b f1 f2 f3 f4 f5 : models b (f1 ++ f2 ++ f3 ++ f4 ++ f5)
  <-> models b f1 /\ models b f2 /\ models b f3 /\ models b f4 /\ models b f5.
Proof. rewrite !models_app. reflexivity. Qed.

Lemma zseq_nth len : forall s k, (k < len)%nat -> nth k (zseq s len) 0 = s + Z.of_nat k.
Proof.
  induction len as [|len IH]; intros s k Hk; [lia|].
  destruct k as [|k]; [simpl; lia|].
  change (nth (S k) (zseq s (S len)) 0) with (nth k (zseq (s + 1) len) 0).
  rewrite IH by lia. lia.
Qed.

Lemma zrange0_length n : 0 <= n -> length (zrange 0 (n - 1)) = Z.to_nat n.
Proof. intros H. unfold zrange. rewrite zseq_length. f_equal. lia. Qed.

Lemma zrange0_nth n k : (k < Z.to_nat n)%nat -> nth k (zrange 0 (n - 1)) 0 = Z.of_nat k.
Proof. intros H. unfold zrange. rewrite zseq_nth by lia. lia. Qed.

Lemma bv_dummy b : bv b dummy_var = 0.
Proof. reflexivity. Qed.

Lemma nth_map_bv b vs i : nth i (map (bv b) vs) 0 = bv b (nth i vs dummy_var).
Proof. rewrite <- (bv_dummy b). apply map_nth. Qed.

(* the lower bound of the position variable of node i (mkp_* are the lemmas about mk_positions) *)
Definition lbp (i : Z) : Z := if i =? 0 then 0 else 1.

Lemma mkp_cons n cnt i tl :
  mk_positions n cnt (i :: tl) =
    (mk_aux cnt (lbp i) (n - 1) :: fst (fst (mk_positions n (cnt + aux_size (lbp i) (n - 1)) tl)),
     exactly_one (lits_of (mk_aux cnt (lbp i) (n - 1))) ++ snd (fst (mk_positions n (cnt + aux_size (lbp i) (n - 1)) tl)),
     snd (mk_positions n (cnt + aux_size (lbp i) (n - 1)) tl)).
Proof.
  change (mk_positions n cnt (i :: tl)) with
    (let '(v, eo, c1) := create_int_var cnt (lbp i) (n - 1) in
     let '(vs, cl, c2) := mk_positions n c1 tl in (v :: vs, eo ++ cl, c2)).
  unfold create_int_var. cbv zeta.
  destruct (mk_positions n (cnt + aux_size (lbp i) (n - 1)) tl) as [[vs cl] c2]. reflexivity.
Qed.

Lemma mkp_counter n is : forall cnt, cnt <= snd (mk_positions n cnt is).
Proof.
  induction is as [|i tl IH]; intros cnt; [simpl; lia|].
  rewrite mkp_cons. cbn [snd]. pose proof (IH (cnt + aux_size (lbp i) (n - 1))) as H1.
  pose proof (aux_size_nonneg (lbp i) (n - 1)) as H2. lia.
Qed.

Lemma mkp_length n is : forall cnt, length (fst (fst (mk_positions n cnt is))) = length is.
Proof.
  induction is as [|i tl IH]; intros cnt; [reflexivity|].
  rewrite mkp_cons. cbn [fst snd length]. rewrite IH. reflexivity.
Qed.

Lemma mkp_eos n is : forall cnt,
  snd (fst (mk_positions n cnt is)) = enc_vars (fst (fst (mk_positions n cnt is))).
Proof.
  induction is as [|i tl IH]; intros cnt; [reflexivity|].
  rewrite mkp_cons. cbn [fst snd]. rewrite IH. reflexivity.
Qed.

Lemma mkp_nth n is : forall cnt k, (k < length is)%nat ->
  cnt <= vbase (nth k (fst (fst (mk_positions n cnt is))) dummy_var)
  /\ var_below (snd (mk_positions n cnt is)) (nth k (fst (fst (mk_positions n cnt is))) dummy_var)
  /\ vlb (nth k (fst (fst (mk_positions n cnt is))) dummy_var) = lbp (nth k is 0)
  /\ vub (nth k (fst (fst (mk_positions n cnt is))) dummy_var) = n - 1.
Proof.
  induction is as [|i tl IH]; intros cnt k Hk; [simpl in Hk; lia|].
  rewrite mkp_cons. cbn [fst snd]. pose proof (aux_size_nonneg (lbp i) (n - 1)) as Hs.
  destruct k as [|k]; cbn [nth].
  - split; [simpl; lia|]. split; [|split; reflexivity].
    apply (var_below_mono (cnt + aux_size (lbp i) (n - 1))); [apply mkp_counter|apply aux_below].
  - simpl in Hk. destruct (IH (cnt + aux_size (lbp i) (n - 1)) k) as (H1 & H2 & H3 & H4); [lia|].
    split; [lia|]. split; [exact H2|]. split; assumption.
Qed.

(* the witness for completeness: give the k-th position variable the value pos (k-th index) *)
Lemma mkp_complete (pos : Z -> Z) n is : (forall i, In i is -> lbp i <= pos i <= n - 1) ->
  forall cnt b, 0 < cnt ->
  exists b', agree_below cnt b b'
    /\ forall k, (k < length is)%nat ->
         VOK b' (nth k (fst (fst (mk_positions n cnt is))) dummy_var)
         /\ bv b' (nth k (fst (fst (mk_positions n cnt is))) dummy_var) = pos (nth k is 0).
Proof.
  induction is as [|i tl IH]; intros Hpos cnt b Hc.
  - exists b. split; [apply agree_below_refl|]. intros k Hk. simpl in Hk. lia.
  - rewrite mkp_cons. cbn [fst snd]. pose proof (aux_size_nonneg (lbp i) (n - 1)) as Hs.
    set (v := mk_aux cnt (lbp i) (n - 1)). set (c1 := cnt + aux_size (lbp i) (n - 1)) in *.
    assert (Hq : vlb v <= pos i <= vub v) by (simpl; apply Hpos; left; reflexivity).
    destruct (set_var_EO b v (pos i) Hq) as [He Hb].
    assert (Hpos' : forall j, In j tl -> lbp j <= pos j <= n - 1) by (intros j Hj; apply Hpos; right; exact Hj).
    assert (Hc1 : 0 < c1) by lia.
    destruct (IH Hpos' c1 (set_var b v (pos i)) Hc1) as [b' [Hag Hk']].
    assert (Hvb : var_below c1 v) by apply aux_below.
    exists b'. split.
    + apply (agree_below_trans cnt c1 b (set_var b v (pos i)) b'); [lia| |exact Hag].
      exact (set_var_agree b v (pos i)).
    + intros k Hk. destruct k as [|k]; cbn [nth].
      * split.
        -- apply (VOK_agree c1 (set_var b v (pos i)) b' v Hvb Hag). split; [exact Hc|exact He].
        -- rewrite (bv_agree c1 (set_var b v (pos i)) b' v Hc Hvb Hag He). exact Hb.
      * apply Hk'. simpl in Hk. lia.
Qed.

Lemma pos_vars_length n cnt : 0 <= n -> length (pos_vars n cnt) = Z.to_nat n.
Proof. intros H. unfold pos_vars, circ_pos. rewrite mkp_length. apply zrange0_length. exact H. Qed.

Lemma pos_vars_nth n cnt k : (k < Z.to_nat n)%nat ->
  cnt <= vbase (nth k (pos_vars n cnt) dummy_var)
  /\ var_below (pos_cnt n cnt) (nth k (pos_vars n cnt) dummy_var)
  /\ vlb (nth k (pos_vars n cnt) dummy_var) = lbp (Z.of_nat k)
  /\ vub (nth k (pos_vars n cnt) dummy_var) = n - 1.
Proof.
  intros Hk. unfold pos_vars, pos_cnt, circ_pos.
  assert (Hl : (k < length (zrange 0 (n - 1)))%nat) by (rewrite zrange0_length by lia; exact Hk).
  destruct (mkp_nth n (zrange 0 (n - 1)) cnt k Hl) as (H1 & H2 & H3 & H4).
  rewrite zrange0_nth in H3 by exact Hk. auto.
Qed.

Lemma pos_cnt_ge n cnt : cnt <= pos_cnt n cnt.
Proof. apply mkp_counter. Qed.

Lemma pos_vars_dom n cnt k : 2 <= n -> (k < Z.to_nat n)%nat ->
  0 <= vlb (nth k (pos_vars n cnt) dummy_var) <= vub (nth k (pos_vars n cnt) dummy_var)
  /\ vub (nth k (pos_vars n cnt) dummy_var) = n - 1.
Proof.
  intros Hn Hk. destruct (pos_vars_nth n cnt k Hk) as (_ & _ & H3 & H4).
  rewrite H3, H4. unfold lbp. destruct (Z.of_nat k =? 0); lia.
Qed.

Lemma pos_eos_ok b n cnt : 0 < cnt -> 2 <= n ->
  (models b (pos_eos n cnt) <-> forall k, (k < Z.to_nat n)%nat -> VOK b (nth k (pos_vars n cnt) dummy_var)).
Proof.
  intros Hc Hn. unfold pos_eos, circ_pos. rewrite mkp_eos. fold (circ_pos n cnt). fold (pos_vars n cnt).
  rewrite enc_vars_models.
  - split.
    + intros H k Hk. split; [pose proof (pos_vars_nth n cnt k Hk); lia|].
      apply H. apply nth_In. rewrite pos_vars_length by lia. exact Hk.
    + intros H v Hv. destruct (In_nth _ _ dummy_var Hv) as [k [Hk <-]].
      rewrite pos_vars_length in Hk by lia. apply (H k Hk).
  - intros v Hv. destruct (In_nth _ _ dummy_var Hv) as [k [Hk <-]]. rewrite pos_vars_length in Hk by lia.
    pose proof (pos_vars_nth n cnt k Hk). pose proof (pos_vars_dom n cnt k Hn Hk). split; lia.
Qed.

Lemma pos_vars_complete b n cnt (pos : Z -> Z) : 2 <= n -> 0 < cnt ->
  pos 0 = 0 -> (forall j, 1 <= j < n -> 1 <= pos j <= n - 1) ->
  exists b1, agree_below cnt b b1
    /\ forall b', agree_below (pos_cnt n cnt) b1 b' -> forall k, (k < Z.to_nat n)%nat ->
         VOK b' (nth k (pos_vars n cnt) dummy_var) /\ bv b' (nth k (pos_vars n cnt) dummy_var) = pos (Z.of_nat k).
Proof.
  intros Hn Hc P0 P1.
  assert (Hdom : forall i, In i (zrange 0 (n - 1)) -> lbp i <= pos i <= n - 1).
  { intros i Hi. apply zrange_In in Hi. unfold lbp. destruct (i =? 0) eqn:E.
    - apply Z.eqb_eq in E. subst i. rewrite P0. lia.
    - apply Z.eqb_neq in E. apply P1. lia. }
  destruct (mkp_complete pos n (zrange 0 (n - 1)) Hdom cnt b Hc) as [b1 [Hag1 Hk]].
  change (fst (fst (mk_positions n cnt (zrange 0 (n - 1))))) with (pos_vars n cnt) in Hk.
  rewrite zrange0_length in Hk by lia.
  exists b1. split; [exact Hag1|]. intros b' Ha' k Hk1. destruct (Hk k Hk1) as [[Hb He] H6].
  rewrite zrange0_nth in H6 by exact Hk1. destruct (pos_vars_nth n cnt k Hk1) as (_ & Hbel & _).
  split; [exact (VOK_agree _ b1 b' _ Hbel Ha' (conj Hb He))|]. rewrite (bv_agree _ b1 b' _ Hb Hbel Ha' He). exact H6.
Qed.

Lemma rng_cl_ok b n i v : VOK b v -> (models b (rng_cl n i v) <-> 0 <= bv b v < n /\ bv b v <> i).
Proof.
  intros Hv. etransitivity; [apply (unit_forbid_ok b v _ Hv)|]. split.
  - intros H. apply orb_false_iff in H. destruct H as [H1 H2]. apply Z.eqb_neq in H1.
    apply negb_false_iff, andb_true_iff in H2. destruct H2 as [H2 H3].
    apply Z.leb_le in H2. apply Z.ltb_lt in H3. auto.
  - intros [[H1 H2] H3]. apply orb_false_iff. split; [apply Z.eqb_neq; exact H3|].
    apply negb_false_iff, andb_true_iff. split; [apply Z.leb_le; exact H1|apply Z.ltb_lt; exact H2].
Qed.

Lemma circ_rng_ok b n vs : (forall v, In v vs -> VOK b v) ->
  (models b (circ_rng n vs)
   <-> forall i, (i < length vs)%nat ->
         0 <= bv b (nth i vs dummy_var) < n /\ bv b (nth i vs dummy_var) <> Z.of_nat i).
Proof.
  intros Hok. unfold circ_rng. rewrite models_indexed.
  split; intros H i Hi; (apply rng_cl_ok; [apply Hok, nth_In, Hi|apply H, Hi]).
Qed.

Lemma arc_cl_ok b l ti tj : 0 < l -> VOK b ti -> VOK b tj ->
  (models b (arc_cl l ti tj) <-> (b l = true -> bv b ti < bv b tj)).
Proof.
  intros Hl Hi Hj. pose proof (VOK_dom b ti Hi) as Hdi. pose proof (VOK_dom b tj Hj) as Hdj.
  unfold arc_cl. rewrite models_flat_map. split.
  - intros H Bl.
    specialize (H (bv b ti, vlit ti (bv b ti)) (proj2 (bool_vars_In _ _ _) (conj Hdi eq_refl))).
    rewrite models_flat_map in H.
    specialize (H (bv b tj, vlit tj (bv b tj)) (proj2 (bool_vars_In _ _ _) (conj Hdj eq_refl))).
    cbn [fst snd] in H. destruct (bv b tj <=? bv b ti) eqn:L; [|apply Z.leb_gt in L; exact L].
    specialize (H _ (or_introl eq_refl)). cbn [clause_true existsb] in H.
    rewrite (lit_true_neg b l Hl), Bl, !nlit_true, !Z.eqb_refl in H by assumption. discriminate.
  - intros H [x1 l1] H1. apply bool_vars_In in H1. destruct H1 as [H1 ->].
    rewrite models_flat_map. intros [x2 l2] H2. apply bool_vars_In in H2. destruct H2 as [H2 ->].
    cbn [fst snd]. destruct (x2 <=? x1) eqn:L; [|intros ? []]. apply Z.leb_le in L.
    intros ? [<-|[]]. cbn [clause_true existsb]. rewrite (lit_true_neg b l Hl), !nlit_true by assumption.
    destruct (b l) eqn:Bl; [|reflexivity].
    destruct (x1 =? bv b ti) eqn:F1; [|reflexivity]. destruct (x2 =? bv b tj) eqn:F2; [|reflexivity].
    exfalso. apply Z.eqb_eq in F1. apply Z.eqb_eq in F2. specialize (H eq_refl). lia.
Qed.

(* j ranges over the possible successors 1..n-1 of node i; the arc literal is true for j = the value of v only *)
Lemma ord_cl_ok b n T i v : VOK b v ->
  (forall j, 0 <= j <= n - 1 -> VOK b (nth (Z.to_nat j) T dummy_var)) -> 0 <= i <= n - 1 ->
  (models b (ord_cl n T i v)
   <-> (1 <= bv b v <= n - 1 -> bv b v <> i ->
        bv b (nth (Z.to_nat i) T dummy_var) < bv b (nth (Z.to_nat (bv b v)) T dummy_var))).
Proof.
  intros [Hb He] HT Hi. pose proof (EO_bv_dom b v He) as Hd. unfold ord_cl. rewrite models_flat_map. split.
  - intros H Hj Hne. specialize (H (bv b v) (proj2 (zrange_In _ _ _) Hj)).
    rewrite (proj2 (Z.eqb_neq _ _) Hne), (proj2 (in_dom_iff _ _) Hd) in H. cbn [negb andb] in H.
    assert (Hl : 0 < vlit v (bv b v)) by (apply vlit_pos; lia). assert (Hj' : 0 <= bv b v <= n - 1) by lia.
    apply (proj1 (arc_cl_ok b _ _ _ Hl (HT i Hi) (HT _ Hj')) H).
    rewrite (EO_lit_b b v _ He Hd). apply Z.eqb_refl.
  - intros H j Hj. apply zrange_In in Hj.
    destruct (negb (j =? i) && in_dom v j) eqn:C; [|apply models_nil; exact I].
    apply andb_true_iff in C. destruct C as [C1 C2]. apply negb_true_iff, Z.eqb_neq in C1.
    apply in_dom_iff in C2.
    apply arc_cl_ok; [apply vlit_pos; lia|apply HT; lia|apply HT; lia|].
    rewrite (EO_lit_b b v j He C2). intros F. apply Z.eqb_eq in F. subst j. apply H; assumption.
Qed.

Lemma circ_ord_ok b n vs T : n = Z.of_nat (length vs) -> (forall v, In v vs -> VOK b v) ->
  (forall k, (k < length vs)%nat -> VOK b (nth k T dummy_var)) ->
  (models b (circ_ord n vs T)
   <-> forall i, (i < length vs)%nat ->
         1 <= bv b (nth i vs dummy_var) <= n - 1 -> bv b (nth i vs dummy_var) <> Z.of_nat i ->
         bv b (nth i T dummy_var) < bv b (nth (Z.to_nat (bv b (nth i vs dummy_var))) T dummy_var)).
Proof.
  intros Hn Hok Hpos. unfold circ_ord. rewrite models_indexed.
  assert (HT : forall j, 0 <= j <= n - 1 -> VOK b (nth (Z.to_nat j) T dummy_var))
    by (intros j Hj; apply Hpos; lia).
  split; intros H i Hi;
    pose proof (ord_cl_ok b n T (Z.of_nat i) _ (Hok _ (nth_In vs dummy_var Hi)) HT ltac:(lia)) as G;
    rewrite Nat2Z.id in G; apply G, H, Hi.
Qed.

Lemma pos0_clause n cnt : 2 <= n ->
  [[vlit (nth 0 (pos_vars n cnt) dummy_var) 0]] = enc_eq_const (nth 0 (pos_vars n cnt) dummy_var) 0.
Proof.
  intros Hn. unfold enc_eq_const. destruct (pos_vars_nth n cnt 0%nat) as (_ & _ & H3 & H4); [lia|].
  rewrite (proj2 (in_dom_iff _ 0)); [reflexivity|]. rewrite H3, H4. change (lbp (Z.of_nat 0)) with 0. lia.
Qed.

Lemma circ_big_ok b cnt n vs : n = Z.of_nat (length vs) -> 2 <= n -> 0 < cnt -> (forall v, In v vs -> VOK b v) ->
  (models b (circ_big cnt n vs) <->
   NoDup (map (bv b) vs)
   /\ (forall i, (i < length vs)%nat ->
         0 <= bv b (nth i vs dummy_var) < n /\ bv b (nth i vs dummy_var) <> Z.of_nat i)
   /\ (forall k, (k < length vs)%nat -> VOK b (nth k (pos_vars n cnt) dummy_var))
   /\ bv b (nth 0 (pos_vars n cnt) dummy_var) = 0
   /\ (forall i, (i < length vs)%nat ->
         1 <= bv b (nth i vs dummy_var) <= n - 1 -> bv b (nth i vs dummy_var) <> Z.of_nat i ->
         bv b (nth i (pos_vars n cnt) dummy_var)
         < bv b (nth (Z.to_nat (bv b (nth i vs dummy_var))) (pos_vars n cnt) dummy_var))).
Proof.
  intros Hn H2 Hc Hok. unfold circ_big. rewrite (pos0_clause n cnt H2).
  pose proof (pos_eos_ok b n cnt Hc H2) as Cok. replace (Z.to_nat n) with (length vs) in Cok by lia.
  assert (H0 : (0 < length vs)%nat) by lia.
  etransitivity; [apply models_app5|].
  (* the last two clause groups are read under the third: the position variables have values *)
  split; intros (A & B & C0 & D & E).
  - pose proof (proj1 Cok C0) as C. split; [apply (enc_all_different_ok b vs Hok); exact A|].
    split; [apply (circ_rng_ok b n vs Hok); exact B|]. split; [exact C|].
    split; [apply (enc_eq_const_ok b _ 0 (C 0%nat H0)); exact D|apply (circ_ord_ok b n vs _ Hn Hok C); exact E].
  - split; [apply (enc_all_different_ok b vs Hok); exact A|].
    split; [apply (circ_rng_ok b n vs Hok); exact B|]. split; [apply Cok; exact C0|].
    split; [apply (enc_eq_const_ok b _ 0 (C0 0%nat H0)); exact D|apply (circ_ord_ok b n vs _ Hn Hok C0); exact E].
Qed.

Lemma enc_circuit_counter n vs : n <= snd (enc_circuit n vs).
Proof.
  destruct vs as [|v [|w tl]].
  - simpl. lia.
  - rewrite enc_circuit_one. simpl. lia.
  - rewrite enc_circuit_big by (simpl; lia). cbn [snd]. apply pos_cnt_ge.
Qed.
