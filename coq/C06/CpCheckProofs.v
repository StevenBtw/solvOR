(* C06 - soundness of the Gallina model counter CpCheck.cnf_projection_ok.
   "Nothing extra": if the check accepts a clause list f for the CP model M, then EVERY assignment satisfying f
   gives each variable of M exactly one value of its domain and these values satisfy every constraint of M
   (holdsb), i.e. they are one of the brute-force CP solutions.  (The enumeration `enum` is complete.)
   "Nothing missing": every CP solution of M is the projection (on the named variables) of some assignment
   satisfying f, in which every variable of M has exactly one value.  (Every leaf of `enum` is a model; holdsb
   only reads the model's variables.) *)
From Coq Require Import List ZArith Bool Lia.
From SV Require Import C06.CpAst C06.CpAstProofs C06.CpEnc C06.CpCheck C06.EncBasics C06.EncFrame C06.EncModel.
Import ListNotations.
Open Scope Z_scope.

Definition lit_var_in (lo hi : Z) (c : clause) : Prop := forall l, In l c -> lo <= Z.abs l < hi.

(* simp_clause / assign. Under any b that gives v the value bval: a clause is either found satisfied, or what is
   left of it has the same truth value and mentions v no more; a clause list either loses a clause completely
   (no model) or keeps exactly its models. *)
Lemma simp_clause_spec b v bval c : 0 < v -> b v = bval ->
  match simp_clause v bval c with
  | None => clause_true b c = true
  | Some c' => clause_true b c' = clause_true b c /\ forall l, In l c' -> In l c /\ Z.abs l <> v
  end.
Proof.
  intros Hv Hb.
  assert (Hsat : forall l, l = (if bval then v else - v) -> lit_true b l = true)
    by (intros l ->; destruct bval; rewrite ?lit_true_pos, ?lit_true_neg, Hb by exact Hv; reflexivity).
  assert (Hfal : forall l, l = (if bval then - v else v) -> lit_true b l = false)
    by (intros l ->; destruct bval; rewrite ?lit_true_pos, ?lit_true_neg, Hb by exact Hv; reflexivity).
  unfold clause_true. induction c as [|l tl IH]; simpl.
  - split; [reflexivity|intros l []].
  - destruct (Z.eqb_spec l (if bval then v else - v)) as [E1|N1]; [rewrite (Hsat l E1); reflexivity|].
    destruct (simp_clause v bval tl) as [tl'|]; [|rewrite IH; apply orb_true_r].
    destruct IH as [IH1 IH2].
    destruct (Z.eqb_spec l (if bval then - v else v)) as [E2|N2]; simpl.
    + rewrite (Hfal l E2). split; [exact IH1|]. intros x Hx. split; [right|]; apply (IH2 x Hx).
    + rewrite IH1. split; [reflexivity|].
      intros x [<-|Hx]; [split; [left; reflexivity|destruct bval; lia]|].
      split; [right|]; apply (IH2 x Hx).
Qed.

Lemma assign_spec b v bval f : 0 < v -> b v = bval ->
  match assign v bval f with
  | None => ~ models b f
  | Some f' => (models b f' <-> models b f)
               /\ forall c', In c' f' -> exists c, In c f /\ forall l, In l c' -> In l c /\ Z.abs l <> v
  end.
Proof.
  intros Hv Hb. induction f as [|c tl IH]; simpl.
  - split; [reflexivity|intros c' []].
  - pose proof (simp_clause_spec b v bval c Hv Hb) as S.
    assert (Hsub : forall tl', (forall c', In c' tl' -> exists c0, In c0 tl /\ forall l, In l c' -> In l c0 /\ Z.abs l <> v) ->
              forall c', In c' tl' -> exists c0, In c0 (c :: tl) /\ forall l, In l c' -> In l c0 /\ Z.abs l <> v).
    { intros tl' H c' Hc'. destruct (H c' Hc') as [c0 [A B]]. exists c0. split; [right; exact A|exact B]. }
    destruct (simp_clause v bval c) as [[|x c'']|].
    + destruct S as [S _]. rewrite models_cons, <- S. intros [H _]. discriminate.
    + destruct S as [S1 S2]. destruct (assign v bval tl) as [tl'|]; [|rewrite models_cons; tauto].
      destruct IH as [IH1 IH2]. rewrite !models_cons, S1, IH1. split; [reflexivity|].
      intros c' [<-|Hc']; [exists c; split; [left; reflexivity|exact S2]|apply (Hsub tl' IH2 c' Hc')].
    + destruct (assign v bval tl) as [tl'|]; [|rewrite models_cons; tauto].
      destruct IH as [IH1 IH2]. rewrite models_cons, IH1. split; [tauto|apply (Hsub tl' IH2)].
Qed.

Lemma enum_complete b : forall k v f trues, 0 < v ->
  (forall c, In c f -> lit_var_in v (v + Z.of_nat k) c) -> models b f ->
  exists m, In m (enum k v f trues)
            /\ forall l, In l m <-> In l trues \/ (v <= l < v + Z.of_nat k /\ b l = true).
Proof.
  induction k as [|k IH]; intros v f trues Hv Hr Hm.
  - simpl. destruct f as [|c tl].
    + exists trues. split; [left; reflexivity|]. intros l. split; [auto|intros [H|[H _]]; [exact H|lia]].
    + exfalso. specialize (Hm c (or_introl eq_refl)). destruct c as [|l c']; [discriminate|].
      specialize (Hr (l :: c') (or_introl eq_refl) l (or_introl eq_refl)). lia.
  - pose proof (assign_spec b v (b v) f Hv eq_refl) as S.
    destruct (assign v (b v) f) as [f'|] eqn:E; [|contradiction]. destruct S as [S Hsub]. apply S in Hm.
    assert (Hr' : forall c, In c f' -> lit_var_in (v + 1) (v + 1 + Z.of_nat k) c).
    { intros c' Hc' l Hl. destruct (Hsub c' Hc') as [c [Hc Hl']]. destruct (Hl' l Hl) as [A B].
      specialize (Hr c Hc l A). lia. }
    cbn [enum]. destruct (b v) eqn:Ebv.
    + rewrite E. destruct (IH (v + 1) f' (v :: trues) ltac:(lia) Hr' Hm) as [m [Hin Hchar]].
      exists m. split; [apply in_or_app; right; exact Hin|].
      intros l. rewrite Hchar. simpl. split.
      * intros [[<-|H]|[H1 H2]]; [right; split; [lia|exact Ebv]|left; exact H|right; split; [lia|exact H2]].
      * intros [H|[H1 H2]]; [left; right; exact H|].
        destruct (Z.eq_dec l v) as [->|Hne]; [left; left; reflexivity|right; split; [lia|exact H2]].
    + rewrite E. destruct (IH (v + 1) f' trues ltac:(lia) Hr' Hm) as [m [Hin Hchar]].
      exists m. split; [apply in_or_app; left; exact Hin|].
      intros l. rewrite Hchar. split.
      * intros [H|[H1 H2]]; [left; exact H|right; split; [lia|exact H2]].
      * intros [H|[H1 H2]]; [left; exact H|].
        destruct (Z.eq_dec l v) as [->|Hne]; [congruence|right; split; [lia|exact H2]].
Qed.

Lemma max_lit_ge f c l : In c f -> In l c -> Z.abs l <= max_lit f.
Proof.
  unfold max_lit. induction f as [|d tl IH]; intros Hc Hl; [destruct Hc|]. simpl.
  assert (Hmono : forall (cl : clause) a, a <= fold_right (fun l0 a' => Z.max (Z.abs l0) a') a cl).
  { induction cl as [|x xs IHx]; intros a; simpl; [lia|]. specialize (IHx a). lia. }
  destruct Hc as [->|Hc].
  - clear IH. induction c as [|x xs IHx]; [destruct Hl|]. simpl. destruct Hl as [->|Hl]; [lia|].
    specialize (IHx Hl). lia.
  - specialize (IH Hc Hl). specialize (Hmono d (fold_right (fun c0 a => fold_right (fun l0 a' => Z.max (Z.abs l0) a') a c0) 0 tl)). lia.
Qed.

Lemma decode_all_spec trues vs xs : decode_all trues vs = Some xs ->
  Forall2 (fun v x => true_vals trues v = [x]) vs xs.
Proof.
  revert xs. induction vs as [|v tl IH]; intros xs H; simpl in H.
  - inversion H. constructor.
  - destruct (true_vals trues v) as [|x [|y r]] eqn:T; try discriminate.
    destruct (decode_all trues tl) as [xs'|] eqn:D; [|discriminate]. inversion H; subst.
    constructor; [exact T|apply IH; reflexivity].
Qed.

Lemma box_In vs xs : Forall2 (fun v x => In x (vdom v)) vs xs -> In xs (box vs).
Proof.
  induction 1 as [|v x vs' xs' Hx H IH]; simpl; [left; reflexivity|].
  apply in_flat_map. exists x. split; [exact Hx|]. apply in_map. exact IH.
Qed.

Theorem cnf_projection_ok_no_extra M f b :
  wf_model M = true -> cnf_projection_ok M (Some f) = true -> models b f ->
  exists xs,
    Forall2 (fun v x => filter (fun y => b (vlit v y)) (vdom v) = [x]) (m_vars M) xs
    /\ forallb (holdsb (asgn_of (m_vars M) xs)) (m_cons M) = true
    /\ In xs (cp_solutions M).
Proof.
  intros Hwf Hok Hm. pose proof (wf_model_props M Hwf) as W.
  unfold cnf_projection_ok in Hok. rewrite !andb_true_iff in Hok. destruct Hok as [[Hnz Hdec] _].
  set (nv := Z.max (max_lit f) (m_next M - 1)) in *.
  assert (Hne : has_empty f = false).
  { destruct (has_empty f) eqn:E; [|reflexivity]. unfold has_empty in E. apply existsb_exists in E.
    destruct E as [c [Hc Hc']]. destruct c; [|discriminate]. specialize (Hm [] Hc). discriminate. }
  assert (Hr : forall c, In c f -> lit_var_in 1 (1 + Z.of_nat (Z.to_nat nv)) c).
  { intros c Hc l Hl. pose proof (max_lit_ge f c l Hc Hl) as Hle.
    rewrite forallb_forall in Hnz. specialize (Hnz c Hc). rewrite forallb_forall in Hnz. specialize (Hnz l Hl).
    apply negb_true_iff in Hnz. apply Z.eqb_neq in Hnz. unfold nv. lia. }
  destruct (enum_complete b (Z.to_nat nv) 1 f [] ltac:(lia) Hr Hm) as [m [Hin Hchar]].
  assert (Hall : In m (all_models nv f)) by (unfold all_models; rewrite Hne; exact Hin).
  rewrite forallb_forall in Hdec.
  specialize (Hdec (decode_all m (m_vars M)) (in_map _ _ _ Hall)).
  destruct (decode_all m (m_vars M)) as [xs|] eqn:D; [|discriminate].
  apply andb_true_iff in Hdec. destruct Hdec as [Hh _].
  exists xs.
  assert (HF : Forall2 (fun v x => filter (fun y => b (vlit v y)) (vdom v) = [x]) (m_vars M) xs).
  { pose proof (decode_all_spec m (m_vars M) xs D) as HF0.
    assert (Hvars : forall v, In v (m_vars M) -> true_vals m v = filter (fun y => b (vlit v y)) (vdom v)).
    { intros v Hv. unfold true_vals. apply filter_ext_in. intros y Hy. apply vdom_In in Hy.
      destruct (wf_vars M W v Hv) as [A [B C]]. unfold var_below in C.
      assert (Hl : 1 <= vlit v y < 1 + Z.of_nat (Z.to_nat nv)) by (unfold vlit, nv; lia).
      destruct (b (vlit v y)) eqn:Eb.
      - apply zmem_spec. apply Hchar. right. split; [exact Hl|exact Eb].
      - destruct (zmem (vlit v y) m) eqn:Ez; [|reflexivity]. apply zmem_spec in Ez. apply Hchar in Ez.
        destruct Ez as [[]|[_ Ez]]. congruence. }
    clear - HF0 Hvars. induction HF0 as [|v x vs xs' Hx H IH]; constructor.
    - rewrite <- Hvars by (left; reflexivity). exact Hx.
    - apply IH. intros w Hw. apply Hvars. right. exact Hw. }
  split; [exact HF|]. split; [exact Hh|].
  unfold cp_solutions. apply filter_In. split; [|exact Hh].
  apply box_In. clear - HF. induction HF as [|v x vs xs' Hx H IH]; constructor; [|exact IH].
  assert (Hi : In x (filter (fun y => b (vlit v y)) (vdom v))) by (rewrite Hx; left; reflexivity).
  apply filter_In in Hi. apply Hi.
Qed.

Lemma enum_sound : forall k v f trues m, 0 < v -> In m (enum k v f trues) ->
  incl trues m /\ (forall l, In l m -> In l trues \/ v <= l < v + Z.of_nat k)
  /\ forall b, (forall l, In l trues -> l < v) -> (forall l, v <= l < v + Z.of_nat k -> b l = zmem l m) -> models b f.
Proof.
  induction k as [|k IH]; intros v f trues m Hv Hin.
  - simpl in Hin. destruct f as [|c tl]; [|destruct Hin]. destruct Hin as [<-|[]].
    split; [apply incl_refl|]. split; [intros l Hl; left; exact Hl|]. intros b _ _ c [].
  - cbn [enum] in Hin. apply in_app_or in Hin. destruct Hin as [Hin|Hin].
    + destruct (assign v false f) as [f'|] eqn:A; [|destruct Hin].
      destruct (IH (v + 1) f' trues m ltac:(lia) Hin) as [I1 [I2 I3]].
      split; [exact I1|]. split; [intros l Hl; destruct (I2 l Hl) as [H|H]; [left; exact H|right; lia]|].
      intros b Ht Hb. assert (Hbv : b v = false).
      { rewrite Hb by lia. destruct (zmem v m) eqn:Z; [|reflexivity]. apply zmem_spec in Z.
        destruct (I2 v Z) as [H|H]; [specialize (Ht v H); lia|lia]. }
      pose proof (assign_spec b v false f Hv Hbv) as S. rewrite A in S. apply S.
      apply I3; [intros l Hl; specialize (Ht l Hl); lia|intros l Hl; apply Hb; lia].
    + destruct (assign v true f) as [f'|] eqn:A; [|destruct Hin].
      destruct (IH (v + 1) f' (v :: trues) m ltac:(lia) Hin) as [I1 [I2 I3]].
      split; [intros l Hl; apply I1; right; exact Hl|].
      split; [intros l Hl; destruct (I2 l Hl) as [[<-|H]|H]; [right; lia|left; exact H|right; lia]|].
      intros b Ht Hb. assert (Hbv : b v = true) by (rewrite Hb by lia; apply zmem_spec, I1; left; reflexivity).
      pose proof (assign_spec b v true f Hv Hbv) as S. rewrite A in S. apply S.
      apply I3; [intros l [<-|Hl]; [lia|specialize (Ht l Hl); lia]|intros l Hl; apply Hb; lia].
Qed.

Lemma eval_ext s s' e : (forall v, In v (expr_vars e) -> aval s v = aval s' v) -> eval s e = eval s' e.
Proof.
  induction e as [v|k|a IHa c IHc|a IHa c IHc|a IHa c IHc|a IHa k]; intros H; simpl in *;
    try reflexivity.
  - apply H. left. reflexivity.
  - rewrite IHa, IHc; [reflexivity| |]; intros v Hv; apply H; apply in_or_app; auto.
  - rewrite IHa, IHc; [reflexivity| |]; intros v Hv; apply H; apply in_or_app; auto.
  - rewrite IHa, IHc; [reflexivity| |]; intros v Hv; apply H; apply in_or_app; auto.
  - rewrite IHa; [reflexivity|exact H].
Qed.

Lemma holdsb_ext s s' c : (forall v, In v (cons_vars c) -> aval s v = aval s' v) -> holdsb s c = holdsb s' c.
Proof.
  intros H. destruct c as [vs|v k|v k|v w|v w|l r ne|vs t|vs t|vs t|vs|ts|ts cap]; cbn [holdsb cons_vars] in *;
    try (unfold vals; rewrite (map_ext_in _ _ vs H); reflexivity).
  - rewrite H by (left; reflexivity). reflexivity.
  - rewrite H by (left; reflexivity). reflexivity.
  - rewrite !(H v), !(H w) by (simpl; auto). reflexivity.
  - rewrite !(H v), !(H w) by (simpl; auto). reflexivity.
  - rewrite (eval_ext s s' l), (eval_ext s s' r); [reflexivity| |]; intros v Hv; apply H; apply in_or_app; auto.
  - unfold task_vals. rewrite (map_ext_in _ (fun p => (aval s' (fst p), snd p)) ts); [reflexivity|].
    intros p Hp. rewrite H by (apply in_map, Hp). reflexivity.
  - unfold ctask_vals. rewrite (map_ext_in _ (fun p => (aval s' (fst (fst p)), snd (fst p), snd p)) ts); [reflexivity|].
    intros p Hp. rewrite H by (apply (in_map (fun q : var * Z * Z => fst (fst q))), Hp). reflexivity.
Qed.

Lemma asgn_of_map s vs v : NoDup (map vid vs) -> In v vs -> aval (asgn_of vs (map (aval s) vs)) v = aval s v.
Proof.
  induction vs as [|w tl IH]; intros Hnd Hin; [destruct Hin|]. simpl in *. unfold aval at 1. simpl.
  inversion Hnd as [|? ? Hn Hnd']; subst. destruct Hin as [->|Hin].
  - rewrite Nat.eqb_refl. reflexivity.
  - destruct (Nat.eqb (vid v) (vid w)) eqn:E.
    + apply Nat.eqb_eq in E. exfalso. apply Hn. rewrite <- E. apply in_map. exact Hin.
    + apply (IH Hnd' Hin).
Qed.

Lemma clause_eqb_eq a c : clause_eqb a c = true -> a = c.
Proof.
  revert c. induction a as [|x xs IH]; intros [|y ys] H; simpl in H; try discriminate; [reflexivity|].
  apply andb_true_iff in H. destruct H as [H1 H2]. apply Z.eqb_eq in H1. rewrite (IH ys H2). subst. reflexivity.
Qed.

Lemma named_only_agree (P : var -> Z -> Prop) vs : forall xs ys, Forall2 P vs xs -> length ys = length vs ->
  named_only vs xs = named_only vs ys ->
  forall i v, nth_error vs i = Some v -> vnamed v = true -> nth_error xs i = nth_error ys i.
Proof.
  induction vs as [|w tl IH]; intros xs ys HF Hlen Heq i v Hi Hn.
  - destruct i; discriminate.
  - inversion HF as [|? x ? xs' Hx HF']; subst. destruct ys as [|y ys']; [discriminate|].
    simpl in Heq. destruct i as [|i]; simpl in *.
    + inversion Hi; subst. rewrite Hn in Heq. inversion Heq. reflexivity.
    + destruct (vnamed w); [inversion Heq|]; apply (IH xs' ys' HF' ltac:(lia) ltac:(assumption) i v Hi Hn).
Qed.

Theorem cnf_projection_ok_no_missing M f s :
  wf_model M = true -> cnf_projection_ok M (Some f) = true -> cp_solution M s ->
  exists b xs,
    models b f
    /\ Forall2 (fun v x => filter (fun y => b (vlit v y)) (vdom v) = [x]) (m_vars M) xs
    /\ forall i v, nth_error (m_vars M) i = Some v -> vnamed v = true -> nth_error xs i = Some (aval s v).
Proof.
  intros Hwf Hok [Hdom Hh]. pose proof (wf_model_props M Hwf) as W.
  unfold cnf_projection_ok in Hok. rewrite !andb_true_iff in Hok. destruct Hok as [[_ _] Hmiss].
  set (nv := Z.max (max_lit f) (m_next M - 1)) in *.
  set (xs0 := map (aval s) (m_vars M)).
  assert (Hsol : In xs0 (cp_solutions M)).
  { unfold cp_solutions. apply filter_In. split.
    - apply box_In. unfold xs0. clear - Hdom. induction (m_vars M) as [|v tl IH]; simpl; constructor.
      + apply vdom_In. apply Hdom. left. reflexivity.
      + apply IH. intros w Hw. apply Hdom. right. exact Hw.
    - apply forallb_forall. intros c Hc.
      rewrite (holdsb_ext _ s c).
      + apply holdsb_spec. apply Hh. exact Hc.
      + intros v Hv. apply asgn_of_map; [apply (wf_ids M W)|apply (wf_cvars M W c Hc v Hv)]. }
  rewrite forallb_forall in Hmiss.
  specialize (Hmiss (named_only (m_vars M) xs0) (in_map _ _ _ Hsol)).
  apply existsb_exists in Hmiss. destruct Hmiss as [d [Hd Heq]].
  apply in_map_iff in Hd. destruct Hd as [m [<- Hm]].
  destruct (decode_all m (m_vars M)) as [xs|] eqn:D; [|discriminate]. apply clause_eqb_eq in Heq.
  unfold all_models in Hm. destruct (has_empty f); [destruct Hm|].
  destruct (enum_sound (Z.to_nat nv) 1 f [] m ltac:(lia) Hm) as [_ [_ Hmod]].
  exists (fun l => zmem l m), xs. split; [apply Hmod; [intros l []|reflexivity]|].
  pose proof (decode_all_spec m (m_vars M) xs D) as HF. split; [exact HF|].
  intros i v Hi Hn.
  rewrite (named_only_agree _ (m_vars M) xs xs0 HF ltac:(unfold xs0; apply map_length) Heq i v Hi Hn).
  unfold xs0. rewrite nth_error_map, Hi. reflexivity.
Qed.
