(* C06 - framing: an assignment is extended on fresh literals only, which keeps the values of the variables
   below the counter; completeness is stated in the form that survives such extensions (settled). *)
From Coq Require Import List ZArith Bool Lia.
From SV Require Import C06.CpAst C06.CpEnc C06.EncBasics C06.EncPairwise.
Import ListNotations.
Open Scope Z_scope.

(* b' differs from b on literals >= n only *)
Definition agree_below (n : Z) (b b' : asg) : Prop := forall l, l < n -> b' l = b l.
(* all literals of v are below n *)
Definition var_below (n : Z) (v : var) : Prop := vbase v + (vub v - vlb v) < n.

Lemma agree_below_refl n b : agree_below n b b.
Proof. intros l _. reflexivity. Qed.

Lemma agree_below_trans n m b1 b2 b3 : n <= m -> agree_below n b1 b2 -> agree_below m b2 b3 -> agree_below n b1 b3.
Proof. intros Hnm H12 H23 l Hl. rewrite H23 by lia. apply H12. exact Hl. Qed.

Lemma existsb_agree n (b b' : asg) ls : (forall l, In l ls -> l < n) -> agree_below n b b' ->
  existsb b' ls = existsb b ls.
Proof.
  intros H Ha. induction ls as [|a tl IH]; simpl; [reflexivity|].
  rewrite (Ha a) by (apply H; left; reflexivity).
  rewrite IH by (intros l Hl; apply H; right; exact Hl). reflexivity.
Qed.

Lemma hv_agree n b b' v x : 0 < vbase v -> var_below n v -> agree_below n b b' -> hv b' v x = hv b v x.
Proof.
  intros Hb Hv Ha. unfold hv. destruct (in_dom v x) eqn:D; [|reflexivity]. simpl.
  apply in_dom_iff in D. apply Ha. unfold var_below, vlit in *. lia.
Qed.

Lemma EO_agree n b b' v : 0 < vbase v -> var_below n v -> agree_below n b b' -> EO b v -> EO b' v.
Proof.
  intros Hb Hv Ha [x [Hx Hu]]. exists x. split.
  - rewrite (hv_agree n b b' v x Hb Hv Ha). exact Hx.
  - intros y Hy. apply Hu. rewrite <- (hv_agree n b b' v y Hb Hv Ha). exact Hy.
Qed.

Lemma bv_agree n b b' v : 0 < vbase v -> var_below n v -> agree_below n b b' -> EO b v -> bv b' v = bv b v.
Proof.
  intros Hb Hv Ha He. pose proof (EO_agree n b b' v Hb Hv Ha He) as He'.
  symmetry. apply (EO_hv b' v He'). rewrite (hv_agree n b b' v _ Hb Hv Ha).
  apply (EO_hv b v He). reflexivity.
Qed.

Lemma VOK_agree n b b' v : var_below n v -> agree_below n b b' -> VOK b v -> VOK b' v.
Proof. intros Hv Ha [Hb He]. split; [exact Hb|]. exact (EO_agree n b b' v Hb Hv Ha He). Qed.

Lemma var_below_mono n m v : n <= m -> var_below n v -> var_below m v.
Proof. unfold var_below. lia. Qed.

Lemma aux_size_nonneg lb ub : 0 <= aux_size lb ub.
Proof. unfold aux_size. lia. Qed.

Lemma aux_below n lb ub : var_below (n + aux_size lb ub) (mk_aux n lb ub).
Proof. unfold var_below, aux_size, mk_aux. simpl. lia. Qed.

(* f holds under b whatever is done to the literals from n on: the form of completeness that composes *)
Definition settled (n : Z) (b : asg) (f : cnf) : Prop := forall b', agree_below n b b' -> models b' f.

Lemma settled_models n b f : settled n b f -> models b f.
Proof. intros H. apply H, agree_below_refl. Qed.

Lemma settled_witness n m b f :
  (exists b', agree_below n b b' /\ settled m b' f) -> exists b', agree_below n b b' /\ models b' f.
Proof. intros [b' [Ha H]]. exists b'. split; [exact Ha|exact (settled_models m b' f H)]. Qed.

Lemma settled_app n b f g : settled n b (f ++ g) <-> settled n b f /\ settled n b g.
Proof.
  split.
  - intros H. split; intros b' Ha; apply (models_app b' f g), H, Ha.
  - intros [H1 H2] b' Ha. apply models_app. split; [apply H1|apply H2]; exact Ha.
Qed.

Lemma settled_later n m b b' f : n <= m -> agree_below n b b' -> settled n b f -> settled m b' f.
Proof. intros Hnm Ha H b'' Ha'. apply H. apply (agree_below_trans n m b b' b''); assumption. Qed.

(* overwrite the literals of an auxiliary variable so that it takes the value q *)
Definition set_var (b : asg) (v : var) (q : Z) : asg :=
  fun l => if (vbase v <=? l) && (l <=? vbase v + (vub v - vlb v)) then l =? vlit v q else b l.

Lemma set_var_agree b v q : agree_below (vbase v) b (set_var b v q).
Proof.
  intros l Hl. unfold set_var. destruct (vbase v <=? l) eqn:E; [apply Z.leb_le in E; lia|reflexivity].
Qed.

Lemma set_var_lit b v q x : vlb v <= x <= vub v -> set_var b v q (vlit v x) = (x =? q).
Proof.
  intros Hx. unfold set_var, vlit.
  replace ((vbase v <=? vbase v + (x - vlb v)) && (vbase v + (x - vlb v) <=? vbase v + (vub v - vlb v))) with true
    by (symmetry; apply andb_true_iff; split; apply Z.leb_le; lia).
  destruct (Z.eqb_spec x q) as [->|N]; [apply Z.eqb_refl|apply Z.eqb_neq; lia].
Qed.

Lemma set_var_EO b v q : vlb v <= q <= vub v -> EO (set_var b v q) v /\ bv (set_var b v q) v = q.
Proof.
  intros Hq.
  assert (Hh : forall y, hv (set_var b v q) v y = true <-> y = q).
  { intros y. rewrite hv_iff. split.
    - intros [Hy Hb]. rewrite set_var_lit in Hb by exact Hy. apply Z.eqb_eq, Hb.
    - intros ->. split; [exact Hq|]. rewrite set_var_lit by exact Hq. apply Z.eqb_refl. }
  assert (He : EO (set_var b v q) v) by (exists q; split; [apply Hh; reflexivity|apply Hh]).
  split; [exact He|]. symmetry. apply (EO_hv _ v He), Hh. reflexivity.
Qed.
