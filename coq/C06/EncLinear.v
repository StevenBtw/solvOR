(* C06 - linear ==/!= (_encode_ne_expr): value->literal maps, sorted sets, one folding step of the
   `while len(maps) > 2` loop; then the final comparison, the loop, the whole method on the terms of _linearize. *)
From Coq Require Import List ZArith Bool Lia.
From SV Require Import C06.CpAst C06.CpAstProofs C06.CpEnc C06.EncBasics C06.EncPairwise C06.EncFrame.
Import ListNotations.
Open Scope Z_scope.

(* the literals of a map are positive / positive and below n *)
Definition mpos (m : vmap) : Prop := forall k l, In (k, l) m -> 0 < l.
Definition mbelow (n : Z) (m : vmap) : Prop := forall k l, In (k, l) m -> 0 < l < n.
(* under b the map m denotes the integer q: q is a key, and a literal of m is true iff its key is q *)
Definition repr (b : asg) (m : vmap) (q : Z) : Prop :=
  In q (map fst m) /\ forall k l, In (k, l) m -> (b l = true <-> k = q).

Lemma mbelow_mpos n m : mbelow n m -> mpos m.
Proof. intros H k l Hkl. apply (H k l Hkl). Qed.

Lemma mbelow_mono n n' m : n <= n' -> mbelow n m -> mbelow n' m.
Proof. intros Hn H k l Hkl. specialize (H k l Hkl). lia. Qed.

Lemma mget_Some m k l : mget m k = Some l -> In (k, l) m.
Proof.
  induction m as [|[k' l'] tl IH]; simpl; [discriminate|].
  destruct (k' =? k) eqn:E.
  - intros H. inversion H; subst. apply Z.eqb_eq in E. subst. left. reflexivity.
  - intros H. right. apply IH. exact H.
Qed.

Lemma mget_None m k : mget m k = None -> ~ In k (map fst m).
Proof.
  induction m as [|[k' l'] tl IH]; simpl; [tauto|].
  destruct (k' =? k) eqn:E; [discriminate|].
  intros H [E'|Hin]; [apply Z.eqb_neq in E; contradiction|]. apply (IH H Hin).
Qed.

Lemma mget_In m k : In k (map fst m) -> exists l, mget m k = Some l.
Proof.
  intros H. destruct (mget m k) as [l|] eqn:E; [exists l; reflexivity|].
  exfalso. apply (mget_None m k E H).
Qed.

Lemma repr_get b m q : repr b m q -> exists l, mget m q = Some l /\ In (q, l) m /\ b l = true.
Proof.
  intros [Hin H]. destruct (mget_In m q Hin) as [l Hl]. exists l. split; [exact Hl|].
  pose proof (mget_Some m q l Hl) as Hm. split; [exact Hm|]. apply (H q l Hm). reflexivity.
Qed.

Lemma repr_mget b m q k : mpos m -> repr b m q ->
  match mget m k with Some l => 0 < l /\ (b l = true <-> k = q) | None => k <> q end.
Proof.
  intros Hp [Hq H]. destruct (mget m k) as [l|] eqn:G.
  - apply mget_Some in G. split; [apply (Hp k l G)|apply (H k l G)].
  - intros ->. apply (mget_None m q G Hq).
Qed.

Lemma repr_agree n b b' m q : mbelow n m -> agree_below n b b' -> repr b m q -> repr b' m q.
Proof.
  intros Hm Ha [Hin H]. split; [exact Hin|]. intros k l Hkl.
  rewrite (Ha l) by (specialize (Hm k l Hkl); lia). apply H. exact Hkl.
Qed.

Lemma term_map_In v c k l :
  In (k, l) (term_map (v, c)) <-> exists x, vlb v <= x <= vub v /\ k = c * x /\ l = vlit v x.
Proof.
  unfold term_map. simpl. rewrite in_map_iff. split.
  - intros [[x l'] [E Hp]]. simpl in E. inversion E; subst. apply bool_vars_In in Hp.
    destruct Hp as [Hx ->]. exists x. auto.
  - intros [x [Hx [-> ->]]]. exists (x, vlit v x). split; [reflexivity|]. apply bool_vars_In. auto.
Qed.

Lemma term_map_repr b v c : VOK b v -> c <> 0 -> repr b (term_map (v, c)) (c * bv b v).
Proof.
  intros [Hb He] Hc. pose proof (EO_bv_dom b v He) as Hd. split.
  - apply in_map_iff. exists (c * bv b v, vlit v (bv b v)). split; [reflexivity|].
    apply term_map_In. exists (bv b v). auto.
  - intros k l Hkl. apply term_map_In in Hkl. destruct Hkl as [x [Hx [-> ->]]].
    rewrite (EO_lit b v x He Hx). split; [intros ->; reflexivity|]. apply Z.mul_reg_l, Hc.
Qed.

Lemma term_map_below n v c : 0 < vbase v -> var_below n v -> mbelow n (term_map (v, c)).
Proof.
  intros Hb Hv k l Hkl. apply term_map_In in Hkl. destruct Hkl as [x [Hx [_ ->]]].
  unfold var_below, vlit in *. lia.
Qed.

Fixpoint ssorted (l : list Z) : Prop :=
  match l with [] => True | x :: tl => (forall y, In y tl -> x < y) /\ ssorted tl end.

Lemma zinsert_In x y l : In y (zinsert x l) <-> y = x \/ In y l.
Proof.
  induction l as [|z tl IH]; simpl; [intuition|].
  destruct (x <? z) eqn:E1; simpl; [intuition|].
  destruct (x =? z) eqn:E2; simpl.
  - apply Z.eqb_eq in E2. subst. intuition.
  - rewrite IH. intuition.
Qed.

Lemma zinsert_ssorted x l : ssorted l -> ssorted (zinsert x l).
Proof.
  induction l as [|z tl IH]; simpl; intros H; [split; [intros y []|exact I]|].
  destruct H as [H1 H2].
  destruct (x <? z) eqn:E1.
  - apply Z.ltb_lt in E1. simpl. split; [|split; assumption].
    intros y [<-|Hy]; [exact E1|]. specialize (H1 y Hy). lia.
  - destruct (x =? z) eqn:E2; [simpl; split; assumption|].
    apply Z.ltb_ge in E1. apply Z.eqb_neq in E2. simpl. split; [|apply IH; exact H2].
    intros y Hy. apply zinsert_In in Hy. destruct Hy as [->|Hy]; [lia|apply H1; exact Hy].
Qed.

Lemma sorted_set_In x l : In x (sorted_set l) <-> In x l.
Proof.
  unfold sorted_set. induction l as [|y tl IH]; simpl; [tauto|].
  rewrite zinsert_In, IH. intuition.
Qed.

Lemma sorted_set_ssorted l : ssorted (sorted_set l).
Proof. unfold sorted_set. induction l as [|y tl IH]; simpl; [exact I|]. apply zinsert_ssorted. exact IH. Qed.

Lemma ssorted_NoDup l : ssorted l -> NoDup l.
Proof.
  induction l as [|x tl IH]; simpl; intros H; constructor.
  - intros Hin. destruct H as [H _]. specialize (H x Hin). lia.
  - apply IH. apply H.
Qed.

Lemma pair_sums_In a m2 s :
  In s (pair_sums a m2) <-> exists ka la kb lb, In (ka, la) a /\ In (kb, lb) m2 /\ s = ka + kb.
Proof.
  unfold pair_sums. rewrite sorted_set_In, in_flat_map. split.
  - intros [[ka la] [Ha Hs]]. apply in_map_iff in Hs. destruct Hs as [[kb lb] [E Hb]]. simpl in E.
    exists ka, la, kb, lb. auto.
  - intros [ka [la [kb [lb [Ha [Hb ->]]]]]]. exists (ka, la). split; [exact Ha|].
    apply in_map_iff. exists (kb, lb). auto.
Qed.

Lemma pair_sums_NoDup a m2 : NoDup (pair_sums a m2).
Proof. apply ssorted_NoDup. apply sorted_set_ssorted. Qed.

Lemma map_fst_combine {A B} (a : list A) (c : list B) : length a = length c -> map fst (combine a c) = a.
Proof.
  revert c. induction a as [|x tl IH]; intros [|y c'] H; simpl in *; try reflexivity; try discriminate.
  rewrite IH by lia. reflexivity.
Qed.
Lemma map_snd_combine {A B} (a : list A) (c : list B) : length a = length c -> map snd (combine a c) = c.
Proof.
  revert c. induction a as [|x tl IH]; intros [|y c'] H; simpl in *; try reflexivity; try discriminate.
  rewrite IH by lia. reflexivity.
Qed.

Lemma NoDup_map_inj {A B} (f : A -> B) l x y : NoDup (map f l) -> In x l -> In y l -> f x = f y -> x = y.
Proof.
  induction l as [|z tl IH]; simpl; intros Hnd Hx Hy E; [destruct Hx|].
  inversion Hnd as [|? ? Hn Hnd']; subst. destruct Hx as [->|Hx], Hy as [->|Hy]; auto.
  - exfalso. apply Hn. rewrite E. apply in_map, Hy.
  - exfalso. apply Hn. rewrite <- E. apply in_map, Hx.
Qed.

Definition total_of (n : Z) (a m2 : vmap) : vmap :=
  combine (pair_sums a m2) (zseq n (length (pair_sums a m2))).

Lemma fold_step_eq n a m2 :
  fold_step n a m2 =
  (total_of n a m2,
   exactly_one (map snd (total_of n a m2))
   ++ flat_map (fun pa => map (fun pb => [- snd pa; - snd pb; oget (mget (total_of n a m2) (fst pa + fst pb))]) m2) a,
   n + Z.of_nat (length (pair_sums a m2))).
Proof. reflexivity. Qed.

Lemma total_keys n a m2 : map fst (total_of n a m2) = pair_sums a m2.
Proof. apply map_fst_combine. rewrite zseq_length. reflexivity. Qed.
Lemma total_lits n a m2 : map snd (total_of n a m2) = zseq n (length (pair_sums a m2)).
Proof. apply map_snd_combine. rewrite zseq_length. reflexivity. Qed.

Lemma total_In n a m2 k l : In (k, l) (total_of n a m2) ->
  In k (pair_sums a m2) /\ n <= l < n + Z.of_nat (length (pair_sums a m2)).
Proof.
  intros H. split.
  - apply in_combine_l in H. exact H.
  - apply in_combine_r in H. apply zseq_In in H. exact H.
Qed.

Lemma total_key_inj n a m2 k k' l : In (k, l) (total_of n a m2) -> In (k', l) (total_of n a m2) -> k = k'.
Proof.
  intros H1 H2. apply (f_equal fst (NoDup_map_inj snd _ _ _ ltac:(rewrite total_lits; apply zseq_NoDup) H1 H2 eq_refl)).
Qed.
Lemma total_lit_inj n a m2 k l l' : In (k, l) (total_of n a m2) -> In (k, l') (total_of n a m2) -> l = l'.
Proof.
  intros H1 H2. apply (f_equal snd (NoDup_map_inj fst _ _ _ ltac:(rewrite total_keys; apply pair_sums_NoDup) H1 H2 eq_refl)).
Qed.

Lemma total_below n a m2 : 0 < n -> mbelow (n + Z.of_nat (length (pair_sums a m2))) (total_of n a m2).
Proof. intros Hn k l H. apply total_In in H. lia. Qed.

Lemma total_has n a m2 ka la kb lb : In (ka, la) a -> In (kb, lb) m2 ->
  exists l, mget (total_of n a m2) (ka + kb) = Some l /\ In (ka + kb, l) (total_of n a m2).
Proof.
  intros Ha Hb. assert (Hin : In (ka + kb) (map fst (total_of n a m2))).
  { rewrite total_keys. apply pair_sums_In. exists ka, la, kb, lb. auto. }
  destruct (mget_In _ _ Hin) as [l Hl]. exists l. split; [exact Hl|apply mget_Some; exact Hl].
Qed.

(* keys and fresh literals of the new map are in bijection, so its literals form an exactly-one group
   iff the map denotes one of its keys *)
Lemma total_eo b n a m2 : 0 < n -> total_of n a m2 <> [] ->
  (models b (exactly_one (map snd (total_of n a m2))) <-> exists q, repr b (total_of n a m2) q).
Proof.
  intros Hn Hne.
  assert (Hpos : forall l, In l (map snd (total_of n a m2)) -> 0 < l)
    by (intros l Hl; rewrite total_lits in Hl; apply zseq_In in Hl; lia).
  assert (Hnd : NoDup (map snd (total_of n a m2))) by (rewrite total_lits; apply zseq_NoDup).
  assert (Hin : forall k l, In (k, l) (total_of n a m2) -> In l (map snd (total_of n a m2)))
    by (intros k l H; apply in_map_iff; exists (k, l); auto).
  rewrite (eo_models b _ Hpos) by (intros E; apply map_eq_nil in E; contradiction). split.
  - intros [[l [Hl Hbl]] Hamo]. apply in_map_iff in Hl. destruct Hl as [[q l'] [E Hql]]. simpl in E. subst l'.
    exists q. split; [apply in_map_iff; exists (q, l); auto|]. intros k l' Hkl. split.
    + intros Hbl'. rewrite (amo_sem_unique b _ Hamo Hnd l' l (Hin _ _ Hkl) (Hin _ _ Hql) Hbl' Hbl) in Hkl.
      apply (total_key_inj n a m2 k q l Hkl Hql).
    + intros ->. rewrite (total_lit_inj n a m2 q l' l Hkl Hql). exact Hbl.
  - intros [q [Hq H]]. apply in_map_iff in Hq. destruct Hq as [[q' lq] [E Hlq]]. simpl in E. subst q'. split.
    + exists lq. split; [apply (Hin q), Hlq|apply (H q lq Hlq); reflexivity].
    + apply (amo_sem_intro b _ Hnd). intros x y Hx Hy Hbx Hby. apply in_map_iff in Hx, Hy.
      destruct Hx as [[kx lx] [Ex Hx]], Hy as [[ky ly] [Ey Hy]]. simpl in Ex, Ey. subst lx ly.
      apply (H _ _ Hx) in Hbx. apply (H _ _ Hy) in Hby. subst kx ky. apply (total_lit_inj n a m2 _ x y Hx Hy).
Qed.

Definition step_clauses (n : Z) (a m2 : vmap) : cnf := snd (fst (fold_step n a m2)).

Lemma fold_step_sound b n a m2 qa qb : 0 < n -> mpos a -> mpos m2 ->
  repr b a qa -> repr b m2 qb -> models b (step_clauses n a m2) -> repr b (total_of n a m2) (qa + qb).
Proof.
  intros Hn Hpa Hpb Ha Hb Hm. unfold step_clauses in Hm. rewrite fold_step_eq in Hm. simpl in Hm.
  apply models_app in Hm. destruct Hm as [Heo Ht].
  destruct (repr_get b a qa Ha) as [la [_ [Hla Hbla]]].
  destruct (repr_get b m2 qb Hb) as [lb [_ [Hlb Hblb]]].
  destruct (total_has n a m2 qa la qb lb Hla Hlb) as [lq [Hget Hlq]].
  assert (Hlqpos : 0 < lq) by (apply total_In in Hlq; lia).
  assert (Hblq : b lq = true).
  { rewrite models_flat_map in Ht. specialize (Ht (qa, la) Hla). rewrite models_map in Ht.
    specialize (Ht (qb, lb) Hlb). cbn [fst snd] in Ht. rewrite Hget in Ht. cbn [oget] in Ht.
    rewrite ct_nnp in Ht by (first [exact Hlqpos | apply (Hpa qa la Hla) | apply (Hpb qb lb Hlb)]).
    rewrite Hbla, Hblb in Ht. simpl in Ht. exact Ht. }
  apply total_eo in Heo; [|exact Hn|intros E; rewrite E in Hlq; destruct Hlq]. destruct Heo as [q Hq].
  replace (qa + qb) with q; [exact Hq|]. symmetry. apply (proj2 Hq _ _ Hlq). exact Hblq.
Qed.

(* the fresh literals of a step are set according to the sum *)
Definition set_map (b : asg) (m : vmap) (q : Z) : asg :=
  fun l => match find (fun p => snd p =? l) m with Some p => fst p =? q | None => b l end.

Lemma set_map_total_agree b n a m2 q : agree_below n b (set_map b (total_of n a m2) q).
Proof.
  intros l Hl. unfold set_map. destruct (find (fun p => snd p =? l) (total_of n a m2)) as [[k l']|] eqn:F; [|reflexivity].
  apply find_some in F. destruct F as [F1 F2]. simpl in F2. apply Z.eqb_eq in F2. subst l'.
  apply total_In in F1. lia.
Qed.

Lemma set_map_total_lit b n a m2 q k l : In (k, l) (total_of n a m2) -> set_map b (total_of n a m2) q l = (k =? q).
Proof.
  intros H. unfold set_map. destruct (find (fun p => snd p =? l) (total_of n a m2)) as [[k' l']|] eqn:F.
  - apply find_some in F. destruct F as [F1 F2]. simpl in F2. apply Z.eqb_eq in F2. subst l'.
    simpl. rewrite (total_key_inj n a m2 k' k l F1 H). reflexivity.
  - pose proof (find_none _ _ F (k, l) H) as Hn. simpl in Hn. rewrite Z.eqb_refl in Hn. discriminate.
Qed.

Lemma fold_step_models b n a m2 qa qb : 0 < n -> mpos a -> mpos m2 ->
  repr b a qa -> repr b m2 qb -> repr b (total_of n a m2) (qa + qb) -> models b (step_clauses n a m2).
Proof.
  intros Hn Hpa Hpb Ha Hb Hrepr. unfold step_clauses. rewrite fold_step_eq. simpl. apply models_app. split.
  - apply total_eo; [exact Hn| |exists (qa + qb); exact Hrepr].
    intros E. destruct Hrepr as [Hin _]. rewrite E in Hin. destruct Hin.
  - apply models_flat_map. intros [ka la] Hla. apply models_map. intros [kb lb] Hlb. cbn [fst snd].
    destruct (total_has n a m2 ka la kb lb Hla Hlb) as [l [Hget Hl]]. rewrite Hget. cbn [oget].
    assert (Hlpos : 0 < l) by (apply total_In in Hl; lia).
    rewrite ct_nnp by (first [exact Hlpos | apply (Hpa ka la Hla) | apply (Hpb kb lb Hlb)]).
    destruct (b la) eqn:E1; [|reflexivity]. destruct (b lb) eqn:E2; [|reflexivity]. simpl.
    apply (proj2 Ha _ _ Hla) in E1. apply (proj2 Hb _ _ Hlb) in E2. subst ka kb.
    apply (proj2 Hrepr _ _ Hl). reflexivity.
Qed.

Lemma fold_step_complete b n a m2 qa qb : 0 < n -> mbelow n a -> mbelow n m2 ->
  repr b a qa -> repr b m2 qb ->
  let b1 := set_map b (total_of n a m2) (qa + qb) in
  agree_below n b b1 /\ settled (n + Z.of_nat (length (pair_sums a m2))) b1 (step_clauses n a m2)
  /\ repr b1 (total_of n a m2) (qa + qb).
Proof.
  intros Hn Hma Hmb Ha Hb b1.
  assert (Hagree : agree_below n b b1) by apply set_map_total_agree.
  destruct (repr_get b a qa Ha) as [la [_ [Hla _]]].
  destruct (repr_get b m2 qb Hb) as [lb [_ [Hlb _]]].
  destruct (total_has n a m2 qa la qb lb Hla Hlb) as [lq [Hget Hlq]].
  assert (Hrepr : repr b1 (total_of n a m2) (qa + qb)).
  { split.
    - apply in_map_iff. exists (qa + qb, lq). auto.
    - intros k l Hkl. unfold b1. rewrite (set_map_total_lit b n a m2 _ k l Hkl). apply Z.eqb_eq. }
  split; [exact Hagree|]. split; [|exact Hrepr]. intros b' Ha'.
  assert (Hab : agree_below n b b') by (eapply agree_below_trans; [|exact Hagree|exact Ha']; lia).
  apply (fold_step_models b' n a m2 qa qb Hn (mbelow_mpos _ _ Hma) (mbelow_mpos _ _ Hmb)).
  - exact (repr_agree n b b' a qa Hma Hab Ha).
  - exact (repr_agree n b b' m2 qb Hmb Hab Hb).
  - exact (repr_agree _ b1 b' _ _ (total_below n a m2 Hn) Ha' Hrepr).
Qed.

(* the relation the constraint asks for between the linear sum and the target: != or == *)
Definition rel (is_ne : bool) (x t : Z) : Prop := if is_ne then x <> t else x = t.

Lemma lin_final0_ok b t is_ne : models b (lin_final0 t is_ne) <-> rel is_ne 0 t.
Proof.
  unfold lin_final0, rel.
  destruct is_ne; destruct (Z.eqb_spec t 0); simpl; rewrite ?models_empty_clause, ?models_nil; lia.
Qed.

Lemma lin_final1_ok b m q t is_ne : mpos m -> repr b m q -> (models b (lin_final1 m t is_ne) <-> rel is_ne q t).
Proof.
  intros Hp Hr. unfold lin_final1, rel. pose proof (repr_mget b m q t Hp Hr) as G.
  destruct (mget m t) as [l|]; [destruct G as [Hl Hbl]|]; destruct is_ne.
  - rewrite models_one, ct_n, negb_true_iff, <- not_true_iff_false, Hbl by exact Hl. intuition congruence.
  - rewrite models_one, ct_p, Hbl by exact Hl. intuition congruence.
  - rewrite models_nil. intuition congruence.
  - rewrite models_empty_clause. intuition congruence.
Qed.

Lemma lin_final2_entry (b : asg) m2 q2 t (is_ne : bool) k1 (l : lit) : mpos m2 -> repr b m2 q2 -> 0 < l ->
  (models b match mget m2 (t - k1) with
            | Some lb => if is_ne then [[- l; - lb]] else [[- l; lb]]
            | None => if is_ne then [] else [[- l]]
            end <-> (b l = true -> rel is_ne (k1 + q2) t)).
Proof.
  intros Hp Hr Hl. unfold rel. pose proof (repr_mget b m2 q2 (t - k1) Hp Hr) as G.
  destruct (mget m2 (t - k1)) as [lb|]; [destruct G as [Hlb Hb]|]; destruct is_ne.
  all: rewrite ?models_one, ?models_nil, ?ct_nn, ?ct_np, ?ct_n by assumption.
  (* what remains is a truth table in b l and b lb, with b lb = true <-> t - k1 = q2 *)
  all: destruct (b l); simpl; rewrite ?negb_true_iff, <- ?not_true_iff_false, ?Hb.
  all: intuition (discriminate || lia).
Qed.

Lemma lin_final2_ok b m1 m2 q1 q2 t is_ne : mpos m1 -> mpos m2 -> repr b m1 q1 -> repr b m2 q2 ->
  (models b (lin_final2 m1 m2 t is_ne) <-> rel is_ne (q1 + q2) t).
Proof.
  intros Hp1 Hp2 Hr1 Hr2. unfold lin_final2. rewrite models_flat_map.
  destruct (repr_get b m1 q1 Hr1) as [l1 [_ [Hl1 Hb1]]]. split.
  - intros H. specialize (H (q1, l1) Hl1). cbn [fst snd] in H.
    apply (lin_final2_entry b m2 q2 t is_ne q1 l1 Hp2 Hr2 (Hp1 _ _ Hl1)); assumption.
  - intros Hrel [k1 l] Hin. cbn [fst snd]. apply (lin_final2_entry b m2 q2 t is_ne k1 l Hp2 Hr2 (Hp1 _ _ Hin)).
    intros Hbl. apply (proj2 Hr1 _ _ Hin) in Hbl. subst k1. exact Hrel.
Qed.

Lemma lin_fold_cons n a m2 c rest t is_ne :
  lin_fold n a m2 (c :: rest) t is_ne =
  (step_clauses n a m2 ++ fst (lin_fold (n + Z.of_nat (length (pair_sums a m2))) (total_of n a m2) c rest t is_ne),
   snd (lin_fold (n + Z.of_nat (length (pair_sums a m2))) (total_of n a m2) c rest t is_ne)).
Proof.
  cbn [lin_fold]. unfold step_clauses. rewrite fold_step_eq. cbn [fst snd].
  destruct (lin_fold (n + Z.of_nat (length (pair_sums a m2))) (total_of n a m2) c rest t is_ne). reflexivity.
Qed.

Lemma zsum_cons x l : zsum (x :: l) = x + zsum l.
Proof. reflexivity. Qed.

(* a is the top of the stack and denotes qa; m2 :: rest is what lies below it *)
Lemma lin_fold_sound b rest : forall n a m2 qa qs t is_ne,
  0 < n -> mpos a -> Forall mpos (m2 :: rest) -> repr b a qa -> Forall2 (repr b) (m2 :: rest) qs ->
  models b (fst (lin_fold n a m2 rest t is_ne)) -> rel is_ne (qa + zsum qs) t.
Proof.
  induction rest as [|c rest' IH]; intros n a m2 qa qs t is_ne Hn Hpa Hp Ha Hq Hm;
    inversion Hq as [|? qb ? qs' Hb Hq']; subst; inversion Hp as [|? ? Hpb Hp']; subst.
  - inversion Hq'; subst. cbn [lin_fold fst] in Hm.
    apply (lin_final2_ok b m2 a qb qa t is_ne Hpb Hpa Hb Ha) in Hm.
    cbn [zsum fold_right]. rewrite Z.add_0_r, Z.add_comm. exact Hm.
  - rewrite lin_fold_cons in Hm. cbn [fst] in Hm. apply models_app in Hm. destruct Hm as [Hm1 Hm2].
    rewrite zsum_cons, Z.add_assoc.
    apply (IH (n + Z.of_nat (length (pair_sums a m2))) _ _ _ _ _ _ ltac:(lia) (mbelow_mpos _ _ (total_below n a m2 Hn)) Hp'
             (fold_step_sound b n a m2 qa qb Hn Hpa Hpb Ha Hb Hm1) Hq' Hm2).
Qed.

Lemma lin_fold_counter rest : forall n a m2 t is_ne, n <= snd (lin_fold n a m2 rest t is_ne).
Proof.
  induction rest as [|c rest' IH]; intros n a m2 t is_ne; [cbn [lin_fold snd]; lia|].
  rewrite lin_fold_cons. cbn [snd].
  specialize (IH (n + Z.of_nat (length (pair_sums a m2))) (total_of n a m2) c t is_ne). lia.
Qed.

Lemma reprs_agree n b b' ms qs :
  Forall (mbelow n) ms -> agree_below n b b' -> Forall2 (repr b) ms qs -> Forall2 (repr b') ms qs.
Proof.
  intros Hm Ha H. induction H as [|m q ms qs Hmq _ IH]; constructor; inversion Hm; subst.
  - apply (repr_agree n b b'); assumption.
  - apply IH. assumption.
Qed.

Lemma lin_fold_complete rest : forall b n a m2 qa qs t is_ne,
  0 < n -> mbelow n a -> Forall (mbelow n) (m2 :: rest) -> repr b a qa -> Forall2 (repr b) (m2 :: rest) qs ->
  rel is_ne (qa + zsum qs) t ->
  exists b', agree_below n b b'
    /\ settled (snd (lin_fold n a m2 rest t is_ne)) b' (fst (lin_fold n a m2 rest t is_ne)).
Proof.
  induction rest as [|c rest' IH]; intros b n a m2 qa qs t is_ne Hn Hma Hmr Ha Hq Hrel;
    inversion Hq as [|? qb ? qs' Hb Hq']; subst; inversion Hmr as [|? ? Hmb Hmr']; subst.
  - inversion Hq'; subst. exists b. split; [apply agree_below_refl|]. cbn [lin_fold fst snd]. intros b' Ha'.
    apply (lin_final2_ok b' m2 a qb qa t is_ne (mbelow_mpos _ _ Hmb) (mbelow_mpos _ _ Hma)
             (repr_agree n b b' _ _ Hmb Ha' Hb) (repr_agree n b b' _ _ Hma Ha' Ha)).
    cbn [zsum fold_right] in Hrel. rewrite Z.add_0_r, Z.add_comm in Hrel. exact Hrel.
  - destruct (fold_step_complete b n a m2 qa qb Hn Hma Hmb Ha Hb) as [Hag [Hm1 Hrt]].
    set (b1 := set_map b (total_of n a m2) (qa + qb)) in *.
    set (n1 := n + Z.of_nat (length (pair_sums a m2))) in *.
    assert (Hn1 : n <= n1) by (unfold n1; lia).
    rewrite zsum_cons, Z.add_assoc in Hrel.
    destruct (IH b1 n1 (total_of n a m2) c (qa + qb) qs' t is_ne ltac:(lia) (total_below n a m2 Hn)
                (Forall_impl _ (fun m => mbelow_mono n n1 m Hn1) Hmr') Hrt
                (reprs_agree n b b1 _ _ Hmr' Hag Hq') Hrel) as [b' [Hag' Hm2]].
    exists b'. split; [apply (agree_below_trans n n1 b b1 b'); assumption|].
    rewrite lin_fold_cons. cbn [fst snd]. apply settled_app. split; [|exact Hm2].
    exact (settled_later n1 _ b1 b' _ (lin_fold_counter _ _ _ _ _ _) Hag' Hm1).
Qed.

Definition enc_stack (n : Z) (st : list vmap) (target : Z) (is_ne : bool) : cnf * Z :=
  match st with
  | [] => (lin_final0 target is_ne, n)
  | [a] => (lin_final1 a target is_ne, n)
  | a :: m2 :: rest => lin_fold n a m2 rest target is_ne
  end.

Lemma enc_stack_sound b n st qs t is_ne : 0 < n -> Forall mpos st -> Forall2 (repr b) st qs ->
  models b (fst (enc_stack n st t is_ne)) -> rel is_ne (zsum qs) t.
Proof.
  intros Hn Hp Hq Hm. destruct Hq as [|a qa st' qs' Ha Hq'].
  - apply lin_final0_ok in Hm. exact Hm.
  - inversion Hp as [|? ? Hpa Hp']; subst. destruct st' as [|m2 rest].
    + inversion Hq'; subst. apply (lin_final1_ok b a qa t is_ne Hpa Ha) in Hm.
      cbn [zsum fold_right]. rewrite Z.add_0_r. exact Hm.
    + exact (lin_fold_sound b rest n a m2 qa qs' t is_ne Hn Hpa Hp' Ha Hq' Hm).
Qed.

Lemma enc_stack_counter n st t is_ne : n <= snd (enc_stack n st t is_ne).
Proof. destruct st as [|a [|m2 rest]]; cbn [enc_stack snd]; try lia. apply lin_fold_counter. Qed.

Lemma enc_stack_complete b n st qs t is_ne : 0 < n -> Forall (mbelow n) st -> Forall2 (repr b) st qs ->
  rel is_ne (zsum qs) t ->
  exists b', agree_below n b b' /\ settled (snd (enc_stack n st t is_ne)) b' (fst (enc_stack n st t is_ne)).
Proof.
  intros Hn Hs Hq Hrel. destruct Hq as [|a qa st' qs' Ha Hq'].
  - exists b. split; [apply agree_below_refl|]. intros b' _. apply lin_final0_ok. exact Hrel.
  - inversion Hs as [|? ? Hma Hs']; subst. destruct st' as [|m2 rest].
    + inversion Hq'; subst. exists b. split; [apply agree_below_refl|]. intros b' Ha'.
      apply (lin_final1_ok b' a qa t is_ne (mbelow_mpos _ _ Hma) (repr_agree n b b' _ _ Hma Ha' Ha)).
      cbn [zsum fold_right] in Hrel. rewrite Z.add_0_r in Hrel. exact Hrel.
    + exact (lin_fold_complete rest b n a m2 qa qs' t is_ne Hn Hma Hs' Ha Hq' Hrel).
Qed.

Lemma lin_add_vars ts v m w : In w (map fst (lin_add ts v m)) -> w = v \/ In w (map fst ts).
Proof.
  induction ts as [|[u cu] tl IH]; simpl; [intuition|].
  destruct (Nat.eqb (vid u) (vid v)); simpl; intuition.
Qed.

Lemma visit_vars e : forall mult acc w, In w (map fst (fst (visit e mult acc))) ->
  In w (expr_vars e) \/ In w (map fst (fst acc)).
Proof.
  induction e as [v|k|a IHa b0 IHb|a IHa b0 IHb|a IHa b0 IHb|a IHa k]; intros mult acc w H; simpl in *.
  - apply lin_add_vars in H. intuition.
  - tauto.
  - apply IHb in H. destruct H as [H|H]; [|apply IHa in H]; rewrite in_app_iff; tauto.
  - apply IHb in H. destruct H as [H|H]; [|apply IHa in H]; rewrite in_app_iff; tauto.
  - apply IHa in H. destruct H as [H|H]; [|apply IHb in H]; rewrite in_app_iff; tauto.
  - apply IHa in H. exact H.
Qed.

Lemma linearize_terms l r t : In t (fst (linearize l r)) ->
  snd t <> 0 /\ In (fst t) (expr_vars l ++ expr_vars r).
Proof.
  unfold linearize. cbn [fst]. intros H. apply filter_In in H. destruct H as [H Hc].
  split; [apply negb_true_iff, Z.eqb_neq in Hc; exact Hc|].
  apply (in_map fst), visit_vars in H. destruct H as [H|H]; [apply in_or_app; right; exact H|].
  apply visit_vars in H. destruct H as [H|[]]. apply in_or_app. left. exact H.
Qed.

Definition tsum (b : asg) (ts : list (var * Z)) : Z := zsum (map (fun t => snd t * bv b (fst t)) ts).

Lemma zsum_app l1 l2 : zsum (l1 ++ l2) = zsum l1 + zsum l2.
Proof. unfold zsum. induction l1 as [|x tl IH]; simpl; [reflexivity|]. rewrite IH. lia. Qed.
Lemma zsum_rev l : zsum (rev l) = zsum l.
Proof. induction l as [|x tl IH]; simpl; [reflexivity|]. rewrite zsum_app, IH. unfold zsum. simpl. lia. Qed.

Lemma Forall2_rev {A B} (R : A -> B -> Prop) l1 l2 : Forall2 R l1 l2 -> Forall2 R (rev l1) (rev l2).
Proof.
  induction 1 as [|x y l1 l2 Hxy H IH]; simpl; [constructor|].
  apply Forall2_app; [exact IH|]. constructor; [exact Hxy|constructor].
Qed.

Lemma enc_ne_expr_eq n l r is_ne :
  enc_ne_expr n l r is_ne
  = enc_stack n (rev (map term_map (fst (linearize l r)))) (- snd (linearize l r)) is_ne.
Proof. unfold enc_ne_expr. destruct (linearize l r). reflexivity. Qed.

Lemma terms_repr b ts : (forall t, In t ts -> VOK b (fst t) /\ snd t <> 0) ->
  Forall2 (repr b) (rev (map term_map ts)) (rev (map (fun t => snd t * bv b (fst t)) ts)).
Proof.
  intros H. apply Forall2_rev. induction ts as [|[v c] tl IH]; simpl; constructor.
  - apply term_map_repr; apply (H (v, c) (or_introl eq_refl)).
  - apply IH. intros t Ht. apply H. right. exact Ht.
Qed.

Lemma terms_below n ts : (forall t, In t ts -> 0 < vbase (fst t) /\ var_below n (fst t)) ->
  Forall (mbelow n) (rev (map term_map ts)).
Proof.
  intros H. apply Forall_rev, Forall_map, Forall_forall. intros [v c] Ht. apply term_map_below; apply (H _ Ht).
Qed.

Lemma tsum_terms_eval b s ts : (forall t, In t ts -> aval s (fst t) = bv b (fst t)) -> terms_eval s ts = tsum b ts.
Proof.
  unfold terms_eval, tsum, zsum. induction ts as [|t tl IH]; intros H; simpl; [reflexivity|].
  rewrite IH, (H t) by auto with datatypes. reflexivity.
Qed.

Lemma lin_rel_holds b s l r is_ne :
  (forall v, In v (expr_vars l ++ expr_vars r) -> aval s v = bv b v) ->
  (rel is_ne (tsum b (fst (linearize l r))) (- snd (linearize l r)) <-> holds s (CLin l r is_ne)).
Proof.
  intros Hs. pose proof (linearize_eval s l r) as He. unfold lin_eval in He.
  rewrite (tsum_terms_eval b s) in He by (intros t Ht; apply Hs, (linearize_terms l r t Ht)).
  unfold rel. cbn [holds]. destruct is_ne; lia.
Qed.

Theorem enc_ne_expr_sound b s n l r is_ne : 0 < n ->
  (forall v, In v (expr_vars l ++ expr_vars r) -> VOK b v) ->
  (forall v, In v (expr_vars l ++ expr_vars r) -> aval s v = bv b v) ->
  models b (fst (enc_ne_expr n l r is_ne)) -> holds s (CLin l r is_ne).
Proof.
  intros Hn Hv Hs Hm. rewrite enc_ne_expr_eq in Hm. apply (lin_rel_holds b s l r is_ne Hs).
  assert (Hok : forall t, In t (fst (linearize l r)) -> VOK b (fst t) /\ snd t <> 0)
    by (intros t Ht; destruct (linearize_terms l r t Ht); split; [apply Hv|]; assumption).
  assert (Hp : Forall mpos (rev (map term_map (fst (linearize l r))))).
  { apply Forall_rev, Forall_map, Forall_forall. intros [v c] Ht k x Hkx. apply term_map_In in Hkx.
    destruct Hkx as [y [Hy [_ ->]]]. destruct (Hok _ Ht) as [[Hb _] _]. apply vlit_pos; [exact Hb|lia]. }
  pose proof (enc_stack_sound b n _ _ _ is_ne Hn Hp (terms_repr b _ Hok) Hm) as H.
  rewrite zsum_rev in H. exact H.
Qed.

Theorem enc_ne_expr_complete b s n l r is_ne : 0 < n ->
  (forall v, In v (expr_vars l ++ expr_vars r) -> VOK b v /\ var_below n v) ->
  (forall v, In v (expr_vars l ++ expr_vars r) -> aval s v = bv b v) ->
  holds s (CLin l r is_ne) ->
  exists b', agree_below n b b' /\ settled (snd (enc_ne_expr n l r is_ne)) b' (fst (enc_ne_expr n l r is_ne)).
Proof.
  intros Hn Hv Hs Hh. rewrite enc_ne_expr_eq. apply (lin_rel_holds b s l r is_ne Hs) in Hh.
  apply (enc_stack_complete b n _ (rev (map (fun t => snd t * bv b (fst t)) (fst (linearize l r))))); try exact Hn.
  - apply terms_below. intros t Ht. destruct (linearize_terms l r t Ht) as [_ Hin].
    split; [apply (Hv _ Hin)|apply (Hv _ Hin)].
  - apply terms_repr. intros t Ht. destruct (linearize_terms l r t Ht) as [Hc Hin]. split; [apply (Hv _ Hin)|exact Hc].
  - rewrite zsum_rev. exact Hh.
Qed.

Lemma enc_ne_expr_counter n l r is_ne : n <= snd (enc_ne_expr n l r is_ne).
Proof. rewrite enc_ne_expr_eq. apply enc_stack_counter. Qed.
