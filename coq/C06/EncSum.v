(* C06 - soundness + completeness of the sum encodings (_encode_sum_eq / _encode_sum_le / _encode_sum_ge):
   chains of auxiliary partial-sum variables.  Soundness: a SAT model of the clauses decodes to values
   satisfying the relation.  Completeness: values satisfying the relation extend (on the fresh literals
   only) to a SAT model of the clauses.
   The three encoders are one recursion with different parameters (chain_go); counter, soundness and
   completeness are proved once about it. *)
From Coq Require Import List ZArith Bool Lia.
From SV Require Import C06.CpAst C06.CpEnc C06.EncBasics C06.EncPairwise C06.EncFrame.
Import ListNotations. Open Scope Z_scope.

(* the sum of the decoded values *)
Definition bsum (b : asg) (vs : list var) : Z := zsum (map (bv b) vs).

Lemma bsum_cons b v vs : bsum b (v :: vs) = bv b v + bsum b vs.
Proof. reflexivity. Qed.
Lemma bsum_one b v : bsum b [v] = bv b v.
Proof. apply Z.add_0_r. Qed.
Lemma bsum_two b v w : bsum b [v; w] = bv b v + bv b w.
Proof. rewrite bsum_cons, bsum_one. reflexivity. Qed.
Lemma sum_lb_cons v vs : sum_lb (v :: vs) = vlb v + sum_lb vs.
Proof. reflexivity. Qed.
Lemma sum_ub_cons v vs : sum_ub (v :: vs) = vub v + sum_ub vs.
Proof. reflexivity. Qed.

Lemma bsum_bounds b vs : (forall v, In v vs -> VOK b v) -> sum_lb vs <= bsum b vs <= sum_ub vs.
Proof.
  induction vs as [|v tl IH]; intros Hok.
  - unfold sum_lb, sum_ub, bsum. simpl. lia.
  - rewrite bsum_cons, sum_lb_cons, sum_ub_cons.
    destruct (Hok v (or_introl eq_refl)) as [_ He]. pose proof (EO_bv_dom b v He) as Hd.
    assert (Ht : sum_lb tl <= bsum b tl <= sum_ub tl) by (apply IH; intros w Hw; apply Hok; right; exact Hw).
    lia.
Qed.

Lemma bsum_agree n b b' vs : agree_below n b b' -> (forall v, In v vs -> VOK b v /\ var_below n v) ->
  bsum b' vs = bsum b vs.
Proof.
  intros Ha. induction vs as [|v tl IH]; intros Hok; [reflexivity|].
  rewrite !bsum_cons. destruct (Hok v (or_introl eq_refl)) as [[Hb He] Hv].
  rewrite (bv_agree n b b' v Hb Hv Ha He), IH; [reflexivity|].
  intros w Hw. apply Hok. right. exact Hw.
Qed.

Lemma VOK_bsum_agree n b b' vs : agree_below n b b' -> (forall v, In v vs -> VOK b v /\ var_below n v) ->
  (forall v, In v vs -> VOK b' v) /\ bsum b' vs = bsum b vs.
Proof.
  intros Ha H. split; [|exact (bsum_agree n b b' vs Ha H)].
  intros v Hv. destruct (H v Hv) as [H1 H2]. exact (VOK_agree n b b' v H2 Ha H1).
Qed.

Lemma pair_forbid_ok b v1 v2 bad : VOK b v1 -> VOK b v2 ->
  (models b (pair_forbid v1 v2 bad) <-> bad (bv b v1 + bv b v2) = false).
Proof. exact (forbid_pairs_ok b v1 v2 (fun a c => bad (a + c))). Qed.

(* the clauses for the last two variables of a chain in _encode_sum_eq: v1 = a forces v2 = t - a *)
Definition eq_pair (t : Z) (v1 v2 : var) : cnf :=
  map (fun a => if in_dom v2 (t - a) then [- vlit v1 a; vlit v2 (t - a)] else [- vlit v1 a]) (vdom v1).

Lemma eq_pair_ok t b v1 v2 : VOK b v1 -> VOK b v2 -> (models b (eq_pair t v1 v2) <-> bv b v1 + bv b v2 = t).
Proof.
  intros H1 H2. pose proof (VOK_dom b v1 H1) as Hd1. pose proof (VOK_dom b v2 H2) as Hd2.
  unfold eq_pair. rewrite models_map. split.
  - intros Hm. specialize (Hm _ (proj2 (vdom_In v1 _) Hd1)). destruct (in_dom v2 (t - bv b v1)) eqn:D.
    + apply in_dom_iff in D. cbn [clause_true existsb] in Hm.
      rewrite nlit_true, Z.eqb_refl, plit_true, orb_false_r in Hm by assumption. apply Z.eqb_eq in Hm. lia.
    + cbn [clause_true existsb] in Hm. rewrite nlit_true, Z.eqb_refl in Hm by assumption. discriminate.
  - intros Hr a Ha. apply vdom_In in Ha. destruct (in_dom v2 (t - a)) eqn:D; cbn [clause_true existsb];
      rewrite nlit_true by assumption; (destruct (a =? bv b v1) eqn:F; [|reflexivity]); apply Z.eqb_eq in F.
    + apply in_dom_iff in D. rewrite plit_true, orb_false_r by assumption. apply Z.eqb_eq. lia.
    + apply not_in_dom in D. exfalso. apply D. lia.
Qed.

Lemma partial_sound b v1 v2 ps strict :
  VOK b v1 -> VOK b v2 -> 0 < vbase ps ->
  models b (exactly_one (lits_of ps)) -> models b (partial_clauses v1 v2 ps strict) ->
  (strict = false -> in_dom ps (bv b v1 + bv b v2) = true) ->
  VOK b ps /\ bv b ps = bv b v1 + bv b v2.
Proof.
  intros H1 H2 Hbp Heo Hpc Hdom. pose proof (VOK_dom b v1 H1) as Hd1. pose proof (VOK_dom b v2 H2) as Hd2.
  unfold partial_clauses in Hpc. rewrite models_flat_map in Hpc.
  specialize (Hpc _ (proj2 (vdom_In v1 _) Hd1)). rewrite models_flat_map in Hpc.
  specialize (Hpc _ (proj2 (vdom_In v2 _) Hd2)).
  destruct (in_dom ps (bv b v1 + bv b v2)) eqn:D.
  - apply in_dom_iff in D. assert (Hps : VOK b ps).
    { split; [exact Hbp|]. apply (exactly_one_ok b ps Hbp); [lia|exact Heo]. }
    split; [exact Hps|]. specialize (Hpc _ (or_introl eq_refl)). cbn [clause_true existsb] in Hpc.
    rewrite !nlit_true, !Z.eqb_refl, plit_true, orb_false_r in Hpc by assumption. apply Z.eqb_eq in Hpc. lia.
  - destruct strict; [|discriminate (Hdom eq_refl)].
    specialize (Hpc _ (or_introl eq_refl)). cbn [clause_true existsb] in Hpc.
    rewrite !nlit_true, !Z.eqb_refl in Hpc by assumption. discriminate.
Qed.

Lemma partial_complete b v1 v2 ps strict :
  VOK b v1 -> VOK b v2 -> VOK b ps -> bv b ps = bv b v1 + bv b v2 ->
  models b (partial_clauses v1 v2 ps strict).
Proof.
  intros H1 H2 Hp Hs. pose proof (VOK_dom b ps Hp) as Hdp.
  unfold partial_clauses. rewrite models_flat_map. intros a Ha. rewrite models_flat_map. intros c Hc.
  apply vdom_In in Ha. apply vdom_In in Hc.
  (* a clause for values a, c other than the actual ones is true by its first or second literal *)
  assert (G : forall rest, (a = bv b v1 -> c = bv b v2 -> clause_true b rest = true) ->
              clause_true b (- vlit v1 a :: - vlit v2 c :: rest) = true).
  { intros rest H. cbn [clause_true existsb]. rewrite !nlit_true by assumption.
    destruct (a =? bv b v1) eqn:F1; [|reflexivity]. destruct (c =? bv b v2) eqn:F2; [|reflexivity].
    apply Z.eqb_eq in F1. apply Z.eqb_eq in F2. exact (H F1 F2). }
  destruct (in_dom ps (a + c)) eqn:D.
  - apply in_dom_iff in D. intros ? [<-|[]]. apply G. intros F1 F2. cbn [clause_true existsb].
    rewrite plit_true by assumption. apply orb_true_iff. left. apply Z.eqb_eq. lia.
  - apply not_in_dom in D. destruct strict; [|intros ? []]. intros ? [<-|[]]. apply G. intros F1 F2. lia.
Qed.

(* one link of the chain: a fresh variable for v1 + v2, its exactly-one clauses and the partial-sum clauses *)
Lemma link_sound b n v1 v2 lb ub rest strict :
  0 < n -> VOK b v1 -> VOK b v2 ->
  models b (exactly_one (lits_of (mk_aux n lb ub)) ++ partial_clauses v1 v2 (mk_aux n lb ub) strict) ->
  (strict = false -> lb <= bv b v1 + bv b v2 <= ub) ->
  VOK b (mk_aux n lb ub) /\ bsum b (mk_aux n lb ub :: rest) = bsum b (v1 :: v2 :: rest).
Proof.
  intros Hn H1 H2 Hm Hdom. apply models_app in Hm. destruct Hm as [Hm1 Hm2].
  assert (Hd : strict = false -> in_dom (mk_aux n lb ub) (bv b v1 + bv b v2) = true).
  { intros E. apply in_dom_iff. simpl. apply Hdom. exact E. }
  destruct (partial_sound b v1 v2 (mk_aux n lb ub) strict H1 H2 Hn Hm1 Hm2 Hd) as [Hok Hs].
  split; [exact Hok|]. rewrite !bsum_cons, Hs. lia.
Qed.

Lemma link_complete b n v1 v2 lb ub rest :
  0 < n -> (forall v, In v (v1 :: v2 :: rest) -> VOK b v /\ var_below n v) ->
  lb <= bv b v1 + bv b v2 <= ub ->
  exists b1, agree_below n b b1
    /\ (forall v, In v (mk_aux n lb ub :: rest) -> VOK b1 v /\ var_below (n + aux_size lb ub) v)
    /\ bsum b1 (mk_aux n lb ub :: rest) = bsum b (v1 :: v2 :: rest)
    /\ forall strict, settled (n + aux_size lb ub) b1
         (exactly_one (lits_of (mk_aux n lb ub)) ++ partial_clauses v1 v2 (mk_aux n lb ub) strict).
Proof.
  intros Hn Hok Hdom. set (ps := mk_aux n lb ub). set (q := bv b v1 + bv b v2). set (b1 := set_var b ps q).
  pose proof (aux_size_nonneg lb ub) as Hsz. pose proof (aux_below n lb ub : var_below (n + aux_size lb ub) ps) as Hpb.
  assert (Hag : agree_below n b b1) by exact (set_var_agree b ps q).
  destruct (set_var_EO b ps q Hdom) as [Hep Hbp]. fold b1 in Hep, Hbp.
  destruct (Hok v1 (or_introl eq_refl)) as [Hk1 Hw1].
  destruct (Hok v2 (or_intror (or_introl eq_refl))) as [Hk2 Hw2].
  pose proof (fun v Hv => Hok v (or_intror (or_intror Hv))) as Hrest.
  exists b1. split; [exact Hag|]. split; [|split].
  - intros v [<-|Hv]; [split; [split; assumption|exact Hpb]|]. destruct (Hrest v Hv) as [Hk Hw].
    split; [exact (VOK_agree n b b1 v Hw Hag Hk)|apply (var_below_mono n); [lia|exact Hw]].
  - rewrite !bsum_cons, Hbp, (bsum_agree n b b1 rest Hag Hrest). unfold q. lia.
  - intros strict b' Hb'.
    assert (Hab : agree_below n b b') by (eapply agree_below_trans; [|exact Hag|exact Hb']; lia).
    pose proof (EO_agree _ b1 b' ps Hn Hpb Hb' Hep) as Hep'. apply models_app. split.
    + apply (exactly_one_ok b' ps Hn); [exact (Z.le_trans _ _ _ (proj1 Hdom) (proj2 Hdom))|exact Hep'].
    + apply partial_complete;
        [exact (VOK_agree n b b' v1 Hw1 Hab Hk1)|exact (VOK_agree n b b' v2 Hw2 Hab Hk2)|split; assumption|].
      rewrite (bv_agree _ b1 b' ps Hn Hpb Hb' Hep), Hbp, (bv_agree n b b' v1 (proj1 Hk1) Hw1 Hab (proj2 Hk1)),
        (bv_agree n b b' v2 (proj1 Hk2) Hw2 Hab (proj2 Hk2)). reflexivity.
Qed.

Section Chain.
  (* what distinguishes them: when to give up at once with an empty clause, the bounds of the partial-sum
     variable for v1 + v2 (they may depend on what is still to come), whether the link clauses forbid sums
     outside these bounds, and the clauses for the last one / two variables *)
  Variable exit : var -> list var -> bool.
  Variables lbf ubf : var -> var -> list var -> Z.
  Variable strict : bool.
  Variable last1 : var -> cnf.
  Variable last2 : var -> var -> cnf.

  Fixpoint chain_go (n : Z) (v1 : var) (rest : list var) : cnf * Z :=
    if exit v1 rest then ([[]], n) else
    match rest with
    | [] => (last1 v1, n)
    | v2 :: rest' =>
        match rest' with
        | [] => (last2 v1 v2, n)
        | _ :: _ =>
            let '(ps, eo, n1) := create_int_var n (lbf v1 v2 rest') (ubf v1 v2 rest') in
            let '(cl, n2) := chain_go n1 ps rest' in
            (eo ++ partial_clauses v1 v2 ps strict ++ cl, n2)
        end
    end.

  Lemma chain_go_cons n v1 v2 v3 r :
    chain_go n v1 (v2 :: v3 :: r) = if exit v1 (v2 :: v3 :: r) then ([[]], n) else
      let lb := lbf v1 v2 (v3 :: r) in let ub := ubf v1 v2 (v3 :: r) in
      let '(cl, n2) := chain_go (n + aux_size lb ub) (mk_aux n lb ub) (v3 :: r) in
      (exactly_one (lits_of (mk_aux n lb ub)) ++ partial_clauses v1 v2 (mk_aux n lb ub) strict ++ cl, n2).
  Proof. reflexivity. Qed.

  Lemma chain_go_step n v1 v2 v3 r :
    chain_go n v1 (v2 :: v3 :: r) = if exit v1 (v2 :: v3 :: r) then ([[]], n) else
      let lb := lbf v1 v2 (v3 :: r) in let ub := ubf v1 v2 (v3 :: r) in
      let rr := chain_go (n + aux_size lb ub) (mk_aux n lb ub) (v3 :: r) in
      ((exactly_one (lits_of (mk_aux n lb ub)) ++ partial_clauses v1 v2 (mk_aux n lb ub) strict) ++ fst rr, snd rr).
  Proof.
    rewrite chain_go_cons. destruct (exit v1 (v2 :: v3 :: r)); [reflexivity|]. cbv zeta.
    destruct (chain_go _ _ (v3 :: r)) as [cl n2]. cbn [fst snd]. rewrite <- app_assoc. reflexivity.
  Qed.

  Lemma chain_go_counter rest : forall n v1, n <= snd (chain_go n v1 rest).
  Proof.
    induction rest as [|v2 rest' IH]; intros n v1.
    - cbn [chain_go]. destruct (exit v1 []); cbn [snd]; lia.
    - destruct rest' as [|v3 r].
      + cbn [chain_go]. destruct (exit v1 [v2]); cbn [snd]; lia.
      + rewrite chain_go_step. destruct (exit _ _); [cbn [snd]; lia|]. cbv zeta. cbn [snd].
        pose proof (aux_size_nonneg (lbf v1 v2 (v3 :: r)) (ubf v1 v2 (v3 :: r))) as Hs.
        eapply Z.le_trans; [|apply IH]. lia.
  Qed.

  Variable R : Z -> Prop.
  Hypothesis last1_ok : forall b v1, VOK b v1 -> (models b (last1 v1) <-> R (bv b v1)).
  Hypothesis last2_ok : forall b v1 v2, VOK b v1 -> VOK b v2 -> (models b (last2 v1 v2) <-> R (bv b v1 + bv b v2)).
  (* links that do not forbid sums outside the bounds have bounds wide enough for every sum of two values *)
  Hypothesis loose_wide : strict = false ->
    forall v1 v2 r, lbf v1 v2 r <= vlb v1 + vlb v2 /\ vub v1 + vub v2 <= ubf v1 v2 r.

  Lemma chain_go_sound b rest : forall n v1, 0 < n -> (forall v, In v (v1 :: rest) -> VOK b v) ->
    models b (fst (chain_go n v1 rest)) -> R (bsum b (v1 :: rest)).
  Proof.
    induction rest as [|v2 rest' IH]; intros n v1 Hn Hok Hm.
    - cbn [chain_go] in Hm. destruct (exit v1 []); cbn [fst] in Hm; [destruct (proj1 (models_empty_clause b) Hm)|].
      rewrite bsum_one. apply (last1_ok b v1); [apply Hok; left; reflexivity|exact Hm].
    - pose proof (Hok v1 (or_introl eq_refl)) as Hk1.
      pose proof (Hok v2 (or_intror (or_introl eq_refl))) as Hk2.
      destruct rest' as [|v3 r].
      + cbn [chain_go] in Hm.
        destruct (exit v1 [v2]); cbn [fst] in Hm; [destruct (proj1 (models_empty_clause b) Hm)|].
        rewrite bsum_two. apply (last2_ok b v1 v2); assumption.
      + rewrite chain_go_step in Hm.
        destruct (exit _ _); cbn [fst] in Hm; [destruct (proj1 (models_empty_clause b) Hm)|].
        cbv zeta in Hm. cbn [fst] in Hm. apply models_app in Hm. destruct Hm as [Hm1 Hm2].
        destruct (link_sound b n v1 v2 _ _ (v3 :: r) strict Hn Hk1 Hk2 Hm1) as [Hps Hs].
        { intros E. destruct (loose_wide E v1 v2 (v3 :: r)).
          pose proof (EO_bv_dom b v1 (proj2 Hk1)). pose proof (EO_bv_dom b v2 (proj2 Hk2)). lia. }
        rewrite <- Hs. apply (IH _ _) in Hm2; [exact Hm2| |].
        * pose proof (aux_size_nonneg (lbf v1 v2 (v3 :: r)) (ubf v1 v2 (v3 :: r))). lia.
        * intros v [<-|Hv]; [exact Hps|]. apply Hok. right. right. exact Hv.
  Qed.

  (* on values in the relation the encoder does not give up, and the bounds contain the first partial sum *)
  Hypothesis exit_false : forall b v1 rest,
    (forall v, In v (v1 :: rest) -> VOK b v) -> R (bsum b (v1 :: rest)) -> exit v1 rest = false.
  Hypothesis bounds_ok : forall b v1 v2 rest,
    (forall v, In v (v1 :: v2 :: rest) -> VOK b v) -> R (bsum b (v1 :: v2 :: rest)) ->
    lbf v1 v2 rest <= bv b v1 + bv b v2 <= ubf v1 v2 rest.

  Lemma chain_go_complete rest : forall b n v1, 0 < n ->
    (forall v, In v (v1 :: rest) -> VOK b v /\ var_below n v) -> R (bsum b (v1 :: rest)) ->
    exists b', agree_below n b b' /\ settled (snd (chain_go n v1 rest)) b' (fst (chain_go n v1 rest)).
  Proof.
    induction rest as [|v2 rest' IH]; intros b n v1 Hn Hok Hr;
      pose proof (fun v Hv => proj1 (Hok v Hv)) as Hvok; pose proof (exit_false b v1 _ Hvok Hr) as Hex.
    (* with one or two variables left nothing is created: the clauses say R of values that later changes keep *)
    - cbn [chain_go]. rewrite Hex. cbn [fst snd]. exists b. split; [apply agree_below_refl|]. intros b' Ha.
      destruct (VOK_bsum_agree n b b' _ Ha Hok) as [Hv' Hs']. apply (last1_ok b' v1 (Hv' v1 (or_introl eq_refl))).
      rewrite <- bsum_one, Hs'. exact Hr.
    - destruct rest' as [|v3 r].
      + cbn [chain_go]. rewrite Hex. cbn [fst snd]. exists b. split; [apply agree_below_refl|]. intros b' Ha.
        destruct (VOK_bsum_agree n b b' _ Ha Hok) as [Hv' Hs'].
        apply (last2_ok b' v1 v2 (Hv' v1 (or_introl eq_refl)) (Hv' v2 (or_intror (or_introl eq_refl)))).
        rewrite <- bsum_two, Hs'. exact Hr.
      + rewrite chain_go_step, Hex. cbv zeta. cbn [fst snd].
        destruct (link_complete b n v1 v2 (lbf v1 v2 (v3 :: r)) (ubf v1 v2 (v3 :: r)) (v3 :: r) Hn Hok
                    (bounds_ok b v1 v2 (v3 :: r) Hvok Hr)) as [b1 [Hag [Hok1 [Hs Hcl]]]].
        pose proof (aux_size_nonneg (lbf v1 v2 (v3 :: r)) (ubf v1 v2 (v3 :: r))) as Hsz.
        destruct (IH b1 (n + aux_size (lbf v1 v2 (v3 :: r)) (ubf v1 v2 (v3 :: r))) _ ltac:(lia) Hok1)
          as [b' [Hag' Hm']].
        { rewrite Hs. exact Hr. }
        exists b'. split; [eapply agree_below_trans; [|exact Hag|exact Hag']; lia|].
        apply settled_app. split; [|exact Hm'].
        apply (settled_later _ _ b1 b' _ (chain_go_counter _ _ _) Hag' (Hcl strict)).
  Qed.
End Chain.

Lemma sum_eq_go_chain t rest : forall n v1,
  sum_eq_go n v1 rest t =
  chain_go (fun v1 rest => (t <? sum_lb (v1 :: rest)) || (sum_ub (v1 :: rest) <? t))
           (fun v1 v2 _ => vlb v1 + vlb v2) (fun v1 v2 _ => vub v1 + vub v2) false
           (fun v => enc_eq_const v t) (eq_pair t) n v1 rest.
Proof.
  induction rest as [|v2 rest' IH]; intros n v1; [reflexivity|]. destruct rest' as [|v3 r]; [reflexivity|].
  rewrite chain_go_cons. cbv beta zeta. rewrite <- IH. reflexivity.
Qed.

Lemma enc_sum_eq_counter n vs t : n <= snd (enc_sum_eq n vs t).
Proof.
  destruct vs as [|v1 rest]; unfold enc_sum_eq; [cbn [snd]; lia|].
  rewrite sum_eq_go_chain. apply chain_go_counter.
Qed.

Lemma enc_sum_eq_sound b n vs t : 0 < n -> (forall v, In v vs -> VOK b v) ->
  models b (fst (enc_sum_eq n vs t)) -> bsum b vs = t.
Proof.
  intros Hn Hok Hm. destruct vs as [|v1 rest]; unfold enc_sum_eq in Hm.
  - cbn [fst] in Hm. destruct (t =? 0) eqn:E; cbn [negb] in Hm.
    + apply Z.eqb_eq in E. subst t. reflexivity.
    + apply models_empty_clause in Hm. destruct Hm.
  - rewrite sum_eq_go_chain in Hm. revert Hm. apply chain_go_sound with (R := fun s => s = t); [| | |exact Hn|exact Hok].
    + intros b0 v. apply enc_eq_const_ok.
    + intros b0 v w. apply eq_pair_ok.
    + intros _ v w r. cbv beta. lia.
Qed.

Lemma enc_sum_eq_complete b n vs t : 0 < n -> (forall v, In v vs -> VOK b v /\ var_below n v) ->
  bsum b vs = t ->
  exists b', agree_below n b b' /\ settled (snd (enc_sum_eq n vs t)) b' (fst (enc_sum_eq n vs t)).
Proof.
  intros Hn Hok Hr. destruct vs as [|v1 rest]; unfold enc_sum_eq.
  - exists b. split; [apply agree_below_refl|]. intros b' _. cbn [fst]. change (bsum b []) with 0 in Hr. subst t.
    cbn. apply models_nil. exact I.
  - rewrite sum_eq_go_chain. apply chain_go_complete with (R := fun s => s = t); [| | | |exact Hn|exact Hok|exact Hr].
    + intros b0 v. apply enc_eq_const_ok.
    + intros b0 v w. apply eq_pair_ok.
    + intros b0 v r H E. pose proof (bsum_bounds b0 (v :: r) H). apply orb_false_iff. split; apply Z.ltb_ge; lia.
    + intros b0 v w r H _. pose proof (EO_bv_dom b0 v (proj2 (H v (or_introl eq_refl)))).
      pose proof (EO_bv_dom b0 w (proj2 (H w (or_intror (or_introl eq_refl))))). lia.
Qed.

Lemma sum_le_go_chain t rest : forall n v1,
  sum_le_go n v1 rest t =
  chain_go (fun _ _ => false) (fun v1 v2 _ => vlb v1 + vlb v2)
           (fun v1 v2 r => Z.min (vub v1 + vub v2) (t - sum_lb r)) true
           (fun v => unit_forbid v (fun s => t <? s)) (fun v1 v2 => pair_forbid v1 v2 (fun s => t <? s)) n v1 rest.
Proof.
  induction rest as [|v2 rest' IH]; intros n v1; [reflexivity|]. destruct rest' as [|v3 r]; [reflexivity|].
  rewrite chain_go_cons. cbv beta zeta. rewrite <- IH. reflexivity.
Qed.

Lemma first_sum_bounds b v1 v2 rest : (forall v, In v (v1 :: v2 :: rest) -> VOK b v) ->
  vlb v1 + vlb v2 <= bv b v1 + bv b v2 <= vub v1 + vub v2
  /\ bsum b (v1 :: v2 :: rest) - sum_ub rest <= bv b v1 + bv b v2 <= bsum b (v1 :: v2 :: rest) - sum_lb rest.
Proof.
  intros H. pose proof (EO_bv_dom b v1 (proj2 (H v1 (or_introl eq_refl)))).
  pose proof (EO_bv_dom b v2 (proj2 (H v2 (or_intror (or_introl eq_refl))))).
  pose proof (bsum_bounds b rest (fun v Hv => H v (or_intror (or_intror Hv)))).
  rewrite !bsum_cons. lia.
Qed.

Lemma enc_sum_le_counter n vs t : n <= snd (enc_sum_le n vs t).
Proof.
  destruct vs as [|v1 rest]; unfold enc_sum_le; [cbn [snd]; lia|].
  rewrite sum_le_go_chain. apply chain_go_counter.
Qed.

Lemma enc_sum_le_sound b n vs t : 0 < n -> (forall v, In v vs -> VOK b v) ->
  models b (fst (enc_sum_le n vs t)) -> bsum b vs <= t.
Proof.
  intros Hn Hok Hm. apply Z.ltb_ge. destruct vs as [|v1 rest]; unfold enc_sum_le in Hm.
  - cbn [fst] in Hm. change (bsum b []) with 0.
    destruct (t <? 0); [destruct (proj1 (models_empty_clause b) Hm)|reflexivity].
  - rewrite sum_le_go_chain in Hm. revert Hm.
    (* the links are strict: nothing to show about loose bounds *)
    apply chain_go_sound with (R := fun s => (t <? s) = false); [| |discriminate|exact Hn|exact Hok].
    + intros b0 v. apply unit_forbid_ok.
    + intros b0 v w. apply pair_forbid_ok.
Qed.

Lemma enc_sum_le_complete b n vs t : 0 < n -> (forall v, In v vs -> VOK b v /\ var_below n v) ->
  bsum b vs <= t ->
  exists b', agree_below n b b' /\ settled (snd (enc_sum_le n vs t)) b' (fst (enc_sum_le n vs t)).
Proof.
  intros Hn Hok Hr. apply Z.ltb_ge in Hr. destruct vs as [|v1 rest]; unfold enc_sum_le.
  - exists b. split; [apply agree_below_refl|]. intros b' _. cbn [fst]. change (bsum b []) with 0 in Hr.
    rewrite Hr. apply models_nil. exact I.
  - rewrite sum_le_go_chain. apply chain_go_complete with (R := fun s => (t <? s) = false); [| | | |exact Hn|exact Hok|exact Hr].
    + intros b0 v. apply unit_forbid_ok.
    + intros b0 v w. apply pair_forbid_ok.
    + reflexivity.
    + intros b0 v w r H E. apply Z.ltb_ge in E. pose proof (first_sum_bounds b0 v w r H). lia.
Qed.

Lemma sum_ge_go_chain t rest : forall n v1,
  sum_ge_go n v1 rest t =
  chain_go (fun _ _ => false) (fun v1 v2 r => Z.max (vlb v1 + vlb v2) (t - sum_ub r))
           (fun v1 v2 _ => vub v1 + vub v2) true
           (fun v => unit_forbid v (fun s => s <? t)) (fun v1 v2 => pair_forbid v1 v2 (fun s => s <? t)) n v1 rest.
Proof.
  induction rest as [|v2 rest' IH]; intros n v1; [reflexivity|]. destruct rest' as [|v3 r]; [reflexivity|].
  rewrite chain_go_cons. cbv beta zeta. rewrite <- IH. reflexivity.
Qed.

Lemma enc_sum_ge_counter n vs t : n <= snd (enc_sum_ge n vs t).
Proof.
  destruct vs as [|v1 rest]; unfold enc_sum_ge; [cbn [snd]; lia|].
  rewrite sum_ge_go_chain. apply chain_go_counter.
Qed.

Lemma enc_sum_ge_sound b n vs t : 0 < n -> (forall v, In v vs -> VOK b v) ->
  models b (fst (enc_sum_ge n vs t)) -> bsum b vs >= t.
Proof.
  intros Hn Hok Hm. apply Z.le_ge, Z.ltb_ge. destruct vs as [|v1 rest]; unfold enc_sum_ge in Hm.
  - cbn [fst] in Hm. change (bsum b []) with 0.
    destruct (0 <? t); [destruct (proj1 (models_empty_clause b) Hm)|reflexivity].
  - rewrite sum_ge_go_chain in Hm. revert Hm.
    apply chain_go_sound with (R := fun s => (s <? t) = false); [| |discriminate|exact Hn|exact Hok].
    + intros b0 v. apply unit_forbid_ok.
    + intros b0 v w. apply pair_forbid_ok.
Qed.

Lemma enc_sum_ge_complete b n vs t : 0 < n -> (forall v, In v vs -> VOK b v /\ var_below n v) ->
  bsum b vs >= t ->
  exists b', agree_below n b b' /\ settled (snd (enc_sum_ge n vs t)) b' (fst (enc_sum_ge n vs t)).
Proof.
  intros Hn Hok Hr. apply Z.ge_le, Z.ltb_ge in Hr. destruct vs as [|v1 rest]; unfold enc_sum_ge.
  - exists b. split; [apply agree_below_refl|]. intros b' _. cbn [fst]. change (bsum b []) with 0 in Hr.
    rewrite Hr. apply models_nil. exact I.
  - rewrite sum_ge_go_chain. apply chain_go_complete with (R := fun s => (s <? t) = false); [| | | |exact Hn|exact Hok|exact Hr].
    + intros b0 v. apply unit_forbid_ok.
    + intros b0 v w. apply pair_forbid_ok.
    + reflexivity.
    + intros b0 v w r H E. apply Z.ltb_ge in E. pose proof (first_sum_bounds b0 v w r H). lia.
Qed.
