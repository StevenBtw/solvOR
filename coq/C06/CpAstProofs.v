(* C05 / C06 - reflection lemmas for CpAst.v: linearize is sound, the boolean twins decide the
   readable semantics. *)
From Coq Require Import List ZArith Bool Lia.
From SV Require Import C06.CpAst.
Import ListNotations. Open Scope Z_scope.

Lemma lin_add_eval s ts v m : terms_eval s (lin_add ts v m) = terms_eval s ts + m * aval s v.
Proof.
  induction ts as [|[w c] tl IH]; simpl.
  - lia.
  - destruct (Nat.eqb (vid w) (vid v)) eqn:E; simpl.
    + apply Nat.eqb_eq in E. unfold aval. rewrite E. lia.
    + rewrite IH. lia.
Qed.

Lemma visit_eval s e : forall mult acc,
  terms_eval s (fst (visit e mult acc)) + snd (visit e mult acc)
  = terms_eval s (fst acc) + snd acc + mult * eval s e.
Proof.
  induction e as [v|c|a IHa b IHb|a IHa b IHb|a IHa b IHb|a IHa k]; intros mult acc; simpl.
  - rewrite lin_add_eval. lia.
  - lia.
  - rewrite IHb, IHa. lia.
  - rewrite IHb, IHa. lia.
  - rewrite IHa, IHb. lia.
  - rewrite IHa. lia.
Qed.

Lemma filter_nz_eval s ts :
  terms_eval s (filter (fun t => negb (snd t =? 0)) ts) = terms_eval s ts.
Proof.
  induction ts as [|[w c] tl IH]; simpl; [reflexivity|].
  destruct (c =? 0) eqn:E; simpl.
  - apply Z.eqb_eq in E. subst c. rewrite IH. lia.
  - rewrite IH. reflexivity.
Qed.

Lemma linearize_eval s l r : lin_eval s (linearize l r) = eval s l - eval s r.
Proof.
  unfold linearize, lin_eval. cbv zeta. simpl fst. simpl snd.
  rewrite filter_nz_eval, visit_eval, visit_eval. unfold terms_eval. simpl fst. simpl snd. simpl fold_right. lia.
Qed.

Lemma in_domainsb_spec s vs : in_domainsb s vs = true <-> in_domains s vs.
Proof.
  unfold in_domainsb, in_domains. rewrite forallb_forall.
  split; intros H v Hv; specialize (H v Hv); unfold in_dom in *;
    rewrite andb_true_iff, !Z.leb_le in *; lia.
Qed.

Lemma zmem_spec x l : zmem x l = true <-> In x l.
Proof.
  unfold zmem. rewrite existsb_exists. split.
  - intros [y [Hy E]]. apply Z.eqb_eq in E. subst y. exact Hy.
  - intros H. exists x. split; [exact H|apply Z.eqb_refl].
Qed.

Lemma nodupb_spec l : nodupb l = true <-> NoDup l.
Proof.
  induction l as [|a l IH]; simpl.
  - split; intros _; [constructor|reflexivity].
  - rewrite andb_true_iff, negb_true_iff, IH. split.
    + intros [H1 H2]. constructor; [|exact H2].
      intro Hin. apply zmem_spec in Hin. congruence.
    + intros H. inversion H as [|a' l' Hn Hd]; subst. split; [|exact Hd].
      destruct (zmem a l) eqn:E; [|reflexivity]. apply zmem_spec in E. contradiction.
Qed.

Lemma disjoint2b_spec a b : disjoint2b a b = true <-> disjoint2 a b.
Proof. unfold disjoint2b, disjoint2. rewrite orb_true_iff, !Z.leb_le. reflexivity. Qed.

Lemma no_overlap_valsb_spec ts : no_overlap_valsb ts = true <-> no_overlap_vals ts.
Proof.
  induction ts as [|a tl IH]; simpl.
  - split; intros _; [exact I|reflexivity].
  - rewrite andb_true_iff, forallb_forall, IH.
    split; intros [H1 H2]; (split; [|exact H2]); intros b Hb; apply disjoint2b_spec; auto.
Qed.

Lemma In_zseq len : forall start x, In x (zseq start len) <-> start <= x < start + Z.of_nat len.
Proof.
  induction len as [|len IH]; intros start x; simpl zseq; simpl In.
  - lia.
  - rewrite IH. lia.
Qed.

Lemma In_zrange lo hi x : In x (zrange lo hi) <-> lo <= x <= hi.
Proof. unfold zrange. rewrite In_zseq. lia. Qed.

Lemma load_cons a ts t : load (a :: ts) t = (if running t a then snd a else 0) + load ts t.
Proof. reflexivity. Qed.

Lemma load_idle ts t : (forall a, In a ts -> running t a = false) -> load ts t = 0.
Proof.
  induction ts as [|a tl IH]; intros H; [reflexivity|].
  rewrite load_cons, (H a (or_introl eq_refl)), IH; [reflexivity|].
  intros b Hb. apply H. right. exact Hb.
Qed.

Lemma load_early ts : exists t0, forall t, t <= t0 -> load ts t = 0.
Proof.
  induction ts as [|a tl [t0 IH]].
  - exists 0. intros t _. reflexivity.
  - exists (Z.min t0 (fst (fst a) - 1)). intros t Ht.
    rewrite load_cons, IH by lia.
    unfold running. replace (fst (fst a) <=? t) with false; [reflexivity|].
    symmetry. apply Z.leb_gt. lia.
Qed.

Lemma cumulative_valsb_spec ts cap : cumulative_valsb ts cap = true <-> cumulative_vals ts cap.
Proof.
  unfold cumulative_valsb, cumulative_vals.
  rewrite andb_true_iff, Z.leb_le, forallb_forall. split.
  - intros [Hc H] t. destruct (existsb (running t) ts) eqn:E.
    + apply existsb_exists in E. destruct E as [a [Ha Hr]].
      specialize (H a Ha). rewrite forallb_forall in H.
      apply Z.leb_le. apply H. apply In_zrange.
      unfold running in Hr. rewrite andb_true_iff, Z.leb_le, Z.ltb_lt in Hr. lia.
    + rewrite load_idle; [exact Hc|].
      intros a Ha. destruct (running t a) eqn:R; [|reflexivity].
      assert (existsb (running t) ts = true) as E'
        by (apply existsb_exists; exists a; split; assumption).
      congruence.
  - intros H. split.
    + destruct (load_early ts) as [t0 H0]. specialize (H t0). rewrite H0 in H by lia. exact H.
    + intros a _. apply forallb_forall. intros t _. apply Z.leb_le. apply H.
Qed.

Lemma circuit_range_b_spec ss : forall n i,
  circuit_range_b n i ss = true
  <-> forall j, (j < length ss)%nat -> 0 <= nth j ss 0 < n /\ nth j ss 0 <> i + Z.of_nat j.
Proof.
  induction ss as [|x tl IH]; intros n i; simpl.
  - split; [intros _ j Hj; lia|reflexivity].
  - rewrite !andb_true_iff, IH, Z.leb_le, Z.ltb_lt, negb_true_iff, Z.eqb_neq. split.
    + intros [[[H1 H2] H3] H4] [|j] Hj; [lia|]. specialize (H4 j ltac:(lia)). lia.
    + intros H. split; [specialize (H 0%nat ltac:(lia)); lia|].
      intros j Hj. specialize (H (S j) ltac:(lia)). lia.
Qed.

Lemma circuit_walk_b_spec ss k : forall cur,
  circuit_walk_b ss k cur = true
  <-> (forall j, (0 < j < k)%nat -> iter_nxt ss j cur <> 0) /\ iter_nxt ss k cur = 0.
Proof.
  induction k as [|k IH]; intros cur.
  - simpl. rewrite Z.eqb_eq. split; [intros H; split; [intros j Hj; lia|exact H]|intros [_ H]; exact H].
  - destruct k as [|k].
    + simpl. rewrite Z.eqb_eq.
      split; [intros H; split; [intros j Hj; lia|exact H]|intros [_ H]; exact H].
    + change (circuit_walk_b ss (S (S k)) cur)
        with (negb (nxt ss cur =? 0) && circuit_walk_b ss (S k) (nxt ss cur)).
      rewrite andb_true_iff, negb_true_iff, Z.eqb_neq, IH.
      change (iter_nxt ss (S (S k)) cur) with (iter_nxt ss (S k) (nxt ss cur)). split.
      * intros [H1 [H2 H3]]. split; [|exact H3].
        intros j Hj. destruct j as [|j]; [lia|].
        change (iter_nxt ss (S j) cur) with (iter_nxt ss j (nxt ss cur)).
        destruct j as [|j]; [exact H1|apply H2; lia].
      * intros [H1 H2]. split; [apply (H1 1%nat); lia|]. split; [|exact H2].
        intros j Hj. apply (H1 (S j)). lia.
Qed.

Lemma circuit_valsb_spec ss : circuit_valsb ss = true <-> circuit_vals ss.
Proof.
  unfold circuit_valsb, circuit_vals. cbv zeta.
  rewrite andb_true_iff, circuit_range_b_spec, circuit_walk_b_spec. reflexivity.
Qed.

Lemma holdsb_spec s c : holdsb s c = true <-> holds s c.
Proof.
  destruct c as [vs|v c|v c|v w|v w|l r is_ne|vs t|vs t|vs t|vs|ts|ts cap]; simpl.
  - apply nodupb_spec.
  - apply Z.eqb_eq.
  - rewrite negb_true_iff. apply Z.eqb_neq.
  - apply Z.eqb_eq.
  - rewrite negb_true_iff. apply Z.eqb_neq.
  - destruct is_ne; [rewrite negb_true_iff; apply Z.eqb_neq|apply Z.eqb_eq].
  - apply Z.eqb_eq.
  - apply Z.leb_le.
  - rewrite Z.geb_le. lia.
  - apply circuit_valsb_spec.
  - apply no_overlap_valsb_spec.
  - apply cumulative_valsb_spec.
Qed.

Lemma cp_solutionb_spec M s : cp_solutionb M s = true <-> cp_solution M s.
Proof.
  unfold cp_solutionb, cp_solution. rewrite andb_true_iff, in_domainsb_spec, forallb_forall.
  split; intros [H1 H2]; (split; [exact H1|]); intros c Hc; apply holdsb_spec; auto.
Qed.
