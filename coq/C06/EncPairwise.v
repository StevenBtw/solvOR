(* C06 - soundness + completeness of the encodings WITHOUT auxiliaries: ==/!= constant, ==/!= variable,
   all_different, no_overlap.  Each is an equivalence on SAT assignments under which the variables involved
   have exactly one value (EO, guaranteed by _encode_vars): models b (enc c) <-> the constraint on the decoded values.
   First the truth value of a variable's literal and the two shapes of forbidding clauses (values of one
   variable, pairs of values of two) that the other encodings share. *)
From Coq Require Import List ZArith Bool Lia.
From SV Require Import C06.CpAst C06.CpEnc C06.EncBasics.
Import ListNotations.
Open Scope Z_scope.

(* v is a variable with positive literals that has exactly one value under b *)
Definition VOK (b : asg) (v : var) : Prop := 0 < vbase v /\ EO b v.

Lemma EO_lit_b b v x : EO b v -> vlb v <= x <= vub v -> b (vlit v x) = (x =? bv b v).
Proof.
  intros H Hx. destruct (x =? bv b v) eqn:E.
  - apply Z.eqb_eq in E. apply (EO_lit b v x H Hx). exact E.
  - apply Z.eqb_neq in E. apply EO_lit_false; assumption.
Qed.

Lemma not_in_dom v x : in_dom v x = false -> ~ (vlb v <= x <= vub v).
Proof. intros H Hx. apply in_dom_iff in Hx. congruence. Qed.

Lemma VOK_dom b v : VOK b v -> vlb v <= bv b v <= vub v.
Proof. intros [_ He]. apply EO_bv_dom. exact He. Qed.

Lemma plit_true b v x : VOK b v -> vlb v <= x <= vub v -> lit_true b (vlit v x) = (x =? bv b v).
Proof.
  intros [Hb He] Hx. rewrite lit_true_pos by (apply vlit_pos; lia). apply (EO_lit_b b v x He Hx).
Qed.

Lemma nlit_true b v x : VOK b v -> vlb v <= x <= vub v -> lit_true b (- vlit v x) = negb (x =? bv b v).
Proof.
  intros [Hb He] Hx. rewrite lit_true_neg by (apply vlit_pos; lia). rewrite (EO_lit_b b v x He Hx). reflexivity.
Qed.

(* unit clauses against the values of v that are bad (the last variable of a chain in _encode_sum_le / _ge;
   the successor of a node in _encode_circuit) *)
Definition unit_forbid (v : var) (bad : Z -> bool) : cnf :=
  flat_map (fun a => if bad a then [[- vlit v a]] else []) (vdom v).

Lemma unit_forbid_ok b v (bad : Z -> bool) : VOK b v ->
  (models b (unit_forbid v bad) <-> bad (bv b v) = false).
Proof.
  intros Hv. pose proof (VOK_dom b v Hv) as Hd. unfold unit_forbid. rewrite models_flat_map. split.
  - intros H. specialize (H _ (proj2 (vdom_In v _) Hd)). destruct (bad (bv b v)); [|reflexivity].
    specialize (H _ (or_introl eq_refl)). cbn [clause_true existsb] in H.
    rewrite nlit_true, Z.eqb_refl in H by assumption. discriminate.
  - intros Hbad a Ha. apply vdom_In in Ha. destruct (bad a) eqn:E; [|intros ? []].
    intros ? [<-|[]]. cbn [clause_true existsb]. rewrite nlit_true by assumption.
    destruct (a =? bv b v) eqn:F; [|reflexivity]. apply Z.eqb_eq in F. subst a. congruence.
Qed.

Lemma map_filter_forbid v (bad : Z -> bool) l :
  map (fun x => [- vlit v x]) (filter bad l) = flat_map (fun a => if bad a then [[- vlit v a]] else []) l.
Proof. induction l as [|a tl IH]; simpl; [reflexivity|]. destruct (bad a); simpl; rewrite IH; reflexivity. Qed.

Lemma forbid_pairs_ok b v1 v2 (bad : Z -> Z -> bool) : VOK b v1 -> VOK b v2 ->
  (models b (flat_map (fun a => flat_map (fun c =>
      if bad a c then [[- vlit v1 a; - vlit v2 c]] else []) (vdom v2)) (vdom v1))
   <-> bad (bv b v1) (bv b v2) = false).
Proof.
  intros H1 H2. pose proof (VOK_dom b v1 H1) as Hd1. pose proof (VOK_dom b v2 H2) as Hd2.
  rewrite models_flat_map. split.
  - intros H. specialize (H _ (proj2 (vdom_In v1 _) Hd1)). rewrite models_flat_map in H.
    specialize (H _ (proj2 (vdom_In v2 _) Hd2)). destruct (bad (bv b v1) (bv b v2)); [|reflexivity].
    specialize (H _ (or_introl eq_refl)). cbn [clause_true existsb] in H.
    rewrite !nlit_true, !Z.eqb_refl in H by assumption. discriminate.
  - intros Hbad a Ha. rewrite models_flat_map. intros c Hc. apply vdom_In in Ha. apply vdom_In in Hc.
    destruct (bad a c) eqn:E; [|intros ? []]. intros ? [<-|[]]. cbn [clause_true existsb].
    rewrite !nlit_true by assumption.
    destruct (a =? bv b v1) eqn:F1; [|reflexivity]. destruct (c =? bv b v2) eqn:F2; [|reflexivity].
    apply Z.eqb_eq in F1. apply Z.eqb_eq in F2. subst. congruence.
Qed.

Lemma enc_eq_const_ok b v c : VOK b v -> (models b (enc_eq_const v c) <-> bv b v = c).
Proof.
  intros Hv. unfold enc_eq_const. pose proof (VOK_dom b v Hv) as Hd. destruct (in_dom v c) eqn:D.
  - apply in_dom_iff in D. rewrite models_one. cbn [clause_true existsb].
    rewrite plit_true, orb_false_r, Z.eqb_eq by assumption. split; auto.
  - apply not_in_dom in D. rewrite models_empty_clause. split; [tauto|]. intros <-. tauto.
Qed.

Lemma enc_ne_const_ok b v c : VOK b v -> (models b (enc_ne_const v c) <-> bv b v <> c).
Proof.
  intros Hv. unfold enc_ne_const. pose proof (VOK_dom b v Hv) as Hd. destruct (in_dom v c) eqn:D.
  - apply in_dom_iff in D. rewrite models_one. cbn [clause_true existsb].
    rewrite nlit_true, orb_false_r, negb_true_iff, Z.eqb_neq by assumption. split; auto.
  - apply not_in_dom in D. rewrite models_nil. split; [|tauto]. intros _ E. subst. tauto.
Qed.

Lemma common_In v w x : In x (common v w) <-> (vlb v <= x <= vub v) /\ (vlb w <= x <= vub w).
Proof. unfold common. rewrite filter_In, vdom_In, in_dom_iff. tauto. Qed.

(* the value of each variable lies in the domain of the other (unit clauses), and on the common values the
   two literals are equivalent *)
Lemma enc_eq_var_ok b v w : VOK b v -> VOK b w -> (models b (enc_eq_var v w) <-> bv b v = bv b w).
Proof.
  intros Hv Hw. pose proof (VOK_dom b v Hv) as Hdv. pose proof (VOK_dom b w Hw) as Hdw.
  unfold enc_eq_var. rewrite !models_app, !map_filter_forbid.
  fold (unit_forbid v (fun x => negb (in_dom w x))) (unit_forbid w (fun x => negb (in_dom v x))).
  rewrite (unit_forbid_ok b v _ Hv), (unit_forbid_ok b w _ Hw), !negb_false_iff, !in_dom_iff, models_flat_map.
  split.
  - intros [H1 [H2 _]]. specialize (H1 _ (proj2 (common_In v w _) (conj Hdv H2)) _ (or_introl eq_refl)).
    cbn [clause_true existsb] in H1.
    rewrite nlit_true, Z.eqb_refl, plit_true, orb_false_r in H1 by assumption. apply Z.eqb_eq in H1. exact H1.
  - intros E. split; [|split; [rewrite E; exact Hdw|rewrite <- E; exact Hdv]].
    intros x Hx. apply common_In in Hx. destruct Hx as [Hxv Hxw].
    intros c [<-|[<-|[]]]; cbn [clause_true existsb]; rewrite nlit_true, plit_true, <- ?E by assumption;
      destruct (x =? bv b v); reflexivity.
Qed.

Lemma enc_ne_var_ok b v w : VOK b v -> VOK b w -> (models b (enc_ne_var v w) <-> bv b v <> bv b w).
Proof.
  intros Hv Hw. pose proof (VOK_dom b v Hv) as Hdv. pose proof (VOK_dom b w Hw) as Hdw.
  unfold enc_ne_var. rewrite models_map. split.
  - intros H E. rewrite <- E in Hdw. specialize (H _ (proj2 (common_In v w _) (conj Hdv Hdw))).
    cbn [clause_true existsb] in H. rewrite !nlit_true, <- E, Z.eqb_refl in H by assumption. discriminate.
  - intros Hne x Hx. apply common_In in Hx. destruct Hx as [Hxv Hxw]. cbn [clause_true existsb].
    rewrite !nlit_true by assumption.
    destruct (x =? bv b v) eqn:E1; [|reflexivity]. destruct (x =? bv b w) eqn:E2; [|reflexivity].
    apply Z.eqb_eq in E1, E2. exfalso. apply Hne. congruence.
Qed.

Definition lits_at (vs : list var) (x : Z) : list lit :=
  map (fun v => vlit v x) (filter (fun v => in_dom v x) vs).

Lemma amo_short ls : (length ls <= 1)%nat -> amo ls = [].
Proof. destruct ls as [|a [|c tl]]; simpl; intros H; try reflexivity. lia. Qed.

Lemma lits_at_pos vs x : (forall v, In v vs -> 0 < vbase v) -> forall l, In l (lits_at vs x) -> 0 < l.
Proof.
  intros Hb l Hl. unfold lits_at in Hl. apply in_map_iff in Hl. destruct Hl as [v [<- Hv]].
  apply filter_In in Hv. destruct Hv as [Hv D]. apply in_dom_iff in D. apply vlit_pos; [apply Hb; exact Hv|lia].
Qed.

Lemma lits_at_true b vs x : (forall v, In v vs -> VOK b v) ->
  ((exists l, In l (lits_at vs x) /\ b l = true) <-> In x (map (bv b) vs)).
Proof.
  intros Hok. unfold lits_at. split.
  - intros [l [Hl Hbl]]. apply in_map_iff in Hl. destruct Hl as [v [<- Hv]]. apply filter_In in Hv.
    destruct Hv as [Hv D]. apply in_dom_iff in D. destruct (Hok v Hv) as [_ He].
    rewrite (EO_lit_b b v x He D) in Hbl. apply Z.eqb_eq in Hbl. apply in_map_iff. exists v. auto.
  - intros H. apply in_map_iff in H. destruct H as [v [E Hv]]. destruct (Hok v Hv) as [_ He].
    pose proof (EO_bv_dom b v He) as Hd. rewrite E in Hd.
    exists (vlit v x). split.
    + apply in_map_iff. exists v. split; [reflexivity|]. apply filter_In. split; [exact Hv|apply in_dom_iff; exact Hd].
    + rewrite (EO_lit_b b v x He Hd), E. apply Z.eqb_refl.
Qed.

Lemma amo_sem_lits_at b vs x : (forall v, In v vs -> VOK b v) ->
  (amo_sem b (lits_at vs x) <-> (count_occ Z.eq_dec (map (bv b) vs) x <= 1)%nat).
Proof.
  induction vs as [|v tl IH]; intros Hok; [simpl; split; [lia|auto]|].
  pose proof (fun w Hw => Hok w (or_intror Hw)) as Hok'. destruct (Hok v (or_introl eq_refl)) as [Hb He].
  pose proof (EO_bv_dom b v He) as Hd.
  pose proof (lits_at_true b tl x Hok') as HT. rewrite (count_occ_In Z.eq_dec) in HT.
  unfold lits_at in *. cbn [map filter count_occ].
  destruct (Z.eq_dec (bv b v) x) as [<-|N]; destruct (in_dom v _) eqn:D; cbn [map amo_sem]; rewrite ?IH by exact Hok'.
  - apply in_dom_iff in D. rewrite (EO_lit_b b v _ He D), Z.eqb_refl. split.
    + intros [H1 H2]. destruct (count_occ Z.eq_dec (map (bv b) tl) (bv b v)) eqn:C; [lia|]. exfalso.
      destruct (proj2 HT) as [l [Hl Hbl]]; [lia|]. rewrite (H1 eq_refl l Hl) in Hbl. discriminate.
    + intros H. split; [|lia]. intros _ c Hc. destruct (b c) eqn:Ec; [|reflexivity]. exfalso.
      assert (count_occ Z.eq_dec (map (bv b) tl) (bv b v) > 0)%nat by (apply HT; exists c; auto). lia.
  - exfalso. apply not_in_dom in D. tauto.
  - apply in_dom_iff in D. rewrite (EO_lit_b b v x He D). split; [intros [_ H]; exact H|]. intros H. split; [|exact H].
    intros F. apply Z.eqb_eq in F. congruence.
  - reflexivity.
Qed.

Lemma fold_min_le {A} (f : A -> Z) d l :
  fold_right (fun p a => Z.min (f p) a) d l <= d
  /\ forall p, In p l -> fold_right (fun p a => Z.min (f p) a) d l <= f p.
Proof.
  induction l as [|q tl [IH1 IH2]]; cbn [fold_right]; [split; [apply Z.le_refl|intros p []]|].
  split; [exact (Z.le_trans _ _ _ (Z.le_min_r _ _) IH1)|].
  intros p [<-|Hp]; [apply Z.le_min_l|exact (Z.le_trans _ _ _ (Z.le_min_r _ _) (IH2 p Hp))].
Qed.

Lemma fold_max_ge {A} (f : A -> Z) d l :
  d <= fold_right (fun p a => Z.max (f p) a) d l
  /\ forall p, In p l -> f p <= fold_right (fun p a => Z.max (f p) a) d l.
Proof.
  induction l as [|q tl [IH1 IH2]]; cbn [fold_right]; [split; [apply Z.le_refl|intros p []]|].
  split; [exact (Z.le_trans _ _ _ IH1 (Z.le_max_r _ _))|].
  intros p [<-|Hp]; [apply Z.le_max_l|exact (Z.le_trans _ _ _ (IH2 p Hp) (Z.le_max_r _ _))].
Qed.

Lemma all_vals_In vs x : In x (all_vals vs) <-> exists w, In w vs /\ vlb w <= x <= vub w.
Proof.
  unfold all_vals. destruct vs as [|v tl]; [simpl; split; [tauto|intros [w [[] _]]]|].
  rewrite filter_In, zrange_In, existsb_exists. split.
  - intros [_ [w [Hw D]]]. exists w. split; [exact Hw|apply in_dom_iff; exact D].
  - intros [w [Hw D]]. split; [|exists w; split; [exact Hw|apply in_dom_iff; exact D]].
    destruct (fold_min_le vlb (vlb v) tl) as [L1 L2], (fold_max_ge vub (vub v) tl) as [U1 U2].
    destruct Hw as [<-|Hw]; [lia|]. specialize (L2 w Hw). specialize (U2 w Hw). lia.
Qed.

Lemma enc_all_different_ok b vs : (forall v, In v vs -> VOK b v) ->
  (models b (enc_all_different vs) <-> NoDup (map (bv b) vs)).
Proof.
  intros Hok. unfold enc_all_different. rewrite models_flat_map, (NoDup_count_occ Z.eq_dec).
  assert (Hpos : forall v, In v vs -> 0 < vbase v) by (intros v Hv; apply (Hok v Hv)).
  assert (Hcl : forall x, models b (if 1 <? Z.of_nat (length (lits_at vs x)) then at_most_one (lits_at vs x) else [])
                          <-> (count_occ Z.eq_dec (map (bv b) vs) x <= 1)%nat).
  { intros x. rewrite <- amo_sem_lits_at by exact Hok.
    rewrite <- (amo_models b (lits_at vs x)) by (apply lits_at_pos; exact Hpos).
    unfold at_most_one. destruct (1 <? Z.of_nat (length (lits_at vs x))) eqn:E; [tauto|].
    rewrite amo_short by (apply Z.ltb_ge in E; lia). tauto. }
  split.
  - intros H x. destruct (in_dec Z.eq_dec x (map (bv b) vs)) as [Hin|Hn];
      [|rewrite (proj1 (count_occ_not_In Z.eq_dec _ _) Hn); lia].
    apply Hcl. apply (H x). apply all_vals_In. apply in_map_iff in Hin. destruct Hin as [w [E Hw]].
    exists w. split; [exact Hw|]. rewrite <- E. apply EO_bv_dom. apply (Hok w Hw).
  - intros H x _. apply Hcl. apply H.
Qed.

Lemma enc_disjunctive_ok b p q : VOK b (fst p) -> VOK b (fst q) ->
  (models b (enc_disjunctive p q) <-> disjoint2 (bv b (fst p), snd p) (bv b (fst q), snd q)).
Proof.
  destruct p as [v d1], q as [w d2]. cbn [fst snd]. intros Hv Hw. unfold enc_disjunctive, disjoint2. cbn [fst snd].
  rewrite (forbid_pairs_ok b v w (fun s1 s2 => negb (s1 + d1 <=? s2) && negb (s2 + d2 <=? s1)) Hv Hw).
  rewrite andb_false_iff, !negb_false_iff, !Z.leb_le. reflexivity.
Qed.

Lemma enc_no_overlap_ok b ts : (forall p, In p ts -> VOK b (fst p)) ->
  (models b (enc_no_overlap ts) <-> no_overlap_vals (map (fun p => (bv b (fst p), snd p)) ts)).
Proof.
  induction ts as [|p tl IH]; intros Hok; simpl; [apply models_nil|].
  assert (Hok' : forall q, In q tl -> VOK b (fst q)) by (intros q Hq; apply Hok; right; exact Hq).
  rewrite models_app, models_flat_map, IH by exact Hok'.
  split; intros [H1 H2]; split; auto.
  - intros q' Hq'. apply in_map_iff in Hq'. destruct Hq' as [q [<- Hq]].
    apply (enc_disjunctive_ok b p q); [apply Hok; left; reflexivity | apply Hok'; exact Hq | apply H1; exact Hq].
  - intros q Hq. apply (enc_disjunctive_ok b p q); [apply Hok; left; reflexivity | apply Hok'; exact Hq |].
    apply (H1 (bv b (fst q), snd q)). apply in_map_iff. exists q. auto.
Qed.
