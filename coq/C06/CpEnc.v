(* C06 - executable model of /repo/solvor/cp_encoder.py (SATEncoder): one Gallina function per
   `_encode_*` method, the fresh-literal counter (`self._next_bool`) threaded explicitly.
   Definitions; the only proofs are the two `leb_total` that the Sort functor asks for.

   Literal numbering is exactly the code's: value x of variable v is literal vbase v + (x - vlb v)
   (IntVar.__init__), auxiliaries are numbered from Model._next_bool upwards in creation order.
   Clause ORDER follows the code wherever the code's order is deterministic; `_encode_all_different`,
   `_encode_eq_var`, `_encode_ne_var` iterate Python sets of ints (hash order) - here they are visited
   in ascending order, and the harness compares `canon (encode M)` with `canon captured`
   (literals sorted inside each clause, clauses sorted: equality of multisets of clauses-as-multisets). *)
From Coq Require Import List ZArith Bool Lia Mergesort Orders.
From SV Require Import C06.CpAst.
Import ListNotations.
Open Scope Z_scope.

(* CNF semantics (verbatim the definitions of DESIGN.md appendix A / SV.C01.SatSpec, repeated to keep C06 self-contained) *)
Definition lit := Z.
Definition clause := list lit.
Definition cnf := list clause.
Definition asg := Z -> bool.
Definition lit_true (m : asg) (l : lit) : bool := if 0 <? l then m l else negb (m (- l)).
Definition clause_true (m : asg) (c : clause) : bool := existsb (lit_true m) c.
Definition models (m : asg) (f : cnf) : Prop := forall c, In c f -> clause_true m c = true.
Definition models_b (m : asg) (f : cnf) : bool := forallb (clause_true m) f.

(* itertools.combinations(lits, 2) -> [-a, -b] *)
Fixpoint amo (ls : list lit) : cnf :=
  match ls with
  | [] => []
  | a :: tl => map (fun b => [- a; - b]) tl ++ amo tl
  end.

(* _encode_exactly_one *)
Definition exactly_one (ls : list lit) : cnf :=
  match ls with [] => [] | _ :: _ => ls :: amo ls end.

(* _encode_at_most_one *)
Definition at_most_one (ls : list lit) : cnf := amo ls.

Definition lits_of (v : var) : list lit := map snd (bool_vars v).

(* _encode_vars *)
Definition enc_vars (vs : list var) : cnf := flat_map (fun v => exactly_one (lits_of v)) vs.

(* the auxiliary IntVar of _create_int_var(lb, ub) when the counter is n; its literals n, n+1, ... *)
Definition mk_aux (n lb ub : Z) : var := mkVar 0 lb ub false n.
Definition aux_size (lb ub : Z) : Z := Z.max 0 (ub - lb + 1).
(* _create_int_var: (variable, its exactly-one clauses, new counter) *)
Definition create_int_var (n lb ub : Z) : var * cnf * Z :=
  let v := mk_aux n lb ub in (v, exactly_one (lits_of v), n + aux_size lb ub).

Definition all_vals (vs : list var) : list Z :=
  match vs with
  | [] => []
  | v :: tl =>
      let lo := fold_right (fun w a => Z.min (vlb w) a) (vlb v) tl in
      let hi := fold_right (fun w a => Z.max (vub w) a) (vub v) tl in
      filter (fun x => existsb (fun w => in_dom w x) vs) (zrange lo hi)
  end.

(* _encode_all_different *)
Definition enc_all_different (vs : list var) : cnf :=
  flat_map (fun x =>
    let lits := map (fun v => vlit v x) (filter (fun v => in_dom v x) vs) in
    if (1 <? Z.of_nat (length lits)) then at_most_one lits else []) (all_vals vs).

(* _encode_eq_const / _encode_ne_const *)
Definition enc_eq_const (v : var) (c : Z) : cnf := if in_dom v c then [[vlit v c]] else [[]].
Definition enc_ne_const (v : var) (c : Z) : cnf := if in_dom v c then [[- vlit v c]] else [].

(* _encode_eq_var / _encode_ne_var *)
Definition common (v w : var) : list Z := filter (in_dom w) (vdom v).
Definition enc_eq_var (v w : var) : cnf :=
  flat_map (fun x => [[- vlit v x; vlit w x]; [vlit v x; - vlit w x]]) (common v w)
  ++ map (fun x => [- vlit v x]) (filter (fun x => negb (in_dom w x)) (vdom v))
  ++ map (fun x => [- vlit w x]) (filter (fun x => negb (in_dom v x)) (vdom w)).
Definition enc_ne_var (v w : var) : cnf :=
  map (fun x => [- vlit v x; - vlit w x]) (common v w).

(* a term coef*var (or a partial sum) as an insertion-ordered dict  value -> literal *)
Definition vmap := list (Z * lit).
Fixpoint mget (m : vmap) (k : Z) : option lit :=
  match m with
  | [] => None
  | (k', l) :: tl => if k' =? k then Some l else mget tl k
  end.
Definition term_map (t : var * Z) : vmap :=
  map (fun p => (snd t * fst p, snd p)) (bool_vars (fst t)).

(* sorted({...}) : ascending, duplicates removed *)
Fixpoint zinsert (x : Z) (l : list Z) : list Z :=
  match l with
  | [] => [x]
  | y :: tl => if x <? y then x :: l else if x =? y then l else y :: zinsert x tl
  end.
Definition sorted_set (l : list Z) : list Z := fold_right zinsert [] l.

Definition pair_sums (a b : vmap) : list Z :=
  sorted_set (flat_map (fun pa => map (fun pb => fst pa + fst pb) b) a).
Definition oget (o : option lit) : lit := match o with Some l => l | None => 0 end.

(* one round of the `while len(maps) > 2` loop: a = maps.pop(), b = maps.pop() *)
Definition fold_step (n : Z) (a b : vmap) : vmap * cnf * Z :=
  let sums := pair_sums a b in
  let total := combine sums (zseq n (length sums)) in
  (total,
   exactly_one (map snd total)
   ++ flat_map (fun pa => map (fun pb => [- snd pa; - snd pb; oget (mget total (fst pa + fst pb))]) b) a,
   n + Z.of_nat (length sums)).

Definition lin_final0 (target : Z) (is_ne : bool) : cnf :=
  if xorb (negb (target =? 0)) is_ne then [[]] else [].
Definition lin_final1 (m : vmap) (target : Z) (is_ne : bool) : cnf :=
  match mget m target with
  | Some l => if is_ne then [[- l]] else [[l]]
  | None => if is_ne then [] else [[]]
  end.
(* a, b = maps *)
Definition lin_final2 (a b : vmap) (target : Z) (is_ne : bool) : cnf :=
  flat_map (fun pa =>
    match mget b (target - fst pa) with
    | Some lb => if is_ne then [[- snd pa; - lb]] else [[- snd pa; lb]]
    | None => if is_ne then [] else [[- snd pa]]
    end) a.

(* the stack `maps` with its top first: a = top, b = next, rest = what is below (top first) *)
Fixpoint lin_fold (n : Z) (a b : vmap) (rest : list vmap) (target : Z) (is_ne : bool) : cnf * Z :=
  match rest with
  | [] => (lin_final2 b a target is_ne, n)            (* maps = [b; a] *)
  | c :: rest' =>
      let '(total, cl, n1) := fold_step n a b in
      let '(cl2, n2) := lin_fold n1 total c rest' target is_ne in
      (cl ++ cl2, n2)
  end.

Definition enc_lin_terms (n : Z) (ts : list (var * Z)) (const : Z) (is_ne : bool) : cnf * Z :=
  let target := - const in
  match rev (map term_map ts) with
  | [] => (lin_final0 target is_ne, n)
  | [a] => (lin_final1 a target is_ne, n)
  | a :: b :: rest => lin_fold n a b rest target is_ne
  end.

Definition enc_ne_expr (n : Z) (l r : expr) (is_ne : bool) : cnf * Z :=
  let '(ts, const) := linearize l r in enc_lin_terms n ts const is_ne.

Definition sum_lb (vs : list var) : Z := zsum (map vlb vs).
Definition sum_ub (vs : list var) : Z := zsum (map vub vs).

(* clauses [-v1[a], -v2[b], ps[a+b]] (or [-v1[a], -v2[b]] when a+b is not a value of ps and `strict`) *)
Definition partial_clauses (v1 v2 ps : var) (strict : bool) : cnf :=
  flat_map (fun a => flat_map (fun b =>
    if in_dom ps (a + b) then [[- vlit v1 a; - vlit v2 b; vlit ps (a + b)]]
    else if strict then [[- vlit v1 a; - vlit v2 b]] else []) (vdom v2)) (vdom v1).

(* _encode_sum_eq on the list v1 :: rest *)
Fixpoint sum_eq_go (n : Z) (v1 : var) (rest : list var) (t : Z) : cnf * Z :=
  if (t <? sum_lb (v1 :: rest)) || (sum_ub (v1 :: rest) <? t) then ([[]], n) else
  match rest with
  | [] => (enc_eq_const v1 t, n)
  | v2 :: rest' =>
      match rest' with
      | [] => (map (fun a => if in_dom v2 (t - a) then [- vlit v1 a; vlit v2 (t - a)] else [- vlit v1 a]) (vdom v1), n)
      | _ :: _ =>
          let '(ps, eo, n1) := create_int_var n (vlb v1 + vlb v2) (vub v1 + vub v2) in
          let '(cl, n2) := sum_eq_go n1 ps rest' t in
          (eo ++ partial_clauses v1 v2 ps false ++ cl, n2)
      end
  end.
Definition enc_sum_eq (n : Z) (vs : list var) (t : Z) : cnf * Z :=
  match vs with
  | [] => (if negb (t =? 0) then [[]] else [], n)
  | v1 :: rest => sum_eq_go n v1 rest t
  end.

Definition pair_forbid (v1 v2 : var) (bad : Z -> bool) : cnf :=
  flat_map (fun a => flat_map (fun b => if bad (a + b) then [[- vlit v1 a; - vlit v2 b]] else []) (vdom v2)) (vdom v1).

(* _encode_sum_le *)
Fixpoint sum_le_go (n : Z) (v1 : var) (rest : list var) (t : Z) : cnf * Z :=
  match rest with
  | [] => (flat_map (fun a => if t <? a then [[- vlit v1 a]] else []) (vdom v1), n)
  | v2 :: rest' =>
      match rest' with
      | [] => (pair_forbid v1 v2 (fun s => t <? s), n)
      | _ :: _ =>
          let '(ps, eo, n1) := create_int_var n (vlb v1 + vlb v2) (Z.min (vub v1 + vub v2) (t - sum_lb rest')) in
          let '(cl, n2) := sum_le_go n1 ps rest' t in
          (eo ++ partial_clauses v1 v2 ps true ++ cl, n2)
      end
  end.
Definition enc_sum_le (n : Z) (vs : list var) (t : Z) : cnf * Z :=
  match vs with
  | [] => (if t <? 0 then [[]] else [], n)
  | v1 :: rest => sum_le_go n v1 rest t
  end.

(* _encode_sum_ge *)
Fixpoint sum_ge_go (n : Z) (v1 : var) (rest : list var) (t : Z) : cnf * Z :=
  match rest with
  | [] => (flat_map (fun a => if a <? t then [[- vlit v1 a]] else []) (vdom v1), n)
  | v2 :: rest' =>
      match rest' with
      | [] => (pair_forbid v1 v2 (fun s => s <? t), n)
      | _ :: _ =>
          let '(ps, eo, n1) := create_int_var n (Z.max (vlb v1 + vlb v2) (t - sum_ub rest')) (vub v1 + vub v2) in
          let '(cl, n2) := sum_ge_go n1 ps rest' t in
          (eo ++ partial_clauses v1 v2 ps true ++ cl, n2)
      end
  end.
Definition enc_sum_ge (n : Z) (vs : list var) (t : Z) : cnf * Z :=
  match vs with
  | [] => (if 0 <? t then [[]] else [], n)
  | v1 :: rest => sum_ge_go n v1 rest t
  end.

Fixpoint indexed {A} (i : Z) (l : list A) : list (Z * A) :=
  match l with [] => [] | x :: tl => (i, x) :: indexed (i + 1) tl end.

(* t = [_create_int_var(0 if i == 0 else 1, n - 1) for i in range(n)] *)
Fixpoint mk_positions (n : Z) (cnt : Z) (is : list Z) : list var * cnf * Z :=
  match is with
  | [] => ([], [], cnt)
  | i :: tl =>
      let '(v, eo, c1) := create_int_var cnt (if i =? 0 then 0 else 1) (n - 1) in
      let '(vs, cl, c2) := mk_positions n c1 tl in
      (v :: vs, eo ++ cl, c2)
  end.

Definition dummy_var : var := mkVar 0 0 (-1) false 0.

Definition enc_circuit (cnt : Z) (vs : list var) : cnf * Z :=
  let n := Z.of_nat (length vs) in
  match vs with
  | [] => ([], cnt)
  | _ :: _ =>
      let ad := enc_all_different vs in
      let rng := flat_map (fun iv =>
                   flat_map (fun p => if (fst p =? fst iv) || negb ((0 <=? fst p) && (fst p <? n)) then [[- snd p]] else [])
                            (bool_vars (snd iv))) (indexed 0 vs) in
      if n <=? 1 then (ad ++ rng, cnt) else
      let '(t, eos, cnt1) := mk_positions n cnt (zrange 0 (n - 1)) in
      let t0 := nth 0 t dummy_var in
      let ord := flat_map (fun iv =>
                   let i := fst iv in let v := snd iv in
                   let ti := nth (Z.to_nat i) t dummy_var in
                   flat_map (fun j =>
                     if negb (j =? i) && in_dom v j then
                       let tj := nth (Z.to_nat j) t dummy_var in
                       flat_map (fun pi => flat_map (fun pj =>
                         if fst pj <=? fst pi then [[- vlit v j; - snd pi; - snd pj]] else []) (bool_vars tj)) (bool_vars ti)
                     else []) (zrange 1 (n - 1))) (indexed 0 vs) in
      (ad ++ rng ++ eos ++ [[vlit t0 0]] ++ ord, cnt1)
  end.

(* _encode_disjunctive_le *)
Definition enc_disjunctive (a b : var * Z) : cnf :=
  flat_map (fun s1 => flat_map (fun s2 =>
    if negb (s1 + snd a <=? s2) && negb (s2 + snd b <=? s1) then [[- vlit (fst a) s1; - vlit (fst b) s2]] else [])
    (vdom (fst b))) (vdom (fst a)).
Fixpoint enc_no_overlap (ts : list (var * Z)) : cnf :=
  match ts with
  | [] => []
  | a :: tl => flat_map (enc_disjunctive a) tl ++ enc_no_overlap tl
  end.

(* stable sort by decreasing demand: sorted(range(len), key=lambda i: -demands[i]) *)
Fixpoint insert_dem (x : lit * Z) (l : list (lit * Z)) : list (lit * Z) :=
  match l with
  | [] => [x]
  | y :: tl => if snd y <? snd x then x :: l else y :: insert_dem x tl
  end.
Definition sort_dem (l : list (lit * Z)) : list (lit * Z) :=
  fold_left (fun acc x => insert_dem x acc) l [].

(* extend(start, chosen, load) over order[start:] = rest *)
Fixpoint cap_extend (cap : Z) (rest : list (lit * Z)) (chosen : list lit) (ld : Z) : cnf :=
  match rest with
  | [] => []
  | (l, d) :: tl =>
      (if cap <? ld + d then [map Z.opp chosen ++ [- l]]
       else cap_extend cap tl (chosen ++ [l]) (ld + d))
      ++ cap_extend cap tl chosen ld
  end.
(* _encode_capacity_constraint *)
Definition enc_capacity (act : list (lit * Z)) (cap : Z) : cnf := cap_extend cap (sort_dem act) [] 0.

(* the tasks at one time point t: (definition clauses, active (literal, demand) list, counter) *)
Fixpoint cum_tasks (cnt : Z) (t : Z) (ts : list (var * Z * Z)) : cnf * list (lit * Z) * Z :=
  match ts with
  | [] => ([], [], cnt)
  | (v, d, dem) :: tl =>
      let lits := map (vlit v) (zrange (Z.max (vlb v) (t - d + 1)) (Z.min (vub v) t)) in
      match lits with
      | [] => cum_tasks cnt t tl
      | l0 :: more =>
          if dem <=? 0 then cum_tasks cnt t tl else
          match more with
          | [] => let '(cl, act, c2) := cum_tasks cnt t tl in (cl, (l0, dem) :: act, c2)
          | _ :: _ =>
              let r := cnt in
              let '(cl, act, c2) := cum_tasks (cnt + 1) t tl in
              (((- r) :: lits) :: map (fun l => [- l; r]) lits ++ cl, (r, dem) :: act, c2)
          end
      end
  end.

Fixpoint cum_times (cnt : Z) (times : list Z) (ts : list (var * Z * Z)) (cap : Z) : cnf * Z :=
  match times with
  | [] => ([], cnt)
  | t :: tl =>
      let '(cl, act, c1) := cum_tasks cnt t ts in
      let '(cl2, c2) := cum_times c1 tl ts cap in
      (cl ++ enc_capacity act cap ++ cl2, c2)
  end.

Definition enc_cumulative (cnt : Z) (ts : list (var * Z * Z)) (cap : Z) : cnf * Z :=
  match ts with
  | [] => ([], cnt)
  | (v, d, _) :: tl =>
      let min_start := fold_right (fun p a => Z.min (vlb (fst (fst p))) a) (vlb v) tl in
      let max_end := fold_right (fun p a => Z.max (vub (fst (fst p)) + snd (fst p)) a) (vub v + d) tl in
      cum_times cnt (zrange min_start (max_end - 1)) ts cap
  end.

Definition enc_constraint (n : Z) (c : cstr) : cnf * Z :=
  match c with
  | CAllDiff vs => (enc_all_different vs, n)
  | CEqConst v k => (enc_eq_const v k, n)
  | CNeConst v k => (enc_ne_const v k, n)
  | CEqVar v w => (enc_eq_var v w, n)
  | CNeVar v w => (enc_ne_var v w, n)
  | CLin l r is_ne => enc_ne_expr n l r is_ne
  | CSumEq vs t => enc_sum_eq n vs t
  | CSumLe vs t => enc_sum_le n vs t
  | CSumGe vs t => enc_sum_ge n vs t
  | CCircuit vs => enc_circuit n vs
  | CNoOverlap ts => (enc_no_overlap ts, n)
  | CCumulative ts cap => enc_cumulative n ts cap
  end.

Fixpoint enc_constraints (n : Z) (cs : list cstr) : cnf * Z :=
  match cs with
  | [] => ([], n)
  | c :: tl =>
      let '(cl, n1) := enc_constraint n c in
      let '(cl2, n2) := enc_constraints n1 tl in
      (cl ++ cl2, n2)
  end.

(* SATEncoder.solve up to the call of solve_sat: the clause list and the final counter *)
Definition encode (M : cpmodel) : cnf * Z :=
  let '(cl, n) := enc_constraints (m_next M) (m_cons M) in (enc_vars (m_vars M) ++ cl, n).

(* `if any(len(c) == 0 ...)`: INFEASIBLE is reported without calling solve_sat *)
Definition has_empty (f : cnf) : bool := existsb (fun c => match c with [] => true | _ => false end) f.

(* decode_sat_solution: first value (in bool_vars order) whose literal is true *)
Definition dec_var (b : asg) (v : var) : option Z := find (fun x => b (vlit v x)) (vdom v).
Definition decode (M : cpmodel) (b : asg) : list (nat * option Z) :=
  map (fun v => (vid v, dec_var b v)) (named_vars M).
(* the assignment read off a SAT model (0 where no literal is true) *)
Definition dec_asgn (vs : list var) (b : asg) : asgn :=
  fun i => match find (fun v => Nat.eqb (vid v) i) vs with
           | Some v => match dec_var b v with Some x => x | None => 0 end
           | None => 0
           end.

Fixpoint lex_leb (a b : list Z) : bool :=
  match a, b with
  | [], _ => true
  | _ :: _, [] => false
  | x :: xs, y :: ys => if x <? y then true else if y <? x then false else lex_leb xs ys
  end.
Module ZOrder <: TotalLeBool.
  Definition t := Z.
  Definition leb := Z.leb.
  Theorem leb_total : forall a1 a2, leb a1 a2 = true \/ leb a2 a1 = true.
  Proof. intros a b. unfold leb. destruct (Z.leb_spec a b); [left; reflexivity|right]. apply Z.leb_le. lia. Qed.
End ZOrder.
Module ZSort := Sort ZOrder.
Module ClauseOrder <: TotalLeBool.
  Definition t := list Z.
  Definition leb := lex_leb.
  Theorem leb_total : forall a1 a2, leb a1 a2 = true \/ leb a2 a1 = true.
  Proof.
    unfold leb. induction a1 as [|x xs IH]; intros [|y ys]; simpl; auto.
    destruct (x <? y) eqn:E1; auto. destruct (y <? x) eqn:E2; auto.
  Qed.
End ClauseOrder.
Module ClauseSort := Sort ClauseOrder.
Definition canon (f : cnf) : cnf := ClauseSort.sort (map ZSort.sort f).

Fixpoint clause_eqb (a b : list Z) : bool :=
  match a, b with
  | [], [] => true
  | x :: xs, y :: ys => (x =? y) && clause_eqb xs ys
  | _, _ => false
  end.
Fixpoint cnf_eqb (a b : cnf) : bool :=
  match a, b with
  | [], [] => true
  | x :: xs, y :: ys => clause_eqb x y && cnf_eqb xs ys
  | _, _ => false
  end.

(* the observable of one captured run: None = INFEASIBLE reported by the encoder itself (empty clause),
   Some clauses = the list handed to solve_sat *)
Definition obs_ok (M : cpmodel) (captured : option cnf) : bool :=
  let f := fst (encode M) in
  match captured with
  | None => has_empty f
  | Some cl => negb (has_empty f) && cnf_eqb (canon f) (canon cl)
  end.
(* literal comparison (same clause order, same literal order) - reported as a statistic only *)
Definition obs_literal (M : cpmodel) (captured : option cnf) : bool :=
  match captured with None => true | Some cl => cnf_eqb (fst (encode M)) cl end.
