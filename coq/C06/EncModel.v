(* C06 - composition: soundness / completeness / counter of the dispatcher enc_constraint for every kind,
   then whole models (encode = _encode_vars + every constraint with the counter threaded). *)
From Coq Require Import List ZArith Bool Lia.
From SV Require Import C06.CpAst C06.CpEnc C06.EncBasics C06.EncPairwise C06.EncFrame
                       C06.EncLinear C06.EncSum C06.EncCircuit C06.EncCircuit2 C06.EncCumul.
Import ListNotations.
Open Scope Z_scope.

(* the constraint kinds whose encoding is proved sound and complete: true of every constructor, so the hypothesis
   `model_proved M = true` of the theorems on whole models restricts nothing (model_proved_all) and
   Props/C06.v discharges it *)
Definition enc_proved (c : cstr) : bool :=
  match c with
  | CAllDiff _ | CEqConst _ _ | CNeConst _ _ | CEqVar _ _ | CNeVar _ _ | CLin _ _ _
  | CSumEq _ _ | CSumLe _ _ | CSumGe _ _ | CCircuit _ | CNoOverlap _ | CCumulative _ _ => true
  end.

Definition vfit (n : Z) (v : var) : Prop := 0 < vbase v /\ var_below n v.

Lemma map_aval_bv b s vs : (forall v, In v vs -> aval s v = bv b v) -> vals s vs = map (bv b) vs.
Proof. intros H. unfold vals. apply map_ext_in. exact H. Qed.

Lemma task_vals_bv b s ts : (forall v, In v (map fst ts) -> aval s v = bv b v) ->
  task_vals s ts = map (fun p : var * Z => (bv b (fst p), snd p)) ts.
Proof.
  intros H. unfold task_vals. apply map_ext_in. intros p Hp. rewrite H; [reflexivity|]. apply in_map. exact Hp.
Qed.

Lemma ctask_vals_bv b s ts : (forall v, In v (map (fun p : var * Z * Z => fst (fst p)) ts) -> aval s v = bv b v) ->
  ctask_vals s ts = cvals b ts.
Proof.
  intros H. unfold ctask_vals, cvals. apply map_ext_in. intros p Hp. rewrite H; [reflexivity|].
  apply (in_map (fun q : var * Z * Z => fst (fst q))). exact Hp.
Qed.

Lemma wf_cons_cumulative ts cap : wf_cons (CCumulative ts cap) = true -> (forall p, In p ts -> 0 <= snd p) /\ 0 <= cap.
Proof.
  cbn [wf_cons]. rewrite andb_true_iff, forallb_forall. intros [H1 H2]. split; [|apply Z.leb_le; exact H2].
  intros p Hp. apply Z.leb_le. apply H1. exact Hp.
Qed.

(* the kinds whose encoding creates no literal *)
Definition direct (c : cstr) : bool :=
  match c with
  | CAllDiff _ | CEqConst _ _ | CNeConst _ _ | CEqVar _ _ | CNeVar _ _ | CNoOverlap _ => true
  | _ => false
  end.

Lemma cstr_direct b s n c : direct c = true ->
  (forall v, In v (cons_vars c) -> VOK b v) -> (forall v, In v (cons_vars c) -> aval s v = bv b v) ->
  (models b (fst (enc_constraint n c)) <-> holds s c).
Proof.
  intros Hd Hv Hs. destruct c as [vs|v k|v k|v w|v w| | | | | |ts|]; try discriminate Hd;
    cbn [enc_constraint fst cons_vars holds] in *.
  - rewrite (map_aval_bv b s vs Hs). apply (enc_all_different_ok b vs Hv).
  - rewrite Hs by (left; reflexivity). apply (enc_eq_const_ok b v k), Hv. left. reflexivity.
  - rewrite Hs by (left; reflexivity). apply (enc_ne_const_ok b v k), Hv. left. reflexivity.
  - rewrite !Hs by (simpl; auto). apply (enc_eq_var_ok b v w); apply Hv; simpl; auto.
  - rewrite !Hs by (simpl; auto). apply (enc_ne_var_ok b v w); apply Hv; simpl; auto.
  - rewrite (task_vals_bv b s ts Hs). apply (enc_no_overlap_ok b ts). intros p Hp. apply Hv, in_map, Hp.
Qed.

Lemma cstr_counter n c : n <= snd (enc_constraint n c).
Proof.
  destruct c; cbn [enc_constraint snd]; try lia.
  - apply enc_ne_expr_counter.
  - apply enc_sum_eq_counter.
  - apply enc_sum_le_counter.
  - apply enc_sum_ge_counter.
  - apply enc_circuit_counter.
  - apply enc_cumulative_counter.
Qed.

Lemma cstr_sound b s n c : wf_cons c = true -> 0 < n ->
  (forall v, In v (cons_vars c) -> VOK b v) -> (forall v, In v (cons_vars c) -> aval s v = bv b v) ->
  models b (fst (enc_constraint n c)) -> holds s c.
Proof.
  intros Hw Hn Hv Hs Hm. destruct (direct c) eqn:Hd; [apply (cstr_direct b s n c Hd Hv Hs), Hm|].
  destruct c as [| | | | |l r ne|vs t|vs t|vs t|vs| |ts cap]; try discriminate Hd;
    cbn [enc_constraint fst cons_vars holds] in *.
  - apply (enc_ne_expr_sound b s n l r ne Hn Hv Hs Hm).
  - rewrite (map_aval_bv b s vs Hs). apply (enc_sum_eq_sound b n vs t Hn Hv Hm).
  - rewrite (map_aval_bv b s vs Hs). apply (enc_sum_le_sound b n vs t Hn Hv Hm).
  - rewrite (map_aval_bv b s vs Hs). apply (enc_sum_ge_sound b n vs t Hn Hv Hm).
  - rewrite (map_aval_bv b s vs Hs). apply (enc_circuit_sound b n vs Hn Hv Hm).
  - rewrite (ctask_vals_bv b s ts Hs). destruct (wf_cons_cumulative ts cap Hw) as [Hd' Hc].
    apply (enc_cumulative_sound b n ts cap Hn); try assumption.
    intros p Hp'. apply Hv. apply (in_map (fun q : var * Z * Z => fst (fst q))). exact Hp'.
Qed.

(* b gives every variable of the model exactly one value, that of s, on literals below n *)
Definition reads (b : asg) (s : asgn) (n : Z) (vars : list var) : Prop :=
  forall v, In v vars -> (VOK b v /\ var_below n v) /\ aval s v = bv b v.

Lemma reads_agree b b' s n n' vars : n <= n' -> agree_below n b b' -> reads b s n vars -> reads b' s n' vars.
Proof.
  intros Hn Ha H v Hv. destruct (H v Hv) as [[[Hb He] Hbel] Hs].
  split; [split; [apply (VOK_agree n b b' v Hbel Ha (conj Hb He))|unfold var_below in *; lia]|].
  rewrite (bv_agree n b b' v Hb Hbel Ha He). exact Hs.
Qed.

Lemma cstr_complete b s n c : wf_cons c = true -> 0 < n -> reads b s n (cons_vars c) -> holds s c ->
  exists b', agree_below n b b' /\ settled (snd (enc_constraint n c)) b' (fst (enc_constraint n c)).
Proof.
  intros Hw Hn Hr Hh.
  pose proof (fun v Hin => proj1 (Hr v Hin)) as Hv. pose proof (fun v Hin => proj2 (Hr v Hin)) as Hs.
  destruct (direct c) eqn:Hd.
  { (* an equivalence on values that later changes keep *)
    exists b. split; [apply agree_below_refl|]. intros b' Ha.
    pose proof (agree_below_trans n _ b b b' (cstr_counter n c) (agree_below_refl n b) Ha) as Ha0.
    pose proof (reads_agree b b' s n n _ (Z.le_refl n) Ha0 Hr) as Hr'.
    apply (cstr_direct b' s n c Hd); [intros v Hin; apply (Hr' v Hin)|intros v Hin; apply (Hr' v Hin)|exact Hh]. }
  destruct c as [| | | | |l r ne|vs t|vs t|vs t|vs| |ts cap]; try discriminate Hd;
    cbn [enc_constraint fst snd cons_vars holds] in *.
  - apply (enc_ne_expr_complete b s n l r ne Hn Hv Hs Hh).
  - apply (enc_sum_eq_complete b n vs t Hn Hv). unfold bsum. rewrite <- (map_aval_bv b s vs Hs). exact Hh.
  - apply (enc_sum_le_complete b n vs t Hn Hv). unfold bsum. rewrite <- (map_aval_bv b s vs Hs). exact Hh.
  - apply (enc_sum_ge_complete b n vs t Hn Hv). unfold bsum. rewrite <- (map_aval_bv b s vs Hs). exact Hh.
  - apply (enc_circuit_complete b n vs Hn Hv). rewrite <- (map_aval_bv b s vs Hs). exact Hh.
  - destruct (wf_cons_cumulative ts cap Hw) as [Hd' Hc].
    apply (enc_cumulative_complete b n ts cap Hn); try assumption.
    + intros p Hp'. apply Hv. apply (in_map (fun q : var * Z * Z => fst (fst q))). exact Hp'.
    + rewrite <- (ctask_vals_bv b s ts Hs). exact Hh.
Qed.

Lemma enc_constraints_cons n c cs :
  enc_constraints n (c :: cs) =
  (fst (enc_constraint n c) ++ fst (enc_constraints (snd (enc_constraint n c)) cs),
   snd (enc_constraints (snd (enc_constraint n c)) cs)).
Proof.
  cbn [enc_constraints]. destruct (enc_constraint n c) as [cl n1]. cbn [fst snd].
  destruct (enc_constraints n1 cs) as [cl2 n2]. reflexivity.
Qed.

Definition cs_ok (vars : list var) (cs : list cstr) : Prop :=
  forall c, In c cs -> wf_cons c = true /\ forall v, In v (cons_vars c) -> In v vars.

Lemma vfit_mono n n' v : n <= n' -> vfit n v -> vfit n' v.
Proof. unfold vfit, var_below. intros H [H1 H2]. split; lia. Qed.

Lemma reads_sub b s n vars ws : (forall v, In v ws -> In v vars) -> reads b s n vars -> reads b s n ws.
Proof. intros Hin Hr v Hv. apply Hr, Hin, Hv. Qed.

Lemma enc_constraints_counter cs : forall n, n <= snd (enc_constraints n cs).
Proof.
  induction cs as [|c tl IH]; intros n; [cbn [enc_constraints snd]; lia|].
  rewrite enc_constraints_cons. cbn [snd]. pose proof (cstr_counter n c). specialize (IH (snd (enc_constraint n c))). lia.
Qed.

Lemma enc_constraints_sound b s vars cs : forall n, 0 < n -> cs_ok vars cs -> reads b s n vars ->
  models b (fst (enc_constraints n cs)) -> forall c, In c cs -> holds s c.
Proof.
  induction cs as [|c0 tl IH]; intros n Hn Hok Hr Hm c Hc; [destruct Hc|].
  rewrite enc_constraints_cons in Hm. cbn [fst] in Hm. apply models_app in Hm. destruct Hm as [Hm1 Hm2].
  destruct (Hok c0 (or_introl eq_refl)) as [Hw Hin]. pose proof (cstr_counter n c0) as Hle.
  destruct Hc as [<-|Hc].
  - apply (cstr_sound b s n c0 Hw Hn); [| |exact Hm1]; intros v Hv0; apply (Hr v (Hin v Hv0)).
  - apply (IH (snd (enc_constraint n c0))); try assumption; [lia| |].
    + intros c' Hc'. apply Hok. right. exact Hc'.
    + apply (reads_agree b b s n _ vars Hle (agree_below_refl n b) Hr).
Qed.

Lemma enc_constraints_complete s vars cs : forall b n, 0 < n -> cs_ok vars cs -> reads b s n vars ->
  (forall c, In c cs -> holds s c) ->
  exists b', agree_below n b b' /\ settled (snd (enc_constraints n cs)) b' (fst (enc_constraints n cs)).
Proof.
  induction cs as [|c0 tl IH]; intros b n Hn Hok Hr Hh.
  - exists b. split; [apply agree_below_refl|]. intros b' _. cbn [enc_constraints fst]. apply models_nil. exact I.
  - destruct (Hok c0 (or_introl eq_refl)) as [Hw Hin]. pose proof (cstr_counter n c0) as Hle.
    destruct (cstr_complete b s n c0 Hw Hn (reads_sub b s n vars _ Hin Hr) (Hh c0 (or_introl eq_refl)))
      as [b1 [Hag1 Hm1]].
    set (n1 := snd (enc_constraint n c0)) in *.
    destruct (IH b1 n1 ltac:(lia) (fun c' Hc' => Hok c' (or_intror Hc')) (reads_agree b b1 s n n1 vars Hle Hag1 Hr)
                (fun c' Hc' => Hh c' (or_intror Hc'))) as [b' [Hag' Hm2]].
    exists b'. split; [apply (agree_below_trans n n1 b b1 b'); assumption|].
    rewrite enc_constraints_cons. cbn [fst snd]. apply settled_app. split; [|exact Hm2].
    exact (settled_later n1 _ b1 b' _ (enc_constraints_counter tl n1) Hag' Hm1).
Qed.

Lemma var_eqb_eq a c : var_eqb a c = true -> a = c.
Proof.
  destruct a as [i1 l1 u1 n1 b1]. destruct c as [i2 l2 u2 n2 b2]. unfold var_eqb. simpl.
  rewrite !andb_true_iff. intros [[[[H1 H2] H3] H4] H5].
  apply Nat.eqb_eq in H1. apply Z.eqb_eq in H2. apply Z.eqb_eq in H3. apply eqb_prop in H4. apply Z.eqb_eq in H5.
  subst. reflexivity.
Qed.

Lemma var_mem_In v vs : var_mem v vs = true -> In v vs.
Proof.
  unfold var_mem. rewrite existsb_exists. intros [w [Hw E]]. apply var_eqb_eq in E. subst. exact Hw.
Qed.

Lemma bases_ok_props vs : forall start n, bases_ok start vs = Some n ->
  start <= n /\ forall v, In v vs -> start <= vbase v /\ vlb v <= vub v /\ vbase v + (vub v - vlb v) < n.
Proof.
  induction vs as [|v tl IH]; intros start n H; simpl in H.
  - inversion H. split; [lia|intros v []].
  - destruct ((vbase v =? start) && (vlb v <=? vub v)) eqn:E; [|discriminate].
    apply andb_true_iff in E. destruct E as [E1 E2]. apply Z.eqb_eq in E1. apply Z.leb_le in E2.
    destruct (IH _ _ H) as [H1 H2]. split; [lia|]. intros w [<-|Hw]; [lia|].
    destruct (H2 w Hw) as [A [B C]]. lia.
Qed.

Lemma nat_nodupb_NoDup l : nat_nodupb l = true -> NoDup l.
Proof.
  induction l as [|x tl IH]; simpl; intros H; constructor.
  - apply andb_true_iff in H. destruct H as [H _]. apply negb_true_iff in H.
    intros Hin. assert (existsb (Nat.eqb x) tl = true) by (apply existsb_exists; exists x; split; [exact Hin|apply Nat.eqb_refl]).
    congruence.
  - apply IH. apply andb_true_iff in H. apply H.
Qed.

Record wf_props (M : cpmodel) : Prop := {
  wf_next : 0 < m_next M;
  wf_vars : forall v, In v (m_vars M) -> 0 < vbase v /\ vlb v <= vub v /\ var_below (m_next M) v;
  wf_ids : NoDup (map vid (m_vars M));
  wf_bases : bases_ok 1 (m_vars M) = Some (m_next M);
  wf_cvars : forall c, In c (m_cons M) -> forall v, In v (cons_vars c) -> In v (m_vars M);
  wf_wfc : forall c, In c (m_cons M) -> wf_cons c = true
}.

Lemma wf_model_props M : wf_model M = true -> wf_props M.
Proof.
  unfold wf_model. rewrite !andb_true_iff. intros [[H1 H2] H3].
  destruct (bases_ok 1 (m_vars M)) as [n|] eqn:EB; [|discriminate]. apply Z.eqb_eq in H2. subst n.
  destruct (bases_ok_props _ _ _ EB) as [Hn Hv]. constructor.
  - lia.
  - intros v Hin. destruct (Hv v Hin) as [A [B C]]. unfold var_below. lia.
  - apply nat_nodupb_NoDup. exact H1.
  - exact EB.
  - intros c Hc v Hvc. rewrite forallb_forall in H3. specialize (H3 c Hc). apply andb_true_iff in H3.
    destruct H3 as [H3 _]. rewrite forallb_forall in H3. apply var_mem_In. apply H3. exact Hvc.
  - intros c Hc. rewrite forallb_forall in H3. specialize (H3 c Hc). apply andb_true_iff in H3. apply H3.
Qed.

Lemma find_vid vs v : NoDup (map vid vs) -> In v vs -> find (fun w => Nat.eqb (vid w) (vid v)) vs = Some v.
Proof.
  induction vs as [|w tl IH]; intros Hnd Hin; [destruct Hin|]. simpl in *.
  inversion Hnd as [|? ? Hn Hnd']; subst. destruct Hin as [->|Hin].
  - rewrite Nat.eqb_refl. reflexivity.
  - destruct (Nat.eqb (vid w) (vid v)) eqn:E; [|apply IH; assumption].
    apply Nat.eqb_eq in E. exfalso. apply Hn. rewrite E. apply in_map. exact Hin.
Qed.

Lemma dec_asgn_bv vs b v : NoDup (map vid vs) -> In v vs -> aval (dec_asgn vs b) v = bv b v.
Proof. intros Hnd Hin. unfold aval, dec_asgn. rewrite (find_vid vs v Hnd Hin). reflexivity. Qed.

Definition init_asg (vs : list var) (s : asgn) (b : asg) : asg :=
  fold_left (fun b' v => set_var b' v (aval s v)) vs b.

Lemma init_asg_ok s vs : forall start n b, bases_ok start vs = Some n -> 0 < start ->
  (forall v, In v vs -> vlb v <= aval s v <= vub v) ->
  agree_below start b (init_asg vs s b)
  /\ forall v, In v vs -> EO (init_asg vs s b) v /\ bv (init_asg vs s b) v = aval s v.
Proof.
  induction vs as [|v tl IH]; intros start n b HB Hs Hd; simpl in *.
  - split; [apply agree_below_refl|intros v []].
  - destruct ((vbase v =? start) && (vlb v <=? vub v)) eqn:E; [|discriminate].
    apply andb_true_iff in E. destruct E as [E1 E2]. apply Z.eqb_eq in E1. apply Z.leb_le in E2.
    set (b1 := set_var b v (aval s v)).
    set (start' := start + (vub v - vlb v + 1)) in *.
    destruct (IH start' n b1 HB) as [Hag Hall]; [unfold start'; lia|intros w Hw; apply Hd; right; exact Hw|].
    fold (init_asg tl s b1) in *.
    split.
    + apply (agree_below_trans start start' b b1 _); [unfold start'; lia| |exact Hag].
      rewrite <- E1. apply set_var_agree.
    + intros w [<-|Hw]; [|apply Hall; exact Hw].
      destruct (set_var_EO b v (aval s v) (Hd v (or_introl eq_refl))) as [He Hbv]. fold b1 in He, Hbv.
      assert (Hbel : var_below start' v) by (unfold var_below, start'; lia).
      split; [apply (EO_agree start' b1 _ v); try assumption; lia|].
      rewrite (bv_agree start' b1 _ v); try assumption; lia.
Qed.

Definition model_proved (M : cpmodel) : bool := forallb enc_proved (m_cons M).

Lemma cs_ok_of M : wf_props M -> cs_ok (m_vars M) (m_cons M).
Proof. intros W c Hc. split; [apply (wf_wfc M W c Hc)|apply (wf_cvars M W c Hc)]. Qed.

Lemma encode_eq M : fst (encode M) = enc_vars (m_vars M) ++ fst (enc_constraints (m_next M) (m_cons M)).
Proof. unfold encode. destruct (enc_constraints (m_next M) (m_cons M)) as [cl n]. reflexivity. Qed.

Theorem encode_sound M b : wf_model M = true -> model_proved M = true -> models b (fst (encode M)) ->
  cp_solution M (dec_asgn (m_vars M) b)
  /\ forall v, In v (m_vars M) ->
       exists x, dec_var b v = Some x /\ aval (dec_asgn (m_vars M) b) v = x /\ vlb v <= x <= vub v
                 /\ forall y, vlb v <= y <= vub v -> (b (vlit v y) = true <-> y = x).
Proof.
  intros Hwf _ Hm. pose proof (wf_model_props M Hwf) as W. rewrite encode_eq in Hm.
  apply models_app in Hm. destruct Hm as [Hmv Hmc].
  assert (Hok : forall v, In v (m_vars M) -> var_ok v).
  { intros v Hv. destruct (wf_vars M W v Hv) as [A [B _]]. split; assumption. }
  pose proof (proj1 (enc_vars_models b (m_vars M) Hok) Hmv) as HEO.
  set (s := dec_asgn (m_vars M) b).
  assert (Hs : forall v, In v (m_vars M) -> aval s v = bv b v) by (intros v Hv; apply dec_asgn_bv; [apply (wf_ids M W)|exact Hv]).
  split; [split|].
  - intros v Hv. rewrite (Hs v Hv). apply EO_bv_dom. apply HEO. exact Hv.
  - apply (enc_constraints_sound b s (m_vars M) (m_cons M) (m_next M) (wf_next M W) (cs_ok_of M W)); [|exact Hmc].
    intros v Hv. destruct (wf_vars M W v Hv) as [A [_ C]]. split; [split; [split; [exact A|apply HEO, Hv]|exact C]|apply Hs, Hv].
  - intros v Hv. pose proof (HEO v Hv) as He. exists (bv b v).
    split; [apply EO_dec_var_bv, He|]. split; [apply Hs, Hv|]. split; [apply EO_bv_dom, He|].
    intros y Hy. apply (EO_lit b v y He Hy).
Qed.

Theorem encode_complete M s : wf_model M = true -> model_proved M = true -> cp_solution M s ->
  exists b, models b (fst (encode M)) /\ forall v, In v (m_vars M) -> dec_var b v = Some (aval s v).
Proof.
  intros Hwf _ [Hdom Hh]. pose proof (wf_model_props M Hwf) as W.
  destruct (init_asg_ok s (m_vars M) 1 (m_next M) (fun _ => false) (wf_bases M W)) as [_ H0]; [lia|exact Hdom|].
  set (b0 := init_asg (m_vars M) s (fun _ => false)) in *.
  assert (Hr0 : reads b0 s (m_next M) (m_vars M)).
  { intros v Hv. destruct (wf_vars M W v Hv) as [A [_ C]]. destruct (H0 v Hv) as [He Hbv]. repeat split; auto. }
  destruct (enc_constraints_complete s (m_vars M) (m_cons M) b0 (m_next M) (wf_next M W) (cs_ok_of M W) Hr0 Hh)
    as [b [Hag Hm]].
  pose proof (reads_agree b0 b s _ _ _ (Z.le_refl _) Hag Hr0) as Hr.
  exists b. split.
  - rewrite encode_eq. apply models_app. split; [|exact (settled_models _ _ _ Hm)].
    apply enc_vars_models; intros v Hv; [destruct (wf_vars M W v Hv) as [A [B _]]; split; assumption|apply (Hr v Hv)].
  - intros v Hv. destruct (Hr v Hv) as [[[_ He] _] Hbv]. rewrite Hbv. apply EO_dec_var_bv, He.
Qed.

(* the projections on the named variables coincide: decode of the CNF models = project of the CP solutions *)
Theorem encode_projection M : wf_model M = true -> model_proved M = true ->
  forall p : list (nat * option Z),
    (exists b, models b (fst (encode M)) /\ decode M b = p)
    <-> (exists s, cp_solution M s /\ map (fun q => (fst q, Some (snd q))) (project M s) = p).
Proof.
  intros Hwf Hp p. unfold decode, project. split.
  - intros [b [Hb <-]]. destruct (encode_sound M b Hwf Hp Hb) as [Hs Hd].
    exists (dec_asgn (m_vars M) b). split; [exact Hs|]. rewrite map_map. apply map_ext_in.
    intros v Hv. cbn [fst snd]. unfold named_vars in Hv. apply filter_In in Hv. destruct Hv as [Hv _].
    destruct (Hd v Hv) as [x [Hx [Hax _]]]. rewrite Hx, Hax. reflexivity.
  - intros [s [Hs <-]]. destruct (encode_complete M s Hwf Hp Hs) as [b [Hb Hd]].
    exists b. split; [exact Hb|]. rewrite map_map. apply map_ext_in.
    intros v Hv. cbn [fst snd]. unfold named_vars in Hv. apply filter_In in Hv. destruct Hv as [Hv _].
    rewrite (Hd v Hv). reflexivity.
Qed.

(* every kind is covered: the side condition model_proved is always true *)
Lemma model_proved_all M : model_proved M = true.
Proof. unfold model_proved. apply forallb_forall. intros c _. destruct c; reflexivity. Qed.
