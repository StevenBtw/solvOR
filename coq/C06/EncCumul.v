(* C06 - cumulative: _encode_cumulative + _encode_capacity_constraint.  Counter, soundness and completeness
   of `enc_cumulative` against `cumulative_vals` on the decoded start values. *)
From Coq Require Import List ZArith Bool Lia Permutation.
From SV Require Import C06.CpAst C06.CpAstProofs C06.CpEnc C06.EncBasics C06.EncPairwise C06.EncFrame.
Import ListNotations. Open Scope Z_scope.

(* the tasks (start, duration, demand) with the decoded start values *)
Definition cvals (b : asg) (ts : list (var * Z * Z)) : list (Z * Z * Z) :=
  map (fun p => (bv b (fst (fst p)), snd (fst p), snd p)) ts.

(* total demand of the active entries whose literal is true *)
Fixpoint true_demand (b : asg) (l : list (lit * Z)) : Z :=
  match l with [] => 0 | p :: tl => (if b (fst p) then snd p else 0) + true_demand b tl end.

Lemma true_demand_nonneg b l : (forall p, In p l -> 0 <= snd p) -> 0 <= true_demand b l.
Proof.
  induction l as [|p tl IH]; intros H; simpl; [lia|].
  assert (H1 : 0 <= snd p) by (apply H; left; reflexivity).
  assert (H2 : 0 <= true_demand b tl) by (apply IH; intros q Hq; apply H; right; exact Hq).
  destruct (b (fst p)); lia.
Qed.

Lemma true_demand_perm b l l' : Permutation l l' -> true_demand b l = true_demand b l'.
Proof. intros H. induction H; simpl; lia. Qed.

Lemma insert_dem_perm x l : Permutation (insert_dem x l) (x :: l).
Proof.
  induction l as [|y tl IH]; simpl; [apply Permutation_refl|].
  destruct (snd y <? snd x); [apply Permutation_refl|].
  apply perm_trans with (y :: x :: tl); [apply perm_skip; exact IH|apply perm_swap].
Qed.

Lemma sort_dem_perm_acc l : forall acc,
  Permutation (fold_left (fun acc x => insert_dem x acc) l acc) (l ++ acc).
Proof.
  induction l as [|a tl IH]; intros acc; simpl; [apply Permutation_refl|].
  apply perm_trans with (tl ++ insert_dem a acc); [apply IH|].
  apply perm_trans with (tl ++ a :: acc).
  - apply Permutation_app_head. apply insert_dem_perm.
  - apply Permutation_sym. apply Permutation_middle.
Qed.

Lemma sort_dem_perm l : Permutation (sort_dem l) l.
Proof.
  pose proof (sort_dem_perm_acc l []) as H. rewrite app_nil_r in H. exact H.
Qed.

(* `chosen` are the literals picked so far, ld their total demand: the clauses say that if all of them are true
   then the true ones among `rest` still fit *)
Lemma cap_extend_ok b cap rest : forall chosen ld,
  (forall p, In p rest -> 0 < fst p /\ 0 <= snd p) -> (forall l, In l chosen -> 0 < l) -> ld <= cap ->
  (models b (cap_extend cap rest chosen ld) <-> (forallb b chosen = true -> ld + true_demand b rest <= cap)).
Proof.
  induction rest as [|[l d] tl IH]; intros chosen ld Hpos Hch Hld; cbn [cap_extend true_demand fst snd].
  - rewrite models_nil. split; [intros _ _; lia|auto].
  - pose proof (fun p Hp => Hpos p (or_intror Hp)) as Hpos'.
    destruct (Hpos (l, d) (or_introl eq_refl)) as [Hl Hd]. cbn [fst snd] in Hl, Hd.
    assert (Hnn : 0 <= true_demand b tl) by (apply true_demand_nonneg; intros p Hp; apply Hpos'; exact Hp).
    assert (Hch' : forall x, In x (chosen ++ [l]) -> 0 < x).
    { intros x Hx. apply in_app_or in Hx. destruct Hx as [Hx|[<-|[]]]; auto. }
    (* picking l: either that already overloads (one clause) or the search goes on with l chosen *)
    assert (HX : models b (if cap <? ld + d then [map Z.opp chosen ++ [- l]]
                           else cap_extend cap tl (chosen ++ [l]) (ld + d))
                 <-> (forallb b (chosen ++ [l]) = true -> ld + d + true_demand b tl <= cap)).
    { destruct (cap <? ld + d) eqn:E; [|apply Z.ltb_ge in E; apply IH; assumption].
      apply Z.ltb_lt in E. change [- l] with (map Z.opp [l]).
      rewrite <- map_app, models_one, ct_negs, negb_true_iff by exact Hch'. split.
      - intros H1 H2. congruence.
      - intros H. destruct (forallb b (chosen ++ [l])); [specialize (H eq_refl); lia|reflexivity]. }
    pose proof (IH chosen ld Hpos' Hch Hld) as HY.
    (* with l true the first group is the stronger one (0 <= d), with l false only the second one speaks *)
    split.
    + intros Hm Hc. apply models_app in Hm. destruct Hm as [Hm1 Hm2]. pose proof (proj1 HY Hm2 Hc) as H2.
      destruct (b l) eqn:Bl; [|lia]. pose proof (proj1 HX Hm1) as H1.
      rewrite forallb_app in H1. cbn [forallb] in H1. rewrite Hc, Bl in H1. specialize (H1 eq_refl). lia.
    + intros H. apply models_app. split; [apply HX|apply HY]; intros Hc.
      * rewrite forallb_app in Hc. apply andb_true_iff in Hc. destruct Hc as [Hc Bl].
        cbn [forallb] in Bl. rewrite andb_true_r in Bl. specialize (H Hc). rewrite Bl in H. lia.
      * specialize (H Hc). destruct (b l); lia.
Qed.

Lemma enc_capacity_ok b act cap : (forall p, In p act -> 0 < fst p /\ 0 <= snd p) -> 0 <= cap ->
  (models b (enc_capacity act cap) <-> true_demand b act <= cap).
Proof.
  intros Hpos Hcap. unfold enc_capacity. rewrite cap_extend_ok; [|  |intros l []|exact Hcap].
  - rewrite (true_demand_perm b _ _ (sort_dem_perm act)). cbn [forallb]. split; [intros H; specialize (H eq_refl)|intros H _]; lia.
  - intros p Hp. apply Hpos. apply (Permutation_in _ (sort_dem_perm act)). exact Hp.
Qed.

(* literals of the start values at which the task (v, d) runs at time t *)
Definition wl (v : var) (d t : Z) : list lit :=
  map (vlit v) (zrange (Z.max (vlb v) (t - d + 1)) (Z.min (vub v) t)).
(* r <-> OR lits *)
Definition def_cl (r : lit) (lits : list lit) : cnf := ((- r) :: lits) :: map (fun l => [- l; r]) lits.
Arguments def_cl : simpl never.

Lemma wl_In v d t l : In l (wl v d t) <->
  exists x, l = vlit v x /\ vlb v <= x <= vub v /\ t - d + 1 <= x <= t.
Proof.
  unfold wl. rewrite in_map_iff. split.
  - intros [x [E Hx]]. apply zrange_In in Hx. destruct Hx as [H1 H2].
    apply Z.max_lub_iff in H1. apply Z.min_glb_iff in H2. exists x. split; [auto|tauto].
  - intros [x [E [[H1 H2] [H3 H4]]]]. exists x. split; [auto|]. apply zrange_In.
    split; [apply Z.max_lub|apply Z.min_glb]; assumption.
Qed.

Lemma wl_pos v d t : 0 < vbase v -> forall l, In l (wl v d t) -> 0 < l.
Proof. intros Hb l Hl. apply wl_In in Hl. destruct Hl as [x [-> Hx]]. apply vlit_pos; lia. Qed.

Lemma wl_below n v d t : 0 < vbase v -> var_below n v -> forall l, In l (wl v d t) -> 0 < l < n.
Proof.
  intros Hb Hv l Hl. apply wl_In in Hl. destruct Hl as [x [-> Hx]].
  unfold var_below, vlit in *. lia.
Qed.

Lemma wl_true b v d dem t : VOK b v -> existsb b (wl v d t) = running t (bv b v, d, dem).
Proof.
  intros [Hb He]. pose proof (EO_bv_dom b v He) as Hd. apply eq_true_iff_eq.
  rewrite existsb_exists. unfold running. simpl. rewrite andb_true_iff, Z.leb_le, Z.ltb_lt. split.
  - intros [l [Hl Hbl]]. apply wl_In in Hl. destruct Hl as [x [-> [Hx1 Hx2]]].
    rewrite (EO_lit_b b v x He Hx1) in Hbl. apply Z.eqb_eq in Hbl. lia.
  - intros H. exists (vlit v (bv b v)). split.
    + apply wl_In. exists (bv b v). split; [reflexivity|lia].
    + rewrite (EO_lit_b b v _ He Hd). apply Z.eqb_refl.
Qed.

Lemma def_cl_ok b r lits : 0 < r -> (forall l, In l lits -> 0 < l) ->
  (models b (def_cl r lits) <-> b r = existsb b lits).
Proof.
  intros Hr Hpos. unfold def_cl. rewrite models_cons, models_map.
  assert (E1 : clause_true b (- r :: lits) = negb (b r) || existsb b lits).
  { unfold clause_true. simpl. rewrite lit_true_neg by exact Hr. rewrite ct_poslist by exact Hpos. reflexivity. }
  rewrite E1. split.
  - intros [H1 H2]. destruct (b r) eqn:Br; destruct (existsb b lits) eqn:Ex; try reflexivity.
    + simpl in H1. discriminate.
    + apply existsb_exists in Ex. destruct Ex as [l [Hl Hbl]]. specialize (H2 l Hl).
      rewrite ct_np in H2 by (try exact Hr; apply Hpos; exact Hl). rewrite Hbl, Br in H2. discriminate.
  - intros E. split.
    + rewrite E. destruct (existsb b lits); reflexivity.
    + intros l Hl. rewrite ct_np by (try exact Hr; apply Hpos; exact Hl).
      destruct (b l) eqn:Bl; [|reflexivity]. simpl. rewrite E. apply existsb_exists. exists l. auto.
Qed.

Lemma cum_tasks_cons cnt t v d dem tl :
  cum_tasks cnt t ((v, d, dem) :: tl) =
  match wl v d t with
  | [] => cum_tasks cnt t tl
  | l0 :: more =>
      if dem <=? 0 then cum_tasks cnt t tl else
      match more with
      | [] => let '(cl, act, c2) := cum_tasks cnt t tl in (cl, (l0, dem) :: act, c2)
      | _ :: _ =>
          let '(cl, act, c2) := cum_tasks (cnt + 1) t tl in
          (def_cl cnt (wl v d t) ++ cl, (cnt, dem) :: act, c2)
      end
  end.
Proof. reflexivity. Qed.

(* what one more task does at time t: nothing (it cannot run at t, or demands nothing); or its single window
   literal becomes active; or a fresh literal, defined as the disjunction of its window literals, does *)
Lemma cum_tasks_case (P : cnf * list (lit * Z) * Z -> Prop) cnt t v d dem tl :
  (wl v d t = [] \/ dem <= 0 -> P (cum_tasks cnt t tl)) ->
  (forall l0, wl v d t = [l0] -> 0 < dem ->
     P (fst (fst (cum_tasks cnt t tl)), (l0, dem) :: snd (fst (cum_tasks cnt t tl)), snd (cum_tasks cnt t tl))) ->
  (0 < dem ->
     P (def_cl cnt (wl v d t) ++ fst (fst (cum_tasks (cnt + 1) t tl)),
        (cnt, dem) :: snd (fst (cum_tasks (cnt + 1) t tl)), snd (cum_tasks (cnt + 1) t tl))) ->
  P (cum_tasks cnt t ((v, d, dem) :: tl)).
Proof.
  intros H0 H1 H2. rewrite cum_tasks_cons.
  destruct (wl v d t) as [|l0 [|l1 more]]; [apply H0; left; reflexivity| |];
    (destruct (dem <=? 0) eqn:D; [apply H0; right; apply Z.leb_le; exact D|apply Z.leb_gt in D]).
  - specialize (H1 l0 eq_refl D). destruct (cum_tasks cnt t tl) as [[cl act] c2]. exact H1.
  - specialize (H2 D). destruct (cum_tasks (cnt + 1) t tl) as [[cl act] c2]. exact H2.
Qed.

Lemma cum_tasks_counter t ts : forall cnt, cnt <= snd (cum_tasks cnt t ts).
Proof.
  induction ts as [|[[v d] dem] tl IH]; intros cnt; [simpl; lia|].
  apply cum_tasks_case; cbn [snd]; intros; [apply IH|apply IH|specialize (IH (cnt + 1)); lia].
Qed.

Lemma cum_tasks_pos t ts : forall cnt, 0 < cnt -> (forall p, In p ts -> 0 < vbase (fst (fst p))) ->
  forall q, In q (snd (fst (cum_tasks cnt t ts))) -> 0 < fst q /\ 0 <= snd q.
Proof.
  induction ts as [|[[v d] dem] tl IH]; intros cnt Hc Hb q; [intros []|].
  pose proof (fun p Hp => Hb p (or_intror Hp)) as Hb'.
  pose proof (Hb _ (or_introl eq_refl)) as Hv. cbn [fst] in Hv.
  apply cum_tasks_case; cbn [fst snd].
  - intros _. apply (IH cnt Hc Hb').
  - intros l0 W Hdem [<-|Hq]; [|exact (IH cnt Hc Hb' q Hq)]. split; [|apply Z.lt_le_incl; exact Hdem].
    apply (wl_pos v d t Hv). rewrite W. left. reflexivity.
  - intros Hdem [<-|Hq]; [split; [exact Hc|apply Z.lt_le_incl; exact Hdem]|].
    apply (IH (cnt + 1)); [lia|exact Hb'|exact Hq].
Qed.

Lemma cum_tasks_load b t ts : forall cnt, 0 < cnt ->
  (forall p, In p ts -> VOK b (fst (fst p))) -> (forall p, In p ts -> 0 <= snd p) ->
  models b (fst (fst (cum_tasks cnt t ts))) ->
  true_demand b (snd (fst (cum_tasks cnt t ts))) = load (cvals b ts) t.
Proof.
  induction ts as [|[[v d] dem] tl IH]; intros cnt Hc Hok Hdem; [reflexivity|].
  pose proof (fun p Hp => Hok p (or_intror Hp)) as Hok'.
  pose proof (fun p Hp => Hdem p (or_intror Hp)) as Hdem'.
  pose proof (Hok _ (or_introl eq_refl)) as Hv. pose proof (Hdem _ (or_introl eq_refl)) as Hd0.
  cbn [fst snd] in Hv, Hd0. pose proof (wl_true b v d dem t Hv) as Hrun.
  change (cvals b ((v, d, dem) :: tl)) with ((bv b v, d, dem) :: cvals b tl).
  rewrite load_cons. cbn [snd]. apply cum_tasks_case; cbn [fst snd true_demand].
  - intros [W|D] Hm; rewrite (IH cnt Hc Hok' Hdem' Hm).
    + rewrite <- Hrun, W. reflexivity.
    + destruct (running t (bv b v, d, dem)); lia.
  - intros l0 W _ Hm. rewrite (IH cnt Hc Hok' Hdem' Hm), <- Hrun, W. cbn [existsb].
    rewrite orb_false_r. reflexivity.
  - intros _ Hm. apply models_app in Hm. destruct Hm as [Hm1 Hm2].
    apply def_cl_ok in Hm1; [|exact Hc|apply wl_pos; apply Hv].
    rewrite IH, Hm1, Hrun by (try assumption; lia). reflexivity.
Qed.

(* each fresh literal is set to "the task runs at t" *)
Lemma cum_tasks_complete t ts : forall b cnt, 0 < cnt ->
  (forall p, In p ts -> VOK b (fst (fst p)) /\ var_below cnt (fst (fst p))) ->
  exists b', agree_below cnt b b' /\ settled (snd (cum_tasks cnt t ts)) b' (fst (fst (cum_tasks cnt t ts))).
Proof.
  induction ts as [|[[v d] dem] tl IH]; intros b cnt Hc Hok.
  - exists b. split; [apply agree_below_refl|]. intros b' _. simpl. apply models_nil. exact I.
  - pose proof (fun p Hp => Hok p (or_intror Hp)) as Hok'.
    destruct (Hok _ (or_introl eq_refl)) as [Hv Hvb]. cbn [fst] in Hv, Hvb.
    apply cum_tasks_case; cbn [fst snd];
      [intros _; exact (IH b cnt Hc Hok')|intros l0 _ _; exact (IH b cnt Hc Hok')|].
    intros _. set (b1 := fun l : Z => if l =? cnt then existsb b (wl v d t) else b l).
    assert (Ha1 : agree_below cnt b b1).
    { intros l Hl. unfold b1. destruct (l =? cnt) eqn:E; [apply Z.eqb_eq in E; lia|reflexivity]. }
    destruct (IH b1 (cnt + 1)) as [b' [Ha Hm]]; [lia| |].
    { intros p Hp. destruct (Hok' p Hp) as [H1 H2].
      split; [exact (VOK_agree cnt b b1 _ H2 Ha1 H1)|apply (var_below_mono cnt); [lia|exact H2]]. }
    pose proof (cum_tasks_counter t tl (cnt + 1)) as Hcn.
    pose proof (agree_below_trans cnt (cnt + 1) b b1 b' ltac:(lia) Ha1 Ha) as Hab.
    exists b'. split; [exact Hab|]. apply settled_app. split; [|exact Hm]. intros b'' Ha''.
    apply def_cl_ok; [exact Hc|apply wl_pos; apply Hv|].
    rewrite (Ha'' cnt), (Ha cnt) by lia. unfold b1. rewrite Z.eqb_refl. symmetry.
    apply (existsb_agree cnt); [|eapply agree_below_trans; [|exact Hab|exact Ha'']; lia].
    intros l Hl. destruct (wl_below cnt v d t (proj1 Hv) Hvb l Hl). lia.
Qed.

Definition time_cl (cnt t : Z) (ts : list (var * Z * Z)) (cap : Z) : cnf :=
  fst (fst (cum_tasks cnt t ts)) ++ enc_capacity (snd (fst (cum_tasks cnt t ts))) cap.

Lemma time_sound b t ts cap cnt : 0 < cnt ->
  (forall p, In p ts -> VOK b (fst (fst p))) -> (forall p, In p ts -> 0 <= snd p) -> 0 <= cap ->
  models b (time_cl cnt t ts cap) -> load (cvals b ts) t <= cap.
Proof.
  intros Hc Hok Hdem Hcap Hm. apply models_app in Hm. destruct Hm as [Hm1 Hm2].
  rewrite <- (cum_tasks_load b t ts cnt Hc Hok Hdem Hm1).
  apply (enc_capacity_ok b _ cap); [|exact Hcap|exact Hm2].
  exact (cum_tasks_pos t ts cnt Hc (fun p Hp => proj1 (Hok p Hp))).
Qed.

Lemma cvals_agree n b b' ts : agree_below n b b' ->
  (forall p, In p ts -> VOK b (fst (fst p)) /\ var_below n (fst (fst p))) -> cvals b' ts = cvals b ts.
Proof.
  intros Ha H. unfold cvals. apply map_ext_in. intros p Hp. destruct (H p Hp) as [[Hb He] Hv].
  rewrite (bv_agree n b b' _ Hb Hv Ha He). reflexivity.
Qed.

Lemma time_complete b t ts cap cnt : 0 < cnt ->
  (forall p, In p ts -> VOK b (fst (fst p)) /\ var_below cnt (fst (fst p))) ->
  (forall p, In p ts -> 0 <= snd p) -> 0 <= cap -> load (cvals b ts) t <= cap ->
  exists b1, agree_below cnt b b1 /\ settled (snd (cum_tasks cnt t ts)) b1 (time_cl cnt t ts cap).
Proof.
  intros Hc Hok Hdem Hcap Hl. destruct (cum_tasks_complete t ts b cnt Hc Hok) as [b1 [Ha1 Hm1]].
  exists b1. split; [exact Ha1|]. intros b' Ha'. specialize (Hm1 b' Ha').
  pose proof (agree_below_trans cnt _ b b1 b' (cum_tasks_counter t ts cnt) Ha1 Ha') as Hab.
  assert (Hok' : forall p, In p ts -> VOK b' (fst (fst p))).
  { intros p Hp. destruct (Hok p Hp) as [H1 H2]. exact (VOK_agree cnt b b' _ H2 Hab H1). }
  apply models_app. split; [exact Hm1|]. apply enc_capacity_ok; [|exact Hcap|].
  - exact (cum_tasks_pos t ts cnt Hc (fun p Hp => proj1 (Hok' p Hp))).
  - rewrite (cum_tasks_load b' t ts cnt Hc Hok' Hdem Hm1), (cvals_agree cnt b b' ts Hab Hok). exact Hl.
Qed.

Lemma cum_times_cons cnt t tl ts cap :
  cum_times cnt (t :: tl) ts cap =
  (time_cl cnt t ts cap ++ fst (cum_times (snd (cum_tasks cnt t ts)) tl ts cap),
   snd (cum_times (snd (cum_tasks cnt t ts)) tl ts cap)).
Proof.
  unfold time_cl. cbn [cum_times]. destruct (cum_tasks cnt t ts) as [[cl act] c1]. cbn [fst snd].
  destruct (cum_times c1 tl ts cap) as [cl2 c2]. cbn [fst snd]. rewrite <- app_assoc. reflexivity.
Qed.

Lemma enc_cumulative_cons n v d dem tl cap :
  enc_cumulative n ((v, d, dem) :: tl) cap =
  cum_times n (zrange (fold_right (fun p a => Z.min (vlb (fst (fst p))) a) (vlb v) tl)
                      (fold_right (fun p a => Z.max (vub (fst (fst p)) + snd (fst p)) a) (vub v + d) tl - 1))
            ((v, d, dem) :: tl) cap.
Proof. reflexivity. Qed.

Lemma cum_times_counter ts cap times : forall cnt, cnt <= snd (cum_times cnt times ts cap).
Proof.
  induction times as [|t tl IH]; intros cnt; [simpl; lia|].
  rewrite cum_times_cons. cbn [snd]. pose proof (cum_tasks_counter t ts cnt).
  specialize (IH (snd (cum_tasks cnt t ts))). lia.
Qed.

Lemma enc_cumulative_counter n ts cap : n <= snd (enc_cumulative n ts cap).
Proof.
  destruct ts as [|[[v d] dem] tl]; [simpl; lia|].
  rewrite enc_cumulative_cons. apply cum_times_counter.
Qed.

Lemma cum_times_sound b ts cap times : forall cnt, 0 < cnt ->
  (forall p, In p ts -> VOK b (fst (fst p))) -> (forall p, In p ts -> 0 <= snd p) -> 0 <= cap ->
  models b (fst (cum_times cnt times ts cap)) -> forall t, In t times -> load (cvals b ts) t <= cap.
Proof.
  induction times as [|t0 tl IH]; intros cnt Hc Hok Hdem Hcap Hm t Ht; [destruct Ht|].
  rewrite cum_times_cons in Hm. cbn [fst] in Hm. apply models_app in Hm. destruct Hm as [Hm1 Hm2].
  destruct Ht as [<-|Ht]; [exact (time_sound b t0 ts cap cnt Hc Hok Hdem Hcap Hm1)|].
  apply (IH (snd (cum_tasks cnt t0 ts))); [|exact Hok|exact Hdem|exact Hcap|exact Hm2|exact Ht].
  pose proof (cum_tasks_counter t0 ts cnt). lia.
Qed.

Lemma cum_range_idle b ts lo hi t : (forall p, In p ts -> EO b (fst (fst p))) ->
  (forall p, In p ts -> lo <= vlb (fst (fst p)) /\ vub (fst (fst p)) + snd (fst p) - 1 <= hi) ->
  ~ (lo <= t <= hi) -> load (cvals b ts) t = 0.
Proof.
  intros He Hr Ht. apply load_idle. intros a Ha. unfold cvals in Ha. apply in_map_iff in Ha.
  destruct Ha as [p [<- Hp]]. pose proof (EO_bv_dom b _ (He p Hp)) as Hd. destruct (Hr p Hp) as [H1 H2].
  unfold running. cbn [fst snd].
  destruct (bv b (fst (fst p)) <=? t) eqn:E1; [|reflexivity]. apply Z.leb_le in E1.
  destruct (t <? bv b (fst (fst p)) + snd (fst p)) eqn:E2; [|reflexivity]. apply Z.ltb_lt in E2.
  exfalso. apply Ht. lia.
Qed.

Lemma cum_horizon_sound b ts cap lo hi cnt : 0 < cnt ->
  (forall p, In p ts -> VOK b (fst (fst p))) -> (forall p, In p ts -> 0 <= snd p) -> 0 <= cap ->
  (forall p, In p ts -> lo <= vlb (fst (fst p)) /\ vub (fst (fst p)) + snd (fst p) - 1 <= hi) ->
  models b (fst (cum_times cnt (zrange lo hi) ts cap)) -> cumulative_vals (cvals b ts) cap.
Proof.
  intros Hc Hok Hdem Hcap Hr Hm t. assert (Ht : lo <= t <= hi \/ ~ (lo <= t <= hi)) by lia. destruct Ht as [Ht|Ht].
  - apply (cum_times_sound b ts cap _ cnt Hc Hok Hdem Hcap Hm). apply zrange_In. exact Ht.
  - rewrite (cum_range_idle b ts lo hi t); [exact Hcap| |exact Hr|exact Ht]. intros p Hp. apply (Hok p Hp).
Qed.

Lemma enc_cumulative_sound b n ts cap : 0 < n -> (forall p, In p ts -> VOK b (fst (fst p))) ->
  (forall p, In p ts -> 0 <= snd p) -> 0 <= cap ->
  models b (fst (enc_cumulative n ts cap)) -> cumulative_vals (cvals b ts) cap.
Proof.
  intros Hn Hok Hdem Hcap Hm. destruct ts as [|[[v d] dem] tl]; [intros t; simpl; exact Hcap|].
  rewrite enc_cumulative_cons in Hm. refine (cum_horizon_sound b _ cap _ _ n Hn Hok Hdem Hcap _ Hm).
  destruct (fold_min_le (fun p : var * Z * Z => vlb (fst (fst p))) (vlb v) tl) as [Hlo1 Hlo2].
  destruct (fold_max_ge (fun p : var * Z * Z => vub (fst (fst p)) + snd (fst p)) (vub v + d) tl) as [Hhi1 Hhi2].
  intros p [<-|Hp]; cbn [fst snd]; [lia|]. specialize (Hlo2 p Hp). specialize (Hhi2 p Hp). cbv beta in Hlo2, Hhi2. lia.
Qed.

Lemma cum_times_complete ts cap times : forall b cnt, 0 < cnt ->
  (forall p, In p ts -> VOK b (fst (fst p)) /\ var_below cnt (fst (fst p))) ->
  (forall p, In p ts -> 0 <= snd p) -> 0 <= cap ->
  cumulative_vals (cvals b ts) cap ->
  exists b', agree_below cnt b b'
    /\ settled (snd (cum_times cnt times ts cap)) b' (fst (cum_times cnt times ts cap)).
Proof.
  induction times as [|t tl IH]; intros b cnt Hc Hok Hdem Hcap Hcum.
  - exists b. split; [apply agree_below_refl|]. intros b' _. simpl. apply models_nil. exact I.
  - destruct (time_complete b t ts cap cnt Hc Hok Hdem Hcap (Hcum t)) as [b1 [Ha1 Hm1]].
    pose proof (cum_tasks_counter t ts cnt) as H1.
    destruct (IH b1 (snd (cum_tasks cnt t ts))) as [b2 [Ha2 Hm2]]; [lia| |exact Hdem|exact Hcap| |].
    { intros p Hp. destruct (Hok p Hp) as [H2 H3]. split; [exact (VOK_agree cnt b b1 _ H3 Ha1 H2)|].
      apply (var_below_mono cnt); assumption. }
    { rewrite (cvals_agree cnt b b1 ts Ha1 Hok). exact Hcum. }
    exists b2. split; [apply (agree_below_trans cnt _ b b1 b2 H1); assumption|].
    rewrite cum_times_cons. cbn [fst snd]. apply settled_app. split; [|exact Hm2].
    exact (settled_later _ _ b1 b2 _ (cum_times_counter ts cap tl _) Ha2 Hm1).
Qed.

Lemma enc_cumulative_complete b n ts cap : 0 < n ->
  (forall p, In p ts -> VOK b (fst (fst p)) /\ var_below n (fst (fst p))) ->
  (forall p, In p ts -> 0 <= snd p) -> 0 <= cap ->
  cumulative_vals (cvals b ts) cap ->
  exists b', agree_below n b b'
    /\ settled (snd (enc_cumulative n ts cap)) b' (fst (enc_cumulative n ts cap)).
Proof.
  intros Hn Hok Hdem Hcap Hcum. destruct ts as [|[[v d] dem] tl].
  - exists b. split; [apply agree_below_refl|]. intros b' _. simpl. apply models_nil. exact I.
  - rewrite enc_cumulative_cons. apply cum_times_complete; assumption.
Qed.
