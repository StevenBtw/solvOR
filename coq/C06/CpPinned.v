(* C06 - the circuit encoding as it was BEFORE fix 5a875d8 (the tree pinned by the property text), and the
   witness of the property text: on 4 nodes it admits s = [1;0;3;2] (two 2-cycles).
   Pinned code: _create_int_var emitted no exactly-one for the MTZ position variables, and the ordering
   loop ranged `ti` over the SUCCESSOR's domain and `tj` over t[j].lb..ti. *)
From Coq Require Import List ZArith Lia.
From SV Require Import C06.CpAst C06.CpEnc.
Import ListNotations.
Open Scope Z_scope.

Fixpoint mk_positions_pinned (n : Z) (cnt : Z) (is : list Z) : list var * Z :=
  match is with
  | [] => ([], cnt)
  | i :: tl =>
      let lb := if i =? 0 then 0 else 1 in
      let v := mk_aux cnt lb (n - 1) in
      let '(vs, c2) := mk_positions_pinned n (cnt + aux_size lb (n - 1)) tl in
      (v :: vs, c2)
  end.

Definition enc_circuit_pinned (cnt : Z) (vs : list var) : cnf * Z :=
  let n := Z.of_nat (length vs) in
  match vs with
  | [] => ([], cnt)
  | _ :: _ =>
      let ad := enc_all_different vs in
      let noself := flat_map (fun iv => if in_dom (snd iv) (fst iv) then [[- vlit (snd iv) (fst iv)]] else []) (indexed 0 vs) in
      if n <=? 1 then (ad ++ noself, cnt) else
      let '(t, cnt1) := mk_positions_pinned n cnt (zrange 0 (n - 1)) in
      let t0 := nth 0 t dummy_var in
      let ord := flat_map (fun iv =>
                   let i := fst iv in let v := snd iv in
                   let ti_var := nth (Z.to_nat i) t dummy_var in
                   flat_map (fun j =>
                     if in_dom v j then
                       let tj_var := nth (Z.to_nat j) t dummy_var in
                       flat_map (fun ti =>
                         if in_dom ti_var ti then
                           flat_map (fun tj => if in_dom tj_var tj then [[- vlit v j; - vlit ti_var ti; - vlit tj_var tj]] else [])
                                    (zrange (vlb tj_var) ti)
                         else []) (vdom v)
                     else []) (zrange 1 (n - 1))) (indexed 0 vs) in
      (ad ++ noself ++ [[vlit t0 0]] ++ ord, cnt1)
  end.

Definition pinned_vars : list var :=
  [mkVar 0 0 3 true 1; mkVar 1 0 3 true 5; mkVar 2 0 3 true 9; mkVar 3 0 3 true 13].
Definition pinned_cnf : cnf := enc_vars pinned_vars ++ fst (enc_circuit_pinned 17 pinned_vars).
(* s0=1, s1=0, s2=3, s3=2, t0=0, every other position literal false *)
Definition pinned_asg : asg := fun l => zmem l [2; 5; 12; 15; 17].

Lemma circuit_pinned_refuted :
  exists b : asg,
    models b pinned_cnf
    /\ map (dec_var b) pinned_vars = [Some 1; Some 0; Some 3; Some 2]
    /\ (forall v, In v pinned_vars -> length (filter (fun x => b (vlit v x)) (vdom v)) = 1%nat)
    /\ ~ circuit_vals [1; 0; 3; 2].
Proof.
  exists pinned_asg. split; [|split; [|split]].
  - assert (H : models_b pinned_asg pinned_cnf = true) by (vm_compute; reflexivity).
    intros c Hc. unfold models_b in H. rewrite forallb_forall in H. exact (H c Hc).
  - vm_compute. reflexivity.
  - intros v Hv. simpl in Hv.
    destruct Hv as [<-|[<-|[<-|[<-|[]]]]]; vm_compute; reflexivity.
  - intros [_ [H _]]. apply (H 2%nat); [simpl; lia | reflexivity].
Qed.

(* The encoding of the current tree rejects these successor values however the position literals are chosen:
   an instance of EncCircuit2.enc_circuit_sound; CpCheck.cnf_projection_ok also decides it on the 4-node circuit
   case of the harness's fixed corpus. *)
