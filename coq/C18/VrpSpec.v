(* Specification of property C18 (VRPTW part): the bookkeeping invariant of a VRPState as a Prop and as a boolean
   checker proved sound, and the documented objective as a function of (routes, unassigned) only.  coqc judges the
   IMPLEMENTATION's states with `spec_chk` (Cases/C18/vrp_spec_*.v), independently of the operator model. *)
From Coq Require Import List ZArith Bool Arith Lia.
From SV Require Import C18.Vrp.
Import ListNotations.
Open Scope Z_scope.

Definition on_route (c : nat) (st : vstate) : Prop := exists r, In r (routes st) /\ In c r.

(* invariant I of the contract *)
Record vrp_inv (I : inst) (st : vstate) : Prop := {
  (* one route and one arrival list per vehicle *)
  inv_shape_r : length (routes st) = nveh I;
  inv_shape_a : length (arrivals st) = nveh I;
  (* unassigned is a set of customers; routes visit customers (never the depot, never an unknown id) *)
  inv_un_nodup : NoDup (unassigned st);
  inv_un_valid : forall c, In c (unassigned st) -> valid_id I c = true;
  inv_rt_valid : forall r c, In r (routes st) -> In c r -> valid_id I c = true;
  (* never in both *)
  inv_never_both : forall c, In c (unassigned st) -> ~ on_route c st;
  (* never lost *)
  inv_never_lost : forall c, valid_id I c = true -> In c (unassigned st) \/ on_route c st;
  (* never twice on the same route *)
  inv_no_repeat : forall r, In r (routes st) -> NoDup r;
  (* a single-vehicle customer is on at most one route (hence, when not unassigned, on exactly one) *)
  inv_single : forall c v1 v2, (c_req (cget I c) <= 1)%nat ->
                 In c (nth v1 (routes st) []) -> In c (nth v2 (routes st) []) -> v1 = v2;
  (* arrival times are the recomputation from the routes: travel, waiting, service *)
  inv_arrivals : arrivals st = map (compute_arrivals I) (routes st)
}.

(* the documented weighted sum, as a function of the routes and the unassigned set only *)
Definition objective_spec (W : weights) (I : inst) (rs : list (list nat)) (un : list nat) : Z :=
  objective W I (mkSt rs un (map (compute_arrivals I) rs)).

Definition vrp_spec (W : weights) (I : inst) (st : vstate) (obj : Z) : Prop :=
  vrp_inv I st /\ obj = objective_spec W I (routes st) (unassigned st).

Definition on_routeb (c : nat) (st : vstate) : bool := existsb (memb c) (routes st).
Definition count_routes (c : nat) (rs : list (list nat)) : nat := length (filter (memb c) rs).
Definition all_ids (I : inst) : list nat := seq 1 (ncust I - 1).

Definition spec_check (I : inst) (st : vstate) : bool :=
  (length (routes st) =? nveh I)%nat
  && (length (arrivals st) =? nveh I)%nat
  && nodupb (unassigned st)
  && forallb (valid_id I) (unassigned st)
  && forallb (forallb (valid_id I)) (routes st)
  && forallb (fun c => negb (on_routeb c st)) (unassigned st)
  && forallb (fun c => memb c (unassigned st) || on_routeb c st) (all_ids I)
  && forallb nodupb (routes st)
  && forallb (fun c => (1 <? c_req (cget I c))%nat || (count_routes c (routes st) <=? 1)%nat) (all_ids I)
  && ll_z_eqb (arrivals st) (map (compute_arrivals I) (routes st)).

Definition obj_check (W : weights) (I : inst) (st : vstate) (obj : Z) : bool :=
  objective_spec W I (routes st) (unassigned st) =? obj.

(* `_chk`: a checker on one case tuple, the form the generated case files call; here spec_check and obj_check together *)
Definition spec_case : Type := weights * inst * vstate * Z.
Definition spec_chk (c : spec_case) : bool :=
  match c with (W, ins0, st, obj) => spec_check ins0 st && obj_check W ins0 st obj end.

Lemma memb_In c l : memb c l = true <-> In c l.
Proof.
  unfold memb. rewrite existsb_exists. split.
  - intros [x [Hx He]]. apply Nat.eqb_eq in He. subst. exact Hx.
  - intros H. exists c. split; [exact H | apply Nat.eqb_refl].
Qed.

Lemma memb_false c l : memb c l = false <-> ~ In c l.
Proof. rewrite <- memb_In. destruct (memb c l); split; congruence. Qed.

Lemma nodupb_NoDup l : nodupb l = true <-> NoDup l.
Proof.
  induction l as [|x r IH]; simpl.
  - split; [constructor | reflexivity].
  - rewrite andb_true_iff, negb_true_iff, memb_false, IH. split.
    + intros [H1 H2]. constructor; assumption.
    + intros H. inversion H; subst. split; assumption.
Qed.

(* the list comparisons of Vrp.v (same length, equal entries pairwise) decide equality when the entry test does *)
Lemma list_eqb_eq {A} (eqb : A -> A -> bool) (Heq : forall x y, eqb x y = true -> x = y) : forall a b,
  (length a =? length b)%nat && forallb (fun p => eqb (fst p) (snd p)) (combine a b) = true -> a = b.
Proof.
  induction a as [|x xs IH]; intros [|y ys] H; simpl in *; try reflexivity; try discriminate.
  apply andb_true_iff in H. destruct H as [Hl H]. apply andb_true_iff in H. destruct H as [He H].
  apply Heq in He. subst. f_equal. apply IH. rewrite Hl. exact H.
Qed.

Lemma list_z_eqb_eq a b : list_z_eqb a b = true -> a = b.
Proof. exact (list_eqb_eq Z.eqb (fun x y => proj1 (Z.eqb_eq x y)) a b). Qed.

Lemma ll_z_eqb_eq a b : ll_z_eqb a b = true -> a = b.
Proof. exact (list_eqb_eq list_z_eqb list_z_eqb_eq a b). Qed.

Lemma on_routeb_iff c st : on_routeb c st = true <-> on_route c st.
Proof.
  unfold on_routeb, on_route. rewrite existsb_exists. split; intros [r [H1 H2]]; exists r; split; try exact H1;
    apply memb_In; exact H2.
Qed.

Lemma valid_id_all_ids I c : valid_id I c = true <-> In c (all_ids I).
Proof.
  unfold valid_id, all_ids. rewrite in_seq, andb_true_iff, Nat.leb_le, Nat.ltb_lt. lia.
Qed.

Lemma count_routes_one c rs : forall v, In c (nth v rs []) -> (1 <= count_routes c rs)%nat.
Proof.
  unfold count_routes. induction rs as [|r rest IH]; intros [|v] H; simpl in *; try contradiction.
  - apply memb_In in H. rewrite H. simpl. lia.
  - specialize (IH v H). destruct (memb c r); simpl; lia.
Qed.

Lemma count_routes_two c rs : forall v1 v2, v1 <> v2 ->
  In c (nth v1 rs []) -> In c (nth v2 rs []) -> (2 <= count_routes c rs)%nat.
Proof.
  induction rs as [|r rest IH]; intros [|v1] [|v2] Hne H1 H2; simpl in H1, H2; try contradiction; try congruence.
  - pose proof (count_routes_one c rest v2 H2). apply memb_In in H1. unfold count_routes in *. simpl. rewrite H1. simpl. lia.
  - pose proof (count_routes_one c rest v1 H1). apply memb_In in H2. unfold count_routes in *. simpl. rewrite H2. simpl. lia.
  - assert (Hne' : v1 <> v2) by congruence. specialize (IH v1 v2 Hne' H1 H2).
    unfold count_routes in *. simpl. destruct (memb c r); simpl; lia.
Qed.

Lemma nth_In_or_nil {A} (l : list (list A)) v x : In x (nth v l []) -> In (nth v l []) l.
Proof.
  intros H. destruct (Nat.lt_ge_cases v (length l)) as [Hlt|Hge].
  - apply nth_In. exact Hlt.
  - rewrite nth_overflow in H by exact Hge. contradiction.
Qed.

Theorem spec_check_sound I st : spec_check I st = true -> vrp_inv I st.
Proof.
  unfold spec_check. intros H.
  apply andb_true_iff in H. destruct H as [H Carr].
  apply andb_true_iff in H. destruct H as [H Csingle].
  apply andb_true_iff in H. destruct H as [H Crep].
  apply andb_true_iff in H. destruct H as [H Clost].
  apply andb_true_iff in H. destruct H as [H Cboth].
  apply andb_true_iff in H. destruct H as [H Crv].
  apply andb_true_iff in H. destruct H as [H Cuv].
  apply andb_true_iff in H. destruct H as [H Cnd].
  apply andb_true_iff in H. destruct H as [Clr Cla].
  apply Nat.eqb_eq in Clr. apply Nat.eqb_eq in Cla. apply nodupb_NoDup in Cnd.
  rewrite forallb_forall in Cuv, Crv, Cboth, Clost, Crep, Csingle.
  constructor.
  - exact Clr.
  - exact Cla.
  - exact Cnd.
  - exact Cuv.
  - intros r c Hr Hc. specialize (Crv r Hr). rewrite forallb_forall in Crv. apply Crv. exact Hc.
  - intros c Hc Hon. specialize (Cboth c Hc). apply negb_true_iff in Cboth. apply on_routeb_iff in Hon. congruence.
  - intros c Hv. apply valid_id_all_ids in Hv. specialize (Clost c Hv). apply orb_true_iff in Clost.
    destruct Clost as [Hm|Ho]; [left; apply memb_In; exact Hm | right; apply on_routeb_iff; exact Ho].
  - intros r Hr. apply nodupb_NoDup. apply Crep. exact Hr.
  - intros c v1 v2 Hreq H1 H2. destruct (Nat.eq_dec v1 v2) as [E|Hne]; [exact E|exfalso].
    assert (Hv : valid_id I c = true).
    { specialize (Crv _ (nth_In_or_nil _ _ _ H1)). rewrite forallb_forall in Crv. apply Crv. exact H1. }
    apply valid_id_all_ids in Hv. specialize (Csingle c Hv). apply orb_true_iff in Csingle.
    destruct Csingle as [Hm|Hc].
    + apply Nat.ltb_lt in Hm. lia.
    + apply Nat.leb_le in Hc. pose proof (count_routes_two c (routes st) v1 v2 Hne H1 H2). lia.
  - apply ll_z_eqb_eq. exact Carr.
Qed.

Theorem spec_chk_sound W I st obj : spec_chk (W, I, st, obj) = true -> vrp_spec W I st obj.
Proof.
  unfold spec_chk, vrp_spec, obj_check. intros H. apply andb_true_iff in H. destruct H as [H1 H2].
  split; [apply spec_check_sound; exact H1 | apply Z.eqb_eq in H2; symmetry; exact H2].
Qed.
