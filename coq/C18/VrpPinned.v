(* The PINNED route_removal (before fix 3c6011c: empties only the chosen routes) breaks invariant I on the
   3-customer, 2-vehicle witness of the property text: customer 1 needs two vehicles, routes [[2,3,1],[1]];
   removing vehicle 0's route leaves customer 1 both in `unassigned` and on route 1.  The witness state is reachable
   (sync_aware_insertion from the empty plan) and consistent; `wit_fixed_step` is what the repaired operator returns on it. *)
From Coq Require Import List ZArith.
From SV Require Import C18.Vrp C18.VrpSpec C18.VrpProofs2.
Import ListNotations.
Open Scope Z_scope.

(* depot at 0, customers 1, 2, 3 at x = 1, 2, 3 on a line; customer 1 needs two vehicles; capacities 10 *)
Definition wit_inst : inst :=
  mkInst [mkCust 0 0 None 0 1; mkCust 1 0 None 0 2; mkCust 1 0 None 0 1; mkCust 1 0 None 0 1]
         [[0; 1; 2; 3]; [1; 0; 1; 2]; [2; 1; 0; 1]; [3; 2; 1; 0]]
         [Some 10; Some 10].

Definition wit_build : op := SyncAwareInsertion [(1, [(0, 0); (1, 0)])]%nat [(2, 0, 0); (3, 0, 1)]%nat.
Definition wit_state : vstate := mkSt [[2; 3; 1]; [1]]%nat [] [[2; 3; 5]; [1]].
Definition wit_after_pinned : vstate := mkSt [[]; [1]]%nat [2; 3; 1]%nat [[]; [1]].

Lemma wit_reachable : run_ops wit_inst [wit_build] (init_state wit_inst) = Some wit_state.
Proof. vm_compute. reflexivity. Qed.

Lemma wit_consistent : spec_check wit_inst wit_state = true.
Proof. vm_compute. reflexivity. Qed.

Lemma wit_pinned_step : route_removal_pinned wit_inst [0%nat] wit_state = Some wit_after_pinned.
Proof. vm_compute. reflexivity. Qed.

Lemma wit_pinned_broken : ~ vrp_inv wit_inst wit_after_pinned.
Proof.
  intros H. apply (inv_never_both wit_inst wit_after_pinned H 1%nat).
  - simpl. tauto.
  - exists [1%nat]. simpl. tauto.
Qed.

Lemma pinned_refuted :
  exists I vs st st',
    inst_ok I = true /\ run_ops I [wit_build] (init_state I) = Some st /\ vrp_inv I st
    /\ route_removal_pinned I vs st = Some st' /\ ~ vrp_inv I st' /\ spec_check I st' = false.
Proof.
  exists wit_inst, [0%nat], wit_state, wit_after_pinned.
  split; [reflexivity|]. split; [exact wit_reachable|]. split; [exact (spec_check_sound _ _ wit_consistent)|].
  split; [exact wit_pinned_step|]. split; [exact wit_pinned_broken | vm_compute; reflexivity].
Qed.

(* the repaired operator on the same state and the same choice *)
Lemma wit_fixed_step :
  route_removal wit_inst [0%nat] wit_state = Some (mkSt [[]; []]%nat [2; 3; 1]%nat [[]; []]).
Proof. vm_compute. reflexivity. Qed.
