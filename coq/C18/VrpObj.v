(* vrp_objective: the weighted sum is a function of (routes, unassigned) on consistent states; every penalty term is
   non-negative and is zero exactly when the corresponding violation is absent. *)
From Coq Require Import List ZArith Bool Arith Lia.
From SV Require Import C18.Vrp C18.VrpSpec.
Import ListNotations.
Open Scope Z_scope.

Theorem objective_depends_on_routes_unassigned W I st :
  vrp_inv I st -> objective W I st = objective_spec W I (routes st) (unassigned st).
Proof.
  intros H. unfold objective_spec. rewrite <- (inv_arrivals I st H). destruct st; reflexivity.
Qed.

Theorem objective_ext W I st1 st2 :
  vrp_inv I st1 -> vrp_inv I st2 -> routes st1 = routes st2 ->
  length (unassigned st1) = length (unassigned st2) -> objective W I st1 = objective W I st2.
Proof.
  intros H1 H2 Hr Hu. rewrite (objective_depends_on_routes_unassigned W I st1 H1),
    (objective_depends_on_routes_unassigned W I st2 H2), Hr.
  unfold objective_spec, objective, total_distance, vehicles_used, tw_violation, cap_violation, sync_violation,
    sync_term, visit_times. simpl. rewrite Hu. reflexivity.
Qed.

Lemma zsum_map_nonneg {A} (f : A -> Z) l : (forall x, 0 <= f x) -> 0 <= zsum (map f l).
Proof.
  intros H. induction l as [|y ys IH]; simpl; [lia|]. specialize (H y). lia.
Qed.

Lemma zsum_map_zero {A} (f : A -> Z) l :
  (forall x, 0 <= f x) -> (zsum (map f l) = 0 <-> forall x, In x l -> f x = 0).
Proof.
  intros H. induction l as [|y ys IH]; simpl.
  - split; [intros _ x [] | reflexivity].
  - pose proof (H y) as Hy. pose proof (zsum_map_nonneg f ys H) as Hs. split.
    + intros E x [<-|Hx]; [lia | apply IH; [lia | exact Hx]].
    + intros E. pose proof (E y (or_introl eq_refl)) as Ey.
      assert (Es : zsum (map f ys) = 0) by (apply IH; intros x Hx; apply E; right; exact Hx). lia.
Qed.

Definition on_time (I : inst) (st : vstate) : Prop :=
  forall r a c t e, In (r, a) (combine (routes st) (arrivals st)) -> In (c, t) (combine r a) ->
    c_twe (cget I c) = Some e -> t <= e.

Lemma late_nonneg I ca : 0 <= late I ca.
Proof. unfold late. destruct (c_twe (cget I (fst ca))) as [e|]; [|lia]. destruct (Z.ltb_spec e (snd ca)); lia. Qed.

Lemma late_zero I c t : late I (c, t) = 0 <-> (forall e, c_twe (cget I c) = Some e -> t <= e).
Proof.
  unfold late. simpl. destruct (c_twe (cget I c)) as [e|].
  - destruct (Z.ltb_spec e t) as [Hlt|Hge]; split.
    + lia.
    + intros H. specialize (H e eq_refl). lia.
    + intros _ e' E. inversion E; subst. exact Hge.
    + reflexivity.
  - split; [intros _ e E; discriminate | reflexivity].
Qed.

Lemma tw_violation_nonneg I st : 0 <= tw_violation I st.
Proof.
  unfold tw_violation. apply zsum_map_nonneg. intros ra. apply zsum_map_nonneg. apply late_nonneg.
Qed.

Theorem tw_violation_zero I st : tw_violation I st = 0 <-> on_time I st.
Proof.
  unfold tw_violation, on_time. rewrite zsum_map_zero.
  - split.
    + intros H r a c t e Hra Hct Htw. specialize (H (r, a) Hra). simpl in H.
      rewrite zsum_map_zero in H by apply late_nonneg.
      specialize (H (c, t) Hct). exact (proj1 (late_zero I c t) H e Htw).
    + intros H [r a] Hra. simpl. rewrite zsum_map_zero by apply late_nonneg.
      intros [c t] Hct. apply late_zero. intros e Htw. exact (H r a c t e Hra Hct Htw).
  - intros ra. apply zsum_map_nonneg. apply late_nonneg.
Qed.

Definition within_capacity (I : inst) (st : vstate) : Prop :=
  forall cap r k, In (cap, r) (combine (caps I) (routes st)) -> cap = Some k -> route_load I r <= k.

Lemma over_nonneg I cr : 0 <= over I cr.
Proof. unfold over. destruct (fst cr) as [k|]; [|lia]. destruct (Z.ltb_spec k (route_load I (snd cr))); lia. Qed.

Lemma cap_violation_nonneg I st : 0 <= cap_violation I st.
Proof. unfold cap_violation. apply zsum_map_nonneg. apply over_nonneg. Qed.

Theorem cap_violation_zero I st : cap_violation I st = 0 <-> within_capacity I st.
Proof.
  unfold cap_violation, within_capacity. rewrite zsum_map_zero by apply over_nonneg. split.
  - intros H cap r k Hin E. specialize (H (cap, r) Hin). unfold over in H. simpl in H. subst cap.
    destruct (Z.ltb_spec k (route_load I r)); lia.
  - intros H [cap r] Hin. unfold over. simpl. destruct cap as [k|]; [|reflexivity].
    specialize (H (Some k) r k Hin eq_refl). destruct (Z.ltb_spec k (route_load I r)); lia.
Qed.

Definition synced (I : inst) (st : vstate) : Prop :=
  forall c, (c < ncust I)%nat -> (1 < c_req (cget I c))%nat ->
    (c_req (cget I c) <= length (visit_times c st))%nat
    /\ forall t1 t2, In t1 (visit_times c st) -> In t2 (visit_times c st) -> t1 = t2.

Lemma fold_max_ge r : forall x, x <= fold_left Z.max r x /\ forall y, In y r -> y <= fold_left Z.max r x.
Proof.
  induction r as [|z zs IH]; intros x; simpl.
  - split; [lia | intros y []].
  - destruct (IH (Z.max x z)) as [H1 H2]. split; [lia|].
    intros y [Hy|Hy]; [subst; lia | apply H2; exact Hy].
Qed.

Lemma fold_min_le r : forall x, fold_left Z.min r x <= x /\ forall y, In y r -> fold_left Z.min r x <= y.
Proof.
  induction r as [|z zs IH]; intros x; simpl.
  - split; [lia | intros y []].
  - destruct (IH (Z.min x z)) as [H1 H2]. split; [lia|].
    intros y [Hy|Hy]; [subst; lia | apply H2; exact Hy].
Qed.

Lemma fold_const (op : Z -> Z -> Z) r x :
  op x x = x -> (forall y, In y r -> y = x) -> fold_left op r x = x.
Proof.
  intros Hop. induction r as [|z zs IH]; intros H; simpl; [reflexivity|].
  rewrite (H z (or_introl eq_refl)), Hop. apply IH. intros y Hy. apply H. right. exact Hy.
Qed.

Lemma spread_nonneg l : 0 <= zmax_list l - zmin_list l.
Proof.
  destruct l as [|x r]; simpl; [lia|]. pose proof (proj1 (fold_max_ge r x)). pose proof (proj1 (fold_min_le r x)). lia.
Qed.

Lemma spread_zero l : zmax_list l - zmin_list l = 0 <-> forall t1 t2, In t1 l -> In t2 l -> t1 = t2.
Proof.
  destruct l as [|x r]; simpl.
  - split; [intros _ t1 t2 [] | reflexivity].
  - destruct (fold_max_ge r x) as [M1 M2]. destruct (fold_min_le r x) as [N1 N2]. split.
    + intros E.
      assert (Hall : forall t, x = t \/ In t r -> t = fold_left Z.max r x).
      { intros t [Ht|Ht]; [subst t; lia | specialize (M2 t Ht); specialize (N2 t Ht); lia]. }
      intros t1 t2 H1 H2. rewrite (Hall t1 H1), (Hall t2 H2). reflexivity.
    + intros H. assert (Hc : forall y, In y r -> y = x).
      { intros y Hy. apply H; [right; exact Hy | left; reflexivity]. }
      rewrite (fold_const Z.max r x (Z.max_id x) Hc), (fold_const Z.min r x (Z.min_id x) Hc). lia.
Qed.

Lemma sync_term_nonneg I st c : 0 <= sync_term I st c.
Proof.
  unfold sync_term. destruct (c_req (cget I c) <=? 1)%nat; [lia|].
  destruct (Nat.ltb_spec (length (visit_times c st)) (c_req (cget I c))); [lia|].
  destruct (1 <? length (visit_times c st))%nat; [apply spread_nonneg | lia].
Qed.

Lemma sync_term_zero I st c :
  sync_term I st c = 0 <->
  ((1 < c_req (cget I c))%nat ->
     (c_req (cget I c) <= length (visit_times c st))%nat
     /\ forall t1 t2, In t1 (visit_times c st) -> In t2 (visit_times c st) -> t1 = t2).
Proof.
  unfold sync_term. destruct (Nat.leb_spec (c_req (cget I c)) 1) as [Hle|Hgt].
  - split; [intros _ H; lia | reflexivity].
  - destruct (Nat.ltb_spec (length (visit_times c st)) (c_req (cget I c))) as [Hlt|Hge].
    + split; [lia | intros H; specialize (H Hgt); lia].
    + destruct (Nat.ltb_spec 1 (length (visit_times c st))) as [H1|H1]; [|lia].
      rewrite spread_zero. split; [intros H _; split; [exact Hge | exact H] | intros H; apply H; exact Hgt].
Qed.

Lemma sync_violation_nonneg I st : 0 <= sync_violation I st.
Proof. unfold sync_violation. apply zsum_map_nonneg. apply sync_term_nonneg. Qed.

Theorem sync_violation_zero I st : sync_violation I st = 0 <-> synced I st.
Proof.
  unfold sync_violation, synced. rewrite zsum_map_zero by apply sync_term_nonneg. split.
  - intros H c Hc Hreq. assert (Hin : In c (seq 0 (ncust I))) by (apply in_seq; lia).
    exact (proj1 (sync_term_zero I st c) (H c Hin) Hreq).
  - intros H c Hin. apply in_seq in Hin. apply sync_term_zero. intros Hreq. apply H; [lia | exact Hreq].
Qed.

Definition pos_penalties (W : weights) : bool :=
  (0 <? w_tw W) && (0 <? w_cap W) && (0 <? w_sync W) && (0 <? w_un W).

Lemma penalty_term w x : 0 < w -> 0 <= x -> 0 <= w * x /\ (w * x = 0 <-> x = 0).
Proof. intros Hw Hx. split; [apply Z.mul_nonneg_nonneg; lia | rewrite Z.mul_eq_0; lia]. Qed.

Lemma nonneg_sum_zero base a b c u : 0 <= a -> 0 <= b -> 0 <= c -> 0 <= u ->
  base <= base + a + b + c + u /\ (base + a + b + c + u = base <-> a = 0 /\ b = 0 /\ c = 0 /\ u = 0).
Proof. lia. Qed.

Theorem objective_no_penalty_iff W I st :
  pos_penalties W = true ->
  w_dist W * total_distance I st + w_veh W * vehicles_used st <= objective W I st
  /\ (objective W I st = w_dist W * total_distance I st + w_veh W * vehicles_used st
      <-> unassigned st = [] /\ on_time I st /\ within_capacity I st /\ synced I st).
Proof.
  unfold pos_penalties. intros H.
  apply andb_true_iff in H. destruct H as [H H4]. apply andb_true_iff in H. destruct H as [H H3].
  apply andb_true_iff in H. destruct H as [H1 H2].
  apply Z.ltb_lt in H1, H2, H3, H4.
  destruct (penalty_term _ _ H1 (tw_violation_nonneg I st)) as [P1 Z1].
  destruct (penalty_term _ _ H2 (cap_violation_nonneg I st)) as [P2 Z2].
  destruct (penalty_term _ _ H3 (sync_violation_nonneg I st)) as [P3 Z3].
  destruct (penalty_term _ _ H4 (Nat2Z.is_nonneg (length (unassigned st)))) as [P4 Z4].
  pose proof (tw_violation_zero I st) as T1. pose proof (cap_violation_zero I st) as T2.
  pose proof (sync_violation_zero I st) as T3.
  assert (T4 : Z.of_nat (length (unassigned st)) = 0 <-> unassigned st = [])
    by (destruct (unassigned st); split; try reflexivity; discriminate).
  unfold objective.
  destruct (nonneg_sum_zero (w_dist W * total_distance I st + w_veh W * vehicles_used st) _ _ _ _ P1 P2 P3 P4)
    as [Hle Hsum].
  split; [exact Hle | rewrite Hsum; split].
  - intros [E1 [E2 [E3 E4]]].
    split; [apply T4, Z4, E4 | split; [apply T1, Z1, E1 | split; [apply T2, Z2, E2 | apply T3, Z3, E3]]].
  - intros [HU [HT [HC HS]]].
    split; [apply Z1, T1, HT | split; [apply Z2, T2, HC | split; [apply Z3, T3, HS | apply Z4, T4, HU]]].
Qed.
