(* List facts about upd, ins, strip, union_u, remove_u, place_routes; then invariant I of the VRPTW bookkeeping,
   split for the proofs into
     J       - the part that never breaks, not even inside sync_aware_insertion (shape, unassigned is a set of
               customers, routes visit customers, never in both, no repeat, single-vehicle customers on <= 1 route),
     covered - never lost,
     arrivals = recomputation,
   and the two primitives: an insertion step preserves J and only moves customers from `unassigned` onto routes
   (`ext`); remove_set re-establishes the whole invariant. *)
From Coq Require Import List ZArith Bool Arith Lia Permutation.
From SV Require Import C18.Vrp C18.VrpSpec.
Import ListNotations.

Lemma upd_length {A} (f : A -> A) l : forall v, length (upd v f l) = length l.
Proof.
  induction l as [|x xs IH]; intros v; simpl; [reflexivity|].
  destruct v; simpl; [reflexivity | rewrite IH; reflexivity].
Qed.

Lemma nth_upd_same {A} (f : A -> A) d l : forall v, (v < length l)%nat -> nth v (upd v f l) d = f (nth v l d).
Proof.
  induction l as [|x xs IH]; intros v Hv; simpl in *; [lia|].
  destruct v; simpl; [reflexivity | apply IH; lia].
Qed.

Lemma nth_upd_other {A} (f : A -> A) d l : forall v v', v' <> v -> nth v' (upd v f l) d = nth v' l d.
Proof.
  induction l as [|x xs IH]; intros v v' Hne; simpl; [reflexivity|].
  destruct v, v'; simpl; try reflexivity; try (exfalso; apply Hne; reflexivity).
  apply IH. intros E. apply Hne. f_equal. exact E.
Qed.

Lemma upd_overflow {A} (f : A -> A) l : forall v, (length l <= v)%nat -> upd v f l = l.
Proof.
  induction l as [|x xs IH]; intros v Hv; simpl in *; [reflexivity|].
  destruct v; [lia|]. rewrite IH by lia. reflexivity.
Qed.

Lemma map_upd {A B} (g : A -> B) (h : A -> A) (d : A) l : forall v,
  (v < length l)%nat ->
  upd v (fun _ => g (nth v (upd v h l) d)) (map g l) = map g (upd v h l).
Proof.
  induction l as [|x xs IH]; intros v Hv; simpl in *; [lia|].
  destruct v; simpl; [reflexivity|]. f_equal. apply IH. lia.
Qed.

Lemma ins_perm p c r : Permutation (c :: r) (ins p c r).
Proof.
  unfold ins. apply perm_trans with (c :: firstn p r ++ skipn p r); [|apply Permutation_middle].
  rewrite firstn_skipn. apply Permutation_refl.
Qed.

Lemma In_ins p c r x : In x (ins p c r) <-> x = c \/ In x r.
Proof.
  split.
  - intros H. apply (Permutation_in _ (Permutation_sym (ins_perm p c r))) in H. simpl in H.
    destruct H as [H|H]; [left; symmetry; exact H | right; exact H].
  - intros H. apply (Permutation_in _ (ins_perm p c r)). simpl.
    destruct H as [H|H]; [left; symmetry; exact H | right; exact H].
Qed.

Lemma NoDup_ins p c r : NoDup r -> ~ In c r -> NoDup (ins p c r).
Proof.
  intros Hn Hc. apply (Permutation_NoDup (ins_perm p c r)). constructor; assumption.
Qed.

Lemma In_strip S r x : In x (strip S r) <-> In x r /\ ~ In x S.
Proof.
  unfold strip. rewrite filter_In, negb_true_iff, memb_false. reflexivity.
Qed.

Lemma NoDup_strip S r : NoDup r -> NoDup (strip S r).
Proof. apply NoDup_filter. Qed.

Lemma nth_map_strip S rs v : nth v (map (strip S) rs) [] = strip S (nth v rs []).
Proof. change (@nil nat) with (strip S []) at 1. apply map_nth. Qed.

Lemma In_union_u u S x : In x (union_u u S) <-> In x u \/ In x S.
Proof.
  unfold union_u. rewrite in_app_iff, filter_In, nodup_In, negb_true_iff, memb_false. split.
  - intros [H|[H _]]; [left | right]; exact H.
  - intros [H|H]; [left; exact H|].
    destruct (in_dec Nat.eq_dec x u) as [Hi|Hn]; [left; exact Hi | right; split; assumption].
Qed.

Lemma NoDup_app_disj {A} (a b : list A) :
  NoDup a -> NoDup b -> (forall x, In x a -> ~ In x b) -> NoDup (a ++ b).
Proof.
  induction a as [|x xs IH]; intros Ha Hb Hd; simpl; [exact Hb|].
  inversion Ha as [|y ys Hx Hxs]; subst. constructor.
  - rewrite in_app_iff. intros [H|H]; [exact (Hx H) | exact (Hd x (or_introl eq_refl) H)].
  - apply IH; [exact Hxs | exact Hb | intros z Hz; apply Hd; right; exact Hz].
Qed.

Lemma NoDup_union_u u S : NoDup u -> NoDup (union_u u S).
Proof.
  intros Hu. unfold union_u. apply NoDup_app_disj.
  - exact Hu.
  - apply NoDup_filter. apply NoDup_nodup.
  - intros x Hx Hf. apply filter_In in Hf. destruct Hf as [_ Hf].
    apply negb_true_iff, memb_false in Hf. exact (Hf Hx).
Qed.

Lemma In_remove_u c u x : In x (remove_u c u) <-> In x u /\ x <> c.
Proof.
  unfold remove_u. rewrite filter_In, negb_true_iff, Nat.eqb_neq. reflexivity.
Qed.

Lemma NoDup_remove_u c u : NoDup u -> NoDup (remove_u c u).
Proof. apply NoDup_filter. Qed.

Lemma subsetb_spec a b : subsetb a b = true <-> forall x, In x a -> In x b.
Proof.
  unfold subsetb. rewrite forallb_forall. split; intros H x Hx.
  - apply memb_In. exact (H x Hx).
  - apply memb_In. exact (H x Hx).
Qed.

Lemma place_routes_length c pl : forall rs, length (place_routes c pl rs) = length rs.
Proof.
  unfold place_routes. induction pl as [|[v p] pl IH]; intros rs; simpl; [reflexivity|].
  rewrite IH. apply upd_length.
Qed.

Lemma In_place_routes c x : forall pl rs v,
  (forall v' p, In (v', p) pl -> (v' < length rs)%nat) ->
  (In x (nth v (place_routes c pl rs) []) <-> In x (nth v rs []) \/ (x = c /\ In v (map fst pl))).
Proof.
  unfold place_routes. induction pl as [|[v0 p0] pl IH]; intros rs v Hlt; simpl.
  - split; [left; assumption | intros [H|[_ []]]; exact H].
  - assert (Hv0 : (v0 < length rs)%nat) by (apply (Hlt v0 p0); left; reflexivity).
    assert (Hlt' : forall v' p, In (v', p) pl -> (v' < length (upd v0 (ins p0 c) rs))%nat)
      by (intros v' p Hin; rewrite upd_length; apply (Hlt v' p); right; exact Hin).
    apply (iff_trans (IH _ v Hlt')). destruct (Nat.eq_dec v v0) as [->|Hne].
    + rewrite (nth_upd_same _ _ _ _ Hv0), In_ins. split.
      * intros [[->|H]|[-> H]]; [right; split; [reflexivity | left; reflexivity] | left; exact H
                                | right; split; [reflexivity | right; exact H]].
      * intros [H|[-> _]]; [left; right; exact H | left; left; reflexivity].
    + rewrite (nth_upd_other _ _ _ _ _ Hne). split.
      * intros [H|[-> H]]; [left; exact H | right; split; [reflexivity | right; exact H]].
      * intros [H|[-> [E|H]]]; [left; exact H | congruence | right; split; [reflexivity | exact H]].
Qed.

Lemma NoDup_place_routes c : forall pl rs,
  NoDup (map fst pl) -> (forall v, NoDup (nth v rs [])) -> (forall v, In v (map fst pl) -> ~ In c (nth v rs [])) ->
  forall v, NoDup (nth v (place_routes c pl rs) []).
Proof.
  unfold place_routes. induction pl as [|[v0 p0] pl IH]; intros rs Hnd Hrs Hc; simpl; [exact Hrs|].
  simpl in Hnd. inversion Hnd as [|y ys Hv0 Hpl]; subst. apply IH; [exact Hpl | |].
  - intros v. destruct (Nat.eq_dec v v0) as [->|Hne]; [|rewrite (nth_upd_other _ _ _ _ _ Hne); apply Hrs].
    destruct (Nat.lt_ge_cases v0 (length rs)) as [Hlt|Hge].
    + rewrite (nth_upd_same _ _ _ _ Hlt). apply NoDup_ins; [apply Hrs | apply Hc; left; reflexivity].
    + rewrite (upd_overflow _ _ _ Hge). apply Hrs.
  - intros v Hv. rewrite nth_upd_other by (intros ->; exact (Hv0 Hv)). apply Hc. right. exact Hv.
Qed.

Definition on_nth (c : nat) (rs : list (list nat)) : Prop := exists v, In c (nth v rs []).

Lemma on_route_nth c st : on_route c st <-> on_nth c (routes st).
Proof.
  unfold on_route, on_nth. split.
  - intros [r [Hr Hc]]. destruct (In_nth _ _ [] Hr) as [v [Hv Hn]]. exists v. rewrite Hn. exact Hc.
  - intros [v Hv]. exists (nth v (routes st) []). split; [exact (nth_In_or_nil _ _ _ Hv) | exact Hv].
Qed.

Record J (I : inst) (st : vstate) : Prop := {
  j_shape_r : length (routes st) = nveh I;
  j_shape_a : length (arrivals st) = nveh I;
  j_un_nodup : NoDup (unassigned st);
  j_un_valid : forall c, In c (unassigned st) -> valid_id I c = true;
  j_rt_valid : forall v c, In c (nth v (routes st) []) -> valid_id I c = true;
  j_never_both : forall c v, In c (unassigned st) -> ~ In c (nth v (routes st) []);
  j_no_repeat : forall v, NoDup (nth v (routes st) []);
  j_single : forall c v1 v2, (c_req (cget I c) <= 1)%nat ->
               In c (nth v1 (routes st) []) -> In c (nth v2 (routes st) []) -> v1 = v2
}.

Definition covered (I : inst) (st : vstate) : Prop :=
  forall c, valid_id I c = true -> In c (unassigned st) \/ on_nth c (routes st).

Definition arrivals_ok (I : inst) (st : vstate) : Prop :=
  arrivals st = map (compute_arrivals I) (routes st).

Lemma inv_of_parts I st : J I st -> covered I st -> arrivals_ok I st -> vrp_inv I st.
Proof.
  intros [Hsr Hsa Hund Hunv Hrtv Hboth Hrep Hsingle] Hc Ha. constructor.
  - exact Hsr.
  - exact Hsa.
  - exact Hund.
  - exact Hunv.
  - intros r c Hr Hcr. destruct (In_nth _ _ [] Hr) as [v [Hv Hn]]. apply (Hrtv v). rewrite Hn. exact Hcr.
  - intros c Hu Hon. apply on_route_nth in Hon. destruct Hon as [v Hv]. exact (Hboth c v Hu Hv).
  - intros c Hv. destruct (Hc c Hv) as [H|H]; [left; exact H | right; apply on_route_nth; exact H].
  - intros r Hr. destruct (In_nth _ _ [] Hr) as [v [Hv Hn]]. rewrite <- Hn. apply Hrep.
  - exact Hsingle.
  - exact Ha.
Qed.

Lemma parts_of_inv I st : vrp_inv I st -> J I st /\ covered I st /\ arrivals_ok I st.
Proof.
  intros [Hsr Hsa Hund Hunv Hrtv Hboth Hlost Hrep Hsingle Harr]. split; [|split].
  - constructor.
    + exact Hsr.
    + exact Hsa.
    + exact Hund.
    + exact Hunv.
    + intros v c Hc. exact (Hrtv _ c (nth_In_or_nil _ _ _ Hc) Hc).
    + intros c v Hu Hc. apply (Hboth c Hu). apply on_route_nth. exists v. exact Hc.
    + intros v. destruct (Nat.lt_ge_cases v (length (routes st))) as [Hlt|Hge].
      * apply Hrep. apply nth_In. exact Hlt.
      * rewrite nth_overflow by exact Hge. constructor.
    + exact Hsingle.
  - intros c Hv. destruct (Hlost c Hv) as [H|H]; [left; exact H | right; apply on_route_nth; exact H].
  - exact Harr.
Qed.

Lemma J_shrink I st rs un arr :
  J I st -> length rs = nveh I -> length arr = nveh I ->
  (forall v, NoDup (nth v rs []) /\ forall x, In x (nth v rs []) -> In x (nth v (routes st) [])) ->
  NoDup un -> (forall c, In c un -> valid_id I c = true /\ forall v, ~ In c (nth v rs [])) ->
  J I (mkSt rs un arr).
Proof.
  intros HJ Hr Ha Hrs Hnd Hun. constructor; simpl.
  - exact Hr.
  - exact Ha.
  - exact Hnd.
  - intros c Hc. apply Hun. exact Hc.
  - intros v c Hc. apply (j_rt_valid I st HJ v). apply Hrs. exact Hc.
  - intros c v Hc. apply Hun. exact Hc.
  - intros v. apply Hrs.
  - intros c v1 v2 Hreq H1 H2. apply (j_single I st HJ c v1 v2 Hreq); apply Hrs; assumption.
Qed.

(* st' is st with some customers moved from `unassigned` onto routes *)
Record ext (st st' : vstate) : Prop := {
  e_un : forall x, In x (unassigned st') -> In x (unassigned st);
  e_mono : forall x v, In x (nth v (routes st) []) -> In x (nth v (routes st') []);
  e_new : forall x v, In x (nth v (routes st') []) ->
            In x (nth v (routes st) []) \/ (In x (unassigned st) /\ ~ In x (unassigned st'));
  e_placed : forall x, In x (unassigned st) -> ~ In x (unassigned st') -> on_nth x (routes st')
}.

Lemma ext_refl st : ext st st.
Proof.
  constructor.
  - intros x H. exact H.
  - intros x v H. exact H.
  - intros x v H. left. exact H.
  - intros x H1 H2. contradiction.
Qed.

Lemma ext_trans a b c : ext a b -> ext b c -> ext a c.
Proof.
  intros [Aun Amono Anew Aplaced] [Bun Bmono Bnew Bplaced]. constructor.
  - intros x H. apply Aun, Bun. exact H.
  - intros x v H. apply Bmono, Amono. exact H.
  - intros x v H. destruct (Bnew x v H) as [Hb|[Hb1 Hb2]].
    + destruct (Anew x v Hb) as [Ha|[Ha1 Ha2]]; [left; exact Ha|].
      right. split; [exact Ha1|]. intros Hc. apply Ha2. apply Bun. exact Hc.
    + right. split; [apply Aun; exact Hb1 | exact Hb2].
  - intros x H1 H2. destruct (in_dec Nat.eq_dec x (unassigned b)) as [Hb|Hb].
    + exact (Bplaced x Hb H2).
    + destruct (Aplaced x H1 Hb) as [v Hv]. exists v. apply Bmono. exact Hv.
Qed.

Lemma covered_ext I st st' : covered I st -> ext st st' -> covered I st'.
Proof.
  intros Hc [Eun Emono Enew Eplaced] c Hv.
  destruct (in_dec Nat.eq_dec c (unassigned st')) as [Hin|Hnin]; [left; exact Hin|right].
  destruct (Hc c Hv) as [Hu|[v Hon]].
  - exact (Eplaced c Hu Hnin).
  - exists v. apply Emono. exact Hon.
Qed.

Lemma nonempty_fst (pl : list (nat * nat)) : pl <> [] -> exists v, In v (map fst pl).
Proof. destruct pl as [|[v p] rest]; intros H; [contradiction H; reflexivity | exists v; left; reflexivity]. Qed.

Lemma single_fst (pl : list (nat * nat)) v1 v2 :
  length pl = 1%nat -> In v1 (map fst pl) -> In v2 (map fst pl) -> v1 = v2.
Proof.
  destruct pl as [|[v0 p0] [|q rest]]; simpl; intros Hl M1 M2; try discriminate.
  destruct M1 as [M1|[]], M2 as [M2|[]]. congruence.
Qed.

Section Place.
  Variable I : inst.
  Variables (c : nat) (pl : list (nat * nat)) (st : vstate) (arr' : list (list Z)).
  Hypothesis HJ : J I st.
  Hypothesis Hg : place_guard I c pl st = true.
  Hypothesis Harr : length arr' = length (arrivals st).

  Let st' := mkSt (place_routes c pl (routes st)) (remove_u c (unassigned st)) arr'.

  Lemma guard_parts :
    In c (unassigned st) /\ pl <> [] /\ NoDup (map fst pl)
    /\ (forall v p, In (v, p) pl -> (v < length (routes st))%nat)
    /\ ((1 < c_req (cget I c))%nat \/ length pl = 1%nat).
  Proof.
    unfold place_guard in Hg.
    apply andb_true_iff in Hg. destruct Hg as [G G5].
    apply andb_true_iff in G. destruct G as [G G4].
    apply andb_true_iff in G. destruct G as [G G3].
    apply andb_true_iff in G. destruct G as [G1 G2].
    split; [apply memb_In; exact G1|].
    split; [intros E; rewrite E in G2; discriminate|].
    split; [apply nodupb_NoDup; exact G3|].
    split.
    - intros v p Hin. rewrite forallb_forall in G4. specialize (G4 (v, p) Hin). simpl in G4.
      apply andb_true_iff in G4. destruct G4 as [G4 _]. apply Nat.ltb_lt. exact G4.
    - apply orb_true_iff in G5. destruct G5 as [G5|G5];
        [left; apply Nat.ltb_lt; exact G5 | right; apply Nat.eqb_eq; exact G5].
  Qed.

  Lemma c_not_routed v : ~ In c (nth v (routes st) []).
  Proof. apply (j_never_both I st HJ). apply guard_parts. Qed.

  Lemma placed_nth v x :
    In x (nth v (routes st') []) <->
    In x (nth v (routes st) []) \/ (x = c /\ In v (map fst pl)).
  Proof. destruct guard_parts as [_ [_ [_ [Hlt _]]]]. exact (In_place_routes c x pl (routes st) v Hlt). Qed.

  Lemma place_J : J I st'.
  Proof.
    destruct guard_parts as [Hcu [Hne [Hnd [Hlt Hreq]]]].
    constructor.
    - simpl. rewrite place_routes_length. apply (j_shape_r I st HJ).
    - simpl. rewrite Harr. apply (j_shape_a I st HJ).
    - simpl. apply NoDup_remove_u. apply (j_un_nodup I st HJ).
    - simpl. intros x Hx. apply In_remove_u in Hx. apply (j_un_valid I st HJ). apply Hx.
    - intros v x Hx. apply placed_nth in Hx. destruct Hx as [Hx|[Hx _]].
      + exact (j_rt_valid I st HJ v x Hx).
      + subst x. exact (j_un_valid I st HJ c Hcu).
    - intros x v Hu Hx. simpl in Hu. apply In_remove_u in Hu. destruct Hu as [Hu Hxc].
      apply placed_nth in Hx. destruct Hx as [Hx|[Hx _]].
      + exact (j_never_both I st HJ x v Hu Hx).
      + contradiction.
    - intros v. simpl.
      apply NoDup_place_routes; [exact Hnd | apply (j_no_repeat I st HJ) | intros v' _; apply c_not_routed].
    - intros x v1 v2 Hr H1 H2. apply placed_nth in H1. apply placed_nth in H2.
      destruct H1 as [H1|[E1 M1]], H2 as [H2|[E2 M2]].
      + exact (j_single I st HJ x v1 v2 Hr H1 H2).
      + subst x. exfalso. exact (c_not_routed v1 H1).
      + subst x. exfalso. exact (c_not_routed v2 H2).
      + subst x. destruct Hreq as [Hreq|Hone]; [lia|].
        exact (single_fst pl v1 v2 Hone M1 M2).
  Qed.

  Lemma place_ext : ext st st'.
  Proof.
    destruct guard_parts as [Hcu [Hne [Hnd [Hlt Hreq]]]].
    constructor.
    - simpl. intros x Hx. apply In_remove_u in Hx. apply Hx.
    - intros x v Hx. apply placed_nth. left. exact Hx.
    - intros x v Hx. apply placed_nth in Hx. destruct Hx as [Hx|[Hx _]]; [left; exact Hx|right].
      subst x. split; [exact Hcu|]. simpl. rewrite In_remove_u. intros [_ Hcc]. apply Hcc. reflexivity.
    - simpl. intros x Hu Hn. rewrite In_remove_u in Hn.
      assert (Hx : x = c).
      { destruct (Nat.eq_dec x c) as [E|N]; [exact E | exfalso; apply Hn; split; assumption]. }
      subst x. destruct (nonempty_fst pl Hne) as [v0 Hv0].
      exists v0. apply placed_nth. right. split; [reflexivity | exact Hv0].
  Qed.

End Place.

Lemma place_one_J_ext I c v pos st st' :
  J I st -> place_one I c v pos st = Some st' ->
  J I st' /\ ext st st' /\ (arrivals_ok I st -> arrivals_ok I st').
Proof.
  unfold place_one. intros HJ H. destruct (place_guard I c [(v, pos)] st) eqn:Hg; [|discriminate].
  inversion H; subst; clear H. split; [|split].
  - exact (place_J I c [(v, pos)] st _ HJ Hg (upd_length _ _ _)).
  - exact (place_ext I c [(v, pos)] st _ Hg).
  - unfold arrivals_ok. simpl. intros Ha. rewrite Ha. apply map_upd.
    destruct (guard_parts I c [(v, pos)] st Hg) as [_ [_ [_ [Hlt _]]]]. apply (Hlt v pos). left. reflexivity.
Qed.

Lemma place_multi_J_ext I c pl st st' :
  J I st -> place_multi I c pl st = Some st' ->
  J I st' /\ ext st st' /\ (forall x, In x (unassigned st) -> (c_req (cget I x) <= 1)%nat -> In x (unassigned st')).
Proof.
  unfold place_multi. intros HJ H.
  destruct (place_guard I c pl st) eqn:Hg; simpl in H; [|discriminate].
  destruct (1 <? c_req (cget I c))%nat eqn:Hreq; simpl in H; [|discriminate].
  destruct (length pl =? c_req (cget I c))%nat; [|discriminate].
  inversion H; subst; clear H. split; [|split].
  - exact (place_J I c pl st _ HJ Hg eq_refl).
  - exact (place_ext I c pl st _ Hg).
  - intros x Hx Hr. simpl. apply In_remove_u. split; [exact Hx|]. intros ->. apply Nat.ltb_lt in Hreq. lia.
Qed.

Lemma ins_events_J_ext I evs : forall st st',
  J I st -> ins_events I evs st = Some st' ->
  J I st' /\ ext st st' /\ (arrivals_ok I st -> arrivals_ok I st').
Proof.
  induction evs as [|[[c v] pos] rest IH]; intros st st' HJ H; simpl in H.
  - inversion H; subst. split; [exact HJ | split; [apply ext_refl | auto]].
  - destruct (place_one I c v pos st) as [s1|] eqn:E1; [|discriminate].
    destruct (place_one_J_ext I c v pos st s1 HJ E1) as [HJ1 [He1 Ha1]].
    destruct (IH s1 st' HJ1 H) as [HJ2 [He2 Ha2]].
    split; [exact HJ2 | split; [exact (ext_trans _ _ _ He1 He2) | auto]].
Qed.

Lemma multi_events_J_ext I mevs : forall st st',
  J I st -> multi_events I mevs st = Some st' ->
  J I st' /\ ext st st' /\ (forall x, In x (unassigned st) -> (c_req (cget I x) <= 1)%nat -> In x (unassigned st')).
Proof.
  induction mevs as [|[c pl] rest IH]; intros st st' HJ H; simpl in H.
  - inversion H; subst. split; [exact HJ | split; [apply ext_refl | intros x Hx _; exact Hx]].
  - destruct (place_multi I c pl st) as [s1|] eqn:E1; [|discriminate].
    destruct (place_multi_J_ext I c pl st s1 HJ E1) as [HJ1 [He1 Hk1]].
    destruct (IH s1 st' HJ1 H) as [HJ2 [He2 Hk2]].
    split; [exact HJ2 | split; [exact (ext_trans _ _ _ He1 He2)|]].
    intros x Hx Hr. apply Hk2; [apply Hk1; assumption | exact Hr].
Qed.

Lemma remove_set_inv I S st :
  vrp_inv I st -> (forall x, In x S -> valid_id I x = true) -> vrp_inv I (remove_set I S st).
Proof.
  intros Hinv HS. destruct (parts_of_inv I st Hinv) as [HJ [Hc _]]. apply inv_of_parts; [| |reflexivity].
  - unfold remove_set, refresh; simpl. apply (J_shrink I st).
    + exact HJ.
    + rewrite map_length. apply (j_shape_r I st HJ).
    + rewrite !map_length. apply (j_shape_r I st HJ).
    + intros v. rewrite nth_map_strip. split; [apply NoDup_strip, (j_no_repeat I st HJ)|].
      intros x Hx. apply In_strip in Hx. apply Hx.
    + apply NoDup_union_u. apply (j_un_nodup I st HJ).
    + intros c Hcu. apply In_union_u in Hcu. split.
      * destruct Hcu as [H|H]; [exact (j_un_valid I st HJ c H) | exact (HS c H)].
      * intros v Hcr. rewrite nth_map_strip in Hcr. apply In_strip in Hcr. destruct Hcr as [Hcr HnS].
        destruct Hcu as [H|H]; [exact (j_never_both I st HJ c v H Hcr) | exact (HnS H)].
  - intros c Hv. unfold remove_set, refresh; simpl.
    destruct (in_dec Nat.eq_dec c S) as [HiS|HnS].
    + left. apply In_union_u. right. exact HiS.
    + destruct (Hc c Hv) as [H|[v H]].
      * left. apply In_union_u. left. exact H.
      * right. exists v. rewrite nth_map_strip. apply In_strip. split; assumption.
Qed.
