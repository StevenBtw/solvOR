(* C18, job-shop part: solve_job_shop as a whole.  _dispatch and _rebuild_schedule are kernel instances, local
   search only ever replaces the incumbent by a kernel output together with that output's own makespan, and only
   when the makespan strictly decreases. *)
From Coq Require Import List ZArith Bool Arith Lia.
From SV Require Import C18.JobShop C18.JobShopSpec C18.JobShopProofs.
Import ListNotations.
Open Scope Z_scope.

Lemma valid_jobs_ops : forall jobs o, valid_jobs jobs = true -> In o (concat jobs) -> 0 <= fst o /\ 0 <= snd o.
Proof.
  intros jobs o Hv Hin. apply in_concat in Hin. destruct Hin as [jb [Hjb Ho]].
  unfold valid_jobs in Hv. rewrite forallb_forall in Hv. specialize (Hv jb Hjb).
  apply andb_true_iff in Hv. destruct Hv as [_ Hv]. rewrite forallb_forall in Hv.
  specialize (Hv o Ho). apply andb_true_iff in Hv. destruct Hv as [H1 H2].
  apply Z.leb_le in H1. apply Z.leb_le in H2. split; assumption.
Qed.

Lemma jobs_ok_intro : forall jobs nm,
  (forall o, In o (concat jobs) -> (Z.to_nat (fst o) < nm)%nat /\ 0 <= snd o) -> jobs_ok jobs nm = true.
Proof.
  intros jobs nm H. unfold jobs_ok. apply forallb_forall. intros jb Hjb.
  apply forallb_forall. intros o Ho.
  destruct (H o) as [H1 H2]; [apply in_concat; eauto|].
  apply andb_true_iff. split; [apply Nat.ltb_lt; exact H1 | apply Z.leb_le; exact H2].
Qed.

Lemma fold_max_key_ge : forall A (f : A -> Z) l a,
  a <= fold_left (fun acc x => Z.max acc (f x)) l a /\
  forall x, In x l -> f x <= fold_left (fun acc x => Z.max acc (f x)) l a.
Proof.
  intros A f. induction l as [|y l IH]; intros a; cbn [fold_left].
  - split; [lia | intros x []].
  - destruct (IH (Z.max a (f y))) as [H1 H2]. split; [lia|].
    intros x [<-|Hin]; [lia | apply H2; exact Hin].
Qed.

Lemma fold_max_ge : forall l a,
  a <= fold_left Z.max l a /\ forall x, In x l -> x <= fold_left Z.max l a.
Proof. exact (fold_max_key_ge Z (fun x => x)). Qed.

Lemma jobs_ok_n_machines : forall jobs, valid_jobs jobs = true -> jobs_ok jobs (n_machines jobs) = true.
Proof.
  intros jobs Hv. apply jobs_ok_intro. intros o Ho.
  destruct (valid_jobs_ops _ _ Hv Ho) as [H1 H2]. split; [|exact H2].
  unfold n_machines. destruct (fold_max_key_ge _ (fun o : op => fst o + 1) (concat jobs) 0) as [_ H]. specialize (H o Ho). lia.
Qed.

Lemma jobs_ok_n_machines_rb : forall jobs nm,
  valid_jobs jobs = true -> n_machines_rb jobs = Some nm -> jobs_ok jobs nm = true.
Proof.
  intros jobs nm Hv Hn. apply jobs_ok_intro. intros o Ho.
  destruct (valid_jobs_ops _ _ Hv Ho) as [H1 H2]. split; [|exact H2].
  unfold n_machines_rb in Hn.
  destruct (map fst (concat jobs)) as [|m0 r] eqn:E; [discriminate|].
  assert (Hin : In (fst o) (m0 :: r)) by (rewrite <- E; apply in_map; exact Ho).
  injection Hn as Hn. subst nm.
  destruct (fold_max_ge r m0) as [Ha Hb].
  destruct Hin as [Hin|Hin]; [subst m0; lia | specialize (Hb _ Hin); lia].
Qed.

Definition good (jobs : list job) (s : sched) : Prop := valid_schedule jobs s /\ machine_sequential jobs s.

Definition ls_inv (jobs : list job) (st : ls_st) : Prop :=
  good jobs (cur st) /\ good jobs (best st) /\
  cur_mk st = makespan (cur st) /\ best_mk st = makespan (best st).

Section ValidJobs.
Variable jobs : list job.
Hypothesis Hv : valid_jobs jobs = true.

Lemma dispatch_good : forall rl orc s orc',
  dispatch jobs (n_machines jobs) rl orc = Some (s, orc') -> good jobs s.
Proof.
  intros rl orc s orc' H. unfold dispatch in H.
  destruct (schedule_with (dispatch_choose rl) jobs (total_ops jobs)
              (map (fun jb : list (Z * Z) => sumZ (map snd jb)) jobs, orc) (init_kst jobs (n_machines jobs)))
    as [[[rem o2] ks]|] eqn:E; [|discriminate].
  injection H as Hs Ho. subst s orc'.
  exact (kernel_valid _ _ _ _ _ _ _ (jobs_ok_n_machines _ Hv) E).
Qed.

Lemma rebuild_good : forall old target order ns, rebuild jobs old target order = Some ns -> good jobs ns.
Proof.
  intros old target order ns H. unfold rebuild in H.
  destruct (n_machines_rb jobs) as [nm|] eqn:En; [|discriminate].
  destruct (schedule_with (rb_choose old target order) jobs (total_ops jobs) tt (init_kst jobs nm))
    as [[u ks]|] eqn:E; [|discriminate].
  injection H as Hs. subst ns.
  exact (kernel_valid _ _ _ _ _ _ _ (jobs_ok_n_machines_rb _ _ Hv En) E).
Qed.

Lemma try_swap_good : forall s id1 id2 ns, try_swap jobs s id1 id2 = Some (Some ns) -> good jobs ns.
Proof.
  intros s id1 id2 ns H. unfold try_swap in H.
  destruct (ops_with_start s (ops_on_machine jobs (machine_of jobs id1))) as [order|]; [|discriminate].
  destruct (find_pos_from 0 id1 order None) as [p1|]; [|discriminate].
  destruct (find_pos_from 0 id2 order None) as [p2|]; [|discriminate].
  destruct ((p1 =? S p2)%nat || (p2 =? S p1)%nat); [|discriminate].
  destruct (rebuild jobs s (machine_of jobs id1) (swap_at p1 p2 order)) as [ns'|] eqn:E; [|discriminate].
  injection H as Hs. subst ns'. exact (rebuild_good _ _ _ _ E).
Qed.

Lemma try_pairs_some : forall s mk ops is ns nmk,
  try_pairs jobs s mk ops is = Some (Some (ns, nmk)) -> good jobs ns /\ nmk = makespan ns /\ nmk < mk.
Proof.
  intros s mk ops is ns nmk. induction is as [|i r IH]; intros H; cbn [try_pairs] in H.
  - discriminate.
  - destruct (nth_error ops i) as [id1|]; [|discriminate].
    destruct (nth_error ops (S i)) as [id2|]; [|discriminate].
    destruct (try_swap jobs s id1 id2) as [[ns'|]|] eqn:E; [| exact (IH H) | discriminate].
    destruct (makespan ns' <? mk) eqn:Elt; [|exact (IH H)].
    injection H as H1 H2. subst ns' nmk. apply Z.ltb_lt in Elt.
    split; [exact (try_swap_good _ _ _ _ E) | split; [reflexivity | exact Elt]].
Qed.

Lemma ls_pass_inv : forall st ops is res,
  ls_inv jobs st ->
  try_pairs jobs (cur st) (cur_mk st) ops is = Some res ->
  ls_inv jobs (ls_step_state st res) /\
  best_mk (ls_step_state st res) <= best_mk st /\ cur_mk (ls_step_state st res) <= cur_mk st.
Proof.
  intros st ops is res [Hc [Hb [Hcm Hbm]]] E. unfold ls_inv.
  destruct res as [[ns nmk]|]; cbn [ls_step_state cur cur_mk best best_mk].
  - destruct (try_pairs_some _ _ _ _ _ _ E) as [Hg [Hm Hlt]].
    destruct (Z.ltb_spec nmk (best_mk st)).
    + split; [exact (conj Hg (conj Hg (conj Hm Hm))) | lia].
    + split; [exact (conj Hg (conj Hb (conj Hm Hbm))) | lia].
  - split; [exact (conj Hc (conj Hb (conj Hcm Hbm))) | lia].
Qed.

Lemma ls_loop_inv : forall cb iv fuel it st orc st' orc',
  ls_inv jobs st -> ls_loop jobs cb iv fuel it st orc = Some (st', orc') ->
  ls_inv jobs st' /\ best_mk st' <= best_mk st /\ cur_mk st' <= cur_mk st.
Proof.
  intros cb iv. induction fuel as [|f IH]; intros it st orc st' orc' I H; cbn [ls_loop] in H.
  - injection H as H1 H2. subst st' orc'. split; [exact I | lia].
  - destruct orc as [|mch orc1]; [discriminate|].
    destruct (length (ops_on_machine jobs (Z.of_nat mch)) <? 2)%nat.
    + exact (IH _ _ _ _ _ I H).
    + destruct (sort_ops (cur st) (ops_on_machine jobs (Z.of_nat mch))) as [sorted|]; [|discriminate].
      destruct (try_pairs jobs (cur st) (cur_mk st) sorted (seq 0 (length sorted - 1))) as [res|] eqn:E;
        [|discriminate].
      destruct (ls_pass_inv _ _ _ _ I E) as [I' [Hb Hc]].
      destruct (100 <=? no_imp (ls_step_state st res))%nat.
      * injection H as H1 H2. subst st' orc'. auto.
      * destruct (progress_stop cb iv it).
        -- injection H as H1 H2. subst st' orc'. auto.
        -- destruct (IH _ _ _ _ _ I' H) as [I'' [Hb' Hc']]. split; [exact I'' | lia].
Qed.

End ValidJobs.

Lemma fold_max_in : forall l a, fold_left Z.max l a = a \/ In (fold_left Z.max l a) l.
Proof.
  induction l as [|y l IH]; intros a; cbn [fold_left]; [left; reflexivity|].
  destruct (IH (Z.max a y)) as [H|H].
  - rewrite H. destruct (Z.max_spec a y) as [[_ E]|[_ E]]; rewrite E; [right; left; reflexivity | left; reflexivity].
  - right. right. exact H.
Qed.

Lemma makespan_spec : forall s, is_makespan s (makespan s).
Proof.
  intros s. unfold is_makespan, makespan. destruct s as [|[id0 [st0 en0]] r]; [left; auto|].
  right. cbn [map fst snd].
  set (ends := map (fun e : opid * (Z * Z) => snd (snd e)) r).
  destruct (fold_max_ge ends en0) as [Ha Hb]. split.
  - destruct (fold_max_in ends en0) as [H|H].
    + rewrite H. exists id0, st0. left. reflexivity.
    + unfold ends in H at 2. apply in_map_iff in H. destruct H as [[id [st en]] [Heq Hin]].
      cbn [snd] in Heq. exists id, st. right. rewrite <- Heq. exact Hin.
  - intros id st en [Heq|Hin].
    + injection Heq as E1 E2 E3. subst. exact Ha.
    + apply Hb. unfold ends. apply in_map_iff. exists (id, (st, en)). split; [reflexivity | exact Hin].
Qed.

Lemma solve_ok_cases : forall jobs rl ls mi cb iv orc s obj st orc',
  solve jobs rl ls mi cb iv orc = (Ok s obj st, orc') ->
  (jobs = [] /\ s = [] /\ obj = 0 /\ st = Optimal) \/
  (jobs <> [] /\ valid_jobs jobs = true /\ solve_valid jobs rl ls mi cb iv orc = (Ok s obj st, orc')).
Proof.
  intros jobs rl ls mi cb iv orc s obj st orc' H. unfold solve in H. destruct jobs as [|jb js].
  - left. injection H as H1 H2 H3 H4. auto.
  - right. split; [discriminate|]. destruct (valid_jobs (jb :: js)); cbn [negb] in H; [|discriminate].
    split; [reflexivity|]. destruct rl; try exact H; discriminate.
Qed.

Lemma valid_schedule_nil : valid_schedule [] [].
Proof.
  constructor; cbn.
  - constructor.
  - intros id. split; intros [].
  - intros id st en [].
  - intros j k k' s1 e1 s2 e2 [].
  - intros id1 id2 s1 e1 s2 e2 m d1 d2 [].
Qed.

Definition ls_start (s0 : sched) : ls_st :=
  {| cur := s0; cur_mk := makespan s0; best := s0; best_mk := makespan s0; no_imp := 0 |}.

Lemma ls_start_inv : forall jobs s0, good jobs s0 -> ls_inv jobs (ls_start s0).
Proof. intros jobs s0 H. unfold ls_inv, ls_start. cbn [cur cur_mk best best_mk]. auto. Qed.

(* whatever solve returns is a kernel output scored by its own makespan: the dispatch schedule, or the best of a
   local search started from it *)
Lemma solve_valid_good : forall jobs rl ls mi cb iv orc s obj st orc',
  valid_jobs jobs = true -> solve_valid jobs rl ls mi cb iv orc = (Ok s obj st, orc') ->
  good jobs s /\ obj = makespan s /\ st = Feasible.
Proof.
  intros jobs rl ls mi cb iv orc s obj st orc' Hv H. unfold solve_valid in H.
  destruct (dispatch jobs (n_machines jobs) rl orc) as [[s0 orc1]|] eqn:Hd; [|discriminate].
  pose proof (dispatch_good _ Hv _ _ _ _ Hd) as Hg0.
  destruct ls; cbn [negb] in H.
  - destruct (ls_loop _ _ _ _ _ _ _) as [[stf orc2]|] eqn:Hl; [|discriminate].
    injection H as <- <- <- <-.
    destruct (ls_loop_inv jobs Hv cb iv _ _ _ _ _ _ (ls_start_inv _ _ Hg0) Hl) as [[_ [Hb [_ Hbm]]] _]. auto.
  - injection H as <- <- <- <-. auto.
Qed.

Lemma solve_good : forall jobs rl ls mi cb iv orc s obj st orc',
  solve jobs rl ls mi cb iv orc = (Ok s obj st, orc') ->
  good jobs s /\ obj = makespan s /\ status_sane jobs st.
Proof.
  intros jobs rl ls mi cb iv orc s obj st orc' H.
  destruct (solve_ok_cases _ _ _ _ _ _ _ _ _ _ _ H) as [[-> [-> [-> ->]]] | [Hne [Hv Hsv]]].
  - split; [split; [exact valid_schedule_nil | intros id1 id2 s1 e1 s2 e2 m d1 d2 []]|].
    split; reflexivity.
  - destruct (solve_valid_good _ _ _ _ _ _ _ _ _ _ _ Hv Hsv) as [Hg [Ho ->]]. auto.
Qed.

Theorem solve_ls_monotone : forall jobs rl mi cb iv orc s0 o0 st0 r0 s1 o1 st1 r1,
  solve jobs rl false mi cb iv orc = (Ok s0 o0 st0, r0) ->
  solve jobs rl true mi cb iv orc = (Ok s1 o1 st1, r1) ->
  o1 <= o0.
Proof.
  intros jobs rl mi cb iv orc s0 o0 st0 r0 s1 o1 st1 r1 H0 H1.
  destruct (solve_ok_cases _ _ _ _ _ _ _ _ _ _ _ H0) as [[-> [_ [-> _]]] | [Hne [Hv Hsv0]]].
  - cbn in H1. injection H1 as _ <- _ _. apply Z.le_refl.
  - destruct (solve_ok_cases _ _ _ _ _ _ _ _ _ _ _ H1) as [[Hj _] | [_ [_ Hsv1]]]; [contradiction|].
    (* both calls start from the same dispatch schedule *)
    unfold solve_valid in Hsv0, Hsv1.
    destruct (dispatch jobs (n_machines jobs) rl orc) as [[s orc1]|] eqn:Hd; [|discriminate].
    cbn [negb] in Hsv0, Hsv1. injection Hsv0 as _ <- _ _.
    destruct (ls_loop _ _ _ _ _ _ _) as [[stf orc2]|] eqn:Hl; [|discriminate]. injection Hsv1 as _ <- _ _.
    pose proof (ls_start_inv _ _ (dispatch_good _ Hv _ _ _ _ Hd)) as I0.
    exact (proj1 (proj2 (ls_loop_inv jobs Hv cb iv _ _ _ _ _ _ I0 Hl))).
Qed.
