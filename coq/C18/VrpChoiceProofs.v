(* The choice-computing operators of C18/VrpChoice.v preserve invariant I for every rng answer / set iteration order:
   each of them is, by definition, an oracle-parametrised operator of C18/Vrp.v run on computed choices. *)
From Coq Require Import List.
From SV Require Import C18.Vrp C18.VrpSpec C18.VrpProofs2 C18.VrpChoice.
Import ListNotations.

Theorem apply_fop_inv I o st st' :
  inst_ok I = true -> vrp_inv I st -> apply_fop I o st = Some st' -> vrp_inv I st'.
Proof.
  intros Hok Hinv H.
  assert (Hop : forall o', apply_op I o' st = Some st' -> vrp_inv I st')
    by (intros o'; exact (apply_op_inv I o' st st' Hok Hinv)).
  destruct o as [s|idxs|nrem seed|vs|t s|order|k orders|order orders]; unfold apply_fop in H.
  - exact (Hop _ H).
  - unfold f_worst in H. destruct (pop_all _ idxs) as [rem|]; [exact (Hop _ H) | discriminate].
  - unfold f_related in H. destruct (assigned st); [|exact (Hop _ H)].
    inversion H; subst. exact Hinv.
  - exact (Hop _ H).
  - unfold f_sync_removal in H. destruct (sync_customers I st); [destruct s|]; exact (Hop _ H).
  - unfold f_greedy in H. destruct (set_eqb order (unassigned st)); [|discriminate].
    destruct (greedy_plan I order st) as [evs|]; [exact (Hop _ H) | discriminate].
  - unfold f_regret in H. destruct (regret_plan I k orders st) as [evs|]; [exact (Hop _ H) | discriminate].
  - unfold f_sync_aware in H. destruct (set_eqb order (unassigned st)); [|discriminate].
    destruct (multi_plan I _ st) as [mevs|]; [|discriminate].
    destruct (multi_events I mevs st) as [st1|]; [|discriminate].
    destruct (regret_plan I 2 orders _) as [evs|]; [exact (Hop _ H) | discriminate].
Qed.

Fixpoint run_fops (I : inst) (ops : list fop) (st : vstate) : option vstate :=
  match ops with
  | [] => Some st
  | o :: rest => match apply_fop I o st with Some st' => run_fops I rest st' | None => None end
  end.

Theorem run_fops_inv I ops : forall st st',
  inst_ok I = true -> vrp_inv I st -> run_fops I ops st = Some st' -> vrp_inv I st'.
Proof.
  induction ops as [|o rest IH]; intros st st' Hok Hinv H; simpl in H.
  - inversion H; subst. exact Hinv.
  - destruct (apply_fop I o st) as [s1|] eqn:E; [|discriminate].
    exact (IH s1 st' Hok (apply_fop_inv I o st s1 Hok Hinv E) H).
Qed.
