(* C18, job-shop part: the model never fails (value Fail / None) on valid input for the deterministic dispatch
   rules when the oracle holds one machine draw per local-search pass - so the conditional theorems of
   JobShopProofs2 are about every such run, not about an empty set. *)
From Coq Require Import List ZArith Bool Arith Lia.
From SV Require Import C18.JobShop C18.JobShopSpec C18.JobShopProofs C18.JobShopProofs2.
Import ListNotations.
Open Scope Z_scope.

Lemma argbest_lt : forall K (better : K -> K -> bool) r i bi bk,
  (bi < i)%nat -> (argbest better r i bi bk < i + length r)%nat.
Proof.
  induction r as [|k r IH]; intros i bi bk H; cbn [argbest length]; [lia|].
  destruct (better k bk).
  - pose proof (IH (S i) i k (Nat.lt_succ_diag_r i)). lia.
  - assert (Hlt : (bi < S i)%nat) by lia. pose proof (IH (S i) bi bk Hlt). lia.
Qed.

Lemma first_best_lt : forall K (better : K -> K -> bool) keys,
  keys <> [] -> (first_best better keys < length keys)%nat.
Proof.
  intros K better [|k r] H; [congruence|]. unfold first_best. cbn [length].
  pose proof (argbest_lt K better r 1 0 k Nat.lt_0_1). lia.
Qed.

Lemma schedule_with_total : forall A (choose : A -> kst -> list rop -> option (nat * A)) jobs (Q : A -> Prop),
  (forall a s, Q a -> ready_from 0 jobs (next_op s) <> [] ->
     exists i a', choose a s (ready_from 0 jobs (next_op s)) = Some (i, a') /\
                  (i < length (ready_from 0 jobs (next_op s)))%nat /\ Q a') ->
  forall fuel a s, Q a -> exists a' s', schedule_with choose jobs fuel a s = Some (a', s') /\ Q a'.
Proof.
  intros A choose jobs Q H. induction fuel as [|f IH]; intros a s Ha; cbn [schedule_with]; [eauto|].
  specialize (H a s Ha). destruct (ready_from 0 jobs (next_op s)) as [|r0 rest]; [eauto|].
  destruct H as [i [a1 [Hc [Hi Ha1]]]]; [discriminate|]. rewrite Hc.
  destruct (nth_error (r0 :: rest) i) as [r|] eqn:En; [exact (IH a1 _ Ha1)|].
  apply nth_error_None in En. lia.
Qed.

Definition deterministic (rl : rule) : bool :=
  match rl with Fifo | Spt | Lpt | Mwkr => true | Rnd | BadRule => false end.

Lemma dispatch_choose_det : forall rl rem orc s rd, deterministic rl = true ->
  exists i, (rd <> [] -> (i < length rd)%nat) /\
    dispatch_choose rl (rem, orc) s rd =
    match nth_error rd i with
    | None => None
    | Some r => Some (i, (set_nth (rjob r) (nth (rjob r) rem 0 - rdur r) rem, orc))
    end.
Proof.
  intros rl rem orc s rd Hdet.
  assert (Hfb : forall (better : Z -> Z -> bool) (f : rop -> Z),
            rd <> [] -> (first_best better (map f rd) < length rd)%nat).
  { intros better f Hrd. rewrite <- (map_length f rd). apply first_best_lt.
    destruct rd; [congruence | discriminate]. }
  destruct rl; try discriminate; eexists; (split; [|reflexivity]).
  - intros Hrd. destruct rd; [congruence | apply Nat.lt_0_succ].
  - apply Hfb.
  - apply Hfb.
  - apply Hfb.
Qed.

Lemma dispatch_choose_total : forall rl a s rd, rd <> [] -> deterministic rl = true ->
  exists i a', dispatch_choose rl a s rd = Some (i, a') /\ (i < length rd)%nat /\ snd a' = snd a.
Proof.
  intros rl [rem orc] s rd Hrd Hdet. destruct (dispatch_choose_det rl rem orc s rd Hdet) as [i [Hi E]].
  specialize (Hi Hrd). rewrite E. destruct (nth_error rd i) as [r|] eqn:En.
  - eexists. eexists. split; [reflexivity | split; [exact Hi | reflexivity]].
  - apply nth_error_None in En. lia.
Qed.

Lemma dispatch_total : forall jobs nm rl orc, deterministic rl = true ->
  exists s, dispatch jobs nm rl orc = Some (s, orc).
Proof.
  intros jobs nm rl orc Hdet. unfold dispatch.
  edestruct (schedule_with_total _ (dispatch_choose rl) jobs (fun a => snd a = orc))
    with (fuel := total_ops jobs) (a := (map (fun jb : list (Z * Z) => sumZ (map snd jb)) jobs, orc)) (s := init_kst jobs nm)
    as [[rem o2] [s' [E Hq]]].
  - intros a s Ha Hrd. destruct (dispatch_choose_total rl a s _ Hrd Hdet) as [i [a' [H1 [H2 H3]]]].
    exists i, a'. rewrite H3. auto.
  - reflexivity.
  - rewrite E. cbn [snd] in Hq. subst o2. eauto.
Qed.

Definition complete (jobs : list job) (s : sched) : Prop := incl (all_ops jobs) (map fst s).

Lemma all_some_total : forall A B (f : A -> option B) l,
  (forall x, In x l -> f x <> None) -> exists ys, all_some (map f l) = Some ys /\ length ys = length l.
Proof.
  induction l as [|a l IH]; intros H; cbn [all_some map].
  - exists []. split; reflexivity.
  - destruct IH as [ys [E L]]; [intros x Hx; apply H; right; exact Hx|].
    destruct (f a) as [y|] eqn:Ea; [|destruct (H a (or_introl eq_refl) Ea)].
    rewrite E. exists (y :: ys). cbn [length]. rewrite L. split; reflexivity.
Qed.

Lemma lookup_complete : forall jobs s id, complete jobs s -> In id (all_ops jobs) ->
  exists st en, lookup id s = Some (st, en).
Proof.
  intros jobs s id Hc Hid. apply Hc in Hid. clear Hc.
  induction s as [|[k [st en]] r IH]; cbn [lookup map fst In] in *; [contradiction|].
  destruct (opid_eqb k id) eqn:E; [eauto|].
  destruct Hid as [->|H]; [|exact (IH H)].
  assert (opid_eqb id id = true) by (apply opid_eqb_eq; reflexivity). congruence.
Qed.

Lemma ready_in_all_ops : forall jobs nx r, In r (ready_from 0 jobs nx) -> In (rjob r, ridx r) (all_ops jobs).
Proof.
  intros jobs nx r H. apply In_all_ops. exists (rmach r, rdur r). exact (proj2 (ready_In _ _ _ H)).
Qed.

Lemma rb_choose_total : forall jobs old target order a s,
  complete jobs old -> ready_from 0 jobs (next_op s) <> [] ->
  exists i a', rb_choose old target order a s (ready_from 0 jobs (next_op s)) = Some (i, a') /\
               (i < length (ready_from 0 jobs (next_op s)))%nat.
Proof.
  intros jobs old target order a s Hc Hrd. unfold rb_choose.
  remember (ready_from 0 jobs (next_op s)) as rd eqn:Erd.
  destruct (all_some_total _ _ (rb_key old target order) rd) as [keys [E L]].
  { intros r Hin. unfold rb_key. destruct (rmach r =? target); [discriminate|]. subst rd.
    destruct (lookup_complete _ old _ Hc (ready_in_all_ops _ _ _ Hin)) as [st [en Hl]]. rewrite Hl. discriminate. }
  rewrite E. eexists. eexists. split; [reflexivity|]. rewrite <- L.
  apply first_best_lt. destruct keys; [|discriminate]. destruct rd; [congruence | discriminate L].
Qed.

Lemma n_machines_rb_some : forall jobs, jobs <> [] -> valid_jobs jobs = true -> n_machines_rb jobs <> None.
Proof.
  intros [|jb js] Hne Hv; [congruence|]. cbn [valid_jobs forallb] in Hv. apply andb_true_iff in Hv.
  destruct Hv as [Hv _]. destruct jb as [|o jb]; [discriminate|]. unfold n_machines_rb. cbn. discriminate.
Qed.

Section Total.
Variable jobs : list job.
Hypothesis Hne : jobs <> [].
Hypothesis Hv : valid_jobs jobs = true.

Lemma rebuild_total : forall old target order, complete jobs old -> rebuild jobs old target order <> None.
Proof.
  intros old target order Hc. unfold rebuild.
  pose proof (n_machines_rb_some _ Hne Hv) as Hn. destruct (n_machines_rb jobs) as [nm|]; [|congruence].
  destruct (schedule_with_total _ (rb_choose old target order) jobs (fun _ => True)) with (fuel := total_ops jobs)
    (a := tt) (s := init_kst jobs nm) as [a' [s' [E _]]]; [|exact I|].
  - intros a s _ Hrd. destruct (rb_choose_total jobs old target order a s Hc Hrd) as [i [a' [H1 H2]]]. eauto.
  - rewrite E. destruct a'. discriminate.
Qed.

Lemma ops_with_start_total : forall s ops,
  complete jobs s -> incl ops (all_ops jobs) -> ops_with_start s ops <> None.
Proof.
  intros s ops Hc Hi. unfold ops_with_start.
  destruct (all_some_total _ _ (fun id : opid => match lookup id s with
                                                  | Some (st, _) => Some (fst id, snd id, st)
                                                  | None => None end) ops) as [l [E _]].
  { intros id Hin. destruct (lookup_complete _ s id Hc (Hi _ Hin)) as [st [en Hl]]. rewrite Hl. discriminate. }
  rewrite E. discriminate.
Qed.

Lemma ops_on_machine_incl : forall m, incl (ops_on_machine jobs m) (all_ops jobs).
Proof. intros m id H. unfold ops_on_machine in H. apply filter_In in H. exact (proj1 H). Qed.

Lemma try_swap_total : forall s id1 id2, complete jobs s -> try_swap jobs s id1 id2 <> None.
Proof.
  intros s id1 id2 Hc. unfold try_swap.
  pose proof (ops_with_start_total s _ Hc (ops_on_machine_incl (machine_of jobs id1))) as Ho.
  destruct (ops_with_start s (ops_on_machine jobs (machine_of jobs id1))) as [order|]; [|congruence].
  destruct (find_pos_from 0 id1 order None) as [p1|]; [|discriminate].
  destruct (find_pos_from 0 id2 order None) as [p2|]; [|discriminate].
  destruct ((p1 =? S p2)%nat || (p2 =? S p1)%nat); [|discriminate].
  pose proof (rebuild_total s (machine_of jobs id1) (swap_at p1 p2 order) Hc) as Hr.
  destruct (rebuild jobs s (machine_of jobs id1) (swap_at p1 p2 order)); [discriminate | congruence].
Qed.

Lemma try_pairs_total : forall s mk ops is, complete jobs s ->
  (forall i, In i is -> (S i < length ops)%nat) -> try_pairs jobs s mk ops is <> None.
Proof.
  intros s mk ops is Hc. induction is as [|i r IH]; intros Hi; cbn [try_pairs]; [discriminate|].
  assert (Hlt : (S i < length ops)%nat) by (apply Hi; left; reflexivity).
  assert (IH' : try_pairs jobs s mk ops r <> None) by (apply IH; intros j Hj; apply Hi; right; exact Hj).
  destruct (nth_error ops i) as [id1|] eqn:E1; [|apply nth_error_None in E1; lia].
  destruct (nth_error ops (S i)) as [id2|] eqn:E2; [|apply nth_error_None in E2; lia].
  pose proof (try_swap_total s id1 id2 Hc) as Hs.
  destruct (try_swap jobs s id1 id2) as [[ns|]|]; [| exact IH' | congruence].
  destruct (makespan ns <? mk); [discriminate | exact IH'].
Qed.

Lemma good_complete : forall s, good jobs s -> complete jobs s.
Proof. intros s [Hs _] id Hin. apply (vs_complete _ _ Hs). exact Hin. Qed.

Lemma ls_loop_total : forall cb iv fuel it st orc, (fuel <= length orc)%nat -> ls_inv jobs st ->
  ls_loop jobs cb iv fuel it st orc <> None.
Proof.
  intros cb iv. induction fuel as [|f IH]; intros it st orc Hlen I; cbn [ls_loop]; [discriminate|].
  destruct orc as [|mch orc1]; [inversion Hlen|]. apply le_S_n in Hlen.
  destruct (length (ops_on_machine jobs (Z.of_nat mch)) <? 2)%nat; [exact (IH _ _ _ Hlen I)|].
  pose proof (good_complete _ (proj1 I)) as Hc.
  pose proof (ops_with_start_total (cur st) _ Hc (ops_on_machine_incl (Z.of_nat mch))) as Ho.
  unfold sort_ops. destruct (ops_with_start (cur st) _) as [l|]; [|congruence].
  set (sorted := map _ l).
  destruct (try_pairs jobs (cur st) (cur_mk st) sorted _) as [res|] eqn:E.
  - destruct (ls_pass_inv _ Hv _ _ _ _ I E) as [I' _].
    destruct (100 <=? no_imp (ls_step_state st res))%nat; [discriminate|].
    destruct (progress_stop cb iv it); [discriminate|]. exact (IH _ _ _ Hlen I').
  - exfalso. revert E. apply try_pairs_total; [exact Hc|].
    intros i Hi. apply in_seq in Hi. lia.
Qed.

End Total.

Theorem solve_total : forall jobs rl ls mi cb iv orc,
  deterministic rl = true -> (Z.to_nat mi <= length orc)%nat ->
  fst (solve jobs rl ls mi cb iv orc) <> Fail.
Proof.
  intros jobs rl ls mi cb iv orc Hdet Hlen. unfold solve. destruct jobs as [|jb js]; [discriminate|].
  destruct (valid_jobs (jb :: js)) eqn:Hv; cbn [negb]; [|discriminate].
  assert (Hsv : fst (solve_valid (jb :: js) rl ls mi cb iv orc) <> Fail).
  { unfold solve_valid. destruct (dispatch_total (jb :: js) (n_machines (jb :: js)) rl orc Hdet) as [s0 Hd].
    rewrite Hd. destruct ls; cbn [negb]; [|discriminate].
    pose proof (ls_start_inv _ _ (dispatch_good _ Hv _ _ _ _ Hd)) as I0.
    pose proof (ls_loop_total (jb :: js) ltac:(discriminate) Hv cb iv (Z.to_nat mi) 1%nat _ orc Hlen I0) as Hl.
    unfold ls_start in Hl. destruct (ls_loop _ _ _ _ _ _ _) as [[stf o2]|]; [discriminate | congruence]. }
  destruct rl; try discriminate; exact Hsv.
Qed.
