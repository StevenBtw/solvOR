(* C18, job-shop part: the list-scheduling kernel produces a valid schedule for EVERY `choose`.
   Invariant on the clocks: every scheduled operation of job j ends <= job_free[j], every scheduled operation on
   machine m ends <= machine_free[m]; the keys of the schedule are exactly {(j, k) | k < next_op[j]}. *)
From Coq Require Import List ZArith Bool Arith Lia FinFun.
From SV Require Import C18.JobShop C18.JobShopSpec.
Import ListNotations.
Open Scope Z_scope.

Lemma length_set_nth : forall A (l : list A) i v, length (set_nth i v l) = length l.
Proof. induction l as [|x xs IH]; intros [|i] v; cbn; auto. Qed.

Lemma nth_set_nth_eq : forall A (l : list A) i v d, (i < length l)%nat -> nth i (set_nth i v l) d = v.
Proof.
  induction l as [|x xs IH]; intros [|i] v d H; cbn in *; try lia; auto. apply IH. lia.
Qed.

Lemma nth_set_nth_neq : forall A (l : list A) i i' v d, i' <> i -> nth i' (set_nth i v l) d = nth i' l d.
Proof.
  induction l as [|x xs IH]; intros [|i] [|i'] v d H; cbn; auto; try congruence.
Qed.

Lemma set_nth_ge : forall (l : list Z) i v i', nth i l 0 <= v -> nth i' l 0 <= nth i' (set_nth i v l) 0.
Proof.
  induction l as [|x xs IH]; intros [|i] v [|i'] H; cbn in *; try lia. apply IH. exact H.
Qed.

Lemma in_snoc : forall A (l : list A) a x, In x (l ++ [a]) <-> In x l \/ x = a.
Proof.
  intros A l a x. rewrite in_app_iff. cbn [In]. split.
  - intros [H|[H|[]]]; [left; exact H | right; symmetry; exact H].
  - intros [H|H]; [left; exact H | right; left; symmetry; exact H].
Qed.

Lemma NoDup_app_disj : forall A (l1 l2 : list A),
  NoDup l1 -> NoDup l2 -> (forall x, In x l1 -> ~ In x l2) -> NoDup (l1 ++ l2).
Proof.
  induction l1 as [|a l1 IH]; intros l2 H1 H2 H; cbn; auto.
  inversion H1 as [|a' l' Hna Hnd]; subst. constructor.
  - rewrite in_app_iff. intros [Hi|Hi]; [contradiction|]. apply (H a); [left; reflexivity | exact Hi].
  - apply IH; auto. intros x Hx. apply H. right. exact Hx.
Qed.

Lemma In_all_ops_from : forall jobs j0 j k,
  In (j, k) (all_ops_from j0 jobs) <->
  exists i jb, j = (j0 + i)%nat /\ nth_error jobs i = Some jb /\ (k < length jb)%nat.
Proof.
  induction jobs as [|jb r IH]; intros j0 j k; cbn [all_ops_from].
  - split; [intros [] | intros [[|i] [jb [_ [H _]]]]; discriminate H].
  - rewrite in_app_iff, in_map_iff, IH. split.
    + intros [[x [Hx Hin]] | [i [jb' [Hj H]]]].
      * injection Hx as <- <-. apply in_seq in Hin. exists 0%nat, jb.
        split; [apply plus_n_O | split; [reflexivity | apply Hin]].
      * exists (S i), jb'. split; [rewrite Hj; apply Nat.add_succ_comm | exact H].
    + intros [[|i] [jb' [Hj [Hn Hk]]]].
      * left. injection Hn as <-. exists k. rewrite Hj, Nat.add_0_r.
        split; [reflexivity | apply in_seq; split; [apply Nat.le_0_l | exact Hk]].
      * right. exists i, jb'. rewrite Hj, Nat.add_succ_comm. auto.
Qed.

Lemma In_all_ops_nth : forall jobs j k,
  In (j, k) (all_ops jobs) <-> exists jb, nth_error jobs j = Some jb /\ (k < length jb)%nat.
Proof.
  intros jobs j k. unfold all_ops. rewrite In_all_ops_from. split.
  - intros [i [jb [-> H]]]. exists jb. exact H.
  - intros [jb H]. exists j, jb. split; [reflexivity | exact H].
Qed.

Lemma In_all_ops : forall jobs id, In id (all_ops jobs) <-> exists o, op_at jobs id = Some o.
Proof.
  intros jobs [j k]. rewrite In_all_ops_nth. unfold op_at. cbn [fst snd]. split.
  - intros [jb [Hj Hk]]. rewrite Hj. destruct (nth_error jb k) as [o|] eqn:E; [eauto|].
    apply nth_error_None in E. lia.
  - intros [o Ho]. destruct (nth_error jobs j) as [jb|]; [|discriminate].
    exists jb. split; [reflexivity|]. apply nth_error_Some. congruence.
Qed.

Lemma NoDup_all_ops_from : forall jobs j0, NoDup (all_ops_from j0 jobs).
Proof.
  induction jobs as [|jb r IH]; intros j0; cbn [all_ops_from]; [constructor|].
  apply NoDup_app_disj.
  - apply Injective_map_NoDup; [|apply seq_NoDup]. intros x y H. inversion H. reflexivity.
  - apply IH.
  - intros [j k] H1 H2. apply in_map_iff in H1. destruct H1 as [x [Hx _]]. injection Hx as <- _.
    apply In_all_ops_from in H2. destruct H2 as [i [_ [Hj _]]]. lia.
Qed.

Lemma length_all_ops : forall jobs, length (all_ops jobs) = total_ops jobs.
Proof.
  intros jobs. unfold all_ops, total_ops. generalize 0%nat.
  induction jobs as [|jb r IH]; intros j0; cbn [all_ops_from concat]; [reflexivity|].
  rewrite !app_length, map_length, seq_length, IH. reflexivity.
Qed.

Lemma op_at_bound : forall jobs j k o, op_at jobs (j, k) = Some o ->
  (j < length jobs)%nat /\ (k < length (nth j jobs []))%nat.
Proof.
  intros jobs j k o H. unfold op_at in H. cbn [fst snd] in H.
  destruct (nth_error jobs j) as [jb|] eqn:E; [|discriminate].
  rewrite (nth_error_nth _ _ _ E). split; apply nth_error_Some; congruence.
Qed.

Lemma ready_from_In : forall jobs nx j0 r, In r (ready_from j0 jobs nx) ->
  exists i jb, rjob r = (j0 + i)%nat /\ nth_error nx i = Some (ridx r) /\
               nth_error jobs i = Some jb /\ nth_error jb (ridx r) = Some (rmach r, rdur r).
Proof.
  induction jobs as [|jb js IH]; intros [|n ns] j0 r H; cbn [ready_from] in H; try contradiction.
  destruct (nth_error jb n) as [[m d]|] eqn:E; [destruct H as [<-|H]|].
  { exists 0%nat, jb. split; [apply plus_n_O | split; [reflexivity | split; [reflexivity | exact E]]]. }
  (* otherwise r belongs to a later job *)
  all: destruct (IH _ _ _ H) as [i [jb' [Hj H']]]; exists (S i), jb'; split; [rewrite Hj; apply Nat.add_succ_comm | exact H'].
Qed.

Lemma ready_In : forall jobs nx r, In r (ready_from 0 jobs nx) ->
  nth_error nx (rjob r) = Some (ridx r) /\ op_at jobs (rjob r, ridx r) = Some (rmach r, rdur r).
Proof.
  intros jobs nx r H. destruct (ready_from_In _ _ _ _ H) as [i [jb [Hj [Hn [Hjb Ho]]]]].
  unfold op_at. cbn [fst snd]. rewrite Hj. cbn [Nat.add]. rewrite Hjb. split; assumption.
Qed.

Lemma ready_from_nil : forall jobs nx j0, length nx = length jobs -> ready_from j0 jobs nx = [] ->
  forall i jb, nth_error jobs i = Some jb -> (length jb <= nth i nx 0)%nat.
Proof.
  induction jobs as [|jb0 js IH]; intros nx j0 Hlen H i jb Hi.
  - destruct i; discriminate.
  - destruct nx as [|n ns]; [discriminate Hlen|]. cbn [ready_from] in H.
    destruct (nth_error jb0 n) as [[m d]|] eqn:E; [discriminate|].
    destruct i as [|i]; cbn in *.
    + inversion Hi; subst. apply nth_error_None. exact E.
    + eapply IH; eauto.
Qed.

Definition ops_in_range (jobs : list job) (nm : nat) : Prop :=
  forall id m d, op_at jobs id = Some (m, d) -> (Z.to_nat m < nm)%nat /\ 0 <= d.

(* the stronger machine condition the kernel really ensures: operations on a machine are SEQUENTIAL, also the
   zero-length ones *)
Definition machine_sequential (jobs : list job) (s : sched) : Prop :=
  forall id1 id2 s1 e1 s2 e2 m d1 d2, In (id1, (s1, e1)) s -> In (id2, (s2, e2)) s ->
    id1 <> id2 -> op_at jobs id1 = Some (m, d1) -> op_at jobs id2 = Some (m, d2) -> e1 <= s2 \/ e2 <= s1.

Definition jobs_ok (jobs : list job) (nm : nat) : bool :=
  forallb (forallb (fun o : op => (Z.to_nat (fst o) <? nm)%nat && (0 <=? snd o))) jobs.

Lemma jobs_ok_ops_in_range : forall jobs nm, jobs_ok jobs nm = true -> ops_in_range jobs nm.
Proof.
  intros jobs nm H [j k] m d Ho. unfold op_at in Ho. cbn [fst snd] in Ho.
  destruct (nth_error jobs j) as [jb|] eqn:Ej; [|discriminate].
  unfold jobs_ok in H. rewrite forallb_forall in H.
  specialize (H jb (nth_error_In _ _ Ej)). rewrite forallb_forall in H.
  specialize (H (m, d) (nth_error_In _ _ Ho)). cbn [fst snd] in H.
  apply andb_true_iff in H. destruct H as [H1 H2].
  apply Nat.ltb_lt in H1. apply Z.leb_le in H2. split; assumption.
Qed.

Record kinv (jobs : list job) (nm : nat) (s : kst) : Prop := {
  ki_lnx : length (next_op s) = length jobs;
  ki_ljf : length (jfree s) = length jobs;
  ki_lmf : length (mfree s) = nm;
  ki_keys : forall j k, In (j, k) (map fst (sch s)) <-> (k < nth j (next_op s) 0)%nat;
  ki_bound : forall j, (nth j (next_op s) 0 <= length (nth j jobs []))%nat;
  ki_nodup : NoDup (map fst (sch s));
  ki_entry : forall j k st en, In ((j, k), (st, en)) (sch s) ->
      exists m d, op_at jobs (j, k) = Some (m, d) /\ en = st + d /\
                  en <= nth j (jfree s) 0 /\ en <= nth (Z.to_nat m) (mfree s) 0;
  ki_job : forall j k k' s1 e1 s2 e2, In ((j, k), (s1, e1)) (sch s) -> In ((j, k'), (s2, e2)) (sch s) ->
      (k < k')%nat -> e1 <= s2;
  ki_mach : forall id1 id2 s1 e1 s2 e2 m d1 d2, In (id1, (s1, e1)) (sch s) -> In (id2, (s2, e2)) (sch s) ->
      id1 <> id2 -> op_at jobs id1 = Some (m, d1) -> op_at jobs id2 = Some (m, d2) ->
      e1 <= s2 \/ e2 <= s1
}.

Lemma kinv_init : forall jobs nm, kinv jobs nm (init_kst jobs nm).
Proof.
  intros jobs nm. unfold init_kst. constructor; cbn [next_op mfree jfree sch map]; try apply repeat_length.
  - intros j k. rewrite nth_repeat. split; [intros [] | intros H; inversion H].
  - intros j. rewrite nth_repeat. apply Nat.le_0_l.
  - constructor.
  - intros j k st en [].
  - intros j k k' s1 e1 s2 e2 [].
  - intros id1 id2 s1 e1 s2 e2 m d1 d2 [].
Qed.

(* Scheduling the ready operation (j, k) on machine m at st = max(machine_free[m], job_free[j]): by ki_entry every
   operation scheduled so far of job j or on machine m has ended by st; the two clocks that change move forward. *)
Lemma kinv_step : forall jobs nm s r,
  ops_in_range jobs nm -> kinv jobs nm s -> In r (ready_from 0 jobs (next_op s)) ->
  kinv jobs nm (sched_op s r).
Proof.
  intros jobs nm s [[[j k] m] d] Hok [Llnx Lljf Llmf Keys Bound Nodup Entry Job Mach] Hr.
  destruct (ready_In _ _ _ Hr) as [Hnx Hop].
  unfold sched_op, rjob, ridx, rmach, rdur in *. cbn [fst snd] in *.
  destruct (Hok _ _ _ Hop) as [Hm Hd]. destruct (op_at_bound _ _ _ _ Hop) as [Hj Hkb].
  apply (nth_error_nth _ _ 0%nat) in Hnx.
  rewrite <- Llnx in Hj. assert (Hj' := Hj). rewrite Llnx, <- Lljf in Hj'. rewrite <- Llmf in Hm.
  set (mi := Z.to_nat m) in *.
  remember (Z.max (nth mi (mfree s) 0) (nth j (jfree s) 0)) as st eqn:Hst.
  assert (Hms : nth mi (mfree s) 0 <= st) by (rewrite Hst; apply Z.le_max_l).
  assert (Hjs : nth j (jfree s) 0 <= st) by (rewrite Hst; apply Z.le_max_r).
  assert (Hme : nth mi (mfree s) 0 <= st + d) by lia.
  assert (Hje : nth j (jfree s) 0 <= st + d) by lia.
  clear Hst Hok Hr.
  assert (Hmach : forall id s1 e1 d1, In (id, (s1, e1)) (sch s) -> op_at jobs id = Some (m, d1) -> e1 <= st).
  { intros [j1 k1] s1 e1 d1 Hin Ho. destruct (Entry _ _ _ _ Hin) as [m' [d' [Ho' [_ [_ Hmf]]]]].
    rewrite Ho in Ho'. injection Ho' as <- _. exact (Z.le_trans _ _ _ Hmf Hms). }
  constructor; cbn [next_op mfree jfree sch]; try (rewrite length_set_nth; assumption).
  - intros j' k'. rewrite map_app. cbn [map fst]. rewrite in_snoc, Keys.
    destruct (Nat.eq_dec j' j) as [->|Hne].
    + rewrite (nth_set_nth_eq _ _ _ _ _ Hj), Hnx, Nat.lt_succ_r, Nat.lt_eq_cases.
      split; (intros [H|H]; [left; exact H | right; congruence]).
    + rewrite (nth_set_nth_neq _ _ _ _ _ _ Hne). split; [intros [H|H]; [exact H | congruence] | left; assumption].
  - intros j'. destruct (Nat.eq_dec j' j) as [->|Hne].
    + rewrite (nth_set_nth_eq _ _ _ _ _ Hj). exact Hkb.
    + rewrite (nth_set_nth_neq _ _ _ _ _ _ Hne). apply Bound.
  - rewrite map_app. apply NoDup_app_disj; [exact Nodup | repeat constructor; intros [] |].
    intros x Hx [<-|[]]. apply Keys in Hx. rewrite Hnx in Hx. exact (Nat.lt_irrefl _ Hx).
  - intros j' k' st' en' Hin. apply in_snoc in Hin. destruct Hin as [Hin|Heq].
    + destruct (Entry _ _ _ _ Hin) as [m' [d' [Ho [He [Hjf Hmf]]]]]. exists m', d'.
      split; [exact Ho | split; [exact He|]].
      split; [apply (Z.le_trans _ _ _ Hjf) | apply (Z.le_trans _ _ _ Hmf)]; apply set_nth_ge; assumption.
    + injection Heq as -> -> -> ->. exists m, d. split; [exact Hop | split; [reflexivity|]].
      rewrite (nth_set_nth_eq _ _ _ _ _ Hj'), (nth_set_nth_eq _ _ _ _ _ Hm). split; apply Z.le_refl.
  - intros j' k1 k2 s1 e1 s2 e2 H1 H2 Hlt. apply in_snoc in H1, H2.
    destruct H1 as [H1|H1], H2 as [H2|H2].
    + exact (Job _ _ _ _ _ _ _ H1 H2 Hlt).
    + injection H2 as -> -> -> ->. destruct (Entry _ _ _ _ H1) as [_ [_ [_ [_ [Hjf _]]]]].
      exact (Z.le_trans _ _ _ Hjf Hjs).
    + (* k is not yet scheduled, so no later operation of job j is *)
      injection H1 as -> -> -> ->. apply (in_map fst) in H2. apply Keys in H2. rewrite Hnx in H2.
      destruct (Nat.lt_asymm _ _ Hlt H2).
    + injection H1 as -> -> -> ->. injection H2 as -> _ _. destruct (Nat.lt_irrefl _ Hlt).
  - intros id1 id2 s1 e1 s2 e2 m0 d1 d2 H1 H2 Hne Ho1 Ho2. apply in_snoc in H1, H2.
    destruct H1 as [H1|H1], H2 as [H2|H2].
    + exact (Mach _ _ _ _ _ _ _ _ _ H1 H2 Hne Ho1 Ho2).
    + injection H2 as -> -> ->. rewrite Hop in Ho2. injection Ho2 as <- _. left. exact (Hmach _ _ _ _ H1 Ho1).
    + injection H1 as -> -> ->. rewrite Hop in Ho1. injection Ho1 as <- _. right. exact (Hmach _ _ _ _ H2 Ho2).
    + congruence.
Qed.

Lemma kinv_keys_incl : forall jobs nm s, kinv jobs nm s -> incl (map fst (sch s)) (all_ops jobs).
Proof.
  intros jobs nm s I [j k] Hin. apply (ki_keys _ _ _ I) in Hin.
  pose proof (ki_bound _ _ _ I j) as Hb.
  apply In_all_ops_nth. destruct (nth_error jobs j) as [jb|] eqn:E.
  - exists jb. split; [reflexivity|]. rewrite (nth_error_nth _ _ _ E) in Hb. lia.
  - apply nth_error_None in E. rewrite (nth_overflow _ _ E) in Hb. cbn in Hb. lia.
Qed.

Lemma schedule_with_inv : forall A (choose : A -> kst -> list rop -> option (nat * A)) jobs nm,
  ops_in_range jobs nm ->
  forall fuel a s a' s', kinv jobs nm s -> (length (sch s) + fuel = total_ops jobs)%nat ->
  schedule_with choose jobs fuel a s = Some (a', s') ->
  kinv jobs nm s' /\ incl (all_ops jobs) (map fst (sch s')).
Proof.
  intros A choose jobs nm Hok. induction fuel as [|f IH]; intros a s a' s' I Hlen H.
  - cbn in H. injection H as Ha Hs. subst a' s'. split; [exact I|].
    apply NoDup_length_incl.
    + exact (ki_nodup _ _ _ I).
    + rewrite map_length, length_all_ops. lia.
    + exact (kinv_keys_incl _ _ _ I).
  - cbn [schedule_with] in H. destruct (ready_from 0 jobs (next_op s)) as [|r0 rest] eqn:Hrd.
    + injection H as Ha Hs. subst a' s'. split; [exact I|].
      intros [j k] Hin. apply In_all_ops_nth in Hin. destruct Hin as [jb [Hj Hk]].
      apply (ki_keys _ _ _ I).
      pose proof (ready_from_nil jobs (next_op s) 0%nat (ki_lnx _ _ _ I) Hrd j jb Hj). lia.
    + destruct (choose a s (r0 :: rest)) as [[i a1]|]; [|discriminate].
      destruct (nth_error (r0 :: rest) i) as [r|] eqn:Hn; [|discriminate].
      apply IH in H; [exact H | |].
      * apply kinv_step; [exact Hok | exact I |]. rewrite Hrd. eapply nth_error_In; eauto.
      * unfold sched_op. cbn [sch]. rewrite app_length. cbn [length]. lia.
Qed.

Lemma kinv_valid : forall jobs nm s,
  kinv jobs nm s -> incl (all_ops jobs) (map fst (sch s)) -> valid_schedule jobs (sch s).
Proof.
  intros jobs nm s I Hc. constructor.
  - exact (ki_nodup _ _ _ I).
  - intros id. split; [apply (kinv_keys_incl _ _ _ I) | apply Hc].
  - intros [j k] st en Hin. destruct (ki_entry _ _ _ I _ _ _ _ Hin) as [m [d [Ho [He _]]]].
    exists m, d. split; [exact Ho | lia].
  - exact (ki_job _ _ _ I).
  - intros id1 id2 s1 e1 s2 e2 m d1 d2 H1 H2 Hne Ho1 Ho2.
    pose proof (ki_mach _ _ _ I _ _ _ _ _ _ _ _ _ H1 H2 Hne Ho1 Ho2). unfold overlap. lia.
Qed.

Theorem kernel_valid : forall (A : Type) (choose : A -> kst -> list rop -> option (nat * A)) jobs nm a a' s,
  jobs_ok jobs nm = true ->
  schedule_with choose jobs (total_ops jobs) a (init_kst jobs nm) = Some (a', s) ->
  valid_schedule jobs (sch s) /\ machine_sequential jobs (sch s).
Proof.
  intros A choose jobs nm a a' s Hok H.
  destruct (schedule_with_inv A choose jobs nm (jobs_ok_ops_in_range _ _ Hok) _ _ _ _ _ (kinv_init jobs nm) eq_refl H)
    as [I Hc].
  split; [exact (kinv_valid _ _ _ I Hc) | exact (ki_mach _ _ _ I)].
Qed.
