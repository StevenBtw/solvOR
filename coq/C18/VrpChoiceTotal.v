(* The choices vrp.py computes always pass the guards of the oracle-parametrised operators: the choice-computing
   operators of C18/VrpChoice.v do not fail (return None) on consistent states, whatever the random generator answers,
   as long as the answers are of the kind the rng methods give (elements of the population, indices in range,
   a permutation for shuffle / set iteration). *)
From Coq Require Import List ZArith Bool Arith Lia Permutation.
From SV Require Import C18.Vrp C18.VrpSpec C18.VrpProofs C18.VrpProofs2 C18.VrpChoice.
Import ListNotations.

Lemma first_min_In {B} (l : list (Z * B)) x : first_min l = Some x -> In x l.
Proof.
  revert x. induction l as [|y r IH]; intros x H; simpl in H; [discriminate|].
  destruct (first_min r) as [z|].
  - destruct (fst z <? fst y)%Z; inversion H; subst; [right; apply IH; reflexivity | left; reflexivity].
  - inversion H; subst. left. reflexivity.
Qed.

Lemma first_min_some {B} (l : list (Z * B)) : l <> [] -> exists x, first_min l = Some x.
Proof.
  destruct l as [|y r]; intros H; [contradiction H; reflexivity|]. simpl.
  destruct (first_min r) as [z|]; [destruct (fst z <? fst y)%Z|]; eexists; reflexivity.
Qed.

Lemma vehicle_options_pos I st cid v c pos :
  In (c, pos) (vehicle_options I st cid v) -> (pos <= length (nth v (routes st) []))%nat.
Proof.
  unfold vehicle_options. intros H. apply in_flat_map in H. destruct H as [p [Hp Hin]].
  apply in_seq in Hp. destruct (insertion_cost I st v p cid); [|contradiction].
  destruct Hin as [E|[]]. inversion E; subst. lia.
Qed.

Lemma all_options_valid I st cid c v pos :
  In (c, (v, pos)) (all_options I st cid) ->
  (v < nveh I)%nat /\ (pos <= length (nth v (routes st) []))%nat.
Proof.
  unfold all_options. intros H. apply in_flat_map in H. destruct H as [v' [Hv Hin]].
  apply in_seq in Hv. apply in_map_iff in Hin. destruct Hin as [[c' p'] [E Hin]]. simpl in E.
  inversion E; subst. split; [lia | exact (vehicle_options_pos I st cid v c pos Hin)].
Qed.

Lemma place_one_ok I cid v pos st :
  In cid (unassigned st) -> (v < length (routes st))%nat -> (pos <= length (nth v (routes st) []))%nat ->
  exists st', place_one I cid v pos st = Some st' /\ unassigned st' = remove_u cid (unassigned st).
Proof.
  intros Hu Hv Hp. unfold place_one, place_guard. simpl.
  apply memb_In in Hu. rewrite Hu. apply Nat.ltb_lt in Hv. rewrite Hv. apply Nat.leb_le in Hp. rewrite Hp.
  simpl. rewrite orb_true_r. eexists. split; reflexivity.
Qed.

Lemma greedy_plan_total I order : forall st,
  J I st -> NoDup order -> (forall x, In x order -> In x (unassigned st)) ->
  exists evs st', greedy_plan I order st = Some evs /\ ins_events I evs st = Some st'.
Proof.
  induction order as [|cid rest IH]; intros st HJ Hnd Hsub; cbn [greedy_plan].
  - exists [], st. split; reflexivity.
  - inversion Hnd as [|y ys Hcid Hrest]; subst.
    destruct (first_min (all_options I st cid)) as [[c [v pos]]|] eqn:Efm.
    + apply first_min_In, all_options_valid in Efm. destruct Efm as [Hv Hp].
      rewrite <- (j_shape_r I st HJ) in Hv.
      destruct (place_one_ok I cid v pos st (Hsub cid (or_introl eq_refl)) Hv Hp) as [st1 [E Hun]].
      rewrite E. destruct (place_one_J_ext I cid v pos st st1 HJ E) as [HJ1 _].
      destruct (IH st1 HJ1 Hrest) as [evs [st' [Hevs Hrun]]].
      * intros x Hx. rewrite Hun. apply In_remove_u. split; [apply Hsub; right; exact Hx|].
        intros ->. exact (Hcid Hx).
      * rewrite Hevs. exists ((cid, v, pos) :: evs), st'. split; [reflexivity|]. cbn [ins_events]. rewrite E. exact Hrun.
    + apply IH; [exact HJ | exact Hrest | intros x Hx; apply Hsub; right; exact Hx].
Qed.

Lemma set_eqb_parts a b :
  set_eqb a b = true -> length a = length b /\ (forall x, In x a -> In x b) /\ (forall x, In x b -> In x a).
Proof.
  unfold set_eqb. intros H. apply andb_true_iff in H. destruct H as [H H3]. apply andb_true_iff in H.
  destruct H as [H1 H2]. apply Nat.eqb_eq in H1. split; [exact H1|].
  split; [exact (proj1 (subsetb_spec _ _) H2) | exact (proj1 (subsetb_spec _ _) H3)].
Qed.

Lemma set_eqb_NoDup a b : set_eqb a b = true -> NoDup b -> NoDup a.
Proof.
  intros H Hb. destruct (set_eqb_parts a b H) as [Hl [_ Hba]].
  apply (@NoDup_incl_NoDup nat b a Hb); [lia | exact Hba].
Qed.

Theorem f_greedy_total I order st :
  vrp_inv I st -> set_eqb order (unassigned st) = true -> exists st', f_greedy I order st = Some st'.
Proof.
  intros Hinv Hs. destruct (parts_of_inv I st Hinv) as [HJ _]. unfold f_greedy. rewrite Hs.
  destruct (set_eqb_parts _ _ Hs) as [_ [Hsub _]].
  destruct (greedy_plan_total I order st HJ (set_eqb_NoDup _ _ Hs (j_un_nodup I st HJ)) Hsub) as [evs [st' [Hevs Hrun]]].
  rewrite Hevs. exists st'. exact Hrun.
Qed.

Lemma pick_regret_ind I st k order : forall best (P : option (Z * (nat * (nat * nat))) -> Prop),
  P best ->
  (forall r cid vp, In cid order -> regret_of I st k cid = Some (r, vp) -> P (Some (r, (cid, vp)))) ->
  P (pick_regret I st k order best).
Proof.
  induction order as [|c rest IH]; intros best P Hb Hnew; cbn [pick_regret]; [exact Hb|].
  assert (Hrest : forall r cid vp, In cid rest -> regret_of I st k cid = Some (r, vp) -> P (Some (r, (cid, vp))))
    by (intros r cid vp Hin Hr; apply Hnew; [right; exact Hin | exact Hr]).
  destruct (regret_of I st k c) as [[rg vp]|] eqn:Er; [|exact (IH _ P Hb Hrest)].
  assert (Hc : P (Some (rg, (c, vp)))) by (apply Hnew; [left; reflexivity | exact Er]).
  destruct best as [[brg bx]|]; [destruct (brg <? rg)%Z|]; apply IH; assumption.
Qed.

Lemma pick_regret_src I st k order r cid vp :
  pick_regret I st k order None = Some (r, (cid, vp)) -> In cid order /\ regret_of I st k cid = Some (r, vp).
Proof.
  apply (pick_regret_ind I st k order None
           (fun b => b = Some (r, (cid, vp)) -> In cid order /\ regret_of I st k cid = Some (r, vp))).
  - discriminate.
  - intros r' cid' vp' Hin Hr E. injection E as <- <- <-. split; assumption.
Qed.

Lemma regret_of_valid I st k cid r v pos :
  regret_of I st k cid = Some (r, (v, pos)) ->
  (v < nveh I)%nat /\ (pos <= length (nth v (routes st) []))%nat.
Proof.
  unfold regret_of. intros H. destruct (first_min (all_options I st cid)) as [[c0 vp]|] eqn:Efm; [|discriminate].
  inversion H; subst. apply first_min_In in Efm. exact (all_options_valid I st cid c0 v pos Efm).
Qed.

(* what is asked of the oracle `orders` of regret_plan, following its recursion: every pass that is run gets an
   enumeration of the current `unassigned` *)
Fixpoint orders_ok (I : inst) (k : nat) (orders : list (list nat)) (st : vstate) : bool :=
  match unassigned st with
  | [] => true
  | _ =>
      match orders with
      | [] => false
      | order :: more =>
          set_eqb order (unassigned st) &&
          match pick_regret I st k order None with
          | None => true
          | Some (_, (cid, (v, pos))) =>
              match place_one I cid v pos st with
              | Some st' => orders_ok I k more st'
              | None => true     (* excluded by regret_plan_total *)
              end
          end
      end
  end.

Lemma regret_plan_total I k orders : forall st,
  J I st -> orders_ok I k orders st = true ->
  exists evs st', regret_plan I k orders st = Some evs /\ ins_events I evs st = Some st'.
Proof.
  induction orders as [|order more IH]; intros st HJ Hok; cbn [regret_plan orders_ok] in *.
  - destruct (unassigned st); [exists [], st; split; reflexivity | discriminate].
  - destruct (unassigned st) as [|u0 us] eqn:Eu; [exists [], st; split; reflexivity|].
    apply andb_true_iff in Hok. destruct Hok as [Hs Hok]. rewrite Hs.
    destruct (pick_regret I st k order None) as [[r [cid [v pos]]]|] eqn:Ep; [|exists [], st; split; reflexivity].
    destruct (pick_regret_src I st k order r cid (v, pos) Ep) as [Hin Hr].
    destruct (regret_of_valid I st k cid r v pos Hr) as [Hv Hp].
    rewrite <- (j_shape_r I st HJ) in Hv.
    assert (Hcu : In cid (unassigned st)).
    { rewrite Eu. destruct (set_eqb_parts _ _ Hs) as [_ [Hsub _]]. exact (Hsub cid Hin). }
    destruct (place_one_ok I cid v pos st Hcu Hv Hp) as [st1 [E1 _]].
    rewrite E1 in *. destruct (place_one_J_ext I cid v pos st st1 HJ E1) as [HJ1 _].
    destruct (IH st1 HJ1 Hok) as [evs [st' [Hevs Hrun]]]. rewrite Hevs.
    exists ((cid, v, pos) :: evs), st'. split; [reflexivity|]. cbn [ins_events]. rewrite E1. exact Hrun.
Qed.

Theorem f_regret_total I k orders st :
  vrp_inv I st -> orders_ok I k orders st = true -> exists st', f_regret I k orders st = Some st'.
Proof.
  intros Hinv Hok. destruct (parts_of_inv I st Hinv) as [HJ _]. unfold f_regret.
  destruct (regret_plan_total I k orders st HJ Hok) as [evs [st' [Hevs Hrun]]]. rewrite Hevs.
  exists st'. exact Hrun.
Qed.

Lemma insert_by_perm {A} (le : A -> A -> bool) x l : Permutation (x :: l) (insert_by le x l).
Proof.
  induction l as [|y r IH]; simpl; [apply Permutation_refl|].
  destruct (le x y); [apply Permutation_refl|].
  apply perm_trans with (y :: x :: r); [apply perm_swap | apply perm_skip; exact IH].
Qed.

Lemma sort_by_perm {A} (le : A -> A -> bool) l : Permutation l (sort_by le l).
Proof.
  unfold sort_by. induction l as [|x r IH]; simpl; [apply perm_nil|].
  apply perm_trans with (x :: fold_right (insert_by le) [] r); [apply perm_skip; exact IH | apply insert_by_perm].
Qed.

Lemma In_sorted_keyed {K} (le : K * nat -> K * nat -> bool) (key : nat -> K) l x :
  In x (map snd (sort_by le (map (fun c => (key c, c)) l))) -> In x l.
Proof.
  intros H. apply in_map_iff in H. destruct H as [[d c] [E Hin]]. simpl in E. subst c.
  apply (Permutation_in _ (Permutation_sym (sort_by_perm le _))) in Hin.
  apply in_map_iff in Hin. destruct Hin as [c [E Hin]]. inversion E; subst. exact Hin.
Qed.

Lemma In_firstn {A} n (l : list A) x : In x (firstn n l) -> In x l.
Proof.
  revert n. induction l as [|y r IH]; intros n H; destruct n; simpl in *; try contradiction.
  destruct H as [H|H]; [left; exact H | right; exact (IH n H)].
Qed.

Lemma NoDup_firstn {A} n (l : list A) : NoDup l -> NoDup (firstn n l).
Proof.
  revert n. induction l as [|x r IH]; intros n H; destruct n; simpl; try constructor.
  - inversion H; subst. intros Hin. apply In_firstn in Hin. contradiction.
  - inversion H; subst. apply IH. assumption.
Qed.

Lemma vehicle_best_valid I st cid c v pos :
  In (c, (v, pos)) (vehicle_best I st cid) -> (v < nveh I)%nat /\ (pos <= length (nth v (routes st) []))%nat.
Proof.
  unfold vehicle_best. intros H. apply in_flat_map in H. destruct H as [v' [Hv Hin]]. apply in_seq in Hv.
  destruct (first_min (vehicle_options I st cid v')) as [[c' p']|] eqn:Efm; [|contradiction].
  destruct Hin as [E|[]]. inversion E; subst. apply first_min_In in Efm.
  split; [lia | exact (vehicle_options_pos I st cid v c pos Efm)].
Qed.

Lemma vehicle_best_vehicles I st cid :
  map (fun x => fst (snd x)) (vehicle_best I st cid) =
  filter (fun v => match first_min (vehicle_options I st cid v) with Some _ => true | None => false end)
         (seq 0 (nveh I)).
Proof.
  unfold vehicle_best. induction (seq 0 (nveh I)) as [|v l IH]; simpl; [reflexivity|].
  destruct (first_min (vehicle_options I st cid v)) as [[c pos]|]; simpl; rewrite IH; reflexivity.
Qed.

Lemma places_ok I st cid req :
  (req <= length (vehicle_best I st cid))%nat ->
  let places := map snd (firstn req (sort_by le_cost_v (vehicle_best I st cid))) in
  length places = req /\ NoDup (map fst places)
  /\ forall v p, In (v, p) places -> (v < nveh I)%nat /\ (p <= length (nth v (routes st) []))%nat.
Proof.
  intros Hreq places. unfold places.
  pose proof (sort_by_perm le_cost_v (vehicle_best I st cid)) as Hperm.
  split; [|split].
  - rewrite map_length, firstn_length. rewrite <- (Permutation_length Hperm). lia.
  - rewrite map_map. rewrite <- firstn_map. apply NoDup_firstn.
    apply (Permutation_NoDup (Permutation_map _ Hperm)). rewrite vehicle_best_vehicles. apply NoDup_filter, seq_NoDup.
  - intros v p Hin. apply in_map_iff in Hin. destruct Hin as [[c [v' p']] [E Hin]]. simpl in E. inversion E; subst.
    apply In_firstn in Hin. apply (Permutation_in _ (Permutation_sym Hperm)) in Hin.
    exact (vehicle_best_valid I st cid c v p Hin).
Qed.

Lemma place_multi_ok I cid places st :
  J I st -> In cid (unassigned st) -> (1 < c_req (cget I cid))%nat -> length places = c_req (cget I cid) ->
  NoDup (map fst places) ->
  (forall v p, In (v, p) places -> (v < nveh I)%nat /\ (p <= length (nth v (routes st) []))%nat) ->
  exists st', place_multi I cid places st = Some st' /\ unassigned st' = remove_u cid (unassigned st).
Proof.
  intros HJ Hu Hreq Hlen Hnd Hval. unfold place_multi, place_guard.
  apply memb_In in Hu. rewrite Hu. apply nodupb_NoDup in Hnd. rewrite Hnd.
  assert (Hne : (length places =? 0)%nat = false) by (apply Nat.eqb_neq; lia). rewrite Hne.
  assert (Hf : forallb (fun vp => (fst vp <? length (routes st))%nat
                                   && (snd vp <=? length (nth (fst vp) (routes st) []))%nat) places = true).
  { apply forallb_forall. intros [v p] Hin. simpl. destruct (Hval v p Hin) as [Hv Hp].
    rewrite (j_shape_r I st HJ). apply Nat.ltb_lt in Hv. apply Nat.leb_le in Hp. rewrite Hv, Hp. reflexivity. }
  rewrite Hf. apply Nat.ltb_lt in Hreq. rewrite Hreq. apply Nat.eqb_eq in Hlen. rewrite Hlen. simpl.
  eexists. split; reflexivity.
Qed.

Lemma multi_plan_total I order : forall st,
  J I st -> NoDup order -> (forall x, In x order -> In x (unassigned st) /\ (1 < c_req (cget I x))%nat) ->
  exists mevs st', multi_plan I order st = Some mevs /\ multi_events I mevs st = Some st'.
Proof.
  induction order as [|cid rest IH]; intros st HJ Hnd Hsub; cbn [multi_plan].
  - exists [], st. split; reflexivity.
  - inversion Hnd as [|y ys Hcid Hrest]; subst.
    destruct (Hsub cid (or_introl eq_refl)) as [Hcu Hreq].
    destruct (Nat.leb_spec (c_req (cget I cid)) (length (vehicle_best I st cid))) as [Hle|Hgt].
    + destruct (places_ok I st cid _ Hle) as [Hlen [Hpnd Hval]].
      destruct (place_multi_ok I cid _ st HJ Hcu Hreq Hlen Hpnd Hval) as [st1 [E Hun]].
      rewrite E. destruct (place_multi_J_ext I cid _ st st1 HJ E) as [HJ1 _].
      destruct (IH st1 HJ1 Hrest) as [mevs [st' [Hm Hrun]]].
      * intros x Hx. destruct (Hsub x (or_intror Hx)) as [Hxu Hxr]. split; [|exact Hxr].
        rewrite Hun. apply In_remove_u. split; [exact Hxu|]. intros ->. exact (Hcid Hx).
      * rewrite Hm. eexists. exists st'. split; [reflexivity|]. cbn [multi_events]. rewrite E. exact Hrun.
    + apply IH; [exact HJ | exact Hrest | intros x Hx; apply Hsub; right; exact Hx].
Qed.

Theorem f_sync_aware_total I order orders st :
  vrp_inv I st -> set_eqb order (unassigned st) = true ->
  exists mevs st1,
    multi_plan I (filter (fun c => (1 <? c_req (cget I c))%nat) order) st = Some mevs
    /\ multi_events I mevs st = Some st1
    /\ (orders_ok I 2 orders (mkSt (routes st1) (filter (fun c => (c_req (cget I c) =? 1)%nat) (unassigned st))
                                    (arrivals st1)) = true ->
        exists st', f_sync_aware I order orders st = Some st').
Proof.
  intros Hinv Hs. destruct (parts_of_inv I st Hinv) as [HJ _].
  destruct (set_eqb_parts _ _ Hs) as [_ [Hsub _]].
  assert (Hnd : NoDup order) by exact (set_eqb_NoDup _ _ Hs (j_un_nodup I st HJ)).
  destruct (multi_plan_total I (filter (fun c => (1 <? c_req (cget I c))%nat) order) st HJ) as [mevs [st1 [Hm E1]]].
  - apply NoDup_filter. exact Hnd.
  - intros x Hx. apply filter_In in Hx. destruct Hx as [Hx Hr]. apply Nat.ltb_lt in Hr. split; [exact (Hsub x Hx) | exact Hr].
  - exists mevs, st1. split; [exact Hm | split; [exact E1|]].
    intros Hok. unfold f_sync_aware. rewrite Hs, Hm, E1.
    destruct (regret_plan_total I 2 orders _ (sync_aware_mid_J I mevs st st1 HJ E1) Hok) as [evs [st2 [Hevs E2]]].
    rewrite Hevs. unfold apply_op, sync_aware_insertion. rewrite E1, E2. eexists. reflexivity.
Qed.

Lemma worst_candidates_assigned I st x : In x (worst_candidates I st) -> In x (assigned st).
Proof.
  unfold worst_candidates, assigned. intros H. apply in_map_iff in H. destruct H as [[s c] [E Hin]]. simpl in E. subst c.
  apply (Permutation_in _ (Permutation_sym (sort_by_perm ge_zn _))) in Hin.
  apply in_flat_map in Hin. destruct Hin as [route [Hr Hin]]. apply in_map_iff in Hin.
  destruct Hin as [i [E Hi]]. inversion E; subst. apply in_seq in Hi.
  apply in_concat. exists route. split; [exact Hr | apply nth_In; lia].
Qed.

Lemma In_remove_nth {A} (l : list A) : forall i x, In x (remove_nth i l) -> In x l.
Proof.
  induction l as [|y r IH]; intros i x H; destruct i; simpl in *; try contradiction.
  - right. exact H.
  - destruct H as [H|H]; [left; exact H | right; exact (IH i x H)].
Qed.

Lemma pop_all_sub idxs : forall cands rem, pop_all cands idxs = Some rem ->
  (forall x, In x rem -> In x cands) /\ length rem = length idxs.
Proof.
  induction idxs as [|i rest IH]; intros cands rem H; simpl in H.
  - inversion H; subst. split; [intros x [] | reflexivity].
  - destruct (Nat.ltb_spec i (length cands)) as [Hlt|Hge]; [|discriminate].
    destruct (pop_all (remove_nth i cands) rest) as [r1|] eqn:E; [|discriminate].
    inversion H; subst. destruct (IH _ r1 E) as [Hsub Hlen]. split.
    + intros x [Hx|Hx]; [subst; apply nth_In; exact Hlt | exact (In_remove_nth cands i x (Hsub x Hx))].
    + simpl. rewrite Hlen. reflexivity.
Qed.

Theorem f_worst_total I idxs st rem :
  idxs <> [] -> pop_all (worst_candidates I st) idxs = Some rem -> exists st', f_worst I idxs st = Some st'.
Proof.
  intros Hne Hp. unfold f_worst. rewrite Hp. destruct (pop_all_sub idxs _ rem Hp) as [Hsub Hlen].
  unfold apply_op. apply (removal_total I).
  - apply subsetb_spec. intros x Hx. apply (worst_candidates_assigned I). exact (Hsub x Hx).
  - intros E. subst rem. destruct idxs; [contradiction Hne; reflexivity | discriminate].
Qed.

Lemma take_distinct_sub nrem others : forall acc x,
  In x (take_distinct nrem others acc) -> In x acc \/ In x others.
Proof.
  induction others as [|c rest IH]; intros acc x H; simpl in H; [left; exact H|].
  destruct (nrem <=? length acc)%nat; [left; exact H|].
  destruct (IH _ x H) as [Hx|Hx]; [|right; right; exact Hx].
  destruct (memb c acc); [left; exact Hx|]. apply in_app_iff in Hx.
  destruct Hx as [Hx|[Hx|[]]]; [left; exact Hx | right; left; exact Hx].
Qed.

Lemma take_distinct_acc nrem others : forall acc x, In x acc -> In x (take_distinct nrem others acc).
Proof.
  induction others as [|c rest IH]; intros acc x H; simpl; [exact H|].
  destruct (nrem <=? length acc)%nat; [exact H|]. apply IH.
  destruct (memb c acc); [exact H | apply in_app_iff; left; exact H].
Qed.

Theorem f_related_total I nrem seed st :
  In seed (assigned st) -> exists st', f_related I nrem seed st = Some st'.
Proof.
  intros Hseed. unfold f_related. destruct (assigned st) as [|a rest] eqn:Ea; [contradiction|].
  unfold apply_op. apply (removal_total I).
  - apply subsetb_spec. intros x Hx. apply take_distinct_sub in Hx. destruct Hx as [[Hx|[]]|Hx].
    + subst x. rewrite Ea. exact Hseed.
    + apply In_sorted_keyed, filter_In in Hx. rewrite Ea. exact (proj1 Hx).
  - intros E. eapply in_nil. rewrite <- E. apply take_distinct_acc. left. reflexivity.
Qed.

Lemma nodup_length_le (l : list nat) : (length (nodup Nat.eq_dec l) <= length l)%nat.
Proof.
  apply NoDup_incl_length; [apply NoDup_nodup | intros x Hx; apply nodup_In in Hx; exact Hx].
Qed.

Theorem f_sync_removal_total I target sample st :
  match sync_customers I st with
  | [] => sample <> [] /\ (forall x, In x sample -> In x (assigned st)) \/ assigned st = []
  | sc => In target sc
  end -> exists st', f_sync_removal I target sample st = Some st'.
Proof.
  unfold f_sync_removal. destruct (sync_customers I st) as [|a rest] eqn:Es; intros H.
  - destruct H as [[Hne Hsub]|Hnil].
    + destruct sample as [|t nb]; [contradiction Hne; reflexivity|].
      unfold apply_op, sync_removal. rewrite Es. apply (removal_total I); [|discriminate].
      apply subsetb_spec. exact Hsub.
    + destruct sample as [|t nb]; unfold apply_op, sync_removal, removal_from_assigned; rewrite Es, Hnil;
        eexists; reflexivity.
  - unfold apply_op, sync_removal. rewrite Es. apply memb_In in H. rewrite H.
    set (nearby := firstn 3 _).
    assert (Hsub : subsetb (nodup Nat.eq_dec nearby) (assigned st) = true).
    { apply subsetb_spec. intros x Hx. apply nodup_In in Hx. unfold nearby in Hx.
      apply In_firstn, In_sorted_keyed, filter_In in Hx. exact (proj1 Hx). }
    rewrite Hsub.
    assert (Hlen : (length (nodup Nat.eq_dec nearby) <=? 3)%nat = true).
    { apply Nat.leb_le. pose proof (nodup_length_le nearby) as Hle. unfold nearby in *. rewrite firstn_length in Hle. lia. }
    rewrite Hlen. simpl. eexists. reflexivity.
Qed.
