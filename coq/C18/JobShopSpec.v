(* Specification of property C18 (job-shop part): what a valid, honestly scored schedule is, as a Prop and
   as a boolean checker proved sound (so that coqc can judge the IMPLEMENTATION's outputs with the same
   definition, independently of the model). *)
From Coq Require Import List ZArith Bool Arith Lia.
From SV Require Import C18.JobShop.
Import ListNotations.
Open Scope Z_scope.

(* two operations overlap when their OPEN intervals intersect (a zero-length operation overlaps nothing) *)
Definition overlap (s1 e1 s2 e2 : Z) : Prop := Z.max s1 s2 < Z.min e1 e2.

Record valid_schedule (jobs : list job) (s : sched) : Prop := {
  (* every operation exactly once *)
  vs_nodup : NoDup (map fst s);
  vs_complete : forall id, In id (map fst s) <-> In id (all_ops jobs);
  (* end - start = duration *)
  vs_dur : forall id st en, In (id, (st, en)) s ->
             exists m d, op_at jobs id = Some (m, d) /\ en - st = d;
  (* operations of a job in order, without overlap *)
  vs_job : forall j k k' s1 e1 s2 e2, In ((j, k), (s1, e1)) s -> In ((j, k'), (s2, e2)) s ->
             (k < k')%nat -> e1 <= s2;
  (* no two operations overlap on a machine *)
  vs_mach : forall id1 id2 s1 e1 s2 e2 m d1 d2, In (id1, (s1, e1)) s -> In (id2, (s2, e2)) s ->
             id1 <> id2 -> op_at jobs id1 = Some (m, d1) -> op_at jobs id2 = Some (m, d2) ->
             ~ overlap s1 e1 s2 e2
}.

(* objective = latest end time (0 for the empty schedule) *)
Definition is_makespan (s : sched) (obj : Z) : Prop :=
  (s = [] /\ obj = 0) \/
  ((exists id st, In (id, (st, obj)) s) /\ forall id st en, In (id, (st, en)) s -> en <= obj).

Definition status_sane (jobs : list job) (st : status) : Prop :=
  match st with Feasible => jobs <> [] | Optimal => jobs = [] end.

Definition js_spec (jobs : list job) (s : sched) (obj : Z) (st : status) : Prop :=
  valid_schedule jobs s /\ is_makespan s obj /\ status_sane jobs st.

Definition mem_opid (id : opid) (l : list opid) : bool := existsb (opid_eqb id) l.

Fixpoint nodupb (l : list opid) : bool :=
  match l with
  | [] => true
  | x :: r => negb (mem_opid x r) && nodupb r
  end.

Definition entry_ok (jobs : list job) (e : opid * (Z * Z)) : bool :=
  match op_at jobs (fst e) with
  | Some (_, d) => snd (snd e) - fst (snd e) =? d
  | None => false
  end.

Definition job_ok (e1 e2 : opid * (Z * Z)) : bool :=
  if ((fst (fst e1) =? fst (fst e2)) && (snd (fst e1) <? snd (fst e2)))%nat
  then snd (snd e1) <=? fst (snd e2) else true.

Definition mach_ok (jobs : list job) (e1 e2 : opid * (Z * Z)) : bool :=
  if opid_eqb (fst e1) (fst e2) then true
  else match op_at jobs (fst e1), op_at jobs (fst e2) with
       | Some (m1, _), Some (m2, _) =>
           if m1 =? m2
           then negb (Z.max (fst (snd e1)) (fst (snd e2)) <? Z.min (snd (snd e1)) (snd (snd e2)))
           else true
       | _, _ => true
       end.

Definition all_pairs {A} (f : A -> A -> bool) (l : list A) : bool :=
  forallb (fun a => forallb (f a) l) l.

Definition valid_check (jobs : list job) (s : sched) : bool :=
  let keys := map fst s in
  nodupb keys
  && forallb (fun id => mem_opid id keys) (all_ops jobs)
  && forallb (fun id => mem_opid id (all_ops jobs)) keys
  && forallb (entry_ok jobs) s
  && all_pairs job_ok s
  && all_pairs (mach_ok jobs) s.

Definition makespan_check (s : sched) (obj : Z) : bool :=
  match s with
  | [] => obj =? 0
  | _ => existsb (fun e => snd (snd e) =? obj) s && forallb (fun e => snd (snd e) <=? obj) s
  end.

Definition status_check (jobs : list job) (st : status) : bool :=
  match st, jobs with
  | Feasible, _ :: _ => true
  | Optimal, [] => true
  | _, _ => false
  end.

Definition spec_check (jobs : list job) (o : iobs) : bool :=
  match o with
  | IOk s obj st => valid_check jobs s && makespan_check s obj && status_check jobs st
  | _ => false
  end.

Lemma opid_eqb_eq : forall a b, opid_eqb a b = true <-> a = b.
Proof.
  intros [a1 a2] [b1 b2]. unfold opid_eqb. cbn [fst snd].
  rewrite andb_true_iff, !Nat.eqb_eq. split.
  - intros [H1 H2]. subst. reflexivity.
  - intros H. inversion H. split; reflexivity.
Qed.

Lemma mem_opid_In : forall id l, mem_opid id l = true <-> In id l.
Proof.
  intros id l. unfold mem_opid. rewrite existsb_exists. split.
  - intros [x [Hin Heq]]. apply opid_eqb_eq in Heq. subst. exact Hin.
  - intros Hin. exists id. split; [exact Hin | apply opid_eqb_eq; reflexivity].
Qed.

Lemma nodupb_NoDup : forall l, nodupb l = true -> NoDup l.
Proof.
  induction l as [|x r IH]; intros H.
  - constructor.
  - cbn [nodupb] in H. apply andb_true_iff in H. destruct H as [H1 H2].
    constructor.
    + intros Hin. apply mem_opid_In in Hin. rewrite Hin in H1. discriminate.
    + apply IH. exact H2.
Qed.

Lemma all_pairs_spec : forall {A} (f : A -> A -> bool) l,
  all_pairs f l = true -> forall a b, In a l -> In b l -> f a b = true.
Proof.
  intros A f l H a b Ha Hb. unfold all_pairs in H.
  rewrite forallb_forall in H. specialize (H a Ha). rewrite forallb_forall in H. exact (H b Hb).
Qed.

Lemma valid_check_sound : forall jobs s, valid_check jobs s = true -> valid_schedule jobs s.
Proof.
  intros jobs s H. unfold valid_check in H.
  apply andb_true_iff in H. destruct H as [H Hmach]. apply andb_true_iff in H. destruct H as [H Hjob].
  apply andb_true_iff in H. destruct H as [H Hent]. apply andb_true_iff in H. destruct H as [H Hc2].
  apply andb_true_iff in H. destruct H as [Hnd Hc1].
  rewrite forallb_forall in Hc1, Hc2, Hent.
  constructor.
  - apply nodupb_NoDup. exact Hnd.
  - intros id. split.
    + intros Hin. apply mem_opid_In. apply Hc2. exact Hin.
    + intros Hin. apply mem_opid_In. apply Hc1. exact Hin.
  - intros id st en Hin. specialize (Hent _ Hin). unfold entry_ok in Hent. cbn [fst snd] in Hent.
    destruct (op_at jobs id) as [[m d]|]; [|discriminate].
    exists m, d. split; [reflexivity|]. apply Z.eqb_eq. exact Hent.
  - intros j k k' s1 e1 s2 e2 H1 H2 Hlt.
    pose proof (all_pairs_spec _ _ Hjob _ _ H1 H2) as Hp. unfold job_ok in Hp. cbn [fst snd] in Hp.
    rewrite Nat.eqb_refl in Hp. apply Nat.ltb_lt in Hlt. rewrite Hlt in Hp. cbn [andb] in Hp.
    apply Z.leb_le. exact Hp.
  - intros id1 id2 s1 e1 s2 e2 m d1 d2 H1 H2 Hne Ho1 Ho2.
    pose proof (all_pairs_spec _ _ Hmach _ _ H1 H2) as Hp. unfold mach_ok in Hp. cbn [fst snd] in Hp.
    destruct (opid_eqb id1 id2) eqn:E.
    + apply opid_eqb_eq in E. contradiction.
    + rewrite Ho1, Ho2, Z.eqb_refl in Hp. unfold overlap.
      apply negb_true_iff in Hp. apply Z.ltb_ge in Hp. lia.
Qed.

Lemma makespan_check_sound : forall s obj, makespan_check s obj = true -> is_makespan s obj.
Proof.
  intros s obj H. unfold makespan_check in H. destruct s as [|e0 r].
  - left. split; [reflexivity | apply Z.eqb_eq; exact H].
  - right. apply andb_true_iff in H. destruct H as [H1 H2]. split.
    + apply existsb_exists in H1. destruct H1 as [[id [st en]] [Hin Heq]]. cbn [fst snd] in Heq.
      apply Z.eqb_eq in Heq. subst. exists id, st. exact Hin.
    + intros id st en Hin. rewrite forallb_forall in H2. specialize (H2 _ Hin). cbn [fst snd] in H2.
      apply Z.leb_le. exact H2.
Qed.

Lemma status_check_sound : forall jobs st, status_check jobs st = true -> status_sane jobs st.
Proof.
  intros jobs st H. unfold status_check in H. destruct st, jobs; try discriminate; cbn; congruence.
Qed.

Lemma spec_check_sound : forall jobs s obj st,
  spec_check jobs (IOk s obj st) = true -> js_spec jobs s obj st.
Proof.
  intros jobs s obj st H. cbn [spec_check] in H.
  apply andb_true_iff in H. destruct H as [H H3]. apply andb_true_iff in H. destruct H as [H1 H2].
  split; [apply valid_check_sound; exact H1|].
  split; [apply makespan_check_sound; exact H2 | apply status_check_sound; exact H3].
Qed.
