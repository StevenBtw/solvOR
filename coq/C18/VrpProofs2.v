(* Invariant I is established by from_problem and preserved by each of the eight exported operators for every
   choice (oracle), hence by every operator sequence, by the ALNS loop and by solve_vrptw (remove_set itself: VrpProofs.v).
   At the end: the guards of the removal operators are satisfiable. *)
From Coq Require Import List ZArith Bool Arith Lia.
From SV Require Import C18.Vrp C18.VrpSpec C18.VrpProofs.
Import ListNotations.

(* the depot is an ordinary single-vehicle location (solve_vrptw builds it as Customer(0, x, y)) *)
Definition inst_ok (I : inst) : bool := (c_req (cget I 0) <=? 1)%nat.

Lemma init_inv I : vrp_inv I (init_state I).
Proof.
  apply inv_of_parts.
  - constructor; unfold init_state; simpl.
    + apply repeat_length.
    + apply repeat_length.
    + apply seq_NoDup.
    + intros c Hc. apply valid_id_all_ids. exact Hc.
    + intros v c Hc. rewrite nth_repeat in Hc. contradiction.
    + intros c v _ Hc. rewrite nth_repeat in Hc. contradiction.
    + intros v. rewrite nth_repeat. constructor.
    + intros c v1 v2 _ Hc. rewrite nth_repeat in Hc. contradiction.
  - intros c Hv. left. apply valid_id_all_ids in Hv. exact Hv.
  - unfold arrivals_ok, init_state; simpl.
    induction (nveh I) as [|n IH]; simpl; [reflexivity | f_equal; exact IH].
Qed.

Lemma assigned_valid I st : vrp_inv I st -> forall x, In x (assigned st) -> valid_id I x = true.
Proof.
  intros Hinv x Hx. apply in_concat in Hx. destruct Hx as [r [Hr Hxr]]. exact (inv_rt_valid I st Hinv r x Hr Hxr).
Qed.

Lemma removal_from_assigned_inv I S st st' :
  vrp_inv I st -> removal_from_assigned I S st = Some st' -> vrp_inv I st'.
Proof.
  intros Hinv H. unfold removal_from_assigned in H. destruct (assigned st) as [|a rest] eqn:Ea.
  - inversion H; subst. exact Hinv.
  - destruct (subsetb S (a :: rest) && negb (length S =? 0)%nat) eqn:G; [|discriminate].
    inversion H; subst; clear H. apply andb_true_iff in G. destruct G as [G _].
    apply remove_set_inv; [exact Hinv|].
    intros x Hx. apply (assigned_valid I st Hinv). rewrite Ea. exact (proj1 (subsetb_spec _ _) G x Hx).
Qed.

Lemma route_removal_inv I vs st st' :
  vrp_inv I st -> route_removal I vs st = Some st' -> vrp_inv I st'.
Proof.
  intros Hinv H. unfold route_removal in H. destruct (non_empty_routes st) as [|a rest].
  - inversion H; subst. exact Hinv.
  - destruct (subsetb vs (a :: rest) && nodupb vs && negb (length vs =? 0)%nat); [|discriminate].
    inversion H; subst; clear H. apply remove_set_inv; [exact Hinv|].
    intros x Hx. apply in_concat in Hx. destruct Hx as [r [Hr Hxr]].
    apply in_map_iff in Hr. destruct Hr as [v [Hv _]]. subst r.
    exact (inv_rt_valid I st Hinv _ x (nth_In_or_nil _ _ _ Hxr) Hxr).
Qed.

Lemma sync_removal_inv I t nb st st' :
  inst_ok I = true -> vrp_inv I st -> sync_removal I t nb st = Some st' -> vrp_inv I st'.
Proof.
  intros Hok Hinv H. unfold sync_removal in H. destruct (sync_customers I st) as [|a rest] eqn:Es.
  - exact (removal_from_assigned_inv I _ st st' Hinv H).
  - destruct (memb t (a :: rest) && subsetb nb (assigned st) && (length nb <=? 3)%nat) eqn:G; [|discriminate].
    inversion H; subst; clear H.
    apply andb_true_iff in G. destruct G as [G _]. apply andb_true_iff in G. destruct G as [Gt Gn].
    apply remove_set_inv; [exact Hinv|].
    intros x [Hx|Hx].
    + (* the target needs several vehicles, so it is not the depot *)
      subst x. apply memb_In in Gt. rewrite <- Es in Gt. unfold sync_customers in Gt.
      apply filter_In in Gt. destruct Gt as [Hseq Hreq]. apply andb_true_iff in Hreq. destruct Hreq as [Hreq _].
      apply Nat.ltb_lt in Hreq. apply in_seq in Hseq.
      unfold valid_id. apply andb_true_iff. split; [apply Nat.leb_le | apply Nat.ltb_lt; lia].
      destruct t as [|t']; [|lia]. unfold inst_ok in Hok. apply Nat.leb_le in Hok. lia.
    + apply (assigned_valid I st Hinv). exact (proj1 (subsetb_spec _ _) Gn x Hx).
Qed.

Lemma ins_events_inv I evs st st' :
  vrp_inv I st -> ins_events I evs st = Some st' -> vrp_inv I st'.
Proof.
  intros Hinv H. destruct (parts_of_inv I st Hinv) as [HJ [Hc Ha]].
  destruct (ins_events_J_ext I evs st st' HJ H) as [HJ' [He Ha']].
  apply inv_of_parts; [exact HJ' | exact (covered_ext I st st' Hc He) | exact (Ha' Ha)].
Qed.

(* the state regret_insertion is called on inside sync_aware_insertion *)
Lemma sync_aware_mid_J I mevs st st1 :
  J I st -> multi_events I mevs st = Some st1 ->
  J I (mkSt (routes st1) (filter (fun c => (c_req (cget I c) =? 1)%nat) (unassigned st)) (arrivals st1)).
Proof.
  intros HJ E1. destruct (multi_events_J_ext I mevs st st1 HJ E1) as [HJ1 [_ Hk1]].
  apply (J_shrink I st1).
  - exact HJ1.
  - apply (j_shape_r I st1 HJ1).
  - apply (j_shape_a I st1 HJ1).
  - intros v. split; [apply (j_no_repeat I st1 HJ1) | auto].
  - apply NoDup_filter. apply (j_un_nodup I st HJ).
  - (* single-vehicle customers are not touched by the multi-vehicle placements *)
    intros c Hc. apply filter_In in Hc. destruct Hc as [Hc Hr]. apply Nat.eqb_eq in Hr.
    assert (Hc1 : In c (unassigned st1)) by (apply Hk1; [exact Hc | lia]).
    split; [exact (j_un_valid I st1 HJ1 c Hc1) | intros v; exact (j_never_both I st1 HJ1 c v Hc1)].
Qed.

Lemma sync_aware_insertion_inv I mevs evs st st' :
  vrp_inv I st -> sync_aware_insertion I mevs evs st = Some st' -> vrp_inv I st'.
Proof.
  intros Hinv H. destruct (parts_of_inv I st Hinv) as [HJ [Hc _]].
  unfold sync_aware_insertion in H.
  set (single := filter (fun c => (c_req (cget I c) =? 1)%nat) (unassigned st)) in *.
  destruct (multi_events I mevs st) as [st1|] eqn:E1; [|discriminate].
  destruct (multi_events_J_ext I mevs st st1 HJ E1) as [HJ1 [He1 _]].
  pose proof (sync_aware_mid_J I mevs st st1 HJ E1) as HJs1. fold single in HJs1.
  set (s1 := mkSt (routes st1) single (arrivals st1)) in *.
  destruct (ins_events I evs s1) as [st2|] eqn:E2; [|discriminate].
  inversion H; subst; clear H.
  assert (Hc1 : covered I st1) by exact (covered_ext I st st1 Hc He1).
  destruct (ins_events_J_ext I evs s1 st2 HJs1 E2) as [HJ2 [He2 _]].
  set (unplaced := filter (fun c => negb (memb c single)) (unassigned st1)) in *.
  assert (Hunpl : forall x, In x unplaced <-> In x (unassigned st1) /\ ~ In x single).
  { intros x. unfold unplaced. rewrite filter_In, negb_true_iff, memb_false. reflexivity. }
  apply inv_of_parts; [| |reflexivity].
  - unfold refresh; simpl. apply (J_shrink I st2).
    + exact HJ2.
    + apply (j_shape_r I st2 HJ2).
    + rewrite map_length. apply (j_shape_r I st2 HJ2).
    + intros v. split; [apply (j_no_repeat I st2 HJ2) | auto].
    + apply NoDup_union_u. apply (j_un_nodup I st2 HJ2).
    + intros c Hcu. apply In_union_u in Hcu. destruct Hcu as [Hcu|Hcu].
      * split; [exact (j_un_valid I st2 HJ2 c Hcu) | intros v; exact (j_never_both I st2 HJ2 c v Hcu)].
      * (* an unplaced customer was on no route before the single insertions, and those only place customers of `single` *)
        apply Hunpl in Hcu. destruct Hcu as [Hu1 Hns]. split; [exact (j_un_valid I st1 HJ1 c Hu1)|].
        intros v Hcr. destruct (e_new s1 st2 He2 c v Hcr) as [Hold|[Hs _]].
        -- exact (j_never_both I st1 HJ1 c v Hu1 Hold).
        -- exact (Hns Hs).
  - intros c Hv. unfold refresh; simpl. destruct (Hc1 c Hv) as [Hu1|[v Hon]].
    + destruct (in_dec Nat.eq_dec c single) as [Hs|Hns]; [|left; apply In_union_u; right; apply Hunpl; auto].
      destruct (in_dec Nat.eq_dec c (unassigned st2)) as [Hu2|Hn2]; [left; apply In_union_u; left; exact Hu2|].
      right. exact (e_placed s1 st2 He2 c Hs Hn2).
    + right. exists v. exact (e_mono s1 st2 He2 c v Hon).
Qed.

Theorem apply_op_inv I o st st' :
  inst_ok I = true -> vrp_inv I st -> apply_op I o st = Some st' -> vrp_inv I st'.
Proof.
  intros Hok Hinv H. destruct o as [S|S|S|vs|t nb|evs|evs|mevs evs]; simpl in H.
  - exact (removal_from_assigned_inv I S st st' Hinv H).
  - exact (removal_from_assigned_inv I S st st' Hinv H).
  - exact (removal_from_assigned_inv I S st st' Hinv H).
  - exact (route_removal_inv I vs st st' Hinv H).
  - exact (sync_removal_inv I t nb st st' Hok Hinv H).
  - exact (ins_events_inv I evs st st' Hinv H).
  - exact (ins_events_inv I evs st st' Hinv H).
  - exact (sync_aware_insertion_inv I mevs evs st st' Hinv H).
Qed.

Theorem run_ops_inv I ops : forall st st',
  inst_ok I = true -> vrp_inv I st -> run_ops I ops st = Some st' -> vrp_inv I st'.
Proof.
  induction ops as [|o rest IH]; intros st st' Hok Hinv H; simpl in H.
  - inversion H; subst. exact Hinv.
  - destruct (apply_op I o st) as [s1|] eqn:E; [|discriminate].
    exact (IH s1 st' Hok (apply_op_inv I o st s1 Hok Hinv E) H).
Qed.

Definition alns_inv (W : weights) (I : inst) (a : alns_st) : Prop :=
  vrp_inv I (a_cur a) /\ vrp_inv I (a_best a) /\ a_best_obj a = objective W I (a_best a)
  /\ a_cur_obj a = objective W I (a_cur a).

Lemma alns_loop_inv W I its : forall a a',
  inst_ok I = true -> alns_inv W I a -> alns_loop W I its a = Some a' -> alns_inv W I a'.
Proof.
  induction its as [|[[d r] acc] rest IH]; intros a a' Hok Ha H; simpl in H.
  - inversion H; subst. exact Ha.
  - destruct (apply_op I d (a_cur a)) as [partial|] eqn:Ed; [|discriminate].
    destruct (apply_op I r partial) as [cand|] eqn:Er; [|discriminate].
    pose proof Ha as [Hcur [Hbest [Hbo _]]].
    pose proof (apply_op_inv I r _ cand Hok (apply_op_inv I d _ _ Hok Hcur Ed) Er) as Hcand.
    assert (Hnew : alns_inv W I (mkA cand (objective W I cand) cand (objective W I cand)))
      by (unfold alns_inv; auto).
    assert (Hacc : alns_inv W I (mkA cand (objective W I cand) (a_best a) (a_best_obj a)))
      by (unfold alns_inv; auto).
    destruct (_ <? _)%Z; [exact (IH _ _ Hok Hnew H)|].
    destruct (_ <? _)%Z; [exact (IH _ _ Hok Hacc H)|].
    destruct acc; [exact (IH _ _ Hok Hacc H) | exact (IH _ _ Hok Ha H)].
Qed.

Theorem solve_inv W I evs0 its st obj :
  inst_ok I = true -> solve W I evs0 its = Some (st, obj) ->
  vrp_inv I st /\ obj = objective W I st.
Proof.
  intros Hok H. unfold solve in H.
  destruct (ins_events I evs0 (init_state I)) as [s0|] eqn:E0; [|discriminate].
  assert (H0 : vrp_inv I s0) by exact (ins_events_inv I evs0 _ s0 (init_inv I) E0).
  destruct (alns_loop W I its _) as [a|] eqn:Ea; [|discriminate].
  inversion H; subst; clear H.
  assert (Hi : alns_inv W I (mkA s0 (objective W I s0) s0 (objective W I s0))).
  { unfold alns_inv. auto. }
  destruct (alns_loop_inv W I its _ a Hok Hi Ea) as [_ [Hb [Hbo _]]].
  split; [exact Hb | exact Hbo].
Qed.

Lemma removal_total I S st :
  subsetb S (assigned st) = true -> S <> [] -> exists st', removal_from_assigned I S st = Some st'.
Proof.
  intros Hs Hne. unfold removal_from_assigned. destruct (assigned st) as [|a rest] eqn:Ea.
  - eexists. reflexivity.
  - rewrite Hs. destruct S; [contradiction Hne; reflexivity|]. simpl. eexists. reflexivity.
Qed.

Lemma ins_events_nil I st : ins_events I [] st = Some st.
Proof. reflexivity. Qed.
